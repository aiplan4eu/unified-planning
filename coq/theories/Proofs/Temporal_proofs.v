(* C05: the composed theorem — the model of TimeTriggeredPlanValidator._validate returns VALID exactly for the plans
   valid under the reference temporal semantics. *)
From Coq Require Import List ZArith NArith QArith Qcanon Bool Lia Lqa Permutation.
Import ListNotations.
Require Import UPV.Core.Expr UPV.Core.Eval UPV.Core.Interp UPV.Planning.Problem UPV.Planning.Sem.
Require Import UPV.Planning.Temporal UPV.Planning.TTValidate.
Require Import UPV.Proofs.Eval_lemmas UPV.Proofs.Sem_proofs UPV.Proofs.Step_proofs.
Require Import UPV.Proofs.Temporal_base UPV.Proofs.Temporal_dense UPV.Proofs.Temporal_joint
               UPV.Proofs.Temporal_run.
Local Open Scope Qc_scope.

Lemma eval_EReal sc q I : eval sc (EReal q) I = Some (VNum q).
Proof. reflexivity. Qed.

(* fourth core lemma: the duration constraint built by the validator (And(GT/GE(duration, lower), LT/LE(duration, upper)))
   holds in a state exactly when the duration lies in the possibly open interval whose bounds are evaluated there *)
Theorem duration_check sc TP s bind d dur :
  holds_in sc TP s bind (dur_expr d dur) = dur_ok sc TP s bind d dur.
Proof.
  unfold holds_in, holds, dur_ok, dur_expr. rewrite eval_EAnd. cbn [ebools].
  set (I := mk_interp (tp_base TP) s bind).
  destruct (d_lopen d), (d_ropen d); rewrite ?eval_ELt, ?eval_ELe, !eval_EReal; cbn [as_num];
    destruct (eval sc (d_lo d) I) as [[b|l|o]|]; cbn [as_num as_bool]; try reflexivity;
    destruct (eval sc (d_hi d) I) as [[b|h|o]|]; cbn [as_num as_bool forallb]; try reflexivity;
    rewrite andb_true_r; match goal with |- (if ?b then true else false) = _ => destruct b; reflexivity end.
Qed.

Lemma indexed_from_In {A} (l : list A) : forall i j x, In (j, x) (indexed_from i l) -> In x l.
Proof.
  induction l as [|a l IH]; intros i j x H; [destruct H|]. cbn in H.
  destruct H as [H|H]; [inversion H; left; reflexivity | right; apply (IH (S i) j x H)].
Qed.
Lemma In_indexed_from {A} (l : list A) : forall i x, In x l -> exists j, In (j, x) (indexed_from i l).
Proof.
  induction l as [|a l IH]; intros i x H; [destruct H|]. cbn.
  destruct H as [<-|H]; [exists i; left; reflexivity|]. destruct (IH (S i) x H) as [j Hj]. exists j. right. exact Hj.
Qed.

Lemma asc_from_of_asc p l : asc l -> (forall x, In x l -> p < x) -> asc_from p l.
Proof. destruct l as [|a l]; [auto|]. intros A H. split; [apply H; left; reflexivity | exact A]. Qed.

Lemma run_times_keys step E : forall ts s tr, run_times step E s ts = Some tr -> map fst tr = ts.
Proof.
  induction ts as [|t ts IH]; intros s tr H; cbn in H; [inversion H; reflexivity|].
  destruct (step s (events_at t E)) as [s'|]; [|discriminate].
  destruct (run_times step E s' ts) as [tr'|] eqn:ER; [|discriminate]. inversion H; subst. cbn. f_equal. apply (IH s' tr' ER).
Qed.

Lemma state_at_trace_eq a b : trace_eq a b -> forall s s' u, state_eq s s' -> state_eq (state_at s a u) (state_at s' b u).
Proof.
  induction 1 as [|[x sx] [y sy] a b [H1 H2] _ IH]; intros s s' u SE; [exact SE|].
  cbn in H1, H2. subst y. cbn [state_at]. destruct (qc_ltb x u); [apply IH, H2 | exact SE].
Qed.

Lemma final_state_trace_eq a b : trace_eq a b -> forall s s', state_eq s s' -> state_eq (final_state s a) (final_state s' b).
Proof.
  induction 1 as [|[x sx] [y sy] a b [H1 H2] _ IH]; intros s s' SE; [exact SE|]. cbn. apply IH, H2.
Qed.

Section Final.
  Variable sc : bool.
  Variable TP : tproblem.
  Let P := tp_base TP.

  Definition plan_typed_t (pi : tplan) : Prop := forall e, In e (all_events TP pi) -> event_typed sc P e.

  Lemma holds_in_ext s t bind c : state_eq s t -> holds_in sc TP s bind c = holds_in sc TP t bind c.
  Proof. intros H. unfold holds_in. apply holds_ext, mk_interp_ext, H. Qed.

  Lemma cond_ok_trace_eq s0 a b c : trace_eq a b -> (cond_ok sc TP s0 a c <-> cond_ok sc TP s0 b c).
  Proof.
    intros TE. unfold cond_ok. split; intros H u Hu; specialize (H u Hu).
    - rewrite <- (holds_in_ext _ _ _ _ (state_at_trace_eq a b TE s0 s0 u (fun _ _ => eq_refl))). exact H.
    - rewrite (holds_in_ext _ _ _ _ (state_at_trace_eq a b TE s0 s0 u (fun _ _ => eq_refl))). exact H.
  Qed.

  Lemma dur_ok_ext s t bind d dur : state_eq s t -> dur_ok sc TP s bind d dur = dur_ok sc TP t bind d dur.
  Proof.
    intros H. unfold dur_ok. fold P.
    rewrite (eval_ext sc (d_lo d) _ _ (mk_interp_ext P s t bind H)), (eval_ext sc (d_hi d) _ _ (mk_interp_ext P s t bind H)).
    reflexivity.
  Qed.

  Definition full_heap (pi : tplan) : list event :=
    hpush_all (flat_map (evs_of TP) (starts_order pi)) (init_heap TP).

  Lemma full_heap_spec pi : sortedT (full_heap pi) /\ Permutation (full_heap pi) (all_events TP pi).
  Proof.
    unfold full_heap, init_heap. split.
    - apply hpush_all_sorted, hpush_all_sorted. exact I.
    - eapply Permutation_trans; [apply hpush_all_perm|].
      eapply Permutation_trans; [apply Permutation_app_comm|]. unfold all_events.
      apply Permutation_app.
      + eapply Permutation_trans; [apply hpush_all_perm|]. rewrite app_nil_r. apply Permutation_refl.
      + unfold plan_events. apply Permutation_flat_map. apply (proj2 (starts_order_spec pi)).
  Qed.

  Lemma starts_ok_order pi : plan_times_ok TP pi = true -> starts_ok TP (starts_order pi).
  Proof.
    intros H. unfold plan_times_ok in H. apply andb_true_iff in H. destruct H as [_ H]. rewrite forallb_forall in H.
    intros ist e Hi He. apply (Permutation_in _ (proj2 (starts_order_spec pi))) in Hi.
    specialize (H ist Hi). unfold step_times_ok in H. apply andb_true_iff in H. destruct H as [_ H].
    rewrite forallb_forall in H. apply qc_leb_le. apply H. exact He.
  Qed.

  Lemma events_nonneg pi e : plan_times_ok TP pi = true -> In e (all_events TP pi) -> zq 0 <= ev_time e.
  Proof.
    intros H He. unfold plan_times_ok in H. apply andb_true_iff in H. destruct H as [H1 H2].
    rewrite forallb_forall in H1, H2. unfold all_events in He. apply in_app_iff in He. destruct He as [He|He].
    - apply qc_leb_le. apply (H1 e He).
    - unfold plan_events in He. apply in_flat_map in He. destruct He as [ist [Hi He]].
      specialize (H2 ist Hi). unfold step_times_ok in H2. apply andb_true_iff in H2. destruct H2 as [N H2].
      rewrite forallb_forall in H2. specialize (H2 e He). unfold nonneg in N. qb. qco.
  Qed.

  Lemma times_asc_from pi : plan_times_ok TP pi = true -> asc_from minus1 (times_of (all_events TP pi)).
  Proof.
    intros H. destruct (times_of_spec (all_events TP pi)) as [T1 T2]. apply asc_from_of_asc; [exact T1|].
    intros x Hx. apply T2 in Hx. apply in_map_iff in Hx. destruct Hx as [e [<- He]].
    pose proof (events_nonneg pi e H He). pose proof minus1_lt0. qco.
  Qed.

  Theorem tt_main_run (s0 : state) (pi : tplan) :
    plan_times_ok TP pi = true -> plan_typed_t pi ->
    match tt_main sc TP (starts_order pi) (init_heap TP) (s0, [(minus1, s0)]) with
    | DOk _ (last, trm) =>
        exists new trr, trm = (minus1, s0) :: new /\
          run_times (ref_apply sc P) (all_events TP pi) s0 (times_of (all_events TP pi)) = Some trr /\
          trace_eq new trr /\ state_eq last (final_state s0 trr) /\ asc_from minus1 (keys new)
    | DFail => run_times (ref_apply sc P) (all_events TP pi) s0 (times_of (all_events TP pi)) = None
    | DFuel => False
    end.
  Proof.
    intros OK TY. destruct (full_heap_spec pi) as [SH PH].
    rewrite (tt_main_groups sc TP (starts_order pi) (init_heap TP) (s0, [(minus1, s0)])).
    - fold (full_heap pi). rewrite (groups_as_map _ SH), (groups_times _ _ SH PH).
      pose proof (run_compare sc TP (full_heap pi) (all_events TP pi) PH TY (times_of (all_events TP pi)) minus1
                              (s0, [(minus1, s0)]) s0 (times_asc_from pi OK)) as RC.
      cbn [fst snd] in RC.
      assert (K : forall y, In y (keys [(minus1, s0)]) -> y <= minus1) by (intros y [<-|[]]; apply Qcle_refl).
      specialize (RC K (fun _ _ => eq_refl)).
      destruct (run_groups sc TP _ (s0, [(minus1, s0)])) as [[last trm]|]; cbn [dres_of].
      + destruct RC as [new [trr [E1 [E2 [E3 [E4 E5]]]]]]. exists new, trr. repeat split; auto.
        unfold keys. rewrite E5. apply times_asc_from, OK.
      + exact RC.
    - unfold init_heap. apply hpush_all_sorted. exact I.
    - apply (proj1 (starts_order_spec pi)).
    - apply starts_ok_order, OK.
  Qed.

  Lemma step_start_nonneg pi st : plan_times_ok TP pi = true -> In st pi -> zq 0 <= ps_start st.
  Proof.
    intros H Hs. unfold plan_times_ok in H. apply andb_true_iff in H. destruct H as [_ H]. rewrite forallb_forall in H.
    destruct (In_indexed_from pi 0 st Hs) as [j Hj]. specialize (H (j, st) Hj). unfold step_times_ok in H.
    apply andb_true_iff in H. destruct H as [N _]. unfold nonneg in N. apply qc_leb_le, N.
  Qed.

  (* the conditions contributed by one plan step: model (final check over the trace) versus reference *)
  Lemma step_checks (s0 : state) (new trr : trace) (st : pstep) :
    asc_from minus1 (keys new) -> trace_eq new trr -> zq 0 <= ps_start st ->
    (forall c, In c (step_conds TP st) -> iv_nonempty (tc_iv c) = true /\ zq 0 <= ai_lo (tc_iv c)) ->
    ((forall c, In c (step_dur_cond TP st ++ step_conds TP st) -> check_cond sc TP ((minus1, s0) :: new) c = true) <->
     (step_dur_ok sc TP s0 trr st = true /\ forall c, In c (step_conds TP st) -> cond_ok sc TP s0 trr c)).
  Proof.
    intros A TE N IV.
    assert (C : forall c, In c (step_conds TP st) ->
                          (check_cond sc TP ((minus1, s0) :: new) c = true <-> cond_ok sc TP s0 trr c)).
    { intros c Hc. destruct (IV c Hc) as [I1 I2].
      rewrite (check_cond_spec sc TP s0 new c A I2 I1). apply cond_ok_trace_eq, TE. }
    assert (D : (forall c, In c (step_dur_cond TP st) -> check_cond sc TP ((minus1, s0) :: new) c = true) <->
                step_dur_ok sc TP s0 trr st = true).
    { unfold step_dur_cond, step_dur_ok.
      destruct (lookup_tact TP (ps_act st)) as [[a|d]|]; try (split; [reflexivity | intros _ c []]).
      destruct (ps_dur st) as [dur|]; try (split; [reflexivity | intros _ c []]).
      rewrite <- (dur_ok_ext _ _ _ _ _ (state_at_trace_eq new trr TE s0 s0 (ps_start st) (fun _ _ => eq_refl))).
      rewrite <- duration_check. rewrite <- (conditions_before_effects sc TP s0 new (ps_start st) _ _ A N).
      split; [intros H; apply H; left; reflexivity | intros H c [<-|[]]; exact H]. }
    split.
    - intros H. split; [apply D; intros c Hc; apply H, in_or_app; left; exact Hc|].
      intros c Hc. apply (C c Hc). apply H, in_or_app. right. exact Hc.
    - intros [H1 H2] c Hc. apply in_app_iff in Hc. destruct Hc as [Hc|Hc]; [apply (proj2 D H1 c Hc)|].
      apply (C c Hc), H2, Hc.
  Qed.

  (* the validator's final check over its trace against the conditions of the reference semantics *)
  Lemma final_check_ref (s0 : state) (pi : tplan) (new trr : trace) :
    plan_times_ok TP pi = true ->
    (forall c, In c (all_conds TP pi) -> iv_nonempty (tc_iv c) = true /\ zq 0 <= ai_lo (tc_iv c)) ->
    asc_from minus1 (keys new) -> trace_eq new trr ->
    (forallb (check_cond sc TP ((minus1, s0) :: new)) (tt_conds TP pi) = true <->
     (forall st, In st pi -> step_dur_ok sc TP s0 trr st = true) /\ (forall c, In c (all_conds TP pi) -> cond_ok sc TP s0 trr c)).
  Proof.
    intros OK IVc A TE.
    assert (G : forall c, In c (global_conds TP) ->
                          (check_cond sc TP ((minus1, s0) :: new) c = true <-> cond_ok sc TP s0 trr c)).
    { intros c Hc. destruct (IVc c) as [I1 I2]; [unfold all_conds; apply in_or_app; left; exact Hc|].
      rewrite (check_cond_spec sc TP s0 new c A I2 I1). apply cond_ok_trace_eq, TE. }
    assert (ST : forall st, In st pi ->
      ((forall c, In c (step_dur_cond TP st ++ step_conds TP st) -> check_cond sc TP ((minus1, s0) :: new) c = true) <->
       (step_dur_ok sc TP s0 trr st = true /\ forall c, In c (step_conds TP st) -> cond_ok sc TP s0 trr c))).
    { intros st Hs. apply step_checks; [exact A | exact TE | apply (step_start_nonneg pi st OK Hs)|].
      intros c Hc. apply IVc. unfold all_conds. apply in_or_app. right. apply in_flat_map. exists st. split; assumption. }
    rewrite forallb_forall. unfold tt_conds, all_conds. split.
    - intros FC.
      assert (STall : forall st, In st pi -> step_dur_ok sc TP s0 trr st = true /\
                                              forall c, In c (step_conds TP st) -> cond_ok sc TP s0 trr c).
      { intros st Hs. apply (ST st Hs). intros c Hc. apply FC. apply in_or_app. right.
        destruct (In_indexed_from pi 0 st Hs) as [j Hj].
        apply in_flat_map. exists (j, st). split; [|exact Hc].
        apply (Permutation_in _ (Permutation_sym (proj2 (starts_order_spec pi)))). exact Hj. }
      split; [intros st Hs; apply (STall st Hs)|].
      intros c Hc. apply in_app_iff in Hc. destruct Hc as [Hc|Hc].
      + apply (G c Hc). apply FC. apply in_or_app. left. exact Hc.
      + apply in_flat_map in Hc. destruct Hc as [st [Hs Hc]]. apply (proj2 (STall st Hs) c Hc).
    - intros [DU CO] c Hc. apply in_app_iff in Hc. destruct Hc as [Hc|Hc].
      + apply (G c Hc). apply CO. apply in_or_app. left. exact Hc.
      + apply in_flat_map in Hc. destruct Hc as [[j st] [Hj Hc]]. cbn [snd] in Hc.
        apply (Permutation_in _ (proj2 (starts_order_spec pi))) in Hj.
        assert (Hs : In st pi) by (apply (indexed_from_In pi 0 j st Hj)).
        apply (proj2 (ST st Hs)); [|exact Hc]. split; [apply DU, Hs|].
        intros c' Hc'. apply CO. apply in_or_app. right. apply in_flat_map. exists st. split; assumption.
  Qed.

  Theorem tt_validate_correct (s0 : state) (pi : tplan) :
    supported_plan TP pi = true -> plan_typed_t pi ->
    (tt_validate sc TP s0 pi = VALID <-> tt_valid sc TP s0 pi).
  Proof.
    intros SUP TY. unfold supported_plan in SUP. apply andb_true_iff in SUP. destruct SUP as [OK IV].
    unfold tt_validate, tt_valid. fold P.
    destruct (plan_wf TP pi) eqn:WF; cbn [negb]; [|split; [discriminate | intros [H _]; discriminate]].
    pose proof (tt_main_run s0 pi OK TY) as MR.
    destruct (tt_main sc TP (starts_order pi) (init_heap TP) (s0, [(minus1, s0)])) as [| |h [last trm]].
    - split; [discriminate|]. intros [_ [tr [R _]]]. congruence.
    - contradiction.
    - destruct MR as [new [trr [E1 [E2 [TE [LE A]]]]]]. subst trm.
      unfold intervals_ok in IV. rewrite forallb_forall in IV.
      assert (IVc : forall c, In c (all_conds TP pi) -> iv_nonempty (tc_iv c) = true /\ zq 0 <= ai_lo (tc_iv c)).
      { intros c Hc. specialize (IV c Hc). apply andb_true_iff in IV. destruct IV as [I1 I2]. split; [exact I1 | apply qc_leb_le, I2]. }
      pose proof (final_check_ref s0 pi new trr OK IVc A TE) as FC.
      rewrite (goals_hold_ext sc P last (final_state s0 trr) LE). split.
      + intros V. destruct (forallb (check_cond sc TP ((minus1, s0) :: new)) (tt_conds TP pi)); [|discriminate].
        destruct (goals_hold sc P (final_state s0 trr)) eqn:GH; [|discriminate].
        destruct (proj1 FC eq_refl) as [DU CO]. split; [reflexivity|]. exists trr. auto.
      + intros [_ [tr [R [DU [CO GO]]]]]. rewrite E2 in R. inversion R; subst tr.
        rewrite GO, (proj2 FC (conj DU CO)). reflexivity.
  Qed.

  (* the model never runs out of fuel on a supported plan *)
  Theorem tt_validate_total (s0 : state) (pi : tplan) :
    plan_times_ok TP pi = true -> plan_typed_t pi -> tt_validate sc TP s0 pi <> OUT_OF_FUEL.
  Proof.
    intros OK TY. unfold tt_validate. destruct (negb (plan_wf TP pi)); [discriminate|].
    pose proof (tt_main_run s0 pi OK TY) as MR.
    destruct (tt_main sc TP (starts_order pi) (init_heap TP) (s0, [(minus1, s0)])) as [| |h [last trm]]; try discriminate; [contradiction|].
    destruct (_ && _); discriminate.
  Qed.

  Theorem tt_valid_b_spec (s0 : state) (pi : tplan) :
    plan_times_ok TP pi = true -> (tt_valid_b sc TP s0 pi = true <-> tt_valid sc TP s0 pi).
  Proof.
    intros OK. unfold tt_valid_b, tt_valid. fold P.
    destruct (plan_wf TP pi); cbn [andb]; [|split; [discriminate | intros [H _]; discriminate]].
    destruct (run_times (ref_apply sc P) (all_events TP pi) s0 (times_of (all_events TP pi))) as [tr|] eqn:R.
    - assert (A : asc_from minus1 (keys tr)).
      { unfold keys. rewrite (run_times_keys _ _ _ _ _ R). apply times_asc_from, OK. }
      rewrite !andb_true_iff, !forallb_forall. split.
      + intros [[H1 H2] H3]. split; [reflexivity|]. exists tr. split; [reflexivity|]. split; [exact H1|]. split; [|exact H3].
        intros c Hc. apply (cond_okb_spec sc TP s0 tr c A), H2, Hc.
      + intros [_ [tr' [E [H1 [H2 H3]]]]]. inversion E; subst tr'. split; [split; [exact H1|] | exact H3].
        intros c Hc. apply (cond_okb_spec sc TP s0 tr c A), H2, Hc.
    - split; [discriminate|]. intros [_ [tr' [E _]]]. discriminate.
  Qed.
End Final.

(* Proofs about the typed-store model (C23). *)
From Coq Require Import List ZArith NArith QArith Bool Lia.
Import ListNotations.
Require Import UPV.Model.TypedStore UPV.Proofs.ListFacts.

Lemma optZ_eqb_eq a b : optZ_eqb a b = true -> a = b.
Proof. destruct a, b; simpl; try discriminate; [rewrite Z.eqb_eq; congruence | reflexivity]. Qed.

Lemma optQ_eqb_trans a b c : optQ_eqb a b = true -> optQ_eqb b c = true -> optQ_eqb a c = true.
Proof.
  destruct a, b, c; simpl; try discriminate; try reflexivity.
  intros H1 H2. apply Qeq_bool_iff in H1, H2. apply Qeq_bool_iff. exact (Qeq_trans _ _ _ H1 H2).
Qed.

Lemma optQ_eqb_refl a : optQ_eqb a a = true.
Proof. destruct a; simpl; [apply Qeq_bool_iff|]; reflexivity. Qed.

(* Qle_bool respects Qeq *)
Lemma le_opt_compat a a' b b' : optQ_eqb a a' = true -> optQ_eqb b b' = true -> le_opt a b = le_opt a' b'.
Proof.
  destruct a, a', b, b'; simpl; try discriminate; try reflexivity; rewrite ?Qeq_bool_iff; intros H1 H2;
    rewrite ?H1, ?H2; reflexivity.
Qed.

Lemma ty_eqb_trans a b c : ty_eqb a b = true -> ty_eqb b c = true -> ty_eqb a c = true.
Proof.
  destruct a, b; simpl; try discriminate; destruct c; simpl; try discriminate; try reflexivity.
  - rewrite !andb_true_iff. intros [A1 A2] [B1 B2].
    apply optZ_eqb_eq in A1, A2, B1, B2. subst. split; [destruct lo1 | destruct hi1]; simpl; auto using Z.eqb_refl.
  - rewrite !andb_true_iff. intros [A1 A2] [B1 B2]. split; eapply optQ_eqb_trans; eauto.
  - rewrite !N.eqb_eq. congruence.
Qed.

(* two equal (interned) target types accept the same values: needed for the per-type default, which is looked up
   under the fluent's type *)
Lemma compatible_eqb_l h a b c : ty_eqb a b = true -> compatible h b c = true -> compatible h a c = true.
Proof.
  intros E H. unfold compatible in *.
  destruct (ty_eqb a c) eqn:AC; [reflexivity|].
  destruct (ty_eqb b c) eqn:BC; [rewrite (ty_eqb_trans a b c E BC) in AC; discriminate|].
  destruct a, b; simpl in E; try discriminate.
  - apply andb_true_iff in E. destruct E as [E1 E2]. apply optZ_eqb_eq in E1, E2. subst. exact H.
  - apply andb_true_iff in E. destruct E as [E1 E2].
    destruct c; try exact H; unfold overlap in *;
      rewrite (le_opt_compat _ _ _ _ E1 (optQ_eqb_refl _)), (le_opt_compat _ _ _ _ (optQ_eqb_refl _) E2); exact H.
  - apply N.eqb_eq in E. subst. exact H.
Qed.

Lemma find_type_default_In t ds v :
  find_type_default t ds = Some v -> exists k, In (k, v) ds /\ ty_eqb t k = true.
Proof.
  induction ds as [|[k w] ds IH]; simpl; [discriminate|].
  destruct (ty_eqb t k) eqn:E.
  - intros H. inversion H; subst. exists k. auto.
  - intros H. destruct (IH H) as (k' & Hk & Ek). exists k'. auto.
Qed.

Lemma upsert_In {A} k (x : A) d k' y : In (k', y) (upsert k x d) -> (k', y) = (k, x) \/ In (k', y) d.
Proof.
  induction d as [|[k0 y0] d IH]; simpl.
  - intros [H|[]]; auto.
  - destruct (k =? k0)%N; simpl; intros [H|H]; auto. destruct (IH H); auto.
Qed.

Theorem step_rejected_unchanged h s o : snd (step h s o) = true -> fst (step h s o) = s.
Proof.
  destruct o as [f t d | key t ac v | st k t v cb tk cf | ps]; simpl.
  - unfold add_fluent. destruct (has_fluent f s); [reflexivity|].
    destruct d as [v|]; [destruct (default_ok h t v)|]; simpl; (reflexivity || discriminate).
  - unfold set_initial_value.
    destruct (negb (promotable v)); [reflexivity|]. destruct (negb ac); [reflexivity|].
    destruct (negb (compatible h t (type_of v))); [reflexivity|]. destruct (negb (is_constant v)); [reflexivity|].
    simpl; discriminate.
  - unfold add_effect.
    destruct (negb tk); [reflexivity|]. destruct (negb (promotable v)); [reflexivity|].
    destruct (negb cb); [reflexivity|]. destruct (negb (compatible h t (type_of v))); [reflexivity|].
    destruct (match k with EAssign => false | _ => negb (is_numeric t) end); [reflexivity|].
    destruct cf; [reflexivity|]. simpl; discriminate.
  - unfold action_instance.
    destruct (negb (forallb (fun p => promotable (snd p)) ps)); [reflexivity|].
    destruct (negb (forallb (param_ok h) ps)); [reflexivity|]. simpl; discriminate.
Qed.

Lemma default_ok_stored h t v : default_ok h t v = true -> stored_const_ok h t v = true.
Proof.
  unfold default_ok, stored_const_ok. rewrite !andb_true_iff. tauto.
Qed.

Theorem mk_problem_well_typed h ds s : mk_problem h ds = Some s -> well_typed h s.
Proof.
  unfold mk_problem. destruct (forallb (fun p => default_ok h (fst p) (snd p)) ds) eqn:E; [|discriminate].
  intros H. inversion H; subst; clear H. rewrite forallb_forall in E.
  unfold well_typed; simpl. repeat split; try (intros; contradiction).
  intros t v Hin. apply default_ok_stored. exact (E (t, v) Hin).
Qed.

Theorem mk_problem_rejects h ds : mk_problem h ds = None <-> exists t v, In (t, v) ds /\ default_ok h t v = false.
Proof.
  unfold mk_problem. destruct (forallb (fun p => default_ok h (fst p) (snd p)) ds) eqn:E.
  - split; [discriminate|]. intros (t & v & Hin & Hb). rewrite forallb_forall in E. specialize (E (t, v) Hin).
    simpl in E. congruence.
  - split; [intros _|reflexivity].
    destruct (forallb_false_ex _ _ E) as ([t v] & Hin & Hb).
    exists t, v. auto.
Qed.

Theorem step_well_typed h s o : well_typed h s -> well_typed h (fst (step h s o)).
Proof.
  intros W. pose proof W as (W1 & W2 & W3 & W4 & W5).
  destruct o as [f t d | key t ac v | st k t v cb tk cf | ps]; simpl.
  - unfold add_fluent. destruct (has_fluent f s); [exact W|].
    assert (Hold : forall f0 t0 v0, In (f0, t0, v0) (fluent_defaults s) ->
                     In (f0, t0) (fluents s ++ [(f, t)]) /\ stored_const_ok h t0 v0 = true).
    { intros f0 t0 v0 H. destruct (W2 _ _ _ H) as [A B]. split; [apply in_app_iff; left; exact A | exact B]. }
    assert (Hnew : In (f, t) (fluents s ++ [(f, t)])) by (apply in_app_iff; right; left; reflexivity).
    destruct d as [v|].
    + destruct (default_ok h t v) eqn:D; [|exact W].
      split; [exact W1|]. split; [|split; [exact W3 | split; [exact W4 | exact W5]]]. simpl.
      intros f0 t0 v0 H. apply in_app_iff in H. destruct H as [H|[H|[]]]; [exact (Hold _ _ _ H)|].
      inversion H; subst. split; [exact Hnew | apply default_ok_stored; exact D].
    + split; [exact W1|]. split; [|split; [exact W3 | split; [exact W4 | exact W5]]]. simpl.
      intros f0 t0 v0 H. destruct (find_type_default t (type_defaults s)) as [v1|] eqn:F; [|exact (Hold _ _ _ H)].
      apply in_app_iff in H. destruct H as [H|[H|[]]]; [exact (Hold _ _ _ H)|].
      inversion H; subst. split; [exact Hnew|].
      apply find_type_default_In in F. destruct F as (k & Hk & Ek).
      specialize (W1 _ _ Hk). unfold stored_const_ok in *. apply andb_true_iff in W1. destruct W1 as [C1 C2].
      rewrite C2, andb_true_r. eapply compatible_eqb_l; eauto.
  - unfold set_initial_value.
    destruct (negb (promotable v)); [exact W|]. destruct (negb ac); [exact W|].
    destruct (negb (compatible h t (type_of v))) eqn:C; [exact W|].
    destruct (negb (is_constant v)) eqn:K; [exact W|].
    split; [exact W1|]. split; [exact W2|]. split; [|split; [exact W4 | exact W5]]. simpl.
    intros k9 t9 v9 Hin. apply upsert_In in Hin. destruct Hin as [Hin|Hin]; [|eauto].
    inversion Hin; subst. unfold stored_const_ok. apply negb_false_iff in C, K. rewrite C, K. reflexivity.
  - unfold add_effect.
    destruct (negb tk); [exact W|]. destruct (negb (promotable v)); [exact W|].
    destruct (negb cb); [exact W|]. destruct (negb (compatible h t (type_of v))) eqn:C; [exact W|].
    destruct (match k with EAssign => false | _ => negb (is_numeric t) end); [exact W|].
    destruct cf; [exact W|].
    split; [exact W1|]. split; [exact W2|]. split; [exact W3|]. split; [|exact W5]. simpl.
    intros st9 k9 t9 v9 Hin. apply in_app_iff in Hin. destruct Hin as [Hin|[Hin|[]]]; [eauto|].
    inversion Hin; subst. unfold stored_ok. apply negb_false_iff in C. exact C.
  - unfold action_instance.
    destruct (negb (forallb (fun p => promotable (snd p)) ps)); [exact W|].
    destruct (negb (forallb (param_ok h) ps)) eqn:Pk; [exact W|].
    split; [exact W1|]. split; [exact W2|]. split; [exact W3|]. split; [exact W4|]. simpl.
    intros ps9 t9 v9 Hin Hp. apply in_app_iff in Hin. destruct Hin as [Hin|[Hin|[]]]; [eauto|]. subst ps9.
    apply negb_false_iff in Pk. rewrite forallb_forall in Pk. exact (Pk (t9, v9) Hp).
Qed.

Theorem run_well_typed h ops : forall s, well_typed h s -> well_typed h (run h s ops).
Proof. induction ops as [|o ops IH]; intros s W; simpl; [exact W | apply IH, step_well_typed, W]. Qed.

Theorem store_invariant h ds s ops : mk_problem h ds = Some s -> well_typed h (run h s ops).
Proof. intros H. apply run_well_typed. eapply mk_problem_well_typed; eauto. Qed.

Theorem bad_default_rejected h s f t v :
  stored_const_ok h t v = false -> snd (add_fluent h s f t (Some v)) = true.
Proof.
  intros H. unfold add_fluent. destruct (has_fluent f s); [reflexivity|].
  destruct (default_ok h t v) eqn:D; [|reflexivity]. apply default_ok_stored in D. congruence.
Qed.

Theorem bad_initial_value_rejected h s key t ac v :
  stored_const_ok h t v = false -> snd (set_initial_value h s key t ac v) = true.
Proof.
  unfold stored_const_ok, set_initial_value. intros H.
  destruct (negb (promotable v)); [reflexivity|]. destruct (negb ac); [reflexivity|].
  destruct (compatible h t (type_of v)); simpl in *; [|reflexivity]. rewrite H. reflexivity.
Qed.

Theorem bad_effect_value_rejected h s st k t v cb tk cf :
  stored_ok h t v = false -> snd (add_effect h s st k t v cb tk cf) = true.
Proof.
  unfold stored_ok, add_effect. intros H.
  destruct (negb tk); [reflexivity|]. destruct (negb (promotable v)); [reflexivity|].
  destruct (negb cb); [reflexivity|]. rewrite H. reflexivity.
Qed.

Theorem bad_parameter_rejected h s ps t v :
  In (t, v) ps -> stored_const_ok h t v = false -> snd (action_instance h s ps) = true.
Proof.
  intros Hin H. unfold action_instance.
  destruct (negb (forallb (fun p => promotable (snd p)) ps)); [reflexivity|].
  destruct (forallb (param_ok h) ps) eqn:E; [|reflexivity].
  rewrite forallb_forall in E. specialize (E (t, v) Hin). unfold param_ok, stored_const_ok in *. simpl in E. congruence.
Qed.

(* an un-promotable argument is rejected by every entry point *)
Theorem unpromotable_rejected h s :
  (forall f t, snd (add_fluent h s f t (Some VBad)) = true) /\
  (forall key t ac, snd (set_initial_value h s key t ac VBad) = true) /\
  (forall st k t cb tk cf, snd (add_effect h s st k t VBad cb tk cf) = true) /\
  (forall ps t, In (t, VBad) ps -> snd (action_instance h s ps) = true).
Proof.
  split; [|split; [|split]]; intros.
  - unfold add_fluent. destruct (has_fluent f s); reflexivity.
  - reflexivity.
  - unfold add_effect. destruct (negb tk); reflexivity.
  - unfold action_instance. destruct (forallb (fun p => promotable (snd p)) ps) eqn:E; [|reflexivity].
    rewrite forallb_forall in E. specialize (E _ H). discriminate.
Qed.

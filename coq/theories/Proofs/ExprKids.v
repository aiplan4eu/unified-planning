(* The immediate sub-expressions of an expression.  Most walkers of the model are folds over them with a node-local
   part; a lemma about such a walker is proved by stating its fold equation once ([f e = ... (kids e)], by case
   analysis on the constructor) and then using [expr_kids_ind], which has a single case. *)
From Coq Require Import List.
Import ListNotations.
Require Import UPV.Core.Expr.

Definition kids (e : expr) : list expr :=
  match e with
  | EBool _ | EInt _ | EReal _ | EObj _ | EParam _ | EVar _ _ => []
  | EFluent _ l | EIFun _ l | EAnd l | EOr l | EPlus l | ETimes l => l
  | ENot a | EAlways a | ESometime a | EAtMostOnce a | EExists _ a | EForall _ a => [a]
  | EImplies a b | EIff a b | EMinus a b | EDiv a b | ELe a b | ELt a b | EEquals a b
  | ESometimeBefore a b | ESometimeAfter a b => [a; b]
  end.

Lemma expr_kids_ind (P : expr -> Prop) : (forall e, Forall P (kids e) -> P e) -> forall e, P e.
Proof. intros H. induction e using expr_ind'; apply H; cbn [kids]; auto. Qed.

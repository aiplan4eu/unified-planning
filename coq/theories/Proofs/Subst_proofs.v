(* C13 — proofs about Walkers/Subst.v: the code computes the specification ([subst_spec]), evaluation depends only on the
   free variables, the evaluation theorem, the up-front type check, and substitution of leaf keys as evaluation under
   the interpretation updated by the map. *)
From Coq Require Import List ZArith NArith QArith Qcanon Bool Lia.
Import ListNotations.
Require Import UPV.Core.Expr UPV.Core.Eval UPV.Core.Interp UPV.Proofs.Eval_lemmas UPV.Proofs.Sem_proofs UPV.Proofs.ExprView UPV.Proofs.EvalView UPV.Walkers.Subst.
Require UPV.Proofs.Simplify_sem.
Local Open Scope nat_scope.

Ltac nfsplit :=
  repeat match goal with
         | H : _ && _ = true |- _ => apply andb_true_iff in H; destruct H
         end.


Lemma expr_eqb_sym a b : expr_eqb a b = expr_eqb b a.
Proof.
  destruct (expr_eqb a b) eqn:E1; destruct (expr_eqb b a) eqn:E2; try reflexivity.
  - apply expr_eqb_eq in E1. subst. rewrite expr_eqb_refl in E2. discriminate.
  - apply expr_eqb_eq in E2. subst. rewrite expr_eqb_refl in E1. discriminate.
Qed.

Lemma assoc_nil e : assoc [] e = None.
Proof. reflexivity. Qed.

Lemma assoc_cons k v s e :
  assoc ((k, v) :: s) e = if expr_eqb e k then Some v else assoc s e.
Proof. unfold assoc. cbn [find fst]. destruct (expr_eqb e k); reflexivity. Qed.

Lemma lookup_assoc s e : lookup s e = assoc s e.
Proof.
  induction s as [|[k v] s IH]; [reflexivity|].
  rewrite assoc_cons. cbn [lookup]. rewrite (expr_eqb_sym e k).
  destruct (expr_eqb k e); [reflexivity | exact IH].
Qed.

Lemma assoc_In s e v : assoc s e = Some v -> In (e, v) s.
Proof.
  induction s as [|[k w] s IH]; [discriminate|].
  rewrite assoc_cons. destruct (expr_eqb e k) eqn:E.
  - intros H. inversion H; subst. apply expr_eqb_eq in E. subst. left; reflexivity.
  - intros H. right. apply IH. exact H.
Qed.

Lemma key_kept_disjoint vs k : key_kept vs k = disjointN (free_vars k) (map fst vs).
Proof. reflexivity. Qed.

Lemma key_kept_mentions vs k : key_kept vs k = negb (mentions_bound vs k).
Proof.
  unfold key_kept, mentions_bound.
  destruct (existsb (fun x => memN (fst x) (free_vars k)) vs) eqn:E; cbn [negb].
  - apply existsb_exists in E. destruct E as [[x t] [Hin Hm]]. cbn [fst] in Hm. apply memN_In in Hm.
    apply not_true_is_false. intros H. rewrite forallb_forall in H. specialize (H x Hm).
    apply negb_true_iff in H. apply memN_false in H. apply H. apply in_map_iff. exists (x, t). split; [reflexivity|exact Hin].
  - apply forallb_forall. intros m Hm. apply negb_true_iff. apply memN_false. intros Hin.
    apply in_map_iff in Hin. destruct Hin as [[x t] [Hx Hin]]. cbn [fst] in Hx. subst.
    assert (X : existsb (fun x => memN (fst x) (free_vars k)) vs = true).
    { apply existsb_exists. exists (m, t). split; [exact Hin | cbn [fst]; apply memN_In; exact Hm]. }
    congruence.
Qed.

Lemma filter_map_drop s vs : filter_map s vs = drop_bound s vs.
Proof. unfold filter_map, drop_bound. apply filter_ext. intros [k v]. apply key_kept_mentions. Qed.

Lemma drop_bound_incl s vs : incl (drop_bound s vs) s.
Proof. intros x Hx. apply filter_In in Hx. tauto. Qed.

Lemma drop_bound_keys s vs k v :
  In (k, v) (drop_bound s vs) -> In (k, v) s /\ disjointN (free_vars k) (map fst vs) = true.
Proof.
  intros H. apply filter_In in H. destruct H as [H1 H2]. split; [exact H1|].
  cbn [fst] in H2. rewrite <- key_kept_mentions in H2. exact H2.
Qed.

Lemma mkAnd_two l : two_plus l = true -> mkAnd l = EAnd l.
Proof. destruct l as [|x [|y l]]; try discriminate; reflexivity. Qed.
Lemma mkOr_two l : two_plus l = true -> mkOr l = EOr l.
Proof. destruct l as [|x [|y l]]; try discriminate; reflexivity. Qed.
Lemma mkPlus_two l : two_plus l = true -> mkPlus l = EPlus l.
Proof. destruct l as [|x [|y l]]; try discriminate; reflexivity. Qed.
Lemma mkTimes_two l : two_plus l = true -> mkTimes l = ETimes l.
Proof. destruct l as [|x [|y l]]; try discriminate; reflexivity. Qed.
Lemma two_plus_map {A B} (f : A -> B) l : two_plus (map f l) = two_plus l.
Proof. destruct l as [|x [|y l]]; reflexivity. Qed.
Lemma mkNot_plain e : is_not e = false -> mkNot e = ENot e.
Proof. destruct e; try reflexivity. discriminate. Qed.

Lemma map_Forall_eq {A B} (P : A -> bool) (f g : A -> B) l :
  Forall (fun x => P x = true -> f x = g x) l -> forallb P l = true -> map f l = map g l.
Proof.
  induction 1 as [|x l Hx _ IH]; [reflexivity|]. cbn [forallb map]. intros H. nfsplit.
  rewrite Hx by assumption. rewrite IH by assumption. reflexivity.
Qed.

Lemma map_Forall_id {A} (P : A -> bool) (f : A -> A) l :
  Forall (fun x => P x = true -> f x = x) l -> forallb P l = true -> map f l = l.
Proof. intros H1 H2. rewrite <- (map_id l) at 2. eapply map_Forall_eq; eassumption. Qed.

Lemma tr_nil e : nf e = true -> topdown_replace [] e = e.
Proof.
  induction e using expr_ind'; intros Hnf; cbn [topdown_replace]; rewrite assoc_nil; cbn [nf] in Hnf; nfsplit;
    try reflexivity;
    try (rewrite (map_Forall_id nf) by assumption);
    try (rewrite ?IHe, ?IHe1, ?IHe2 by assumption; reflexivity).
  - apply mkAnd_two; assumption.
  - apply mkOr_two; assumption.
  - rewrite IHe by assumption. apply mkNot_plain. apply negb_true_iff. assumption.
  - change (drop_bound [] vs) with (@nil (expr * expr)). rewrite IHe by assumption. reflexivity.
  - change (drop_bound [] vs) with (@nil (expr * expr)). rewrite IHe by assumption. reflexivity.
  - apply mkPlus_two; assumption.
  - apply mkTimes_two; assumption.
Qed.

Lemma walk_spec e : forall s, nf e = true -> walk s e = topdown_replace s e.
Proof.
  induction e using expr_ind'; intros s Hnf; cbn [walk topdown_replace]; unfold replace_or_identity;
    rewrite lookup_assoc; destruct (assoc s _); try reflexivity; cbn [nf] in Hnf; nfsplit;
    try (rewrite ?IHe, ?IHe1, ?IHe2 by assumption; reflexivity);
    try (match goal with
         | H : Forall _ ?l |- _ =>
             rewrite (map_Forall_eq nf (walk s) (topdown_replace s) l);
             [reflexivity | eapply Forall_impl; [|exact H]; intros a Ha; apply Ha | assumption]
         end).
  - (* Exists *)
    rewrite filter_map_drop. destruct (drop_bound s vs) as [|p l] eqn:E.
    + rewrite tr_nil by assumption. reflexivity.
    + rewrite IHe by assumption. reflexivity.
  - (* Forall *)
    rewrite filter_map_drop. destruct (drop_bound s vs) as [|p l] eqn:E.
    + rewrite tr_nil by assumption. reflexivity.
    + rewrite IHe by assumption. reflexivity.
Qed.

Theorem subst_spec s e : nf e = true -> substitute s e = topdown_replace s e.
Proof.
  intros Hnf. destruct s as [|p s].
  - cbn [substitute]. symmetry. apply tr_nil. exact Hnf.
  - cbn [substitute]. apply walk_spec. exact Hnf.
Qed.

(* the manager's constructors build nf expressions from nf parts, and substitution stays inside them *)
Lemma nf_mkNot e : nf e = true -> nf (mkNot e) = true.
Proof.
  intros H. destruct e; try (cbn [mkNot nf is_not negb andb]; exact H).
  cbn [mkNot]. cbn [nf] in H. nfsplit. assumption.
Qed.

Lemma nf_mk_list (mk : list expr -> expr) (C : list expr -> expr) (unit : expr) :
  (forall l, mk l = match l with [] => unit | [x] => x | _ => C l end) ->
  nf unit = true -> (forall l, nf (C l) = two_plus l && forallb nf l) ->
  forall l, forallb nf l = true -> nf (mk l) = true.
Proof.
  intros Hmk Hu HC l Hl. rewrite Hmk. destruct l as [|x [|y l]].
  - exact Hu.
  - cbn [forallb] in Hl. nfsplit. assumption.
  - rewrite HC. cbn [two_plus andb]. exact Hl.
Qed.

Lemma nf_mkAnd l : forallb nf l = true -> nf (mkAnd l) = true.
Proof. apply (nf_mk_list mkAnd EAnd (EBool true)); reflexivity || (intros; reflexivity). Qed.
Lemma nf_mkOr l : forallb nf l = true -> nf (mkOr l) = true.
Proof. apply (nf_mk_list mkOr EOr (EBool false)); reflexivity || (intros; reflexivity). Qed.
Lemma nf_mkPlus l : forallb nf l = true -> nf (mkPlus l) = true.
Proof. apply (nf_mk_list mkPlus EPlus (EInt 0%Z)); reflexivity || (intros; reflexivity). Qed.
Lemma nf_mkTimes l : forallb nf l = true -> nf (mkTimes l) = true.
Proof. apply (nf_mk_list mkTimes ETimes (EInt 1%Z)); reflexivity || (intros; reflexivity). Qed.

Lemma forallb_map_Forall {A} (P : A -> bool) (f : A -> A) l :
  Forall (fun x => P (f x) = true) l -> forallb P (map f l) = true.
Proof. induction 1 as [|x l Hx _ IH]; [reflexivity|]. cbn [map forallb]. rewrite Hx, IH. reflexivity. Qed.

Lemma nf_topdown_replace e : forall s,
  (forall k v, In (k, v) s -> nf v = true) -> nf e = true -> nf (topdown_replace s e) = true.
Proof.
  induction e using expr_ind'; intros s Hs Hnf; cbn [topdown_replace];
    destruct (assoc s _) as [w|] eqn:Ea; try (apply assoc_In in Ea; eapply Hs; exact Ea);
    cbn [nf] in Hnf; nfsplit; try reflexivity;
    try (cbn [nf]; rewrite ?IHe, ?IHe1, ?IHe2 by assumption; reflexivity);
    try (first [apply nf_mkAnd | apply nf_mkOr | apply nf_mkPlus | apply nf_mkTimes | cbn [nf]];
         apply forallb_map_Forall; rewrite Forall_forall in *; intros x Hx;
         match goal with H : forall x, In x _ -> _ |- _ => apply (H x Hx s Hs) end;
         match goal with H : forallb nf _ = true |- _ => rewrite forallb_forall in H; apply H; exact Hx end).
  - apply nf_mkNot. apply IHe; assumption.
  - cbn [nf]. apply IHe; [|assumption]. intros k v Hkv. apply drop_bound_incl in Hkv. eapply Hs; exact Hkv.
  - cbn [nf]. apply IHe; [|assumption]. intros k v Hkv. apply drop_bound_incl in Hkv. eapply Hs; exact Hkv.
Qed.


(* J and I differ at most in the values of variables *)
Definition same_static (I J : interp) : Prop :=
  fl J = fl I /\ par J = par I /\ ifun J = ifun I /\ objs J = objs I.

Lemma same_static_refl I : same_static I I.
Proof. repeat split. Qed.

Lemma same_static_trans I J K : same_static I J -> same_static J K -> same_static I K.
Proof. intros (a & b & c & d) (a' & b' & c' & d'). repeat split; congruence. Qed.

Lemma same_static_bind1 I v o : same_static I (bind_var I v o).
Proof. repeat split. Qed.

(* [same_static] is [Simplify_sem.same_base]; coincidence is proved there, for interpretations that agree extensionally *)
Lemma eval_coincide sc e : forall I J, same_static I J ->
  (forall x, In x (free_vars e) -> var J x = var I x) -> eval sc e J = eval sc e I.
Proof.
  intros I J Hs Hv. symmetry. apply Simplify_sem.eval_coincide. split; [exact (Simplify_sem.same_base_ieq I J Hs)|].
  intros w Hw. symmetry. apply Hv, Hw.
Qed.

(* J agrees with I except (possibly) on the variables in B *)
Definition same_but (B : list N) (I J : interp) : Prop :=
  same_static I J /\ forall x, memN x B = false -> var J x = var I x.

Lemma same_but_refl B I : same_but B I I.
Proof. split; [apply same_static_refl | reflexivity]. Qed.

Lemma memN_app x a b : memN x (a ++ b) = memN x a || memN x b.
Proof. unfold memN. apply existsb_app. Qed.

Lemma same_but_trans B B' I J K : same_but B I J -> same_but B' J K -> same_but (B' ++ B) I K.
Proof.
  intros [Hs Hv] [Hs' Hv']. split; [eapply same_static_trans; eassumption|].
  intros x Hx. rewrite memN_app in Hx. apply orb_false_iff in Hx. destruct Hx as [H1 H2].
  rewrite Hv' by exact H1. apply Hv. exact H2.
Qed.

Lemma instances_same_but vs : forall J K, In K (instances J vs) -> same_but (map fst vs) J K.
Proof.
  induction vs as [|[v ty] vs IH]; intros J K HK.
  - cbn [instances] in HK. destruct HK as [<-|[]]. apply same_but_refl.
  - cbn [instances] in HK. apply in_flat_map in HK. destruct HK as [o [_ HK]].
    apply IH in HK. destruct HK as [Hs Hv]. split.
    + eapply same_static_trans; [apply (same_static_bind1 J v o) | exact Hs].
    + intros x Hx. cbn [map fst] in Hx. cbn [memN existsb] in Hx. apply orb_false_iff in Hx. destruct Hx as [H1 H2].
      rewrite Hv by exact H2. cbn [bind_var var]. rewrite H1. reflexivity.
Qed.

Lemma disjointN_nil a : disjointN a [] = true.
Proof. unfold disjointN. apply forallb_forall. intros x _. reflexivity. Qed.

Lemma disjointN_app a b c : disjointN a (b ++ c) = disjointN a b && disjointN a c.
Proof.
  unfold disjointN. induction a as [|x a IH]; [reflexivity|]. cbn [forallb]. rewrite IH, memN_app.
  destruct (memN x b), (memN x c), (forallb (fun x0 => negb (memN x0 b)) a), (forallb (fun x0 => negb (memN x0 c)) a); reflexivity.
Qed.

Lemma eval_same_but sc B e I J :
  same_but B I J -> disjointN (free_vars e) B = true -> eval sc e J = eval sc e I.
Proof.
  intros [Hs Hv] Hd. apply eval_coincide; [exact Hs|]. intros x Hx. apply Hv.
  unfold disjointN in Hd. rewrite forallb_forall in Hd. apply negb_true_iff. apply Hd. exact Hx.
Qed.

Lemma Forall2_map_same {A B} (f : A -> B) (P : B -> A -> Prop) l :
  (forall x, In x l -> P (f x) x) -> Forall2 P (map f l) l.
Proof. induction l as [|a l IH]; intros H; constructor; [apply H; left; reflexivity|apply IH; intros; apply H; right; assumption]. Qed.

Lemma tr_key s e v : assoc s e = Some v -> topdown_replace s e = v.
Proof. intros H. destruct e; cbn [topdown_replace]; rewrite H; reflexivity. Qed.

Section ByShape.
  Variable s : smap.
  Lemma tr_leaf e : is_leaf e = true -> assoc s e = None -> topdown_replace s e = e.
  Proof. destruct e; try discriminate; intros _ H; cbn [topdown_replace]; rewrite H; reflexivity. Qed.
  Lemma tr_E1 o a : assoc s (E1 o a) = None -> topdown_replace s (E1 o a) = mk1 o (topdown_replace s a).
  Proof. destruct o; cbn [E1 topdown_replace]; intros ->; reflexivity. Qed.
  Lemma tr_E2 o a b : assoc s (E2 o a b) = None ->
    topdown_replace s (E2 o a b) = E2 o (topdown_replace s a) (topdown_replace s b).
  Proof. destruct o; cbn [E2 topdown_replace]; intros ->; reflexivity. Qed.
  Lemma tr_En o l : assoc s (En o l) = None -> topdown_replace s (En o l) = mkn o (map (topdown_replace s) l).
  Proof. destruct o; cbn [En topdown_replace]; intros ->; reflexivity. Qed.
  Lemma tr_EQ ex vs a : assoc s (EQ ex vs a) = None ->
    topdown_replace s (EQ ex vs a) = EQ ex vs (topdown_replace (drop_bound s vs) a).
  Proof. destruct ex; cbn [EQ topdown_replace]; intros ->; reflexivity. Qed.

  Variable B : list N.
  Lemma cfree_E1 o a : assoc s (E1 o a) = None -> cfree B s (E1 o a) = cfree B s a.
  Proof. destruct o; cbn [E1 cfree]; intros ->; reflexivity. Qed.
  Lemma cfree_E2 o a b : assoc s (E2 o a b) = None -> cfree B s (E2 o a b) = cfree B s a && cfree B s b.
  Proof. destruct o; cbn [E2 cfree]; intros ->; reflexivity. Qed.
  Lemma cfree_En o l : assoc s (En o l) = None -> cfree B s (En o l) = forallb (cfree B s) l.
  Proof. destruct o; cbn [En cfree]; intros ->; reflexivity. Qed.
  Lemma cfree_EQ ex vs a : assoc s (EQ ex vs a) = None ->
    cfree B s (EQ ex vs a) = cfree (map fst vs ++ B) (drop_bound s vs) a.
  Proof. destruct ex; cbn [EQ cfree]; intros ->; reflexivity. Qed.
End ByShape.

Lemma nf_E1 o a : nf (E1 o a) = match o with UNot => negb (is_not a) | _ => true end && nf a.
Proof. destruct o; reflexivity. Qed.
Lemma nf_E2 o a b : nf (E2 o a b) = nf a && nf b. Proof. destruct o; reflexivity. Qed.
Lemma nf_EQ ex vs a : nf (EQ ex vs a) = nf a. Proof. destruct ex; reflexivity. Qed.
Lemma nf_En_args o l : nf (En o l) = true -> forallb nf l = true.
Proof. destruct o; cbn [En nf]; try tauto; rewrite andb_true_iff; tauto. Qed.
(* on an nf list node the manager's constructor is the plain one, also after mapping over the arguments *)
Lemma mkn_nf o l (f : expr -> expr) : nf (En o l) = true -> mkn o (map f l) = En o (map f l).
Proof.
  destruct o; try reflexivity; cbn [En nf mkn]; rewrite andb_true_iff; intros [T _];
    [apply mkAnd_two|apply mkOr_two|apply mkPlus_two|apply mkTimes_two]; rewrite two_plus_map; exact T.
Qed.

Lemma cfree_key B s e v : assoc s e = Some v -> cfree B s e = disjointN (free_vars v) B.
Proof. intros H. destruct e; cbn [cfree]; rewrite H; reflexivity. Qed.

(* the only way a replaced, non-negation nf expression can come out headed by Not is that it IS a key mapped to a Not *)
Lemma tr_head_not s a y :
  is_not a = false -> nf a = true -> topdown_replace s a = ENot y -> assoc s a = Some (ENot y).
Proof.
  intros Hn Hnf. destruct a; cbn [topdown_replace]; destruct (assoc s _) as [w|] eqn:Ea;
    try (intros ->; reflexivity); cbn [nf] in Hnf; nfsplit; try discriminate.
  - rewrite mkAnd_two by (rewrite two_plus_map; assumption). discriminate.
  - rewrite mkOr_two by (rewrite two_plus_map; assumption). discriminate.
  - rewrite mkPlus_two by (rewrite two_plus_map; assumption). discriminate.
  - rewrite mkTimes_two by (rewrite two_plus_map; assumption). discriminate.
Qed.

Lemma double_not_eval sc y J :
  bool_or_undef (eval sc y J) ->
  eval sc y J = match as_bool (eval sc (ENot y) J) with Some b => Some (VBool (negb b)) | None => None end.
Proof.
  intros H. rewrite eval_ENot. destruct H as [H|[b H]]; rewrite H; cbn [as_bool].
  - reflexivity.
  - rewrite negb_involutive. reflexivity.
Qed.

Section EvalMain.
  Variable sc : bool.
  Variable s0 : smap.
  Variable I0 : interp.
  Hypothesis Hag : forall k v, In (k, v) s0 -> eval sc k I0 = eval sc v I0.
  Hypothesis Hnot : forall k y, In (k, ENot y) s0 -> bool_or_undef (eval sc y I0).

  Lemma key_case e v B s J :
    assoc s e = Some v -> incl s s0 -> same_but B I0 J ->
    (forall k w, In (k, w) s -> disjointN (free_vars k) B = true) ->
    disjointN (free_vars v) B = true -> eval sc v J = eval sc e J.
  Proof.
    intros Ha Hinc Hsb Hkeys Hd. apply assoc_In in Ha.
    rewrite (eval_same_but sc B v I0 J Hsb Hd).
    rewrite (eval_same_but sc B e I0 J Hsb (Hkeys _ _ Ha)).
    symmetry. apply Hag. apply Hinc. exact Ha.
  Qed.

  Lemma key_hit e w B s J :
    assoc s e = Some w -> incl s s0 -> same_but B I0 J ->
    (forall k v, In (k, v) s -> disjointN (free_vars k) B = true) -> cfree B s e = true ->
    eval sc (topdown_replace s e) J = eval sc e J.
  Proof.
    intros Ea Hinc Hsb Hkeys Hcf. rewrite (tr_key _ _ _ Ea). rewrite (cfree_key _ _ _ _ Ea) in Hcf.
    eapply key_case; eassumption.
  Qed.

  Lemma tr_eval : forall e B s J,
    nf e = true -> incl s s0 -> same_but B I0 J ->
    (forall k v, In (k, v) s -> disjointN (free_vars k) B = true) ->
    cfree B s e = true ->
    eval sc (topdown_replace s e) J = eval sc e J.
  Proof.
    induction e using expr_view_ind; intros B s J Hnf Hinc Hsb Hkeys Hcf;
      match goal with |- eval sc (topdown_replace s ?x) J = _ =>
        destruct (assoc s x) as [w|] eqn:Ea; [exact (key_hit _ _ _ _ _ Ea Hinc Hsb Hkeys Hcf)|] end.
    - rewrite (tr_leaf _ _ H Ea). reflexivity.
    - rewrite (tr_E1 _ _ _ Ea). rewrite (cfree_E1 _ _ _ _ Ea) in Hcf. rewrite nf_E1 in Hnf.
      apply andb_true_iff in Hnf. destruct Hnf as [Hnn Hnf].
      destruct o; try (cbn [mk1]; rewrite !eval_E1, (IHe B s J); auto; fail). cbn [mk1 E1] in *.
      (* Not: the manager collapses Not(Not y) *)
      apply negb_true_iff in Hnn.
      assert (IH : eval sc (topdown_replace s e) J = eval sc e J) by (apply (IHe B s J); assumption).
      rewrite (eval_ENot sc J e). rewrite <- IH.
      destruct (is_not (topdown_replace s e)) eqn:En.
      + destruct (topdown_replace s e) as [| | | | | | | | | |y| | | | | | | | | | | | | | | |] eqn:Et; try discriminate.
        cbn [mkNot].
        pose proof (tr_head_not s e y Hnn ltac:(assumption) Et) as Hk.
        apply double_not_eval.
        rewrite (cfree_key B s e (ENot y) Hk) in Hcf. cbn [free_vars] in Hcf.
        rewrite (eval_same_but sc B y I0 J Hsb Hcf).
        apply (Hnot e). apply Hinc. apply assoc_In. exact Hk.
      + rewrite mkNot_plain by exact En. rewrite eval_ENot. reflexivity.
    - rewrite (tr_E2 _ _ _ _ Ea). rewrite (cfree_E2 _ _ _ _ _ Ea) in Hcf. rewrite nf_E2 in Hnf.
      apply andb_true_iff in Hnf. apply andb_true_iff in Hcf. rewrite !eval_E2, (IHe1 B s J), (IHe2 B s J); tauto.
    - rewrite (tr_En _ _ _ Ea), (mkn_nf _ _ _ Hnf), !eval_En. rewrite (cfree_En _ _ _ _ Ea) in Hcf.
      apply nf_En_args in Hnf. apply semn_ext; [|reflexivity..].
      rewrite forallb_forall in Hnf, Hcf. rewrite Forall_forall in H.
      apply Forall2_map_same. intros x Hx. apply (H x Hx B s J); auto.
    - rewrite (tr_EQ _ _ _ _ Ea). rewrite (cfree_EQ _ _ _ _ _ Ea) in Hcf. rewrite nf_EQ in Hnf. rewrite !eval_EQ.
      rewrite (map_ext_in (fun K => as_bool (eval sc (topdown_replace (drop_bound s vs) e) K))
                          (fun K => as_bool (eval sc e K))); [reflexivity|].
      intros K HK. f_equal. apply (IHe (map fst vs ++ B) (drop_bound s vs) K); auto.
      + eapply incl_tran; [apply drop_bound_incl | exact Hinc].
      + apply (same_but_trans B (map fst vs) I0 J K); [exact Hsb | apply instances_same_but; exact HK].
      + intros k v Hkv. apply drop_bound_keys in Hkv. destruct Hkv as [H1 H2].
        rewrite disjointN_app, H2, (Hkeys k v H1). reflexivity.
  Qed.
End EvalMain.

Theorem subst_eval sc s e I :
  nf e = true -> capture_free s e = true ->
  (forall k v, In (k, v) s -> eval sc k I = eval sc v I) ->
  (forall k y, In (k, ENot y) s -> bool_or_undef (eval sc y I)) ->
  eval sc (substitute s e) I = eval sc e I.
Proof.
  intros Hnf Hcf Hag Hnot. rewrite subst_spec by exact Hnf.
  apply (tr_eval sc s I Hag Hnot e [] s I); auto.
  - apply incl_refl.
  - apply same_but_refl.
  - intros. apply disjointN_nil.
Qed.

Lemma first_bad_none t : first_bad t = None <-> forallb entry_ok t = true.
Proof.
  induction t as [|x t IH]; [split; reflexivity|]. cbn [first_bad forallb]. destruct (entry_ok x); cbn [andb].
  - rewrite <- IH. destruct (first_bad t); cbn [option_map]; split; intros; congruence.
  - split; discriminate.
Qed.

Lemma first_bad_some t : forall i, first_bad t = Some i ->
  (exists x, nth_error t i = Some x /\ entry_ok x = false) /\ forallb entry_ok (firstn i t) = true.
Proof.
  induction t as [|x t IH]; intros i H; [discriminate|]. cbn [first_bad] in H. destruct (entry_ok x) eqn:E.
  - destruct (first_bad t) as [j|]; [|discriminate]. cbn [option_map] in H. inversion H; subst.
    destruct (IH j eq_refl) as [[y [H1 H2]] H3]. split.
    + exists y. split; [exact H1 | exact H2].
    + cbn [firstn forallb]. rewrite E, H3. reflexivity.
  - inversion H; subst. split; [exists x; split; [reflexivity | exact E] | reflexivity].
Qed.

Theorem subst_rejects_first st t e :
  forallb entry_ok t = false ->
  exists i, first_bad t = Some i /\ substitute_call st t e = (st, TypeErr i).
Proof.
  intros H. destruct (first_bad t) as [i|] eqn:F.
  - exists i. split; [reflexivity|]. unfold substitute_call. destruct t; [discriminate|]. rewrite F. reflexivity.
  - apply first_bad_none in F. congruence.
Qed.

Theorem subst_accepts st t e :
  forallb entry_ok t = true ->
  substitute_call st t e = (match t with [] => st | _ => [] end, Done (substitute (untyped t) e)).
Proof.
  intros H. apply first_bad_none in H. unfold substitute_call. destruct t as [|x t]; [reflexivity|].
  rewrite H. destruct x as [[[k v] tk] tv]. reflexivity.
Qed.

(* the fresh sub-walker used for a quantifier body re-checks a sub-map of an already accepted map: it never raises *)
Lemma recheck_passes t t' : forallb entry_ok t = true -> incl t' t -> first_bad t' = None.
Proof.
  intros H Hinc. apply first_bad_none. apply forallb_forall. intros x Hx.
  rewrite forallb_forall in H. apply H. apply Hinc. exact Hx.
Qed.


Lemma evals_ground sc I args ws : ground_args args = Some ws -> evals sc I args = Some ws.
Proof.
  revert ws. induction args as [|a args IH]; intros ws H.
  - inversion H. reflexivity.
  - cbn [ground_args] in H. destruct a; try discriminate.
    destruct (ground_args args) as [us|]; [|discriminate]. inversion H; subst.
    cbn [evals]. rewrite (IH us eq_refl). reflexivity.
Qed.

Lemma unread_ground s args ws : ground_args args = Some ws -> forallb (unread s) args = true.
Proof.
  revert ws. induction args as [|a args IH]; intros ws H; [reflexivity|].
  cbn [ground_args] in H. destruct a; try discriminate.
  destruct (ground_args args) as [us|]; [|discriminate]. cbn [forallb unread]. rewrite (IH us eq_refl). reflexivity.
Qed.

(* J differs from I only in entries that are keys of s *)
Definition related (s : smap) (I J : interp) : Prop :=
  objs J = objs I /\ ifun J = ifun I /\
  (forall q, key_par s q = false -> par J q = par I q) /\
  (forall x, key_var s x = false -> var J x = var I x) /\
  (forall g ws, key_fl s g ws = false -> fl J g ws = fl I g ws).

Lemma related_refl s I : related s I I.
Proof. repeat split. Qed.

Lemma related_bind s I J v o : related s I J -> related s (bind_var I v o) (bind_var J v o).
Proof.
  intros (a & b & c & d & e). repeat split; try assumption.
  intros x Hx. cbn [bind_var var]. destruct (x =? v)%N; [reflexivity | apply d; exact Hx].
Qed.

Lemma inst_related s (F : interp -> option bool)
  (HF : forall I J, related s I J -> F J = F I) :
  forall vs I J, related s I J -> map F (instances J vs) = map F (instances I vs).
Proof.
  induction vs as [|[v ty] vs IH]; intros I J HR.
  - cbn [instances map]. f_equal. apply HF. exact HR.
  - cbn [instances]. pose proof HR as (a & _). rewrite a.
    induction (objs I ty) as [|o os IHo]; [reflexivity|].
    cbn [flat_map]. rewrite !map_app. f_equal; [|exact IHo].
    apply IH. apply related_bind. exact HR.
Qed.

Lemma key_fl_fsym s g ws : key_fsym s g = false -> key_fl s g ws = false.
Proof.
  unfold key_fsym, key_fl. induction s as [|[k v] s IH]; [reflexivity|]. cbn [existsb fst].
  intros H. apply orb_false_iff in H. destruct H as [H1 H2]. rewrite (IH H2), orb_false_r.
  destruct k; try reflexivity. destruct (ground_args args); [|reflexivity]. rewrite H1. reflexivity.
Qed.

Lemma unread_E1 s o a : unread s (E1 o a) = unread s a. Proof. destruct o; reflexivity. Qed.
Lemma unread_E2 s o a b : unread s (E2 o a b) = unread s a && unread s b. Proof. destruct o; reflexivity. Qed.
Lemma unread_EQ s ex vs a : unread s (EQ ex vs a) = unread s a. Proof. destruct ex; reflexivity. Qed.
Lemma unread_En_args s o l : unread s (En o l) = true -> forallb (unread s) l = true.
Proof. destruct o; cbn [En unread]; try tauto. rewrite andb_true_iff. tauto. Qed.

Lemma eval_unread sc s e : forall I J, related s I J -> unread s e = true -> eval sc e J = eval sc e I.
Proof.
  induction e using expr_view_ind; intros I J HR Hu; pose proof HR as (Hob & Hif & Hpar & Hvar & Hfl).
  - destruct e; try discriminate; try reflexivity; cbn [unread] in Hu; cbn [eval];
      [apply Hpar|apply Hvar]; apply negb_true_iff; exact Hu.
  - rewrite !eval_E1. rewrite unread_E1 in Hu. rewrite (IHe I J HR Hu). reflexivity.
  - rewrite !eval_E2. rewrite unread_E2 in Hu. apply andb_true_iff in Hu. destruct Hu as [Ha Hb].
    rewrite (IHe1 I J HR Ha), (IHe2 I J HR Hb). reflexivity.
  - assert (Hargs : Forall2 (fun x y => eval sc x J = eval sc y I) l l).
    { apply Simplify_sem.Forall2_diag. intros x Hx. rewrite Forall_forall in H. apply (H x Hx I J HR).
      pose proof (unread_En_args _ _ _ Hu) as Hl. rewrite forallb_forall in Hl. exact (Hl x Hx). }
    rewrite !eval_En.
    assert (Other : (forall f, o <> NFluent f) -> semn sc J o l = semn sc I o l).
    { intros Ho. apply semn_ext; [exact Hargs| |]; intros f vs ->; [elim (Ho f eq_refl)|rewrite Hif; reflexivity]. }
    destruct o; try (apply Other; discriminate). clear Other.
    (* a fluent: the key test looks at the ground arguments, or at the symbol when they are not ground *)
    cbn [semn]. rewrite (evals_ext2 _ _ _ _ _ _ Hargs).
    destruct (evals sc I l) as [ws|] eqn:Ev; [|reflexivity].
    cbn [En unread] in Hu. apply andb_true_iff in Hu. destruct Hu as [_ Hk].
    apply Hfl. destruct (ground_args l) as [us|] eqn:G.
    + rewrite (evals_ground sc I l us G) in Ev. inversion Ev; subst. apply negb_true_iff. exact Hk.
    + apply key_fl_fsym. apply negb_true_iff. exact Hk.
  - rewrite !eval_EQ. rewrite unread_EQ in Hu.
    rewrite (inst_related s (fun K => as_bool (eval sc e K))) with (I := I); [reflexivity | | exact HR].
    intros I' J' HR'. rewrite (IHe I' J' HR' Hu). reflexivity.
Qed.

(* an entry of s only changes what is a key of s *)
Lemma related_upd1 s I0 sc kv I J : In kv s -> related s I J -> related s I (upd1 I0 sc kv J).
Proof.
  intros Hin (a & b & c & d & e). destruct kv as [k v]. unfold upd1. cbn [fst snd].
  destruct k; try (repeat split; assumption).
  - (* EParam *)
    repeat split; try assumption. intros q Hq. cbn [par]. destruct (q =? p)%N eqn:E; [|apply c; exact Hq].
    apply N.eqb_eq in E. subst. exfalso.
    assert (X : key_par s p = true).
    { unfold key_par. apply existsb_exists. exists (EParam p, v). split; [exact Hin | cbn [fst]; apply N.eqb_refl]. }
    congruence.
  - (* EVar *)
    repeat split; try assumption. intros x Hx. cbn [var]. destruct (x =? v0)%N eqn:E; [|apply d; exact Hx].
    apply N.eqb_eq in E. subst. exfalso.
    assert (X : key_var s v0 = true).
    { unfold key_var. apply existsb_exists. exists (EVar v0 ty, v). split; [exact Hin | cbn [fst]; apply N.eqb_refl]. }
    congruence.
  - (* EFluent *)
    destruct (ground_args args) as [ws|] eqn:G; [|repeat split; assumption].
    repeat split; try assumption. intros g us Hg. cbn [fl].
    destruct ((g =? f)%N && values_eqb us ws) eqn:E; [|apply e; exact Hg].
    apply andb_true_iff in E. destruct E as [E1 E2]. apply N.eqb_eq in E1. subst. exfalso.
    assert (X : key_fl s f us = true).
    { unfold key_fl. apply existsb_exists. exists (EFluent f args, v). split; [exact Hin|].
      cbn [fst]. rewrite G, N.eqb_refl, E2. reflexivity. }
    congruence.
Qed.

Lemma related_fold s I0 sc I : forall s', incl s' s -> related s I (fold_right (upd1 I0 sc) I s').
Proof.
  induction s' as [|kv s' IH]; intros Hinc; [apply related_refl|].
  cbn [fold_right]. apply related_upd1.
  - apply Hinc. left; reflexivity.
  - apply IH. intros x Hx. apply Hinc. right; exact Hx.
Qed.

Lemma related_updated sc s I : related s I (updated sc s I).
Proof. unfold updated. apply related_fold. apply incl_refl. Qed.

(* what the update gives the key itself *)
Lemma upd1_self I0 sc k v J : leaf_key k = true -> eval sc k (upd1 I0 sc (k, v) J) = eval sc v I0.
Proof.
  intros Hl. unfold upd1. cbn [fst snd]. destruct k; try discriminate.
  - cbn [eval par]. rewrite N.eqb_refl. reflexivity.
  - cbn [eval var]. rewrite N.eqb_refl. reflexivity.
  - cbn [leaf_key] in Hl. destruct (ground_args args) as [ws|] eqn:G; [|discriminate].
    rewrite eval_EFluent. rewrite (evals_ground _ _ args ws G). cbn [fl]. rewrite N.eqb_refl, values_eqb_refl. reflexivity.
Qed.

(* an entry for a different leaf does not change what a leaf key evaluates to *)
Lemma upd1_other I0 sc k0 v0 s' k v J :
  key_same k0 s' = false -> In (k, v) s' -> leaf_key k = true ->
  eval sc k (upd1 I0 sc (k0, v0) J) = eval sc k J.
Proof.
  intros Hs Hin Hl. unfold upd1. cbn [fst snd].
  destruct k0; try reflexivity.
  - (* k0 = EParam p *)
    destruct k; try discriminate; try reflexivity.
    + cbn [eval par]. destruct (p0 =? p)%N eqn:E; [|reflexivity]. apply N.eqb_eq in E. subst. exfalso.
      cbn [key_same] in Hs. assert (X : key_par s' p = true).
      { unfold key_par. apply existsb_exists. exists (EParam p, v). split; [exact Hin | cbn [fst]; apply N.eqb_refl]. }
      congruence.
    + cbn [leaf_key] in Hl. destruct (ground_args args) as [ws|] eqn:G; [|discriminate].
      rewrite !eval_EFluent. rewrite !(evals_ground _ _ args ws G). reflexivity.
  - (* k0 = EVar *)
    destruct k; try discriminate; try reflexivity.
    + cbn [eval var]. destruct (v2 =? v1)%N eqn:E; [|reflexivity]. apply N.eqb_eq in E. subst. exfalso.
      cbn [key_same] in Hs. assert (X : key_var s' v1 = true).
      { unfold key_var. apply existsb_exists. exists (EVar v1 ty0, v). split; [exact Hin | cbn [fst]; apply N.eqb_refl]. }
      congruence.
    + cbn [leaf_key] in Hl. destruct (ground_args args) as [ws|] eqn:G; [|discriminate].
      rewrite !eval_EFluent. rewrite !(evals_ground _ _ args ws G). reflexivity.
  - (* k0 = EFluent *)
    cbn [key_same] in Hs. destruct (ground_args args) as [ws0|] eqn:G0; [|reflexivity].
    destruct k; try discriminate; try reflexivity.
    cbn [leaf_key] in Hl. destruct (ground_args args0) as [ws|] eqn:G; [|discriminate].
    rewrite !eval_EFluent. rewrite !(evals_ground _ _ args0 ws G). cbn [fl].
    destruct ((f0 =? f)%N && values_eqb ws ws0) eqn:E; [|reflexivity].
    apply andb_true_iff in E. destruct E as [E1 E2]. apply N.eqb_eq in E1. apply values_eqb_eq in E2. subst. exfalso.
    assert (X : key_fl s' f ws0 = true).
    { unfold key_fl. apply existsb_exists. exists (EFluent f args0, v). split; [exact Hin|].
      cbn [fst]. rewrite G, N.eqb_refl, values_eqb_refl. reflexivity. }
    congruence.
Qed.

Lemma keys_ok_leaf s k v : keys_ok s = true -> In (k, v) s -> leaf_key k = true.
Proof.
  induction s as [|[k0 v0] s IH]; [intros _ []|]. cbn [keys_ok]. intros H Hin. nfsplit.
  destruct Hin as [Hin|Hin]; [inversion Hin; subst; assumption | apply IH; assumption].
Qed.

Lemma updated_key I0 sc I s : keys_ok s = true ->
  forall k v, In (k, v) s -> eval sc k (fold_right (upd1 I0 sc) I s) = eval sc v I0.
Proof.
  induction s as [|[k0 v0] s IH]; intros Hok k v Hin; [destruct Hin|].
  cbn [keys_ok] in Hok. nfsplit. cbn [fold_right]. destruct Hin as [Hin|Hin].
  - inversion Hin; subst. apply upd1_self. assumption.
  - rewrite (upd1_other I0 sc k0 v0 s k v); [apply IH; assumption | | exact Hin | eapply keys_ok_leaf; eassumption].
    apply negb_true_iff. assumption.
Qed.

Lemma unread_not s y : unread s (ENot y) = unread s y.
Proof. reflexivity. Qed.

(* for distinct leaf keys whose replacements read no key: substitution is sound in I updated by the map *)
Theorem subst_eval_in_updated sc s e I :
  nf e = true -> capture_free s e = true -> keys_ok s = true ->
  (forall k v, In (k, v) s -> unread s v = true) ->
  (forall k y, In (k, ENot y) s -> bool_or_undef (eval sc y I)) ->
  eval sc (substitute s e) (updated sc s I) = eval sc e (updated sc s I).
Proof.
  intros Hnf Hcf Hok Hval Hnot.
  pose proof (related_updated sc s I) as HR.
  apply subst_eval; try assumption.
  - intros k v Hin. unfold updated. rewrite (updated_key I sc I s Hok k v Hin).
    symmetry. apply (eval_unread sc s v I _ HR). apply (Hval k v Hin).
  - intros k y Hin. rewrite (eval_unread sc s y I _ HR); [apply (Hnot k y Hin)|].
    rewrite <- unread_not. apply (Hval k _ Hin).
Qed.

(* when the result reads no key either:
   evaluating the result in I  =  evaluating the original in I updated by the map *)
Theorem subst_eval_updated sc s e I :
  nf e = true -> capture_free s e = true -> keys_ok s = true ->
  (forall k v, In (k, v) s -> unread s v = true) ->
  unread s (substitute s e) = true ->
  (forall k y, In (k, ENot y) s -> bool_or_undef (eval sc y I)) ->
  eval sc (substitute s e) I = eval sc e (updated sc s I).
Proof.
  intros Hnf Hcf Hok Hval Hres Hnot.
  rewrite <- (eval_unread sc s (substitute s e) I (updated sc s I) (related_updated sc s I) Hres).
  apply subst_eval_in_updated; assumption.
Qed.

(* G. the statements about whole calls                                                                *)
Theorem call_spec st t e :
  nf e = true -> forallb entry_ok t = true ->
  snd (substitute_call st t e) = Done (topdown_replace (untyped t) e).
Proof.
  intros Hnf Hok. rewrite (subst_accepts st t e Hok). cbn [snd]. f_equal. exact (subst_spec _ e Hnf).
Qed.

Theorem updated_gives_keys sc I s :
  keys_ok s = true -> forall k v, In (k, v) s -> eval sc k (updated sc s I) = eval sc v I.
Proof. intros H k v Hin. exact (updated_key I sc I s H k v Hin). Qed.

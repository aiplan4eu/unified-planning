(* Proofs about the TypeChecker model (C15): soundness of the inferred type with respect to the reference
   semantics [eval], exactness for Boolean / user-typed expressions, symmetry of equality well-formedness. *)
From Coq Require Import List ZArith NArith QArith Qcanon Qround Bool Lia Lqa.
Import ListNotations.
Require Import UPV.Core.Expr UPV.Core.Eval UPV.Core.Interp UPV.Proofs.Eval_lemmas UPV.Proofs.ListFacts UPV.Proofs.ExprView UPV.Proofs.EvalView
  UPV.Walkers.TypeInfer.
Local Open Scope Qc_scope.

Lemma Qc_eq_Q (a b : Qc) : a = b <-> (this a == this b)%Q.
Proof. split; [intros ->; reflexivity | apply Qc_is_canon]. Qed.

Ltac qcq0 :=
  repeat match goal with
  | H : @eq Qc _ _ |- _ => apply Qc_eq_Q in H
  | H : ~ @eq Qc _ _ |- _ => rewrite Qc_eq_Q in H
  | |- @eq Qc _ _ => apply Qc_is_canon
  end.
Ltac qcq1 :=
  unfold Qcminus in *; unfold Qcle, Qclt, Qcmult, Qcplus, Qcopp in *; unfold Q2Qc in *; cbn [this] in *;
  repeat match goal with
  | H : context [Qred ?x] |- _ => rewrite (Qred_correct x) in H
  | |- context [Qred ?x] => rewrite (Qred_correct x)
  end.
Ltac qlra := qcq0; qcq1; Lqa.lra.

Lemma mul_le_l (k x y : Qc) : 0 <= k -> x <= y -> k * x <= k * y.
Proof. intros Hk H. rewrite (Qcmult_comm k x), (Qcmult_comm k y). apply Qcmult_le_compat_r; assumption. Qed.
Lemma mul_le_l_neg (k x y : Qc) : k <= 0 -> x <= y -> k * y <= k * x.
Proof.
  intros Hk H. assert (H0 : 0 <= - k) by qlra.
  pose proof (mul_le_l _ _ _ H0 H) as P. qlra.
Qed.
Lemma mul_0_l (x : Qc) : 0 * x = 0. Proof. ring. Qed.
Lemma mul_0_r (x : Qc) : x * 0 = 0. Proof. ring. Qed.
Lemma zq0 : zq 0 = 0. Proof. exact Eval_lemmas.zq0. Qed.

Lemma zq_minus a b : zq (a - b) = zq a - zq b.
Proof. unfold Z.sub, Qcminus. rewrite zq_add, zq_opp. reflexivity. Qed.
Lemma zq_le a b : (a <= b)%Z <-> zq a <= zq b.
Proof. unfold zq, Qcle, Q2Qc. cbn [this]. rewrite !Qred_correct. rewrite Zle_Qle. tauto. Qed.
Lemma zq_le_1 a b : (a <= b)%Z -> zq a <= zq b. Proof. apply zq_le. Qed.
Lemma zq_le_2 a b : zq a <= zq b -> (a <= b)%Z. Proof. apply zq_le. Qed.
Lemma zq_this z : (this (zq z) == inject_Z z)%Q.
Proof. unfold zq, Q2Qc. cbn [this]. apply Qred_correct. Qed.

Lemma zceil_zq z : zceil (zq z) = z.
Proof. unfold zceil. rewrite zq_this. apply Qceiling_Z. Qed.
Lemma zfloor_zq z : zfloor (zq z) = z.
Proof. unfold zfloor. rewrite zq_this. apply Qfloor_Z. Qed.
Lemma zceil_le q z : q <= zq z -> (zceil q <= z)%Z.
Proof.
  intros H. unfold zceil. rewrite <- (Qceiling_Z z). apply Qceiling_resp_le.
  unfold Qcle in H. rewrite zq_this in H. exact H.
Qed.
Lemma zfloor_ge q z : zq z <= q -> (z <= zfloor q)%Z.
Proof.
  intros H. unfold zfloor. rewrite <- (Qfloor_Z z). apply Qfloor_resp_le.
  unfold Qcle in H. rewrite zq_this in H. exact H.
Qed.

Definition integral (q : Qc) : Prop := exists z, q = zq z.

(* q lies within the bounds of t, and is an integer when t is an integer type *)
Definition num_in (t : ty) (q : Qc) : Prop :=
  le_lo (lb t) q /\ le_hi q (ub t) /\ (is_int t = true -> integral q).

Lemma inhabits_num G q t : is_num t = true -> (inhabits G (VNum q) t <-> num_in t q).
Proof.
  destruct t as [|lo hi|lo hi| |]; simpl; try discriminate; intros _; unfold num_in; simpl.
  - split.
    + intros [z [-> [Hl Hh]]]. split; [|split].
      * destruct lo; simpl; [apply zq_le_1; exact Hl | exact I].
      * destruct hi; simpl; [apply zq_le_1; exact Hh | exact I].
      * intros _. exists z. reflexivity.
    + intros [Hl [Hh Hi]]. destruct (Hi eq_refl) as [z ->]. exists z. split; [reflexivity|]. split.
      * destruct lo; simpl in *; [apply zq_le_2; exact Hl | exact I].
      * destruct hi; simpl in *; [apply zq_le_2; exact Hh | exact I].
  - destruct lo, hi; simpl; (split; [intros [Hl Hh]; split; [assumption|]; split; [assumption|]; intros X; discriminate X
                                    | intros [Hl [Hh _]]; split; assumption]).
Qed.

Lemma num_in_inhabits G q t : is_num t = true -> num_in t q -> inhabits G (VNum q) t.
Proof. intros Hn H. apply inhabits_num; assumption. Qed.

Lemma inhabits_num_inv G v t : is_num t = true -> inhabits G v t -> exists q, v = VNum q /\ num_in t q.
Proof.
  intros Hn H. destruct v as [b|q|o].
  - destruct t; simpl in *; try discriminate; contradiction.
  - exists q. split; [reflexivity|]. apply (inhabits_num G); assumption.
  - destruct t; simpl in *; try discriminate; contradiction.
Qed.

Lemma mk_num_sound hr lo hi q :
  le_lo lo q -> le_hi q hi -> (hr = false -> integral q) -> num_in (mk_num hr lo hi) q.
Proof.
  intros Hl Hh Hi. unfold mk_num. destruct hr.
  - unfold num_in; simpl. destruct lo, hi; simpl in *; (split; [assumption|]; split; [assumption|]; intros X; discriminate X).
  - destruct (Hi eq_refl) as [z ->]. unfold num_in; simpl. split; [|split].
    + destruct lo as [l|]; simpl in *; [|exact I]. apply zq_le_1. apply zceil_le. exact Hl.
    + destruct hi as [h|]; simpl in *; [|exact I]. apply zq_le_1. apply zfloor_ge. exact Hh.
    + intros _. exists z. reflexivity.
Qed.

Lemma is_num_mk_num hr lo hi : is_num (mk_num hr lo hi) = true.
Proof. destruct hr; reflexivity. Qed.

Definition ele (a b : ext) : Prop :=
  match a, b with
  | NegInf, _ => True
  | _, PosInf => True
  | Fin x, Fin y => x <= y
  | _, _ => False
  end.

Lemma ele_refl a : ele a a.
Proof. destruct a; simpl; auto. apply Qcle_refl. Qed.
Lemma ele_trans a b c : ele a b -> ele b c -> ele a c.
Proof. destruct a, b, c; simpl; auto; try tauto. apply Qcle_trans. Qed.

Lemma eltb_spec a b : if eltb a b then ele a b else ele b a.
Proof.
  destruct a, b; simpl; auto.
  destruct (qc_ltb q q0) eqn:E.
  - apply qc_ltb_lt in E. apply Qclt_le_weak; exact E.
  - apply qc_ltb_false in E. exact E.
Qed.

Lemma emin_le_l a b : ele (emin a b) a.
Proof. unfold emin. pose proof (eltb_spec b a) as H. destruct (eltb b a); [exact H | apply ele_refl]. Qed.
Lemma emin_le_r a b : ele (emin a b) b.
Proof. unfold emin. pose proof (eltb_spec b a) as H. destruct (eltb b a); [apply ele_refl | exact H]. Qed.
Lemma emax_ge_l a b : ele a (emax a b).
Proof. unfold emax. pose proof (eltb_spec a b) as H. destruct (eltb a b); [exact H | apply ele_refl]. Qed.
Lemma emax_ge_r a b : ele b (emax a b).
Proof. unfold emax. pose proof (eltb_spec a b) as H. destruct (eltb a b); [apply ele_refl | exact H]. Qed.

Lemma min4_le a b c d : ele (min4 a b c d) a /\ ele (min4 a b c d) b /\ ele (min4 a b c d) c /\ ele (min4 a b c d) d.
Proof.
  unfold min4. repeat split.
  - eapply ele_trans; [apply emin_le_l|]. eapply ele_trans; [apply emin_le_l|]. apply emin_le_l.
  - eapply ele_trans; [apply emin_le_l|]. eapply ele_trans; [apply emin_le_l|]. apply emin_le_r.
  - eapply ele_trans; [apply emin_le_l|]. apply emin_le_r.
  - apply emin_le_r.
Qed.
Lemma max4_ge a b c d : ele a (max4 a b c d) /\ ele b (max4 a b c d) /\ ele c (max4 a b c d) /\ ele d (max4 a b c d).
Proof.
  unfold max4. repeat split.
  - eapply ele_trans; [|apply emax_ge_l]. eapply ele_trans; [|apply emax_ge_l]. apply emax_ge_l.
  - eapply ele_trans; [|apply emax_ge_l]. eapply ele_trans; [|apply emax_ge_l]. apply emax_ge_r.
  - eapply ele_trans; [|apply emax_ge_l]. apply emax_ge_r.
  - apply emax_ge_r.
Qed.

Lemma sgn_fin_cases (x : Qc) : (x ?= 0 = Eq /\ x = 0) \/ (x ?= 0 = Lt /\ x < 0) \/ (x ?= 0 = Gt /\ 0 < x).
Proof.
  destruct (x ?= 0) eqn:E.
  - left. split; [reflexivity|]. apply Qceq_alt. exact E.
  - right; left. split; [reflexivity|]. apply Qclt_alt. exact E.
  - right; right. split; [reflexivity|]. apply Qcgt_alt in E. exact E.
Qed.

Ltac sgn_cases :=
  repeat match goal with
  | |- context [?x ?= 0] =>
      let E := fresh "E" in let F := fresh "F" in
      destruct (sgn_fin_cases x) as [[E F]|[[E F]|[E F]]]; rewrite E in *; clear E
  | H : context [?x ?= 0] |- _ =>
      let E := fresh "E" in let F := fresh "F" in
      destruct (sgn_fin_cases x) as [[E F]|[[E F]|[E F]]]; rewrite E in *; clear E
  end.

Lemma emul_comm a b : emul a b = emul b a.
Proof.
  destruct a as [|x|], b as [|y|]; unfold emul; simpl sgn; try reflexivity;
    try (f_equal; apply Qcmult_comm);
    try (destruct (x ?= 0); reflexivity); try (destruct (y ?= 0); reflexivity).
Qed.

(* the extended product is monotone in its second argument for a non-negative first argument ... *)
Lemma emul_mono_nonneg k u v : sgn k <> Lt -> ele u v -> ele (emul k u) (emul k v).
Proof.
  intros Hk H.
  destruct k as [|k|]; [exfalso; apply Hk; reflexivity| |];
  destruct u as [|u|], v as [|v|]; simpl in H; try tauto; unfold emul; simpl sgn; simpl in Hk;
  sgn_cases; simpl; auto; try tauto; try congruence; try (exfalso; qlra).
  all: try (subst; rewrite ?mul_0_l; apply Qcle_refl).
  all: apply mul_le_l; [apply Qclt_le_weak; assumption | assumption].
Qed.

(* ... and antitone for a negative one *)
Lemma emul_anti_neg k u v : sgn k = Lt -> ele u v -> ele (emul k v) (emul k u).
Proof.
  intros Hk H.
  destruct k as [|k|]; [| |discriminate];
  destruct u as [|u|], v as [|v|]; simpl in H; try tauto; unfold emul; simpl sgn; simpl in Hk;
  sgn_cases; simpl; auto; try tauto; try congruence; try discriminate; try (exfalso; qlra).
  all: try (subst; rewrite ?mul_0_l; apply Qcle_refl).
  all: apply mul_le_l_neg; [apply Qclt_le_weak; assumption | assumption].
Qed.

Definition itv (a b : ext) (x : Qc) : Prop := ele a (Fin x) /\ ele (Fin x) b.

Lemma emul_between k c d y : itv c d y ->
  (ele (emul k c) (emul k (Fin y)) \/ ele (emul k d) (emul k (Fin y))) /\
  (ele (emul k (Fin y)) (emul k c) \/ ele (emul k (Fin y)) (emul k d)).
Proof.
  intros [Hc Hd]. destruct (sgn k) eqn:E.
  - assert (N : sgn k <> Lt) by congruence. split; [left | right]; apply emul_mono_nonneg; assumption.
  - split; [right | left]; apply emul_anti_neg; assumption.
  - assert (N : sgn k <> Lt) by congruence. split; [left | right]; apply emul_mono_nonneg; assumption.
Qed.

(* interval multiplication: the product lies between the least and the greatest of the four corner products *)
Lemma mul_itv a b c d x y : itv a b x -> itv c d y ->
  itv (min4 (emul a c) (emul a d) (emul b c) (emul b d)) (max4 (emul a c) (emul a d) (emul b c) (emul b d)) (x * y).
Proof.
  intros Hx Hy.
  destruct (min4_le (emul a c) (emul a d) (emul b c) (emul b d)) as [m1 [m2 [m3 m4]]].
  destruct (max4_ge (emul a c) (emul a d) (emul b c) (emul b d)) as [M1 [M2 [M3 M4]]].
  pose proof (emul_between (Fin y) a b x Hx) as [Lx Ux].
  rewrite !(emul_comm (Fin y)) in Lx, Ux.
  change (emul (Fin x) (Fin y)) with (Fin (x * y)) in Lx, Ux.
  pose proof (emul_between a c d y Hy) as [La Ua].
  pose proof (emul_between b c d y Hy) as [Lb Ub].
  split.
  - destruct Lx as [Lx|Lx]; (eapply ele_trans; [|exact Lx]).
    + destruct La as [La|La]; (eapply ele_trans; [|exact La]); assumption.
    + destruct Lb as [Lb|Lb]; (eapply ele_trans; [|exact Lb]); assumption.
  - destruct Ux as [Ux|Ux]; (eapply ele_trans; [exact Ux|]).
    + destruct Ua as [Ua|Ua]; (eapply ele_trans; [exact Ua|]); assumption.
    + destruct Ub as [Ub|Ub]; (eapply ele_trans; [exact Ub|]); assumption.
Qed.

Lemma itv_of_num t q : num_in t q -> itv (lo_ext t) (hi_ext t) q.
Proof.
  intros [Hl [Hh _]]. unfold itv, lo_ext, hi_ext.
  destruct (lb t), (ub t); simpl in *; auto.
Qed.

Fixpoint infers (G : tenv) (l : list expr) : list ty + err :=
  match l with
  | [] => inl []
  | x :: l' =>
      match infer_r G x with
      | inr er => inr er
      | inl t => match infers G l' with inl ts => inl (t :: ts) | inr er => inr er end
      end
  end.

Lemma infs_fix G l :
  (fix infs (l : list expr) : list ty + err :=
     match l with
     | [] => inl []
     | x :: l' =>
         match infer_r G x with
         | inr er => inr er
         | inl t => match infs l' with inl ts => inl (t :: ts) | inr er => inr er end
         end
     end) l = infers G l.
Proof. induction l as [|x l IH]; [reflexivity|]. cbn [infers]. rewrite IH. reflexivity. Qed.

Definition two (G : tenv) (a b : expr) (k : list ty -> ty + err) : ty + err :=
  bind (infer_r G a) (fun ta => bind (infer_r G b) (fun tb => k [ta; tb])).
Definition one (G : tenv) (a : expr) (k : list ty -> ty + err) : ty + err :=
  bind (infer_r G a) (fun ta => k [ta]).

(* the handler applied to the types of the children, by shape *)
Definition k2 (G : tenv) (o : op2) : list ty -> ty + err :=
  match o with
  | BImplies | BIff | BSometimeBefore => walk_bool
  | BSometimeAfter =>
      fun ts => match ts with [x; y] => if ty_eqb x y then walk_bool ts else inr AssertErr | _ => inr AssertErr end
  | BMinus => walk_minus | BDiv => walk_div | BLe | BLt => walk_rel | BEquals => walk_equals G
  end.
Definition kn (G : tenv) (o : opn) : list ty -> ty + err :=
  match o with
  | NFluent f => walk_app G (lookupN f (g_fl G)) | NIFun f => walk_app G (lookupN f (g_ifun G))
  | NAnd | NOr => walk_bool | NPlus => walk_plus | NTimes => walk_times
  end.

Lemma infer_E1 G o a : infer_r G (E1 o a) = one G a walk_bool. Proof. destruct o; reflexivity. Qed.
Lemma infer_EQ G ex vs a : infer_r G (EQ ex vs a) = one G a walk_bool. Proof. destruct ex; reflexivity. Qed.
Lemma infer_E2 G o a b : infer_r G (E2 o a b) = two G a b (k2 G o). Proof. destruct o; reflexivity. Qed.
Lemma infer_En G o l : infer_r G (En o l) = bind (infers G l) (kn G o).
Proof. destruct o; cbn [En infer_r]; rewrite infs_fix; reflexivity. Qed.

Lemma two_inl G a b k t : two G a b k = inl t ->
  exists ta tb, infer_r G a = inl ta /\ infer_r G b = inl tb /\ k [ta; tb] = inl t.
Proof.
  unfold two, bind. destruct (infer_r G a) as [ta|]; [|discriminate].
  destruct (infer_r G b) as [tb|]; [|discriminate]. intros H. exists ta, tb. auto.
Qed.
Lemma one_inl G a k t : one G a k = inl t -> exists ta, infer_r G a = inl ta /\ k [ta] = inl t.
Proof. unfold one, bind. destruct (infer_r G a) as [ta|]; [|discriminate]. intros H. exists ta. auto. Qed.
Lemma bind_inl {A B} (r : A + err) (f : A -> B + err) t : bind r f = inl t -> exists a, r = inl a /\ f a = inl t.
Proof. destruct r; simpl; [eauto | discriminate]. Qed.

Lemma walk_bool_inl ts t : walk_bool ts = inl t -> t = TBool.
Proof. unfold walk_bool. destruct (forallb is_bool ts); congruence. Qed.
Lemma walk_rel_inl ts t : walk_rel ts = inl t -> t = TBool.
Proof. unfold walk_rel. destruct (forallb _ ts); congruence. Qed.
Lemma walk_equals_inl G ts t : walk_equals G ts = inl t -> t = TBool.
Proof.
  unfold walk_equals. destruct ts as [|x r]; [discriminate|].
  destruct (is_bool x); [discriminate|]. destruct (forallb _ _); congruence.
Qed.

(* every binary operator but the difference and the quotient is Boolean: in its type and in its value *)
Lemma k2_bool G o ts t : o <> BMinus -> o <> BDiv -> k2 G o ts = inl t -> t = TBool.
Proof.
  destruct o; intros A B H; try congruence; cbn [k2] in H;
    try (apply walk_bool_inl in H; exact H); try (apply walk_rel_inl in H; exact H); try (apply walk_equals_inl in H; exact H).
  destruct ts as [|x [|y [|z r]]]; try discriminate. destruct (ty_eqb x y); [apply walk_bool_inl in H; exact H|discriminate].
Qed.

Lemma sem1_bool G o x v : sem1 o x = Some v -> inhabits G v TBool.
Proof. destruct o; cbn [sem1]; try discriminate. destruct (as_bool x); intros H; inversion H; exact I. Qed.

Lemma sem2_bool G o x y v : o <> BMinus -> o <> BDiv -> sem2 o x y = Some v -> inhabits G v TBool.
Proof.
  destruct o; intros A B; try congruence; cbn [sem2]; try discriminate;
    destruct x as [[| |]|], y as [[| |]|]; cbn [as_bool as_num]; intros H; inversion H; exact I.
Qed.

Definition vin (G : tenv) (t : ty) (q : Qc) : Prop := inhabits G (VNum q) t.

Lemma vin_num G t q : is_num t = true -> vin G t q -> num_in t q.
Proof. intros Hn H. apply (inhabits_num G); assumption. Qed.

Lemma forall2_num G ts qs :
  Forall2 (vin G) ts qs -> forallb is_num ts = true -> Forall2 num_in ts qs.
Proof.
  induction 1 as [|t q ts qs H _ IH]; intros Hf; [constructor|].
  simpl in Hf. apply andb_true_iff in Hf. destruct Hf as [Ht Hf].
  constructor; [eapply vin_num; eauto | auto].
Qed.

Lemma sum_all_lo ts qs l :
  Forall2 num_in ts qs -> sum_all (map lb ts) = Some l -> l <= fold_right Qcplus (zq 0) qs.
Proof.
  intros H. revert l. induction H as [|t q ts qs Ht _ IH]; intros l; simpl.
  - intros E. inversion E. apply Qcle_refl.
  - destruct (lb t) as [b|] eqn:Eb; [|discriminate]. destruct (sum_all (map lb ts)) as [s|]; [|discriminate].
    intros E. inversion E; subst. destruct Ht as [Hl _]. rewrite Eb in Hl. simpl in Hl.
    apply Qcplus_le_compat; [exact Hl | apply IH; reflexivity].
Qed.
Lemma sum_all_hi ts qs h :
  Forall2 num_in ts qs -> sum_all (map ub ts) = Some h -> fold_right Qcplus (zq 0) qs <= h.
Proof.
  intros H. revert h. induction H as [|t q ts qs Ht _ IH]; intros h; simpl.
  - intros E. inversion E. apply Qcle_refl.
  - destruct (ub t) as [b|] eqn:Eb; [|discriminate]. destruct (sum_all (map ub ts)) as [s|]; [|discriminate].
    intros E. inversion E; subst. destruct Ht as [_ [Hh _]]. rewrite Eb in Hh. simpl in Hh.
    apply Qcplus_le_compat; [exact Hh | apply IH; reflexivity].
Qed.

Lemma le_lo_sum ts qs : Forall2 num_in ts qs ->
  le_lo (sum_bounds (map lb ts)) (fold_right Qcplus (zq 0) qs).
Proof.
  intros H. unfold sum_bounds. destruct (map lb ts) eqn:E; [exact I|]. rewrite <- E.
  destruct (sum_all (map lb ts)) eqn:S; simpl; [|exact I]. eapply sum_all_lo; eauto.
Qed.
Lemma le_hi_sum ts qs : Forall2 num_in ts qs ->
  le_hi (fold_right Qcplus (zq 0) qs) (sum_bounds (map ub ts)).
Proof.
  intros H. unfold sum_bounds. destruct (map ub ts) eqn:E; [exact I|]. rewrite <- E.
  destruct (sum_all (map ub ts)) eqn:S; simpl; [|exact I]. eapply sum_all_hi; eauto.
Qed.

Lemma not_real_int t : is_num t = true -> is_real t = false -> is_int t = true.
Proof. destruct t; unfold is_num; simpl; intros; congruence. Qed.

Lemma existsb_false_forall {A} (p : A -> bool) l : existsb p l = false -> forall x, In x l -> p x = false.
Proof. exact (existsb_false_in p l). Qed.

Lemma all_integral ts qs :
  Forall2 num_in ts qs -> forallb is_num ts = true -> existsb is_real ts = false -> Forall integral qs.
Proof.
  induction 1 as [|t q ts qs Ht _ IH]; intros Hn Hr; [constructor|].
  simpl in Hn, Hr. apply andb_true_iff in Hn. destruct Hn as [Hn1 Hn2].
  apply orb_false_iff in Hr. destruct Hr as [Hr1 Hr2].
  constructor; [|auto]. destruct Ht as [_ [_ Hi]]. apply Hi. apply not_real_int; assumption.
Qed.

Lemma integral_sum qs : Forall integral qs -> integral (fold_right Qcplus (zq 0) qs).
Proof.
  induction 1 as [|q qs [z ->] _ [s IH]]; simpl; [exists 0%Z; reflexivity|].
  rewrite IH. exists (z + s)%Z. symmetry. apply zq_add.
Qed.
Lemma integral_prod qs : Forall integral qs -> integral (fold_right Qcmult (zq 1) qs).
Proof.
  induction 1 as [|q qs [z ->] _ [s IH]]; simpl; [exists 1%Z; reflexivity|].
  rewrite IH. exists (z * s)%Z. symmetry. apply zq_mul.
Qed.

Lemma no_time_all_num ts :
  forallb (fun x => is_time x || is_num x) ts = true -> existsb is_time ts = false -> forallb is_num ts = true.
Proof.
  induction ts as [|t ts IH]; simpl; [reflexivity|]. intros H1 H2.
  apply andb_true_iff in H1. destruct H1 as [Ha Hb]. apply orb_false_iff in H2. destruct H2 as [Hc Hd].
  rewrite Hc in Ha. simpl in Ha. rewrite Ha. simpl. auto.
Qed.

Lemma walk_plus_sound G ts qs t :
  Forall2 (vin G) ts qs -> walk_plus ts = inl t -> inhabits G (VNum (fold_right Qcplus (zq 0) qs)) t.
Proof.
  intros H. unfold walk_plus.
  destruct (forallb (fun x => is_time x || is_num x) ts) eqn:Ef; simpl; [|discriminate].
  destruct (existsb is_time ts) eqn:Et.
  - intros E. inversion E. exact I.
  - intros E. inversion E. subst t. clear E.
    pose proof (no_time_all_num _ Ef Et) as Hn. pose proof (forall2_num _ _ _ H Hn) as Hq.
    apply (num_in_inhabits G); [apply is_num_mk_num|]. apply mk_num_sound.
    + apply le_lo_sum; assumption.
    + apply le_hi_sum; assumption.
    + intros Hr. apply integral_sum. eapply all_integral; eauto.
Qed.

Lemma walk_minus_sound G ta tb x y t :
  vin G ta x -> vin G tb y -> walk_minus [ta; tb] = inl t -> inhabits G (VNum (x - y)) t.
Proof.
  intros Ha Hb. unfold walk_minus.
  destruct (forallb (fun x => is_time x || is_num x) [ta; tb]) eqn:Ef; simpl negb; cbv iota; [|discriminate].
  destruct (existsb is_time [ta; tb]) eqn:Et.
  - intros E. inversion E. exact I.
  - intros E. inversion E. subst t. clear E.
    pose proof (no_time_all_num _ Ef Et) as Hn. simpl in Hn.
    apply andb_true_iff in Hn. destruct Hn as [Hna Hnb]. rewrite andb_true_r in Hnb.
    pose proof (vin_num _ _ _ Hna Ha) as [Al [Ah Ai]]. pose proof (vin_num _ _ _ Hnb Hb) as [Bl [Bh Bi]].
    apply (num_in_inhabits G); [apply is_num_mk_num|]. apply mk_num_sound.
    + unfold sub_bound. destruct (lb ta); [|exact I]. destruct (ub tb); [|exact I]. cbn [le_lo le_hi] in *. qlra.
    + unfold sub_bound. destruct (ub ta); [|exact I]. destruct (lb tb); [|exact I]. cbn [le_lo le_hi] in *. qlra.
    + intros Hr. simpl in Hr. apply orb_false_iff in Hr. destruct Hr as [Hra Hrb]. rewrite orb_false_r in Hrb.
      destruct (Ai (not_real_int _ Hna Hra)) as [za ->]. destruct (Bi (not_real_int _ Hnb Hrb)) as [zb ->].
      exists (za - zb)%Z. symmetry. apply zq_minus.
Qed.

Lemma times_loop_sound ts qs : Forall2 num_in ts qs -> forall lo hi p,
  itv lo hi p -> itv (fst (times_loop lo hi ts)) (snd (times_loop lo hi ts)) (p * fold_right Qcmult (zq 1) qs).
Proof.
  induction 1 as [|t q ts qs Ht _ IH]; intros lo hi p Hp; simpl.
  - rewrite zq1. replace (p * 1) with p by ring. exact Hp.
  - replace (p * (q * fold_right Qcmult (zq 1) qs)) with ((p * q) * fold_right Qcmult (zq 1) qs) by ring.
    apply IH. apply mul_itv; [exact Hp | apply itv_of_num; exact Ht].
Qed.

Lemma walk_times_sound G ts qs t :
  Forall2 (vin G) ts qs -> walk_times ts = inl t -> inhabits G (VNum (fold_right Qcmult (zq 1) qs)) t.
Proof.
  intros H. unfold walk_times. destruct (forallb is_num ts) eqn:Hn; simpl negb; cbv iota; [|discriminate].
  pose proof (forall2_num _ _ _ H Hn) as Hq.
  destruct Hq as [|t0 q0 ts qs Ht0 Hq].
  - intros E. inversion E. simpl. exists 1%Z. repeat split; exact I.
  - pose proof (times_loop_sound _ _ Hq (lo_ext t0) (hi_ext t0) q0 (itv_of_num _ _ Ht0)) as [L U].
    destruct (times_loop (lo_ext t0) (hi_ext t0) ts) as [lo hi]. simpl fst in L; simpl snd in U.
    destruct (fin_lo lo) as [l|] eqn:El; [|discriminate]. destruct (fin_hi hi) as [h|] eqn:Eh; [|discriminate].
    intros E. inversion E. subst t. clear E.
    apply (num_in_inhabits G); [apply is_num_mk_num|]. apply mk_num_sound.
    + destruct lo; simpl in El; inversion El; subst; simpl; auto.
    + destruct hi; simpl in Eh; inversion Eh; subst; simpl; auto.
    + intros Hr. change (q0 * fold_right Qcmult (zq 1) qs) with (fold_right Qcmult (zq 1) (q0 :: qs)).
      apply integral_prod. eapply all_integral; [constructor; eauto| exact Hn | exact Hr].
Qed.

Lemma inv_pos (d : Qc) : 0 < d -> 0 < / d.
Proof.
  intros Hd. destruct (Qclt_le_dec 0 (/ d)) as [L|L]; [exact L|exfalso].
  assert (Hn : d <> 0) by (intros E; apply (Qclt_not_eq _ _ Hd); symmetry; exact E).
  pose proof (Qcmult_inv_r d Hn) as E.
  pose proof (mul_le_l d (/ d) 0 (Qclt_le_weak _ _ Hd) L) as P. rewrite E, mul_0_r in P.
  apply (Qclt_not_le 0 1); [reflexivity | exact P].
Qed.
Lemma inv_neg (d : Qc) : d < 0 -> / d < 0.
Proof.
  intros Hd. destruct (Qclt_le_dec (/ d) 0) as [L|L]; [exact L|exfalso].
  assert (Hn : d <> 0) by (exact (Qclt_not_eq _ _ Hd)).
  pose proof (Qcmult_inv_r d Hn) as E.
  pose proof (mul_le_l_neg d 0 (/ d) (Qclt_le_weak _ _ Hd) L) as P. rewrite E, mul_0_r in P.
  apply (Qclt_not_le 0 1); [reflexivity | exact P].
Qed.
Lemma div_le_pos (d a b : Qc) : 0 < d -> a <= b -> a / d <= b / d.
Proof. intros Hd H. unfold Qcdiv. apply Qcmult_le_compat_r; [exact H | apply Qclt_le_weak, inv_pos, Hd]. Qed.
Lemma div_le_neg (d a b : Qc) : d < 0 -> a <= b -> b / d <= a / d.
Proof.
  intros Hd H. unfold Qcdiv. rewrite (Qcmult_comm b), (Qcmult_comm a).
  apply mul_le_l_neg; [apply Qclt_le_weak, inv_neg, Hd | exact H].
Qed.

Lemma optq_eqb_some a b : optq_eqb (Some a) (Some b) = true -> a = b.
Proof. simpl. apply qc_eqb_eq. Qed.

Lemma walk_div_sound G ta tb x y t :
  vin G ta x -> vin G tb y -> qc_is0 y = false -> walk_div [ta; tb] = inl t -> inhabits G (VNum (x / y)) t.
Proof.
  intros Ha Hb Hy. unfold walk_div.
  destruct (forallb is_num [ta; tb]) eqn:Hn; simpl negb; cbv iota; [|discriminate].
  simpl in Hn. apply andb_true_iff in Hn. destruct Hn as [Hna Hnb]. rewrite andb_true_r in Hnb.
  pose proof (vin_num _ _ _ Hna Ha) as [Al [Ah _]]. pose proof (vin_num _ _ _ Hnb Hb) as [Bl [Bh _]].
  destruct (unbounded ta || unbounded tb || negb (optq_eqb (lb tb) (ub tb))) eqn:Sk.
  - intros E. inversion E. simpl. split; exact I.
  - apply orb_false_iff in Sk. destruct Sk as [Sk Eq]. apply negb_false_iff in Eq.
    destruct (lb tb) as [d|] eqn:Ed.
    2:{ intros E. inversion E. simpl. split; exact I. }
    destruct (ub tb) as [d'|] eqn:Ed'; [|discriminate Eq].
    apply optq_eqb_some in Eq. subst d'. cbn [le_lo le_hi] in Bl, Bh.
    assert (y = d) by (apply Qcle_antisym; assumption). subst y.
    rewrite Hy. destruct (qc_ltb d 0) eqn:Lt.
    + apply qc_ltb_lt in Lt. intros E. inversion E. subst t. clear E. simpl. split.
      * destruct (ub ta); simpl; [|exact I]. apply div_le_neg; assumption.
      * destruct (lb ta); simpl; [|exact I]. apply div_le_neg; assumption.
    + apply qc_ltb_false in Lt.
      assert (Hp : 0 < d).
      { destruct (Qcle_lt_or_eq _ _ Lt) as [L|L]; [exact L|]. subst d. discriminate Hy. }
      intros E. inversion E. subst t. clear E. simpl. split.
      * destruct (lb ta); simpl; [|exact I]. apply div_le_pos; assumption.
      * destruct (ub ta); simpl; [|exact I]. apply div_le_pos; assumption.
Qed.

Lemma anc_fuel_head n fa t : In t (anc_fuel n fa t).
Proof. destruct n; simpl; auto. Qed.

Section Sound.
  Variable G : tenv.
  Variable sc : bool.
  Variable I : interp.
  Hypothesis R : respects G I.

  Definition sound_at (e : expr) : Prop :=
    forall t v, infer_r G e = inl t -> eval sc e I = Some v -> inhabits G v t.

  Lemma forall2_vin l : Forall sound_at l -> forall ts qs,
    infers G l = inl ts -> enums sc I l = Some qs -> Forall2 (vin G) ts qs.
  Proof.
    induction 1 as [|x l Hx _ IH]; intros ts qs; simpl.
    - intros E1 E2. inversion E1. inversion E2. constructor.
    - destruct (infer_r G x) as [t|] eqn:Et; [|discriminate].
      destruct (infers G l) as [ts'|]; [|discriminate]. intros E1. inversion E1. subst ts. clear E1.
      destruct (eval sc x I) as [v|] eqn:Ev; [|discriminate]. destruct v as [|q|]; simpl; try discriminate.
      destruct (enums sc I l) as [qs'|]; [|discriminate]. intros E2. inversion E2. subst qs. clear E2.
      constructor; [exact (Hx _ _ Et Ev) | apply IH; reflexivity].
  Qed.

  Theorem infer_r_sound : forall e, sound_at e.
  Proof.
    induction e using expr_view_ind; unfold sound_at; intros ty0 val Ht Hv.
    - destruct e; try discriminate H; clear H.
      + (* EBool *) simpl in *. inversion Ht. inversion Hv. exact Logic.I.
      + (* EInt *) simpl in *. inversion Ht. inversion Hv. simpl. exists z. split; [reflexivity|]. split; apply Z.le_refl.
      + (* EReal *) simpl in *. inversion Ht. inversion Hv. simpl. split; apply Qcle_refl.
      + (* EObj *) simpl in *. destruct (lookupN o (g_obj G)) as [u|] eqn:E; [|discriminate].
        inversion Ht. inversion Hv. simpl. exists u. split; [exact E | apply anc_fuel_head].
      + (* EParam *) simpl in *. destruct (lookupN p (g_par G)) as [u|] eqn:E; [|discriminate].
        inversion Ht. subst. eapply r_par; eauto.
      + (* EVar *) simpl in *. destruct (lookupN v (g_var G)) as [u|] eqn:E; [|discriminate].
        destruct (N.eqb_spec ty u); [|discriminate]. subst u. inversion Ht. subst. eapply r_var; eauto.
    - rewrite infer_E1 in Ht. apply one_inl in Ht. destruct Ht as [ta [_ Hw]]. apply walk_bool_inl in Hw. subst ty0.
      rewrite eval_E1 in Hv. exact (sem1_bool G _ _ _ Hv).
    - rewrite infer_E2 in Ht. apply two_inl in Ht. destruct Ht as [ta [tb [Ha [Hb Hw]]]]. rewrite eval_E2 in Hv.
      assert (Bool : o <> BMinus -> o <> BDiv -> inhabits G val ty0).
      { intros A B. rewrite (k2_bool G o _ _ A B Hw). exact (sem2_bool G _ _ _ _ A B Hv). }
      destruct o; try (apply Bool; discriminate); clear Bool; cbn [k2 sem2] in *;
        destruct (as_num (eval sc e1 I)) as [x|] eqn:E1; try discriminate;
        destruct (as_num (eval sc e2 I)) as [y|] eqn:E2; try discriminate;
        apply as_num_some in E1; apply as_num_some in E2.
      + inversion Hv. subst val.
        eapply walk_minus_sound; [exact (IHe1 _ _ Ha E1) | exact (IHe2 _ _ Hb E2) | exact Hw].
      + destruct (qc_is0 y) eqn:Ey; [discriminate|]. inversion Hv. subst val.
        eapply walk_div_sound; [exact (IHe1 _ _ Ha E1) | exact (IHe2 _ _ Hb E2) | exact Ey | exact Hw].
    - rewrite infer_En in Ht. apply bind_inl in Ht. destruct Ht as [ts [Hi Hw]]. rewrite eval_En in Hv.
      destruct o; cbn [kn semn] in *.
      + unfold walk_app in Hw. destruct (lookupN f (g_fl G)) as [[sg u]|] eqn:E; [|discriminate].
        destruct (all_compatible G sg ts); [|discriminate]. inversion Hw. subst u.
        destruct (evals sc I l); [|discriminate]. eapply r_fl; eauto.
      + unfold walk_app in Hw. destruct (lookupN f (g_ifun G)) as [[sg u]|] eqn:E; [|discriminate].
        destruct (all_compatible G sg ts); [|discriminate]. inversion Hw. subst u.
        destruct (evals sc I l); [|discriminate]. eapply r_ifun; eauto.
      + apply walk_bool_inl in Hw. subst ty0. destruct (ebools sc I l); inversion Hv. exact Logic.I.
      + apply walk_bool_inl in Hw. subst ty0. destruct (ebools sc I l); inversion Hv. exact Logic.I.
      + destruct (enums sc I l) as [qs|] eqn:En; [|discriminate]. inversion Hv. subst val.
        eapply walk_plus_sound; [|exact Hw]. eapply forall2_vin; eauto.
      + destruct (enums sc I l) as [qs|] eqn:En; [|discriminate]. inversion Hv. subst val.
        eapply walk_times_sound; [|exact Hw]. eapply forall2_vin; eauto.
    - rewrite infer_EQ in Ht. apply one_inl in Ht. destruct Ht as [ta [_ Hw]]. apply walk_bool_inl in Hw. subst ty0.
      rewrite eval_EQ in Hv. destruct (q_fold sc ex _); inversion Hv. exact Logic.I.
  Qed.
End Sound.

Theorem infer_sound_thm G sc e t :
  infer G e = Some t -> forall I, respects G I -> forall v, eval sc e I = Some v -> inhabits G v t.
Proof.
  unfold infer. destruct (infer_r G e) as [t'|] eqn:E; [|discriminate]. intros H; inversion H; subst t'.
  intros I R v Hv. exact (infer_r_sound G sc I R e t v E Hv).
Qed.

(* Boolean- and object-valued expressions get exactly a Boolean / user type (the declared one for leaves) *)
Theorem infer_bool_user_exact_thm G sc e t :
  infer G e = Some t -> forall I, respects G I -> forall v, eval sc e I = Some v ->
  match v with
  | VBool _ => t = TBool
  | VObj o => exists u u', t = TUser u /\ lookupN o (g_obj G) = Some u' /\ In u (ancestors G u')
  | VNum _ => is_num t = true \/ t = TTime
  end.
Proof.
  intros H I R v Hv. pose proof (infer_sound_thm G sc e t H I R v Hv) as S.
  destruct v as [b|q|o]; destruct t; simpl in S; try contradiction; auto.
  destruct S as [u' [E1 E2]]. exists t, u'. auto.
Qed.

Theorem infer_leaf_exact_thm G :
  (forall f args t, infer G (EFluent f args) = Some t -> exists sg, lookupN f (g_fl G) = Some (sg, t)) /\
  (forall p t, infer G (EParam p) = Some t -> lookupN p (g_par G) = Some t) /\
  (forall o t, infer G (EObj o) = Some t -> exists u, t = TUser u /\ lookupN o (g_obj G) = Some u) /\
  (forall x u t, infer G (EVar x u) = Some t -> t = TUser u /\ lookupN x (g_var G) = Some u) /\
  (forall b, infer G (EBool b) = Some TBool).
Proof.
  unfold infer. repeat apply conj.
  - intros f args t. change (EFluent f args) with (En (NFluent f) args). rewrite infer_En. cbn [kn]. destruct (infers G args) as [ts|]; simpl; [|discriminate].
    unfold walk_app. destruct (lookupN f (g_fl G)) as [[sg u]|]; [|discriminate].
    destruct (all_compatible G sg ts); [|discriminate]. intros E. inversion E. eauto.
  - intros p t. simpl. destruct (lookupN p (g_par G)); [|discriminate]. intros E. inversion E. reflexivity.
  - intros o t. simpl. destruct (lookupN o (g_obj G)); [|discriminate]. intros E. inversion E. eauto.
  - intros x u t. simpl. destruct (lookupN x (g_var G)) as [u'|]; [|discriminate].
    destruct (N.eqb_spec u u'); [|discriminate]. intros E. inversion E. subst. split; reflexivity.
  - reflexivity.
Qed.

Lemma intersects_comm a b : intersects a b = intersects b a.
Proof.
  apply eq_true_iff_eq. unfold intersects. rewrite !existsb_exists. split.
  - intros [x [Hx M]]. apply memN_In in M. exists x. split; [exact M | apply memN_In; exact Hx].
  - intros [x [Hx M]]. apply memN_In in M. exists x. split; [exact M | apply memN_In; exact Hx].
Qed.

Lemma user_eq_ok_comm G a b : user_eq_ok G a b = user_eq_ok G b a.
Proof.
  unfold user_eq_ok. rewrite (N.eqb_sym a b), (intersects_comm (ancestors G a)).
  destruct (b =? a)%N, (memN a (ancestors G b)), (memN b (ancestors G a)); reflexivity.
Qed.

Lemma user_eq_ok_refl G a : user_eq_ok G a a = true.
Proof. unfold user_eq_ok. rewrite N.eqb_refl. reflexivity. Qed.

Lemma wf_equals_eq G t1 t2 :
  wf_equals G t1 t2 =
  match t1, t2 with
  | TUser a, TUser b => user_eq_ok G a b
  | _, _ => (is_num t1 || is_time t1) && (is_num t2 || is_time t2)
  end.
Proof.
  unfold wf_equals, walk_equals, eq_arg_ok.
  destruct t1 as [|l1 h1|l1 h1|a|], t2 as [|l2 h2|l2 h2|b|]; simpl; rewrite ?andb_false_r; try reflexivity.
  rewrite user_eq_ok_refl. destruct (user_eq_ok G a b); reflexivity.
Qed.

(* accepted equalities are exactly: two user types with a common ancestor, or two numeric / time types *)
Theorem equals_wf_char_thm G t1 t2 :
  wf_equals G t1 t2 = true <->
  (exists a b, t1 = TUser a /\ t2 = TUser b /\ user_eq_ok G a b = true) \/
  ((is_num t1 || is_time t1) && (is_num t2 || is_time t2) = true).
Proof.
  rewrite wf_equals_eq. split.
  - intros H. destruct t1 as [| | |a|], t2 as [| | |b|]; try (right; exact H). left. exists a, b. auto.
  - intros [[a [b [-> [-> E]]]]|E]; [exact E|].
    destruct t1 as [| | |a|], t2 as [| | |b|]; try exact E. discriminate E.
Qed.

Theorem equals_wf_symmetric_thm G t1 t2 : wf_equals G t1 t2 = wf_equals G t2 t1.
Proof.
  assert (H : forall s1 s2, wf_equals G s1 s2 = true -> wf_equals G s2 s1 = true).
  { intros s1 s2. rewrite !equals_wf_char_thm. intros [[a [b [E1 [E2 E]]]]|E].
    - left. exists b, a. rewrite user_eq_ok_comm. auto.
    - right. rewrite andb_comm. exact E. }
  apply eq_true_iff_eq. split; apply H.
Qed.

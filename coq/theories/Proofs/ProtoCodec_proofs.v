(* Proofs about the protobuf codec model (C20): every decoder inverts its encoder on well-formed objects. *)
From Coq Require Import List ZArith NArith QArith Qreduction Bool Lia.
Import ListNotations.
Require Import UPV.Model.ProtoCodec.
Open Scope list_scope.

Lemma canonQb_true q : canonQb q = true -> canonQ q.
Proof.
  unfold canonQb, canonQ. intros H. apply andb_true_iff in H. destruct H as [H1 H2].
  apply Z.eqb_eq in H1. apply Pos.eqb_eq in H2.
  destruct (Qred q) as [a b]; destruct q as [n d]; simpl in *. subst. reflexivity.
Qed.

Lemma canonQ_canonQb q : canonQ q -> canonQb q = true.
Proof.
  unfold canonQb, canonQ. intros H. rewrite H. rewrite Z.eqb_refl, Pos.eqb_refl. reflexivity.
Qed.

Lemma Qmake_eta q : Qmake (Qnum q) (Qden q) = q.
Proof. destruct q; reflexivity. Qed.

Lemma Qeqb_strict_eq a b : Qeqb_strict a b = true -> a = b.
Proof.
  unfold Qeqb_strict. intros H. apply andb_true_iff in H. destruct H as [H1 H2].
  apply Z.eqb_eq in H1. apply Pos.eqb_eq in H2. destruct a, b; simpl in *; subst; reflexivity.
Qed.

(* the only reduced fraction with numerator 0 is 0/1 *)
Lemma canon_zero q : canonQ q -> Qnum q = 0%Z -> q = Qmake 0 1.
Proof.
  unfold canonQ. destruct q as [n d]; simpl. intros Hc Hn. subst n.
  unfold Qred in Hc; simpl in Hc. rewrite <- Hc. reflexivity.
Qed.

#[local] Opaque Qred.

Lemma real_codec q : canonQ q -> dec_real (enc_real q) = Some q.
Proof.
  unfold canonQ, dec_real, enc_real, py_fraction; simpl. intros H. rewrite Qmake_eta, H. reflexivity.
Qed.

Lemma py_fraction_num_den q : canonQ q -> py_fraction (Qnum q) (Zpos (Qden q)) = Some q.
Proof. exact (real_codec q). Qed.

(* a message with a negative denominator (never written) still denotes the same rational: sign normalisation *)
Lemma py_fraction_neg_den n p : py_fraction n (Zneg p) = py_fraction (- n) (Zpos p).
Proof. reflexivity. Qed.

Lemma opt_eqb_eq {A} (e : A -> A -> bool) (a b : option A) :
  (forall x y, e x y = true -> x = y) -> opt_eqb e a b = true -> a = b.
Proof. intros He. destruct a, b; simpl; intros H; try discriminate; [f_equal; auto | reflexivity]. Qed.

Lemma ty_eqb_eq a b : ty_eqb a b = true -> a = b.
Proof.
  destruct a, b; simpl; intros H; try discriminate; try reflexivity.
  - apply andb_true_iff in H. destruct H as [H1 H2].
    apply (opt_eqb_eq Z.eqb) in H1; [|intros x y E; apply Z.eqb_eq; exact E].
    apply (opt_eqb_eq Z.eqb) in H2; [|intros x y E; apply Z.eqb_eq; exact E]. subst; reflexivity.
  - apply andb_true_iff in H. destruct H as [H1 H2].
    apply (opt_eqb_eq Qeqb_strict) in H1; [|exact Qeqb_strict_eq].
    apply (opt_eqb_eq Qeqb_strict) in H2; [|exact Qeqb_strict_eq]. subst; reflexivity.
  - apply N.eqb_eq in H. subst; reflexivity.
Qed.

(* str(Fraction) then Fraction(str) is the identity on a reduced fraction, and never looks like an infinity token *)
Lemma fraction_str_roundtrip q : canonQ q ->
  py_fraction_str (str_fraction q) = Some q /\ has_inf (str_fraction q) = false
  /\ has_neginf (str_fraction q) = false /\ is_inf (str_fraction q) = false.
Proof.
  unfold canonQ, str_fraction. intros H. destruct q as [n d]; simpl in *.
  destruct d; simpl; try (rewrite H; repeat split; reflexivity). repeat split; reflexivity.
Qed.

Lemma real_lo_bound q : canonQ q ->
  opt_bound (has_neginf (str_fraction q)) (py_fraction_str (str_fraction q)) = Some (Some q).
Proof. intros H. destruct (fraction_str_roundtrip q H) as (E1 & _ & E3 & _). rewrite E1, E3. reflexivity. Qed.

Lemma real_hi_bound q : canonQ q ->
  opt_bound (has_inf (str_fraction q)) (py_fraction_str (str_fraction q)) = Some (Some q).
Proof. intros H. destruct (fraction_str_roundtrip q H) as (E1 & E2 & _ & _). rewrite E1, E2. reflexivity. Qed.

Lemma real_hi_bound_decl q : canonQ q ->
  opt_bound (is_inf (str_fraction q)) (py_fraction_str (str_fraction q)) = Some (Some q).
Proof. intros H. destruct (fraction_str_roundtrip q H) as (E1 & _ & _ & E4). rewrite E1, E4. reflexivity. Qed.

Lemma wf_boundb_canon b : wf_boundb b = true -> match b with Some q => canonQ q | None => True end.
Proof. destruct b; simpl; [apply canonQb_true | trivial]. Qed.

Lemma int_type_codec ut (lo hi : option Z) :
  convert_type_str ut (proto_type (TyInt lo hi)) = Some (TyInt lo hi).
Proof. destruct lo, hi; reflexivity. Qed.

(* real types: every combination of finite / infinite bounds (bounds are Fractions, i.e. reduced) *)
Lemma real_type_codec ut (lo hi : option Q) :
  match lo with Some q => canonQ q | None => True end ->
  match hi with Some q => canonQ q | None => True end ->
  convert_type_str ut (proto_type (TyReal lo hi)) = Some (TyReal lo hi).
Proof.
  destruct lo as [l|], hi as [h|]; simpl; intros Hl Hh.
  - rewrite (real_lo_bound l Hl), (real_hi_bound h Hh). reflexivity.
  - rewrite (real_lo_bound l Hl). reflexivity.
  - rewrite (real_hi_bound h Hh). reflexivity.
  - reflexivity.
Qed.

Theorem type_codec ut t : wf_tyb ut t = true -> convert_type_str ut (proto_type t) = Some t.
Proof.
  destruct t as [| lo hi | lo hi | n]; simpl; intros H.
  - reflexivity.
  - apply int_type_codec.
  - apply andb_true_iff in H. destruct H as [H1 H2].
    apply (real_type_codec ut lo hi); apply wf_boundb_canon; assumption.
  - rewrite H. reflexivity.
Qed.

(* type declarations (ProtobufWriter._convert_*_type / ProtobufReader._convert_type_declaration) *)
Definition wf_fatherb (ut : name -> bool) (t : ty) (father : option name) : bool :=
  match t, father with
  | TyUser _, Some f => negb (f =? 0)%N && ut f
  | TyUser _, None => true
  | _, Some _ => false
  | _, None => true
  end.

Theorem type_decl_codec ut t father :
  match t with TyReal lo hi => wf_boundb lo && wf_boundb hi | _ => true end = true ->
  wf_fatherb ut t father = true ->
  dec_type_decl ut (enc_type_decl t father) = Some (t, father).
Proof.
  destruct t as [| lo hi | lo hi | n]; simpl; intros H Hf.
  - destruct father; [discriminate | reflexivity].
  - destruct father; [discriminate|]. destruct lo, hi; reflexivity.
  - destruct father; [discriminate|]. apply andb_true_iff in H. destruct H as [H1 H2].
    apply wf_boundb_canon in H1. apply wf_boundb_canon in H2.
    unfold dec_type_decl, enc_type_decl. destruct lo as [l|], hi as [h|]; simpl.
    + rewrite (real_lo_bound l H1), (real_hi_bound_decl h H2). reflexivity.
    + rewrite (real_lo_bound l H1). reflexivity.
    + rewrite (real_hi_bound_decl h H2). reflexivity.
    + reflexivity.
  - unfold dec_type_decl, enc_type_decl; simpl. destruct father as [f|]; simpl.
    + apply andb_true_iff in Hf. destruct Hf as [Hf1 Hf2]. apply negb_true_iff in Hf1.
      rewrite Hf1, Hf2. reflexivity.
    + reflexivity.
Qed.

Theorem timepoint_codec tp : wf_timepointb tp = true -> dec_timepoint (enc_timepoint tp) = Some tp.
Proof.
  destruct tp as [k c]. unfold wf_timepointb, dec_timepoint, enc_timepoint; simpl. intros H.
  destruct c as [c|]; simpl.
  - apply negb_true_iff in H. rewrite H. destruct k; reflexivity.
  - destruct k; reflexivity.
Qed.

(* the boundary is sharp: the empty container name is read back as "no container" (proto3 default) *)
Lemma timepoint_empty_container_lost k :
  dec_timepoint (enc_timepoint {| tp_kind := k; tp_container := Some 0%N |})
  = Some {| tp_kind := k; tp_container := None |}.
Proof. destruct k; reflexivity. Qed.

Lemma mk_timing_canon t : canonQ (tm_delay t) -> mk_timing (tm_delay t) (tm_tp t) = t.
Proof. unfold canonQ, mk_timing. intros H. rewrite H. destruct t; reflexivity. Qed.

Theorem timing_codec t : wf_timingb t = true -> dec_timing (enc_timing t) = Some t.
Proof.
  unfold wf_timingb. intros H. apply andb_true_iff in H. destruct H as [H1 H2].
  apply canonQb_true in H1. unfold dec_timing, enc_timing; cbn [tmm_delay tmm_tp].
  rewrite (real_codec _ H1), (timepoint_codec _ H2), (mk_timing_canon t H1). reflexivity.
Qed.

Theorem tinterval_codec i : wf_tintervalb i = true -> dec_tinterval (enc_tinterval i) = Some i.
Proof.
  unfold wf_tintervalb. intros H. apply andb_true_iff in H. destruct H as [H1 H2].
  unfold dec_tinterval, enc_tinterval; cbn [tim_lower tim_upper tim_lopen tim_ropen].
  rewrite (timing_codec _ H1), (timing_codec _ H2). destruct i; reflexivity.
Qed.

Lemma seq_opt_cons {A B} (f : A -> option B) x r :
  seq_opt f (x :: r) = match f x, seq_opt f r with Some y, Some ys => Some (y :: ys) | _, _ => None end.
Proof. reflexivity. Qed.

Lemma seq_opt_map2 {A M B} (g : A -> M) (dec : M -> option B) (h : A -> B) l :
  (forall x, In x l -> dec (g x) = Some (h x)) -> seq_opt dec (map g l) = Some (map h l).
Proof.
  induction l as [|x l IH]; intros H; [reflexivity|].
  cbn [map]. rewrite seq_opt_cons, (H x (or_introl eq_refl)), IH; [reflexivity|].
  intros y Hy. apply H. right; exact Hy.
Qed.

Lemma seq_opt_map {A M} (enc : A -> M) (dec : M -> option A) l :
  (forall x, In x l -> dec (enc x) = Some x) -> seq_opt dec (map enc l) = Some l.
Proof. intros H. rewrite (seq_opt_map2 enc dec (fun x => x) l H). f_equal. apply map_id. Qed.

Lemma split_last_opt_cons2 {A B C} (fv : A -> option B) (fb : A -> option C) x y r :
  split_last_opt fv fb (x :: y :: r) =
  match fv x, split_last_opt fv fb (y :: r) with Some v, Some (vs, b) => Some (v :: vs, b) | _, _ => None end.
Proof. reflexivity. Qed.

Lemma split_last_opt_app {A B C} (ev : B -> A) (eb : C -> A) (fv : A -> option B) (fb : A -> option C) vars body :
  (forall v, In v vars -> fv (ev v) = Some v) -> fb (eb body) = Some body ->
  split_last_opt fv fb (map ev vars ++ [eb body]) = Some (vars, body).
Proof.
  intros Hv Hb. induction vars as [|v vars IH].
  - cbn. rewrite Hb. reflexivity.
  - cbn [map app]. destruct (map ev vars ++ [eb body]) as [|y r] eqn:E.
    + destruct (map ev vars); discriminate.
    + rewrite split_last_opt_cons2, (Hv v (or_introl eq_refl)), IH; [reflexivity|].
      intros v' Hin. apply Hv. right; exact Hin.
Qed.

Section expr_induction.
  Variable P : expr -> Prop.
  Hypothesis HBool : forall b, P (EBool b).
  Hypothesis HInt : forall z, P (EInt z).
  Hypothesis HReal : forall q, P (EReal q).
  Hypothesis HParam : forall n t, P (EParam n t).
  Hypothesis HVar : forall n t, P (EVar n t).
  Hypothesis HObj : forall n t, P (EObj n t).
  Hypothesis HFluent : forall f t args, Forall P args -> P (EFluent f t args).
  Hypothesis HOp : forall o args, Forall P args -> P (EOp o args).
  Hypothesis HQuant : forall q vars body, P body -> P (EQuant q vars body).
  Hypothesis HTiming : forall t, P (ETiming t).
  Hypothesis HPresent : forall c, P (EPresent c).

  Fixpoint expr_ind' (e : expr) : P e :=
    match e with
    | EBool b => HBool b
    | EInt z => HInt z
    | EReal q => HReal q
    | EParam n t => HParam n t
    | EVar n t => HVar n t
    | EObj n t => HObj n t
    | EFluent f t args =>
        HFluent f t args ((fix go (l : list expr) : Forall P l :=
                             match l with [] => Forall_nil P | x :: r => Forall_cons x (expr_ind' x) (go r) end) args)
    | EOp o args =>
        HOp o args ((fix go (l : list expr) : Forall P l :=
                       match l with [] => Forall_nil P | x :: r => Forall_cons x (expr_ind' x) (go r) end) args)
    | EQuant q vars body => HQuant q vars body (expr_ind' body)
    | ETiming t => HTiming t
    | EPresent c => HPresent c
    end.
End expr_induction.

Lemma var_codec ut v : wf_varb ut v = true -> dec_var ut (enc_var v) = Some v.
Proof.
  destruct v as [n t]. unfold wf_varb, dec_var, enc_var, sym_atom, dec_etype; simpl. intros H.
  rewrite (type_codec ut t H). reflexivity.
Qed.

(* the timing sub-language `(up:plus (QUALIFIER [CONTAINER]) DELAY)`; here even an empty container name survives *)
Lemma tp_list_codec tp :
  dec_tp_list (sym_atom (STp (tp_kind tp)) YNone KFunctionSymbol ::
               match tp_container tp with
               | Some c => [sym_atom (SName c) YContainer KContainerId]
               | None => []
               end) = Some tp.
Proof. destruct tp as [k [c|]]; reflexivity. Qed.

Lemma timing_exp_codec t : canonQ (tm_delay t) ->
  match enc_timing_exp t with PE _ l _ _ => dec_timing_exp l end = Some t.
Proof.
  intros Hc. unfold enc_timing_exp. destruct (Qnum (tm_delay t) =? 0)%Z eqn:E0.
  - (* no delay *)
    unfold enc_tp_app. unfold dec_timing_exp.
    assert (Hd : tm_delay t = Qmake 0 1).
    { apply Z.eqb_eq in E0. apply canon_zero; assumption. }
    assert (Hmk : mk_timing (Qmake 0 1) (tm_tp t) = t).
    { rewrite <- Hd. apply mk_timing_canon. exact Hc. }
    transitivity (Some (mk_timing (Qmake 0 1) (tm_tp t))); [|rewrite Hmk; reflexivity].
    destruct (tm_tp t) as [k [c|]]; reflexivity.
  - transitivity (Some (mk_timing (tm_delay t) (tm_tp t))); [|rewrite (mk_timing_canon t Hc); reflexivity].
    revert Hc. generalize (tm_tp t) as tp. generalize (tm_delay t) as q. clear. intros q tp Hc.
    unfold canonQ in Hc.
    destruct tp as [k [c|]]; destruct q as [n [d|d|]]; cbn; rewrite ?Hc; reflexivity.
Qed.

Lemma enc_timing_exp_shape t : exists l, enc_timing_exp t = PE None l YTime KFunctionApplication
  /\ match l with hd :: _ => is_present hd = false | [] => False end.
Proof.
  unfold enc_timing_exp. destruct (Qnum (tm_delay t) =? 0)%Z.
  - unfold enc_tp_app. eexists. split; [reflexivity|]. reflexivity.
  - eexists. split; [reflexivity|]. reflexivity.
Qed.

Theorem expr_codec ut obj_ty fluent_ty e :
  wf_exprb ut obj_ty fluent_ty e = true ->
  dec_expr ut obj_ty fluent_ty (enc_expr e) = Some e.
Proof.
  induction e using expr_ind'; intros Hwf.
  - reflexivity.
  - reflexivity.
  - cbn [wf_exprb] in Hwf. apply canonQb_true in Hwf. cbn [enc_expr enc_real_expr dec_expr].
    rewrite (py_fraction_num_den q Hwf). reflexivity.
  - cbn [wf_exprb] in Hwf. cbn [enc_expr sym_atom dec_expr atom_name dec_etype].
    rewrite (type_codec ut t Hwf). reflexivity.
  - cbn [wf_exprb] in Hwf. cbn [enc_expr enc_var fst snd sym_atom dec_expr atom_name dec_etype].
    rewrite (type_codec ut t Hwf). reflexivity.
  - cbn [wf_exprb] in Hwf. cbn [enc_expr sym_atom dec_expr]. destruct (obj_ty n) as [t'|]; [|discriminate].
    apply ty_eqb_eq in Hwf. subst. reflexivity.
  - (* fluent application *)
    cbn [wf_exprb] in Hwf. apply andb_true_iff in Hwf. destruct Hwf as [Hwf Hargs].
    apply andb_true_iff in Hwf. destruct Hwf as [Ho Hf].
    cbn [enc_expr dec_expr sym_atom dec_fluent_sym].
    destruct (obj_ty f) as [?|]; [discriminate|].
    destruct (fluent_ty f) as [t'|]; [|discriminate]. apply ty_eqb_eq in Hf. subst t'.
    rewrite (seq_opt_map enc_expr (dec_expr ut obj_ty fluent_ty) args); [reflexivity|].
    rewrite forallb_forall in Hargs. rewrite Forall_forall in H. intros x Hx. apply H; auto.
  - (* operator application *)
    cbn [wf_exprb] in Hwf. cbn [enc_expr dec_expr sym_atom is_present is_time negb].
    rewrite (seq_opt_map enc_expr (dec_expr ut obj_ty fluent_ty) args); [reflexivity|].
    rewrite forallb_forall in Hwf. rewrite Forall_forall in H. intros x Hx. apply H; auto.
  - (* quantifier *)
    cbn [wf_exprb] in Hwf. apply andb_true_iff in Hwf. destruct Hwf as [Hv Hb].
    cbn [enc_expr dec_expr sym_atom is_present is_time negb].
    rewrite (split_last_opt_app enc_var enc_expr (dec_var ut) (dec_expr ut obj_ty fluent_ty) vars e).
    + reflexivity.
    + intros v Hin. apply var_codec. rewrite forallb_forall in Hv. auto.
    + auto.
  - (* timing *)
    cbn [wf_exprb] in Hwf. unfold wf_timing_expb in Hwf. apply canonQb_true in Hwf.
    pose proof (timing_exp_codec t Hwf) as Hd.
    destruct (enc_timing_exp_shape t) as (l & El & Hl).
    cbn [enc_expr]. rewrite El in *. cbn [dec_expr].
    destruct l as [|hd rest]; [contradiction|]. rewrite Hl. cbn [is_time negb]. rewrite Hd. reflexivity.
  - reflexivity.
Qed.

Section Compound.
  Variable ut : name -> bool.
  Variable obj_ty : name -> option ty.
  Variable fluent_ty : name -> option ty.
  Variable has_action : name -> bool.

  Theorem dinterval_codec i : wf_dintervalb ut obj_ty fluent_ty i = true ->
    dec_dinterval ut obj_ty fluent_ty (enc_dinterval i) = Some i.
  Proof.
    unfold wf_dintervalb. intros H. apply andb_true_iff in H. destruct H as [H1 H2].
    unfold dec_dinterval, enc_dinterval; simpl.
    rewrite (expr_codec _ _ _ _ H1), (expr_codec _ _ _ _ H2). destruct i; reflexivity.
  Qed.

  Lemma effkind_codec k : dec_effkind (effkind_num k) = k.
  Proof. destruct k; reflexivity. Qed.

  Theorem effect_codec e : wf_effectb ut obj_ty fluent_ty e = true ->
    dec_effect ut obj_ty fluent_ty (enc_effect e) = Some e.
  Proof.
    unfold wf_effectb. intros H. repeat (apply andb_true_iff in H; destruct H as [H ?]).
    unfold dec_effect, enc_effect; simpl.
    rewrite (expr_codec _ _ _ _ H), (expr_codec _ _ _ _ H2), (expr_codec _ _ _ _ H1).
    rewrite (seq_opt_map enc_var (dec_var ut) (ef_forall e)).
    - rewrite effkind_codec. destruct e; reflexivity.
    - rewrite forallb_forall in H0. intros v Hv. apply var_codec. auto.
  Qed.

  Theorem timed_effect_codec ot e :
    wf_effectb ut obj_ty fluent_ty e = true -> wf_opt wf_timingb ot = true ->
    dec_timed_effect ut obj_ty fluent_ty (enc_timed_effect ot e) = Some (ot, e).
  Proof.
    intros He Ht. unfold dec_timed_effect, enc_timed_effect; simpl. rewrite (effect_codec e He).
    destruct ot as [t|]; simpl in *; [rewrite (timing_codec t Ht)|]; reflexivity.
  Qed.

  Theorem condition_codec span c :
    wf_exprb ut obj_ty fluent_ty c = true -> wf_opt wf_tintervalb span = true ->
    dec_condition ut obj_ty fluent_ty (enc_condition span c) = Some (span, c).
  Proof.
    intros Hc Hs. unfold dec_condition, enc_condition; simpl. rewrite (expr_codec _ _ _ _ Hc).
    destruct span as [i|]; simpl in *; [rewrite (tinterval_codec i Hs)|]; reflexivity.
  Qed.

  Theorem metric_codec m : wf_metricb ut obj_ty fluent_ty has_action m = true ->
    dec_metric ut obj_ty fluent_ty has_action (enc_metric m) = Some m.
  Proof.
    destruct m as [costs default | | | e | e | goals | goals]; simpl; intros H.
    - apply andb_true_iff in H. destruct H as [Hc Hd]. unfold dec_metric; simpl.
      rewrite (seq_opt_map (fun ac => (fst ac, enc_expr (snd ac))) (dec_cost ut obj_ty fluent_ty has_action) costs).
      + destruct default as [d|]; simpl in *; [rewrite (expr_codec _ _ _ _ Hd)|]; reflexivity.
      + rewrite forallb_forall in Hc. intros [a c] Hin. specialize (Hc _ Hin). simpl in Hc.
        apply andb_true_iff in Hc. destruct Hc as [Ha Hc]. unfold dec_cost; simpl.
        rewrite Ha, (expr_codec _ _ _ _ Hc). reflexivity.
    - reflexivity.
    - reflexivity.
    - unfold dec_metric; simpl. rewrite (expr_codec _ _ _ _ H). reflexivity.
    - unfold dec_metric; simpl. rewrite (expr_codec _ _ _ _ H). reflexivity.
    - unfold dec_metric; simpl.
      rewrite (seq_opt_map (fun gw => (enc_expr (fst gw), enc_real (snd gw))) (dec_goal ut obj_ty fluent_ty) goals);
        [reflexivity|].
      rewrite forallb_forall in H. intros [g w] Hin. specialize (H _ Hin). simpl in H.
      apply andb_true_iff in H. destruct H as [Hg Hw]. apply canonQb_true in Hw. unfold dec_goal; cbn [fst snd].
      rewrite (expr_codec _ _ _ _ Hg), (real_codec w Hw). unfold canonQ in Hw. rewrite Hw. reflexivity.
    - unfold dec_metric; simpl.
      rewrite (seq_opt_map (fun igw => (enc_expr (snd (fst igw)), enc_tinterval (fst (fst igw)), enc_real (snd igw)))
                 (dec_timed_goal ut obj_ty fluent_ty) goals); [reflexivity|].
      rewrite forallb_forall in H. intros [[i g] w] Hin. specialize (H _ Hin). simpl in H.
      apply andb_true_iff in H. destruct H as [H Hw]. apply andb_true_iff in H. destruct H as [Hi Hg].
      apply canonQb_true in Hw. unfold dec_timed_goal; cbn [fst snd].
      rewrite (tinterval_codec i Hi), (expr_codec _ _ _ _ Hg), (real_codec w Hw). unfold canonQ in Hw. rewrite Hw.
      reflexivity.
  Qed.
End Compound.

Lemma int_const_codec ut obj_ty fluent_ty z : dec_expr ut obj_ty fluent_ty (enc_int z) = Some (EInt z).
Proof. reflexivity. Qed.

Lemma real_const_codec ut obj_ty fluent_ty q : canonQ q ->
  dec_expr ut obj_ty fluent_ty (enc_real_expr q) = Some (EReal q).
Proof. intros H. apply (expr_codec ut obj_ty fluent_ty (EReal q)). apply canonQ_canonQb. exact H. Qed.

Lemma timepoint_codec_refuted : exists tp, dec_timepoint (enc_timepoint tp) <> Some tp.
Proof. exists {| tp_kind := Start; tp_container := Some 0%N |}. rewrite timepoint_empty_container_lost. discriminate. Qed.

(* Proofs for the sequential plan validator model (C03). *)
From Coq Require Import List ZArith NArith QArith Qcanon Bool Lia.
Import ListNotations.
Require Import UPV.Core.Expr UPV.Core.Eval UPV.Core.Interp UPV.Planning.Problem UPV.Planning.Sem UPV.Planning.SeqValidate.
Require Import UPV.Proofs.Eval_lemmas UPV.Proofs.Sem_proofs UPV.Proofs.Step_proofs.

Section V.
  Variable sc : bool.
  Variable P : problem.
  Variable M : metric.

  (* value of the accumulator after the pre-states [tr], started at [acc] *)
  Definition acc_spec (acc : Qc) (tr : list (state * (N * list value))) : option Qc :=
    match M with
    | MCosts _ _ => option_map (fun c => Qcplus c acc) (sum_costs sc P M tr)
    | MLength => Some (Qcplus acc (zq (Z.of_nat (length tr))))
    | _ => Some acc
    end.

  Lemma zq1 : zq 1 = 1%Qc.
  Proof. exact Eval_lemmas.zq1. Qed.

  Lemma zq_succ n : zq (Z.of_nat (S n)) = Qcplus (zq 1) (zq (Z.of_nat n)).
  Proof.
    unfold zq, Qcplus. apply Q2Qc_eq_iff. unfold Q2Qc. cbn [this]. rewrite !Qred_correct.
    rewrite <- inject_Z_plus. rewrite Nat2Z.inj_succ. rewrite Z.add_1_l. reflexivity.
  Qed.

  Lemma validate_from_trace step : forall plan s acc,
    validate_from sc P M step s acc plan =
    match trace P step s plan with
    | None => Invalid
    | Some (tr, fin) =>
        match acc_spec acc tr with
        | None => Invalid
        | Some a' => if goals_hold sc P fin
                     then match final_metric sc P M fin a' with Some m => Valid m | None => Invalid end
                     else Invalid
        end
    end.
  Proof.
    induction plan as [|[aid args] plan IH]; intros s acc.
    - cbn [validate_from trace]. unfold acc_spec. destruct M; cbn [sum_costs option_map length Z.of_nat].
      + reflexivity.
      + replace (Qcplus (zq 0) acc) with acc by (rewrite zq0; ring). reflexivity.
      + replace (Qcplus acc (zq 0)) with acc by (rewrite zq0; ring). reflexivity.
      + reflexivity.
      + reflexivity.
    - cbn [validate_from trace].
      destruct (lookup_action P aid) as [a|] eqn:EA; [|reflexivity].
      destruct (step s a args) as [s'|]; [|reflexivity].
      destruct (step_metric sc P M s aid a args acc) as [acc'|] eqn:ESM.
      + rewrite IH. destruct (trace P step s' plan) as [[tr fin]|]; [|reflexivity].
        assert (E : acc_spec acc' tr = acc_spec acc ((s, (aid, args)) :: tr)).
        { unfold acc_spec, step_metric in *. destruct M; try (inversion ESM; subst; reflexivity).
          - cbn [sum_costs cost_at]. rewrite EA.
            destruct (cost_expr (MCosts costs dflt) aid) as [e|]; [|discriminate].
            destruct (eval sc e (mk_interp P s (zip_params (a_params a) args))) as [[|c|]|]; try discriminate.
            inversion ESM; subst. destruct (sum_costs sc P (MCosts costs dflt) tr) as [r|]; [|reflexivity].
            cbn [option_map]. f_equal. ring.
          - inversion ESM; subst. cbn [length]. rewrite zq_succ. f_equal. ring. }
        rewrite E. reflexivity.
      + destruct (trace P step s' plan) as [[tr fin]|]; [|reflexivity].
        assert (E : acc_spec acc ((s, (aid, args)) :: tr) = None).
        { unfold acc_spec, step_metric in *. destruct M; try discriminate.
          cbn [sum_costs cost_at]. rewrite EA.
          destruct (cost_expr (MCosts costs dflt) aid) as [e|]; [|reflexivity].
          destruct (eval sc e (mk_interp P s (zip_params (a_params a) args))) as [[|c|]|]; try reflexivity. discriminate. }
        rewrite E. reflexivity.
  Qed.

  Lemma final_metric_spec tr fin :
    match acc_spec (zq 0) tr with
    | Some a' => final_metric sc P M fin a'
    | None => None
    end = metric_spec sc P M tr fin.
  Proof.
    unfold acc_spec, final_metric, metric_spec. destruct M; try reflexivity.
    - destruct (sum_costs sc P (MCosts costs dflt) tr) as [r|]; [|reflexivity].
      cbn [option_map]. do 2 f_equal. rewrite zq0; ring.
    - do 2 f_equal. rewrite zq0. ring.
  Qed.

  (* the validator's verdict and metric value in terms of the run of the plan *)
  Theorem seq_validate_spec s0 plan :
    seq_validate sc P M s0 plan =
    match trace P (sim_apply sc P) s0 plan with
    | None => Invalid
    | Some (tr, fin) =>
        if goals_hold sc P fin
        then match metric_spec sc P M tr fin with Some m => Valid m | None => Invalid end
        else Invalid
    end.
  Proof.
    unfold seq_validate. rewrite validate_from_trace.
    destruct (trace P (sim_apply sc P) s0 plan) as [[tr fin]|]; [|reflexivity].
    rewrite <- (final_metric_spec tr fin).
    destruct (acc_spec (zq 0) tr) as [a'|]; [reflexivity|].
    destruct (goals_hold sc P fin); reflexivity.
  Qed.

  Lemma trace_run step : forall plan s,
    run P step s plan = match trace P step s plan with Some (_, fin) => Some fin | None => None end.
  Proof.
    induction plan as [|[aid args] plan IH]; intros s; cbn [run trace]; [reflexivity|].
    destruct (lookup_action P aid) as [a|]; [|reflexivity].
    destruct (step s a args) as [s'|]; [|reflexivity].
    rewrite IH. destruct (trace P step s' plan) as [[tr fin]|]; reflexivity.
  Qed.

  (* VALID is returned only for plans that are executable from the initial state and end in a goal state under the
     documented semantics; and every such plan whose metric is defined is VALID *)
  Theorem seq_validate_status s0 plan : plan_typed sc P ->
    (forall m, seq_validate sc P M s0 plan = Valid m -> valid_plan sc P s0 plan = true) /\
    (valid_plan sc P s0 plan = true ->
       seq_validate sc P M s0 plan = Invalid ->
       exists tr fin, trace P (sim_apply sc P) s0 plan = Some (tr, fin) /\ metric_spec sc P M tr fin = None).
  Proof.
    intros WT. rewrite seq_validate_spec. unfold valid_plan.
    pose proof (sim_run_refines_spec sc P plan WT s0 s0 (fun _ _ => eq_refl)) as R.
    rewrite (trace_run (sim_apply sc P)) in R.
    destruct (trace P (sim_apply sc P) s0 plan) as [[tr fin]|]; simpl in R.
    - destruct (run P (spec_step sc P) s0 plan) as [fin'|]; [|contradiction].
      rewrite <- (goals_hold_ext sc P fin fin' R). split.
      + intros m H. destruct (goals_hold sc P fin); [reflexivity | discriminate].
      + intros H1 H2. exists tr, fin. split; [reflexivity|]. rewrite H1 in H2.
        destruct (metric_spec sc P M tr fin); [discriminate | reflexivity].
    - destruct (run P (spec_step sc P) s0 plan); [contradiction|].
      split; [intros m H; discriminate | intros H; discriminate].
  Qed.

  (* the reported metric value is the one the metric defines for the run *)
  Theorem seq_validate_metric s0 plan m :
    seq_validate sc P M s0 plan = Valid m ->
    exists tr fin, trace P (sim_apply sc P) s0 plan = Some (tr, fin) /\ metric_spec sc P M tr fin = Some m.
  Proof.
    rewrite seq_validate_spec.
    destruct (trace P (sim_apply sc P) s0 plan) as [[tr fin]|]; [|discriminate].
    destruct (goals_hold sc P fin); [|discriminate].
    destruct (metric_spec sc P M tr fin) as [m'|] eqn:E; [|discriminate].
    intros H; inversion H; subst. exists tr, fin. auto.
  Qed.

  (* includes the empty plan *)
  Corollary seq_validate_empty s0 :
    seq_validate sc P M s0 [] =
    if goals_hold sc P s0 then match metric_spec sc P M [] s0 with Some m => Valid m | None => Invalid end else Invalid.
  Proof. rewrite seq_validate_spec. reflexivity. Qed.
End V.

(* C06 / C07, Layer A — QuantifiersRemover: proofs about Compilers/LayerA_Quant.v.  The instances of a quantifier are
   the object tuples; substituting a tuple (C13's substituter) is evaluating under the instance; hence the expansion has
   the value of the quantified expression, and the compiled action takes the original step. *)
From Coq Require Import List ZArith NArith QArith Qcanon Bool Lia.
Import ListNotations.
Require Import UPV.Core.Expr UPV.Core.Eval UPV.Core.Interp UPV.Planning.Problem UPV.Planning.Sem.
Require Import UPV.Proofs.Eval_lemmas UPV.Proofs.Sem_proofs UPV.Proofs.Step_proofs UPV.Proofs.ExprKids UPV.Proofs.ExprView UPV.Proofs.EvalView.
Require Import UPV.Walkers.Subst UPV.Proofs.Subst_proofs.
Require Import UPV.Compilers.Variants UPV.Compilers.LayerA_Quant UPV.Proofs.LayerA_Wf_proofs.
Require Import UPV.Compilers.LayerA_Defs UPV.Proofs.LayerA_base UPV.Proofs.LayerA_sim UPV.Proofs.Variants_proofs UPV.Proofs.ListFacts.
Local Open Scope nat_scope.

Lemma binds_static I vs : forall os, same_static I (binds I vs os).
Proof.
  revert I. induction vs as [|[v t] vs IH]; intros I [|o os]; cbn [binds]; try apply same_static_refl.
  eapply same_static_trans; [apply same_static_bind1 | apply IH].
Qed.

Lemma binds_objs I vs os : objs (binds I vs os) = objs I.
Proof. destruct (binds_static I vs os) as (_ & _ & _ & H). exact H. Qed.
Lemma binds_fl I vs os : fl (binds I vs os) = fl I.
Proof. destruct (binds_static I vs os) as (H & _). exact H. Qed.

Lemma instances_binds vs : forall I, instances I vs = map (binds I vs) (obj_tuples (objs I) vs).
Proof.
  induction vs as [|[v t] vs IH]; intros I; [reflexivity|].
  cbn [instances obj_tuples]. induction (objs I t) as [|o os IHo]; [reflexivity|].
  cbn [flat_map]. rewrite map_app, IHo. f_equal.
  rewrite map_map. rewrite IH. reflexivity.
Qed.

Lemma obj_tuples_length ob vs : forall os, In os (obj_tuples ob vs) -> length os = length vs.
Proof.
  induction vs as [|[v t] vs IH]; intros os H; cbn [obj_tuples] in H.
  - destruct H as [<-|[]]. reflexivity.
  - apply in_flat_map in H. destruct H as [o [_ H]]. apply in_map_iff in H. destruct H as [os' [<- H]].
    cbn [length]. f_equal. apply IH. exact H.
Qed.

Lemma binds_var_out x vs : forall I os, ~ In x (map fst vs) -> var (binds I vs os) x = var I x.
Proof.
  induction vs as [|[v t] vs IH]; intros I [|o os] H; cbn [binds]; try reflexivity.
  cbn [map fst] in H. rewrite IH by (intros Hx; apply H; right; exact Hx).
  cbn [bind_var var]. destruct (x =? v)%N eqn:E; [|reflexivity].
  apply N.eqb_eq in E. subst. exfalso. apply H. left; reflexivity.
Qed.

Lemma nodupN_cons x l : nodupN (x :: l) = true -> ~ In x l /\ nodupN l = true.
Proof.
  cbn [nodupN]. intros H. apply andb_true_iff in H. destruct H as [H1 H2]. split; [|exact H2].
  apply negb_true_iff in H1. apply memN_false. exact H1.
Qed.

Lemma binds_var_in vs : forall I os v t o,
  nodupN (map fst vs) = true -> In ((v, t), o) (List.combine vs os) -> var (binds I vs os) v = Some (VObj o).
Proof.
  induction vs as [|[w u] vs IH]; intros I [|o' os] v t o Hnd Hin; cbn [List.combine] in Hin; try destruct Hin.
  - inversion H; subst. cbn [binds]. cbn [map fst] in Hnd. apply nodupN_cons in Hnd. destruct Hnd as [Hn _].
    rewrite binds_var_out by exact Hn. cbn [bind_var var]. rewrite N.eqb_refl. reflexivity.
  - cbn [binds]. cbn [map fst] in Hnd. apply nodupN_cons in Hnd. destruct Hnd as [_ Hnd].
    eapply IH; eassumption.
Qed.

Definition vo (s : smap) : Prop :=
  forall k w, In (k, w) s -> (exists v t, k = EVar v t) /\ (exists o, w = EObj o).

Lemma vo_drop s vs : vo s -> vo (drop_bound s vs).
Proof. intros H k w Hin. apply H. apply (drop_bound_incl s vs). exact Hin. Qed.

Lemma zip_subs_In vs : forall os k w, In (k, w) (zip_subs vs os) ->
  exists v t o, k = EVar v t /\ w = EObj o /\ In ((v, t), o) (List.combine vs os).
Proof.
  induction vs as [|[v t] vs IH]; intros [|o os] k w H; cbn [zip_subs] in H; try destruct H.
  - inversion H; subst. exists v, t, o. repeat split. left; reflexivity.
  - destruct (IH os k w H) as (v' & t' & o' & -> & -> & Hin). exists v', t', o'. repeat split. right; exact Hin.
Qed.

Lemma vo_zip vs os : vo (zip_subs vs os).
Proof.
  intros k w H. destruct (zip_subs_In vs os k w H) as (v & t & o & -> & -> & _).
  split; [exists v, t | exists o]; reflexivity.
Qed.

Lemma vo_assoc_obj s e w : vo s -> assoc s e = Some w -> exists o, w = EObj o.
Proof. intros H Ha. apply assoc_In in Ha. apply (H _ _ Ha). Qed.

Lemma vo_assoc_var s e w : vo s -> assoc s e = Some w -> exists v t, e = EVar v t.
Proof. intros H Ha. apply assoc_In in Ha. apply (H _ _ Ha). Qed.

Lemma assoc_drop_bound s vs k : mentions_bound vs k = false -> assoc (drop_bound s vs) k = assoc s k.
Proof.
  intros Hm. induction s as [|[k' w] s IH]; [reflexivity|].
  unfold drop_bound. cbn [filter fst]. fold (drop_bound s vs).
  rewrite assoc_cons. destruct (expr_eqb k k') eqn:E.
  - apply expr_eqb_eq in E. subst k'. rewrite Hm. cbn [negb]. rewrite assoc_cons, expr_eqb_refl. reflexivity.
  - destruct (negb (mentions_bound vs k')); [rewrite assoc_cons, E|]; exact IH.
Qed.

Lemma zip_assoc_none vs : forall os x t, length os = length vs ->
  assoc (zip_subs vs os) (EVar x t) = None -> ~ In (x, t) vs.
Proof.
  induction vs as [|[v u] vs IH]; intros [|o os] x t Hl Ha; try discriminate; [intros []|].
  cbn [zip_subs] in Ha. rewrite assoc_cons in Ha.
  destruct (expr_eqb (EVar x t) (EVar v u)) eqn:E; [discriminate|].
  intros [H|H].
  - inversion H; subst. rewrite expr_eqb_refl in E. discriminate.
  - revert H. apply (IH os); [cbn [length] in Hl; lia | exact Ha].
Qed.

(* ---- the replacement as a plain homomorphism.  On an expression the manager can build, replacing variables by
   objects triggers none of the manager's normalisations and no key is a compound expression, so [topdown_replace]
   is [osub]: only variable leaves change, binders drop the keys they capture. *)
Fixpoint osub (s : smap) (e : expr) {struct e} : expr :=
  match e with
  | EVar _ _ => match assoc s e with Some w => w | None => e end
  | EBool _ | EInt _ | EReal _ | EObj _ | EParam _ => e
  | EFluent f l => EFluent f (map (osub s) l)
  | EIFun f l => EIFun f (map (osub s) l)
  | EAnd l => EAnd (map (osub s) l)
  | EOr l => EOr (map (osub s) l)
  | ENot a => ENot (osub s a)
  | EImplies a b => EImplies (osub s a) (osub s b)
  | EIff a b => EIff (osub s a) (osub s b)
  | EExists vs a => EExists vs (osub (drop_bound s vs) a)
  | EForall vs a => EForall vs (osub (drop_bound s vs) a)
  | EPlus l => EPlus (map (osub s) l)
  | EMinus a b => EMinus (osub s a) (osub s b)
  | ETimes l => ETimes (map (osub s) l)
  | EDiv a b => EDiv (osub s a) (osub s b)
  | ELe a b => ELe (osub s a) (osub s b)
  | ELt a b => ELt (osub s a) (osub s b)
  | EEquals a b => EEquals (osub s a) (osub s b)
  | EAlways a => EAlways (osub s a)
  | ESometime a => ESometime (osub s a)
  | ESometimeBefore a b => ESometimeBefore (osub s a) (osub s b)
  | ESometimeAfter a b => ESometimeAfter (osub s a) (osub s b)
  | EAtMostOnce a => EAtMostOnce (osub s a)
  end.

Definition is_var (e : expr) : bool := match e with EVar _ _ => true | _ => false end.
(* the variables a node binds, and the map that reaches its sub-expressions *)
Definition bound (e : expr) : list (N * N) := match e with EExists vs _ | EForall vs _ => vs | _ => [] end.
Definition under (s : smap) (e : expr) : smap := match e with EExists vs _ | EForall vs _ => drop_bound s vs | _ => s end.

Lemma vo_under s e : vo s -> vo (under s e).
Proof. intros H. destruct e; try exact H; apply vo_drop; exact H. Qed.

Lemma osub_var s e : vo s -> is_var e = true -> osub s e = e \/ exists o, osub s e = EObj o.
Proof.
  intros H Hv. destruct e; try discriminate. cbn [osub].
  destruct (assoc s _) as [w|] eqn:E; [right; exact (vo_assoc_obj _ _ _ H E) | left; reflexivity].
Qed.

Lemma kids_osub s e : is_var e = false -> kids (osub s e) = map (osub (under s e)) (kids e).
Proof. destruct e; try discriminate; reflexivity. Qed.
Lemma bound_osub s e : is_var e = false -> bound (osub s e) = bound e.
Proof. destruct e; try discriminate; reflexivity. Qed.
Lemma is_var_osub s e : is_var e = false -> is_var (osub s e) = false.
Proof. destruct e; try discriminate; reflexivity. Qed.

Lemma is_not_osub s e : vo s -> is_not (osub s e) = is_not e.
Proof.
  intros H. destruct (is_var e) eqn:Ev; [|destruct e; try discriminate; reflexivity].
  destruct (osub_var s e H Ev) as [->|[o ->]]; [reflexivity | destruct e; try discriminate; reflexivity].
Qed.

Lemma bexp_osub beta s e : vo s -> bexp beta (osub s e) = bexp beta e.
Proof.
  intros H. destruct (is_var e) eqn:Ev; [|destruct e; try discriminate; reflexivity].
  destruct (osub_var s e H Ev) as [->|[o ->]]; [reflexivity | destruct e; try discriminate; reflexivity].
Qed.

Lemma vo_not_var s e : vo s -> is_var e = false -> assoc s e = None.
Proof.
  intros H Hn. destruct (assoc s e) as [w|] eqn:E; [|reflexivity].
  destruct (vo_assoc_var _ _ _ H E) as (v & t & ->). discriminate.
Qed.

Lemma tr_osub e : forall s, vo s -> nf e = true -> topdown_replace s e = osub s e.
Proof.
  induction e using expr_ind'; intros s Hvo Hnf; cbn [topdown_replace osub];
    try (rewrite (vo_not_var s) by (assumption || reflexivity)); cbn [nf] in Hnf; nfsplit;
    try reflexivity;
    try (rewrite (map_Forall_eq nf _ (osub s)) by (try assumption; rewrite Forall_forall in *; intros a Ha Hq; apply H; assumption));
    try (rewrite ?IHe, ?IHe1, ?IHe2 by (try apply vo_drop; assumption); reflexivity).
  - apply mkAnd_two. rewrite two_plus_map. assumption.
  - apply mkOr_two. rewrite two_plus_map. assumption.
  - rewrite IHe by assumption. apply mkNot_plain. rewrite is_not_osub by assumption. apply negb_true_iff. assumption.
  - apply mkPlus_two. rewrite two_plus_map. assumption.
  - apply mkTimes_two. rewrite two_plus_map. assumption.
Qed.

(* ---- what [osub] keeps: every property that is checked node by node, holds of object leaves, and whose check at a
   node only reads what [osub] leaves alone there *)
Section OsubKeeps.
  Variables Q node : expr -> bool.
  Hypothesis Qfold : forall e, Q e = node e && forallb Q (kids e).
  Hypothesis Qobj : forall o, Q (EObj o) = true.
  Hypothesis Qnode : forall s e, vo s -> is_var e = false -> node (osub s e) = node e.

  Lemma osub_keeps e : forall s, vo s -> Q e = true -> Q (osub s e) = true.
  Proof.
    induction e as [e IH] using expr_kids_ind. intros s Hvo HQ. destruct (is_var e) eqn:Ev.
    - destruct (osub_var s e Hvo Ev) as [->|[o ->]]; [exact HQ | apply Qobj].
    - rewrite Qfold in HQ |- *. apply andb_true_iff in HQ. destruct HQ as [Hn Hk].
      rewrite (Qnode s e Hvo Ev), Hn, kids_osub by exact Ev. apply forallb_forall. intros y Hy.
      apply in_map_iff in Hy. destruct Hy as [x [<- Hx]]. rewrite Forall_forall in IH. rewrite forallb_forall in Hk.
      apply IH; [exact Hx | apply vo_under; exact Hvo | apply Hk; exact Hx].
  Qed.
End OsubKeeps.

Definition qf_node (e : expr) : bool := match e with EExists _ _ | EForall _ _ => false | _ => true end.
Lemma qf_fold e : qf e = qf_node e && forallb qf (kids e).
Proof. destruct e; cbn [qf qf_node kids forallb andb]; rewrite ?andb_true_r; reflexivity. Qed.

Definition vtyped_node (tau : N -> N) (e : expr) : bool :=
  match e with EVar v t => (t =? tau v)%N | EExists vs _ | EForall vs _ => binders_ok tau vs | _ => true end.
Lemma vtyped_fold tau e : vtyped tau e = vtyped_node tau e && forallb (vtyped tau) (kids e).
Proof. destruct e; cbn [vtyped vtyped_node kids forallb andb]; rewrite ?andb_true_r; reflexivity. Qed.

Definition bpos_node (beta : N -> bool) (e : expr) : bool :=
  match e with ENot a | EExists _ a | EForall _ a => bexp beta a | _ => true end.
Lemma bpos_fold beta e : bpos beta e = bpos_node beta e && forallb (bpos beta) (kids e).
Proof. destruct e; cbn [bpos bpos_node kids forallb andb]; rewrite ?andb_true_r; reflexivity. Qed.

Lemma qf_osub e s : vo s -> qf e = true -> qf (osub s e) = true.
Proof. apply (osub_keeps qf qf_node qf_fold); [reflexivity|]. intros s' e' _ Hv. destruct e'; try discriminate; reflexivity. Qed.
Lemma vtyped_osub tau e s : vo s -> vtyped tau e = true -> vtyped tau (osub s e) = true.
Proof.
  apply (osub_keeps (vtyped tau) (vtyped_node tau) (vtyped_fold tau)); [reflexivity|].
  intros s' e' _ Hv. destruct e'; try discriminate; reflexivity.
Qed.
Lemma bpos_osub beta e s : vo s -> bpos beta e = true -> bpos beta (osub s e) = true.
Proof.
  apply (osub_keeps (bpos beta) (bpos_node beta) (bpos_fold beta)); [reflexivity|].
  intros s' e' Hvo Hv. destruct e'; try discriminate; try reflexivity; cbn [osub bpos_node]; apply bexp_osub;
    try apply vo_drop; exact Hvo.
Qed.

Lemma filter_all {A} (l : list A) : filter (fun _ => true) l = l.
Proof. induction l as [|x l IH]; [reflexivity|]. cbn [filter]. rewrite IH. reflexivity. Qed.

Lemma fv_kids e : is_var e = false ->
  free_vars e = filter (fun x => negb (memN x (map fst (bound e)))) (flat_map free_vars (kids e)).
Proof.
  destruct e; try discriminate; intros _; cbn [bound kids flat_map map memN negb]; rewrite ?filter_all, ?app_nil_r;
    reflexivity.
Qed.

Lemma assoc_under s e x t : memN x (map fst (bound e)) = false -> assoc (under s e) (EVar x t) = assoc s (EVar x t).
Proof.
  intros Hx. assert (G : forall vs, memN x (map fst vs) = false -> assoc (drop_bound s vs) (EVar x t) = assoc s (EVar x t)).
  { intros vs Hn. apply assoc_drop_bound. unfold mentions_bound. cbn [free_vars]. apply not_true_is_false. intros Hm.
    apply existsb_exists in Hm. destruct Hm as [[y u] [Hy Hm]]. cbn [fst memN existsb] in Hm. rewrite orb_false_r in Hm.
    apply N.eqb_eq in Hm. subst y. apply memN_false in Hn. apply Hn. apply in_map_iff. exists (x, u). split; auto. }
  destruct e; try reflexivity; apply G; exact Hx.
Qed.

(* a variable that is still free after the replacement is not a key (its id carries its type) *)
Lemma fv_osub tau x e : forall s, vo s -> vtyped tau e = true ->
  In x (free_vars (osub s e)) -> assoc s (EVar x (tau x)) = None.
Proof.
  induction e as [e IH] using expr_kids_ind. intros s Hvo Hvt Hin. destruct (is_var e) eqn:Ev.
  - destruct e; try discriminate. cbn [osub] in Hin. cbn [vtyped] in Hvt. apply N.eqb_eq in Hvt. subst ty.
    destruct (assoc s (EVar v (tau v))) as [w|] eqn:Ea.
    + destruct (vo_assoc_obj _ _ _ Hvo Ea) as [o ->]. destruct Hin.
    + destruct Hin as [<-|[]]. exact Ea.
  - rewrite fv_kids, bound_osub, kids_osub in Hin by (try apply is_var_osub; exact Ev).
    apply filter_In in Hin. destruct Hin as [Hin Hb]. apply negb_true_iff in Hb.
    apply in_flat_map in Hin. destruct Hin as [y [Hy Hx]]. apply in_map_iff in Hy. destruct Hy as [k [<- Hk]].
    rewrite <- (assoc_under s e x (tau x) Hb). rewrite Forall_forall in IH.
    apply (IH k Hk); [apply vo_under; exact Hvo | | exact Hx].
    rewrite vtyped_fold in Hvt. apply andb_true_iff in Hvt. destruct Hvt as [_ Hvt]. rewrite forallb_forall in Hvt. apply Hvt, Hk.
Qed.

(* values without free variables can never be captured *)
Lemma cfree_vo e : forall B s, vo s -> cfree B s e = true.
Proof.
  induction e using expr_ind'; intros B s Hvo; cbn [cfree];
    (destruct (assoc s _) as [w|] eqn:Ea; [destruct (vo_assoc_obj _ _ _ Hvo Ea) as [xo ->]; reflexivity|]);
    try reflexivity;
    try (apply forallb_forall; intros a Ha; rewrite Forall_forall in H; apply H; assumption);
    try (rewrite ?IHe, ?IHe1, ?IHe2 by assumption; reflexivity);
    try (apply IHe; apply vo_drop; assumption).
Qed.

Lemma binders_typed tau vs x : binders_ok tau vs = true -> In x (map fst vs) -> In (x, tau x) vs.
Proof.
  intros Hb Hx. unfold binders_ok in Hb. apply andb_true_iff in Hb. destruct Hb as [Hb _].
  rewrite forallb_forall in Hb. apply in_map_iff in Hx. destruct Hx as [[y u] [<- Hy]].
  specialize (Hb _ Hy). cbn [fst snd] in *. apply N.eqb_eq in Hb. subst. exact Hy.
Qed.

(* substituting the variables of a quantifier by the objects of a tuple = evaluating under the instance *)
Theorem subst_vo_eval sc tau vs os e I :
  nf e = true -> vtyped tau e = true -> binders_ok tau vs = true -> length os = length vs ->
  eval sc (substitute (zip_subs vs os) e) I = eval sc e (binds I vs os).
Proof.
  intros Hnf Hvt Hb Hl.
  assert (Hnd : nodupN (map fst vs) = true) by (unfold binders_ok in Hb; apply andb_true_iff in Hb; tauto).
  transitivity (eval sc (substitute (zip_subs vs os) e) (binds I vs os)).
  - symmetry. apply eval_coincide; [apply binds_static|].
    intros x Hx. apply binds_var_out. intros Hin.
    rewrite subst_spec, tr_osub in Hx by (exact Hnf || apply vo_zip).
    apply (fv_osub tau x e _ (vo_zip vs os) Hvt) in Hx.
    apply (zip_assoc_none vs os x (tau x) Hl Hx). apply binders_typed; assumption.
  - apply subst_eval; [exact Hnf | apply cfree_vo, vo_zip | |].
    + intros k w Hin. destruct (zip_subs_In vs os k w Hin) as (v & t & o & -> & -> & Hc).
      cbn [eval]. apply (binds_var_in vs I os v t o Hnd Hc).
    + intros k y Hin. destruct (zip_subs_In vs os k _ Hin) as (v & t & o & _ & Habs & _). discriminate.
Qed.

Lemma mk_list_keeps (Q : expr -> bool) (mk C : list expr -> expr) (unit : expr) :
  (forall l, mk l = match l with [] => unit | [x] => x | _ => C l end) -> Q unit = true ->
  (forall l, two_plus l = true -> forallb Q l = true -> Q (C l) = true) -> forall l, forallb Q l = true -> Q (mk l) = true.
Proof.
  intros Hmk Hu HC l Hl. rewrite Hmk. destruct l as [|x [|y l]]; [exact Hu | | apply HC; [reflexivity | exact Hl]].
  cbn [forallb] in Hl. apply andb_true_iff in Hl. apply Hl.
Qed.

Lemma vtyped_mkNot tau e : vtyped tau e = true -> vtyped tau (mkNot e) = true.
Proof. destruct e; auto. Qed.
Lemma subst_zip_facts tau beta vs os x : nf x = true ->
  let y := substitute (zip_subs vs os) x in
  nf y = true /\ (qf x = true -> qf y = true) /\ (vtyped tau x = true -> vtyped tau y = true) /\
  (bpos beta x = true -> bpos beta y = true) /\ bexp beta y = bexp beta x.
Proof.
  intros Hnf y. pose proof (vo_zip vs os) as Hvo. assert (Ey : y = osub (zip_subs vs os) x).
  { unfold y. rewrite subst_spec by exact Hnf. apply tr_osub; assumption. }
  repeat split.
  - unfold y. rewrite subst_spec by exact Hnf. apply nf_topdown_replace; [|exact Hnf].
    intros k w Hin. destruct (Hvo k w Hin) as [_ [o ->]]. reflexivity.
  - rewrite Ey. apply qf_osub, Hvo.
  - rewrite Ey. apply vtyped_osub, Hvo.
  - rewrite Ey. apply bpos_osub, Hvo.
  - rewrite Ey. apply bexp_osub, Hvo.
Qed.

Lemma mkn_connective (ex : bool) l : mkn (if ex then NOr else NAnd) l = (if ex then mkOr else mkAnd) l.
Proof. destruct ex; reflexivity. Qed.

Lemma nf_kids e : nf e = true -> forallb nf (kids e) = true.
Proof. destruct e; cbn [nf kids forallb]; intros H; nfsplit; rewrite ?andb_true_r; auto; apply andb_true_iff; auto. Qed.

(* what expansion keeps, shape by shape; the copies of a quantifier body through [subst_zip_facts] *)
Lemma keeps_tuples (Q : expr -> bool) (ex : bool) vs ob x :
  Q (EBool true) = true -> Q (EBool false) = true ->
  (forall l, two_plus l = true -> forallb Q l = true -> Q (EAnd l) = true) ->
  (forall l, two_plus l = true -> forallb Q l = true -> Q (EOr l) = true) ->
  (forall os, Q (substitute (zip_subs vs os) x) = true) ->
  Q ((if ex then mkOr else mkAnd) (map (fun os => substitute (zip_subs vs os) x) (obj_tuples ob vs))) = true.
Proof.
  intros Ht Hf Ha Ho Hs.
  assert (Hl : forallb Q (map (fun os => substitute (zip_subs vs os) x) (obj_tuples ob vs)) = true)
    by (apply forallb_forall; intros y Hy; apply in_map_iff in Hy; destruct Hy as [os [<- _]]; apply Hs).
  destruct ex; [apply (mk_list_keeps Q mkOr EOr (EBool false)) | apply (mk_list_keeps Q mkAnd EAnd (EBool true))]; auto.
Qed.

Lemma nf_expand ob e : nf e = true -> nf (expand ob e) = true.
Proof.
  induction e as [e Hl|o a IHa|o a b IHa IHb|o l H|ex vs a IHa] using expr_view_ind; intros Hnf;
    pose proof (nf_kids _ Hnf) as K.
  - rewrite expand_leaf by exact Hl. exact Hnf.
  - rewrite kids_E1 in K. cbn [forallb] in K. nfsplit. rewrite expand_E1.
    destruct o; [apply nf_mkNot|..]; cbn [mk1 E1 nf]; apply IHa; assumption.
  - rewrite kids_E2 in K. cbn [forallb] in K. nfsplit. rewrite expand_E2.
    destruct o; cbn [E2 nf]; rewrite IHa, IHb by assumption; reflexivity.
  - rewrite kids_En in K. rewrite expand_En, (mkn_nf o l _ Hnf).
    assert (Hl : forallb nf (map (expand ob) l) = true).
    { rewrite forallb_forall in *. rewrite Forall_forall in H. intros y Hy. apply in_map_iff in Hy.
      destruct Hy as [x [<- Hx]]. apply H; [exact Hx | apply K, Hx]. }
    destruct o; cbn [En nf] in Hnf |- *; nfsplit; rewrite ?two_plus_map, Hl; try reflexivity; rewrite andb_true_r; assumption.
  - rewrite kids_EQ in K. cbn [forallb] in K. nfsplit. rewrite expand_EQ, mkn_connective.
    apply keeps_tuples; try reflexivity; try (intros l T F; apply andb_true_iff; split; assumption).
    intros os. apply (subst_zip_facts (fun _ => 0%N) (fun _ => false)). apply IHa; assumption.
Qed.

Lemma vtyped_expand tau ob e : nf e = true -> vtyped tau e = true -> vtyped tau (expand ob e) = true.
Proof.
  induction e as [e Hl|o a IHa|o a b IHa IHb|o l H|ex vs a IHa] using expr_view_ind; intros Hnf Hvt;
    pose proof (nf_kids _ Hnf) as K; pose proof Hvt as Kv; rewrite vtyped_fold in Kv; apply andb_true_iff in Kv;
    destruct Kv as [_ Kv].
  - rewrite expand_leaf by exact Hl. exact Hvt.
  - rewrite kids_E1 in K, Kv. cbn [forallb] in K, Kv. nfsplit. rewrite expand_E1.
    destruct o; [apply vtyped_mkNot|..]; cbn [mk1 E1 vtyped]; apply IHa; assumption.
  - rewrite kids_E2 in K, Kv. cbn [forallb] in K, Kv. nfsplit. rewrite expand_E2.
    destruct o; cbn [E2 vtyped]; rewrite IHa, IHb by assumption; reflexivity.
  - rewrite kids_En in K, Kv. rewrite expand_En, (mkn_nf o l _ Hnf).
    assert (Hl : forallb (vtyped tau) (map (expand ob) l) = true).
    { rewrite forallb_forall in *. rewrite Forall_forall in H. intros y Hy. apply in_map_iff in Hy.
      destruct Hy as [x [<- Hx]]. apply H; [exact Hx | apply K, Hx | apply Kv, Hx]. }
    destruct o; exact Hl.
  - rewrite kids_EQ in K, Kv. cbn [forallb] in K, Kv. nfsplit. rewrite expand_EQ, mkn_connective.
    apply keeps_tuples; try reflexivity; try (intros l _ F; exact F). intros os.
    apply (subst_zip_facts tau (fun _ => false)); [apply nf_expand; assumption | apply IHa; assumption].
Qed.

Lemma bpos_expand beta ob e : nf e = true -> bpos beta e = true ->
  bpos beta (expand ob e) = true /\ (bexp beta e = true -> bexp beta (expand ob e) = true).
Proof.
  induction e as [e Hl|o a IHa|o a b IHa IHb|o l H|ex vs a IHa] using expr_view_ind; intros Hnf Hb;
    pose proof (nf_kids _ Hnf) as K; pose proof Hb as Kb; rewrite bpos_fold in Kb; apply andb_true_iff in Kb;
    destruct Kb as [Nb Kb].
  - rewrite expand_leaf by exact Hl. auto.
  - rewrite kids_E1 in K, Kb. cbn [forallb] in K, Kb. nfsplit. destruct (IHa ltac:(assumption) ltac:(assumption)) as [B X].
    rewrite expand_E1. destruct (mk1_cases o (expand ob a)) as [->|(y & -> & Ex & ->)].
    + destruct o; cbn [E1 bpos bexp]; try (split; [exact B | auto]).
      cbn [bpos_node E1] in Nb. rewrite (X Nb), B. auto.
    + rewrite Ex in B. cbn [bpos] in B. apply andb_true_iff in B. split; [apply B | intros _; apply B].
  - rewrite kids_E2 in K, Kb. cbn [forallb] in K, Kb. nfsplit.
    destruct (IHa ltac:(assumption) ltac:(assumption)) as [B1 _], (IHb ltac:(assumption) ltac:(assumption)) as [B2 _].
    rewrite expand_E2. destruct o; cbn [E2 bpos bexp]; rewrite B1, B2; auto.
  - rewrite kids_En in K, Kb. rewrite expand_En, (mkn_nf o l _ Hnf).
    assert (HL : forallb (bpos beta) (map (expand ob) l) = true).
    { rewrite forallb_forall in *. rewrite Forall_forall in H. intros y Hy. apply in_map_iff in Hy.
      destruct Hy as [x [<- Hx]]. apply H; [exact Hx | apply K, Hx | apply Kb, Hx]. }
    destruct o; cbn [En bpos bexp]; auto.
  - rewrite kids_EQ in K, Kb. cbn [forallb] in K, Kb. nfsplit. destruct (IHa ltac:(assumption) ltac:(assumption)) as [B X].
    assert (Hbe : bexp beta a = true) by (destruct ex; exact Nb). rewrite expand_EQ, mkn_connective.
    assert (Hs : forall os, bpos beta (substitute (zip_subs vs os) (expand ob a)) = true /\
                            bexp beta (substitute (zip_subs vs os) (expand ob a)) = true).
    { intros os. destruct (subst_zip_facts (fun _ => 0%N) beta vs os _ (nf_expand ob a ltac:(assumption))) as (_ & _ & _ & F4 & F5).
      split; [apply F4, B | rewrite F5; apply X, Hbe]. }
    split; [|intros _]; apply keeps_tuples; try reflexivity; try (intros l _ F; exact F); intros os; apply Hs.
Qed.

Lemma bexp_bool sc beta e I : bexp beta e = true -> btyped beta I -> bool_or_undef (eval sc e I).
Proof.
  intros Hb Hty. unfold bool_or_undef.
  destruct (expr_view e) as [Hl|[(o & a & ->)|[(o & a & b & ->)|[(o & l & ->)|(ex & vs & a & ->)]]]].
  - destruct e; try discriminate. right. eexists. reflexivity.
  - rewrite eval_E1. destruct o; try discriminate. cbn [sem1]. destruct (as_bool _); [right; eexists|left]; reflexivity.
  - rewrite eval_E2. destruct o; try discriminate; cbn [sem2];
      destruct (eval sc a I) as [[?|?|?]|], (eval sc b I) as [[?|?|?]|]; cbn [as_bool as_num];
      try (left; reflexivity); right; eexists; reflexivity.
  - rewrite eval_En. destruct o; try discriminate; cbn [semn].
    + destruct (evals sc I l); [apply Hty; exact Hb | left; reflexivity].
    + destruct (ebools sc I l); [right; eexists|left]; reflexivity.
    + destruct (ebools sc I l); [right; eexists|left]; reflexivity.
  - rewrite eval_EQ. destruct (q_fold sc ex _); [right; eexists|left]; reflexivity.
Qed.

Lemma qfold_ebools ex I xs :
  q_fold false ex (map (fun x => as_bool (eval false x I)) xs) =
  match ebools false I xs with
  | Some bs => Some (if ex then existsb (fun b => b) bs else forallb (fun b => b) bs) | None => None end.
Proof.
  induction xs as [|x xs IH]; [destruct ex; reflexivity|]. cbn [map q_fold ebools].
  destruct (as_bool (eval false x I)) as [b|]; [|reflexivity]. rewrite IH.
  destruct (ebools false I xs) as [bs|], ex, b; reflexivity.
Qed.

Lemma bou_as_bool v : bool_or_undef v -> v = match as_bool v with Some b => Some (VBool b) | None => None end.
Proof. intros [->|[b ->]]; reflexivity. Qed.

Lemma eval_mkq_qfold (ex : bool) I xs : (forall x, In x xs -> bool_or_undef (eval false x I)) ->
  eval false ((if ex then mkOr else mkAnd) xs) I =
  match q_fold false ex (map (fun x => as_bool (eval false x I)) xs) with Some b => Some (VBool b) | None => None end.
Proof.
  intros Hb. destruct xs as [|x [|y l]].
  - destruct ex; reflexivity.
  - pose proof (bou_as_bool _ (Hb x (or_introl eq_refl))) as E.
    destruct ex; cbn [mkOr mkAnd map q_fold]; rewrite E at 1; destruct (as_bool (eval false x I)) as [[|]|]; reflexivity.
  - rewrite qfold_ebools. destruct ex; cbn [mkOr mkAnd]; rewrite ?eval_EOr, ?eval_EAnd;
      destruct (ebools false I (x :: y :: l)); reflexivity.
Qed.

Lemma wfe_split tau beta e : wfe tau beta e = true -> nf e = true /\ bpos beta e = true /\ vtyped tau e = true.
Proof. unfold wfe. intros H. nfsplit. auto. Qed.

Lemma btyped_binds beta I vs os : btyped beta I -> btyped beta (binds I vs os).
Proof. intros H f args Hf. rewrite binds_fl. apply H. exact Hf. Qed.

Section ExpandEval.
  Variable tau : N -> N.
  Variable beta : N -> bool.
  Variable ob : N -> list N.

  Definition good_interp (I : interp) : Prop := objs I = ob /\ btyped beta I.

  Lemma good_binds I vs os : good_interp I -> good_interp (binds I vs os).
  Proof. intros [H1 H2]. split; [rewrite binds_objs; exact H1 | apply btyped_binds; exact H2]. Qed.

  (* the instances of a quantifier, evaluated on the body, are the substituted copies of the expanded body *)
  Lemma inst_map_eq e vs I :
    nf e = true -> vtyped tau e = true -> bpos beta e = true -> bexp beta e = true -> binders_ok tau vs = true ->
    good_interp I ->
    (forall J, good_interp J -> eval false (expand ob e) J = eval false e J) ->
    let xs := map (fun os => substitute (zip_subs vs os) (expand ob e)) (obj_tuples ob vs) in
    map (fun x => as_bool (eval false x I)) xs = map (fun J => as_bool (eval false e J)) (instances I vs) /\
    (forall x, In x xs -> bool_or_undef (eval false x I)).
  Proof.
    intros Hnf Hvt Hbp Hbe Hb HI IH xs.
    assert (E : forall os, In os (obj_tuples ob vs) ->
                eval false (substitute (zip_subs vs os) (expand ob e)) I = eval false e (binds I vs os)).
    { intros os Hos. rewrite (subst_vo_eval false tau); [apply IH, good_binds, HI | apply nf_expand; assumption
        | apply vtyped_expand; assumption | assumption | eapply obj_tuples_length; exact Hos]. }
    split.
    - unfold xs. rewrite instances_binds. destruct HI as [-> _]. rewrite !map_map.
      apply map_ext_in. intros os Hos. rewrite (E os Hos). reflexivity.
    - intros x Hx. unfold xs in Hx. apply in_map_iff in Hx. destruct Hx as [os [<- Hos]].
      rewrite (E os Hos). apply (bexp_bool false beta); [exact Hbe | apply good_binds, HI].
  Qed.

  Lemma parts_kids e : nf e = true -> bpos beta e = true -> vtyped tau e = true ->
    Forall (fun x => nf x = true /\ bpos beta x = true /\ vtyped tau x = true) (kids e).
  Proof.
    intros Hn Hb Hv. apply nf_kids in Hn. rewrite bpos_fold in Hb. rewrite vtyped_fold in Hv. nfsplit.
    rewrite forallb_forall in *. apply Forall_forall. auto.
  Qed.

  Lemma expand_eval_parts e : forall I, nf e = true -> bpos beta e = true -> vtyped tau e = true -> good_interp I ->
    eval false (expand ob e) I = eval false e I.
  Proof.
    induction e as [e Hl|o a IHa|o a b IHa IHb|o l H|ex vs a IHa] using expr_view_ind; intros I Hnf Hbp Hvt HI;
      pose proof (parts_kids _ Hnf Hbp Hvt) as K.
    - rewrite expand_leaf by exact Hl. reflexivity.
    - rewrite kids_E1 in K. inversion K as [|? ? (N1 & B1 & V1) _]; subst. specialize (IHa I N1 B1 V1 HI).
      rewrite expand_E1. destruct (mk1_cases o (expand ob a)) as [->|(y & -> & Ex & ->)].
      + rewrite !eval_E1, IHa. reflexivity.
      + (* the manager removes a double negation, harmless because the inner expression is Boolean *)
        cbn [E1]. rewrite (eval_ENot false I a), <- IHa, Ex. apply double_not_eval. apply (bexp_bool false beta); [|apply HI].
        destruct (bpos_expand beta ob a N1 B1) as [B _]. rewrite Ex in B. cbn [bpos] in B. apply andb_true_iff in B. tauto.
    - rewrite kids_E2 in K. inversion K as [|? ? (N1 & B1 & V1) K2]; subst. inversion K2 as [|? ? (N2 & B2 & V2) _]; subst.
      rewrite expand_E2, !eval_E2, (IHa I N1 B1 V1 HI), (IHb I N2 B2 V2 HI). reflexivity.
    - rewrite kids_En in K. rewrite expand_En, (mkn_nf o l _ Hnf), !eval_En. apply semn_ext; [|reflexivity|reflexivity].
      apply Forall2_map_self. rewrite Forall_forall in *. intros x Hx. destruct (K x Hx) as (N1 & B1 & V1). apply H; assumption.
    - rewrite kids_EQ in K. inversion K as [|? ? (N1 & B1 & V1) _]; subst. rewrite expand_EQ, mkn_connective.
      assert (Hq : bexp beta a = true /\ binders_ok tau vs = true)
        by (destruct ex; cbn [EQ bpos vtyped] in Hbp, Hvt; nfsplit; split; assumption).
      destruct (inst_map_eq a vs I N1 V1 B1 (proj1 Hq) (proj2 Hq) HI (fun J HJ => IHa J N1 B1 V1 HJ)) as [M Bo].
      rewrite eval_mkq_qfold by exact Bo. rewrite M, eval_EQ. reflexivity.
  Qed.

  Theorem expand_eval_strict e I : wfe tau beta e = true -> good_interp I ->
    eval false (expand ob e) I = eval false e I.
  Proof. intros Hwf. apply wfe_split in Hwf. destruct Hwf as (Hnf & Hbp & Hvt). apply expand_eval_parts; assumption. Qed.
End ExpandEval.

Lemma eval_qf_sc e : forall I, qf e = true -> eval true e I = eval false e I.
Proof.
  induction e as [e Hl|o a IHa|o a b IHa IHb|o l H|ex vs a IHa] using expr_view_ind; intros I Hq.
  - destruct e; try discriminate; reflexivity.
  - rewrite !eval_E1, IHa; [reflexivity | destruct o; exact Hq].
  - assert (Hab : qf a = true /\ qf b = true) by (destruct o; cbn [E2 qf] in Hq; nfsplit; split; assumption).
    rewrite !eval_E2, IHa, IHb by apply Hab. reflexivity.
  - assert (Hl : forallb qf l = true) by (destruct o; exact Hq). rewrite !eval_En.
    apply semn_ext; [|reflexivity|reflexivity]. rewrite <- (map_id l) at 1. apply Forall2_map_self.
    rewrite forallb_forall in Hl. rewrite Forall_forall in *. intros x Hx. apply H; [exact Hx | apply Hl, Hx].
  - destruct ex; discriminate.
Qed.

(* ---- the two quantifier modes.
   strict ([eval false], the documented reading): the expansion has the same value and the same definedness;
   short-circuit ([eval true], what the evaluator does): And/Or are strict in this semantics, the quantifiers are not, so
   the expansion REFINES the quantified expression (a value of the expansion is the value of the original; an
   instance that is undefined after a deciding one makes the expansion undefined and leaves the original defined),
   and wherever the strict reading of the original is defined all four agree. *)
Theorem expand_quantifiers_eval tau beta e I :
  wfe tau beta e = true -> btyped beta I -> eval false (expand (objs I) e) I = eval false e I.
Proof. intros Hw Hb. apply (expand_eval_strict tau beta (objs I)); [exact Hw | split; [reflexivity | exact Hb]]. Qed.

Theorem expand_quantifiers_eval_sc tau beta e I v :
  wfe tau beta e = true -> btyped beta I -> eval true (expand (objs I) e) I = Some v -> eval true e I = Some v.
Proof.
  intros Hw Hb H. apply eval_sc_refines.
  rewrite <- (expand_quantifiers_eval tau beta e I Hw Hb), <- eval_qf_sc; [exact H|].
  apply qf_expand'.
Qed.

Theorem expand_quantifiers_eval_sc_defined tau beta e I v :
  wfe tau beta e = true -> btyped beta I -> eval false e I = Some v ->
  eval true (expand (objs I) e) I = Some v /\ eval true e I = Some v.
Proof.
  intros Hw Hb H. split; [|apply eval_sc_refines; exact H].
  rewrite eval_qf_sc by apply qf_expand'.
  rewrite (expand_quantifiers_eval tau beta e I Hw Hb). exact H.
Qed.

Theorem expand_quantifier_free tau beta ob e : wfe tau beta e = true -> qf (expand ob e) = true.
Proof. intros _. apply qf_expand'. Qed.

(* the refinement of the short-circuit mode is strict: Exists v. p(v) with p(o1) true and p(o2) undefined *)
Example expand_sc_not_equal :
  exists e I, eval true e I = Some (VBool true) /\ eval true (expand (objs I) e) I = None.
Proof.
  exists (EExists [(0%N, 0%N)] (EFluent 0%N [EVar 0%N 0%N])),
         {| fl := fun f a => match a with [VObj 1%N] => Some (VBool true) | _ => None end;
            par := fun _ => None; var := fun _ => None; ifun := fun _ _ => None; objs := fun _ => [1%N; 2%N] |}.
  split; vm_compute; reflexivity.
Qed.

Section QuantProofs.
  Variable smp : expr -> expr.
  Hypothesis Hsmp : smp_exact smp.
  Variable P : problem.
  Variable tau : N -> N.
  Let ob := objs_of P.
  Let beta := is_bool_fluent P.
  Let P' := quant_compile smp P.

  Notation good := (good_interp beta ob).

  Lemma ev_expand e I : wfe tau beta e = true -> good I -> eval false (expand ob e) I = eval false e I.
  Proof. intros. apply (expand_eval_strict tau beta ob); assumption. Qed.

  Lemma ev_smp_expand e I : wfe tau beta e = true -> good I -> eval false (smp (expand ob e)) I = eval false e I.
  Proof. intros. rewrite Hsmp. apply ev_expand; assumption. Qed.

  Lemma good_mk s pars : bool_state P s -> good (mk_interp P s pars).
  Proof. intros H. split; [reflexivity|]. intros f args Hf. apply H. exact Hf. Qed.

  Lemma good_instance I vs J : good I -> In J (instances I vs) -> good J.
  Proof.
    intros HI HJ. rewrite instances_binds in HJ. apply in_map_iff in HJ. destruct HJ as [os [<- _]].
    apply good_binds. exact HI.
  Qed.

  (* one expanded effect (no forall variable left) after the loop body of _compile *)
  Lemma q_effect1_res J e1 :
    e_vars e1 = [] -> wfe tau beta (e_cond e1) = true -> wfe tau beta (e_val e1) = true -> good J ->
    evals_l false J (e_args e1) <> None ->
    strip (eres_of J (q_effect1 smp P e1)) = strip [eval_effect false J e1].
  Proof.
    intros Hv Hc Hval HJ Ha. unfold q_effect1. fold ob.
    set (c := if is_uncond e1 then e_cond e1 else smp (expand ob (e_cond e1))).
    assert (Ec : eval false c J = eval false (e_cond e1) J).
    { unfold c. destruct (is_uncond e1); [reflexivity | apply ev_smp_expand; assumption]. }
    destruct (is_false c) eqn:F.
    - apply is_false_eq in F. rewrite F in Ec. cbn [eval] in Ec.
      unfold eval_effect. destruct (evals_l false J (e_args e1)); [|congruence]. rewrite <- Ec. reflexivity.
    - unfold eres_of. cbn [flat_map set_cv e_vars]. rewrite Hv. cbn [instances map app]. f_equal. f_equal.
      unfold eval_effect. cbn [set_cv e_args e_cond e_val e_fl e_kind]. rewrite Ec, (ev_expand _ J Hval HJ). reflexivity.
  Qed.

  Lemma wfe_subst vs os x : wfe tau beta x = true -> wfe tau beta (substitute (zip_subs vs os) x) = true.
  Proof.
    intros H. apply wfe_split in H. destruct H as (H1 & H2 & H3).
    destruct (subst_zip_facts tau beta vs os x H1) as (F1 & _ & F3 & F4 & _).
    unfold wfe. rewrite F1, (F4 H2), (F3 H3). reflexivity.
  Qed.

  Lemma evals_l_subst vs os l I :
    forallb (wfe tau beta) l = true -> binders_ok tau vs = true -> length os = length vs ->
    evals_l false I (map (substitute (zip_subs vs os)) l) = evals_l false (binds I vs os) l.
  Proof.
    intros Hl Hb Hlen. induction l as [|x l IH]; [reflexivity|]. cbn [forallb] in Hl. nfsplit.
    cbn [map evals_l]. match goal with Hx : wfe tau beta x = true |- _ => apply wfe_split in Hx; destruct Hx as (X1 & X2 & X3) end.
    rewrite (subst_vo_eval false tau vs os x I X1 X3 Hb Hlen), IH by assumption. reflexivity.
  Qed.

  Lemma effect_wf_split e : effect_wf P tau e = true ->
    forallb (wfe tau beta) (e_args e) = true /\ wfe tau beta (e_val e) = true /\ wfe tau beta (e_cond e) = true /\
    binders_ok tau (e_vars e) = true.
  Proof. unfold effect_wf. intros H. nfsplit. auto. Qed.

  (* one original effect: its expanded copies evaluate like its instances *)
  Lemma expand_effect_res I e :
    effect_wf P tau e = true -> good I ->
    (forall J, In J (instances I (e_vars e)) -> evals_l false J (e_args e) <> None) ->
    strip (eres_of I (flat_map (q_effect1 smp P) (expand_effect P e))) =
    strip (map (fun J => eval_effect false J e) (instances I (e_vars e))).
  Proof.
    intros Hwf HI Ht. apply effect_wf_split in Hwf. destruct Hwf as (Wa & Wv & Wc & Wb).
    unfold expand_effect. fold ob. destruct (e_vars e) as [|vt vs0] eqn:Ev.
    - cbn [flat_map instances map]. rewrite app_nil_r. apply q_effect1_res; try assumption.
      apply Ht. left; reflexivity.
    - set (vs := vt :: vs0) in *.
      rewrite ListFacts.flat_map_map, eres_of_flat_map.
      rewrite instances_binds. destruct HI as [Hob Hbt]. rewrite Hob. rewrite map_map.
      rewrite <- (flat_map_singleton (fun os => eval_effect false (binds I vs os) e)).
      apply strip_flat_map. intros os Hos.
      pose proof (obj_tuples_length ob vs os Hos) as Hlen.
      set (s := zip_subs vs os).
      set (e1 := set_cv e (map (substitute s) (e_args e)) (substitute s (e_val e)) (substitute s (e_cond e)) []).
      assert (Ea : evals_l false I (e_args e1) = evals_l false (binds I vs os) (e_args e))
        by (apply evals_l_subst; assumption).
      rewrite (q_effect1_res I e1); [| reflexivity | apply wfe_subst; exact Wc | apply wfe_subst; exact Wv
                                     | split; assumption |].
      + f_equal. f_equal. unfold eval_effect. rewrite Ea.
        unfold e1, s. cbn [set_cv e_cond e_val e_fl e_kind].
        apply wfe_split in Wc. destruct Wc as (C1 & _ & C3). apply wfe_split in Wv. destruct Wv as (V1 & _ & V3).
        rewrite (subst_vo_eval false tau vs os (e_cond e) I C1 C3 Wb Hlen),
                (subst_vo_eval false tau vs os (e_val e) I V1 V3 Wb Hlen). reflexivity.
      + rewrite Ea. apply Ht. rewrite instances_binds, Hob. apply in_map. exact Hos.
  Qed.

  Lemma q_effects_fired I effs :
    forallb (effect_wf P tau) effs = true -> good I ->
    (forall e J, In e effs -> In J (instances I (e_vars e)) -> evals_l false J (e_args e) <> None) ->
    fired false I (q_effects smp P effs) = fired false I effs.
  Proof.
    intros Hwf HI Ht. rewrite !fired_eres, collect_res_strip, (collect_res_strip (eres_of I effs)). f_equal.
    unfold q_effects. rewrite eres_of_flat_map. unfold eres_of at 2. apply strip_flat_map.
    intros e He. apply expand_effect_res; [|exact HI|].
    - rewrite forallb_forall in Hwf. apply Hwf. exact He.
    - intros J HJ. apply (Ht e J He HJ).
  Qed.

  Lemma quant_invariants s :
    forallb (wfe tau beta) (p_invs P) = true -> bool_state P s ->
    invariants_ok false P' s = invariants_ok false P s.
  Proof.
    intros Hwf Hs. unfold invariants_ok.
    rewrite (bound_invs_sig P P' eq_refl eq_refl). change (mk_interp P' s []) with (mk_interp P s []).
    rewrite !all_hold_app. f_equal.
    change (p_invs P') with (q_invs smp P (p_invs P)). unfold q_invs. fold ob.
    rewrite all_hold_filter_true. apply all_hold_map_eq2.
    intros x Hx. apply ev_smp_expand; [|apply good_mk; exact Hs].
    rewrite forallb_forall in Hwf. apply Hwf. exact Hx.
  Qed.

  Lemma action_wf_split a : action_wf P tau a = true ->
    forallb (wfe tau beta) (a_pre a) = true /\ forallb (effect_wf P tau) (a_effs a) = true.
  Proof. unfold action_wf. intros H. nfsplit. auto. Qed.

  Lemma quant_step s a a' args :
    action_wf P tau a = true -> forallb (wfe tau beta) (p_invs P) = true -> bool_state P s ->
    targets_total P a args -> q_action smp P a = Some a' ->
    spec_step false P' s a' args = spec_step false P s a args.
  Proof.
    intros Hwf Hinv Hs Ht Hq. apply action_wf_split in Hwf. destruct Hwf as [Wp We].
    unfold q_action in Hq. fold ob in Hq.
    destruct (add_effs_ok [] [] (q_effects smp P (a_effs a))); [|discriminate]. inversion Hq; subst a'. clear Hq.
    pose proof (good_mk s (zip_params (a_params a) args) Hs) as HI.
    apply spec_step_cong; try reflexivity.
    - cbn [a_pre]. rewrite all_hold_add_pres. apply all_hold_map_eq2. intros x Hx.
      apply ev_expand; [|exact HI]. rewrite forallb_forall in Wp. apply Wp. exact Hx.
    - cbn [a_effs]. apply q_effects_fired; [exact We | exact HI |].
      intros e J He HJ. apply (Ht s e J He HJ).
    - intros acts _. apply quant_invariants; [exact Hinv | apply spec_succ_bool; exact Hs].
  Qed.

  Lemma problem_wf_split : problem_wf P tau = true ->
    (forall aid a, In (aid, a) (p_actions P) -> action_wf P tau a = true) /\
    forallb (wfe tau beta) (p_goals P) = true /\ forallb (wfe tau beta) (p_invs P) = true.
  Proof.
    unfold problem_wf. intros H. nfsplit. repeat split; try assumption.
    intros aid a Hin. match goal with Hf : forallb _ (p_actions P) = true |- _ => rewrite forallb_forall in Hf; apply (Hf (aid, a) Hin) end.
  Qed.

  Lemma quant_lookup aid : unique_ids P ->
    lookup_action P' aid = match lookup_action P aid with Some a => q_action smp P a | None => None end.
  Proof. intros Hu. unfold lookup_action. apply lookup_map_actions. exact Hu. Qed.

  Lemma quant_goals s : forallb (wfe tau beta) (p_goals P) = true -> bool_state P s ->
    goals_hold false P' s = goals_hold false P s.
  Proof.
    intros Hwf Hs. unfold goals_hold. change (mk_interp P' s []) with (mk_interp P s []).
    change (p_goals P') with (add_goals (map (expand ob) (p_goals P))). unfold add_goals.
    rewrite all_hold_filter_true. apply all_hold_map_eq2. intros x Hx.
    apply ev_expand; [|apply good_mk; exact Hs]. rewrite forallb_forall in Hwf. apply Hwf. exact Hx.
  Qed.

  Hypothesis Hu : unique_ids P.
  Hypothesis Hwf : problem_wf P tau = true.

  Lemma quant_run pi : forall s, bool_state P s -> plan_targets_total P pi ->
    run P' (spec_step false P') s pi = run P (spec_step false P) s pi \/
    run P' (spec_step false P') s pi = None /\ exists aid a, In (aid, a) (p_actions P) /\ q_action smp P a = None.
  Proof.
    destruct (problem_wf_split Hwf) as (Wa & _ & Wi).
    induction pi as [|[aid args] pi IH]; intros s Hs Ht; [left; reflexivity|]. cbn [run].
    rewrite quant_lookup by exact Hu. destruct (lookup_action P aid) as [a|] eqn:EL; [|left; reflexivity].
    assert (Hin : In (aid, a) (p_actions P)) by (apply lookupN_In; exact EL).
    destruct (q_action smp P a) as [a'|] eqn:EQ; [|right; split; [reflexivity | exists aid, a; split; assumption]].
    rewrite (quant_step s a a' args (Wa aid a Hin) Wi Hs (Ht aid args a (or_introl eq_refl) EL) EQ).
    destruct (spec_step false P s a args) as [s1|] eqn:ES; [|left; reflexivity].
    apply IH; [eapply spec_step_bool; eassumption|].
    intros aid0 args0 a0 H0. apply Ht. right; exact H0.
  Qed.

  Lemma run_bool pi s t : bool_state P s -> run P (spec_step false P) s pi = Some t -> bool_state P t.
  Proof. apply (run_closed P (bool_state P)). intros s1 aid a args t1 Hs _. apply spec_step_bool. exact Hs. Qed.

  Lemma quant_run_sound pi : forall s t, bool_state P s -> plan_targets_total P pi ->
    run P' (spec_step false P') s pi = Some t -> run P (spec_step false P) s pi = Some t /\ bool_state P t.
  Proof.
    intros s t Hs Ht E. destruct (quant_run pi s Hs Ht) as [E'|[E' _]]; rewrite E' in E; [|discriminate].
    split; [exact E | exact (run_bool pi s t Hs E)].
  Qed.

  (* soundness: a valid plan of the compiled problem is, unchanged (the compiled actions keep their names and
     parameters), a valid plan of the original problem *)
  Theorem quant_sound s0 pi : bool_state P s0 -> plan_targets_total P pi ->
    valid_plan false P' s0 pi = true -> valid_plan false P s0 pi = true.
  Proof.
    intros Hs Ht. unfold valid_plan.
    destruct (run P' (spec_step false P') s0 pi) as [t|] eqn:ER; [|discriminate].
    destruct (quant_run_sound pi s0 t Hs Ht ER) as [-> Hb].
    destruct (problem_wf_split Hwf) as (_ & Wg & _). rewrite (quant_goals t Wg Hb). auto.
  Qed.

  Theorem quant_valid_plan s0 pi : no_action_dropped smp P -> bool_state P s0 -> plan_targets_total P pi ->
    valid_plan false P' s0 pi = valid_plan false P s0 pi.
  Proof.
    intros Hnd Hs Ht. unfold valid_plan.
    destruct (quant_run pi s0 Hs Ht) as [->|[_ (aid & a & Hin & E)]]; [|destruct (Hnd aid a Hin E)].
    destruct (run P (spec_step false P) s0 pi) as [t|] eqn:ER; [|reflexivity].
    destruct (problem_wf_split Hwf) as (_ & Wg & _). apply (quant_goals t Wg (run_bool pi s0 t Hs ER)).
  Qed.

  (* completeness: when no action is left out for conflicting effects, every valid plan of the original problem is a
     valid plan of the compiled one *)
  Theorem quant_complete s0 pi : no_action_dropped smp P -> bool_state P s0 -> plan_targets_total P pi ->
    valid_plan false P s0 pi = true -> valid_plan false P' s0 pi = true.
  Proof. intros Hnd Hs Ht H. rewrite quant_valid_plan by assumption. exact H. Qed.

  (* the initial state is judged alike (state invariants and bounded types of the initial state) *)
  Theorem quant_init_ok s0 : bool_state P s0 -> invariants_ok false P' s0 = invariants_ok false P s0.
  Proof. intros Hs. destruct (problem_wf_split Hwf) as (_ & _ & Wi). apply quant_invariants; assumption. Qed.
End QuantProofs.

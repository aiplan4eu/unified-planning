(* Proofs about the DeltaSTN model (C25), part 1: partial correctness (every run that does not exhaust the fuel). *)
From Coq Require Import List ZArith NArith QArith Qabs Bool Lia Lqa.
Import ListNotations.
Require Import UPV.Model.Stn UPV.Proofs.ListFacts.
Local Open Scope Q_scope.

Section DictLemmas.
  Context {V : Type}.
  Implicit Types (m : list (N * V)).

  Lemma find_set_eq k v m : find k (set k v m) = Some v.
  Proof.
    induction m as [|[k' v'] m IH]; simpl.
    - rewrite N.eqb_refl; reflexivity.
    - destruct (N.eqb_spec k k'); simpl.
      + rewrite N.eqb_refl; reflexivity.
      + destruct (N.eqb_spec k k'); [contradiction | exact IH].
  Qed.

  Lemma find_set_neq k k' v m : k' <> k -> find k' (set k v m) = find k' m.
  Proof.
    intros Hne. induction m as [|[k2 v2] m IH]; simpl.
    - destruct (N.eqb_spec k' k); [contradiction | reflexivity].
    - destruct (N.eqb_spec k k2); simpl.
      + subst. destruct (N.eqb_spec k' k2); [contradiction | reflexivity].
      + destruct (N.eqb_spec k' k2); [reflexivity | exact IH].
  Qed.

  Lemma find_app k m m' : find k (m ++ m') = match find k m with Some v => Some v | None => find k m' end.
  Proof.
    induction m as [|[k' v'] m IH]; simpl; [reflexivity|].
    destruct (k =? k')%N; [reflexivity | exact IH].
  Qed.

  Lemma find_setdefault k v m k' :
    find k' (setdefault k v m) =
    match find k' m with Some w => Some w | None => if (k' =? k)%N then Some v else None end.
  Proof.
    unfold setdefault. destruct (find k m) eqn:E.
    - destruct (find k' m) eqn:E'; [reflexivity|]. destruct (N.eqb_spec k' k); [subst; congruence | reflexivity].
    - rewrite find_app. destruct (find k' m); reflexivity.
  Qed.

  Lemma find_set_some k k' v m : find k' m <> None -> find k' (set k v m) <> None.
  Proof.
    intros H. destruct (N.eq_dec k' k) as [->|Hne]; [rewrite find_set_eq; discriminate | rewrite find_set_neq; auto].
  Qed.

  Lemma find_setdefault_some k k' v m : find k' m <> None -> find k' (setdefault k v m) <> None.
  Proof. intros H. rewrite find_setdefault. destruct (find k' m); [discriminate | congruence]. Qed.

  Lemma find_setdefault_self k v m : find k (setdefault k v m) <> None.
  Proof. rewrite find_setdefault, N.eqb_refl. destruct (find k m); discriminate. Qed.
End DictLemmas.

Lemma getd_set_eq k v d : getd (set k v d) k = v.
Proof. unfold getd. rewrite find_set_eq. reflexivity. Qed.
Lemma getd_set_neq k k' v d : k' <> k -> getd (set k v d) k' = getd d k'.
Proof. intros H. unfold getd. rewrite find_set_neq; auto. Qed.
(* a statement about every entry of d after d[k] := q: the new entry, and the old ones *)
Lemma getd_set_all (P : N -> Q -> Prop) d k q :
  P k q -> (forall v, v <> k -> P v (getd d v)) -> forall v, P v (getd (set k q d) v).
Proof.
  intros Hk Ho v. destruct (N.eq_dec v k) as [->|Hne].
  - rewrite getd_set_eq. exact Hk.
  - rewrite getd_set_neq by exact Hne. apply Ho, Hne.
Qed.
Lemma getd_setdefault0 k d k' : getd (setdefault k 0 d) k' = getd d k'.
Proof. unfold getd. rewrite find_setdefault. destruct (find k' d); [reflexivity|]. destruct (k' =? k)%N; reflexivity. Qed.
Lemma getc_set_eq k v c : getc (set k v c) k = v.
Proof. unfold getc. rewrite find_set_eq. reflexivity. Qed.
Lemma getc_set_neq k k' v c : k' <> k -> getc (set k v c) k' = getc c k'.
Proof. intros H. unfold getc. rewrite find_set_neq; auto. Qed.
Lemma getc_setdefault_nil k c k' : getc (setdefault k [] c) k' = getc c k'.
Proof.
  unfold getc. rewrite (find_setdefault (V := neighbors)).
  destruct (@find neighbors k' c); [reflexivity|]. destruct (k' =? k)%N; reflexivity.
Qed.

Lemma Qlt_bool_iff a b : Qlt_bool a b = true <-> a < b.
Proof.
  unfold Qlt_bool. rewrite negb_true_iff. split.
  - intros H. apply Qnot_le_lt. intros Hle. apply Qle_bool_iff in Hle. congruence.
  - intros H. destruct (Qle_bool b a) eqn:E; [|reflexivity]. apply Qle_bool_iff in E. lra.
Qed.
Lemma Qlt_bool_false a b : Qlt_bool a b = false <-> b <= a.
Proof.
  unfold Qlt_bool. rewrite negb_false_iff. apply Qle_bool_iff.
Qed.

Definition edge (cm : cons_map) (u v : N) (bb : Q) : Prop := In (v, bb) (getc cm u).

Lemma edge_setdefault c y u v bb : edge (setdefault y [] c) u v bb <-> edge c u v bb.
Proof. unfold edge. rewrite getc_setdefault_nil. reflexivity. Qed.

(* the edges after `add` has prepended (y, b) to the neighbours of x *)
Lemma edge_add c x y b u v bb :
  edge (set x ((y, b) :: getc c x) (setdefault y [] c)) u v bb <-> (u = x /\ v = y /\ bb = b) \/ edge c u v bb.
Proof.
  unfold edge. destruct (N.eq_dec u x) as [->|Hne].
  - rewrite getc_set_eq. simpl. split.
    + intros [E|H]; [inversion E; auto | auto].
    + intros [(_ & -> & ->)|H]; auto.
  - rewrite getc_set_neq, getc_setdefault_nil by exact Hne. split; [auto|].
    intros [(E & _)|H]; [contradiction | exact H].
Qed.

(* some walk ending in v has weight q (the empty walk has weight 0) *)
Inductive walkto (cm : cons_map) : N -> Q -> Prop :=
| wt0 v q : q == 0 -> walkto cm v q
| wts u v w bb q : walkto cm u w -> edge cm u v bb -> q == w + bb -> walkto cm v q.

(* a walk from y to v of weight q *)
Inductive walk_from (cm : cons_map) (y : N) : N -> Q -> Prop :=
| wf0 q : q == 0 -> walk_from cm y y q
| wfs u v w bb q : walk_from cm y u w -> edge cm u v bb -> q == w + bb -> walk_from cm y v q.

Definition sat_edges (t : N -> Q) (cm : cons_map) : Prop := forall u v bb, edge cm u v bb -> t u - t v <= bb.

Lemma walkto_mono cm cm' v q :
  (forall u v bb, edge cm u v bb -> edge cm' u v bb) -> walkto cm v q -> walkto cm' v q.
Proof. intros H. induction 1; [apply wt0; assumption | eapply wts; eauto]. Qed.

Lemma walk_from_sum t cm y v q : sat_edges t cm -> walk_from cm y v q -> t y - t v <= q.
Proof.
  intros Hs. induction 1 as [q Hq | u v w bb q _ IH He Hq]; [lra|].
  specialize (Hs _ _ _ He). lra.
Qed.

Lemma neg_closed_walk_unsat t cm y q : walk_from cm y y q -> q < 0 -> ~ sat_edges t cm.
Proof. intros Hw Hq Hs. pose proof (walk_from_sum _ _ _ _ _ Hs Hw). lra. Qed.

Lemma walkto_lower t cm v q : nonneg t -> sat_edges t cm -> walkto cm v q -> - q <= t v.
Proof.
  intros Hn Hs. induction 1 as [v q Hq | u v w bb q _ IH He Hq].
  - specialize (Hn v). lra.
  - specialize (Hs _ _ _ He). lra.
Qed.

(* _inc_check changes _distances only by assignments d[v] := q where v is the target of an edge (or y itself): a
   property of the dictionary that such assignments keep holds of the result *)
Section Pres.
  Variables (cm : cons_map) (eps : Q) (y : N) (b : Q) (Phi : dist -> Prop).
  Hypothesis Hset : forall d u v bb q, edge cm u v bb -> Phi d -> Phi (set v q d).

  Lemma scan_pres c : forall ns d queue,
    (forall v bb, In (v, bb) ns -> edge cm c v bb) -> Phi d -> Phi (fst (scan d eps y b c ns queue)).
  Proof.
    induction ns as [|[dst bound] ns IH]; intros d queue Hns H; simpl; [exact H|].
    assert (Hns' : forall v bb, In (v, bb) ns -> edge cm c v bb) by (intros; apply Hns; right; assumption).
    destruct (Qlt_bool _ _); [|apply IH; assumption].
    destruct (_ && _); [exact H|]. apply IH; [exact Hns'|].
    eapply Hset; [apply Hns; left; reflexivity | exact H].
  Qed.

  Lemma bfs_pres : forall fuel d queue d' r, Phi d -> bfs fuel cm d eps y b queue = Finished d' r -> Phi d'.
  Proof.
    induction fuel as [|fuel IH]; intros d [|c q'] d' r H E; simpl in E; try discriminate;
      try (inversion E; subst; exact H).
    pose proof (scan_pres c (getc cm c) d q' (fun v bb HI => HI) H) as S.
    destruct (scan d eps y b c (getc cm c) q') as [d1 [q1|]]; simpl in S.
    - eapply IH; eauto.
    - inversion E; subst. exact S.
  Qed.

  Lemma inc_check_pres fuel d x d' r :
    (forall d q, Phi d -> Phi (set y q d)) -> Phi d -> inc_check fuel cm d eps x y b = Finished d' r -> Phi d'.
  Proof.
    unfold inc_check. intros Hy H E. destruct (Qlt_bool _ _).
    - eapply bfs_pres; [apply Hy, H | exact E].
    - inversion E; subst. exact H.
  Qed.
End Pres.

(* the keys of the distance dictionary only grow *)
Lemma inc_check_keys k fuel cm d eps x y b d' r :
  find k d <> None -> inc_check fuel cm d eps x y b = Finished d' r -> find k d' <> None.
Proof.
  apply (inc_check_pres cm eps y b (fun d => find k d <> None)); intros; apply find_set_some; assumption.
Qed.

Section Propagation.
  Variables (cm : cons_map) (y : N) (b : Q) (eps : Q) (d0 : dist) (dy0 : Q).
  Hypothesis Heps : eps == 0.

  Definition touched (d : dist) (u : N) : Prop := getd d u < getd d0 u.

  Record good (d : dist) : Prop := {
    g_neg : forall v, getd d v <= 0;
    g_walk : forall v, walkto cm v (getd d v);
    g_mono : forall v, getd d v <= getd d0 v;
    g_wy : forall v, touched d v -> exists w, walk_from cm y v w /\ getd d v == dy0 + w;
    g_y : getd d y <= dy0
  }.

  Definition qinv (d : dist) (queue : list N) : Prop := forall u, In u queue -> touched d u.

  (* every violated edge starts at a queued event, or at the event being scanned and is still to be scanned *)
  Definition cov (d : dist) (queue : list N) (c : N) (ns : neighbors) : Prop :=
    forall u v bb, edge cm u v bb -> getd d v <= getd d u + bb \/ In u queue \/ (u = c /\ In (v, bb) ns).
  Definition cov0 (d : dist) (queue : list N) : Prop :=
    forall u v bb, edge cm u v bb -> getd d v <= getd d u + bb \/ In u queue.

  Definition negcycle : Prop := exists w, walk_from cm y y w /\ w < 0.

  Lemma set_le d dst q v : q <= getd d dst -> getd (set dst q d) v <= getd d v.
  Proof.
    intros H. revert v. apply (getd_set_all (fun v q' => q' <= getd d v)); [exact H | intros; lra].
  Qed.

  Lemma relax_good d c dst bound :
    good d -> touched d c -> edge cm c dst bound -> getd d c + bound < getd d dst ->
    good (set dst (getd d c + bound) d).
  Proof.
    intros [G1 G2 G3 G4 G5] Tc He Hlt. constructor.
    - apply (getd_set_all (fun _ q => q <= 0)); [specialize (G1 dst); lra | auto].
    - apply (getd_set_all (walkto cm)); [eapply wts; [apply (G2 c) | exact He | reflexivity] | auto].
    - apply (getd_set_all (fun v q => q <= getd d0 v)); [specialize (G3 dst); lra | auto].
    - unfold touched.
      apply (getd_set_all (fun v q => q < getd d0 v -> exists w, walk_from cm y v w /\ q == dy0 + w)); [|auto].
      intros _. destruct (G4 c Tc) as (w & Hw & Hv). exists (w + bound).
      split; [eapply wfs; [exact Hw | exact He | reflexivity] | lra].
    - destruct (N.eq_dec y dst) as [<-|Hne]; [rewrite getd_set_eq; lra | rewrite getd_set_neq by auto; exact G5].
  Qed.

  Lemma scan_spec c : forall ns d queue,
    (forall v bb, In (v, bb) ns -> edge cm c v bb) ->
    good d -> touched d c -> qinv d queue -> cov d queue c ns ->
    match scan d eps y b c ns queue with
    | (d', Some q') => good d' /\ qinv d' q' /\ cov0 d' q'
    | (_, None) => negcycle
    end.
  Proof.
    induction ns as [|[dst bound] ns IH]; intros d queue Hns G Tc Hq Hc.
    - simpl. split; [exact G|]. split; [exact Hq|].
      intros u v bb He. destruct (Hc _ _ _ He) as [H|[H|[_ []]]]; auto.
    - cbn [scan]. destruct (Qlt_bool (getd d c + bound + eps) (getd d dst)) eqn:E.
      + apply Qlt_bool_iff in E. assert (Hlt : getd d c + bound < getd d dst) by lra.
        assert (He : edge cm c dst bound) by (apply Hns; left; reflexivity).
        destruct ((dst =? y)%N && Qle_bool (Qabs (bound - b)) eps) eqn:E2.
        * (* return False *)
          apply andb_true_iff in E2. destruct E2 as [E2 _]. apply N.eqb_eq in E2. subst dst.
          destruct (g_wy d G c Tc) as (w & Hw & Hv). cbv iota. unfold negcycle. exists (w + bound). split.
          -- eapply wfs; [exact Hw | exact He | reflexivity].
          -- pose proof (g_y d G). lra.
        * (* relaxation *)
          cbv iota. apply IH.
          -- intros v bb HI. apply Hns. right; exact HI.
          -- apply relax_good; auto.
          -- unfold touched in *. pose proof (set_le d dst (getd d c + bound) c). lra.
          -- intros u Hu. apply in_app_iff in Hu. unfold touched. destruct Hu as [Hu|[<-|[]]].
             ++ specialize (Hq u Hu). unfold touched in Hq. pose proof (set_le d dst (getd d c + bound) u). lra.
             ++ rewrite getd_set_eq. pose proof (g_mono d G dst). lra.
          -- intros u v bb Hedge. destruct (N.eq_dec u dst) as [->|Hne].
             { right; left. apply in_app_iff. right; left; reflexivity. }
             rewrite (getd_set_neq dst u); auto.
             destruct (Hc _ _ _ Hedge) as [H|[H|[Hu [H|H]]]].
             ++ left. pose proof (set_le d dst (getd d c + bound) v). lra.
             ++ right; left. apply in_app_iff. left; exact H.
             ++ inversion H; subst. left. rewrite getd_set_eq. lra.
             ++ right; right. split; assumption.
      + apply Qlt_bool_false in E. cbv iota. apply IH; auto.
        * intros v bb HI. apply Hns. right; exact HI.
        * intros u v bb Hedge. destruct (Hc _ _ _ Hedge) as [H|[H|[Hu [H|H]]]]; auto.
          inversion H; subst. left. lra.
  Qed.

  Lemma cov0_nil d : cov0 d [] -> forall u v bb, edge cm u v bb -> getd d v <= getd d u + bb.
  Proof. intros Hc u v bb He. destruct (Hc _ _ _ He) as [H|[]]. exact H. Qed.

  Lemma bfs_spec : forall fuel d queue,
    good d -> qinv d queue -> cov0 d queue ->
    forall d' r, bfs fuel cm d eps y b queue = Finished d' r ->
      (r = true -> good d' /\ forall u v bb, edge cm u v bb -> getd d' v <= getd d' u + bb)
      /\ (r = false -> negcycle).
  Proof.
    induction fuel as [|fuel IH]; intros d queue G Hq Hc d' r H; destruct queue as [|c q']; simpl in H;
      try discriminate.
    1, 2: inversion H; subst; split; [intros _; split; [exact G | apply cov0_nil, Hc] | discriminate].
    assert (S : match scan d eps y b c (getc cm c) q' with
                | (d1, Some q1) => good d1 /\ qinv d1 q1 /\ cov0 d1 q1
                | (_, None) => negcycle
                end).
    { apply scan_spec; [auto | exact G | apply Hq; left; reflexivity | intros u Hu; apply Hq; right; exact Hu |].
      intros u v bb He. destruct (Hc _ _ _ He) as [H1|[<-|H1]]; auto. }
    destruct (scan d eps y b c (getc cm c) q') as [d1 [q1|]].
    - destruct S as (G1 & Hq1 & Hc1). eapply IH; eauto.
    - inversion H; subst. split; [discriminate | intros _; exact S].
  Qed.
End Propagation.

Lemma inc_check_spec fuel cm d0 eps x y b :
  eps == 0 ->
  edge cm x y b ->
  (forall v, getd d0 v <= 0) ->
  (forall v, walkto cm v (getd d0 v)) ->
  (forall u v bb, edge cm u v bb -> (u = x /\ v = y /\ bb = b) \/ getd d0 v <= getd d0 u + bb) ->
  forall d' r, inc_check fuel cm d0 eps x y b = Finished d' r ->
    (r = true -> (forall v, getd d' v <= 0) /\ (forall v, walkto cm v (getd d' v)) /\
                 (forall u v bb, edge cm u v bb -> getd d' v <= getd d' u + bb))
    /\ (r = false -> exists y' w, walk_from cm y' y' w /\ w < 0).
Proof.
  intros Heps Hnew Hneg Hwalk Hold d' r H. unfold inc_check in H.
  destruct (Qlt_bool (getd d0 x + b) (getd d0 y)) eqn:E.
  - apply Qlt_bool_iff in E. set (dy0 := getd d0 x + b) in *.
    destruct (bfs_spec cm y b eps d0 dy0 Heps fuel (set y dy0 d0) [y]) with (d' := d') (r := r) as [B1 B2].
    + constructor.
      * apply (getd_set_all (fun _ q => q <= 0)); [specialize (Hneg y); lra | auto].
      * apply (getd_set_all (walkto cm)); [eapply wts; [apply (Hwalk x) | exact Hnew | reflexivity] | auto].
      * apply (getd_set_all (fun v q => q <= getd d0 v)); [lra | intros; lra].
      * unfold touched.
        apply (getd_set_all (fun v q => q < getd d0 v -> exists w, walk_from cm y v w /\ q == dy0 + w)).
        -- intros _. exists 0. split; [apply wf0; reflexivity | lra].
        -- intros v _ T. lra.
      * rewrite getd_set_eq. lra.
    + intros u [<-|[]]. unfold touched. rewrite getd_set_eq. exact E.
    + intros u v bb He. destruct (N.eq_dec u y) as [->|Hne]; [right; left; reflexivity|].
      left. rewrite (getd_set_neq y u); auto.
      pose proof (set_le d0 y dy0 v (Qlt_le_weak _ _ E)) as Hv.
      destruct (Hold _ _ _ He) as [(-> & -> & ->)|Hf].
      * rewrite getd_set_eq. unfold dy0. lra.
      * lra.
    + exact H.
    + split.
      * intros Hr. destruct (B1 Hr) as [G F]. split; [apply (g_neg _ _ _ _ _ G)|]. split; [apply (g_walk _ _ _ _ _ G) | exact F].
      * intros Hr. destruct (B2 Hr) as (w & Hw & Hlt). exists y, w. auto.
  - apply Qlt_bool_false in E. inversion H; subst. split; [|discriminate].
    intros _. split; [exact Hneg|]. split; [exact Hwalk|].
    intros u v bb He. destruct (Hold _ _ _ He) as [(-> & -> & ->)|Hf]; [exact E | exact Hf].
Qed.

Definition events_known (d : dist) (A : list cstr) : Prop :=
  forall x y bb, In (x, y, bb) A -> find x d <> None /\ find y d <> None.

Record inv_sat (s : stn) (A : list cstr) : Prop := {
  i_sub : forall u v bb, edge (s_cons s) u v bb -> In (u, v, bb) A;
  i_imp : forall x y bb, In (x, y, bb) A -> exists b', edge (s_cons s) x y b' /\ b' <= bb;
  i_feas : forall u v bb, edge (s_cons s) u v bb -> getd (s_dist s) v <= getd (s_dist s) u + bb;
  i_walk : forall v, walkto (s_cons s) v (getd (s_dist s) v);
  i_neg : forall v, getd (s_dist s) v <= 0;
  i_known : events_known (s_dist s) A
}.

Definition inv (s : stn) (A : list cstr) : Prop :=
  s_eps s == 0 /\ (if s_sat s then inv_sat s A else ~ solvable A).

Lemma solvable_app_l A B : solvable (A ++ B) -> solvable A.
Proof. intros [t H]. exists t. intros c Hc. apply H. apply in_or_app. left; exact Hc. Qed.

Lemma inv_empty eps : eps == 0 -> inv (empty_stn eps) [].
Proof.
  intros H. split; [exact H|]. simpl. constructor; simpl.
  - intros u v bb [].
  - intros x y bb [].
  - intros u v bb [].
  - intros v. apply wt0. reflexivity.
  - intros v. unfold getd; simpl. lra.
  - intros x y bb [].
Qed.

Lemma is_subsumed_spec c x y b :
  is_subsumed c x y b = true -> exists b', edge c x y b' /\ b' <= b.
Proof.
  unfold is_subsumed. destruct (List.find _ _) as [[v bb]|] eqn:E; [|discriminate].
  apply find_some in E. destruct E as [HI Hv]. simpl in Hv. apply N.eqb_eq in Hv. subst v.
  simpl. intros H. apply Qle_bool_iff in H. exists bb. split; [exact HI | exact H].
Qed.

(* the three things add(x, y, b) can do: nothing (inconsistent network), register the two events (subsumed
   constraint), or also prepend the constraint and propagate *)
Lemma add_cases fuel s x y b s' : add fuel s x y b = Some s' ->
  let d1 := setdefault y 0 (setdefault x 0 (s_dist s)) in
  let c1 := setdefault y [] (s_cons s) in
  let c2 := set x ((y, b) :: getc (s_cons s) x) c1 in
  (s_sat s = false /\ s' = s) \/
  (s_sat s = true /\ is_subsumed c1 x y b = true /\
   s' = {| s_cons := c1; s_dist := d1; s_sat := true; s_eps := s_eps s |}) \/
  (s_sat s = true /\ is_subsumed c1 x y b = false /\ exists d2 r,
     inc_check fuel c2 d1 (s_eps s) x y b = Finished d2 r /\
     s' = {| s_cons := c2; s_dist := d2; s_sat := r; s_eps := s_eps s |}).
Proof.
  unfold add. intros H. cbv zeta. destruct (s_sat s); [|left; inversion H; auto]. right.
  destruct (is_subsumed _ x y b); [left; inversion H; auto | right].
  destruct (inc_check _ _ _ _ _ _ _) as [d2 r|]; [|discriminate]. inversion H. eauto 6.
Qed.

Lemma events_known_add d A x y b :
  events_known d A -> events_known (setdefault y 0 (setdefault x 0 d)) (A ++ [(x, y, b)]).
Proof.
  intros Hk x' y' bb HI. apply in_app_iff in HI. destruct HI as [HI|[HI|[]]].
  - destruct (Hk _ _ _ HI). split; apply find_setdefault_some, find_setdefault_some; assumption.
  - inversion HI; subst. split; [apply find_setdefault_some, find_setdefault_self | apply find_setdefault_self].
Qed.

Lemma add_inv fuel s A x y b s' :
  inv s A -> add fuel s x y b = Some s' -> inv s' (A ++ [(x, y, b)]).
Proof.
  intros [Heps Hi] H. apply add_cases in H. cbv zeta in H.
  destruct H as [[Hsat ->]|[(Hsat & Hsub & ->)|(Hsat & Hsub & d2 & r & EI & ->)]]; rewrite Hsat in Hi.
  { split; [exact Heps|]. rewrite Hsat. intros Hs. apply Hi. eapply solvable_app_l; eauto. }
  - destruct Hi as [I1 I2 I3 I4 I5 I6]. split; [exact Heps|]. simpl. constructor; simpl.
    + intros u v bb He. apply edge_setdefault in He. apply in_or_app. left. apply I1; exact He.
    + intros x' y' bb HI. apply in_app_iff in HI. destruct HI as [HI|[HI|[]]].
      * destruct (I2 _ _ _ HI) as (b' & He & Hle). exists b'. split; [apply edge_setdefault; exact He | exact Hle].
      * inversion HI; subst. apply is_subsumed_spec. exact Hsub.
    + intros u v bb He. apply edge_setdefault in He. rewrite !getd_setdefault0. apply I3; exact He.
    + intros v. rewrite !getd_setdefault0. eapply walkto_mono; [|apply I4]. intros u w bb He. apply edge_setdefault; exact He.
    + intros v. rewrite !getd_setdefault0. apply I5.
    + apply events_known_add, I6.
  - destruct Hi as [I1 I2 I3 I4 I5 I6].
    set (d1 := setdefault y 0 (setdefault x 0 (s_dist s))) in *.
    set (c2 := set x ((y, b) :: getc (s_cons s) x) (setdefault y [] (s_cons s))) in *.
    assert (Hd1 : forall v, getd d1 v = getd (s_dist s) v) by (intros v; unfold d1; rewrite !getd_setdefault0; reflexivity).
    assert (Hsub2 : forall u v bb, edge c2 u v bb -> In (u, v, bb) (A ++ [(x, y, b)])).
    { intros u v bb He. apply edge_add in He. apply in_or_app.
      destruct He as [(-> & -> & ->)|He]; [right; left; reflexivity | left; apply I1; exact He]. }
    pose proof (events_known_add _ _ x y b I6) as Hk1. fold d1 in Hk1.
    destruct (inc_check_spec fuel c2 d1 (s_eps s) x y b Heps) with (d' := d2) (r := r) as [R1 R2].
    + apply edge_add. left; auto.
    + intros v. rewrite Hd1. apply I5.
    + intros v. rewrite Hd1. eapply walkto_mono; [|apply I4]. intros u w bb He. apply edge_add. right; exact He.
    + intros u v bb He. apply edge_add in He. destruct He as [He|He]; [left; exact He | right]. rewrite !Hd1. apply I3; exact He.
    + exact EI.
    + split; [exact Heps|]. simpl. destruct r.
      * destruct (R1 eq_refl) as (N1 & W1 & F1). constructor; simpl; auto.
        -- intros x' y' bb HI. apply in_app_iff in HI. destruct HI as [HI|[HI|[]]].
           ++ destruct (I2 _ _ _ HI) as (b' & He & Hle). exists b'. split; [apply edge_add; right; exact He | exact Hle].
           ++ inversion HI; subst. eexists. split; [apply edge_add; left; repeat split; reflexivity | lra].
        -- intros x' y' bb HI. destruct (Hk1 _ _ _ HI). split; eapply inc_check_keys; eauto.
      * destruct (R2 eq_refl) as (y' & w & Hw & Hlt). intros [t Ht].
        apply (neg_closed_walk_unsat t c2 y' w Hw Hlt).
        intros u v bb He. apply Hsub2 in He. exact (Ht _ He).
Qed.

Lemma run_adds_inv fuel : forall adds s A s',
  inv s A -> run_adds fuel s adds = Some s' -> inv s' (A ++ adds).
Proof.
  induction adds as [|[[x y] b] adds IH]; intros s A s' Hi H; simpl in H.
  - inversion H; subst. rewrite app_nil_r. exact Hi.
  - destruct (add fuel s x y b) as [s1|] eqn:EA; [|discriminate].
    pose proof (add_inv _ _ _ _ _ _ _ Hi EA) as Hi1.
    specialize (IH _ _ _ Hi1 H). rewrite <- app_assoc in IH. exact IH.
Qed.

Lemma inv_checked s A : inv s A -> check_stn s = true -> inv_sat s A.
Proof. intros [_ Hi] Hs. unfold check_stn in Hs. rewrite Hs in Hi. exact Hi. Qed.

Lemma inv_model_solution s A : inv s A -> check_stn s = true -> solution (model_of s) A.
Proof.
  intros Hi Hs. pose proof (inv_checked s A Hi Hs) as I. intros [[x y] bb] HI. simpl. unfold model_of.
  destruct (i_imp _ _ I _ _ _ HI) as (b' & He & Hle). pose proof (i_feas _ _ I _ _ _ He). lra.
Qed.

Lemma inv_sat_iff s A : inv s A -> (check_stn s = true <-> solvable A).
Proof.
  intros Hi. split.
  - intros Hs. exists (model_of s). apply inv_model_solution; assumption.
  - destruct Hi as [_ Hi]. unfold check_stn. destruct (s_sat s); [reflexivity | contradiction].
Qed.

Lemma inv_model_nonneg s A : inv s A -> check_stn s = true -> nonneg (model_of s).
Proof.
  intros Hi Hs x. unfold model_of. pose proof (i_neg _ _ (inv_checked s A Hi Hs) x). lra.
Qed.

Lemma inv_model_least s A :
  inv s A -> check_stn s = true ->
  forall t, nonneg t -> solution t A -> forall x, model_of s x <= t x.
Proof.
  intros Hi Hs t Hn Ht x. pose proof (inv_checked s A Hi Hs) as I. unfold model_of.
  apply (walkto_lower t (s_cons s)); [exact Hn | | apply (i_walk _ _ I)].
  intros u v bb He. exact (Ht _ (i_sub _ _ I _ _ _ He)).
Qed.

Lemma inv_model_defined s A x y bb :
  inv s A -> check_stn s = true -> In (x, y, bb) A ->
  get_stn_model s x = Some (model_of s x) /\ get_stn_model s y = Some (model_of s y).
Proof.
  intros Hi Hs HI. destruct (i_known _ _ (inv_checked s A Hi Hs) _ _ _ HI) as [Hx Hy].
  unfold get_stn_model, model_of, getd.
  destruct (find x (s_dist s)); [|congruence]. destruct (find y (s_dist s)); [|congruence]. split; reflexivity.
Qed.

Lemma get_stn_model_is_model_of s x q : get_stn_model s x = Some q -> q = model_of s x.
Proof.
  unfold get_stn_model, model_of, getd. destruct (find x (s_dist s)); intros H; inversion H; reflexivity.
Qed.

Lemma run_adds_empty_inv fuel eps adds s : eps == 0 -> run_adds fuel (empty_stn eps) adds = Some s -> inv s adds.
Proof. intros He H. exact (run_adds_inv fuel adds _ [] _ (inv_empty eps He) H). Qed.

Lemma stn_sat_iff fuel eps adds s :
  eps == 0 -> run_adds fuel (empty_stn eps) adds = Some s -> (check_stn s = true <-> solvable adds).
Proof. intros He H. apply inv_sat_iff. exact (run_adds_empty_inv fuel eps adds s He H). Qed.

Lemma stn_model_least_nonneg fuel eps adds s :
  eps == 0 -> run_adds fuel (empty_stn eps) adds = Some s -> check_stn s = true ->
  solution (model_of s) adds /\ nonneg (model_of s) /\
  (forall t, nonneg t -> solution t adds -> forall x, model_of s x <= t x).
Proof.
  intros He H Hs. pose proof (run_adds_empty_inv fuel eps adds s He H) as Hi.
  split; [eapply inv_model_solution; eauto|]. split; [eapply inv_model_nonneg; eauto | eapply inv_model_least; eauto].
Qed.

Lemma stn_model_defined fuel eps adds s x y bb :
  eps == 0 -> run_adds fuel (empty_stn eps) adds = Some s -> check_stn s = true -> In (x, y, bb) adds ->
  get_stn_model s x = Some (model_of s x) /\ get_stn_model s y = Some (model_of s y).
Proof. intros He H Hs. apply inv_model_defined; [exact (run_adds_empty_inv fuel eps adds s He H) | exact Hs]. Qed.

Lemma copy_stn_id s : copy_stn s = s.
Proof. destruct s; reflexivity. Qed.

Lemma run_adds_app fuel : forall a s b,
  run_adds fuel s (a ++ b) = match run_adds fuel s a with Some s' => run_adds fuel s' b | None => None end.
Proof.
  induction a as [|[[x y] bb] a IH]; intros s b; simpl; [reflexivity|].
  destruct (add fuel s x y bb); [apply IH | reflexivity].
Qed.

Definition replays (fuel : nat) (s : stn) (h : list cstr * Q) : Prop :=
  run_adds fuel (empty_stn (snd h)) (fst h) = Some s.

Lemma Forall2_nth_error {A B} (R : A -> B -> Prop) l1 l2 i a :
  Forall2 R l1 l2 -> nth_error l1 i = Some a -> exists b, nth_error l2 i = Some b /\ R a b.
Proof.
  intros H. revert i. induction H; intros [|i] Hn; simpl in *; try discriminate.
  - inversion Hn; subst. eauto.
  - eauto.
Qed.

Lemma Forall2_nth_error_none {A B} (R : A -> B -> Prop) l1 l2 i :
  Forall2 R l1 l2 -> nth_error l1 i = None -> nth_error l2 i = None.
Proof.
  intros H. revert i. induction H; intros [|i] Hn; simpl in *; try discriminate; auto.
Qed.

Lemma Forall2_replace_nth {A B} (R : A -> B -> Prop) l1 l2 i a b :
  Forall2 R l1 l2 -> R a b -> Forall2 R (replace_nth i a l1) (replace_nth i b l2).
Proof.
  intros H Hab. revert i. induction H; intros [|i]; simpl; constructor; auto.
Qed.

Lemma run_ops_lineage fuel : forall ops heap hist heap',
  Forall2 (replays fuel) heap hist -> run_ops fuel heap ops = Some heap' ->
  Forall2 (replays fuel) heap' (lineage_from hist ops).
Proof.
  induction ops as [|o ops IH]; intros heap hist heap' HF H; simpl in H.
  - inversion H; subst. exact HF.
  - destruct o as [eps|i x y b|i]; simpl in H |- *.
    + apply (IH (heap ++ [empty_stn eps]) (hist ++ [([], eps)]) heap'); [|exact H].
      apply Forall2_snoc; [exact HF | reflexivity].
    + destruct (nth_error heap i) as [s|] eqn:En.
      * destruct (Forall2_nth_error _ _ _ _ _ HF En) as ([a e] & En2 & Hr). rewrite En2.
        destruct (add fuel s x y b) as [s1|] eqn:EA; [|discriminate].
        apply (IH (replace_nth i s1 heap) (replace_nth i (a ++ [(x, y, b)], e) hist) heap'); [|exact H].
        apply Forall2_replace_nth; [exact HF|].
        unfold replays in *; simpl in *. rewrite run_adds_app, Hr. simpl. rewrite EA. reflexivity.
      * rewrite (Forall2_nth_error_none _ _ _ _ HF En). apply (IH _ _ _ HF H).
    + destruct (nth_error heap i) as [s|] eqn:En.
      * destruct (Forall2_nth_error _ _ _ _ _ HF En) as (h & En2 & Hr). rewrite En2.
        apply (IH (heap ++ [copy_stn s]) (hist ++ [h]) heap'); [|exact H].
        apply Forall2_snoc; [exact HF|]. rewrite copy_stn_id. exact Hr.
      * rewrite (Forall2_nth_error_none _ _ _ _ HF En). apply (IH _ _ _ HF H).
Qed.

(* the state of every network of the heap is the replay of its own lineage: the add calls made on its ancestors
   before it was copied, followed by the add calls made on itself; add calls on any other network are irrelevant *)
Lemma heap_network_replays_lineage fuel ops heap k s :
  run_ops fuel [] ops = Some heap -> nth_error heap k = Some s ->
  exists adds eps, nth_error (lineages ops) k = Some (adds, eps) /\ run_adds fuel (empty_stn eps) adds = Some s.
Proof.
  intros H Hn. pose proof (run_ops_lineage fuel ops [] [] heap (Forall2_nil _) H) as HF.
  destruct (Forall2_nth_error _ _ _ _ _ HF Hn) as ([a e] & Hn2 & Hr). exists a, e. split; [exact Hn2 | exact Hr].
Qed.

Definition targets (i : nat) (o : op) : bool :=
  match o with OpAdd j _ _ _ => Nat.eqb i j | _ => false end.

Lemma nth_error_replace_nth_neq {A} (l : list A) i j v : i <> j -> nth_error (replace_nth j v l) i = nth_error l i.
Proof.
  revert i j. induction l as [|a l IH]; intros [|i] [|j] H; simpl; try reflexivity; try congruence.
  apply IH. congruence.
Qed.

Lemma run_ops_untargeted fuel i : forall ops heap heap' s,
  run_ops fuel heap ops = Some heap' -> forallb (fun o => negb (targets i o)) ops = true ->
  nth_error heap i = Some s -> nth_error heap' i = Some s.
Proof.
  induction ops as [|o ops IH]; intros heap heap' s H Hf Hn; simpl in H.
  - inversion H; subst. exact Hn.
  - simpl in Hf. apply andb_true_iff in Hf. destruct Hf as [Ho Hf].
    destruct (run_op fuel heap o) as [h1|] eqn:E1; [|discriminate].
    apply (IH h1 heap' s H Hf). destruct o as [eps|j x y b|j]; simpl in E1.
    + inversion E1; subst. rewrite nth_error_app1; [exact Hn | apply nth_error_Some; congruence].
    + destruct (nth_error heap j) eqn:Ej; [|inversion E1; subst; exact Hn].
      destruct (add fuel s0 x y b); [|discriminate]. inversion E1; subst.
      rewrite nth_error_replace_nth_neq; [exact Hn|]. simpl in Ho. apply negb_true_iff, Nat.eqb_neq in Ho. exact Ho.
    + destruct (nth_error heap j); inversion E1; subst; [rewrite nth_error_app1; [|apply nth_error_Some; congruence]|]; exact Hn.
Qed.

Lemma heap_replays fuel ops heap k s adds eps :
  run_ops fuel [] ops = Some heap -> nth_error heap k = Some s -> nth_error (lineages ops) k = Some (adds, eps) ->
  run_adds fuel (empty_stn eps) adds = Some s.
Proof.
  intros H Hn Hl. destruct (heap_network_replays_lineage _ _ _ _ _ H Hn) as (a & e & Hl2 & Hr).
  rewrite Hl in Hl2. inversion Hl2; subst. exact Hr.
Qed.

(* heap-level versions of the main theorems *)
Lemma heap_sat_iff fuel ops heap k s adds eps :
  run_ops fuel [] ops = Some heap -> nth_error heap k = Some s -> nth_error (lineages ops) k = Some (adds, eps) ->
  eps == 0 -> (check_stn s = true <-> solvable adds).
Proof. intros H Hn Hl He. exact (stn_sat_iff fuel eps adds s He (heap_replays _ _ _ _ _ _ _ H Hn Hl)). Qed.

Lemma heap_model_least_nonneg fuel ops heap k s adds eps :
  run_ops fuel [] ops = Some heap -> nth_error heap k = Some s -> nth_error (lineages ops) k = Some (adds, eps) ->
  eps == 0 -> check_stn s = true ->
  solution (model_of s) adds /\ nonneg (model_of s) /\
  (forall t, nonneg t -> solution t adds -> forall x, model_of s x <= t x).
Proof. intros H Hn Hl He. exact (stn_model_least_nonneg fuel eps adds s He (heap_replays _ _ _ _ _ _ _ H Hn Hl)). Qed.

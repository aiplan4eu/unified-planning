(* Core/Expr.v and Core/Eval.v without unfolding the nested fixpoints: the equation of [eval] at each constructor, the
   Boolean tests against [=], [<=], [<], [lookupN], [zq] as a ring morphism, [instances] and [q_fold], and the symbols and
   variables a value depends on ([eval_depends], [eval_depends_vars]). *)
From Coq Require Import List ZArith NArith QArith Qcanon Bool.
Import ListNotations.
Require Import UPV.Core.Expr UPV.Core.Eval UPV.Core.Interp UPV.Proofs.ListFacts UPV.Proofs.ExprView.
Local Open Scope nat_scope.

Fixpoint evals (sc : bool) (I : interp) (l : list expr) : option (list value) :=
  match l with
  | [] => Some []
  | x :: l' => match eval sc x I, evals sc I l' with Some v, Some vs => Some (v :: vs) | _, _ => None end
  end.

Fixpoint ebools (sc : bool) (I : interp) (l : list expr) : option (list bool) :=
  match l with
  | [] => Some []
  | x :: l' => match as_bool (eval sc x I), ebools sc I l' with Some v, Some vs => Some (v :: vs) | _, _ => None end
  end.

Fixpoint enums (sc : bool) (I : interp) (l : list expr) : option (list Qc) :=
  match l with
  | [] => Some []
  | x :: l' => match as_num (eval sc x I), enums sc I l' with Some v, Some vs => Some (v :: vs) | _, _ => None end
  end.

Lemma eval_EFluent sc I f args :
  eval sc (EFluent f args) I = match evals sc I args with Some vs => fl I f vs | None => None end.
Proof.
  cbn [eval]. replace ((fix evl (l : list expr) : option (list value) :=
    match l with [] => Some [] | x :: l' =>
      match eval sc x I, evl l' with Some v, Some vs => Some (v :: vs) | _, _ => None end end) args)
    with (evals sc I args); [reflexivity|].
  induction args as [|x l IH]; [reflexivity|]. cbn [evals]. rewrite IH. reflexivity.
Qed.

Lemma eval_EIFun sc I f args :
  eval sc (EIFun f args) I = match evals sc I args with Some vs => ifun I f vs | None => None end.
Proof.
  cbn [eval]. replace ((fix evl (l : list expr) : option (list value) :=
    match l with [] => Some [] | x :: l' =>
      match eval sc x I, evl l' with Some v, Some vs => Some (v :: vs) | _, _ => None end end) args)
    with (evals sc I args); [reflexivity|].
  induction args as [|x l IH]; [reflexivity|]. cbn [evals]. rewrite IH. reflexivity.
Qed.

Lemma ebools_fix sc I l :
  (fix ebools (l : list expr) : option (list bool) :=
     match l with [] => Some [] | x :: l' =>
       match as_bool (eval sc x I), ebools l' with Some v, Some vs => Some (v :: vs) | _, _ => None end end) l
  = ebools sc I l.
Proof. induction l as [|x l IH]; [reflexivity|]. cbn [ebools]. rewrite IH. reflexivity. Qed.

Lemma enums_fix sc I l :
  (fix enums (l : list expr) : option (list Qc) :=
     match l with [] => Some [] | x :: l' =>
       match as_num (eval sc x I), enums l' with Some v, Some vs => Some (v :: vs) | _, _ => None end end) l
  = enums sc I l.
Proof. induction l as [|x l IH]; [reflexivity|]. cbn [enums]. rewrite IH. reflexivity. Qed.

Lemma eval_EAnd sc I l :
  eval sc (EAnd l) I = match ebools sc I l with Some bs => Some (VBool (forallb (fun b => b) bs)) | None => None end.
Proof. cbn [eval]. rewrite ebools_fix. reflexivity. Qed.

Lemma eval_EOr sc I l :
  eval sc (EOr l) I = match ebools sc I l with Some bs => Some (VBool (existsb (fun b => b) bs)) | None => None end.
Proof. cbn [eval]. rewrite ebools_fix. reflexivity. Qed.

Lemma eval_EPlus sc I l :
  eval sc (EPlus l) I = match enums sc I l with Some qs => Some (VNum (fold_right Qcplus (zq 0) qs)) | None => None end.
Proof. cbn [eval]. rewrite enums_fix. reflexivity. Qed.

Lemma eval_ETimes sc I l :
  eval sc (ETimes l) I = match enums sc I l with Some qs => Some (VNum (fold_right Qcmult (zq 1) qs)) | None => None end.
Proof. cbn [eval]. rewrite enums_fix. reflexivity. Qed.

Lemma eval_ENot sc I a :
  eval sc (ENot a) I = match as_bool (eval sc a I) with Some b => Some (VBool (negb b)) | None => None end.
Proof. reflexivity. Qed.

Lemma eval_EImplies sc I a b :
  eval sc (EImplies a b) I =
  match as_bool (eval sc a I), as_bool (eval sc b I) with Some x, Some y => Some (VBool (implb x y)) | _, _ => None end.
Proof. reflexivity. Qed.

Lemma eval_EIff sc I a b :
  eval sc (EIff a b) I =
  match as_bool (eval sc a I), as_bool (eval sc b I) with Some x, Some y => Some (VBool (Bool.eqb x y)) | _, _ => None end.
Proof. reflexivity. Qed.

Lemma eval_EExists sc I vs a :
  eval sc (EExists vs a) I =
  match q_fold sc true (map (fun J => as_bool (eval sc a J)) (instances I vs)) with
  | Some b => Some (VBool b) | None => None end.
Proof. reflexivity. Qed.

Lemma eval_EForall sc I vs a :
  eval sc (EForall vs a) I =
  match q_fold sc false (map (fun J => as_bool (eval sc a J)) (instances I vs)) with
  | Some b => Some (VBool b) | None => None end.
Proof. reflexivity. Qed.

Lemma eval_EMinus sc I a b :
  eval sc (EMinus a b) I =
  match as_num (eval sc a I), as_num (eval sc b I) with Some x, Some y => Some (VNum (Qcminus x y)) | _, _ => None end.
Proof. reflexivity. Qed.

Lemma eval_EDiv sc I a b :
  eval sc (EDiv a b) I =
  match as_num (eval sc a I), as_num (eval sc b I) with
  | Some x, Some y => if qc_is0 y then None else Some (VNum (Qcdiv x y)) | _, _ => None end.
Proof. reflexivity. Qed.

Lemma eval_ELe sc I a b :
  eval sc (ELe a b) I =
  match as_num (eval sc a I), as_num (eval sc b I) with Some x, Some y => Some (VBool (qc_leb x y)) | _, _ => None end.
Proof. reflexivity. Qed.

Lemma eval_ELt sc I a b :
  eval sc (ELt a b) I =
  match as_num (eval sc a I), as_num (eval sc b I) with Some x, Some y => Some (VBool (qc_ltb x y)) | _, _ => None end.
Proof. reflexivity. Qed.

Lemma eval_EEquals sc I a b :
  eval sc (EEquals a b) I =
  match eval sc a I, eval sc b I with
  | Some (VNum x), Some (VNum y) => Some (VBool (qc_eqb x y))
  | Some (VObj x), Some (VObj y) => Some (VBool (x =? y)%N)
  | _, _ => None
  end.
Proof. reflexivity. Qed.

Lemma qc_eqb_eq (a b : Qc) : qc_eqb a b = true <-> a = b.
Proof.
  unfold qc_eqb. rewrite Qeq_bool_iff. split; [apply Qc_is_canon | intros ->; reflexivity].
Qed.

Lemma qc_eqb_refl (a : Qc) : qc_eqb a a = true.
Proof. apply qc_eqb_eq; reflexivity. Qed.

Lemma qc_leb_le (a b : Qc) : qc_leb a b = true <-> (a <= b)%Qc.
Proof. unfold qc_leb, Qcle. apply Qle_bool_iff. Qed.

Lemma qc_ltb_lt (a b : Qc) : qc_ltb a b = true <-> (a < b)%Qc.
Proof.
  unfold qc_ltb, Qclt. rewrite andb_true_iff, negb_true_iff, Qle_bool_iff.
  split.
  - intros [H1 H2]. apply Qle_lteq in H1. destruct H1 as [H1|H1]; [exact H1|].
    apply Qeq_bool_iff in H1. congruence.
  - intros H. split; [apply Qlt_le_weak; exact H|].
    destruct (Qeq_bool (this a) (this b)) eqn:E; [|reflexivity].
    apply Qeq_bool_iff in E. rewrite E in H. exfalso. exact (Qlt_irrefl _ H).
Qed.

Lemma qc_ltb_false (a b : Qc) : qc_ltb a b = false <-> (b <= a)%Qc.
Proof.
  split; intros H.
  - destruct (Qclt_le_dec a b) as [L|L]; [apply qc_ltb_lt in L; congruence | exact L].
  - destruct (qc_ltb a b) eqn:E; [|reflexivity]. apply qc_ltb_lt in E. exfalso. exact (Qclt_not_le _ _ E H).
Qed.

Lemma qc_is0_spec (a : Qc) : qc_is0 a = true <-> a = zq 0.
Proof.
  unfold qc_is0. rewrite Qeq_bool_iff. split.
  - intros H. apply Qc_is_canon. simpl. rewrite H. reflexivity.
  - intros ->. reflexivity.
Qed.

Lemma vars_eqb_eq a : forall b, vars_eqb a b = true <-> a = b.
Proof.
  induction a as [|[x t] a IH]; intros [|[y u] b]; simpl; try (split; [discriminate|intros H; inversion H]); [tauto|].
  rewrite !andb_true_iff, !N.eqb_eq. fold (vars_eqb a b). rewrite IH.
  split; [intros [[-> ->] ->]; reflexivity | intros H; inversion H; auto].
Qed.

Lemma list_expr_eqb_eq l :
  Forall (fun x => forall y, expr_eqb x y = true <-> x = y) l ->
  forall l', list_expr_eqb l l' = true <-> l = l'.
Proof.
  induction 1 as [|x l Hx _ IH]; intros [|y l']; simpl; try (split; [discriminate|intros H; inversion H]); [tauto|].
  rewrite andb_true_iff. fold (list_expr_eqb l l'). rewrite Hx, IH.
  split; [intros [-> ->]; reflexivity | intros H; inversion H; auto].
Qed.

Lemma expr_eqb_eq x : forall y, expr_eqb x y = true <-> x = y.
Proof.
  induction x using expr_ind'; intros y; destruct y;
    try (split; intros HH; [exact (False_ind _ (Bool.diff_false_true HH)) | discriminate HH]); simpl.
  - rewrite Bool.eqb_true_iff. split; [intros ->; reflexivity | intros HH; inversion HH; auto].
  - rewrite Z.eqb_eq. split; [intros ->; reflexivity | intros HH; inversion HH; auto].
  - rewrite qc_eqb_eq. split; [intros ->; reflexivity | intros HH; inversion HH; auto].
  - rewrite N.eqb_eq. split; [intros ->; reflexivity | intros HH; inversion HH; auto].
  - rewrite N.eqb_eq. split; [intros ->; reflexivity | intros HH; inversion HH; auto].
  - rewrite andb_true_iff, !N.eqb_eq. split; [intros [-> ->]; reflexivity | intros HH; inversion HH; auto].
  - rewrite andb_true_iff, N.eqb_eq. fold (list_expr_eqb args args0). rewrite (list_expr_eqb_eq _ H).
    split; [intros [-> ->]; reflexivity | intros HH; inversion HH; auto].
  - rewrite andb_true_iff, N.eqb_eq. fold (list_expr_eqb args args0). rewrite (list_expr_eqb_eq _ H).
    split; [intros [-> ->]; reflexivity | intros HH; inversion HH; auto].
  - fold (list_expr_eqb l l0). rewrite (list_expr_eqb_eq _ H).
    split; [intros ->; reflexivity | intros HH; inversion HH; auto].
  - fold (list_expr_eqb l l0). rewrite (list_expr_eqb_eq _ H).
    split; [intros ->; reflexivity | intros HH; inversion HH; auto].
  - rewrite IHx. split; [intros ->; reflexivity | intros HH; inversion HH; auto].
  - rewrite andb_true_iff, IHx1, IHx2. split; [intros [-> ->]; reflexivity | intros HH; inversion HH; auto].
  - rewrite andb_true_iff, IHx1, IHx2. split; [intros [-> ->]; reflexivity | intros HH; inversion HH; auto].
  - rewrite andb_true_iff, vars_eqb_eq, IHx. split; [intros [-> ->]; reflexivity | intros HH; inversion HH; auto].
  - rewrite andb_true_iff, vars_eqb_eq, IHx. split; [intros [-> ->]; reflexivity | intros HH; inversion HH; auto].
  - fold (list_expr_eqb l l0). rewrite (list_expr_eqb_eq _ H).
    split; [intros ->; reflexivity | intros HH; inversion HH; auto].
  - rewrite andb_true_iff, IHx1, IHx2. split; [intros [-> ->]; reflexivity | intros HH; inversion HH; auto].
  - fold (list_expr_eqb l l0). rewrite (list_expr_eqb_eq _ H).
    split; [intros ->; reflexivity | intros HH; inversion HH; auto].
  - rewrite andb_true_iff, IHx1, IHx2. split; [intros [-> ->]; reflexivity | intros HH; inversion HH; auto].
  - rewrite andb_true_iff, IHx1, IHx2. split; [intros [-> ->]; reflexivity | intros HH; inversion HH; auto].
  - rewrite andb_true_iff, IHx1, IHx2. split; [intros [-> ->]; reflexivity | intros HH; inversion HH; auto].
  - rewrite andb_true_iff, IHx1, IHx2. split; [intros [-> ->]; reflexivity | intros HH; inversion HH; auto].
  - rewrite IHx. split; [intros ->; reflexivity | intros HH; inversion HH; auto].
  - rewrite IHx. split; [intros ->; reflexivity | intros HH; inversion HH; auto].
  - rewrite andb_true_iff, IHx1, IHx2. split; [intros [-> ->]; reflexivity | intros HH; inversion HH; auto].
  - rewrite andb_true_iff, IHx1, IHx2. split; [intros [-> ->]; reflexivity | intros HH; inversion HH; auto].
  - rewrite IHx. split; [intros ->; reflexivity | intros HH; inversion HH; auto].
Qed.

Lemma expr_eqb_refl x : expr_eqb x x = true.
Proof. apply expr_eqb_eq; reflexivity. Qed.

Lemma expr_eq_dec (x y : expr) : {x = y} + {x <> y}.
Proof.
  destruct (expr_eqb x y) eqn:E; [left; apply expr_eqb_eq; exact E | right; intros H; apply expr_eqb_eq in H; congruence].
Qed.

Lemma value_eqb_eq a b : value_eqb a b = true <-> a = b.
Proof.
  destruct a, b; simpl; try (split; [discriminate | intros H; discriminate H]).
  - rewrite Bool.eqb_true_iff. split; [intros ->; reflexivity | intros H; inversion H; auto].
  - rewrite qc_eqb_eq. split; [intros ->; reflexivity | intros H; inversion H; auto].
  - rewrite N.eqb_eq. split; [intros ->; reflexivity | intros H; inversion H; auto].
Qed.

Section ListExt.
  Variables (sc sc' : bool) (I J : interp).
  Notation same := (Forall2 (fun x y => eval sc x I = eval sc' y J)).
  Lemma evals_ext2 l l' : same l l' -> evals sc I l = evals sc' J l'.
  Proof. induction 1 as [|x y l l' Hx _ IH]; [reflexivity|]. cbn [evals]. rewrite Hx, IH. reflexivity. Qed.
  Lemma ebools_ext2 l l' : same l l' -> ebools sc I l = ebools sc' J l'.
  Proof. induction 1 as [|x y l l' Hx _ IH]; [reflexivity|]. cbn [ebools]. rewrite Hx, IH. reflexivity. Qed.
  Lemma enums_ext2 l l' : same l l' -> enums sc I l = enums sc' J l'.
  Proof. induction 1 as [|x y l l' Hx _ IH]; [reflexivity|]. cbn [enums]. rewrite Hx, IH. reflexivity. Qed.
End ListExt.

Lemma evals_ext sc I J l : Forall (fun x => eval sc x I = eval sc x J) l -> evals sc I l = evals sc J l.
Proof. intros H. apply evals_ext2, Forall2_diag, H. Qed.
Lemma ebools_ext sc I J l : Forall (fun x => eval sc x I = eval sc x J) l -> ebools sc I l = ebools sc J l.
Proof. intros H. apply ebools_ext2, Forall2_diag, H. Qed.
Lemma enums_ext sc I J l : Forall (fun x => eval sc x I = eval sc x J) l -> enums sc I l = enums sc J l.
Proof. intros H. apply enums_ext2, Forall2_diag, H. Qed.

Lemma as_bool_some v b : as_bool v = Some b -> v = Some (VBool b).
Proof. destruct v as [[x| |]|]; simpl; try discriminate. intros H; inversion H; reflexivity. Qed.
Lemma as_num_some v q : as_num v = Some q -> v = Some (VNum q).
Proof. destruct v as [[| x |]|]; simpl; try discriminate. intros H; inversion H; reflexivity. Qed.

Lemma memN_In x l : memN x l = true <-> In x l.
Proof. exact (existsb_eqb_In N.eqb N.eqb_eq x l). Qed.

Lemma memN_false x l : memN x l = false <-> ~ In x l.
Proof. exact (existsb_eqb_not_In N.eqb N.eqb_eq x l). Qed.

Lemma is_true_eq e : is_true e = true -> e = EBool true.
Proof. destruct e; try discriminate. destruct b; [reflexivity | discriminate]. Qed.

Lemma is_false_eq e : is_false e = true -> e = EBool false.
Proof. destruct e; try discriminate. destruct b; [discriminate | reflexivity]. Qed.

Lemma lookupN_In {A} k (t : list (N * A)) v : lookupN k t = Some v -> In (k, v) t.
Proof.
  induction t as [|[k' w] t IH]; simpl; [discriminate|]. destruct (k =? k')%N eqn:E.
  - intros H. inversion H; subst. apply N.eqb_eq in E. subst. left; reflexivity.
  - intros H. right. apply IH, H.
Qed.

Lemma lookupN_app {A} k (l1 l2 : list (N * A)) :
  lookupN k (l1 ++ l2) = match lookupN k l1 with Some v => Some v | None => lookupN k l2 end.
Proof.
  induction l1 as [|[k' v] l1 IH]; [reflexivity|]. cbn [app lookupN]. destruct (k =? k')%N; [reflexivity | exact IH].
Qed.

Lemma lookupN_map_snd {A B} (f : A -> B) k l :
  lookupN k (map (fun ia => (fst ia, f (snd ia))) l) = option_map f (lookupN k l).
Proof.
  induction l as [|[i a] l IH]; [reflexivity|]. cbn [map lookupN fst snd]. destruct (k =? i)%N; [reflexivity | exact IH].
Qed.

Lemma lookupN_none_mem {A} k (l : list (N * A)) : lookupN k l = None <-> memN k (map fst l) = false.
Proof.
  induction l as [|[k' v] l IH]; [split; reflexivity|]. cbn [lookupN map fst]. unfold memN in *. cbn [existsb].
  destruct (k =? k')%N; [split; discriminate | exact IH].
Qed.

Lemma lookupN_notin {A} k (t : list (N * A)) : ~ In k (map fst t) -> lookupN k t = None.
Proof. intros H. apply lookupN_none_mem, memN_false, H. Qed.

Lemma zq_num_den1 q : Zpos (Qden (this q)) = 1%Z -> zq (Qnum (this q)) = q.
Proof.
  intros H. apply Qc_is_canon. unfold zq. cbn [this Q2Qc]. rewrite Qred_correct.
  destruct q as [[n d] Hc]. cbn [this Qnum Qden] in *. injection H as ->. reflexivity.
Qed.

Lemma eval_num_node sc q I : eval sc (num_node q) I = Some (VNum q).
Proof.
  unfold num_node. destruct (Zpos (Qden (this q)) =? 1)%Z eqn:E; [|reflexivity].
  apply Z.eqb_eq in E. cbn [eval]. rewrite (zq_num_den1 q E). reflexivity.
Qed.

Lemma lookupN_unique {A} k (t : list (N * A)) v : NoDup (map fst t) -> In (k, v) t -> lookupN k t = Some v.
Proof.
  induction t as [|[k' w] t IH]; simpl; intros Hnd Hin; [destruct Hin|].
  inversion Hnd as [|? ? Hn Hnd']; subst. destruct Hin as [Hin|Hin].
  - inversion Hin; subst. rewrite N.eqb_refl. reflexivity.
  - destruct (k =? k')%N eqn:E.
    + apply N.eqb_eq in E. subst. exfalso. apply Hn. apply in_map_iff. exists (k', v). split; auto.
    + apply IH; assumption.
Qed.

Lemma zq0 : zq 0 = 0%Qc.
Proof. apply Qc_is_canon. reflexivity. Qed.
Lemma zq1 : zq 1 = 1%Qc.
Proof. apply Qc_is_canon. reflexivity. Qed.
Lemma zq_add x y : zq (x + y) = (zq x + zq y)%Qc.
Proof. unfold zq, Qcplus. apply Q2Qc_eq_iff. cbn [Q2Qc this]. rewrite !Qred_correct, inject_Z_plus. reflexivity. Qed.
Lemma zq_mul x y : zq (x * y) = (zq x * zq y)%Qc.
Proof. unfold zq, Qcmult. apply Q2Qc_eq_iff. cbn [Q2Qc this]. rewrite !Qred_correct, inject_Z_mult. reflexivity. Qed.
Lemma zq_opp x : zq (- x) = (- zq x)%Qc.
Proof. unfold zq, Qcopp. apply Q2Qc_eq_iff. cbn [Q2Qc this]. rewrite !Qred_correct, inject_Z_opp. reflexivity. Qed.

Fixpoint fl_syms (e : expr) : list N :=
  let fix go (l : list expr) : list N := match l with [] => [] | x :: l' => fl_syms x ++ go l' end in
  match e with
  | EBool _ | EInt _ | EReal _ | EObj _ | EParam _ | EVar _ _ => []
  | EFluent f l => f :: go l
  | EIFun _ l | EAnd l | EOr l | EPlus l | ETimes l => go l
  | ENot a | EAlways a | ESometime a | EAtMostOnce a | EExists _ a | EForall _ a => fl_syms a
  | EImplies a b | EIff a b | EMinus a b | EDiv a b | ELe a b | ELt a b | EEquals a b
  | ESometimeBefore a b | ESometimeAfter a b => fl_syms a ++ fl_syms b
  end.

Lemma fl_syms_fix l :
  (fix go (l : list expr) : list N := match l with [] => [] | x :: l' => fl_syms x ++ go l' end) l = flat_map fl_syms l.
Proof. induction l as [|x l IH]; [reflexivity|]. cbn [flat_map]. rewrite IH. reflexivity. Qed.

(* [I] and [J] differ at most in the values of the fluent symbols outside [keep] *)
Definition fl_agree (keep : N -> Prop) (I J : interp) : Prop :=
  (forall p, par I p = par J p) /\ (forall v, var I v = var J v) /\ (forall f a, ifun I f a = ifun J f a) /\
  (forall t, objs I t = objs J t) /\ (forall f a, keep f -> fl I f a = fl J f a).

Lemma fl_agree_bind keep I J v o : fl_agree keep I J -> fl_agree keep (bind_var I v o) (bind_var J v o).
Proof. intros (H1 & H2 & H3 & H4 & H5). repeat split; simpl; auto. intros w. destruct (w =? v)%N; auto. Qed.

Lemma instances_Forall2 (R : interp -> interp -> Prop) :
  (forall I J, R I J -> forall t, objs I t = objs J t) ->
  (forall I J v o, R I J -> R (bind_var I v o) (bind_var J v o)) ->
  forall vs I J, R I J -> Forall2 R (instances I vs) (instances J vs).
Proof.
  intros Hobjs Hbind. induction vs as [|[v t] vs IH]; intros I J H; cbn [instances].
  - constructor; [exact H | constructor].
  - rewrite <- (Hobjs I J H t). induction (objs I t) as [|o os IHo]; cbn [flat_map]; [constructor|].
    apply Forall2_app; [apply IH, Hbind, H | exact IHo].
Qed.

Lemma instances_nonempty I vs : (forall p, In p vs -> objs I (snd p) <> []) -> instances I vs <> [].
Proof.
  revert I. induction vs as [|[v ty] vs IH]; intros I H; cbn [instances]; [discriminate|].
  assert (Ho : objs I ty <> []) by (apply (H (v, ty)); left; reflexivity).
  destruct (objs I ty) as [|o r] eqn:E; [congruence|]. cbn [flat_map].
  assert (Hn : instances (bind_var I v o) vs <> []) by (apply IH; intros p Hp; apply (H p); right; exact Hp).
  destruct (instances (bind_var I v o) vs); [congruence|discriminate].
Qed.

Lemma q_fold_none_all {A} sc stop (g : A -> option bool) l : l <> [] -> (forall x, In x l -> g x = None) ->
  q_fold sc stop (map g l) = None.
Proof. destruct l as [|x l]; [contradiction|]. intros _ H. cbn [map q_fold]. rewrite (H x (or_introl eq_refl)). reflexivity. Qed.

Lemma q_fold_all_some {A} (b : A -> bool) l : q_fold false true (map (fun u => Some (b u)) l) = Some (existsb b l).
Proof.
  induction l as [|x l IH]; [reflexivity|]. cbn [map q_fold existsb]. rewrite IH.
  destruct (b x); reflexivity.
Qed.

Lemma instances_one I v ty : instances I [(v, ty)] = map (fun o => bind_var I v o) (objs I ty).
Proof. cbn [instances]. induction (objs I ty) as [|o l IH]; [reflexivity|]. cbn [flat_map map app]. rewrite IH. reflexivity. Qed.

Lemma fl_agree_instances keep vs : forall I J, fl_agree keep I J -> Forall2 (fl_agree keep) (instances I vs) (instances J vs).
Proof.
  apply instances_Forall2; [intros I J (_ & _ & _ & H4 & _); exact H4 | intros I J v o; apply fl_agree_bind].
Qed.

(* the same with the variables: [I] and [J] may also differ in the variables outside [keepv] *)
Definition interp_agree_on (keepf keepv : N -> Prop) (I J : interp) : Prop :=
  (forall p, par I p = par J p) /\ (forall f a, ifun I f a = ifun J f a) /\ (forall t, objs I t = objs J t) /\
  (forall v, keepv v -> var I v = var J v) /\ (forall f a, keepf f -> fl I f a = fl J f a).

Lemma interp_agree_on_mono keepf (kv kv' : N -> Prop) I J : (forall w, kv' w -> kv w) -> interp_agree_on keepf kv I J -> interp_agree_on keepf kv' I J.
Proof. intros H (H1 & H2 & H3 & H4 & H5). repeat split; auto. Qed.

Lemma fl_agree_interp_agree_on keepf I J : fl_agree keepf I J <-> interp_agree_on keepf (fun _ => True) I J.
Proof. unfold fl_agree, interp_agree_on. intuition. Qed.

Lemma interp_agree_on_instances keepf vs : forall kv I J, interp_agree_on keepf kv I J ->
  Forall2 (interp_agree_on keepf (fun w => kv w \/ In w (map fst vs))) (instances I vs) (instances J vs).
Proof.
  induction vs as [|[v t] vs IH]; intros kv I J H; cbn [instances].
  - constructor; [|constructor]. apply (interp_agree_on_mono keepf kv); [intros w [Hw|[]]; exact Hw | exact H].
  - pose proof H as (H1 & H2 & H3 & H4 & H5). rewrite <- H3.
    induction (objs I t) as [|o os IHo]; cbn [flat_map]; [constructor|]. apply Forall2_app; [|exact IHo].
    assert (HB : interp_agree_on keepf (fun w => kv w \/ w = v) (bind_var I v o) (bind_var J v o)).
    { repeat split; cbn; auto. intros w [Hw| ->]; [destruct (w =? v)%N; auto | rewrite N.eqb_refl; reflexivity]. }
    refine (Forall2_impl _ _ _ _ _ (IH _ _ _ HB)). intros x y. apply interp_agree_on_mono.
    cbn [map fst In]. intros w [Hw|[Hw|Hw]]; auto.
Qed.

(* the value of a node is determined by the values of its immediate sub-expressions, and what the node itself reads *)
Lemma eval_leaf_ext sc e I J : is_leaf e = true ->
  (forall p, par I p = par J p) -> (forall v, In v (free_vars e) -> var I v = var J v) -> eval sc e I = eval sc e J.
Proof. intros L Hp Hv. destruct e; try discriminate; try reflexivity; [apply Hp | apply Hv; left; reflexivity]. Qed.

Lemma eval_E1_ext sc o a I J : eval sc a I = eval sc a J -> eval sc (E1 o a) I = eval sc (E1 o a) J.
Proof. intros H. destruct o; try reflexivity. cbn [E1]. rewrite !eval_ENot, H. reflexivity. Qed.

Lemma eval_E2_ext sc o a b I J :
  eval sc a I = eval sc a J -> eval sc b I = eval sc b J -> eval sc (E2 o a b) I = eval sc (E2 o a b) J.
Proof. intros Ha Hb. destruct o; cbn [E2 eval]; rewrite ?Ha, ?Hb; reflexivity. Qed.

Lemma eval_En_ext sc o l I J : Forall (fun x => eval sc x I = eval sc x J) l ->
  (forall f vs, o = NFluent f -> evals sc J l = Some vs -> fl I f vs = fl J f vs) ->
  (forall f vs, o = NIFun f -> ifun I f vs = ifun J f vs) ->
  eval sc (En o l) I = eval sc (En o l) J.
Proof.
  intros HL Hf Hi. destruct o; cbn [En].
  - rewrite !eval_EFluent, (evals_ext sc I J l HL). destruct (evals sc J l) eqn:E; [apply Hf | ]; reflexivity.
  - rewrite !eval_EIFun, (evals_ext sc I J l HL). destruct (evals sc J l); [apply Hi | ]; reflexivity.
  - rewrite !eval_EAnd, (ebools_ext sc I J l HL). reflexivity.
  - rewrite !eval_EOr, (ebools_ext sc I J l HL). reflexivity.
  - rewrite !eval_EPlus, (enums_ext sc I J l HL). reflexivity.
  - rewrite !eval_ETimes, (enums_ext sc I J l HL). reflexivity.
Qed.

Lemma eval_EQ_ext sc ex vs a I J :
  map (fun K => as_bool (eval sc a K)) (instances I vs) = map (fun K => as_bool (eval sc a K)) (instances J vs) ->
  eval sc (EQ ex vs a) I = eval sc (EQ ex vs a) J.
Proof. intros H. destruct ex; cbn [EQ eval]; rewrite H; reflexivity. Qed.

Lemma fl_syms_E1 o a : fl_syms (E1 o a) = fl_syms a. Proof. destruct o; reflexivity. Qed.
Lemma fl_syms_E2 o a b : fl_syms (E2 o a b) = fl_syms a ++ fl_syms b. Proof. destruct o; reflexivity. Qed.
Lemma fl_syms_En o l : fl_syms (En o l) = match o with NFluent f => [f] | _ => [] end ++ flat_map fl_syms l.
Proof. destruct o; cbn [En fl_syms app]; rewrite fl_syms_fix; reflexivity. Qed.
Lemma fl_syms_EQ ex vs a : fl_syms (EQ ex vs a) = fl_syms a. Proof. destruct ex; reflexivity. Qed.

Theorem eval_depends_vars sc (keepf : N -> Prop) e : (forall f, In f (fl_syms e) -> keepf f) ->
  forall (keepv : N -> Prop), (forall v, In v (free_vars e) -> keepv v) ->
  forall I J, interp_agree_on keepf keepv I J -> eval sc e I = eval sc e J.
Proof.
  induction e using expr_view_ind; intros HK keepv HV I J HA; pose proof HA as (Hp & Hi & Ho & Hv & Hf).
  - apply eval_leaf_ext; [exact H | exact Hp | intros v Hin; apply Hv, HV, Hin].
  - rewrite fl_syms_E1 in HK. rewrite fv_E1 in HV. apply eval_E1_ext, (IHe HK keepv HV I J HA).
  - rewrite fl_syms_E2 in HK. rewrite fv_E2 in HV. apply eval_E2_ext.
    + apply (IHe1 (fun f Hin => HK f (in_or_app _ _ _ (or_introl Hin))) keepv (fun v Hin => HV v (in_or_app _ _ _ (or_introl Hin))) I J HA).
    + apply (IHe2 (fun f Hin => HK f (in_or_app _ _ _ (or_intror Hin))) keepv (fun v Hin => HV v (in_or_app _ _ _ (or_intror Hin))) I J HA).
  - rewrite fl_syms_En in HK. rewrite fv_En in HV. apply eval_En_ext.
    + rewrite Forall_forall in *. intros x Hx. apply (H x Hx) with (keepv := keepv); [| |exact HA].
      * intros f Hin. apply HK, in_or_app. right. apply in_flat_map. eauto.
      * intros v Hin. apply HV, in_flat_map. eauto.
    + intros f vs -> _. apply Hf, HK. left. reflexivity.
    + intros f vs _. apply Hi.
  - rewrite fl_syms_EQ in HK. rewrite fv_EQ in HV. apply eval_EQ_ext.
    apply (Forall2_map_eq _ _ _ _ _ (interp_agree_on_instances keepf vs keepv I J HA)).
    assert (HV' : forall w, In w (free_vars e) -> keepv w \/ In w (map fst vs)).
    { intros w Hw. destruct (memN w (map fst vs)) eqn:E; [right; apply memN_In, E | left].
      apply HV, filter_In. split; [exact Hw | rewrite E; reflexivity]. }
    intros x y Hxy. rewrite (IHe HK _ HV' x y Hxy). reflexivity.
Qed.

Theorem eval_depends sc (keep : N -> Prop) e :
  (forall f, In f (fl_syms e) -> keep f) -> forall I J, fl_agree keep I J -> eval sc e I = eval sc e J.
Proof.
  intros HK I J HA. apply (eval_depends_vars sc keep e HK (fun _ => True)); [intros; exact Logic.I|].
  apply fl_agree_interp_agree_on, HA.
Qed.

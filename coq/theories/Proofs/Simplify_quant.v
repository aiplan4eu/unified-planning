(* Soundness of walk_exists / walk_forall G (pruning of unused variables, equality elimination) and the main theorem. *)
From Coq Require Import List ZArith NArith QArith Qcanon Bool Lia.
Import ListNotations.
Require Import UPV.Core.Expr UPV.Core.Eval UPV.Proofs.ListFacts UPV.Proofs.Eval_lemmas UPV.Proofs.ExprView UPV.Walkers.Simplify UPV.Proofs.Simplify_base
  UPV.Proofs.Simplify_fv UPV.Proofs.Simplify_sem UPV.Proofs.Simplify_wf UPV.Proofs.Simplify_wfp UPV.Proofs.Simplify_sound UPV.Proofs.Simplify_junct.
Local Open Scope nat_scope.

Lemma hd_In (d : N) l : l <> [] -> In (hd d l) l.
Proof. destruct l; [congruence|]. intros _. left. reflexivity. Qed.

(* moving between the instances of two variable lists over the same base interpretation *)
Lemma inst_transfer I vs1 vs2 g1 g2 (P : N -> Prop) J1 :
  NoDup (map fst vs2) -> assigns I vs1 g1 J1 -> typed_for I vs2 g2 ->
  (forall w, P w -> (if memN w (map fst vs1) then Some (VObj (g1 w)) else var I w)
                  = (if memN w (map fst vs2) then Some (VObj (g2 w)) else var I w)) ->
  exists J2, In J2 (instances I vs2) /\ agree P J1 J2.
Proof.
  intros ND [B1 V1] HT HV. destruct (inst_complete vs2 ND I g2 HT) as [J2 [HJ2 [B2 V2]]].
  exists J2. split; [exact HJ2|]. split.
  - eapply ieq_trans; [apply ieq_sym, same_base_ieq; exact B1|apply same_base_ieq; exact B2].
  - intros w Hw. rewrite V1, V2. apply HV. exact Hw.
Qed.

Lemma agree_R (P : N -> Prop) J J' a : (forall w, In w (free_vars a) -> P w) -> agree P J J' -> R J J' a a.
Proof.
  intros HP HA v Hv. rewrite <- Hv. symmetry. apply eval_coincide. eapply agree_mono; [|exact HA]. exact HP.
Qed.

Section Quant.
  Variables (G : cfg) (tau : N -> N) (QT : N -> bool).
  Hypothesis HG : cfg_consts G.
  Notation wf := (wfx tau QT).
  Notation eok := (env_ok G tau QT).

  Lemma cong_EQ_body ex I S vs a a' :
    eok I -> binders_ok tau QT S vs = true -> (forall J, eok J -> R J J a a') -> R I I (EQ ex vs a) (EQ ex vs a').
  Proof.
    intros E W H. apply binders_ok_spec in W. destruct W as [A ND].
    apply cong_EQ_F2, Forall2_diag. intros J HJ. apply H. eapply env_ok_inst; eauto. intros p Hp. apply A, Hp.
  Qed.

  Lemma sound_prune ex I S vs b : eok I -> wf S (EQ ex vs b) = true -> R I I (EQ ex vs b) (EQ ex (prune G vs b) b).
  Proof.
    intros E W. assert (W' : binders_ok tau QT S vs && wf (map fst vs ++ S) b = true) by (destruct ex; exact W).
    apply andb_true_iff in W'. destruct W' as [W1 W2]. apply binders_ok_spec in W1. destruct W1 as [A ND].
    assert (ND0 : NoDup (map fst (prune G vs b))) by (apply NoDup_map_filter; exact ND).
    assert (Hsub : forall w, In w (map fst (prune G vs b)) -> In w (map fst vs)).
    { intros w Hw. apply in_map_iff in Hw. destruct Hw as [p [<- Hp]]. apply in_map. apply (prune_incl _ _ _ _ Hp). }
    assert (Hfv : forall w, In w (free_vars b) -> In w (map fst vs) -> In w (map fst (prune G vs b))).
    { intros w Hw Hin. apply in_map_iff in Hin. destruct Hin as [p [<- Hp]]. apply in_map. apply filter_In.
      split; [exact Hp|apply orb_true_iff; left; apply memN_In; exact Hw]. }
    apply cong_EQ.
    - intros J' HJ'. destruct (inst_sound _ ND0 I J' HJ') as [g' [HT' HA']].
      set (g := fun w => if memN w (map fst (prune G vs b)) then g' w else hd 0%N (objs I (tau w))).
      assert (HT : typed_for I vs g).
      { intros p Hp. destruct (A p Hp) as (A1 & A2 & A3). unfold g.
        destruct (memN (fst p) (map fst (prune G vs b))) eqn:M.
        - apply memN_In in M. apply in_map_iff in M. destruct M as [p' [E' Hp']].
          assert (Hp'' := prune_incl _ _ _ _ Hp'). destruct (A p' Hp'') as (B1 & _ & _).
          rewrite <- E'. rewrite A1, <- E', <- B1. apply HT'. exact Hp'.
        - rewrite A1. apply hd_In. apply (ok_inh _ _ _ _ E). rewrite <- A1. exact A2. }
      destruct (inst_transfer I (prune G vs b) vs g' g (fun w => In w (free_vars b)) J' ND HA' HT) as [J [HJ HAg]].
      { intros w Hw. unfold g. destruct (memN w (map fst (prune G vs b))) eqn:M1.
        - apply memN_In in M1. assert (M2 := Hsub w M1). apply memN_In in M2. rewrite M2. reflexivity.
        - destruct (memN w (map fst vs)) eqn:M2; [|reflexivity]. apply memN_In in M2. apply memN_false in M1.
          exfalso. apply M1. apply Hfv; assumption. }
      exists J. split; [exact HJ|]. apply (agree_R (fun w => In w (free_vars b))); [auto|].
      destruct HAg as [X Y]. split; [apply ieq_sym; exact X|]. intros w Hw. symmetry. apply Y. exact Hw.
    - intros J HJ. destruct (inst_sound _ ND I J HJ) as [g [HT HA']].
      assert (HT0 : typed_for I (prune G vs b) g) by (intros p Hp; apply HT; apply (prune_incl _ _ _ _ Hp)).
      destruct (inst_transfer I vs (prune G vs b) g g (fun w => In w (free_vars b)) J ND0 HA' HT0) as [J' [HJ' HAg]].
      { intros w Hw. destruct (memN w (map fst vs)) eqn:M2.
        - apply memN_In in M2. assert (M1 := Hfv w Hw M2). apply memN_In in M1. rewrite M1. reflexivity.
        - destruct (memN w (map fst (prune G vs b))) eqn:M1; [|reflexivity]. apply memN_In in M1. apply Hsub in M1.
          apply memN_In in M1. congruence. }
      exists J'. split; [exact HJ'|]. apply (agree_R (fun w => In w (free_vars b))); auto.
  Qed.

  Lemma sound_walk_forall I S vs b : eok I -> wf S (EForall vs b) = true -> R I I (EForall vs b) (walk_forall G vs b).
  Proof.
    intros E W. unfold walk_forall. eapply R_trans; [apply (sound_prune false I S vs b E W)|apply mkForall_R].
  Qed.

  Lemma in_remove_var_pair p x vs : In p vs -> fst p <> x -> In p (remove_var x vs).
  Proof.
    induction vs as [|q r IH]; intros [] Hn; cbn [remove_var].
    - subst q. apply N.eqb_neq in Hn. rewrite Hn. left. reflexivity.
    - destruct (fst q =? x)%N; [assumption|right; auto].
  Qed.

  Lemma memN_remove_var w x vs : w <> x -> memN w (map fst (remove_var x vs)) = memN w (map fst vs).
  Proof.
    intros Hn. destruct (memN w (map fst vs)) eqn:M.
    - apply memN_In. apply memN_In in M. apply in_remove_var_neq; assumption.
    - apply memN_false. apply memN_false in M. intros H. apply M. eapply in_remove_var; eauto.
  Qed.

  Lemma ebools_mid I pre c post bs :
    ebools false I (pre ++ c :: post) = Some bs ->
    exists b1 bc b2, ebools false I pre = Some b1 /\ as_bool (eval false c I) = Some bc /\ ebools false I post = Some b2 /\
                     bs = b1 ++ bc :: b2.
  Proof.
    rewrite ebools_app. cbn [ebools]. destruct (ebools false I pre) as [b1|]; [|discriminate].
    destruct (as_bool (eval false c I)) as [bc|]; [|discriminate]. destruct (ebools false I post) as [b2|]; [|discriminate].
    intros H; inversion H; subst. exists b1, bc, b2. auto.
  Qed.

  Lemma forallb_mid (b1 b2 : list bool) bc :
    forallb (fun b => b) (b1 ++ bc :: b2) = bc && forallb (fun b => b) (b1 ++ b2).
  Proof. rewrite !forallb_app. cbn. destruct (forallb _ b1), bc; reflexivity. Qed.

  Lemma eq_cand_eval K x ty t c o bc :
    (c = EEquals (EVar x ty) t \/ c = EEquals t (EVar x ty)) -> var K x = Some (VObj o) ->
    as_bool (eval false c K) = Some bc -> exists u, eval false t K = Some (VObj u) /\ bc = (o =? u)%N.
  Proof.
    intros [->| ->] HV; rewrite eval_EEquals; cbn [eval]; rewrite HV.
    - destruct (eval false t K) as [[y|y|y]|]; try discriminate. intros H; inversion H. eauto.
    - destruct (eval false t K) as [[y|y|y]|]; try discriminate. intros H; inversion H. exists y. split; [reflexivity|apply N.eqb_sym].
  Qed.

  Lemma bvars_mkAnd w l : In w (bvars (mkAnd l)) -> In w (bvl l).
  Proof.
    destruct l as [|a [|b l]]; cbn [mkAnd].
    - intros [].
    - cbn [bvl flat_map]. rewrite app_nil_r. auto.
    - rewrite (bv_En NAnd). auto.
  Qed.

  (* the instances over [vs] are, up to the order of binding, the instances over [vs] without [x] extended by a value
     for [x] *)
  Lemma assigns_bind I vs x g g' J J' :
    In x (map fst vs) -> assigns I vs g J -> assigns I (remove_var x vs) g' J' ->
    (forall w, w <> x -> g w = g' w) -> iext J (bind_var J' x (g x)).
  Proof.
    intros Hx [B V] [B' V'] Hg. split.
    - eapply ieq_trans; [apply ieq_sym, same_base_ieq; exact B|].
      eapply ieq_trans; [apply same_base_ieq; exact B'|]. repeat split.
    - intros w _. rewrite V. simpl. destruct (w =? x)%N eqn:Ex.
      + apply N.eqb_eq in Ex. subst w. apply memN_In in Hx. rewrite Hx. reflexivity.
      + rewrite V'. apply N.eqb_neq in Ex. rewrite (memN_remove_var w x vs Ex), (Hg w Ex). reflexivity.
  Qed.

  Section RemoveVar.
    Variables (I : interp) (vs : list (N * N)) (x ty : N).
    Hypothesis ND : NoDup (map fst vs).
    Hypothesis Hx : In x (map fst vs).
    Hypothesis Hty : forall p, In p vs -> fst p = x -> snd p = ty.

    Lemma inst_lift J' o : In J' (instances I (remove_var x vs)) -> In o (objs I ty) ->
      exists J, In J (instances I vs) /\ iext J (bind_var J' x o).
    Proof.
      intros HJ' Ho. destruct (inst_sound _ (NoDup_remove_var x vs ND) I J' HJ') as [g' [HT' HA']].
      set (g := fun w => if (w =? x)%N then o else g' w).
      assert (HT : typed_for I vs g).
      { intros p Hp. unfold g. destruct (fst p =? x)%N eqn:Ex.
        - apply N.eqb_eq in Ex. rewrite (Hty p Hp Ex). exact Ho.
        - apply N.eqb_neq in Ex. apply HT'. apply in_remove_var_pair; assumption. }
      destruct (inst_complete vs ND I g HT) as [J [HJ HA]]. exists J. split; [exact HJ|].
      replace o with (g x) by (unfold g; rewrite N.eqb_refl; reflexivity).
      apply (assigns_bind I vs x g g' J J' Hx HA HA').
      intros w Hw. unfold g. apply N.eqb_neq in Hw. rewrite Hw. reflexivity.
    Qed.

    Lemma inst_proj J : In J (instances I vs) ->
      exists J' o, In J' (instances I (remove_var x vs)) /\ In o (objs I ty) /\ iext J (bind_var J' x o).
    Proof.
      intros HJ. destruct (inst_sound _ ND I J HJ) as [g [HT HA]].
      assert (HT' : typed_for I (remove_var x vs) g) by (intros p Hp; apply HT; apply (remove_var_incl _ _ _ Hp)).
      destruct (inst_complete _ (NoDup_remove_var x vs ND) I g HT') as [J' [HJ' HA']].
      exists J', (g x). split; [exact HJ'|]. split; [|exact (assigns_bind I vs x g g J J' Hx HA HA' (fun _ _ => eq_refl))].
      apply in_map_iff in Hx. destruct Hx as [p [Ep Hp]]. rewrite <- (Hty p Hp Ep), <- Ep. apply HT. exact Hp.
    Qed.
  End RemoveVar.

  (* a conjunction that contains the equation x = t, evaluated with x bound to o: t has an object value u (it does not
     depend on x), and the conjunction is (o = u) and the rest *)
  Lemma one_point_eval J' o pre c post x ty t bq :
    (c = EEquals (EVar x ty) t \/ c = EEquals t (EVar x ty)) -> ~ In x (free_vars t) ->
    as_bool (eval false (EAnd (pre ++ c :: post)) (bind_var J' x o)) = Some bq ->
    exists u b, eval false t J' = Some (VObj u) /\
                eval false (EAnd (pre ++ post)) (bind_var J' x o) = Some (VBool b) /\ bq = (o =? u)%N && b.
  Proof.
    intros Hc Ho Hb. rewrite eval_EAnd in Hb.
    destruct (ebools false (bind_var J' x o) (pre ++ c :: post)) as [bs|] eqn:Eb; [|discriminate].
    destruct (ebools_mid _ _ _ _ _ Eb) as (b1 & bc & b2 & E1 & Ec & E2 & ->).
    assert (HVx : var (bind_var J' x o) x = Some (VObj o)) by (simpl; rewrite N.eqb_refl; reflexivity).
    destruct (eq_cand_eval _ _ _ _ _ _ _ Hc HVx Ec) as [u [Hu ->]].
    exists u, (forallb (fun b => b) (b1 ++ b2)). split; [|split].
    - rewrite <- Hu. symmetry. apply eval_coincide. split; [repeat split|]. intros w Hw. simpl.
      destruct (w =? x)%N eqn:Ex; [|reflexivity]. apply N.eqb_eq in Ex. subst. tauto.
    - rewrite eval_EAnd, ebools_app, E1, E2. reflexivity.
    - simpl in Hb. rewrite forallb_mid in Hb. inversion Hb. reflexivity.
  Qed.

  Lemma sound_elim_step I S vs body vs' body' :
    eok I -> wf S (EExists vs body) = true -> elim_step G vs body = Some (vs', body') ->
    R I I (EExists vs body) (EExists vs' body').
  Proof.
    intros E W ES. destruct (elim_step_spec _ _ _ _ _ ES) as [pre [c [post [x [t [-> [EC [-> ->]]]]]]]].
    cbn [wfx] in W. apply andb_true_iff in W. destruct W as [W1 W2].
    destruct (forallb_app_inv _ _ _ _ W2) as [Wr Wc].
    destruct (elim_cand_wf tau QT _ _ _ _ _ _ EC HG Wc) as (Wt & Qt & Hx & Ho).
    destruct (elim_cand_spec _ _ _ _ _ EC) as [ty [Hc [_ [_ [tv [Hu Hcompat]]]]]].
    apply binders_ok_spec in W1. destruct W1 as [A ND].
    assert (Hty : ty = tau x).
    { destruct Hc as [->| ->]; cbn [wfx] in Wc; apply andb_true_iff in Wc; destruct Wc as [C1 C2];
        [apply andb_true_iff in C1; destruct C1 as [C1 _]|apply andb_true_iff in C2; destruct C2 as [C2 _]];
        apply N.eqb_eq; assumption. }
    assert (Hinh : objs I ty <> []).
    { apply in_map_iff in Hx. destruct Hx as [p [Ep Hp]]. destruct (A p Hp) as (A1 & A2 & _).
      apply (ok_inh _ _ _ _ E). rewrite Hty, <- Ep, <- A1. exact A2. }
    assert (ND' : NoDup (map fst (remove_var x vs))) by (apply NoDup_remove_var; exact ND).
    assert (Hcap : forall w, In w (free_vars t) -> ~ In w (bvars (mkAnd (pre ++ post)))).
    { intros w Hw Hb. apply bvars_mkAnd in Hb. apply in_bvl in Hb. destruct Hb as [y [Hy Hb]].
      rewrite forallb_forall in Wr. apply (wf_bvars tau QT y _ (Wr y Hy) w Hb). eapply wf_fv; eauto. }
    assert (Htyped' : forall p, In p (remove_var x vs) -> snd p = tau (fst p)).
    { intros p Hp. apply A. apply (remove_var_incl _ _ _ Hp). }
    assert (Hxty : forall p, In p vs -> fst p = x -> snd p = ty).
    { intros p Hp Ep. destruct (A p Hp) as (A1 & _). rewrite A1, Ep, Hty. reflexivity. }
    pose proof (inst_lift I vs x ty ND Hx Hxty) as Lift. pose proof (inst_proj I vs x ty ND Hx Hxty) as Proj.
    (* evaluation of the body at an instance where x has the value of t *)
    assert (Body : forall J' u bq, eval false t J' = Some (VObj u) ->
                   as_bool (eval false (EAnd (pre ++ c :: post)) (bind_var J' x u)) = Some bq ->
                   as_bool (eval false (subst x t (mkAnd (pre ++ post))) J') = Some bq).
    { intros J' u bq Hu' Hb. destruct (one_point_eval _ _ _ _ _ _ _ _ _ Hc Ho Hb) as (u' & b & Hu'' & Ev & ->).
      rewrite Hu' in Hu''. inversion Hu''; subst u'. rewrite N.eqb_refl.
      apply mkAnd_R in Ev. apply (subst_R x t _ J' u Hcap Hu') in Ev. rewrite Ev. reflexivity. }
    intros v. rewrite !eval_EExists.
    destruct (q_fold false true (map (fun J => as_bool (eval false (EAnd (pre ++ c :: post)) J)) (instances I vs))) as [bq|] eqn:Q;
      [|discriminate].
    intros Hv. rewrite (qf_refine true _ _ _ (fun J' => as_bool (eval false (subst x t (mkAnd (pre ++ post))) J')) bq Q); [exact Hv| |].
    - (* every instance of the remaining variables is covered *)
      intros J' HJ'.
      assert (Hd := qf_all_def _ _ _ Q). rewrite Forall_forall in Hd.
      assert (EJ' : eok J') by (eapply env_ok_inst; eauto).
      destruct (inst_base _ _ _ HJ') as [[_ [_ [_ Bobjs]]] _].
      (* the value of t at J' *)
      assert (K : exists u, eval false t J' = Some (VObj u) /\ In u (objs I ty)).
      { destruct (objs I ty) as [|o0 rest] eqn:Eo; [congruence|].
        destruct (Lift J' o0 HJ') as [J0 [HJ0 HE0]]; [try rewrite Eo; left; reflexivity|].
        assert (D0 := Hd _ (in_map (fun J => as_bool (eval false (EAnd (pre ++ c :: post)) J)) _ _ HJ0)).
        rewrite (eval_iext false _ _ _ HE0) in D0.
        destruct (as_bool (eval false (EAnd (pre ++ c :: post)) (bind_var J' x o0))) as [b0|] eqn:E0; [|congruence].
        destruct (one_point_eval _ _ _ _ _ _ _ _ _ Hc Ho E0) as (u & _ & Hu' & _).
        exists u. split; [exact Hu'|].
        destruct (head_typed _ _ _ _ _ _ _ _ EJ' Wt Hu Hu') as [u' [Eu Hin]]. inversion Eu; subst u'.
        rewrite Bobjs in Hin. rewrite <- Eo. apply (ok_sub _ _ _ _ E ty tv u Hcompat Hin). }
      destruct K as [u [Hu' Hin]].
      destruct (Lift J' u HJ' Hin) as [Ju [HJu HEu]]. exists Ju. split; [exact HJu|].
      intros c0 Hc0. rewrite (eval_iext false _ _ _ HEu) in Hc0. apply (Body J' u c0 Hu' Hc0).
    - (* a true instance gives a true instance *)
      intros J HJ HT. destruct (Proj J HJ) as [J' [o [HJ' [Ho' HE]]]]. exists J'. split; [exact HJ'|].
      rewrite (eval_iext false _ _ _ HE) in HT.
      assert (Hu' : eval false t J' = Some (VObj o)).
      { destruct (one_point_eval _ _ _ _ _ _ _ _ _ Hc Ho HT) as (u & b & Hu' & _ & HT').
        symmetry in HT'. apply andb_true_iff in HT'. destruct HT' as [HT' _]. apply N.eqb_eq in HT'. subst u. exact Hu'. }
      apply (Body J' o true Hu' HT).
  Qed.

  Lemma sound_walk_exists rs I S vs b :
    (forall x S' I', wf S' x = true -> eok I' -> R I' I' x (rs x)) ->
    eok I -> wf S (EExists vs b) = true -> R I I (EExists vs b) (walk_exists G rs vs b).
  Proof.
    intros Hrs E W.
    apply (walk_exists_inv G (fun vs1 b1 => wf S (EExists vs1 b1) = true /\ R I I (EExists vs b) (EExists vs1 b1))
                             (fun x => R I I (EExists vs b) x)).
    - split; [exact (wf_quant_prune tau QT G true vs b S W)|exact (sound_prune true I S vs b E W)].
    - intros v c v' c' ES [W1 R1]. split; [exact (wf_elim_step tau QT G v c v' c' S HG ES W1)|].
      exact (R_trans _ _ _ _ _ _ R1 (sound_elim_step I S v c v' c' E W1 ES)).
    - intros v c [W1 R1]. exact (R_trans _ _ _ _ _ _ R1 (mkExists_R I v c)).
    - intros v c [W1 R1]. eapply R_trans; [exact R1|]. eapply R_trans; [apply mkExists_R|].
      apply (Hrs _ S); [apply wf_mkExists, W1|exact E].
  Qed.

  (* each node function refines the node it is applied to *)
  Lemma sound_walk1 I o a : R I I (E1 o a) (walk1 o a).
  Proof. destruct o; [apply sound_walk_not|intros v H; discriminate H..]. Qed.

  Lemma sound_walk2 I S o a b :
    eok I -> wf S a = true -> wf S b = true -> R I I (E2 o a b) (walk2 G o a b).
  Proof.
    intros E Wa Wb.
    destruct o; [apply sound_walk_implies|apply sound_walk_iff|apply sound_walk_minus|apply sound_walk_div
                |apply sound_walk_le|apply sound_walk_lt|exact (sound_walk_equals G tau QT I S a b E Wa Wb)
                |intros v H; discriminate H..].
  Qed.

  Lemma sound_walkn I o l : eok I -> R I I (En o l) (walkn G o l).
  Proof.
    intros E. destruct o; [exact (sound_walk_fluent G tau QT I f l HG E)|exact (sound_walk_ifun G tau QT I f l HG E)
                          |apply (sound_walk_junct I true)|apply (sound_walk_junct I false)
                          |apply (sound_walk_arith I false)|apply (sound_walk_arith I true)].
  Qed.

  Lemma simp_sound_gen n :
    (forall x S I, wf S x = true -> eok I -> R I I x (resimp G n x)) ->
    forall e S I, wf S e = true -> eok I -> R I I e (simp G n e).
  Proof.
    intros Hrs.
    induction e using expr_view_ind; intros S I W E.
    - rewrite simp_leaf by assumption. apply R_refl.
    - rewrite wf_E1 in W. rewrite simp_E1. eapply R_trans; [apply cong_E1, (IHe S I W E)|apply sound_walk1].
    - rewrite wf_E2 in W. apply andb_true_iff in W. destruct W as [W1 W2]. rewrite simp_E2.
      eapply R_trans; [apply cong_E2; [apply (IHe1 S I W1 E)|apply (IHe2 S I W2 E)]|].
      apply (sound_walk2 I S); [exact E|apply simp_wf; assumption..].
    - rewrite simp_En.
      apply (R_trans _ I _ _ (En o (map (simp G n) l))); [apply cong_En; [reflexivity|reflexivity|]|apply sound_walkn, E].
      apply Forall2_map_l. intros y Hy. rewrite Forall_forall in H.
      exact (H y Hy S I (wf_En_in tau QT S o l y W Hy) E).
    - rewrite wf_EQ in W. apply andb_true_iff in W. destruct W as [W1 W2].
      assert (Wb : wf S (EQ ex vs (simp G n e)) = true) by (rewrite wf_EQ, W1; apply simp_wf; assumption).
      rewrite simp_EQ. eapply R_trans.
      + apply (cong_EQ_body ex I S vs e (simp G n e) E W1). intros J EJ. exact (IHe _ J W2 EJ).
      + destruct ex; cbn [EQ walkq] in *.
        * apply (sound_walk_exists _ I S); [exact Hrs|exact E|exact Wb].
        * apply (sound_walk_forall I S); [exact E|exact Wb].
  Qed.

  Theorem simp_sound n : forall e S I, wf S e = true -> eok I -> R I I e (simp G n e).
  Proof.
    induction n as [|n IHn]; apply simp_sound_gen.
    - intros x S I _ _. apply R_refl.
    - exact IHn.
  Qed.
End Quant.

(* Proofs about the HTN ordering model (C34). *)
From Coq Require Import List ZArith NArith QArith Bool Lia.
Import ListNotations.
Require Import UPV.Model.Htn.
Local Open Scope nat_scope.

Lemma prec_of_spec c a b : prec_of c = Some (a, b) <-> is_precedence c a b.
Proof.
  split.
  - destruct c as [l r|]; [|discriminate]. destruct l as [l|]; [|discriminate]. destruct r as [r|]; [|discriminate].
    destruct l as [lk lc ld], r as [rk rc rd]; unfold prec_of; cbn [t_kind t_cont t_delay].
    destruct (Qeq_bool ld 0) eqn:E1; [|discriminate]. destruct (Qeq_bool rd 0) eqn:E2; [|discriminate].
    cbn [negb orb].
    destruct lk; cbn; try discriminate. destruct rk; cbn; try discriminate.
    destruct lc as [x|]; [|discriminate]. destruct rc as [y|]; [|discriminate].
    intros H; inversion H; subst. exists ld, rd. repeat split; apply Qeq_bool_iff; assumption.
  - intros (dl & dr & -> & H1 & H2). unfold prec_of; cbn [t_kind t_cont t_delay].
    apply Qeq_bool_iff in H1, H2. rewrite H1, H2. reflexivity.
Qed.

Lemma prec_of_none c : not_a_precedence c <-> prec_of c = None.
Proof.
  split.
  - intros H. destruct (prec_of c) as [[a b]|] eqn:E; [|reflexivity].
    exfalso. apply (H a b). apply prec_of_spec; exact E.
  - intros H a b Hp. apply prec_of_spec in Hp. congruence.
Qed.

Lemma take_precs_all cs precs : all_precedences cs precs -> take_precs cs = precs.
Proof.
  induction 1 as [|c p cs precs Hc _ IH]; [reflexivity|].
  simpl. destruct p as [a b]. apply prec_of_spec in Hc. simpl in Hc. rewrite Hc, IH. reflexivity.
Qed.

Lemma all_precedences_length cs precs : all_precedences cs precs -> length precs = length cs.
Proof. induction 1; simpl; congruence. Qed.

Lemma take_precs_length_le cs : length (take_precs cs) <= length cs.
Proof. induction cs as [|c cs IH]; simpl; [lia|]. destruct (prec_of c); simpl; lia. Qed.

Lemma take_precs_short cs c : In c cs -> prec_of c = None -> length (take_precs cs) < length cs.
Proof.
  induction cs as [|c' cs IH]; simpl; intros HI HN; [tauto|].
  destruct HI as [->|HI].
  - rewrite HN. simpl. lia.
  - destruct (prec_of c'); simpl; [specialize (IH HI HN); lia | lia].
Qed.

Lemma NoDup_remove_elt (x : N) l : NoDup l -> NoDup (remove N.eq_dec x l).
Proof.
  induction 1 as [|y l Hy _ IH]; simpl; [constructor|].
  destruct (N.eq_dec x y); [exact IH|]. constructor; [|exact IH].
  intros H. apply in_remove in H. tauto.
Qed.

Lemma filter_single (f : N -> bool) l h :
  NoDup l -> In h l -> f h = true -> (forall x, In x l -> f x = true -> x = h) -> filter f l = [h].
Proof.
  induction 1 as [|y l Hy ND IH]; simpl; intros HI Hf Hu; [tauto|].
  destruct (f y) eqn:E.
  - assert (y = h) by (apply Hu; auto). subst y. f_equal.
    assert (Hnone : forall z, In z l -> f z = false).
    { intros z Hz. destruct (f z) eqn:Ez; [|reflexivity]. assert (z = h) by (apply Hu; auto). subst; tauto. }
    clear -Hnone. induction l as [|z l IH]; simpl; [reflexivity|].
    rewrite (Hnone z (or_introl eq_refl)). apply IH. intros; apply Hnone; right; assumption.
  - destruct HI as [->|HI]; [congruence|]. apply IH; auto.
Qed.

Lemma no_pred_iff prec t : no_pred prec t = true <-> forall a, ~ In (a, t) prec.
Proof.
  unfold no_pred. rewrite forallb_forall. split.
  - intros H a HI. specialize (H _ HI). simpl in H. rewrite N.eqb_refl in H. discriminate.
  - intros H [a b] HI. simpl. destruct (N.eqb_spec b t); [subst; exfalso; eapply H; eauto | reflexivity].
Qed.

Lemma before_In_r a b L : before a b L -> In b L.
Proof. induction L as [|x T IH]; simpl; [tauto|]. intros [[_ H]|H]; auto. Qed.

Lemma before_In_l a b L : before a b L -> In a L.
Proof. induction L as [|x T IH]; simpl; [tauto|]. intros [[H _]|H]; auto. Qed.

Lemma before_head_no a h T : NoDup (h :: T) -> ~ before a h (h :: T).
Proof.
  intros ND H. inversion ND as [|? ? Hn _]; subst. apply Hn.
  simpl in H. destruct H as [[_ H]|H]; [exact H | eapply before_In_r; exact H].
Qed.

Lemma before_cons_ne a b h T : before a b (h :: T) -> a <> h -> before a b T.
Proof. simpl. intros [[H _]|H] Hne; [congruence | exact H]. Qed.

Lemma before_remove a b x L : before a b L -> a <> x -> b <> x -> before a b (remove N.eq_dec x L).
Proof.
  induction L as [|y T IH]; simpl; [tauto|]. intros H Ha Hb.
  destruct (N.eq_dec x y) as [->|Hne].
  - destruct H as [[H _]|H]; [congruence | auto].
  - simpl. destruct H as [[H1 H2]|H]; [left; split; [exact H1 | apply in_in_remove; auto] | right; auto].
Qed.

Lemma head_no_pred pending prec h T :
  linear_extension pending prec (h :: T) -> In h pending /\ no_pred prec h = true.
Proof.
  intros (ND & Hiff & Hbef). split; [apply Hiff; left; reflexivity|].
  apply no_pred_iff. intros a H. apply Hbef in H. exact (before_head_no _ _ _ ND H).
Qed.

Definition unique_extension (tasks : list N) (precs : list (N * N)) (L : list N) : Prop :=
  linear_extension tasks precs L /\ forall L', linear_extension tasks precs L' -> L' = L.

Definition inv (pending : list N) (prec : list (N * N)) : Prop :=
  NoDup pending /\ between_subtasks pending prec.

Definition rest (first : N) (prec : list (N * N)) := filter (fun p => negb (fst p =? first)%N) prec.

Lemma in_rest first prec a b : In (a, b) (rest first prec) <-> In (a, b) prec /\ a <> first.
Proof.
  unfold rest. rewrite filter_In. simpl. destruct (N.eqb_spec a first); simpl; split; intros [H1 H2]; split; auto; congruence.
Qed.

Section Step.
  Variables (pending : list N) (prec : list (N * N)) (first : N).
  Hypothesis Hinv : inv pending prec.
  Hypothesis Hin : In first pending.
  Hypothesis Hnp : no_pred prec first = true.

  Let pending' := remove N.eq_dec first pending.
  Let prec' := rest first prec.

  Lemma step_inv : inv pending' prec'.
  Proof.
    destruct Hinv as [ND Hb]. split; [apply NoDup_remove_elt; exact ND|].
    intros a b H. apply in_rest in H. destruct H as [H Hne]. destruct (Hb _ _ H) as [Ha Hbb].
    split; apply in_in_remove; auto.
    intros ->. apply (proj1 (no_pred_iff _ _) Hnp a). exact H.
  Qed.

  Lemma step_up T : linear_extension pending' prec' T -> linear_extension pending prec (first :: T).
  Proof.
    intros (ND & Hiff & Hbef). destruct Hinv as [NDp Hb]. split; [|split].
    - constructor; [|exact ND]. intros H. apply Hiff in H. apply in_remove in H. tauto.
    - intros x; split.
      + intros [<-|H]; [exact Hin|]. apply Hiff in H. apply in_remove in H. tauto.
      + intros H. destruct (N.eq_dec x first) as [->|Hne]; [left; reflexivity|].
        right. apply Hiff. apply in_in_remove; auto.
    - intros a b H. simpl. destruct (N.eq_dec a first) as [->|Hne].
      + left. split; [reflexivity|]. apply Hiff. apply in_in_remove; [|apply (Hb _ _ H)].
        intros ->. apply (proj1 (no_pred_iff _ _) Hnp first). exact H.
      + right. apply Hbef. apply in_rest. auto.
  Qed.

  Lemma step_down T : linear_extension pending prec (first :: T) -> linear_extension pending' prec' T.
  Proof.
    intros (ND & Hiff & Hbef). inversion ND as [|? ? Hn NDT]; subst. split; [exact NDT|split].
    - intros x; split.
      + intros H. apply in_in_remove; [intros ->; tauto|]. apply Hiff. right; exact H.
      + intros H. apply in_remove in H. destruct H as [H Hne]. apply Hiff in H. destruct H as [H|H]; [congruence|exact H].
    - intros a b H. apply in_rest in H. destruct H as [H Hne]. apply (before_cons_ne a b first); auto.
  Qed.

  (* when first is the only subtask without predecessor, the unique extensions are those of the rest with first in front *)
  Lemma step_unique T : filter (no_pred prec) pending = [first] ->
    (unique_extension pending' prec' T <-> unique_extension pending prec (first :: T)).
  Proof.
    intros EF. split; intros [Hext Huniq]; split.
    - apply step_up, Hext.
    - intros [|h T'] HL'; [destruct HL' as (_ & Hiff & _); destruct (proj2 (Hiff first) Hin)|].
      destruct (head_no_pred _ _ _ _ HL') as [Hh1 Hh2].
      assert (HI : In h (filter (no_pred prec) pending)) by (apply filter_In; auto).
      rewrite EF in HI. destruct HI as [<-|[]]. f_equal. apply Huniq, step_down, HL'.
    - apply step_down, Hext.
    - intros T2 HT2. apply step_up, Huniq in HT2. congruence.
  Qed.
End Step.

(* a subtask without predecessor can be moved to the front of any linear extension *)
Lemma move_front pending prec L x :
  linear_extension pending prec L -> In x pending -> no_pred prec x = true ->
  linear_extension pending prec (x :: remove N.eq_dec x L).
Proof.
  intros (ND & Hiff & Hbef) Hx Hnp. split; [|split].
  - constructor; [apply remove_In | apply NoDup_remove_elt; exact ND].
  - intros y; split.
    + intros [<-|H]; [exact Hx|]. apply in_remove in H. apply Hiff. tauto.
    + intros H. destruct (N.eq_dec y x) as [->|Hne]; [left; reflexivity|].
      right. apply in_in_remove; [exact Hne | apply Hiff; exact H].
  - intros a b H. assert (Hbx : b <> x).
    { intros ->. apply (proj1 (no_pred_iff _ _) Hnp a). exact H. }
    specialize (Hbef _ _ H). simpl. destruct (N.eq_dec a x) as [->|Hne].
    + left. split; [reflexivity|]. apply in_in_remove; [exact Hbx | eapply before_In_r; exact Hbef].
    + right. apply before_remove; auto.
Qed.

Lemma build_unfold n pending prec :
  pending <> [] ->
  build (S n) pending prec =
    match filter (no_pred prec) pending with
    | [first] =>
        match build n (remove N.eq_dec first pending) (rest first prec) with
        | Some order => Some (first :: order)
        | None => None
        end
    | _ => None
    end.
Proof. destruct pending; [congruence | reflexivity]. Qed.

(* no subtask: the empty order is the only extension *)
Lemma unique_extension_nil prec L : between_subtasks [] prec -> (Some [] = Some L <-> unique_extension [] prec L).
Proof.
  intros Hb. split.
  - intros H; inversion H; subst. split.
    + split; [constructor|split]; [tauto|]. intros a b HI. destruct (Hb _ _ HI) as [[] _].
    + intros L' (_ & Hiff & _). destruct L' as [|x L']; [reflexivity|]. destruct (proj1 (Hiff x) (or_introl eq_refl)).
  - intros [(_ & Hiff & _) _]. destruct L as [|x L]; [reflexivity|]. destruct (proj1 (Hiff x) (or_introl eq_refl)).
Qed.

(* a unique extension starts with the only subtask that has no predecessor *)
Lemma unique_head pending prec h T : inv pending prec ->
  unique_extension pending prec (h :: T) -> filter (no_pred prec) pending = [h].
Proof.
  intros Hinv [Hext Huniq]. destruct (head_no_pred _ _ _ _ Hext) as [Hin Hnp].
  apply filter_single; auto; [exact (proj1 Hinv)|].
  intros x Hx Hxnp. pose proof (move_front _ _ _ x Hext Hx Hxnp) as HM. apply Huniq in HM. congruence.
Qed.

Lemma build_spec : forall n pending prec,
  length pending <= n -> inv pending prec ->
  forall L, build n pending prec = Some L <-> unique_extension pending prec L.
Proof.
  induction n as [|n IH]; intros pending prec Hlen Hinv L.
  { destruct pending as [|p ps]; [|simpl in Hlen; lia]. apply unique_extension_nil, Hinv. }
  destruct pending as [|p ps]; [apply unique_extension_nil, Hinv|].
  remember (p :: ps) as pending eqn:Hp.
  rewrite (build_unfold n pending prec) by (subst; discriminate).
  assert (Hstep : forall first T, filter (no_pred prec) pending = [first] ->
            (build n (remove N.eq_dec first pending) (rest first prec) = Some T <->
             unique_extension pending prec (first :: T))).
  { intros first T EF.
    assert (HF : In first pending /\ no_pred prec first = true) by (apply filter_In; rewrite EF; left; reflexivity).
    destruct HF as [Hin Hnp]. rewrite <- (step_unique pending prec first Hinv Hin Hnp T EF).
    apply IH; [|apply step_inv; auto]. pose proof (remove_length_lt N.eq_dec pending first Hin). lia. }
  split.
  - destruct (filter (no_pred prec) pending) as [|first [|? ?]] eqn:EF; try discriminate.
    destruct (build n _ _) as [order|] eqn:ER; [|discriminate]. intros [= <-]. apply (Hstep first order eq_refl), ER.
  - intros UE. destruct L as [|h T].
    { destruct UE as [(_ & Hiff & _) _]. subst pending. destruct (proj2 (Hiff p) (or_introl eq_refl)). }
    pose proof (unique_head _ _ _ _ Hinv UE) as EF. rewrite EF. apply (Hstep h T EF) in UE. rewrite UE. reflexivity.
Qed.

Lemma linear_extension_ext t1 t2 precs L :
  (forall x, In x t1 <-> In x t2) -> linear_extension t1 precs L <-> linear_extension t2 precs L.
Proof.
  intros H. unfold linear_extension. split; intros (A & B & C); (split; [exact A|split; [|exact C]]); intros x.
  - rewrite <- H. apply B.
  - rewrite H. apply B.
Qed.

Lemma build_total_order_spec tasks precs :
  between_subtasks tasks precs ->
  forall L, build_total_order tasks precs = Some L <-> unique_extension tasks precs L.
Proof.
  intros Hb L. unfold build_total_order.
  assert (Hext : forall L0, linear_extension (nodup N.eq_dec tasks) precs L0 <-> linear_extension tasks precs L0).
  { intros L0. apply linear_extension_ext. intros x. apply nodup_In. }
  rewrite build_spec; [| lia |].
  - unfold unique_extension. rewrite Hext. split; intros [A B]; split; auto; intros L' HL'; apply B; apply Hext; exact HL'.
  - split; [apply NoDup_nodup|]. intros a b HI. destruct (Hb _ _ HI). split; apply nodup_In; assumption.
Qed.

Lemma ordering_qualitative tasks cs precs :
  all_precedences cs precs ->
  ordering tasks cs = match build_total_order tasks precs with
                      | Some to => TotalOrder to precs
                      | None => PartialOrder precs
                      end.
Proof.
  intros H. unfold ordering. rewrite (take_precs_all _ _ H), (all_precedences_length _ _ H), Nat.eqb_refl. reflexivity.
Qed.

Lemma total_order_unique_extension tasks cs precs :
  all_precedences cs precs -> between_subtasks tasks precs ->
  forall L, total_order tasks cs = Some L <-> unique_extension tasks precs L.
Proof.
  intros H Hb L. unfold total_order. rewrite (ordering_qualitative _ _ _ H).
  rewrite <- (build_total_order_spec tasks precs Hb L).
  destruct (build_total_order tasks precs); split; intros E; inversion E; reflexivity.
Qed.

Lemma total_order_none_iff tasks cs precs :
  all_precedences cs precs -> between_subtasks tasks precs ->
  (total_order tasks cs = None <-> ~ exists L, unique_extension tasks precs L).
Proof.
  intros H Hb. split.
  - intros E [L HL]. apply (total_order_unique_extension _ _ _ H Hb) in HL. congruence.
  - intros HN. destruct (total_order tasks cs) as [L|] eqn:E; [|reflexivity].
    exfalso. apply HN. exists L. apply (total_order_unique_extension _ _ _ H Hb). exact E.
Qed.

Lemma partial_order_exact tasks cs precs :
  all_precedences cs precs -> partial_order tasks cs = Some precs.
Proof.
  intros H. unfold partial_order. rewrite (ordering_qualitative _ _ _ H).
  destruct (build_total_order tasks precs); reflexivity.
Qed.

Lemma partial_order_exact_set tasks cs precs :
  all_precedences cs precs ->
  exists r, partial_order tasks cs = Some r /\ forall p, In p r <-> In p precs.
Proof. intros H. exists precs. split; [apply partial_order_exact; exact H | tauto]. Qed.

Lemma non_precedence_reports_neither tasks cs c :
  In c cs -> not_a_precedence c -> partial_order tasks cs = None /\ total_order tasks cs = None.
Proof.
  intros HI HN. apply prec_of_none in HN.
  pose proof (take_precs_short cs c HI HN) as Hlt.
  unfold partial_order, total_order, ordering.
  destruct (Nat.eqb_spec (length (take_precs cs)) (length cs)) as [E|E]; [lia|]. split; reflexivity.
Qed.

(* whenever a total order is reported, a partial order is reported too (TotalOrder is a PartialOrder) *)
Lemma total_implies_partial tasks cs L : total_order tasks cs = Some L -> partial_order tasks cs <> None.
Proof.
  unfold total_order, partial_order. destruct (ordering tasks cs); intros H; try discriminate.
Qed.

(* remark: the code before the fix commit.
   TotalOrder.__init__ replaced the given precedences by the chain of consecutive elements of the order; the
   property ("partial_order returns exactly those precedences") was false of that code: *)
Fixpoint chain (o : list N) : list (N * N) :=
  match o with
  | a :: ((b :: _) as t) => (a, b) :: chain t
  | _ => []
  end.

Definition partial_order_before_fix (tasks : list N) (cs : list tcons) : option (list (N * N)) :=
  match ordering tasks cs with
  | PartialOrder p => Some p
  | TotalOrder o _ => Some (chain o)
  | Temporal => None
  end.

Definition mkprec (a b : N) : tcons :=
  CLt (ETiming {| t_kind := KEnd; t_cont := Some a; t_delay := 0%Q |})
      (ETiming {| t_kind := KStart; t_cont := Some b; t_delay := 0%Q |}).

Lemma mkprec_is_precedence a b : is_precedence (mkprec a b) a b.
Proof. exists 0%Q, 0%Q. repeat split; reflexivity. Qed.

Lemma before_fix_refuted :
  exists tasks cs precs, all_precedences cs precs /\ between_subtasks tasks precs /\
    exists r, partial_order_before_fix tasks cs = Some r /\ ~ (forall p, In p r <-> In p precs).
Proof.
  exists [0; 1; 2]%N, [mkprec 0 2; mkprec 0 1; mkprec 1 2]%N, [(0, 2); (0, 1); (1, 2)]%N.
  split; [repeat constructor; apply mkprec_is_precedence|]. split.
  - intros a b H. simpl in H. repeat (destruct H as [H|H]; [inversion H; subst; simpl; tauto|]). destruct H.
  - exists [(0, 1); (1, 2)]%N. split; [vm_compute; reflexivity|].
    intros H. specialize (proj2 (H (0, 2)%N)). simpl. intros H2.
    destruct H2 as [H2|[H2|[]]]; [left; reflexivity | discriminate | discriminate].
Qed.

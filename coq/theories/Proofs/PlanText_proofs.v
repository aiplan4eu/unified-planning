(* Proofs about Model/PlanText.v (C18, plans): the decimal codec and the plan text codec round trips. *)
From Coq Require Import List NArith ZArith QArith Qcanon Ascii Bool Lia NArithRing.
From Coq Require String.
Import ListNotations.
Require Import UPV.Model.PlanText UPV.Proofs.StringFacts UPV.Proofs.ListFacts.
Open Scope N_scope.

Lemma name_not_space c : is_name c = true -> is_space c = false.
Proof. apply chars_excl. vm_compute. reflexivity. Qed.
Lemma name_not_break c : is_name c = true -> is_break c = false.
Proof. apply chars_excl. vm_compute. reflexivity. Qed.
Lemma name_not_close c : is_name c = true -> (code c =? 41) = false.
Proof. apply (chars_excl is_name (fun c => code c =? 41)). vm_compute. reflexivity. Qed.
Lemma space_not_close c : is_space c = true -> (code c =? 41) = false.
Proof. apply (chars_excl is_space (fun c => code c =? 41)). vm_compute. reflexivity. Qed.

Definition numch (c : ascii) : bool := is_digit c || (code c =? 46).
Lemma numch_not_space c : numch c = true -> is_space c = false.
Proof. apply chars_excl. vm_compute. reflexivity. Qed.
Lemma numch_not_break c : numch c = true -> is_break c = false.
Proof. apply chars_excl. vm_compute. reflexivity. Qed.
Lemma numch_low c : numch c = true -> low_ok c = true.
Proof. apply chars_impl. vm_compute. reflexivity. Qed.
Lemma numch_not_open c : numch c = true -> (code c =? 40) = false.
Proof. apply (chars_excl numch (fun c => code c =? 40)). vm_compute. reflexivity. Qed.
Lemma numch_not_semi c : numch c = true -> (code c =? 59) = false.
Proof. apply (chars_excl numch (fun c => code c =? 59)). vm_compute. reflexivity. Qed.

Lemma low_ok_lower c : low_ok c = true -> lower c = c.
Proof. unfold low_ok. apply Ascii.eqb_eq. Qed.

Lemma map_lower_id l : forallb low_ok l = true -> map lower l = l.
Proof.
  induction l as [|c l IH]; simpl; [reflexivity|].
  intros H. apply andb_true_iff in H as [H1 H2]. rewrite (low_ok_lower _ H1), (IH H2). reflexivity.
Qed.

Lemma code_dchar d : d < 10 -> code (dchar d) = 48 + d.
Proof. intros H. apply N_ascii_embedding. lia. Qed.

Lemma dchar_digit d : d < 10 -> is_digit (dchar d) = true.
Proof. intros H. unfold is_digit, between. rewrite (code_dchar d H). apply andb_true_iff. split; apply N.leb_le; lia. Qed.
Lemma dchar_code d : d < 10 -> code (dchar d) - 48 = d.
Proof. intros H. rewrite (code_dchar d H). lia. Qed.

Definition head_sat (p : ascii -> bool) (l : str) : Prop :=
  match l with [] => True | c :: _ => p c = false end.

Lemma span_app p a rest :
  forallb p a = true -> head_sat p rest -> span p (a ++ rest) = (a, rest).
Proof.
  induction a as [|c a IH]; simpl; intros Ha Hr.
  - destruct rest as [|c r]; [reflexivity|]. simpl in *. rewrite Hr. reflexivity.
  - apply andb_true_iff in Ha as [H1 H2]. rewrite H1, (IH H2 Hr). reflexivity.
Qed.

Lemma skip_ws_id l : head_sat is_space l -> skip_ws l = l.
Proof. destruct l as [|c r]; simpl; [reflexivity|]. intros ->. reflexivity. Qed.

Lemma skip_ws_app a rest :
  forallb (fun c => negb (is_space c)) a = true -> head_sat is_space rest -> skip_ws (a ++ rest) = a ++ rest.
Proof.
  destruct a as [|c a]; simpl; intros Ha Hr; [apply skip_ws_id; exact Hr|].
  apply andb_true_iff in Ha as [H1 _]. apply negb_true_iff in H1. rewrite H1. reflexivity.
Qed.

Lemma split_on_ne p l : split_on p l <> [].
Proof.
  induction l as [|c l IH]; simpl; [discriminate|].
  destruct (p c); [discriminate|]. destruct (split_on p l); discriminate.
Qed.

Lemma split_on_none p tok :
  forallb (fun c => negb (p c)) tok = true -> split_on p tok = [tok].
Proof.
  induction tok as [|c t IH]; simpl; [reflexivity|].
  intros H. apply andb_true_iff in H as [H1 H2]. apply negb_true_iff in H1. rewrite H1, (IH H2). reflexivity.
Qed.

Lemma split_on_app p tok sep rest :
  forallb (fun c => negb (p c)) tok = true -> p sep = true ->
  split_on p (tok ++ sep :: rest) = tok :: split_on p rest.
Proof.
  induction tok as [|c t IH]; simpl; intros H Hs.
  - rewrite Hs. reflexivity.
  - apply andb_true_iff in H as [H1 H2]. apply negb_true_iff in H1. rewrite H1, (IH H2 Hs). reflexivity.
Qed.

Definition val_digits (ds : list N) : N := fold_left (fun a d => 10 * a + d) ds 0.

Lemma val_digits_snoc l d : val_digits (l ++ [d]) = 10 * val_digits l + d.
Proof. unfold val_digits. rewrite fold_left_app. reflexivity. Qed.

Lemma digits_fuel_app f : forall n acc, digits_fuel f n acc = digits_fuel f n [] ++ acc.
Proof.
  induction f as [|f IH]; intros n acc; simpl; [reflexivity|].
  destruct (n <? 10); [reflexivity|].
  rewrite (IH (n / 10) (n mod 10 :: acc)), (IH (n / 10) [n mod 10]), <- app_assoc. reflexivity.
Qed.

Lemma val_digits_fuel f : forall n, val_digits (digits_fuel f n []) = n.
Proof.
  induction f as [|f IH]; intros n; simpl.
  - unfold val_digits; simpl. lia.
  - destruct (n <? 10) eqn:E.
    + unfold val_digits; simpl. lia.
    + rewrite digits_fuel_app, val_digits_snoc, IH.
      pose proof (N.div_mod' n 10). lia.
Qed.

Lemma val_digits_digits n : val_digits (digits n) = n.
Proof. apply val_digits_fuel. Qed.

Lemma digits_fuel_small f : forall n acc,
  n < 2 ^ N.of_nat f -> Forall (fun d => d < 10) acc -> Forall (fun d => d < 10) (digits_fuel f n acc).
Proof.
  induction f as [|f IH]; intros n acc Hn Hacc.
  - simpl in *. constructor; [lia|exact Hacc].
  - cbn [digits_fuel]. destruct (n <? 10) eqn:E.
    + apply N.ltb_lt in E. constructor; assumption.
    + apply IH.
      * rewrite Nat2N.inj_succ, N.pow_succ_r' in Hn.
        apply N.div_lt_upper_bound; [lia|]. lia.
      * constructor; [|exact Hacc]. apply N.mod_lt. lia.
Qed.

Lemma digits_small n : Forall (fun d => d < 10) (digits n).
Proof.
  unfold digits. apply digits_fuel_small; [|constructor].
  rewrite N2Nat.id. apply N.size_gt.
Qed.

Lemma digits_fuel_ne f n acc : digits_fuel f n acc <> [].
Proof.
  revert n acc. induction f as [|f IH]; intros n acc; simpl; [discriminate|].
  destruct (n <? 10); [discriminate|apply IH].
Qed.

Lemma val_chars_acc l : forall a,
  Forall (fun d => d < 10) l ->
  fold_left (fun a c => 10 * a + (code c - 48)) (map dchar l) a = fold_left (fun a d => 10 * a + d) l a.
Proof.
  induction l as [|d l IH]; intros a H; simpl; [reflexivity|].
  inversion H; subst. rewrite dchar_code by assumption. apply IH. assumption.
Qed.

Lemma val_chars_digits l : Forall (fun d => d < 10) l -> val_chars (map dchar l) = val_digits l.
Proof. apply val_chars_acc. Qed.

Lemma forallb_digit l : Forall (fun d => d < 10) l -> forallb is_digit (map dchar l) = true.
Proof.
  induction 1; simpl; [reflexivity|]. rewrite dchar_digit by assumption. assumption.
Qed.

Lemma val_digits_zeros j ds : val_digits (repeat 0 j ++ ds) = val_digits ds.
Proof.
  unfold val_digits. rewrite fold_left_app.
  replace (fold_left (fun a d : N => 10 * a + d) (repeat 0 j) 0) with 0; [reflexivity|].
  induction j; simpl; [reflexivity|assumption].
Qed.

Lemma Forall_repeat0 j : Forall (fun d => d < 10) (repeat 0 j).
Proof. induction j; simpl; constructor; [lia|assumption]. Qed.

(* what may follow a number in the line grammar: nothing, or a character that is neither a digit nor a point *)
Definition num_end (rest : str) : Prop := head_sat numch rest.

Lemma num_end_digit rest : num_end rest -> head_sat is_digit rest.
Proof.
  destruct rest as [|c r]; simpl; [auto|]. unfold numch. intros H. apply orb_false_iff in H. tauto.
Qed.

Lemma parse_num_digits l rest :
  l <> [] -> Forall (fun d => d < 10) l -> num_end rest ->
  parse_num (map dchar l ++ rest) = Some (Qred (Z.of_N (val_digits l) # 1), rest).
Proof.
  intros Hne Hl Hr. unfold parse_num.
  rewrite span_app; [|apply forallb_digit, Hl|apply num_end_digit, Hr].
  assert (Hn : is_nil (map dchar l) = false) by (destruct l; [congruence|reflexivity]).
  rewrite Hn.
  assert (Hv : mkdec (map dchar l) [] = Qred (Z.of_N (val_digits l) # 1)).
  { unfold mkdec. rewrite app_nil_r, val_chars_digits by exact Hl. reflexivity. }
  destruct rest as [|c r]; [rewrite Hv; reflexivity|].
  simpl in Hr. unfold numch in Hr. apply orb_false_iff in Hr as [_ Hp]. rewrite Hp, Hv. reflexivity.
Qed.

Lemma digits_ne n : digits n <> [].
Proof. apply digits_fuel_ne. Qed.

Lemma parse_num_int n rest :
  num_end rest -> parse_num (digit_chars n ++ rest) = Some (Qred (Z.of_N n # 1), rest).
Proof.
  intros Hr. unfold digit_chars. rewrite (parse_num_digits _ _ (digits_ne n) (digits_small n) Hr), val_digits_digits. reflexivity.
Qed.

Lemma firstn_skipn_len {A} (l : list A) j : (j <= List.length l)%nat -> List.length (skipn j l) = (List.length l - j)%nat.
Proof. intros. apply skipn_length. Qed.

Lemma format_f_split ds k : Forall (fun d => d < 10) ds -> exists ip fp,
  format_f ds k = map dchar ip ++ "."%char :: map dchar fp
  /\ Forall (fun d => d < 10) (ip ++ fp) /\ val_digits (ip ++ fp) = val_digits ds /\ List.length fp = k /\ ip <> [].
Proof.
  intros Hds. unfold format_f. set (pad := repeat 0 _ ++ ds). set (j := (List.length pad - k)%nat).
  assert (Hlen : (S k <= List.length pad)%nat). { unfold pad. rewrite app_length, repeat_length. lia. }
  exists (firstn j pad), (skipn j pad). rewrite firstn_skipn, skipn_length.
  split; [reflexivity|]. split; [apply Forall_app; split; [apply Forall_repeat0|exact Hds]|].
  split; [apply val_digits_zeros|]. split; [unfold j; lia|].
  intros E. apply (f_equal (@List.length N)) in E. rewrite firstn_length in E. cbn [List.length] in E. unfold j in E. lia.
Qed.

Lemma parse_num_point ip fp rest :
  ip <> [] -> Forall (fun d => d < 10) (ip ++ fp) -> num_end rest ->
  parse_num (map dchar ip ++ "."%char :: map dchar fp ++ rest)
  = Some (Qred (Z.of_N (val_digits (ip ++ fp)) # pow10 (List.length fp)), rest).
Proof.
  intros Hne Hd Hr. pose proof Hd as Hd'. apply Forall_app in Hd' as [Hi Hf]. unfold parse_num.
  rewrite span_app; [|apply forallb_digit, Hi|reflexivity].
  assert (Hn : is_nil (map dchar ip) = false) by (destruct ip; [congruence|reflexivity]).
  rewrite Hn. change (code "."%char =? 46) with true. cbn iota.
  rewrite span_app; [|apply forallb_digit, Hf|apply num_end_digit, Hr].
  unfold mkdec. rewrite <- map_app, map_length, val_chars_digits by exact Hd. reflexivity.
Qed.

Lemma parse_num_format ds k rest :
  Forall (fun d => d < 10) ds -> num_end rest ->
  parse_num (format_f ds k ++ rest) = Some (Qred (Z.of_N (val_digits ds) # pow10 k), rest).
Proof.
  intros Hds Hr. destruct (format_f_split ds k Hds) as (ip & fp & -> & Hd & Hv & Hl & Hne).
  rewrite <- app_assoc. cbn [app]. rewrite (parse_num_point ip fp rest Hne Hd Hr), Hv, Hl. reflexivity.
Qed.

Lemma find_k_sound f : forall d k k', find_k f d k = Some k' -> Npos (pow10 k') mod d = 0.
Proof.
  induction f as [|f IH]; intros d k k'; simpl.
  - destruct (N.pos (pow10 k) mod d =? 0) eqn:E; [|discriminate]. intros [= <-]. apply N.eqb_eq, E.
  - destruct (N.pos (pow10 k) mod d =? 0) eqn:E; [intros [= <-]; apply N.eqb_eq, E|apply IH].
Qed.

Lemma pow10N_S k : pow10N (S k) = 10 * pow10N k.
Proof. reflexivity. Qed.

Lemma pow10N_pos k : pow10N k <> 0.
Proof. unfold pow10N. discriminate. Qed.

Lemma find_k_min d : forall f k0 k, find_k f d k0 = Some k ->
  (k0 <= k)%nat /\ forall j, (k0 <= j < k)%nat -> pow10N j mod d <> 0.
Proof.
  induction f as [|f IH]; intros k0 k; cbn [find_k]; fold (pow10N k0).
  - destruct (pow10N k0 mod d =? 0); [|discriminate]. intros [= <-]. split; [lia|]. intros; lia.
  - destruct (pow10N k0 mod d =? 0) eqn:E.
    + intros [= <-]. split; [lia|]. intros; lia.
    + intros H. apply IH in H as [H1 H2]. split; [lia|]. intros j Hj.
      destruct (Nat.eq_dec j k0) as [->|]; [apply N.eqb_neq, E|apply H2; lia].
Qed.

Lemma coprime_pow10 d : N.gcd d 10 = 1 -> forall k, (d | pow10N k) -> d = 1.
Proof.
  intros Hg. induction k as [|k IH]; intros H.
  - apply N.divide_1_r in H. exact H.
  - rewrite pow10N_S in H. apply N.gauss in H; [auto|exact Hg].
Qed.

Lemma div_pow10_bound : forall j k d,
  d <> 0 -> (d | pow10N k) -> d < 2 ^ N.of_nat (S j) -> (d | pow10N j).
Proof.
  induction j as [|j IH]; intros k d Hd Hk Hlt.
  - change (2 ^ N.of_nat 1) with 2 in Hlt. assert (d = 1) by lia. subst. apply N.divide_1_l.
  - destruct (N.eq_dec d 1) as [->|Hd1]; [apply N.divide_1_l|].
    set (g := N.gcd d 10).
    assert (Hg0 : g <> 0). { intros E. apply N.gcd_eq_0_l in E. contradiction. }
    assert (Hg1 : g <> 1). { intros E. apply Hd1. eapply coprime_pow10; eauto. }
    destruct (N.gcd_divide_l d 10) as [d' Hd']. fold g in Hd'.
    destruct (N.gcd_divide_r d 10) as [t Ht]. fold g in Ht.
    destruct k as [|k]; [apply N.divide_1_r in Hk; contradiction|].
    rewrite pow10N_S, Ht, Hd' in Hk.
    rewrite <- N.mul_assoc, (N.mul_comm g), N.mul_assoc in Hk.
    apply N.mul_divide_cancel_r in Hk; [|exact Hg0].
    assert (Hcop : N.gcd d' t = 1).
    { pose proof (N.gcd_div_gcd d 10 g Hg0 eq_refl) as H.
      assert (E1 : d / g = d') by (symmetry; apply N.div_unique_exact; [exact Hg0|rewrite N.mul_comm; exact Hd']).
      assert (E2 : 10 / g = t) by (symmetry; apply N.div_unique_exact; [exact Hg0|rewrite N.mul_comm; exact Ht]).
      rewrite E1, E2 in H. exact H. }
    apply N.gauss in Hk; [|exact Hcop].
    assert (Hd'0 : d' <> 0). { intros E. subst d'. lia. }
    assert (Hlt' : d' < 2 ^ N.of_nat (S j)).
    { rewrite (Nat2N.inj_succ (S j)), N.pow_succ_r' in Hlt. nia. }
    specialize (IH k d' Hd'0 Hk Hlt').
    destruct IH as [x Hx]. exists (x * t).
    rewrite pow10N_S, Hx. clearbody g. rewrite Hd'. rewrite Ht at 1. ring.
Qed.

Lemma find_k_complete d : forall f k j,
  (k <= j <= k + f)%nat -> pow10N j mod d = 0 -> exists k', find_k f d k = Some k'.
Proof.
  induction f as [|f IH]; intros k j Hj Hm; cbn [find_k]; fold (pow10N k).
  - assert (j = k) by lia. subst. rewrite Hm. eexists; reflexivity.
  - destruct (pow10N k mod d =? 0) eqn:E; [eexists; reflexivity|].
    apply (IH (S k) j); [|exact Hm].
    assert (j <> k) by (intros ->; rewrite Hm in E; discriminate). lia.
Qed.

Lemma find_k_total d k :
  d <> 0 -> pow10N k mod d = 0 -> exists k', find_k (N.to_nat (N.size d)) d 0 = Some k'.
Proof.
  intros Hd Hm.
  assert (Hs : N.size d <> 0). { destruct d; [contradiction|discriminate]. }
  set (j := pred (N.to_nat (N.size d))).
  assert (Hj : N.of_nat (S j) = N.size d). { unfold j. lia. }
  apply (find_k_complete d _ 0%nat j); [unfold j; lia|].
  apply N.mod_divide; [exact Hd|].
  apply (div_pow10_bound j k d Hd); [apply N.mod_divide; assumption|].
  rewrite Hj. apply N.size_gt.
Qed.

Lemma q_eqb_eq a b : q_eqb a b = true -> a = b.
Proof.
  destruct a, b. unfold q_eqb; simpl. intros H. apply andb_true_iff in H as [H1 H2].
  apply Z.eqb_eq in H1. apply Pos.eqb_eq in H2. subst. reflexivity.
Qed.

(* print_dec by cases.  In the last two the denominator is not 1 and S k is the scale found by find_k, the least one
   whose power of ten the denominator divides; m is the coefficient of the exact expansion *)
Inductive dec_case (q : Q) : option str -> Prop :=
| DNeg : (Qnum q < 0)%Z -> dec_case q None
| DInt : (0 <= Qnum q)%Z -> Qden q = 1%positive -> dec_case q (Some (digit_chars (Z.to_N (Qnum q))))
| DNonDec : (0 <= Qnum q)%Z -> (forall k, pow10N k mod N.pos (Qden q) <> 0) -> dec_case q None
| DFrac k m : (0 <= Qnum q)%Z -> N.pos (Qden q) <> 1 ->
    pow10N (S k) mod N.pos (Qden q) = 0 -> pow10N k mod N.pos (Qden q) <> 0 ->
    m = Z.to_N (Qnum q) * (pow10N (S k) / N.pos (Qden q)) -> (List.length (digits m) <= 50)%nat ->
    dec_case q (Some (format_f (digits m) (S k)))
| DLong k m : (0 <= Qnum q)%Z -> N.pos (Qden q) <> 1 ->
    pow10N (S k) mod N.pos (Qden q) = 0 -> pow10N k mod N.pos (Qden q) <> 0 ->
    m = Z.to_N (Qnum q) * (pow10N (S k) / N.pos (Qden q)) -> (50 < List.length (digits m))%nat ->
    dec_case q None.

Lemma print_dec_cases q : dec_case q (print_dec q).
Proof.
  unfold print_dec. destruct (Qnum q <? 0)%Z eqn:Eneg; [apply DNeg, Z.ltb_lt, Eneg|]. apply Z.ltb_ge in Eneg.
  destruct (N.pos (Qden q) =? 1) eqn:Eden.
  { apply N.eqb_eq in Eden. injection Eden as Eden. apply DInt; assumption. }
  apply N.eqb_neq in Eden. destruct (find_k _ _ _) as [k|] eqn:Ek.
  - pose proof (find_k_sound _ _ _ _ Ek) as Hk. fold (pow10N k) in Hk |- *. destruct (find_k_min _ _ _ _ Ek) as [_ Hmin].
    destruct k as [|k].
    { exfalso. change (pow10N 0) with 1 in Hk. rewrite N.mod_1_l in Hk by lia. discriminate. }
    assert (Hk' : pow10N k mod N.pos (Qden q) <> 0) by (apply Hmin; lia).
    destruct (_ <=? 50)%nat eqn:El.
    + apply Nat.leb_le in El. exact (DFrac q k _ Eneg Eden Hk Hk' eq_refl El).
    + apply Nat.leb_gt in El. exact (DLong q k _ Eneg Eden Hk Hk' eq_refl El).
  - apply DNonDec; [exact Eneg|]. intros k Hk.
    destruct (find_k_total (N.pos (Qden q)) k) as [k' Hk']; [discriminate|exact Hk|]. congruence.
Qed.

Lemma div_exact_mul n d p : d <> 0 -> p mod d = 0 -> n * (p / d) * d = n * p.
Proof. intros Hd H. apply N.div_exact in H; [|exact Hd]. rewrite H at 2. ring. Qed.

Lemma print_dec_parse q s rest :
  q_reduced q = true -> print_dec q = Some s -> num_end rest -> parse_num (s ++ rest) = Some (q, rest).
Proof.
  intros Hred. apply q_eqb_eq in Hred.
  destruct (print_dec_cases q) as [|Hpos Hden| |k m Hpos _ Hk _ Hm _|]; intros Hp Hr; try discriminate Hp; injection Hp as <-.
  - rewrite parse_num_int, Z2N.id by assumption.
    rewrite <- Hred at 2. destruct q as [qn qd]. simpl in *. subst qd. reflexivity.
  - rewrite parse_num_format; [|apply digits_small|exact Hr].
    rewrite val_digits_digits. f_equal. f_equal.
    rewrite <- Hred. apply Qred_complete. unfold Qeq. cbn [Qnum Qden].
    assert (Hmd : m * N.pos (Qden q) = Z.to_N (Qnum q) * pow10N (S k)) by (subst m; apply div_exact_mul; [discriminate|exact Hk]).
    apply (f_equal Z.of_N) in Hmd. rewrite !N2Z.inj_mul, Z2N.id in Hmd by exact Hpos. exact Hmd.
Qed.

Lemma parse_dec_print_dec q s :
  q_reduced q = true -> print_dec q = Some s -> parse_dec s = Some q.
Proof.
  intros Hred Hp. unfold parse_dec.
  rewrite <- (app_nil_r s). rewrite (print_dec_parse q s [] Hred Hp I). reflexivity.
Qed.

Lemma forallb_numch_digits l : Forall (fun d => d < 10) l -> forallb numch (map dchar l) = true.
Proof.
  intros H. eapply forallb_impl; [|apply forallb_digit, H].
  intros c _ Hc. unfold numch. rewrite Hc. reflexivity.
Qed.

Lemma print_dec_chars q s : print_dec q = Some s -> forallb numch s = true.
Proof.
  destruct (print_dec_cases q) as [| | |k m _ _ _ _ _ _|]; intros Hp; try discriminate Hp; injection Hp as <-.
  - apply forallb_numch_digits, digits_small.
  - destruct (format_f_split (digits m) (S k) (digits_small m)) as (ip & fp & -> & Hd & _).
    apply Forall_app in Hd as [H1 H2].
    rewrite forallb_app. cbn [forallb]. rewrite !forallb_numch_digits by assumption. reflexivity.
Qed.

(* the fragment of print_dec is inside "non-negative, denominator divides a power of ten, at most 50 digits" *)
Theorem print_dec_fragment q s :
  print_dec q = Some s ->
  (0 <= Qnum q)%Z /\ exists k, N.pos (pow10 k) mod N.pos (Qden q) = 0.
Proof.
  destruct (print_dec_cases q) as [|Hpos Hden| |k m Hpos _ Hk _ _ _|]; intros Hp; try discriminate Hp; (split; [exact Hpos|]).
  - exists O. rewrite Hden. reflexivity.
  - exists (S k). exact Hk.
Qed.

(* print_dec q = None exactly for: negative, denominator not dividing a power of ten, more than 50 digits *)
Theorem print_dec_none q :
  print_dec q = None ->
  (Qnum q < 0)%Z
  \/ (forall k, pow10N k mod N.pos (Qden q) <> 0)
  \/ exists k, pow10N k mod N.pos (Qden q) = 0 /\
       (50 < List.length (digits (Z.to_N (Qnum q) * (pow10N k / N.pos (Qden q)))))%nat.
Proof.
  destruct (print_dec_cases q) as [Hneg| |_ Hnd| |k m _ _ Hk _ Hm Hlen]; intros Hp; try discriminate Hp.
  - left. exact Hneg.
  - right. left. exact Hnd.
  - right. right. exists (S k). subst m. split; assumption.
Qed.

Lemma wf_name_split s :
  wf_name s = true -> is_nil s = false /\ forallb is_name s = true.
Proof.
  unfold wf_name. intros H. apply andb_true_iff in H as [H1 H2]. apply negb_true_iff in H1.
  split; [exact H1|]. revert H2. apply forallb_impl. intros x _ Hx. apply andb_true_iff in Hx. tauto.
Qed.

Lemma wf_args_split args :
  forallb wf_name args = true ->
  forallb (fun a => negb (is_nil a)) args = true /\ forallb (forallb is_name) args = true.
Proof.
  induction args as [|a r IH]; simpl; [auto|].
  intros H. apply andb_true_iff in H as [H1 H2].
  destruct (wf_name_split _ H1) as (A & B). destruct (IH H2) as (A' & B').
  rewrite A, B, A', B'. auto.
Qed.

Lemma name_nospace s : forallb is_name s = true -> forallb (fun c => negb (is_space c)) s = true.
Proof. apply forallb_impl. intros x _ Hx. rewrite name_not_space by exact Hx. reflexivity. Qed.

Lemma split_flat : forall args name,
  forallb is_name name = true -> forallb (forallb is_name) args = true ->
  split_on is_space (name ++ flat_args args) = name :: args.
Proof.
  induction args as [|a r IH]; intros name Hn Ha.
  - cbn [flat_args]. rewrite app_nil_r. apply split_on_none, name_nospace, Hn.
  - cbn [flat_args forallb] in *. apply andb_true_iff in Ha as [Ha1 Ha2].
    rewrite split_on_app; [|apply name_nospace, Hn|reflexivity].
    rewrite IH by assumption. reflexivity.
Qed.

Lemma flat_chars (p : ascii -> bool) : forall args name,
  p " "%char = true -> forallb p name = true -> forallb (forallb p) args = true ->
  forallb p (name ++ flat_args args) = true.
Proof.
  induction args as [|a r IH]; intros name Hsp Hn Ha.
  - cbn [flat_args]. rewrite app_nil_r. exact Hn.
  - cbn [flat_args forallb] in *. apply andb_true_iff in Ha as [Ha1 Ha2].
    rewrite forallb_app. cbn [forallb]. rewrite Hsp, Hn, (IH a) by assumption. reflexivity.
Qed.

Definition inner (s : step) : str := s_name s ++ flat_args (s_args s).

Lemma print_step_app s tail : print_step s ++ tail = "("%char :: inner s ++ ")"%char :: tail.
Proof. unfold print_step, inner. cbn [app]. rewrite <- !app_assoc. reflexivity. Qed.

Lemma print_step_eq s : print_step s = "("%char :: inner s ++ [")"%char].
Proof. rewrite <- (app_nil_r (print_step s)). apply print_step_app. Qed.

Lemma parse_call_open c r :
  (code c =? 40) = true ->
  parse_call (c :: r) =
  let (inner, rest) := span (fun c => negb (code c =? 41)) r in
  match rest with
  | _ :: rest' =>
      if forallb (fun c => is_space c || is_name c) inner then
        match words inner with
        | name :: args => Some (mkStep name args, rest')
        | [] => None
        end
      else None
  | [] => None
  end.
Proof. intros H. unfold parse_call. rewrite H. reflexivity. Qed.

Lemma parse_call_print s tail : wf_step s = true -> parse_call (print_step s ++ tail) = Some (s, tail).
Proof.
  intros Hwf. unfold wf_step in Hwf. apply andb_true_iff in Hwf as [Hn Ha].
  destruct (wf_name_split _ Hn) as (Hne & Hnm).
  destruct (wf_args_split _ Ha) as (Hane & Hanm).
  rewrite print_step_app, parse_call_open by reflexivity.
  assert (Hin : forallb (fun c => is_space c || is_name c) (inner s) = true).
  { apply flat_chars; [reflexivity| |].
    - revert Hnm. apply forallb_impl. intros c _ Hc. rewrite Hc. apply orb_true_r.
    - revert Hanm. apply forallb_impl. intros a _. apply forallb_impl. intros c _ Hc. rewrite Hc. apply orb_true_r. }
  rewrite span_app; [| |reflexivity].
  2:{ eapply forallb_impl; [|exact Hin]. intros c _ Hc. apply orb_true_iff in Hc as [Hc|Hc].
      - rewrite space_not_close by exact Hc. reflexivity.
      - rewrite name_not_close by exact Hc. reflexivity. }
  rewrite Hin. unfold words, inner. rewrite split_flat by assumption.
  rewrite filter_true; [destruct s; reflexivity|].
  cbn [forallb]. rewrite Hne, Hane. reflexivity.
Qed.

(* a property of characters that holds of everything the writer puts on a line; the two instances are "unchanged by
   lower()" and "not a line break" *)
Definition line_pred (p : ascii -> bool) : Prop :=
  forallb p ["("; ")"; " "; ":"; "["; "]"]%char = true
  /\ (forall c, numch c = true -> p c = true)
  /\ (forall c, is_name c = true -> low_ok c = true -> p c = true).

Lemma line_pred_chars p : line_pred p ->
  p "("%char = true /\ p ")"%char = true /\ p " "%char = true /\ p ":"%char = true /\ p "["%char = true /\ p "]"%char = true.
Proof. intros (Hc & _). cbn [forallb] in Hc. rewrite !andb_true_iff in Hc. tauto. Qed.

Lemma line_low : line_pred low_ok.
Proof. split; [reflexivity|]. split; [exact numch_low|]. intros c _ H. exact H. Qed.
Lemma line_nobreak : line_pred (fun c => negb (is_break c)).
Proof.
  split; [reflexivity|]. split; intros c H; [rewrite numch_not_break|intros _; rewrite name_not_break]; trivial.
Qed.

Lemma wf_name_chars p n : line_pred p -> wf_name n = true -> forallb p n = true.
Proof.
  intros (_ & _ & Hp) H. apply andb_true_iff in H as [_ H]. revert H. apply forallb_impl.
  intros c _ Hc. apply andb_true_iff in Hc as [H1 H2]. exact (Hp c H1 H2).
Qed.

Lemma step_chars p s : line_pred p -> wf_step s = true -> forallb p (print_step s) = true.
Proof.
  intros Hp Hwf. destruct (line_pred_chars p Hp) as (Ho & Hc & Hs & _).
  apply andb_true_iff in Hwf as [Hn Ha]. rewrite print_step_eq. cbn [forallb]. rewrite forallb_app. cbn [forallb]. unfold inner.
  rewrite flat_chars; [rewrite Ho, Hc; reflexivity|exact Hs|exact (wf_name_chars p _ Hp Hn)|].
  revert Ha. apply forallb_impl. intros a _. exact (wf_name_chars p a Hp).
Qed.

Lemma parse_line_seq s : wf_step s = true -> parse_line (print_step s) = LSeq s.
Proof.
  intros Hwf. unfold parse_line.
  assert (Hb : is_blank_line (print_step s) = false).
  { rewrite print_step_eq. reflexivity. }
  rewrite Hb, map_lower_id by (apply (step_chars low_ok _ line_low), Hwf).
  unfold parse_seq_line. rewrite skip_ws_id by (rewrite print_step_eq; reflexivity).
  rewrite <- (app_nil_r (print_step s)), parse_call_print by exact Hwf. reflexivity.
Qed.

Lemma parse_line_nil : parse_line [] = LBlank.
Proof. reflexivity. Qed.

Lemma nl_break : is_break nl = true.
Proof. reflexivity. Qed.

Lemma lines_seq l :
  forallb wf_step l = true ->
  map parse_line (split_on is_break (print_seq l)) = map LSeq l ++ [LBlank].
Proof.
  induction l as [|s r IH]; intros H.
  - reflexivity.
  - cbn [forallb] in H. apply andb_true_iff in H as [H1 H2].
    unfold print_seq. cbn [map concat]. rewrite <- app_assoc. cbn [app].
    rewrite split_on_app; [|apply (step_chars _ _ line_nobreak), H1|apply nl_break].
    cbn [map]. rewrite parse_line_seq by exact H1.
    fold (print_seq r). rewrite IH by exact H2. reflexivity.
Qed.

Lemma all_seq_lines l : all_seq (map LSeq l ++ [LBlank]) = Some l.
Proof. induction l as [|s r IH]; [reflexivity|]. cbn [map app all_seq]. rewrite IH. reflexivity. Qed.

Lemma assemble_seq l : assemble (map LSeq l ++ [LBlank]) = Some (PSeq l).
Proof.
  destruct l as [|s r]; [reflexivity|].
  change (assemble (map LSeq (s :: r) ++ [LBlank])) with
    (match all_seq (map LSeq (s :: r) ++ [LBlank]) with Some l => Some (PSeq l) | None => None end).
  rewrite all_seq_lines. reflexivity.
Qed.

Theorem parse_print_seq l : forallb wf_step l = true -> parse_plan (print_seq l) = Some (PSeq l).
Proof. intros H. unfold parse_plan. rewrite lines_seq by exact H. apply assemble_seq. Qed.

Lemma dec_ok_split q : dec_ok q = true -> q_reduced q = true /\ exists s, print_dec q = Some s.
Proof.
  unfold dec_ok. intros H. apply andb_true_iff in H as [H1 H2]. split; [exact H1|].
  destruct (print_dec q) as [s|]; [exists s; reflexivity|discriminate].
Qed.

Definition dur_text (b : str) (d : option Q) : Prop :=
  match d with
  | None => b = []
  | Some q => exists s, print_dec q = Some s /\ q_reduced q = true /\ b = "["%char :: s ++ ["]"%char]
  end.

Lemma print_dur_text d :
  match d with Some q => dec_ok q = true | None => True end -> exists b, print_dur d = Some b /\ dur_text b d.
Proof.
  destruct d as [q|]; simpl; intros Hok; [|exists []; split; reflexivity].
  destruct (dec_ok_split _ Hok) as (Hr & s & Hs). rewrite Hs. eexists. split; [reflexivity|]. exists s. auto.
Qed.

Lemma parse_dur_tail_text b d : dur_text b d -> parse_dur_tail (skip_ws b) = Some d.
Proof.
  destruct d as [q|]; simpl.
  - intros (s & Hs & Hr & ->).
    rewrite skip_ws_id by reflexivity.
    unfold parse_dur_tail. change (code "["%char =? 91) with true. cbv iota.
    pose proof (print_dec_chars _ _ Hs) as Hc.
    rewrite skip_ws_app; [| |reflexivity].
    2:{ eapply forallb_impl; [|exact Hc]. intros c _ H. rewrite numch_not_space by exact H. reflexivity. }
    rewrite (print_dec_parse q s ["]"%char] Hr Hs) by reflexivity.
    reflexivity.
  - intros ->. reflexivity.
Qed.

Lemma dur_chars p b d : line_pred p -> dur_text b d -> forallb p b = true.
Proof.
  intros Hp. destruct (line_pred_chars p Hp) as (_ & _ & _ & _ & Ho & Hc). destruct Hp as (_ & Hn & _).
  destruct d as [q|]; simpl; [|intros ->; reflexivity].
  intros (s & Hs & _ & ->). cbn [forallb]. rewrite forallb_app. cbn [forallb].
  rewrite (forallb_impl numch p s (fun c _ => Hn c) (print_dec_chars _ _ Hs)), Ho, Hc. reflexivity.
Qed.

Lemma dur_head b d : dur_text b d -> head_sat is_space b.
Proof.
  destruct d as [q|]; simpl; [|intros ->; exact I].
  intros (s & _ & _ & ->). reflexivity.
Qed.

Definition tline (a : str) (st : step) (b : str) : str := a ++ ":"%char :: " "%char :: print_step st ++ b.

Section TLine.
  Variables (q : Q) (a : str) (st : step) (b : str) (d : option Q).
  Hypothesis Hred : q_reduced q = true.
  Hypothesis Ha : print_dec q = Some a.
  Hypothesis Hst : wf_step st = true.
  Hypothesis Hb : dur_text b d.

  Let Hac : forallb numch a = true := print_dec_chars _ _ Ha.

  Lemma tline_head : exists c r, tline a st b = c :: r /\ (numch c = true \/ c = ":"%char).
  Proof.
    unfold tline. destruct a as [|c a'] eqn:E.
    - eexists _, _. split; [reflexivity|right; reflexivity].
    - eexists _, _. split; [reflexivity|left].
      cbn [forallb] in Hac. apply andb_true_iff in Hac. tauto.
  Qed.

  Lemma tline_not_blank : is_blank_line (tline a st b) = false.
  Proof.
    destruct tline_head as (c & r & -> & [H| ->]); [|reflexivity].
    unfold is_blank_line. cbn [skip_ws]. rewrite numch_not_space by exact H. apply numch_not_semi, H.
  Qed.

  Lemma tline_not_seq : parse_seq_line (tline a st b) = None.
  Proof.
    destruct tline_head as (c & r & -> & [H| ->]); [|reflexivity].
    unfold parse_seq_line. cbn [skip_ws]. rewrite numch_not_space by exact H.
    unfold parse_call. rewrite numch_not_open by exact H. reflexivity.
  Qed.

  Lemma tline_chars p : line_pred p -> forallb p (tline a st b) = true.
  Proof.
    intros Hp. destruct (line_pred_chars p Hp) as (_ & _ & Hs & Hc & _). pose proof Hp as (_ & Hn & _).
    unfold tline. rewrite forallb_app. cbn [forallb]. rewrite forallb_app.
    rewrite (forallb_impl numch p a (fun c _ => Hn c) Hac), (step_chars p st Hp Hst), (dur_chars p b d Hp Hb), Hs, Hc. reflexivity.
  Qed.

  Lemma tline_parse : parse_tt_line (tline a st b) = Some (mkTStep q st d).
  Proof.
    unfold parse_tt_line, tline.
    rewrite skip_ws_app; [| |reflexivity].
    2:{ eapply forallb_impl; [|exact Hac]. intros c _ H. rewrite numch_not_space by exact H. reflexivity. }
    rewrite (print_dec_parse q a _ Hred Ha) by reflexivity.
    rewrite skip_ws_id by reflexivity. cbv iota.
    change (code ":"%char =? 58) with true. cbv iota.
    change (skip_ws (" "%char :: print_step st ++ b)) with (skip_ws (print_step st ++ b)).
    rewrite skip_ws_id by (rewrite print_step_app; reflexivity).
    rewrite parse_call_print by exact Hst.
    rewrite (parse_dur_tail_text _ _ Hb). reflexivity.
  Qed.

  Lemma parse_line_tline : parse_line (tline a st b) = LTT (mkTStep q st d).
  Proof.
    unfold parse_line. rewrite tline_not_blank, map_lower_id by apply (tline_chars low_ok line_low).
    rewrite tline_not_seq, tline_parse. reflexivity.
  Qed.
End TLine.

Lemma tline_nl a st b : a ++ ":"%char :: " "%char :: print_step st ++ b ++ [nl] = tline a st b ++ [nl].
Proof.
  unfold tline. generalize (print_step st) as P; intros P.
  rewrite <- app_assoc. cbn [app]. rewrite <- app_assoc. reflexivity.
Qed.

Lemma wf_tstep_text t : wf_tstep t = true -> exists a b,
  q_reduced (t_start t) = true /\ print_dec (t_start t) = Some a /\ wf_step (t_step t) = true /\ dur_text b (t_dur t)
  /\ print_tstep t = Some (tline a (t_step t) b ++ [nl]).
Proof.
  unfold wf_tstep. intros H. apply andb_true_iff in H as [H Hd]. apply andb_true_iff in H as [Hs Hst].
  destruct (dec_ok_split _ Hs) as (Hred & a & Ha). destruct (print_dur_text (t_dur t)) as (b & Eb & Hb).
  { destruct (t_dur t); [exact Hd|exact I]. }
  exists a, b. unfold print_tstep. rewrite Ha, Eb, tline_nl. repeat split; assumption.
Qed.

Lemma print_tstep_line t txt :
  wf_tstep t = true -> print_tstep t = Some txt ->
  exists L, txt = L ++ [nl] /\ forallb (fun c => negb (is_break c)) L = true /\ parse_line L = LTT t.
Proof.
  intros Hwf Hp. destruct (wf_tstep_text t Hwf) as (a & b & Hred & Ha & Hst & Hb & E). rewrite E in Hp. injection Hp as <-.
  exists (tline a (t_step t) b). split; [reflexivity|split].
  - apply (tline_chars (t_start t) a (t_step t) b (t_dur t)); [assumption..|exact line_nobreak].
  - rewrite (parse_line_tline (t_start t) a (t_step t) b (t_dur t)) by assumption.
    destruct t; reflexivity.
Qed.

Lemma lines_tt : forall l txt,
  forallb wf_tstep l = true -> print_tt l = Some txt ->
  map parse_line (split_on is_break txt) = map LTT l ++ [LBlank].
Proof.
  induction l as [|t r IH]; intros txt H Hp.
  - injection Hp as <-. reflexivity.
  - cbn [forallb] in H. apply andb_true_iff in H as [H1 H2].
    cbn [print_tt] in Hp.
    destruct (print_tstep t) as [x|] eqn:Ex; [|discriminate].
    destruct (print_tt r) as [y|] eqn:Ey; [|discriminate].
    injection Hp as <-.
    destruct (print_tstep_line t x H1 Ex) as (L & -> & Hnb & HL).
    rewrite <- app_assoc. cbn [app].
    rewrite split_on_app; [|exact Hnb|apply nl_break].
    cbn [map]. rewrite HL, (IH y H2 eq_refl). reflexivity.
Qed.

Lemma all_tt_lines l : all_tt (map LTT l ++ [LBlank]) = Some l.
Proof. induction l as [|s r IH]; [reflexivity|]. cbn [map app all_tt]. rewrite IH. reflexivity. Qed.

Theorem parse_print_tt l txt :
  forallb wf_tstep l = true -> print_tt l = Some txt ->
  parse_plan txt = Some (match l with [] => PSeq [] | _ => PTT l end).
Proof.
  intros H Hp. unfold parse_plan. rewrite (lines_tt l txt H Hp).
  destruct l as [|t r]; [reflexivity|].
  change (assemble (map LTT (t :: r) ++ [LBlank])) with
    (match all_tt (map LTT (t :: r) ++ [LBlank]) with Some l => Some (PTT l) | None => None end).
  rewrite all_tt_lines. reflexivity.
Qed.

Section ResolveProofs.
  Variables A O : Type.
  Variable act : str -> option A.
  Variable obj : str -> option O.
  Variable inst_ok : A -> list O -> bool.
  (* the writer's names (otn_renamings) *)
  Variable aname : A -> str.
  Variable oname : O -> str.

  Definition inst_names (x : A * list O) : step := mkStep (aname (fst x)) (map oname (snd x)).

  (* get_item_named inverts the renaming on the items of the plan, and the instances are well formed *)
  Definition inst_good (x : A * list O) : Prop :=
    act (aname (fst x)) = Some (fst x) /\ Forall (fun o => obj (oname o) = Some o) (snd x)
    /\ inst_ok (fst x) (snd x) = true.

  Lemma resolve_objs_names os :
    Forall (fun o => obj (oname o) = Some o) os -> resolve_objs O obj (map oname os) = Some os.
  Proof. induction 1 as [|o os Ho _ IH]; simpl; [reflexivity|]. rewrite Ho, IH. reflexivity. Qed.

  Lemma resolve_step_names x : inst_good x -> resolve_step A O act obj inst_ok (inst_names x) = Some x.
  Proof.
    intros (Ha & Ho & Hk). unfold resolve_step, inst_names. cbn [s_name s_args].
    rewrite Ha, (resolve_objs_names _ Ho), Hk. destruct x; reflexivity.
  Qed.

  Lemma resolve_seq_names l :
    Forall inst_good l -> resolve_seq A O act obj inst_ok (map inst_names l) = Some l.
  Proof.
    induction 1 as [|x l Hx _ IH]; simpl; [reflexivity|].
    rewrite (resolve_step_names _ Hx), IH. reflexivity.
  Qed.

  Definition trow_names (r : Q * (A * list O) * option Q) : tstep :=
    mkTStep (fst (fst r)) (inst_names (snd (fst r))) (snd r).

  Lemma resolve_tt_names l :
    Forall (fun r => inst_good (snd (fst r))) l -> resolve_tt A O act obj inst_ok (map trow_names l) = Some l.
  Proof.
    induction 1 as [|x l Hx _ IH]; simpl; [reflexivity|].
    rewrite (resolve_step_names _ Hx), IH. destruct x as [[s i] d]. reflexivity.
  Qed.
End ResolveProofs.

(* what the reader makes of a written plan: an empty time-triggered plan has no line, so it comes back as the empty
   sequential plan (is_tt is never set) *)
Definition plan_norm (p : plan) : plan := match p with PTT [] => PSeq [] | _ => p end.

Lemma print_tstep_total t : wf_tstep t = true -> exists x, print_tstep t = Some x.
Proof.
  intros H. destruct (wf_tstep_text t H) as (a & b & _ & _ & _ & _ & E). eauto.
Qed.

Lemma print_tt_total l : forallb wf_tstep l = true -> exists x, print_tt l = Some x.
Proof.
  induction l as [|t r IH]; intros H; [exists []; reflexivity|].
  cbn [forallb] in H. apply andb_true_iff in H as [H1 H2].
  destruct (print_tstep_total t H1) as (x & Hx). destruct (IH H2) as (y & Hy).
  cbn [print_tt]. rewrite Hx, Hy. eexists; reflexivity.
Qed.

Lemma print_plan_total p : wf_plan p = true -> exists t, print_plan p = Some t.
Proof. destruct p as [l|l]; simpl; intros H; [eexists; reflexivity|apply print_tt_total, H]. Qed.

Theorem parse_print_plan p t : wf_plan p = true -> print_plan p = Some t -> parse_plan t = Some (plan_norm p).
Proof.
  destruct p as [l|l]; simpl; intros H Hp.
  - injection Hp as <-. apply parse_print_seq, H.
  - rewrite (parse_print_tt l t H Hp). destruct l; reflexivity.
Qed.

Theorem parse_print_plan_string p s :
  wf_plan p = true -> print_plan_string p = Some s -> parse_plan_string s = Some (plan_norm p).
Proof.
  unfold print_plan_string, parse_plan_string. intros H Hp.
  destruct (print_plan p) as [t|] eqn:E; [|discriminate]. injection Hp as <-.
  rewrite String.list_ascii_of_string_of_list_ascii. apply parse_print_plan; assumption.
Qed.

Theorem parse_print_dec_string q s :
  q_reduced q = true -> print_dec_string q = Some s -> parse_dec_string s = Some q.
Proof.
  unfold print_dec_string, parse_dec_string. intros H Hp.
  destruct (print_dec q) as [t|] eqn:E; [|discriminate]. injection Hp as <-.
  rewrite String.list_ascii_of_string_of_list_ascii. apply parse_dec_print_dec; assumption.
Qed.

Section ItemsRoundTrip.
  Variables A O : Type.
  Variable act : str -> option A.
  Variable obj : str -> option O.
  Variable inst_ok : A -> list O -> bool.
  Variable aname : A -> str.
  Variable oname : O -> str.

  Theorem items_seq_round_trip (l : list (A * list O)) :
    Forall (inst_good A O act obj inst_ok aname oname) l ->
    forallb wf_step (map (inst_names A O aname oname) l) = true ->
    exists raw, parse_plan (print_seq (map (inst_names A O aname oname) l)) = Some (PSeq raw)
                /\ resolve_seq A O act obj inst_ok raw = Some l.
  Proof.
    intros Hg Hwf. eexists. split; [apply parse_print_seq, Hwf|]. apply resolve_seq_names, Hg.
  Qed.

  Theorem items_tt_round_trip (l : list (Q * (A * list O) * option Q)) :
    l <> [] ->
    Forall (fun r => inst_good A O act obj inst_ok aname oname (snd (fst r))) l ->
    forallb wf_tstep (map (trow_names A O aname oname) l) = true ->
    exists txt raw, print_tt (map (trow_names A O aname oname) l) = Some txt
                    /\ parse_plan txt = Some (PTT raw)
                    /\ resolve_tt A O act obj inst_ok raw = Some l.
  Proof.
    intros Hne Hg Hwf. destruct (print_tt_total _ Hwf) as (txt & Ht).
    exists txt, (map (trow_names A O aname oname) l). split; [exact Ht|]. split.
    - rewrite (parse_print_tt _ _ Hwf Ht). destruct l; [congruence|reflexivity].
    - apply resolve_tt_names, Hg.
  Qed.
End ItemsRoundTrip.

Lemma pow10N_pow k : pow10N k = 10 ^ N.of_nat k.
Proof. induction k; [reflexivity|]. rewrite pow10N_S, IHk, Nat2N.inj_succ, N.pow_succ_r'. reflexivity. Qed.

Lemma pow10N_add a b : pow10N (a + b) = pow10N a * pow10N b.
Proof. rewrite !pow10N_pow, Nat2N.inj_add, N.pow_add_r. reflexivity. Qed.

Lemma pow10N_lt_inv a b : pow10N a < pow10N b -> (a < b)%nat.
Proof. rewrite !pow10N_pow. intros H. apply N.pow_lt_mono_r_iff in H; lia. Qed.

Lemma pow10N_le_mono a b : (a <= b)%nat -> pow10N a <= pow10N b.
Proof. intros H. rewrite !pow10N_pow. apply N.pow_le_mono_r; lia. Qed.

Lemma fold_digits_acc l : forall a,
  fold_left (fun a d => 10 * a + d) l a = a * pow10N (List.length l) + val_digits l.
Proof.
  induction l as [|d l IH]; intros a.
  - unfold val_digits. simpl. change (pow10N 0) with 1. lia.
  - unfold val_digits at 1. cbn [fold_left List.length]. rewrite (IH (10 * a + d)), (IH (10 * 0 + d)), pow10N_S. ring.
Qed.

Lemma val_digits_cons d l : val_digits (d :: l) = d * pow10N (List.length l) + val_digits l.
Proof. unfold val_digits at 1. cbn [fold_left]. rewrite fold_digits_acc. ring. Qed.

Lemma val_digits_upper l : Forall (fun d => d < 10) l -> val_digits l < pow10N (List.length l).
Proof.
  induction 1 as [|d l Hd _ IH].
  - reflexivity.
  - rewrite val_digits_cons. cbn [List.length]. rewrite pow10N_S. nia.
Qed.

Lemma digits_fuel_head f : forall n acc, n <> 0 -> exists h t, digits_fuel f n acc = h :: t /\ h <> 0.
Proof.
  induction f as [|f IH]; intros n acc Hn; cbn [digits_fuel].
  - eauto.
  - destruct (n <? 10) eqn:E; [eauto|]. apply IH. apply N.ltb_ge in E.
    intros H0. apply N.div_small_iff in H0; lia.
Qed.

Lemma digits_upper n : n < pow10N (List.length (digits n)).
Proof. rewrite <- (val_digits_digits n) at 1. apply val_digits_upper, digits_small. Qed.

Lemma digits_lower n : n <> 0 -> pow10N (pred (List.length (digits n))) <= n.
Proof.
  intros Hn. rewrite <- (val_digits_digits n) at 2.
  unfold digits. destruct (digits_fuel_head (N.to_nat (N.size n)) n [] Hn) as (h & t & -> & Hh).
  rewrite val_digits_cons. cbn [List.length pred]. nia.
Qed.

Lemma digits_len_pos n : (1 <= List.length (digits n))%nat.
Proof.
  pose proof (digits_ne n). destruct (digits n); [congruence|simpl; lia].
Qed.

Lemma div_eucl_eq a b : N.div_eucl a b = (a / b, a mod b).
Proof. unfold N.div, N.modulo. destruct (N.div_eucl a b). reflexivity. Qed.

Lemma Zdivide_N_mod d p : d <> 0 -> (Z.of_N d | Z.of_N p)%Z -> p mod d = 0.
Proof.
  intros Hd [z Hz]. apply N.mod_divide; [exact Hd|]. exists (Z.to_N z).
  assert (0 <= z)%Z by nia.
  apply N2Z.inj. rewrite N2Z.inj_mul, Z2N.id by assumption. exact Hz.
Qed.

Lemma m_not_mult10 n d k :
  Z.gcd (Z.of_N n) (Z.of_N d) = 1%Z -> d <> 0 ->
  pow10N (S k) mod d = 0 -> pow10N k mod d <> 0 -> (n * (pow10N (S k) / d)) mod 10 <> 0.
Proof.
  intros Hg Hd Hk Hk' H10.
  apply N.div_exact in Hk; [|exact Hd]. set (c := pow10N (S k) / d) in *.
  apply N.mod_divide in H10; [|discriminate]. destruct H10 as [x Hx].
  apply Hk'. 
  assert (E : n * pow10N k = x * d).
  { assert (E10 : n * pow10N k * 10 = x * d * 10).
    { replace (n * pow10N k * 10) with (n * pow10N (S k)) by (rewrite pow10N_S; ring).
      rewrite Hk. replace (n * (d * c)) with (n * c * d) by ring. rewrite Hx. ring. }
    lia. }
  assert (Hz : (Z.of_N d | Z.of_N (pow10N k))%Z).
  { apply (Z.gauss _ (Z.of_N n)); [|rewrite Z.gcd_comm; exact Hg].
    exists (Z.of_N x). rewrite <- !N2Z.inj_mul. f_equal. exact E. }
  exact (Zdivide_N_mod d (pow10N k) Hd Hz).
Qed.

Lemma strip_zeros_pow : forall j fuel m e,
  (j <= fuel)%nat -> (e < 0)%Z -> m mod 10 <> 0 ->
  strip_zeros fuel (m * pow10N j) (e - Z.of_nat j) = (m, e).
Proof.
  induction j as [|j IH]; intros fuel m e Hf He Hm.
  - change (pow10N 0) with 1. rewrite N.mul_1_r, Z.sub_0_r.
    destruct fuel; cbn [strip_zeros]; [reflexivity|].
    apply N.eqb_neq in Hm. rewrite Hm, andb_false_r. reflexivity.
  - destruct fuel as [|fuel]; [lia|]. cbn [strip_zeros].
    assert (E1 : (m * pow10N (S j)) mod 10 = 0).
    { rewrite pow10N_S. replace (m * (10 * pow10N j)) with (m * pow10N j * 10) by ring. apply N.mod_mul. discriminate. }
    assert (E2 : (m * pow10N (S j)) / 10 = m * pow10N j).
    { rewrite pow10N_S. replace (m * (10 * pow10N j)) with (m * pow10N j * 10) by ring. apply N.div_mul. discriminate. }
    rewrite E1, E2.
    replace (e - Z.of_nat (S j) <? 0)%Z with true by (symmetry; apply Z.ltb_lt; lia).
    cbn [andb N.eqb].
    replace (e - Z.of_nat (S j) + 1)%Z with (e - Z.of_nat j)%Z by lia.
    apply IH; [lia|exact He|exact Hm].
Qed.

Lemma dec_div50_exact n d k :
  n <> 0 -> d <> 0 -> Z.gcd (Z.of_N n) (Z.of_N d) = 1%Z ->
  pow10N (S k) mod d = 0 -> pow10N k mod d <> 0 ->
  (List.length (digits (n * (pow10N (S k) / d))) <= 50)%nat ->
  dec_div50 n d = (n * (pow10N (S k) / d), (- Z.of_nat (S k))%Z).
Proof.
  intros Hn Hd Hg Hk Hk' Hlen.
  pose proof (m_not_mult10 n d k Hg Hd Hk Hk') as Hm10.
  set (m := n * (pow10N (S k) / d)) in *.
  assert (Hmd : m * d = n * pow10N (S k)) by (apply div_exact_mul; assumption).
  assert (Hm50 : m < pow10N 50).
  { eapply N.lt_le_trans; [apply digits_upper|]. apply pow10N_le_mono, Hlen. }
  pose proof (digits_lower n Hn) as Hnl. pose proof (digits_upper d) as Hdu.
  pose proof (digits_len_pos n) as Hln.
  set (ln := List.length (digits n)) in *. set (ld := List.length (digits d)) in *.
  assert (Hsh : (pred ln + S k < 50 + ld)%nat).
  { apply pow10N_lt_inv. rewrite !pow10N_add.
    apply N.le_lt_trans with (n * pow10N (S k)).
    - apply N.mul_le_mono_r. exact Hnl.
    - rewrite <- Hmd. apply N.mul_lt_mono; assumption. }
  unfold dec_div50. unfold ndigits. fold ln ld.
  set (shift := (Z.of_nat ld - Z.of_nat ln + 51)%Z).
  assert (Hs0 : (0 <= shift)%Z) by (unfold shift; lia).
  replace (0 <=? shift)%Z with true by (symmetry; apply Z.leb_le; exact Hs0).
  set (S' := Z.to_nat shift).
  assert (HkS : (S k <= S')%nat) by (unfold S', shift; lia).
  assert (HA : n * pow10N S' = m * pow10N (S' - S k) * d).
  { replace S' with (S k + (S' - S k))%nat at 1 by lia. rewrite pow10N_add.
    replace (n * (pow10N (S k) * pow10N (S' - S k))) with (n * pow10N (S k) * pow10N (S' - S k)) by ring.
    rewrite <- Hmd. ring. }
  rewrite div_eucl_eq, HA, N.div_mul, N.mod_mul by exact Hd.
  cbn [N.eqb].
  replace (- shift)%Z with (- Z.of_nat (S k) - Z.of_nat (S' - S k))%Z by (unfold S'; lia).
  rewrite strip_zeros_pow; [|lia|lia|exact Hm10].
  unfold fix50, ndigits.
  replace (Z.of_nat (List.length (digits m)) <=? 50)%Z with true by (symmetry; apply Z.leb_le; lia).
  reflexivity.
Qed.

Lemma reduced_coprime q :
  q_reduced q = true -> (0 <= Qnum q)%Z -> Z.gcd (Z.of_N (Z.to_N (Qnum q))) (Z.of_N (N.pos (Qden q))) = 1%Z.
Proof. intros Hred Hpos. apply q_eqb_eq in Hred. rewrite Z2N.id by exact Hpos. exact (Qred_identity2 _ Hred). Qed.

Theorem print_dec_real_agrees q s :
  q_reduced q = true -> print_dec q = Some s -> print_dec_real q = s.
Proof.
  intros Hred. unfold print_dec_real.
  destruct (print_dec_cases q) as [|Hpos Hden| |k m Hpos Hd1 Hk Hk' Hm Hlen|]; intros Hp; try discriminate Hp; injection Hp as <-;
    (replace (Qnum q <? 0)%Z with false by (symmetry; apply Z.ltb_ge; exact Hpos)); rewrite Z.abs_eq by exact Hpos.
  - rewrite Hden. reflexivity.
  - pose proof (reduced_coprime q Hred Hpos) as Hg.
    assert (Hn : Z.to_N (Qnum q) <> 0).
    { intros E. rewrite E in Hg. simpl in Hg. lia. }
    apply N.eqb_neq in Hd1. rewrite Hd1. subst m.
    rewrite (dec_div50_exact _ _ k Hn); [| discriminate | exact Hg | exact Hk | exact Hk' | exact Hlen].
    unfold format_dec.
    replace (0 <=? - Z.of_nat (S k))%Z with false by (symmetry; apply Z.leb_gt; lia).
    rewrite Z.opp_involutive, Nat2Z.id. reflexivity.
Qed.

Lemma val_digits_app_zeros l e : val_digits (l ++ repeat 0 e) = val_digits l * pow10N e.
Proof.
  unfold val_digits at 1. rewrite fold_left_app. fold (val_digits l).
  rewrite fold_digits_acc, repeat_length.
  rewrite <- (app_nil_r (repeat 0 e)), val_digits_zeros. unfold val_digits at 2. simpl. lia.
Qed.

Lemma map_repeat' {A B} (f : A -> B) x n : map f (repeat x n) = repeat (f x) n.
Proof. induction n; simpl; [reflexivity|]. rewrite IHn. reflexivity. Qed.

Theorem parse_format_dec c e : parse_dec (format_dec c e) = Some (dec_val c e).
Proof.
  unfold parse_dec, format_dec, dec_val.
  destruct (0 <=? e)%Z eqn:Ee.
  - destruct (c =? 0) eqn:Ec.
    + apply N.eqb_eq in Ec. subst c. reflexivity.
    + assert (Hs : digit_chars c ++ repeat "0"%char (Z.to_nat e) = map dchar (digits c ++ repeat 0 (Z.to_nat e)) ++ []).
      { rewrite app_nil_r, map_app, map_repeat'. reflexivity. }
      rewrite Hs, parse_num_digits; [| |apply Forall_app; split; [apply digits_small|apply Forall_repeat0]|exact I].
      * rewrite val_digits_app_zeros, val_digits_digits. reflexivity.
      * pose proof (digits_ne c). destruct (digits c); [congruence|discriminate].
  - rewrite <- (app_nil_r (format_f _ _)), parse_num_format; [|apply digits_small|exact I].
    rewrite val_digits_digits. reflexivity.
Qed.

(* what the reader gets back from the text the writer prints for ANY non-negative q *)
Theorem parse_print_dec_real q :
  (0 <= Qnum q)%Z -> parse_dec (print_dec_real q) = Some (dec_rounded q).
Proof.
  intros H. unfold print_dec_real, dec_rounded.
  replace (Qnum q <? 0)%Z with false by (symmetry; apply Z.ltb_ge; exact H).
  destruct (N.pos (Qden q) =? 1).
  - unfold parse_dec. rewrite <- (app_nil_r (digit_chars _)), parse_num_int by exact I. reflexivity.
  - destruct (dec_div50 _ _) as [c e]. apply parse_format_dec.
Qed.

Lemma parse_num_shape l q r : parse_num l = Some (q, r) -> exists v j, q = Qred (Z.of_N v # pow10 j).
Proof.
  unfold parse_num. destruct (span is_digit l) as [ip r1]. destruct (is_nil ip); [discriminate|].
  destruct r1 as [|c r2].
  - intros [= <- _]. eexists _, _. reflexivity.
  - destruct (code c =? 46).
    + destruct (span is_digit r2) as [fp r3]. intros [= <- _]. eexists _, _. reflexivity.
    + intros [= <- _]. eexists _, _. reflexivity.
Qed.

(* a Fraction whose denominator divides no power of ten is denoted by NO decimal string *)
Theorem no_decimal_denotes q s :
  q_reduced q = true -> (forall k, pow10N k mod N.pos (Qden q) <> 0) -> parse_dec s <> Some q.
Proof.
  intros Hred Hnd Hp. apply q_eqb_eq in Hred. pose proof (Qred_identity2 _ Hred) as Hg.
  unfold parse_dec in Hp. destruct (parse_num s) as [[q' r]|] eqn:E; [|discriminate].
  destruct r; [|discriminate]. injection Hp as ->.
  destruct (parse_num_shape _ _ _ E) as (v & j & Hq).
  assert (Heq : q == Z.of_N v # pow10 j) by (rewrite Hq at 1; apply Qred_correct).
  unfold Qeq in Heq. cbn [Qnum Qden] in Heq.
  apply (Hnd j). apply Zdivide_N_mod; [discriminate|].
  change (Z.of_N (N.pos (Qden q))) with (Z.pos (Qden q)). change (Z.of_N (pow10N j)) with (Z.pos (pow10 j)).
  apply (Z.gauss _ (Qnum q)); [|rewrite Z.gcd_comm; exact Hg].
  exists (Z.of_N v). rewrite Heq. reflexivity.
Qed.

Theorem dec_rounds_outside_nondecimal q :
  q_reduced q = true -> (0 <= Qnum q)%Z -> (forall k, pow10N k mod N.pos (Qden q) <> 0) ->
  parse_dec (print_dec_real q) = Some (dec_rounded q) /\ dec_rounded q <> q.
Proof.
  intros Hred Hpos Hnd. pose proof (parse_print_dec_real q Hpos) as Hp. split; [exact Hp|].
  intros E. rewrite E in Hp. exact (no_decimal_denotes q _ Hred Hnd Hp).
Qed.

Lemma print_tstep_real_agrees t x : wf_tstep t = true -> print_tstep t = Some x -> print_tstep_real t = x.
Proof.
  intros Hwf Hp. destruct (wf_tstep_text t Hwf) as (a & b & Hred & Ha & _ & Hb & E). rewrite E in Hp. injection Hp as <-.
  unfold print_tstep_real. rewrite (print_dec_real_agrees _ _ Hred Ha), <- tline_nl.
  destruct (t_dur t) as [d|]; simpl in Hb.
  - destruct Hb as (s & Hs & Hr & ->). rewrite (print_dec_real_agrees _ _ Hr Hs). reflexivity.
  - subst b. reflexivity.
Qed.

Lemma print_tt_real_agrees l : forall x,
  forallb wf_tstep l = true -> print_tt l = Some x -> concat (map print_tstep_real l) = x.
Proof.
  induction l as [|t r IH]; intros x H Hp.
  - injection Hp as <-. reflexivity.
  - cbn [forallb] in H. apply andb_true_iff in H as [H1 H2]. cbn [print_tt] in Hp.
    destruct (print_tstep t) as [a|] eqn:Ea; [|discriminate].
    destruct (print_tt r) as [b|] eqn:Eb; [|discriminate]. injection Hp as <-.
    cbn [map concat]. rewrite (print_tstep_real_agrees t a H1 Ea), (IH b H2 eq_refl). reflexivity.
Qed.

Theorem print_plan_real_agrees p t : wf_plan p = true -> print_plan p = Some t -> print_plan_real p = t.
Proof.
  destruct p as [l|l]; simpl; intros H Hp; [congruence|]. apply print_tt_real_agrees; assumption.
Qed.

Theorem parse_print_plan_real p : wf_plan p = true -> parse_plan (print_plan_real p) = Some (plan_norm p).
Proof.
  intros H. destruct (print_plan_total p H) as (t & Ht).
  rewrite (print_plan_real_agrees p t H Ht). apply parse_print_plan; assumption.
Qed.

Theorem parse_print_dec_real_exact q :
  q_reduced q = true -> (exists s, print_dec q = Some s) -> parse_dec (print_dec_real q) = Some q.
Proof.
  intros Hr (s & Hs). rewrite (print_dec_real_agrees q s Hr Hs). apply parse_dec_print_dec; assumption.
Qed.

Lemma fix50_bound c e : fst (fix50 c e) < pow10N 50.
Proof.
  unfold fix50, ndigits.
  destruct (Z.of_nat (List.length (digits c)) <=? 50)%Z eqn:E.
  - apply Z.leb_le in E. cbn [fst]. eapply N.lt_le_trans; [apply digits_upper|]. apply pow10N_le_mono. lia.
  - apply Z.leb_gt in E.
    set (len := List.length (digits c)) in *.
    set (drop := Z.to_nat (Z.of_nat len - 50)).
    set (q := c / pow10N drop).
    assert (Hq : q < pow10N 50).
    { unfold q. apply N.div_lt_upper_bound; [apply pow10N_pos|].
      rewrite <- pow10N_add. replace (drop + 50)%nat with len by (unfold drop; lia). apply digits_upper. }
    set (q' := if _ : bool then q + 1 else q).
    assert (Hq' : q' <= pow10N 50) by (unfold q'; destruct (_ || _); lia).
    destruct (Z.of_nat (List.length (digits q')) <=? 50)%Z eqn:E2; cbn [fst].
    + apply Z.leb_le in E2. eapply N.lt_le_trans; [apply digits_upper|]. apply pow10N_le_mono. lia.
    + apply N.div_lt_upper_bound; [discriminate|]. pose proof (pow10N_pos 50). lia.
Qed.

Lemma dec_div50_bound n d : fst (dec_div50 n d) < pow10N 50.
Proof.
  unfold dec_div50.
  destruct (if (0 <=? _)%Z then _ else _) as [c r].
  destruct (if r =? 0 then _ else _) as [c1 e1]. apply fix50_bound.
Qed.

(* what is read back is always a decimal of at most 50 significant digits *)
Theorem dec_rounded_shape q :
  N.pos (Qden q) <> 1 -> exists c e, dec_rounded q = dec_val c e /\ c < pow10N 50.
Proof.
  intros Hd. unfold dec_rounded. apply N.eqb_neq in Hd. rewrite Hd.
  pose proof (dec_div50_bound (Z.to_N (Z.abs (Qnum q))) (N.pos (Qden q))) as Hb.
  destruct (dec_div50 _ _) as [c e]. exists c, e. split; [reflexivity|exact Hb].
Qed.

Lemma shortest_scale m k c j : m mod 10 <> 0 -> c * pow10N k = m * pow10N j -> (k <= j)%nat.
Proof.
  intros Hm H. destruct (le_lt_dec k j) as [Hle|Hlt]; [exact Hle|]. exfalso. apply Hm.
  replace k with (j + S (k - S j))%nat in H by lia. rewrite pow10N_add, pow10N_S in H.
  assert (E : m = c * pow10N (k - S j) * 10).
  { apply (N.mul_cancel_r _ _ (pow10N j) (pow10N_pos j)). rewrite <- H. ring. }
  rewrite E. apply N.mod_mul. discriminate.
Qed.

Lemma same_fraction d n a x b y : d <> 0 -> a * d = n * x -> b * d = n * y -> b * x = a * y.
Proof.
  intros Hd Ha Hb. apply (N.mul_cancel_r _ _ d Hd).
  replace (b * x * d) with (b * d * x) by ring. replace (a * y * d) with (a * d * y) by ring.
  rewrite Ha, Hb. ring.
Qed.

Lemma decimal_denotes q c j :
  (0 <= Qnum q)%Z -> Qred (Z.of_N c # pow10 j) = q -> c * N.pos (Qden q) = Z.to_N (Qnum q) * pow10N j.
Proof.
  intros Hpos Heq. assert (Hq : q == Z.of_N c # pow10 j) by (rewrite <- Heq at 1; apply Qred_correct).
  unfold Qeq in Hq. cbn [Qnum Qden] in Hq. apply N2Z.inj. rewrite !N2Z.inj_mul, Z2N.id by exact Hpos.
  change (Z.of_N (N.pos (Qden q))) with (Z.pos (Qden q)). change (Z.of_N (pow10N j)) with (Z.pos (pow10 j)). lia.
Qed.

(* q = m / 10^(S k) exactly, m has more than 50 digits and is not a multiple of ten; what is read back is c / 10^j with
   c < 10^50 <= m, which denotes q only if j >= S k, that is c >= m *)
Theorem dec_rounded_neq q :
  q_reduced q = true -> (0 <= Qnum q)%Z -> print_dec q = None -> dec_rounded q <> q.
Proof.
  intros Hred Hpos.
  destruct (print_dec_cases q) as [Hneg| |_ Hnd| |k m _ Hd1 Hk Hk' Hm Hlen]; intros Hp; try discriminate Hp.
  - lia.
  - apply dec_rounds_outside_nondecimal; assumption.
  - set (n := Z.to_N (Qnum q)) in *. set (d := N.pos (Qden q)) in *.
    assert (Hd : d <> 0) by discriminate.
    pose proof (m_not_mult10 n d k (reduced_coprime q Hred Hpos) Hd Hk Hk') as Hm10. rewrite <- Hm in Hm10.
    assert (Hmd : m * d = n * pow10N (S k)) by (subst m; apply div_exact_mul; assumption).
    assert (Hm0 : m <> 0) by (intros E; rewrite E in Hm10; apply Hm10; reflexivity).
    assert (Hm50 : pow10N 50 <= m).
    { eapply N.le_trans; [|apply digits_lower, Hm0]. apply pow10N_le_mono. lia. }
    destruct (dec_rounded_shape q Hd1) as (c & e & -> & Hc). unfold dec_val. intros Heq.
    destruct (0 <=? e)%Z.
    + apply (decimal_denotes q _ 0%nat Hpos) in Heq. fold n d in Heq.
      pose proof (shortest_scale m (S k) _ 0%nat Hm10 (same_fraction d n _ _ _ _ Hd Hmd Heq)). lia.
    + apply (decimal_denotes q _ _ Hpos) in Heq. fold n d in Heq.
      pose proof (same_fraction d n _ _ _ _ Hd Hmd Heq) as Hx.
      pose proof (pow10N_le_mono _ _ (shortest_scale m (S k) c _ Hm10 Hx)). pose proof (pow10N_pos (S k)). nia.
Qed.

Theorem dec_rounds_outside_fragment q :
  q_reduced q = true -> (0 <= Qnum q)%Z -> print_dec q = None ->
  parse_dec (print_dec_real q) = Some (dec_rounded q) /\ dec_rounded q <> q.
Proof.
  intros Hred Hpos Hp. split; [apply parse_print_dec_real, Hpos|apply dec_rounded_neq; assumption].
Qed.


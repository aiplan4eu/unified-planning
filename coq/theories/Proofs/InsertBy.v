(* Insertion into a list kept in order by a Boolean test, as the Python code does with sort / heappush / insort:
   [insert_by before x l] puts [x] in front of the first element [y] with [before x y].  The model's insertion
   functions are instances (by conversion or by a three-line induction), so membership, permutation and sortedness are
   proved once. *)
From Coq Require Import List Permutation.
Import ListNotations.

Section InsertBy.
  Context {A : Type} (before : A -> A -> bool) (R : A -> A -> Prop).

  Fixpoint insert_by (x : A) (l : list A) : list A :=
    match l with [] => [x] | y :: r => if before x y then x :: l else y :: insert_by x r end.

  (* every element is in relation [R] with all later ones *)
  Fixpoint sorted_by (l : list A) : Prop :=
    match l with [] => True | x :: r => (forall y, In y r -> R x y) /\ sorted_by r end.

  Lemma insert_by_perm x l : Permutation (insert_by x l) (x :: l).
  Proof.
    induction l as [|y l IH]; cbn [insert_by]; [apply Permutation_refl|].
    destruct (before x y); [apply Permutation_refl|].
    eapply Permutation_trans; [apply perm_skip, IH | apply perm_swap].
  Qed.

  Lemma insert_by_In x l y : In y (insert_by x l) <-> y = x \/ In y l.
  Proof.
    split; intros H.
    - apply (Permutation_in _ (insert_by_perm x l)) in H. destruct H as [<-|H]; [left; reflexivity | right; exact H].
    - apply (Permutation_in _ (Permutation_sym (insert_by_perm x l))). destruct H as [->|H]; [left; reflexivity | right; exact H].
  Qed.

  Lemma sorted_by_app_r a b : sorted_by (a ++ b) -> sorted_by b.
  Proof. induction a as [|x a IH]; [auto|]. intros [_ S]. apply IH, S. Qed.

  Lemma sorted_by_app_lr a b x y : sorted_by (a ++ b) -> In x a -> In y b -> R x y.
  Proof.
    induction a as [|z a IH]; intros S Hx Hy; [destruct Hx|].
    destruct S as [S1 S2]. destruct Hx as [<-|Hx]; [apply S1, in_or_app; right; exact Hy | apply IH; assumption].
  Qed.

  Lemma sorted_by_snoc a b : sorted_by a -> (forall y, In y a -> R y b) -> sorted_by (a ++ [b]).
  Proof.
    induction a as [|z a IH]; intros S H; cbn; [split; [intros y [] | exact I]|].
    destruct S as [S1 S2]. split.
    - intros y Hy. apply in_app_iff in Hy. destruct Hy as [Hy|[<-|[]]]; [apply S1, Hy | apply H; left; reflexivity].
    - apply IH; [exact S2|]. intros y Hy. apply H. right. exact Hy.
  Qed.

  (* a list sorted by an asymmetric relation is determined by its elements *)
  Lemma sorted_by_unique l : (forall x y, R x y -> R y x -> False) ->
    forall l', Permutation l l' -> sorted_by l -> sorted_by l' -> l = l'.
  Proof.
    intros AS. induction l as [|a r IH]; intros l' PM S S'.
    - apply Permutation_nil in PM. subst. reflexivity.
    - destruct l' as [|b r']; [apply Permutation_sym, Permutation_nil in PM; discriminate|].
      destruct S as [S1 S2], S' as [S1' S2'].
      assert (a = b).
      { assert (Ha : In a (b :: r')) by (apply (Permutation_in a PM); left; reflexivity).
        assert (Hb : In b (a :: r)) by (apply (Permutation_in b (Permutation_sym PM)); left; reflexivity).
        destruct Ha as [Ha|Ha]; [symmetry; exact Ha|]. destruct Hb as [Hb|Hb]; [exact Hb|].
        destruct (AS a b (S1 b Hb) (S1' a Ha)). }
      subst b. f_equal. apply IH; [apply (Permutation_cons_inv PM) | exact S2 | exact S2'].
  Qed.

  Hypothesis before_true : forall x y, before x y = true -> R x y.
  Hypothesis before_false : forall x y, before x y = false -> R y x.
  Hypothesis R_trans : forall x y z, R x y -> R y z -> R x z.

  Lemma insert_by_sorted x l : sorted_by l -> sorted_by (insert_by x l).
  Proof.
    induction l as [|y l IH]; intros S; cbn [insert_by]; [split; [intros z [] | exact I]|].
    destruct S as [S1 S2]. destruct (before x y) eqn:E.
    - split; [|split; assumption]. intros z [<-|Hz]; [exact (before_true _ _ E)|].
      exact (R_trans _ _ _ (before_true _ _ E) (S1 z Hz)).
    - split; [|exact (IH S2)]. intros z Hz. apply insert_by_In in Hz.
      destruct Hz as [->|Hz]; [exact (before_false _ _ E) | exact (S1 z Hz)].
  Qed.
End InsertBy.

Lemma sorted_by_weaken {A} (R R' : A -> A -> Prop) l : (forall x y, R x y -> R' x y) -> sorted_by R l -> sorted_by R' l.
Proof. intros H. induction l as [|x l IH]; [auto|]. intros [S1 S2]. split; [intros y Hy; apply H, S1, Hy | apply IH, S2]. Qed.

Lemma sorted_by_map {A B} (f : A -> B) (R : B -> B -> Prop) l : sorted_by (fun x y => R (f x) (f y)) l <-> sorted_by R (map f l).
Proof.
  induction l as [|x l IH]; [reflexivity|]. cbn [map sorted_by]. rewrite IH. split; intros [S1 S2]; (split; [|exact S2]).
  - intros y Hy. apply in_map_iff in Hy. destruct Hy as [z [<- Hz]]. apply S1, Hz.
  - intros y Hy. apply S1, in_map, Hy.
Qed.

Lemma sorted_by_rev {A} (R : A -> A -> Prop) l : sorted_by R l -> sorted_by (fun x y => R y x) (rev l).
Proof.
  induction l as [|x l IH]; intros S; [exact I|]. destruct S as [S1 S2]. cbn [rev].
  apply sorted_by_snoc; [apply IH, S2|]. intros y Hy. apply S1, in_rev, Hy.
Qed.

(* C06 / C07, Layer A — TrajectoryConstraintsRemover: proofs about Compilers/LayerA_Tcr.v.
   The abstract monitor (one Boolean per constraint, a check and an update per step) decides SimCheck.traj_holds
   ([mverdict_spec]).  Regression ([regression_step]): for a ground action applicable in s, the regressed formula has in s
   the value the formula has in the successor state.  Plan level: a list of `always` constraints ([tcr_always_plan]); one
   constraint with a monitoring atom ([tcr_single_plan]: the compiled problem runs the monitor along the plan). *)
From Coq Require Import List ZArith NArith QArith Qcanon Bool Lia.
Import ListNotations.
Require Import UPV.Core.Expr UPV.Core.Eval UPV.Core.Interp UPV.Planning.Problem UPV.Planning.Sem.
Require Import UPV.Proofs.ListFacts UPV.Proofs.Eval_lemmas UPV.Proofs.Sem_proofs UPV.Proofs.Step_proofs.
Require Import UPV.Compilers.Variants UPV.Compilers.LayerA_Defs UPV.Compilers.LayerA_Quant.
Require Import UPV.Compilers.SimCheck UPV.Compilers.LayerA_Tcr.
Require Import UPV.Compilers.LayerA_Inv UPV.Proofs.LayerA_base UPV.Proofs.LayerA_Quant_proofs UPV.Proofs.LayerA_Inv_proofs.
Require Import UPV.Compilers.LayerA_DcrGoal UPV.Proofs.LayerA_DcrGoal_proofs UPV.Proofs.Subst_proofs.
Local Open Scope nat_scope.

Section MonitorProofs.
  Context {A : Type}.
  Variable sat : A -> expr -> bool.

  (* SimCheck.traj_holds over any notion of state and satisfaction *)
  Definition th (sts : list A) (c : expr) : bool :=
    match c with
    | EBool true => true
    | EAlways e => forallb (fun s => sat s e) sts
    | ESometime e => existsb (fun s => sat s e) sts
    | EAtMostOnce e => mon_amo (fun s => sat s e) sts
    | ESometimeBefore a b => mon_sb (fun s => sat s a) (fun s => sat s b) false sts
    | ESometimeAfter a b => mon_sa (fun s => sat s a) (fun s => sat s b) sts
    | _ => false
    end.

  Lemma mrun_always e : forall l ok m s,
    mrun sat (EAlways e) ok m s l = (ok && forallb (fun x => sat x e) l, m).
  Proof.
    induction l as [|t r IH]; intros ok m s; cbn [mrun forallb]; [rewrite andb_true_r; reflexivity|].
    rewrite IH. cbn [chk upd]. rewrite andb_assoc. reflexivity.
  Qed.

  Lemma mrun_sometime e : forall l ok m s,
    mrun sat (ESometime e) ok m s l = (ok, m || existsb (fun x => sat x e) l).
  Proof.
    induction l as [|t r IH]; intros ok m s; cbn [mrun existsb]; [rewrite orb_false_r; reflexivity|].
    rewrite IH. cbn [chk upd]. rewrite andb_true_r, orb_assoc. reflexivity.
  Qed.

  Lemma mrun_sb a b : forall l ok m s,
    mrun sat (ESometimeBefore a b) ok m s l =
    (ok && mon_sb (fun x => sat x a) (fun x => sat x b) m l, m || existsb (fun x => sat x b) l).
  Proof.
    induction l as [|t r IH]; intros ok m s; cbn [mrun existsb mon_sb]; [rewrite andb_true_r, orb_false_r; reflexivity|].
    rewrite IH. cbn [chk upd]. rewrite orb_assoc. f_equal.
    destruct (sat t a), ok, m; cbn; reflexivity.
  Qed.

  Lemma mrun_amo e : forall l ok m s,
    mrun sat (EAtMostOnce e) ok m s l =
    (ok && (if m then (if sat s e then mon_amo_in (fun x => sat x e) l else forallb (fun x => negb (sat x e)) l)
            else mon_amo (fun x => sat x e) l),
     m || existsb (fun x => sat x e) l).
  Proof.
    induction l as [|t r IH]; intros ok m s; cbn [mrun existsb mon_amo mon_amo_in forallb].
    - rewrite orb_false_r. destruct m, (sat s e); rewrite andb_true_r; reflexivity.
    - rewrite IH. cbn [chk upd]. rewrite orb_assoc. f_equal.
      destruct m, (sat s e), (sat t e), ok; cbn; try reflexivity;
        destruct (mon_amo_in (fun x => sat x e) r), (forallb (fun x => negb (sat x e)) r); reflexivity.
  Qed.

  Lemma mrun_sa a b : forall l ok m s,
    mrun sat (ESometimeAfter a b) ok m s l =
    (ok, mon_sa (fun x => sat x a) (fun x => sat x b) l && (m || existsb (fun x => sat x b) l)).
  Proof.
    induction l as [|t r IH]; intros ok m s; cbn [mrun existsb mon_sa].
    - rewrite orb_false_r. reflexivity.
    - rewrite IH. cbn [chk upd]. rewrite andb_true_r. f_equal.
      destruct (sat t b), (sat t a), m; cbn;
        destruct (mon_sa (fun x => sat x a) (fun x => sat x b) r), (existsb (fun x => sat x b) r); reflexivity.
  Qed.

  Lemma mrun_other c : (forall m s t, chk sat c m s t = true) -> (forall m t, upd sat c m t = m) ->
    forall l ok m s, mrun sat c ok m s l = (ok, m).
  Proof.
    intros H1 H2. induction l as [|t r IH]; intros ok m s; cbn [mrun]; [reflexivity|].
    rewrite IH, H1, H2, andb_true_r. reflexivity.
  Qed.

  (* the compiled monitor (refusal in the initial state, added preconditions, monitoring atom, added goal) accepts a
     non-empty state sequence iff the PDDL3 constraint holds on it *)
  Theorem mverdict_spec c s r : mverdict sat c (s :: r) = th (s :: r) c.
  Proof.
    destruct c; unfold mverdict;
      try (rewrite mrun_other by (intros; reflexivity); cbn [safe0 is_landmark th andb]; reflexivity).
    - rewrite mrun_other by (intros; reflexivity). destruct b; reflexivity.
    - rewrite mrun_always. cbn [safe0 is_landmark th forallb]. rewrite andb_true_r. reflexivity.
    - rewrite mrun_sometime. cbn [safe0 mbit0 is_landmark th existsb andb]. reflexivity.
    - rewrite mrun_sb. cbn [safe0 mbit0 is_landmark th mon_sb]. rewrite andb_true_r.
      destruct (sat s c1); cbn [negb andb]; [reflexivity|]. cbn [orb]. reflexivity.
    - rewrite mrun_sa. cbn [safe0 mbit0 is_landmark th mon_sa andb existsb].
      destruct (sat s c1), (sat s c2); cbn;
        destruct (mon_sa (fun x => sat x c1) (fun x => sat x c2) r), (existsb (fun x => sat x c2) r); reflexivity.
    - rewrite mrun_amo. cbn [safe0 mbit0 is_landmark th mon_amo andb]. rewrite andb_true_r.
      destruct (sat s c); reflexivity.
  Qed.

  Lemma mrun_app c : forall l1 l2 ok m s,
    mrun sat c ok m s (l1 ++ l2) =
    let '(ok1, m1) := mrun sat c ok m s l1 in mrun sat c ok1 m1 (last l1 s) l2.
  Proof.
    induction l1 as [|t r IH]; intros l2 ok m s; [reflexivity|].
    cbn [app mrun]. rewrite IH. destruct (mrun sat c (ok && chk sat c m s t) (upd sat c m t) t r) as [ok1 m1].
    destruct r as [|a r]; [reflexivity|]. rewrite (last_cons_indep a r t s). reflexivity.
  Qed.
End MonitorProofs.

Lemma traj_holds_th T sts c : traj_holds T sts c = th (sat T) sts c.
Proof. destruct c; reflexivity. Qed.

Definition B (I : interp) (e : expr) (b : bool) : Prop := eval false e I = Some (VBool b).

Lemma isB_B I e : isB I e = true -> B I e (holds false I e).
Proof. unfold isB, B, holds. destruct (eval false e I) as [[[|]| |]|]; try discriminate; reflexivity. Qed.

Lemma B_holds I e b : B I e b -> holds false I e = b.
Proof. unfold B, holds. intros ->. destruct b; reflexivity. Qed.

Lemma B_isB I e b : B I e b -> isB I e = true.
Proof. unfold B, isB. intros ->. reflexivity. Qed.

Lemma B_fun I e b1 b2 : B I e b1 -> B I e b2 -> b1 = b2.
Proof. unfold B. intros H1 H2. rewrite H1 in H2. inversion H2. reflexivity. Qed.

Lemma B_ebools I l bs : Forall2 (B I) l bs -> ebools false I l = Some bs.
Proof.
  induction 1 as [|x b l bs Hx _ IH]; [reflexivity|]. cbn [ebools]. unfold B in Hx. rewrite Hx, IH. reflexivity.
Qed.

Lemma B_EAnd I l bs : Forall2 (B I) l bs -> B I (EAnd l) (forallb (fun b => b) bs).
Proof. intros H. unfold B. rewrite eval_EAnd, (B_ebools I l bs H). reflexivity. Qed.
Lemma B_EOr I l bs : Forall2 (B I) l bs -> B I (EOr l) (existsb (fun b => b) bs).
Proof. intros H. unfold B. rewrite eval_EOr, (B_ebools I l bs H). reflexivity. Qed.

Lemma B_mkAnd I l bs : Forall2 (B I) l bs -> B I (mkAnd l) (forallb (fun b => b) bs).
Proof.
  intros H. destruct H as [|x b l bs Hx H]; [reflexivity|]. destruct H as [|y c l bs Hy H].
  - cbn. rewrite andb_true_r. exact Hx.
  - apply (B_EAnd I (x :: y :: l) (b :: c :: bs)). repeat constructor; assumption.
Qed.
Lemma B_mkOr I l bs : Forall2 (B I) l bs -> B I (mkOr l) (existsb (fun b => b) bs).
Proof.
  intros H. destruct H as [|x b l bs Hx H]; [reflexivity|]. destruct H as [|y c l bs Hy H].
  - cbn. rewrite orb_false_r. exact Hx.
  - apply (B_EOr I (x :: y :: l) (b :: c :: bs)). repeat constructor; assumption.
Qed.
Lemma B_ENot I e b : B I e b -> B I (ENot e) (negb b).
Proof. unfold B. intros H. rewrite eval_ENot, H. reflexivity. Qed.
Lemma B_mkNot I e b : B I e b -> B I (mkNot e) (negb b).
Proof.
  intros H. destruct e; try (apply B_ENot; exact H). cbn [mkNot]. unfold B in *. rewrite eval_ENot in H.
  destruct (eval false e I) as [[c| |]|]; try discriminate. cbn [as_bool] in H. inversion H. rewrite negb_involutive. reflexivity.
Qed.

Lemma B_or2 I a b x y : B I a x -> B I b y -> B I (mkOr [a; b]) (x || y).
Proof.
  intros Ha Hb. pose proof (B_mkOr I [a; b] [x; y]) as H. cbn [existsb] in H. rewrite orb_false_r in H.
  apply H. repeat constructor; assumption.
Qed.
Lemma B_or3 I a b c x y z : B I a x -> B I b y -> B I c z -> B I (mkOr [a; b; c]) (x || y || z).
Proof.
  intros Ha Hb Hc. pose proof (B_mkOr I [a; b; c] [x; y; z]) as H. cbn [existsb] in H. rewrite orb_false_r, orb_assoc in H.
  apply H. repeat constructor; assumption.
Qed.
Lemma B_and2 I a b x y : B I a x -> B I b y -> B I (mkAnd [a; b]) (x && y).
Proof.
  intros Ha Hb. pose proof (B_mkAnd I [a; b] [x; y]) as H. cbn [forallb] in H. rewrite andb_true_r in H.
  apply H. repeat constructor; assumption.
Qed.


Section Gamma.
  Variable I : interp.
  Variables (f : N) (args : list expr).

  (* what one effect contributes to gamma(literal): it is on a Boolean fluent, on this very fluent expression, its
     condition holds and its value is the polarity of the literal *)
  Definition contrib (pos : bool) (e : effect) : bool :=
    e_isbool e && same_fluent f args e && holds false I (e_cond e) && Bool.eqb (holds false I (e_val e)) pos.

  Definition eff_def (e : effect) : Prop :=
    isB I (e_cond e) = true /\ (e_isbool e = true -> isB I (e_val e) = true).

  Lemma gamma_go_B pos : forall effs acc bs, Forall eff_def effs -> Forall2 (B I) acc bs ->
    B I (gamma_go f args pos effs acc) (existsb (fun b => b) bs || existsb (contrib pos) effs).
  Proof.
    induction effs as [|e r IH]; intros acc bs HF Hacc; cbn [gamma_go existsb].
    - rewrite orb_false_r. apply B_mkOr, Hacc.
    - inversion HF as [|? ? [Hc Hv] HF']; subst. unfold contrib at 1.
      destruct (e_isbool e) eqn:Eb; cbn [negb andb]; [|apply IH; assumption].
      specialize (Hv eq_refl). pose proof (isB_B _ _ Hc) as Bc. pose proof (isB_B _ _ Hv) as Bv.
      destruct (bconst (e_val e)) as [b|] eqn:Ec.
      + assert (Ev : e_val e = EBool b) by (destruct (e_val e); try discriminate; inversion Ec; reflexivity).
        assert (Hb : holds false I (e_val e) = b) by (rewrite Ev; destruct b; reflexivity).
        rewrite Hb. destruct (same_fluent f args e); cbn [andb]; [|apply IH; assumption].
        destruct (Bool.eqb b pos); cbn [andb]; [|rewrite andb_false_r; apply IH; assumption].
        rewrite andb_true_r.
        destruct (is_true (e_cond e)) eqn:Et.
        * rewrite (holds_of_is_true false I _ Et). cbn [orb]. rewrite orb_true_r. reflexivity.
        * pose proof (IH (acc ++ [e_cond e]) (bs ++ [holds false I (e_cond e)]) HF' (Forall2_snoc _ _ _ _ _ Hacc Bc)) as G.
          rewrite existsb_snoc, <- orb_assoc in G. exact G.
      + destruct (same_fluent f args e); cbn [andb]; [|apply IH; assumption].
        assert (Bx : B I (mkAnd [e_cond e; if pos then e_val e else mkNot (e_val e)])
                       (holds false I (e_cond e) && Bool.eqb (holds false I (e_val e)) pos)).
        { apply B_and2; [exact Bc|]. destruct pos; [|apply B_mkNot in Bv]; destruct (holds false I (e_val e)); assumption. }
        pose proof (IH _ _ HF' (Forall2_snoc _ _ _ _ _ Hacc Bx)) as G.
        rewrite existsb_snoc, <- orb_assoc in G. exact G.
  Qed.

  Lemma gamma_B pos effs : Forall eff_def effs -> B I (gamma f args pos effs) (existsb (contrib pos) effs).
  Proof. intros H. apply (gamma_go_B pos effs [] [] H (Forall2_nil _)). Qed.
End Gamma.



Lemma evals_oargs sc I l : oargs l = true -> evals sc I l = Some (vals_of l).
Proof.
  induction l as [|x l IH]; intros H; [reflexivity|]. cbn [oargs forallb] in H. apply andb_true_iff in H. destruct H as [Hx Hl].
  cbn [evals vals_of map]. fold (vals_of l). rewrite (IH Hl). destruct x; try discriminate. reflexivity.
Qed.

Lemma oargs_eqb l1 : forall l2, oargs l1 = true -> oargs l2 = true ->
  list_expr_eqb l1 l2 = values_eqb (vals_of l1) (vals_of l2).
Proof.
  induction l1 as [|x l1 IH]; intros [|y l2] H1 H2; try reflexivity.
  cbn [oargs forallb] in H1, H2. apply andb_true_iff in H1. apply andb_true_iff in H2. destruct H1 as [Hx H1], H2 as [Hy H2].
  cbn [list_expr_eqb vals_of map values_eqb]. fold (vals_of l1). fold (vals_of l2). rewrite <- (IH l2 H1 H2).
  destruct x; try discriminate. destruct y; try discriminate. reflexivity.
Qed.


Lemma gaction_params P a : gaction P a = true -> a_params a = [].
Proof.
  unfold gaction. intros H. apply andb_true_iff in H. destruct H as [H _]. destruct (a_params a); [reflexivity | discriminate].
Qed.

Lemma a_ground P : gproblem P = true -> forall aid a, lookup_action P aid = Some a -> gaction P a = true.
Proof.
  unfold gproblem, lookup_action. intros Hgp aid a Hlk. rewrite forallb_forall in Hgp.
  apply lookupN_In in Hlk. apply (Hgp (aid, a) Hlk).
Qed.

Lemma a_params_nil P : gproblem P = true -> forall aid a, lookup_action P aid = Some a -> a_params a = [].
Proof. intros Hgp aid a Hlk. exact (gaction_params P a (a_ground P Hgp aid a Hlk)). Qed.

Section GroundStep.
  Variable P : problem.
  Variable s : state.
  Let I := mk_interp P s [].
  Variables (f : N) (vs : list value).
  Hypothesis Hf : is_bool_fluent P f = true.

  Definition fires (e : effect) : bool :=
    holds false I (e_cond e) && (e_fl e =? f)%N && values_eqb (vals_of (e_args e)) vs.

  Definition eff_ok (e : effect) : Prop := geffect P e = true /\ eff_def I e.

  Lemma geffect_split e : geffect P e = true ->
    e_vars e = [] /\ oargs (e_args e) = true /\ e_isbool e = is_bool_fluent P (e_fl e) /\
    (e_isbool e = true -> e_kind e = KAssign).
  Proof.
    unfold geffect. intros H. repeat (apply andb_true_iff in H; destruct H as [H ?]).
    repeat split.
    - destruct (e_vars e); [reflexivity | discriminate].
    - assumption.
    - apply eqb_prop. assumption.
    - intros Hb. rewrite Hb in *. cbn in *. unfold is_kassign in *. destruct (e_kind e); try discriminate; reflexivity.
  Qed.

  Lemma fired_ground : forall effs acts, Forall eff_ok effs -> fired false I effs = Some acts ->
    avals (f, vs) acts = map (fun e => VBool (holds false I (e_val e))) (filter fires effs) /\
    deltas (f, vs) acts = [].
  Proof.
    induction effs as [|e r IH]; intros acts HF Hfi.
    - cbn in Hfi. inversion Hfi. split; reflexivity.
    - inversion HF as [|? ? [Hg [Hc Hv]] HF']; subst.
      destruct (geffect_split e Hg) as (Ev & Ea & Eb & Ek).
      unfold fired in Hfi. cbn [flat_map] in Hfi. rewrite Ev in Hfi. cbn [instances map app] in Hfi.
      fold (fired false I r) in Hfi. unfold eval_effect in Hfi at 1. rewrite evals_l_evals, (evals_oargs false I _ Ea) in Hfi.
      pose proof (isB_B _ _ Hc) as Bc. unfold B in Bc. rewrite Bc in Hfi.
      cbn [filter]. unfold fires at 1. fold fires.
      destruct (holds false I (e_cond e)) eqn:Eh; cbn [andb].
      + destruct (eval false (e_val e) I) as [v|] eqn:Evv; [|discriminate]. cbn [collect_res] in Hfi.
        change (collect_res (flat_map (fun e0 => map (fun J => eval_effect false J e0) (instances I (e_vars e0))) r))
          with (fired false I r) in Hfi.
        destruct (fired false I r) as [acts'|] eqn:Er; [|discriminate]. inversion Hfi; subst acts.
        destruct (IH acts' HF' eq_refl) as [IH1 IH2].
        rewrite avals_cons, deltas_cons. unfold gfl_eqb. cbn [ae_key fst snd].
        destruct ((e_fl e =? f)%N) eqn:Ef; cbn [andb]; [|split; assumption].
        destruct (values_eqb (vals_of (e_args e)) vs) eqn:Ea2; cbn [andb]; [|split; assumption].
        apply N.eqb_eq in Ef. assert (Hbe : e_isbool e = true) by (rewrite Eb, Ef; exact Hf).
        unfold is_assign. cbn [ae_kind]. rewrite (Ek Hbe). cbn [negb map andb].
        split; [|exact IH2]. f_equal; [|exact IH1].
        cbn [ae_val]. pose proof (isB_B _ _ (Hv Hbe)) as Bv. unfold B in Bv. rewrite Evv in Bv. inversion Bv. reflexivity.
      + cbn [collect_res] in Hfi.
        change (collect_res (flat_map (fun e0 => map (fun J => eval_effect false J e0) (instances I (e_vars e0))) r))
          with (fired false I r) in Hfi.
        apply IH; assumption.
  Qed.

  Lemma succ_bool_fluent effs acts : Forall eff_ok effs -> fired false I effs = Some acts ->
    spec_succ P s acts f vs =
    if existsb fires effs then Some (VBool (existsb (fun e => fires e && holds false I (e_val e)) effs)) else s f vs.
  Proof.
    intros HF Hfi. destruct (fired_ground effs acts HF Hfi) as [HA HD].
    unfold spec_succ, spec_fluent. cbn [fst snd]. rewrite HA, HD, Hf. clear HA HD Hfi HF.
    induction effs as [|e r IH]; [reflexivity|]. cbn [filter existsb].
    destruct (fires e) eqn:Ee; cbn [orb andb map].
    - cbn [combine]. f_equal. f_equal. cbn [existsb is_vtrue]. f_equal.
      + destruct (holds false I (e_val e)); reflexivity.
      + clear IH. induction r as [|e' r IHr]; [reflexivity|]. cbn [filter existsb].
        destruct (fires e'); cbn [map existsb andb]; [|exact IHr]. rewrite IHr.
        destruct (holds false I (e_val e')); reflexivity.
    - exact IH.
  Qed.
End GroundStep.

Lemma effs_ok_all P s a : gaction P a = true -> reg_ok P s a = true -> Forall (eff_ok P s) (a_effs a).
Proof.
  intros Hga Hok. unfold gaction in Hga. apply andb_true_iff in Hga. destruct Hga as [_ Hg]. unfold reg_ok in Hok.
  rewrite forallb_forall in Hg, Hok. apply Forall_forall. intros e He. split; [apply Hg, He|].
  specialize (Hok e He). apply andb_true_iff in Hok. destruct Hok as [H1 H2]. split; [exact H1|].
  intros Hb. rewrite Hb in H2. exact H2.
Qed.

(* one step of a ground action: a Boolean fluent takes the value of the effects on it that fire, if any *)
Lemma ground_step_fluent P s a ar t f vs :
  gaction P a = true -> reg_ok P s a = true -> spec_step false P s a ar = Some t -> is_bool_fluent P f = true ->
  t f vs = if existsb (fires P s f vs) (a_effs a)
           then Some (VBool (existsb (fun e => fires P s f vs e && holds false (mk_interp P s []) (e_val e)) (a_effs a)))
           else s f vs.
Proof.
  intros Hga Hok Hst Hf. destruct (spec_step_inv false P s a ar t Hst) as (_ & acts & Hfi & _ & -> & _).
  rewrite (gaction_params P a Hga) in Hfi.
  exact (succ_bool_fluent P s f vs Hf (a_effs a) acts (effs_ok_all P s a Hga Hok) Hfi).
Qed.

Section Regression.
  Variable P : problem.
  Variable s t : state.
  Variable a : action.
  Variable ar : list value.
  Let Is := mk_interp P s [].
  Let It := mk_interp P t [].
  Hypothesis Hga : gaction P a = true.
  Hypothesis Hok : reg_ok P s a = true.
  Hypothesis Hst : spec_step false P s a ar = Some t.


  Lemma regress_fluent f args sf : oargs args = true -> is_bool_fluent P f = true ->
    s f (vals_of args) = Some (VBool sf) ->
    exists b, B Is (gamma_subst f args (a_effs a)) b /\ B It (EFluent f args) b.
  Proof.
    intros Ha Hf Hs. pose proof (effs_ok_all P s a Hga Hok) as HF.
    assert (HD : Forall (eff_def Is) (a_effs a)) by (eapply Forall_impl; [|exact HF]; intros e [_ H]; exact H).
    pose proof (gamma_B Is f args true _ HD) as Gp. pose proof (gamma_B Is f args false _ HD) as Gn.
    remember (vals_of args) as vs eqn:Evs.
    assert (Hc : forall pos e, In e (a_effs a) ->
              contrib Is f args pos e = fires P s f vs e && Bool.eqb (holds false Is (e_val e)) pos).
    { intros pos e He. rewrite Forall_forall in HF. destruct (HF e He) as [Hg _].
      destruct (geffect_split P e Hg) as (_ & Ea & Eb & _).
      unfold contrib, fires, same_fluent. rewrite (oargs_eqb _ _ Ea Ha), <- Evs. fold Is.
      destruct ((e_fl e =? f)%N) eqn:Ef; [|rewrite !andb_false_r; reflexivity].
      apply N.eqb_eq in Ef. rewrite Eb, Ef, Hf. cbn [andb].
      destruct (holds false Is (e_cond e)), (values_eqb (vals_of (e_args e)) vs); reflexivity. }
    assert (Ep : existsb (contrib Is f args true) (a_effs a) =
                 existsb (fun e => fires P s f vs e && holds false Is (e_val e)) (a_effs a)).
    { apply existsb_ext_in. intros e He. rewrite (Hc true e He). destruct (holds false Is (e_val e)); reflexivity. }
    assert (En : existsb (contrib Is f args false) (a_effs a) =
                 existsb (fun e => fires P s f vs e && negb (holds false Is (e_val e))) (a_effs a)).
    { apply existsb_ext_in. intros e He. rewrite (Hc false e He). destruct (holds false Is (e_val e)); reflexivity. }
    rewrite Ep in Gp. rewrite En in Gn.
    assert (Bf : B Is (EFluent f args) sf).
    { unfold B. rewrite eval_EFluent, (evals_oargs false Is _ Ha), <- Evs. exact Hs. }
    set (gp := existsb (fun e => fires P s f vs e && holds false Is (e_val e)) (a_effs a)) in *.
    set (gn := existsb (fun e => fires P s f vs e && negb (holds false Is (e_val e))) (a_effs a)) in *.
    exists (gp || (sf && negb gn)). split.
    - exact (B_or2 _ _ _ _ _ Gp (B_and2 _ _ _ _ _ Bf (B_mkNot _ _ _ Gn))).
    - unfold B. rewrite eval_EFluent, (evals_oargs false It _ Ha), <- Evs. cbn [It mk_interp fl].
      rewrite (ground_step_fluent P s a ar t f vs Hga Hok Hst Hf). fold Is. fold gp.
      destruct (existsb (fires P s f vs) (a_effs a)) eqn:Efi.
      + destruct gp eqn:Egp; [reflexivity|].
        unfold gn. rewrite (existsb_andb_negb _ _ _ Efi Egp). rewrite andb_false_r. reflexivity.
      + pose proof (existsb_false_in _ _ Efi) as Hno.
        assert (gp = false /\ gn = false) as [-> ->]
          by (split; apply existsb_false; intros e He; rewrite (Hno e He); reflexivity).
        rewrite Hs. cbn. rewrite andb_true_r. reflexivity.
  Qed.

  Lemma Forall_ex_bs (B1 B2 : expr -> bool -> Prop) (g : expr -> expr) l :
    Forall (fun x => exists b, B1 (g x) b /\ B2 x b) l ->
    exists bs, Forall2 B1 (map g l) bs /\ Forall2 B2 l bs.
  Proof.
    induction 1 as [|x l [b [H1 H2]] _ [bs [IH1 IH2]]]; [exists []; split; constructor|].
    exists (b :: bs). split; constructor; assumption.
  Qed.

  Theorem regress_eval phi : gform phi = true -> gbool P phi = true -> gdef s phi = true ->
    exists b, B Is (regress (a_effs a) phi) b /\ B It phi b.
  Proof.
    induction phi using expr_ind'; intros Hg Hb Hd; try discriminate.
    - exists b. split; reflexivity.
    - cbn [gform gbool gdef] in *. destruct (s f (vals_of args)) as [[sf| |]|] eqn:Es; try discriminate.
      apply (regress_fluent f args sf); assumption.
    - cbn [gform gbool gdef regress] in *.
      assert (HF : Forall (fun x => exists b, B Is (regress (a_effs a) x) b /\ B It x b) l).
      { rewrite forallb_forall in Hg, Hb, Hd. rewrite Forall_forall in *. intros x Hx. apply H; auto. }
      destruct (Forall_ex_bs _ _ _ _ HF) as [bs [F1 F2]].
      exists (forallb (fun b => b) bs). split; [apply B_mkAnd, F1 | apply B_EAnd, F2].
    - cbn [gform gbool gdef regress] in *.
      assert (HF : Forall (fun x => exists b, B Is (regress (a_effs a) x) b /\ B It x b) l).
      { rewrite forallb_forall in Hg, Hb, Hd. rewrite Forall_forall in *. intros x Hx. apply H; auto. }
      destruct (Forall_ex_bs _ _ _ _ HF) as [bs [F1 F2]].
      exists (existsb (fun b => b) bs). split; [apply B_mkOr, F1 | apply B_EOr, F2].
    - cbn [gform gbool gdef regress] in *. destruct (IHphi Hg Hb Hd) as [b [H1 H2]].
      exists (negb b). split; [apply B_mkNot, H1 | apply B_ENot, H2].
  Qed.
End Regression.

Theorem regression_step P s a args t phi :
  gaction P a = true -> reg_ok P s a = true -> spec_step false P s a args = Some t ->
  gform phi = true -> gbool P phi = true -> gdef s phi = true ->
  eval false (regress (a_effs a) phi) (mk_interp P s []) = eval false phi (mk_interp P t []) /\
  holds false (mk_interp P s []) (regress (a_effs a) phi) = holds false (mk_interp P t []) phi /\
  isB (mk_interp P t []) phi = true.
Proof.
  intros Hga Hok Hst Hg Hb Hd.
  destruct (regress_eval P s t a args Hga Hok Hst phi Hg Hb Hd) as [b [H1 H2]].
  unfold B in H1, H2. split; [rewrite H1, H2; reflexivity|]. split.
  - unfold holds. rewrite H1, H2. reflexivity.
  - unfold isB. rewrite H2. reflexivity.
Qed.

Lemma mentions_kid c l x e : fluent_exps c = flat_map fluent_exps l -> In x l ->
  mentions c e = false -> mentions x e = false.
Proof.
  intros E Hx H. apply existsb_false. intros fa Hfa. apply (existsb_false_in _ _ H fa).
  rewrite E. apply in_flat_map. exists x. split; assumption.
Qed.

Lemma untouched_eval P s a ar t phi :
  gaction P a = true -> reg_ok P s a = true -> spec_step false P s a ar = Some t ->
  gform phi = true -> gbool P phi = true -> (forall e, In e (a_effs a) -> mentions phi e = false) ->
  eval false phi (mk_interp P t []) = eval false phi (mk_interp P s []).
Proof.
  intros Hga Hok Hst. pose proof (fun f vs => ground_step_fluent P s a ar t f vs Hga Hok Hst) as Ht.
  induction phi using expr_ind'; intros Hg Hb Hm; try discriminate.
  - reflexivity.
  - cbn [gform gbool] in Hg, Hb. rewrite !eval_EFluent, !(evals_oargs false _ _ Hg). cbn [mk_interp fl].
    rewrite (Ht f _ Hb), existsb_false; [reflexivity|].
    intros e He. specialize (Hm e He). unfold mentions in Hm. cbn [fluent_exps existsb fst snd] in Hm.
    apply orb_false_iff in Hm. destruct Hm as [Hm _].
    pose proof (effs_ok_all P s a Hga Hok) as HF. rewrite Forall_forall in HF. destruct (HF e He) as [Hge _].
    destruct (geffect_split P e Hge) as (_ & Ea & _). unfold fires.
    rewrite (oargs_eqb _ _ Hg Ea), N.eqb_sym in Hm.
    destruct ((e_fl e =? f)%N); [|rewrite andb_false_r; reflexivity]. cbn [andb] in Hm.
    destruct (values_eqb (vals_of (e_args e)) (vals_of args)) eqn:Ev; [|rewrite andb_false_r; reflexivity].
    apply values_eqb_eq in Ev. rewrite Ev, values_eqb_refl in Hm. discriminate.
  - cbn [gform gbool] in Hg, Hb. rewrite !eval_EAnd, (ebools_ext false (mk_interp P t []) (mk_interp P s []) l); [reflexivity|].
    rewrite forallb_forall in Hg, Hb. rewrite Forall_forall in *. intros x Hx. apply (H x Hx (Hg x Hx) (Hb x Hx)).
    intros e He. exact (mentions_kid (EAnd l) l x e eq_refl Hx (Hm e He)).
  - cbn [gform gbool] in Hg, Hb. rewrite !eval_EOr, (ebools_ext false (mk_interp P t []) (mk_interp P s []) l); [reflexivity|].
    rewrite forallb_forall in Hg, Hb. rewrite Forall_forall in *. intros x Hx. apply (H x Hx (Hg x Hx) (Hb x Hx)).
    intros e He. exact (mentions_kid (EOr l) l x e eq_refl Hx (Hm e He)).
  - rewrite !eval_ENot, (IHphi Hg Hb Hm). reflexivity.
Qed.

Lemma gdef_step P s a ar t x :
  gaction P a = true -> reg_ok P s a = true -> spec_step false P s a ar = Some t ->
  gform x = true -> gbool P x = true -> gdef s x = true -> gdef t x = true.
Proof.
  intros Hga Hok Hst. pose proof (fun f vs => ground_step_fluent P s a ar t f vs Hga Hok Hst) as Ht.
  induction x using expr_ind'; intros Hg Hb Hd; try reflexivity; cbn [gform gbool gdef] in *.
  - rewrite (Ht f _ Hb).
    destruct (existsb (fires P s f (vals_of args)) (a_effs a)); [reflexivity | exact Hd].
  - rewrite forallb_forall in *. rewrite Forall_forall in H. intros y Hy. exact (H y Hy (Hg y Hy) (Hb y Hy) (Hd y Hy)).
  - rewrite forallb_forall in *. rewrite Forall_forall in H. intros y Hy. exact (H y Hy (Hg y Hy) (Hb y Hy) (Hd y Hy)).
  - exact (IHx Hg Hb Hd).
Qed.

Definition const_effect (e : effect) : bool :=
  match bconst (e_cond e), bconst (e_val e) with Some _, Some _ => true | _, _ => false end.

Lemma reg_ok_const P : forallb (fun ia => forallb const_effect (a_effs (snd ia))) (p_actions P) = true ->
  forall s aid a, lookup_action P aid = Some a -> reg_ok P s a = true.
Proof.
  intros H s aid a Hlk. apply lookupN_In in Hlk. rewrite forallb_forall in H. specialize (H _ Hlk). cbn [snd] in H.
  unfold reg_ok. apply forallb_forall. intros e He. rewrite forallb_forall in H. specialize (H e He).
  unfold const_effect in H. destruct (e_cond e); try discriminate. destruct (e_val e); try discriminate.
  cbn. apply orb_true_r.
Qed.


Lemma gdef_B P s phi : gform phi = true -> gdef s phi = true -> exists b, B (mk_interp P s []) phi b.
Proof.
  induction phi using expr_ind'; intros Hg Hd; try discriminate.
  - exists b. reflexivity.
  - cbn [gform gdef] in *. destruct (s f (vals_of args)) as [[sf| |]|] eqn:Es; try discriminate. exists sf.
    unfold B. rewrite eval_EFluent, (evals_oargs false _ _ Hg). exact Es.
  - cbn [gform gdef] in *. rewrite forallb_forall in Hg, Hd. rewrite Forall_forall in H.
    destruct (Forall2_ex (B (mk_interp P s [])) l) as [bs Bs]; [|eexists; apply B_EAnd, Bs].
    apply Forall_forall. intros x Hx. exact (H x Hx (Hg x Hx) (Hd x Hx)).
  - cbn [gform gdef] in *. rewrite forallb_forall in Hg, Hd. rewrite Forall_forall in H.
    destruct (Forall2_ex (B (mk_interp P s [])) l) as [bs Bs]; [|eexists; apply B_EOr, Bs].
    apply Forall_forall. intros x Hx. exact (H x Hx (Hg x Hx) (Hd x Hx)).
  - cbn [gform gdef] in *. destruct (IHphi Hg Hd) as [b Bx]. eexists. apply B_ENot, Bx.
Qed.

Lemma all_hold_add_pre I acc p : all_hold false I (add_pre acc p) = all_hold false I acc && holds false I p.
Proof. rewrite <- (andb_true_r (holds false I p)). exact (all_hold_fold_add_pre false I [p] acc). Qed.

Lemma dedup_acc_in x : forall l acc, In x (dedup_acc acc l) <-> In x acc \/ In x l.
Proof.
  induction l as [|y l IH]; intros acc; cbn [dedup_acc]; [cbn [In]; tauto|].
  destruct (existsb (expr_eqb y) acc) eqn:E; rewrite IH.
  - apply existsb_exists in E. destruct E as [z [Hz Ez]]. apply expr_eqb_eq in Ez. subst z.
    cbn [In]. split; [tauto|]. intros [H|[H|H]]; auto. subst. auto.
  - rewrite in_app_iff. cbn [In]. tauto.
Qed.

Lemma all_hold_has_false I l : existsb is_false l = true -> all_hold false I l = false.
Proof.
  intros H. apply existsb_exists in H. destruct H as [x [Hx Fx]]. destruct (all_hold false I l) eqn:E; [|reflexivity].
  pose proof (all_hold_In false I l x E Hx) as Hh. destruct x; try discriminate. destruct b; discriminate.
Qed.

(* the goal the compiler rebuilds: simplify(And(goals, x)), added with add_goal *)
Lemma all_hold_goal_and smp I gs x : smp_exact smp ->
  all_hold false I (add_goals [smp (mkAnd (gs ++ [x]))]) = all_hold false I gs && holds false I x.
Proof.
  intros Hsmp.
  assert (E : holds false I (smp (mkAnd (gs ++ [x]))) = all_hold false I gs && holds false I x).
  { unfold holds at 1. rewrite Hsmp. fold (holds false I (mkAnd (gs ++ [x]))).
    rewrite holds_mkAnd. unfold all_hold. rewrite forallb_app. cbn [forallb]. rewrite andb_true_r. reflexivity. }
  unfold add_goals. cbn [filter]. destruct (is_true (smp (mkAnd (gs ++ [x])))) eqn:Et; cbn [negb].
  - rewrite <- E, (holds_of_is_true false _ _ Et). reflexivity.
  - unfold all_hold at 1. cbn [forallb]. rewrite andb_true_r. exact E.
Qed.

Lemma spec_step_guard P P' s a a' args (X : bool) :
  p_objs P' = p_objs P -> p_ifun P' = p_ifun P -> p_fluents P' = p_fluents P -> p_invs P' = p_invs P ->
  a_params a' = a_params a -> a_effs a' = a_effs a ->
  all_hold false (mk_interp P s (zip_params (a_params a) args)) (a_pre a') =
    all_hold false (mk_interp P s (zip_params (a_params a) args)) (a_pre a) && X ->
  spec_step false P' s a' args = if X then spec_step false P s a args else None.
Proof.
  intros Ho Hi Hf Hv Hp He Hpre. destruct X.
  - apply spec_step_cong; auto; [rewrite Hpre; apply andb_true_r | rewrite He; reflexivity|].
    intros acts _. apply (invariants_ok_same P P' Ho Hi Hf Hv).
  - rewrite spec_step_eq, Hp, (mk_interp_same P P' Ho Hi), Hpre, andb_false_r. reflexivity.
Qed.

Section AlwaysPlan.
  Variable smp sub0 : expr -> expr.
  Variable mon : nat -> N.
  Variable C : list expr.
  Variable P : problem.
  Variable G : state -> Prop.

  Hypothesis Hsmp : smp_exact smp.
  Hypothesis Huniq : unique_ids P.
  Hypothesis Hgp : gproblem P = true.
  Hypothesis HC : always_only P C = true.
  (* G: a set of states closed under the steps of the original problem on which the regression lemma applies *)
  Hypothesis Gstep : forall s aid a args t, G s -> lookup_action P aid = Some a -> spec_step false P s a args = Some t -> G t.
  Hypothesis Greg : forall s aid a, G s -> lookup_action P aid = Some a -> reg_ok P s a = true.
  Hypothesis Gdef : forall s phi, G s -> In (EAlways phi) C -> gdef s phi = true.

  Lemma C_always c : In c C -> exists phi, c = EAlways phi /\ gform phi = true /\ gbool P phi = true.
  Proof.
    intros Hc. unfold always_only in HC. rewrite forallb_forall in HC. specialize (HC c Hc).
    destruct c; try discriminate. apply andb_true_iff in HC. eauto.
  Qed.

  Lemma atoms_none : forall k cs, (forall c, In c cs -> is_always c = true) -> atoms_from k cs = [].
  Proof.
    intros k cs. revert k. induction cs as [|c r IH]; intros k H; [reflexivity|]. cbn [atoms_from].
    rewrite (H c (or_introl eq_refl)). apply IH. intros c' Hc'. apply H. right; exact Hc'.
  Qed.

  Lemma C_atoms : atoms_from 0 C = [].
  Proof. apply atoms_none. intros c Hc. destruct (C_always c Hc) as [phi [-> _]]. reflexivity. Qed.

  Definition added (a : action) (cs : list expr) : list expr :=
    flat_map (fun c => match c with
                       | EAlways phi => if expr_eqb (R smp a phi) phi then [] else [R smp a phi]
                       | _ => []
                       end) cs.

  Lemma handle_all_always a : forall cs pres, (forall c, In c cs -> In c C) ->
    handle_all smp mon C a cs pres [] = (fold_left add_pre (added a cs) pres, []).
  Proof.
    induction cs as [|c r IH]; intros pres H; [reflexivity|]. cbn [handle_all].
    destruct (C_always c (H c (or_introl eq_refl))) as [phi [-> _]]. cbn [handle h_always].
    unfold h_always. cbn [added flat_map].
    assert (Hr : forall c', In c' r -> In c' C) by (intros c' Hc'; apply H; right; exact Hc').
    destruct (expr_eqb (R smp a phi) phi); cbn [app fold_left]; apply IH, Hr.
  Qed.

  Lemma relevant_in a c : In c (relevant_cs C a) <-> In c C /\ exists e, In e (a_effs a) /\ mentions c e = true.
  Proof.
    unfold relevant_cs. rewrite dedup_acc_in, in_flat_map. cbn [In]. split.
    - intros [[]|[e [He Hc]]]. apply filter_In in Hc. destruct Hc as [Hc Hm]. split; [exact Hc | exists e; auto].
    - intros [Hc [e [He Hm]]]. right. exists e. split; [exact He | apply filter_In; auto].
  Qed.

  Section Step.
    Variables (s t : state) (aid : N) (a : action) (args : list value).
    Hypothesis Gs : G s.
    Hypothesis Hlk : lookup_action P aid = Some a.
    Hypothesis Hst : spec_step false P s a args = Some t.
    Hypothesis Hs : AH P C s = true.

    Lemma R_holds_after phi : In (EAlways phi) C ->
      holds false (mk_interp P s []) (R smp a phi) = holds false (mk_interp P t []) phi.
    Proof.
      intros Hc. destruct (C_always _ Hc) as [phi' [E [Hg Hb]]]. inversion E; subst phi'.
      destruct (regression_step P s a args t phi (a_ground P Hgp aid a Hlk) (Greg s aid a Gs Hlk) Hst Hg Hb (Gdef s phi Gs Hc)) as (_ & H & _).
      unfold R, holds. rewrite Hsmp. exact H.
    Qed.

    Lemma untouched_holds phi : In (EAlways phi) C -> (forall e, In e (a_effs a) -> mentions (EAlways phi) e = false) ->
      holds false (mk_interp P t []) phi = holds false (mk_interp P s []) phi.
    Proof.
      intros Hc Hm. destruct (C_always _ Hc) as [phi' [E [Hg Hb]]]. inversion E; subst phi'. unfold holds.
      rewrite (untouched_eval P s a args t phi (a_ground P Hgp aid a Hlk) (Greg s aid a Gs Hlk) Hst Hg Hb Hm). reflexivity.
    Qed.

    Lemma added_iff_AH :
      forallb (holds false (mk_interp P s [])) (added a (relevant_cs C a)) = AH P C t.
    Proof.
      apply eq_true_iff_eq. unfold AH. rewrite !forallb_forall. split.
      - intros H c Hc. destruct (C_always c Hc) as [phi [-> _]].
        destruct (existsb (fun e => mentions (EAlways phi) e) (a_effs a)) eqn:Em.
        + apply existsb_exists in Em. destruct Em as [e [He Hm]].
          assert (Hrel : In (EAlways phi) (relevant_cs C a)) by (apply relevant_in; split; [exact Hc | exists e; auto]).
          rewrite <- (R_holds_after phi Hc). destruct (expr_eqb (R smp a phi) phi) eqn:Er.
          * apply expr_eqb_eq in Er. rewrite Er. unfold AH in Hs. rewrite forallb_forall in Hs. apply (Hs _ Hc).
          * apply H. unfold added. apply in_flat_map. exists (EAlways phi). split; [exact Hrel|]. rewrite Er. left; reflexivity.
        + rewrite (untouched_holds phi Hc).
          * unfold AH in Hs. rewrite forallb_forall in Hs. apply (Hs _ Hc).
          * intros e He. destruct (mentions (EAlways phi) e) eqn:Em'; [|reflexivity].
            assert (X : existsb (fun e => mentions (EAlways phi) e) (a_effs a) = true) by (apply existsb_exists; exists e; auto).
            congruence.
      - intros H x Hx. unfold added in Hx. apply in_flat_map in Hx. destruct Hx as [c [Hc Hx]].
        apply relevant_in in Hc. destruct Hc as [Hc _]. destruct (C_always c Hc) as [phi [-> _]].
        destruct (expr_eqb (R smp a phi) phi); [destruct Hx|]. destruct Hx as [<-|[]].
        rewrite (R_holds_after phi Hc). apply (H _ Hc).
    Qed.
  End Step.

  Variable P' : problem.
  Hypothesis Hcomp : tcr_compile smp sub0 mon C P = Some P'.

  Lemma P'_eq : p_objs P' = p_objs P /\ p_ifun P' = p_ifun P /\ p_fluents P' = p_fluents P /\ p_invs P' = p_invs P /\
    p_actions P' = map_actions (tcr_action smp mon C) (p_actions P) /\
    p_goals P' = add_goals [smp (mkAnd (p_goals P ++ [EBool true]))].
  Proof.
    unfold tcr_compile in Hcomp. destruct (existsb (refused smp sub0) C); [discriminate|]. inversion Hcomp; subst P'. cbn.
    unfold mon_fluents, n_atoms, landmark_goal. rewrite C_atoms. cbn [length seq map]. rewrite app_nil_r.
    assert (E : filter is_landmark C = []).
    { clear -HC. unfold always_only in HC. induction C as [|c r IH]; [reflexivity|]. cbn [forallb] in HC. apply andb_true_iff in HC.
      destruct HC as [H1 H2]. cbn [filter]. destruct c; try discriminate. cbn [is_landmark]. apply IH, H2. }
    rewrite E. repeat split; reflexivity.
  Qed.

  Lemma goals_always s : goals_hold false P' s = goals_hold false P s.
  Proof.
    destruct P'_eq as (Ho & Hi & _ & _ & _ & Hg). unfold goals_hold.
    rewrite (mk_interp_same P P' Ho Hi), Hg, (all_hold_goal_and smp _ _ _ Hsmp). apply andb_true_r.
  Qed.

  Lemma step_compiled s aid a args : G s -> AH P C s = true -> lookup_action P aid = Some a ->
    match lookup_action P' aid with
    | Some a' => spec_step false P' s a' args
    | None => None
    end =
    match spec_step false P s a args with Some t => if AH P C t then Some t else None | None => None end.
  Proof.
    intros Gs Hs Hlk. destruct P'_eq as (Ho & Hi & Hf & Hv & Ha & _).
    unfold lookup_action in *. rewrite Ha, (lookup_map_actions _ _ _ Huniq), Hlk.
    unfold tcr_action.
    rewrite (handle_all_always a (relevant_cs C a) (a_pre a)) by (intros c Hc; apply relevant_in in Hc; tauto).
    set (pres := fold_left add_pre (added a (relevant_cs C a)) (a_pre a)).
    set (I := mk_interp P s (zip_params (a_params a) args)).
    assert (EI : I = mk_interp P s []) by (unfold I; rewrite (a_params_nil P Hgp aid a Hlk); reflexivity).
    set (X := forallb (holds false I) (added a (relevant_cs C a))).
    assert (Hpre : all_hold false I pres = all_hold false I (a_pre a) && X) by apply all_hold_fold_add_pre.
    set (a' := {| a_params := a_params a; a_pre := pres; a_effs := a_effs a ++ [] |}).
    pose proof (spec_step_guard P P' s a a' args X Ho Hi Hf Hv eq_refl (app_nil_r _) Hpre) as Hst.
    destruct (spec_step false P s a args) as [t|] eqn:Est.
    - (* the added preconditions hold before the step iff the always bodies hold after it *)
      rewrite <- (added_iff_AH s t aid a args Gs Hlk Est Hs), <- EI. fold X.
      destruct (existsb is_false pres) eqn:Ef; [|exact Hst].
      pose proof (all_hold_has_false I pres Ef) as Hn. rewrite Hpre in Hn. rewrite spec_step_eq in Est. fold I in Est.
      destruct (all_hold false I (a_pre a)); [|discriminate]. cbn [andb] in Hn. rewrite Hn. reflexivity.
    - destruct (existsb is_false pres); [reflexivity|]. rewrite Hst. destruct X; reflexivity.
  Qed.

  Lemma lookup_none aid : lookup_action P aid = None -> lookup_action P' aid = None.
  Proof.
    intros H. destruct P'_eq as (_ & _ & _ & _ & Ha & _). unfold lookup_action in *.
    rewrite Ha, (lookup_map_actions _ _ _ Huniq), H. reflexivity.
  Qed.

  Lemma run_compiled pi : forall s, G s -> AH P C s = true ->
    run P' (spec_step false P') s pi = run_ah P C s pi.
  Proof.
    induction pi as [|[aid args] r IH]; intros s Gs Hs; [reflexivity|]. cbn [run run_ah].
    destruct (lookup_action P aid) as [a|] eqn:Hlk; [|rewrite (lookup_none aid Hlk); reflexivity].
    pose proof (step_compiled s aid a args Gs Hs Hlk) as E.
    destruct (spec_step false P s a args) as [t|] eqn:Est.
    - destruct (AH P C t) eqn:EA.
      + destruct (lookup_action P' aid) as [a'|]; [|discriminate]. rewrite E. apply IH; [eapply Gstep; eauto | exact EA].
      + destruct (lookup_action P' aid) as [a'|]; [rewrite E|]; reflexivity.
    - destruct (lookup_action P' aid) as [a'|]; [rewrite E|]; reflexivity.
  Qed.

  Theorem tcr_always_plan s0 pi : G s0 -> AH P C s0 = true ->
    valid_plan false P' s0 pi = always_valid P C s0 pi.
  Proof.
    intros G0 H0. unfold valid_plan, always_valid. rewrite (run_compiled pi s0 G0 H0).
    destruct (run_ah P C s0 pi) as [t|]; [apply goals_always | reflexivity].
  Qed.
End AlwaysPlan.

Lemma dedup_single c : forall l, (forall x, In x l -> x = c) ->
  dedup_acc [c] l = [c] /\ (dedup_acc [] l = [] \/ dedup_acc [] l = [c]).
Proof.
  induction l as [|x l IH]; intros H; [split; [reflexivity | left; reflexivity]|].
  assert (Hx : x = c) by (apply H; left; reflexivity). subst x.
  destruct (IH (fun y Hy => H y (or_intror Hy))) as [IH1 _].
  cbn [dedup_acc existsb]. rewrite expr_eqb_refl. cbn [orb app]. split; [exact IH1 | right; exact IH1].
Qed.

Lemma fresh_parts smp fk P x : tcr_fresh1 smp fk P x = true ->
  (forall aid a, lookup_action P aid = Some a -> action_cleanf fk a = true /\ cleanf fk (R smp a x) = true) /\
  forallb (cleanf fk) (p_invs P ++ bound_invs P) = true /\ forallb (cleanf fk) (p_goals P) = true /\ cleanf fk x = true.
Proof.
  intros Hfr. unfold tcr_fresh1 in Hfr. apply andb_true_iff in Hfr. destruct Hfr as [H H4].
  apply andb_true_iff in H. destruct H as [H H3]. apply andb_true_iff in H. destruct H as [H1 H2].
  split; [|auto]. intros aid a Hl. apply lookupN_In in Hl. rewrite forallb_forall in H1.
  apply andb_true_iff. exact (H1 (aid, a) Hl).
Qed.

Definition mon_effs (fk : N) (cbs : list (expr * bool)) : list effect := map (fun cb => meff fk (snd cb) (fst cb)) cbs.

Definition fire_of (v : option value) : option bool :=
  match v with Some (VBool true) => Some true | Some _ => Some false | None => None end.

Fixpoint fired_bits (I' : interp) (cbs : list (expr * bool)) : option (list bool) :=
  match cbs with
  | [] => Some []
  | (cnd, b) :: r =>
      match fire_of (eval false cnd I'), fired_bits I' r with
      | Some true, Some l => Some (b :: l)
      | Some false, Some l => Some l
      | _, _ => None
      end
  end.

Lemma eres_meff_cons fk I' cnd b E :
  eres_list false I' (meff fk b cnd :: E) =
  (match eval false cnd I' with Some (VBool true) => EAct (xact fk b) | Some _ => ESkip | None => EErr end)
  :: eres_list false I' E.
Proof.
  unfold eres_list. cbn [flat_map]. unfold meff. cbn [e_vars instances map app]. unfold eval_effect.
  cbn [e_args e_cond e_val e_fl e_kind evals_l]. destruct (eval false cnd I') as [[[|]| |]|]; reflexivity.
Qed.

Lemma fired_mon_effs fk I' effs cbs :
  fired false I' (effs ++ mon_effs fk cbs) =
  match collect_res (eres_list false I' effs), fired_bits I' cbs with
  | Some acts, Some l => Some (acts ++ xacts fk l)
  | _, _ => None
  end.
Proof.
  assert (E : collect_res (eres_list false I' (mon_effs fk cbs)) = option_map (xacts fk) (fired_bits I' cbs)).
  { induction cbs as [|[cnd b] r IH]; [reflexivity|]. cbn [mon_effs map fst snd fired_bits]. fold (mon_effs fk r).
    rewrite eres_meff_cons.
    destruct (eval false cnd I') as [[[|]| |]|]; cbn [collect_res fire_of]; rewrite ?IH; destruct (fired_bits I' r); reflexivity. }
  unfold fired. rewrite flat_map_app, collect_res_app. fold (eres_list false I' effs). fold (eres_list false I' (mon_effs fk cbs)).
  rewrite E. destruct (collect_res (eres_list false I' effs)); [|reflexivity]. destruct (fired_bits I' cbs); reflexivity.
Qed.

Lemma fired_bits_app I' l1 l2 :
  fired_bits I' (l1 ++ l2) = match fired_bits I' l1, fired_bits I' l2 with Some a, Some b => Some (a ++ b) | _, _ => None end.
Proof.
  induction l1 as [|[c0 b0] r IH]; cbn [app fired_bits]; [destruct (fired_bits I' l2); reflexivity|]. rewrite IH.
  destruct (fire_of (eval false c0 I')) as [[|]|], (fired_bits I' r), (fired_bits I' l2); reflexivity.
Qed.

Lemma fired_bits_one I' cnd v b : B I' cnd b -> fired_bits I' [(cnd, v)] = Some (if b then [v] else []).
Proof. intros H. unfold B in H. cbn [fired_bits]. rewrite H. destruct b; reflexivity. Qed.

(* _add_cond_eff on a list of such effects; an effect whose condition simplifies to FALSE is left out: it would not fire *)
Definition add_cond (smp : expr -> expr) (cbs : list (expr * bool)) (cnd : expr) (v : bool) : list (expr * bool) :=
  if is_false (smp cnd) then cbs else cbs ++ [(cnd, v)].

Lemma add_cond_eff_mon_effs smp fk cbs cnd v : add_cond_eff smp (mon_effs fk cbs) cnd fk v = mon_effs fk (add_cond smp cbs cnd v).
Proof. unfold add_cond_eff, add_cond. destruct (is_false (smp cnd)); [reflexivity|]. unfold mon_effs. rewrite map_app. reflexivity. Qed.

Lemma fired_bits_add_cond smp I' cbs cnd v b : smp_exact smp -> B I' cnd b ->
  fired_bits I' (add_cond smp cbs cnd v) = option_map (fun l => l ++ (if b then [v] else [])) (fired_bits I' cbs).
Proof.
  intros Hsmp H. unfold add_cond. destruct (is_false (smp cnd)) eqn:E.
  - apply is_false_eq in E. unfold B in H. rewrite <- (Hsmp cnd), E in H. inversion H; subst b.
    destruct (fired_bits I' cbs); cbn [option_map]; [rewrite app_nil_r|]; reflexivity.
  - rewrite fired_bits_app, (fired_bits_one I' cnd v b H). destruct (fired_bits I' cbs); reflexivity.
Qed.

Definition psat (P : problem) (s : state) (e : expr) : bool := holds false (mk_interp P s []) e.

Fixpoint gchk (P : problem) (c : expr) (m : bool) (s : state) (pi : list (N * list value)) : bool :=
  match pi with
  | [] => true
  | (aid, args) :: r =>
      match lookup_action P aid with
      | Some a => match spec_step false P s a args with
                  | Some t => chk (psat P) c m s t && gchk P c (upd (psat P) c m t) t r
                  | None => true
                  end
      | None => true
      end
  end.

Fixpoint gbit (P : problem) (c : expr) (m : bool) (s : state) (pi : list (N * list value)) : bool :=
  match pi with
  | [] => m
  | (aid, args) :: r =>
      match lookup_action P aid with
      | Some a => match spec_step false P s a args with Some t => gbit P c (upd (psat P) c m t) t r | None => m end
      | None => m
      end
  end.

Definition tcr_op (c : expr) : bool :=
  match c with ESometime _ | EAtMostOnce _ | ESometimeBefore _ _ | ESometimeAfter _ _ => true | _ => false end.
Definition forms (c : expr) : list expr :=
  match c with ESometime x | EAtMostOnce x => [x] | ESometimeBefore x y | ESometimeAfter x y => [x; y] | _ => [] end.

(* what the atom m knows about the current state s, beyond its definition: the effects and preconditions the compiler
   leaves out for an action that does not change a formula are the ones that would change nothing *)
Definition minv (P : problem) (c : expr) (m : bool) (s : state) : bool :=
  match c with
  | ESometime x | EAtMostOnce x => implb (psat P s x) m
  | ESometimeBefore x y => implb (psat P s y) m && implb (psat P s x) m
  | ESometimeAfter x y => implb (psat P s y) m && implb (negb (psat P s y) && psat P s x) (negb m)
  | _ => true
  end.

Lemma minv_init P c s : safe0 (psat P) c s = true -> minv P c (mbit0 (psat P) c s) s = true.
Proof.
  destruct c; try reflexivity; cbn [minv safe0 mbit0].
  - destruct (psat P s c); reflexivity.
  - destruct (psat P s c1), (psat P s c2); intros H; try reflexivity; discriminate H.
  - destruct (psat P s c1), (psat P s c2); reflexivity.
  - destruct (psat P s c); reflexivity.
Qed.

Lemma minv_step P c m s t : minv P c m s = true -> chk (psat P) c m s t = true ->
  minv P c (upd (psat P) c m t) t = true.
Proof.
  destruct c; try reflexivity; cbn [minv chk upd]; intros _.
  - intros _. destruct m, (psat P t c); reflexivity.
  - destruct m, (psat P t c1), (psat P t c2); intros H; try reflexivity; discriminate H.
  - intros _. destruct m, (psat P t c1), (psat P t c2); reflexivity.
  - intros _. destruct m, (psat P t c); reflexivity.
Qed.

Lemma atom_idx_single c : tcr_op c = true -> atom_idx [c] c = 0.
Proof.
  intros H. unfold atom_idx. destruct c; try discriminate H; cbn [atoms_from is_always rev app find fst snd];
    rewrite expr_eqb_refl; reflexivity.
Qed.

Lemma relevant_single c a : relevant_cs [c] a = if existsb (mentions c) (a_effs a) then [c] else [].
Proof.
  unfold relevant_cs. induction (a_effs a) as [|e r IH]; [reflexivity|]. cbn [flat_map filter existsb].
  destruct (mentions c e); cbn [app orb]; [|exact IH].
  cbn [dedup_acc existsb app].
  destruct (dedup_single c (flat_map (fun e0 => filter (fun c0 => mentions c0 e0) [c]) r)) as [E _]; [|exact E].
  intros x Hx. apply in_flat_map in Hx. destruct Hx as [e0 [_ Hx]]. apply filter_In in Hx. destruct Hx as [[<-|[]] _]. reflexivity.
Qed.

Definition handle_single (smp : expr -> expr) (mon : nat -> N) (c : expr) (a : action) : option expr * list effect :=
  if existsb (mentions c) (a_effs a) then handle smp mon [c] a c [] else (None, []).

Lemma tcr_action_single smp mon c a :
  tcr_action smp mon [c] a =
  let pres := match fst (handle_single smp mon c a) with Some x => add_pre (a_pre a) x | None => a_pre a end in
  if existsb is_false pres then None
  else Some {| a_params := a_params a; a_pre := pres; a_effs := a_effs a ++ snd (handle_single smp mon c a) |}.
Proof.
  unfold tcr_action, handle_single. rewrite relevant_single. destruct (existsb (mentions c) (a_effs a)); cbn [handle_all]; [|reflexivity].
  destruct (handle smp mon [c] a c []) as [p E]. reflexivity.
Qed.

Lemma forms_nonempty c : tcr_op c = true -> exists x, In x (forms c).
Proof. destruct c; try discriminate; intros _; eexists; left; reflexivity. Qed.

Lemma mentions_form c x e : In x (forms c) -> mentions c e = false -> mentions x e = false.
Proof.
  unfold mentions. intros Hx H. destruct c; cbn [forms] in Hx; try contradiction; cbn [fluent_exps] in H;
    try (rewrite existsb_app in H; apply orb_false_iff in H; destruct H as [H1 H2]);
    repeat (destruct Hx as [<-|Hx]; [assumption|]); contradiction.
Qed.

(* the assignments `if b1 then fk := false` and `if b2 then fk := true` (never both), each left out ([f] = false) only
   where it would write the value the atom has: the atom gets the value it gets from both *)
Lemma newm_reset_set m (f1 f2 b1 b2 : bool) :
  b1 && b2 = false -> (f1 = false -> implb b1 (negb m) = true) -> (f2 = false -> implb b2 m = true) ->
  newm (Some (VBool m)) ((if f1 && b1 then [false] else []) ++ (if f2 && b2 then [true] else [])) =
  Some (VBool (if b2 then true else if b1 then false else m)).
Proof.
  intros D A1 A2. destruct f1, f2, b1, b2, m; try reflexivity; try discriminate D;
    try discriminate (A1 eq_refl); discriminate (A2 eq_refl).
Qed.

Section HandleSem.
  Variable smp : expr -> expr.
  Variable mon : nat -> N.
  Hypothesis Hsmp : smp_exact smp.
  Variable P : problem.
  Variable s : state.
  Variable I' : interp.
  Variable a : action.
  Variable m : bool.
  Notation fk := (mon 0).
  Hypothesis Hm : B I' (EFluent fk []) m.

  (* for every formula x of the constraint: the regression of x has in I' the value x has after the step, x itself the
     value it has before; an action that does not touch the constraint, or whose regression of x is x, keeps the value *)
  Definition form_vals (c : expr) (t : state) : Prop := forall x, In x (forms c) ->
    B I' (R smp a x) (psat P t x) /\ B I' x (psat P s x) /\
    (existsb (mentions c) (a_effs a) && negb (expr_eqb (R smp a x) x) = false -> psat P t x = psat P s x).

  Lemma opt_eff_bits (flag : bool) cnd v b : B I' cnd b ->
    fired_bits I' (if flag then add_cond smp [] cnd v else []) = Some (if flag && b then [v] else []).
  Proof. intros Bc. destruct flag; [exact (fired_bits_add_cond smp I' [] cnd v b Hsmp Bc) | reflexivity]. Qed.

  (* the effect `if cnd then fk := true`, added when [flag]: the atom becomes m || b, provided the effect is left out only
     where b implies m *)
  Lemma set_true_sem (flag : bool) cnd b : B I' cnd b -> (flag = false -> implb b m = true) ->
    exists l, fired_bits I' (if flag then add_cond smp [] cnd true else []) = Some l /\
              newm (Some (VBool m)) l = Some (VBool (m || b)).
  Proof.
    intros Bc K. eexists. split; [exact (opt_eff_bits flag cnd true b Bc)|].
    destruct flag, b, m; try reflexivity; discriminate (K eq_refl).
  Qed.

  Lemma handle_sem c : tcr_op c = true ->
    exists cbs, snd (handle_single smp mon c a) = mon_effs fk cbs /\
      forall t, form_vals c t -> minv P c m s = true ->
        match fst (handle_single smp mon c a) with Some x => holds false I' x | None => true end = chk (psat P) c m s t /\
        exists l, fired_bits I' cbs = Some l /\ newm (Some (VBool m)) l = Some (VBool (upd (psat P) c m t)).
  Proof.
    intros Hop. unfold handle_single. destruct c; try discriminate Hop; cbn [handle]; rewrite atom_idx_single by reflexivity.
    - unfold h_sometime, form_vals. cbn [forms chk upd minv].
      remember (existsb (mentions (ESometime c)) (a_effs a)) as rel eqn:Hrel.
      remember (expr_eqb (R smp a c) c) as e eqn:He.
      exists (if rel && negb e then add_cond smp [] (R smp a c) true else []). split.
      { destruct rel, e; cbn [fst snd andb negb]; try reflexivity.
        change (@nil effect) with (mon_effs fk []). apply add_cond_eff_mon_effs. }
      intros t HF Hinv. destruct (HF c (or_introl eq_refl)) as (BR & _ & K). rewrite <- He in K.
      split; [destruct rel, e; reflexivity|].
      apply (set_true_sem _ _ _ BR). intros F. rewrite (K F). exact Hinv.
    - (* sometime-before: c1 must not hold before c2 has held *)
      unfold h_sb, form_vals. cbn [forms chk upd minv].
      remember (existsb (mentions (ESometimeBefore c1 c2)) (a_effs a)) as rel eqn:Hrel.
      remember (expr_eqb (R smp a c1) c1) as e1 eqn:He1. remember (expr_eqb (R smp a c2) c2) as e2 eqn:He2.
      exists (if rel && negb e2 then add_cond smp [] (R smp a c2) true else []).
      split.
      { destruct rel, e2; cbn [fst snd andb negb]; try reflexivity.
        change (@nil effect) with (mon_effs fk []). apply add_cond_eff_mon_effs. }
      intros t HF Hinv. destruct (HF c1 (or_introl eq_refl)) as (BR1 & _ & K1).
      destruct (HF c2 (or_intror (or_introl eq_refl))) as (BR2 & _ & K2). rewrite <- He1 in K1. rewrite <- He2 in K2.
      apply andb_true_iff in Hinv. destruct Hinv as [I2 I1].
      split.
      + destruct rel, e1; cbn [fst snd andb negb] in K1 |- *.
        2:{ apply B_holds. unfold B. rewrite Hsmp. exact (B_or2 _ _ _ _ _ (B_mkNot _ _ _ BR1) Hm). }
        all: rewrite (K1 eq_refl); destruct (psat P s c1), m; try reflexivity; discriminate I1.
      + apply (set_true_sem _ _ _ BR2). intros F. rewrite (K2 F). exact I2.
    - (* sometime-after: the atom is reset where c1 holds without c2, set where c2 holds *)
      unfold h_sa, form_vals. cbn [forms chk upd minv]. rewrite (Subst_proofs.expr_eqb_sym c1), (Subst_proofs.expr_eqb_sym c2).
      set (cr := smp (mkAnd [R smp a c1; mkNot (R smp a c2)])).
      remember (existsb (mentions (ESometimeAfter c1 c2)) (a_effs a)) as rel eqn:Hrel.
      remember (expr_eqb (R smp a c1) c1) as e1 eqn:He1. remember (expr_eqb (R smp a c2) c2) as e2 eqn:He2.
      exists ((if rel && negb (e1 && e2) then add_cond smp [] cr false else []) ++
              (if rel && negb e2 then add_cond smp [] (R smp a c2) true else [])).
      split.
      { unfold mon_effs. destruct rel, e1, e2; cbn [fst snd andb negb app]; try reflexivity;
          change (@nil effect) with (mon_effs fk []); rewrite !add_cond_eff_mon_effs; unfold add_cond, mon_effs;
          destruct (is_false (smp cr)), (is_false (smp (R smp a c2))); reflexivity. }
      intros t HF Hinv. destruct (HF c1 (or_introl eq_refl)) as (BR1 & _ & K1).
      destruct (HF c2 (or_intror (or_introl eq_refl))) as (BR2 & _ & K2). rewrite <- He1 in K1. rewrite <- He2 in K2.
      apply andb_true_iff in Hinv. destruct Hinv as [I1 I2]. split; [destruct rel; reflexivity|].
      assert (Bc : B I' cr (psat P t c1 && negb (psat P t c2))).
      { unfold B, cr. rewrite Hsmp. exact (B_and2 _ _ _ _ _ BR1 (B_mkNot _ _ _ BR2)). }
      rewrite fired_bits_app, (opt_eff_bits _ _ false _ Bc), (opt_eff_bits _ _ true _ BR2).
      eexists. split; [reflexivity|]. rewrite newm_reset_set.
      + destruct (psat P t c2); [reflexivity | rewrite andb_true_r; reflexivity].
      + destruct (psat P t c1), (psat P t c2); reflexivity.
      + intros F. rewrite K1, K2, andb_comm; [exact I2 | |]; destruct rel, e1, e2; try reflexivity; discriminate F.
      + intros F. rewrite (K2 F). exact I1.
    - unfold h_amo, form_vals. cbn [forms chk upd minv].
      remember (existsb (mentions (EAtMostOnce c)) (a_effs a)) as rel eqn:Hrel.
      remember (expr_eqb (R smp a c) c) as e eqn:He.
      exists (if rel && negb e then add_cond smp [] (R smp a c) true else []). split.
      { destruct rel, e; cbn [fst snd andb negb]; try reflexivity.
        change (@nil effect) with (mon_effs fk []). apply add_cond_eff_mon_effs. }
      intros t HF Hinv. destruct (HF c (or_introl eq_refl)) as (BR & BS & K). rewrite <- He in K. split.
      + destruct rel, e; cbn [fst snd andb negb] in K |- *.
        2:{ apply B_holds. unfold B. rewrite Hsmp. exact (B_or3 _ _ _ _ _ _ _ (B_mkNot _ _ _ BR) (B_mkNot _ _ _ Hm) BS). }
        all: rewrite (K eq_refl); destruct (psat P s c), m; reflexivity.
      + apply (set_true_sem _ _ _ BR). intros F. rewrite (K F). exact Hinv.
  Qed.
End HandleSem.

Lemma tcr_compile_single smp sub0 mon c P P' : tcr_op c = true -> tcr_compile smp sub0 mon [c] P = Some P' ->
  p_objs P' = p_objs P /\ p_ifun P' = p_ifun P /\ p_fluents P' = p_fluents P ++ [fk_decl (mon 0)] /\
  p_invs P' = p_invs P /\ p_actions P' = map_actions (tcr_action smp mon [c]) (p_actions P) /\
  p_goals P' = add_goals [smp (mkAnd (p_goals P ++ [if is_landmark c then EFluent (mon 0) [] else EBool true]))].
Proof.
  intros Hop H. unfold tcr_compile in H. destruct (existsb (refused smp sub0) [c]); [discriminate|]. inversion H; subst P'.
  cbn [p_objs p_ifun p_fluents p_invs p_actions p_goals]. unfold landmark_goal, m_atom, mon_fluents, n_atoms.
  destruct c; try discriminate Hop; cbn [filter is_landmark map mkAnd atoms_from is_always length seq];
    rewrite ?(atom_idx_single _ Hop); repeat split; reflexivity.
Qed.

Lemma tcr_init_single smp sub0 mon c s0 : tcr_op c = true ->
  agree_off (mon 0) s0 (tcr_init smp sub0 mon [c] s0) /\
  tcr_init smp sub0 mon [c] s0 (mon 0) [] = Some (VBool (is_true (init_expr smp sub0 c))).
Proof.
  intros Hop. unfold tcr_init, n_atoms, init_true.
  assert (E : atoms_from 0 [c] = [(c, 0)]) by (destruct c; try discriminate Hop; reflexivity). rewrite E.
  cbn [length seq existsb flat_map fst snd app]. split.
  - intros f x Hf. replace (mon 0%nat =? f)%N with false by (symmetry; apply N.eqb_neq; congruence). reflexivity.
  - rewrite N.eqb_refl. cbn [orb]. destruct (is_true (init_expr smp sub0 c)); cbn; rewrite ?N.eqb_refl; reflexivity.
Qed.

Section Single.
  Variable smp sub0 : expr -> expr.
  Variable mon : nat -> N.
  Variable c : expr.
  Variable P : problem.
  Variable G : state -> Prop.
  Notation fk := (mon 0).

  Hypothesis Hsmp : smp_exact smp.
  Hypothesis Huniq : unique_ids P.
  Hypothesis Hgp : gproblem P = true.
  Hypothesis Hop : tcr_op c = true.
  Hypothesis Hforms : forall x, In x (forms c) ->
    gform x = true /\ gbool P x = true /\ tcr_fresh1 smp fk P x = true /\ forall s, G s -> gdef s x = true.
  Hypothesis Gstep : forall s aid a args t, G s -> lookup_action P aid = Some a -> spec_step false P s a args = Some t -> G t.
  Hypothesis Greg : forall s aid a, G s -> lookup_action P aid = Some a -> reg_ok P s a = true.

  Lemma fresh_c : (forall aid a, lookup_action P aid = Some a -> action_cleanf fk a = true) /\
    forallb (cleanf fk) (p_invs P ++ bound_invs P) = true /\ forallb (cleanf fk) (p_goals P) = true.
  Proof.
    destruct (forms_nonempty c Hop) as [x Hx]. destruct (Hforms x Hx) as (_ & _ & Hf & _).
    destruct (fresh_parts smp fk P x Hf) as (H1 & H2 & H3 & _). repeat split; try assumption.
    intros aid a Hl. apply (H1 aid a Hl).
  Qed.

  Lemma R_val x s aid a args t : In x (forms c) -> G s -> lookup_action P aid = Some a ->
    spec_step false P s a args = Some t -> B (mk_interp P s []) (R smp a x) (psat P t x).
  Proof.
    intros Hx Gs Hlk Hst. destruct (Hforms x Hx) as (Hg & Hb & _ & Hd).
    destruct (regression_step P s a args t x (a_ground P Hgp aid a Hlk) (Greg s aid a Gs Hlk) Hst Hg Hb (Hd s Gs))
      as (Ev & _ & D).
    unfold B, R. rewrite Hsmp, Ev. unfold isB in D. unfold psat, holds.
    destruct (eval false x (mk_interp P t [])) as [[[|]| |]|]; try discriminate; reflexivity.
  Qed.

  Lemma untouched_psat x s aid a args t : In x (forms c) -> G s -> lookup_action P aid = Some a ->
    spec_step false P s a args = Some t -> existsb (mentions c) (a_effs a) = false -> psat P t x = psat P s x.
  Proof.
    intros Hx Gs Hlk Hst Hrel. destruct (Hforms x Hx) as (Hg & Hb & _). unfold psat, holds.
    rewrite (untouched_eval P s a args t x (a_ground P Hgp aid a Hlk) (Greg s aid a Gs Hlk) Hst Hg Hb); [reflexivity|].
    intros e He. exact (mentions_form c x e Hx (existsb_false_in _ _ Hrel e He)).
  Qed.

  Variable P' : problem.
  Hypothesis Hcomp : tcr_compile smp sub0 mon [c] P = Some P'.

  Lemma goals_single t t' : agree_off fk t t' ->
    goals_hold false P' t' =
    goals_hold false P t && (if is_landmark c then holds false (mk_interp P' t' []) (EFluent fk []) else true).
  Proof.
    intros Ht. destruct (tcr_compile_single smp sub0 mon c P P' Hop Hcomp) as (Ho & Hi & _ & _ & _ & Hg).
    destruct fresh_c as (_ & _ & Hfg). unfold goals_hold.
    rewrite Hg, (all_hold_goal_and smp _ _ _ Hsmp), (all_hold_cleanf fk false _ _ (p_goals P) (mk_irel fk P P' Ho Hi t t' [] Ht) Hfg).
    destruct (is_landmark c); reflexivity.
  Qed.

  Lemma step_single s s' aid a args m : G s -> agree_off fk s s' -> s' fk [] = Some (VBool m) -> minv P c m s = true ->
    lookup_action P aid = Some a ->
    match spec_step false P s a args,
          match lookup_action P' aid with Some a' => spec_step false P' s' a' args | None => None end with
    | Some t, Some t' => chk (psat P) c m s t = true /\ agree_off fk t t' /\ t' fk [] = Some (VBool (upd (psat P) c m t))
    | Some t, None => chk (psat P) c m s t = false
    | None, None => True
    | None, Some _ => False
    end.
  Proof.
    intros Gs Hs Hm Hinv Hlk. destruct (tcr_compile_single smp sub0 mon c P P' Hop Hcomp) as (Ho & Hi & Hfl & Hv & Ha & _).
    destruct fresh_c as (Hfa & Hfi & _). pose proof (Hfa aid a Hlk) as Hca.
    unfold lookup_action in *. rewrite Ha, (lookup_map_actions _ _ _ Huniq), Hlk, tcr_action_single. cbv zeta.
    set (I' := mk_interp P' s' (zip_params (a_params a) args)).
    pose proof (mk_irel fk P P' Ho Hi s s' (zip_params (a_params a) args) Hs) as HR. fold I' in HR.
    assert (EI : mk_interp P s (zip_params (a_params a) args) = mk_interp P s [])
      by (rewrite (a_params_nil P Hgp aid a Hlk); reflexivity).
    assert (Bm : B I' (EFluent fk []) m) by (unfold B; rewrite eval_EFluent; exact Hm).
    destruct (handle_sem smp mon Hsmp P s I' a m Bm c Hop) as (cbs & EE & Hsem).
    set (p := fst (handle_single smp mon c a)) in *. rewrite EE.
    set (X := match p with Some x => holds false I' x | None => true end) in *.
    set (pres := match p with Some x => add_pre (a_pre a) x | None => a_pre a end).
    assert (Hpre : all_hold false I' pres = all_hold false I' (a_pre a) && X).
    { unfold pres, X. destruct p; [apply all_hold_add_pre | rewrite andb_true_r; reflexivity]. }
    set (a' := {| a_params := a_params a; a_pre := pres; a_effs := a_effs a ++ mon_effs fk cbs |}).
    pose proof (step_mon fk P P' Ho Hi Hfl Hv Hfi a a' args s s' X (fired_bits I' cbs) Hs Hca eq_refl Hpre
                  (fired_mon_effs fk I' (a_effs a) cbs)) as Hst.
    destruct (spec_step false P s a args) as [t|] eqn:Est.
    2:{ destruct (existsb is_false pres); [exact I | exact Hst]. }
    assert (HF : form_vals smp P s I' a c t).
    { intros x Hx. destruct (Hforms x Hx) as (Hg & Hb & Hf & Hd).
      destruct (fresh_parts smp fk P x Hf) as (HfR & _ & _ & Hcx). destruct (HfR aid a Hlk) as [_ HcR].
      destruct (gdef_B P s x Hg (Hd s Gs)) as [b Bx]. rewrite <- (B_holds _ _ _ Bx) in Bx. fold (psat P s x) in Bx.
      pose proof (R_val x s aid a args t Hx Gs Hlk Est) as BR.
      split; [unfold B; rewrite (eval_cleanf fk false _ _ _ HR HcR), EI; exact BR|].
      split; [unfold B; rewrite (eval_cleanf fk false _ _ _ HR Hcx), EI; exact Bx|].
      destruct (existsb (mentions c) (a_effs a)) eqn:Erel; cbn [andb].
      - intros E. apply negb_false_iff, expr_eqb_eq in E. rewrite E in BR. exact (B_fun _ _ _ _ BR Bx).
      - intros _. exact (untouched_psat x s aid a args t Hx Gs Hlk Est Erel). }
    destruct (Hsem t HF Hinv) as (HX & l & Hl & Hnew). rewrite <- HX.
    destruct (existsb is_false pres) eqn:Efp.
    - (* the action was left out: its preconditions contain FALSE, so the added one is false *)
      pose proof (all_hold_has_false I' pres Efp) as Hn. rewrite Hpre in Hn.
      unfold action_cleanf in Hca. apply andb_true_iff in Hca. destruct Hca as [Hc1 _].
      rewrite (all_hold_cleanf fk false _ _ (a_pre a) HR Hc1) in Hn. rewrite spec_step_eq in Est.
      destruct (all_hold false (mk_interp P s (zip_params (a_params a) args)) (a_pre a)); [exact Hn | discriminate].
    - rewrite Hl in Hst. destruct (spec_step false P' s' a' args) as [t'|].
      + destruct Hst as (HX1 & Hag & l' & El & Hfk). inversion El; subst l'. rewrite Hfk, Hm. auto.
      + destruct Hst as [HX0 | Hn]; [exact HX0 | discriminate].
  Qed.

  Lemma tcr_run_single pi : forall s s' m, G s -> agree_off fk s s' -> s' fk [] = Some (VBool m) -> minv P c m s = true ->
    match run P (spec_step false P) s pi, run P' (spec_step false P') s' pi with
    | Some t, Some t' => gchk P c m s pi = true /\ agree_off fk t t' /\ t' fk [] = Some (VBool (gbit P c m s pi))
    | Some t, None => gchk P c m s pi = false
    | None, None => True
    | None, Some _ => False
    end.
  Proof.
    induction pi as [|[aid args] r IH]; intros s s' m Gs Hs Hm Hinv; cbn [run gchk gbit]; [auto|].
    destruct (lookup_action P aid) as [a|] eqn:Hlk.
    2:{ destruct (tcr_compile_single smp sub0 mon c P P' Hop Hcomp) as (_ & _ & _ & _ & Ha & _).
        unfold lookup_action in *. rewrite Ha, (lookup_map_actions _ _ _ Huniq), Hlk. exact I. }
    pose proof (step_single s s' aid a args m Gs Hs Hm Hinv Hlk) as Hst.
    destruct (spec_step false P s a args) as [t|] eqn:Est.
    - destruct (lookup_action P' aid) as [a'|]; [destruct (spec_step false P' s' a' args) as [t'|]|].
      + destruct Hst as (Hc & H1 & H2). rewrite Hc. cbn [andb].
        exact (IH t t' _ (Gstep s aid a args t Gs Hlk Est) H1 H2 (minv_step P c m s t Hinv Hc)).
      + rewrite Hst. cbn [andb]. destruct (run P (spec_step false P) t r); [reflexivity | exact I].
      + rewrite Hst. cbn [andb]. destruct (run P (spec_step false P) t r); [reflexivity | exact I].
    - destruct (lookup_action P' aid) as [a'|]; [|exact I]. destruct (spec_step false P' s' a' args); [destruct Hst | exact I].
  Qed.

  Theorem tcr_single_plan s0 s0' pi : G s0 -> agree_off fk s0 s0' ->
    s0' fk [] = Some (VBool (mbit0 (psat P) c s0)) -> safe0 (psat P) c s0 = true ->
    valid_plan false P' s0' pi =
    valid_plan false P s0 pi && gchk P c (mbit0 (psat P) c s0) s0 pi &&
    (if is_landmark c then gbit P c (mbit0 (psat P) c s0) s0 pi else true).
  Proof.
    intros G0 H0 Hm Hsafe. unfold valid_plan.
    pose proof (tcr_run_single pi s0 s0' _ G0 H0 Hm (minv_init P c s0 Hsafe)) as HR.
    destruct (run P (spec_step false P) s0 pi) as [t|], (run P' (spec_step false P') s0' pi) as [t'|].
    - destruct HR as (Hc & Hag & Hfk). rewrite Hc, andb_true_r, (goals_single t t' Hag). f_equal.
      destruct (is_landmark c); [|reflexivity]. unfold holds. rewrite eval_EFluent. cbn [evals mk_interp fl]. rewrite Hfk.
      destruct (gbit P c _ s0 pi); reflexivity.
    - rewrite HR, andb_false_r. reflexivity.
    - destruct HR.
    - reflexivity.
  Qed.
End Single.

Lemma gchk_true P c : (forall m s t, chk (psat P) c m s t = true) -> forall pi m s, gchk P c m s pi = true.
Proof.
  intros H. induction pi as [|[aid args] r IH]; intros m s; cbn [gchk]; [reflexivity|].
  destruct (lookup_action P aid) as [a|]; [|reflexivity]. destruct (spec_step false P s a args); [|reflexivity].
  rewrite H, IH. reflexivity.
Qed.

Lemma amo_chk_gchk P phi pi : forall m s, amo_chk P phi m s pi = gchk P (EAtMostOnce phi) m s pi.
Proof.
  induction pi as [|[aid args] r IH]; intros m s; cbn [amo_chk gchk]; [reflexivity|].
  destruct (lookup_action P aid) as [a|]; [|reflexivity]. destruct (spec_step false P s a args); [|reflexivity].
  rewrite IH. reflexivity.
Qed.

Lemma sb_chk_gchk P phi psi pi : forall m s, sb_chk P phi psi m s pi = gchk P (ESometimeBefore phi psi) m s pi.
Proof.
  induction pi as [|[aid args] r IH]; intros m s; cbn [sb_chk gchk]; [reflexivity|].
  destruct (lookup_action P aid) as [a|]; [|reflexivity]. destruct (spec_step false P s a args); [|reflexivity].
  rewrite IH. reflexivity.
Qed.

Lemma sa_bit_gbit P phi psi pi : forall m s, sa_bit P phi psi m s pi = gbit P (ESometimeAfter phi psi) m s pi.
Proof.
  induction pi as [|[aid args] r IH]; intros m s; cbn [sa_bit gbit]; [reflexivity|].
  destruct (lookup_action P aid) as [a|]; [|reflexivity]. destruct (spec_step false P s a args); [|reflexivity].
  apply IH.
Qed.

Lemma sometime_seen_gbit P phi pi : forall m s,
  gbit P (ESometime phi) (m || psat P s phi) s pi = m || sometime_seen P phi s pi.
Proof.
  induction pi as [|[aid args] r IH]; intros m s; cbn [sometime_seen gbit]; [rewrite orb_false_r; reflexivity|].
  destruct (lookup_action P aid) as [a|]; [|rewrite orb_false_r; reflexivity].
  destruct (spec_step false P s a args) as [t|]; [|rewrite orb_false_r; reflexivity].
  cbn [upd]. rewrite IH, orb_assoc. reflexivity.
Qed.

(* The value of a binary nesting of an n-ary operator: And, Or, Plus, Times fold a monoid over their operands, so
   nesting two-element applications to the left - in either operand order - has the value of the flat application.
   (What the PDDL and ANML readers rebuild from "a op b op c".) *)
From Coq Require Import List ZArith QArith Qcanon Bool.
Import ListNotations.
Require Import UPV.Core.Expr UPV.Core.Eval UPV.Proofs.Eval_lemmas.

Lemma fold_left_last {A B} (mk : A -> B -> A) : forall l acc, l <> [] -> exists a b, fold_left mk l acc = mk a b.
Proof.
  induction l as [|y l IHl]; intros acc Hne; [congruence|]. cbn [fold_left].
  destruct l as [|z l]; [cbn; eauto|apply IHl; congruence].
Qed.

Section FoldBin.
  Variables (A : Type) (get : option value -> option A) (inj : A -> value) (op : A -> A -> A) (u : A) (fold : list A -> A).
  Variables (C : list expr -> expr) (gets : list expr -> option (list A)) (sc : bool) (I : interp).
  Hypothesis gets_nil : gets [] = Some [].
  Hypothesis gets_cons : forall x l, gets (x :: l) =
    match get (eval sc x I), gets l with Some v, Some vs => Some (v :: vs) | _, _ => None end.
  Hypothesis fold_nil : fold [] = u.
  Hypothesis fold_cons : forall a l, fold (a :: l) = op a (fold l).
  Hypothesis HC : forall l, eval sc (C l) I = match gets l with Some xs => Some (inj (fold xs)) | None => None end.
  Hypothesis get_inj : forall a, get (Some (inj a)) = Some a.
  Hypothesis get_none : get None = None.
  Hypothesis op_assoc : forall a b c, op (op a b) c = op a (op b c).
  Hypothesis op_comm : forall a b, op a b = op b a.
  Hypothesis op_u_r : forall a, op a u = a.

  Lemma get_C2 a b : get (eval sc (C [a; b]) I) =
    match get (eval sc a I), get (eval sc b I) with Some x, Some y => Some (op x y) | _, _ => None end.
  Proof.
    rewrite HC, !gets_cons, gets_nil.
    destruct (get (eval sc a I)) as [x|]; [|exact get_none]. destruct (get (eval sc b I)) as [y|]; [|exact get_none].
    rewrite get_inj, !fold_cons, fold_nil, op_u_r. reflexivity.
  Qed.

  (* [mk2] is the two-element application in one of the two operand orders *)
  Variable mk2 : expr -> expr -> expr.
  Hypothesis Hmk2 : forall a b, mk2 a b = C [a; b] \/ mk2 a b = C [b; a].

  Lemma get_mk2 a b : get (eval sc (mk2 a b) I) =
    match get (eval sc a I), get (eval sc b I) with Some x, Some y => Some (op x y) | _, _ => None end.
  Proof.
    destruct (Hmk2 a b) as [-> | ->]; rewrite get_C2; [reflexivity|].
    destruct (get (eval sc a I)), (get (eval sc b I)); try reflexivity. rewrite op_comm. reflexivity.
  Qed.

  Lemma get_fold_left : forall l acc, get (eval sc (fold_left mk2 l acc) I) =
    match get (eval sc acc I), gets l with Some x, Some xs => Some (op x (fold xs)) | _, _ => None end.
  Proof.
    induction l as [|y l IH]; intros acc; cbn [fold_left].
    - rewrite gets_nil, fold_nil. destruct (get (eval sc acc I)); [rewrite op_u_r|]; reflexivity.
    - rewrite IH, get_mk2, gets_cons.
      destruct (get (eval sc acc I)), (get (eval sc y I)), (gets l); try reflexivity. rewrite fold_cons, op_assoc. reflexivity.
  Qed.

  Theorem eval_fold_left l acc : l <> [] -> eval sc (fold_left mk2 l acc) I = eval sc (C (acc :: l)) I.
  Proof.
    intros Hne. destruct (fold_left_last mk2 l acc Hne) as (a & b & E).
    assert (F : forall X, eval sc (C X) I = match get (eval sc (C X) I) with Some v => Some (inj v) | None => None end).
    { intros X. rewrite HC. destruct (gets X); [rewrite get_inj|rewrite get_none]; reflexivity. }
    assert (F2 : eval sc (fold_left mk2 l acc) I
                 = match get (eval sc (fold_left mk2 l acc) I) with Some v => Some (inj v) | None => None end)
      by (rewrite E; destruct (Hmk2 a b) as [-> | ->]; apply F).
    rewrite F2, get_fold_left, HC, gets_cons.
    destruct (get (eval sc acc I)), (gets l); try reflexivity. rewrite fold_cons. reflexivity.
  Qed.
End FoldBin.

Section Instances.
  Variables (sc : bool) (I : interp).
  Variable mk2 : expr -> expr -> expr.

  Lemma q0r (q : Qc) : (q + zq 0 = q)%Qc. Proof. change (zq 0) with 0%Qc. ring. Qed.
  Lemma q1r (q : Qc) : (q * zq 1 = q)%Qc. Proof. change (zq 1) with 1%Qc. ring. Qed.

  Lemma eval_fold_and l acc : (forall a b, mk2 a b = EAnd [a; b] \/ mk2 a b = EAnd [b; a]) -> l <> [] ->
    eval sc (fold_left mk2 l acc) I = eval sc (EAnd (acc :: l)) I.
  Proof.
    intros H. apply (eval_fold_left bool as_bool VBool andb true (forallb (fun b => b)) EAnd (ebools sc I) sc I); auto;
      try reflexivity; [apply eval_EAnd|intros a b c; symmetry; apply andb_assoc|apply andb_comm|apply andb_true_r].
  Qed.
  Lemma eval_fold_or l acc : (forall a b, mk2 a b = EOr [a; b] \/ mk2 a b = EOr [b; a]) -> l <> [] ->
    eval sc (fold_left mk2 l acc) I = eval sc (EOr (acc :: l)) I.
  Proof.
    intros H. apply (eval_fold_left bool as_bool VBool orb false (existsb (fun b => b)) EOr (ebools sc I) sc I); auto;
      try reflexivity; [apply eval_EOr|intros a b c; symmetry; apply orb_assoc|apply orb_comm|apply orb_false_r].
  Qed.
  Lemma eval_fold_plus l acc : (forall a b, mk2 a b = EPlus [a; b] \/ mk2 a b = EPlus [b; a]) -> l <> [] ->
    eval sc (fold_left mk2 l acc) I = eval sc (EPlus (acc :: l)) I.
  Proof.
    intros H. apply (eval_fold_left Qc as_num VNum Qcplus (zq 0) (fold_right Qcplus (zq 0)) EPlus (enums sc I) sc I); auto;
      try reflexivity; [apply eval_EPlus|intros a b c; symmetry; apply Qcplus_assoc|apply Qcplus_comm|apply q0r].
  Qed.
  Lemma eval_fold_times l acc : (forall a b, mk2 a b = ETimes [a; b] \/ mk2 a b = ETimes [b; a]) -> l <> [] ->
    eval sc (fold_left mk2 l acc) I = eval sc (ETimes (acc :: l)) I.
  Proof.
    intros H. apply (eval_fold_left Qc as_num VNum Qcmult (zq 1) (fold_right Qcmult (zq 1)) ETimes (enums sc I) sc I); auto;
      try reflexivity; [apply eval_ETimes|intros a b c; symmetry; apply Qcmult_assoc|apply Qcmult_comm|apply q1r].
  Qed.
End Instances.

(* mapping a value-preserving function over the operands changes none of the three list evaluators *)
Lemma map_eval_same sc I (f : expr -> expr) l : Forall (fun x => eval sc (f x) I = eval sc x I) l ->
  evals sc I (map f l) = evals sc I l /\ ebools sc I (map f l) = ebools sc I l /\ enums sc I (map f l) = enums sc I l.
Proof.
  induction 1 as [|x l Hx _ (IH1 & IH2 & IH3)]; [auto|]. cbn [map evals ebools enums]. rewrite Hx, IH1, IH2, IH3. auto.
Qed.

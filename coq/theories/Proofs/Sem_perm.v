(* Planning/Sem.v: the successor state depends on the fired assignments only as a multiset (per ground fluent, [combine] of the
   assigned values and of the deltas). *)
From Coq Require Import List QArith Qcanon Bool Permutation.
Import ListNotations.
Require Import UPV.Core.Eval UPV.Planning.Problem UPV.Planning.Sem UPV.Proofs.Eval_lemmas UPV.Proofs.ListFacts.

Lemma sum_deltas_perm D D' : Permutation D D' -> forall c, sum_deltas c D = sum_deltas c D'.
Proof.
  induction 1 as [|x l l' HP IH|x y l|l l' l'' _ IH1 _ IH2]; intro c; cbn [sum_deltas].
  - reflexivity.
  - destruct x; [apply IH|reflexivity].
  - destruct x as [x|], y as [y|]; try reflexivity. f_equal. ring.
  - rewrite IH1. apply IH2.
Qed.

(* a list whose elements all equal its head stays so under permutation, with the same head *)
Lemma all_head_perm (a a' : value) r r' : Permutation (a :: r) (a' :: r') ->
  forallb (value_eqb a) r = true -> forallb (value_eqb a') r' = true /\ a' = a.
Proof.
  intros HP Hall. rewrite forallb_forall in Hall.
  assert (forall x, In x (a' :: r') -> x = a) as All.
  { intros x Hx. apply (Permutation_in _ (Permutation_sym HP)) in Hx as [<-|Hx]; [reflexivity|].
    symmetry. apply value_eqb_eq, Hall, Hx. }
  assert (a' = a) as -> by (apply All; left; reflexivity). split; [|reflexivity].
  apply forallb_forall. intros x Hx. apply value_eqb_eq. symmetry. apply All. right. exact Hx.
Qed.

Lemma alleq_perm (a a' : value) r r' : Permutation (a :: r) (a' :: r') ->
  (if forallb (value_eqb a) r then CVal a else CFail) = (if forallb (value_eqb a') r' then CVal a' else CFail).
Proof.
  intro HP. destruct (forallb (value_eqb a) r) eqn:H1.
  - destruct (all_head_perm a a' r r' HP H1) as [H2 ->]. rewrite H2. reflexivity.
  - destruct (forallb (value_eqb a') r') eqn:H2; [|reflexivity].
    destruct (all_head_perm a' a r' r (Permutation_sym HP) H2) as [H3 _]. congruence.
Qed.

Lemma combine_perm isb old A A' D D' : Permutation A A' -> Permutation D D' ->
  combine isb old A D = combine isb old A' D'.
Proof.
  intros HA HD. unfold combine.
  destruct A as [|a r]; [apply Permutation_nil in HA; subst A'|];
    (destruct D as [|d ds]; [apply Permutation_nil in HD; subst D'|]).
  - reflexivity.
  - destruct D' as [|d' ds']; [apply Permutation_sym, Permutation_nil in HD; discriminate|].
    destruct old as [[| c |]|]; try reflexivity. rewrite (sum_deltas_perm _ _ HD c). reflexivity.
  - destruct A' as [|a' r']; [apply Permutation_sym, Permutation_nil in HA; discriminate|].
    destruct isb; [rewrite (Permutation_existsb is_vtrue _ _ HA); reflexivity|].
    apply (alleq_perm a a' r r' HA).
  - destruct A' as [|a' r']; [apply Permutation_sym, Permutation_nil in HA; discriminate|].
    destruct D' as [|d' ds']; [apply Permutation_sym, Permutation_nil in HD; discriminate|]. reflexivity.
Qed.

Lemma spec_fluent_perm P s acts acts' k : Permutation acts acts' -> spec_fluent P s acts k = spec_fluent P s acts' k.
Proof.
  intro HP. unfold spec_fluent, avals, deltas. apply combine_perm; apply Permutation_map, Permutation_filter, HP.
Qed.

Theorem same_successor P s acts acts' : Permutation acts acts' ->
  spec_effects_ok P s acts = spec_effects_ok P s acts'
  /\ forall f args, spec_succ P s acts f args = spec_succ P s acts' f args.
Proof.
  intro HP. split.
  - unfold spec_effects_ok. rewrite (Permutation_forallb _ _ _ HP). generalize acts' at 1 3. intro l.
    induction l as [|a l IH]; cbn [forallb]; [reflexivity|].
    rewrite (spec_fluent_perm P s acts acts' (ae_key a) HP), IH. reflexivity.
  - intros f args. unfold spec_succ. rewrite (spec_fluent_perm P s acts acts' (f, args) HP). reflexivity.
Qed.

(* C06 / C07, Layer A — the fresh Boolean fluent fk that DisjunctiveConditionsRemover (fake goal) and
   TrajectoryConstraintsRemover (monitoring atom) add to a problem.
   1. frame: an expression that does not mention fk does not see its value;  2. one step of an action that got extra
   preconditions and extra assignments to fk ([step_mon]; [step_extra]: the one assignment fk := b).
   3. the pipeline usertype fluents + quantifiers + fake goal is linked and needs one auxiliary step.
   The plan-level theorems of the fake-goal compilation are in Proofs/LayerA_DcrGoalPlan_proofs.v. *)
From Coq Require Import List ZArith NArith QArith Qcanon Bool Lia.
Import ListNotations.
Require Import UPV.Core.Expr UPV.Core.Eval UPV.Core.Interp UPV.Planning.Problem UPV.Planning.Sem.
Require Import UPV.Proofs.Eval_lemmas UPV.Proofs.Sem_proofs UPV.Proofs.Step_proofs UPV.Proofs.Subst_proofs.
Require Import UPV.Compilers.Variants UPV.Compilers.LayerA_Defs UPV.Proofs.LayerA_base UPV.Proofs.ExprKids UPV.Proofs.ListFacts UPV.Proofs.LayerA_sim.
Require Import UPV.Compilers.LayerA_Pipe UPV.Compilers.LayerA_DcrGoal.
Local Open Scope nat_scope.

(* Variants.v's names for the two effects and for the goal action are the ones used here *)
Lemma reset_effect_is fk : reset_effect fk = bool_effect fk false. Proof. reflexivity. Qed.
Lemma fake_effect_is fk : fake_effect fk = bool_effect fk true. Proof. reflexivity. Qed.
Lemma fake_action_is fk d : fake_action fk d = goal_action fk d. Proof. reflexivity. Qed.

(* two interpretations that differ at most in the value of the fluent fk *)
Definition irel (fk : N) (I I' : interp) : Prop :=
  (forall p, par I' p = par I p) /\ (forall v, var I' v = var I v) /\ (forall f a, ifun I' f a = ifun I f a) /\
  (forall t, objs I' t = objs I t) /\ (forall g a, g <> fk -> fl I' g a = fl I g a).

Section Frame.
  Variable fk : N.

  Lemma cleanf_kids e : cleanf fk e = true ->
    match e with EFluent f _ => f <> fk | _ => True end /\ forallb (cleanf fk) (kids e) = true.
  Proof.
    destruct e; cbn [cleanf kids forallb]; intros H; rewrite ?andb_true_r; try (split; [exact I | exact H]).
    apply andb_true_iff in H. destruct H as [H1 H2]. split; [apply N.eqb_neq, negb_true_iff, H1 | exact H2].
  Qed.

  (* "eval ignores fluents the expression does not mention" *)
  Lemma eval_cleanf sc e : forall I I', irel fk I I' -> cleanf fk e = true -> eval sc e I' = eval sc e I.
  Proof. intros I I' HR Hc. exact (eval_checked (cleanf fk) (fun g => g <> fk) cleanf_kids sc e I' I HR Hc). Qed.

  Lemma all_hold_cleanf sc I I' l : irel fk I I' -> forallb (cleanf fk) l = true -> all_hold sc I' l = all_hold sc I l.
  Proof.
    intros HR. unfold all_hold. induction l as [|x l IH]; intros Hc; [reflexivity|]. cbn [forallb] in *. nfsplit.
    unfold holds at 1 3. rewrite (eval_cleanf sc x I I' HR) by assumption. rewrite IH by assumption. reflexivity.
  Qed.

  Lemma evals_l_cleanf sc J J' l : irel fk J J' -> forallb (cleanf fk) l = true -> evals_l sc J' l = evals_l sc J l.
  Proof.
    intros HR. induction l as [|x l IH]; intros Hc; [reflexivity|]. cbn [forallb evals_l] in *. nfsplit.
    rewrite (eval_cleanf sc x J J' HR), IH by assumption. reflexivity.
  Qed.

  Lemma eval_effect_cleanf sc J J' e : irel fk J J' -> effect_cleanf fk e = true ->
    eval_effect sc J' e = eval_effect sc J e.
  Proof.
    intros HR Hc. unfold effect_cleanf in Hc. nfsplit. unfold eval_effect.
    rewrite (evals_l_cleanf sc J J' _ HR), (eval_cleanf sc (e_cond e) J J' HR), (eval_cleanf sc (e_val e) J J' HR)
      by assumption. reflexivity.
  Qed.

  Definition eres_list (sc : bool) (I : interp) (effs : list effect) : list eres :=
    flat_map (fun e => map (fun J => eval_effect sc J e) (instances I (e_vars e))) effs.

  Lemma eres_list_cleanf sc I I' effs : irel fk I I' -> forallb (effect_cleanf fk) effs = true ->
    eres_list sc I' effs = eres_list sc I effs.
  Proof.
    intros HR. induction effs as [|e effs IH]; intros Hc; [reflexivity|]. cbn [forallb eres_list flat_map] in *. nfsplit.
    fold (eres_list sc I' effs). fold (eres_list sc I effs). rewrite IH by assumption. f_equal.
    apply (Forall2_map_eq _ _ _ _ _ (fl_agree_instances _ (e_vars e) I' I HR)).
    intros x y Hxy. apply eval_effect_cleanf; assumption.
  Qed.
End Frame.

(* the fired instances of the extra effects: assignments fk := b, in order *)
Definition xact (fk : N) (b : bool) : aeff := {| ae_key := (fk, []); ae_kind := KAssign; ae_val := VBool b |}.
Definition xacts (fk : N) (bs : list bool) : list aeff := map (xact fk) bs.
Definition no_fk (fk : N) (acts : list aeff) : Prop := forall x, In x acts -> fst (ae_key x) <> fk.

(* the value fk gets from the fired extra assignments [bs] (add-after-delete: true wins), or keeps *)
Definition newm (old : option value) (bs : list bool) : option value :=
  match bs with [] => old | _ => Some (VBool (existsb (fun b => b) bs)) end.

Lemma avals_xacts fk bs k : avals k (xacts fk bs) = if gfl_eqb (fk, []) k then map VBool bs else [].
Proof.
  unfold avals, xacts. induction bs as [|b bs IH]; [destruct (gfl_eqb (fk, []) k); reflexivity|].
  cbn [map filter xact ae_key]. unfold is_assign at 1. cbn [ae_kind]. rewrite andb_true_r.
  destruct (gfl_eqb (fk, []) k); [cbn [map ae_val]; f_equal|]; exact IH.
Qed.

Lemma deltas_xacts fk bs k : deltas k (xacts fk bs) = [].
Proof.
  unfold deltas, xacts. induction bs as [|b bs IH]; [reflexivity|].
  cbn [map filter xact]. unfold is_assign at 1. cbn [ae_kind negb]. rewrite andb_false_r. exact IH.
Qed.

Lemma existsb_vtrue bs : existsb is_vtrue (map VBool bs) = existsb (fun b => b) bs.
Proof. induction bs as [|b bs IH]; [reflexivity|]. cbn [map existsb is_vtrue]. rewrite IH. destruct b; reflexivity. Qed.

Section ExtraStep.
  Variable fk : N.
  Variables P P' : problem.
  Hypothesis Ho : p_objs P' = p_objs P.
  Hypothesis Hi : p_ifun P' = p_ifun P.
  Hypothesis Hfl : p_fluents P' = p_fluents P ++ [fk_decl fk].
  Hypothesis Hv : p_invs P' = p_invs P.
  Hypothesis Hinvc : forallb (cleanf fk) (p_invs P ++ bound_invs P) = true.

  Lemma isb_fk : is_bool_fluent P' fk = true.
  Proof. unfold is_bool_fluent. rewrite Hfl, existsb_app. cbn. rewrite N.eqb_refl. apply orb_true_r. Qed.

  Lemma isb_other f : f <> fk -> is_bool_fluent P' f = is_bool_fluent P f.
  Proof.
    intros Hf. unfold is_bool_fluent. rewrite Hfl, existsb_app. cbn.
    replace (fk =? f)%N with false by (symmetry; apply N.eqb_neq; congruence). cbn. rewrite orb_false_r. reflexivity.
  Qed.

  Lemma mk_irel s s' pars : agree_off fk s s' -> irel fk (mk_interp P s pars) (mk_interp P' s' pars).
  Proof.
    intros H. repeat split; cbn; auto.
    - intros f a. rewrite Hi. reflexivity.
    - intros t. unfold objs_of. rewrite Ho. reflexivity.
  Qed.

  Lemma bound_invs_extra : bound_invs P' = bound_invs P.
  Proof.
    unfold bound_invs. rewrite Hfl, flat_map_app. cbn. rewrite app_nil_r.
    apply flat_map_ext. intros fd. rewrite (arg_tuples_objs P P' _ Ho). reflexivity.
  Qed.

  Lemma invariants_cleanf t t' : agree_off fk t t' -> invariants_ok false P' t' = invariants_ok false P t.
  Proof.
    intros H. unfold invariants_ok. rewrite Hv, bound_invs_extra.
    apply (all_hold_cleanf fk); [apply mk_irel; exact H | exact Hinvc].
  Qed.

  Lemma gfl_fk_other k : fst k <> fk -> gfl_eqb (fk, []) k = false.
  Proof. intros H. unfold gfl_eqb. cbn [fst snd]. replace (fk =? fst k)%N with false; [reflexivity|]. symmetry. apply N.eqb_neq. congruence. Qed.

  Lemma spec_fluent_other s s' acts bs k : agree_off fk s s' -> fst k <> fk ->
    spec_fluent P' s' (acts ++ xacts fk bs) k = spec_fluent P s acts k.
  Proof.
    intros Hs Hk. unfold spec_fluent.
    rewrite (isb_other _ Hk), avals_app, deltas_app, avals_xacts, deltas_xacts, (gfl_fk_other k Hk), !app_nil_r,
      (Hs (fst k) (snd k) Hk). reflexivity.
  Qed.

  Lemma spec_fluent_fk s' acts bs : no_fk fk acts ->
    spec_fluent P' s' (acts ++ xacts fk bs) (fk, []) =
    match bs with [] => CUnchanged | _ => CVal (VBool (existsb (fun b => b) bs)) end.
  Proof.
    intros Hn. unfold spec_fluent. cbn [fst snd]. rewrite isb_fk, avals_app, deltas_app, avals_xacts, deltas_xacts.
    unfold avals, deltas. rewrite !(filter_other_key fk [] _ acts Hn). cbn [map app].
    replace (gfl_eqb (fk, []) (fk, [])) with true by (unfold gfl_eqb; cbn; rewrite N.eqb_refl; reflexivity).
    destruct bs as [|b bs]; [reflexivity|]. cbn [map combine]. rewrite <- existsb_vtrue. reflexivity.
  Qed.

  Lemma effects_ok_extra s s' acts bs : agree_off fk s s' -> no_fk fk acts ->
    spec_effects_ok P' s' (acts ++ xacts fk bs) = spec_effects_ok P s acts.
  Proof.
    intros Hs Hn. unfold spec_effects_ok. rewrite forallb_app.
    assert (E2 : forallb (fun a => match spec_fluent P' s' (acts ++ xacts fk bs) (ae_key a) with CFail => false | _ => true end)
                   (xacts fk bs) = true).
    { apply forallb_forall. intros x Hx. unfold xacts in Hx. apply in_map_iff in Hx. destruct Hx as [b [<- _]].
      cbn [xact ae_key]. rewrite (spec_fluent_fk s' acts bs Hn). destruct bs; reflexivity. }
    rewrite E2, andb_true_r. apply forallb_ext_in. intros a Ha.
    rewrite (spec_fluent_other s s' acts bs _ Hs (Hn a Ha)). reflexivity.
  Qed.

  Lemma succ_extra s s' acts bs : agree_off fk s s' -> no_fk fk acts ->
    agree_off fk (spec_succ P s acts) (spec_succ P' s' (acts ++ xacts fk bs)) /\
    spec_succ P' s' (acts ++ xacts fk bs) fk [] = newm (s' fk []) bs.
  Proof.
    intros Hs Hn. split.
    - intros f x Hf. unfold spec_succ. rewrite (spec_fluent_other s s' acts bs (f, x) Hs Hf), (Hs f x Hf). reflexivity.
    - unfold spec_succ. rewrite (spec_fluent_fk s' acts bs Hn). destruct bs; reflexivity.
  Qed.

  Lemma fired_nofk sc I effs acts : forallb (effect_cleanf fk) effs = true ->
    collect_res (eres_list sc I effs) = Some acts -> no_fk fk acts.
  Proof.
    intros Hc E x Hx. pose proof (collect_res_In _ _ _ E Hx) as Hin. unfold eres_list in Hin.
    apply in_flat_map in Hin. destruct Hin as [e [He Hin]]. apply in_map_iff in Hin. destruct Hin as [J [EJ _]].
    rewrite forallb_forall in Hc. specialize (Hc e He). unfold effect_cleanf in Hc. nfsplit.
    unfold eval_effect in EJ. destruct (evals_l sc J (e_args e)) as [vs|]; [|discriminate].
    destruct (eval sc (e_cond e) J) as [[[|]| |]|]; try discriminate.
    destruct (eval sc (e_val e) J); [|discriminate]. inversion EJ; subst x. cbn [ae_key fst].
    match goal with Hn : negb (e_fl e =? fk)%N = true |- _ => apply negb_true_iff, N.eqb_neq in Hn; exact Hn end.
  Qed.

  (* The compiled action a' = the original a (which neither reads nor writes fk) with extra preconditions of joint value
     X and extra effects on fk whose fired assignments are [bs] (None: one of them cannot be evaluated).  It steps in
     the compiled problem exactly when a steps in the original problem and X holds and the extra effects evaluate;
     the successors agree off fk, and fk gets [newm]. *)
  Lemma step_mon a a' args s s' (X : bool) (bs : option (list bool)) :
    agree_off fk s s' -> action_cleanf fk a = true -> a_params a' = a_params a ->
    all_hold false (mk_interp P' s' (zip_params (a_params a) args)) (a_pre a') =
      all_hold false (mk_interp P' s' (zip_params (a_params a) args)) (a_pre a) && X ->
    fired false (mk_interp P' s' (zip_params (a_params a) args)) (a_effs a') =
      match collect_res (eres_list false (mk_interp P' s' (zip_params (a_params a) args)) (a_effs a)), bs with
      | Some acts, Some l => Some (acts ++ xacts fk l)
      | _, _ => None
      end ->
    match spec_step false P s a args, spec_step false P' s' a' args with
    | Some t, Some t' => X = true /\ agree_off fk t t' /\ exists l, bs = Some l /\ t' fk [] = newm (s' fk []) l
    | Some t, None => X = false \/ bs = None
    | None, None => True
    | None, Some _ => False
    end.
  Proof.
    intros Hs Hc Hp Hpre Hfi. unfold action_cleanf in Hc. apply andb_true_iff in Hc. destruct Hc as [Hc1 Hc2].
    rewrite !spec_step_eq. rewrite Hp, Hpre, Hfi.
    pose proof (mk_irel s s' (zip_params (a_params a) args) Hs) as HR.
    rewrite (all_hold_cleanf fk false _ _ (a_pre a) HR Hc1), (eres_list_cleanf fk false _ _ (a_effs a) HR Hc2).
    change (fired false (mk_interp P s (zip_params (a_params a) args)) (a_effs a))
      with (collect_res (eres_list false (mk_interp P s (zip_params (a_params a) args)) (a_effs a))).
    destruct (all_hold false (mk_interp P s (zip_params (a_params a) args)) (a_pre a)); cbn [andb negb]; [|exact I].
    destruct (collect_res (eres_list false (mk_interp P s (zip_params (a_params a) args)) (a_effs a))) as [acts|] eqn:EF.
    2:{ destruct X; exact I. }
    assert (Hn : no_fk fk acts) by (eapply fired_nofk; eassumption).
    destruct X; cbn [negb].
    2:{ destruct (negb (spec_effects_ok P s acts)); [exact I|].
        destruct (invariants_ok false P (spec_succ P s acts)); [left; reflexivity | exact I]. }
    destruct bs as [l|].
    - rewrite (effects_ok_extra s s' acts l Hs Hn). destruct (negb (spec_effects_ok P s acts)); [exact I|].
      destruct (succ_extra s s' acts l Hs Hn) as [Ha Hb]. rewrite (invariants_cleanf _ _ Ha).
      destruct (invariants_ok false P (spec_succ P s acts)); [|exact I].
      split; [reflexivity|]. split; [exact Ha|]. exists l. split; [reflexivity | exact Hb].
    - destruct (negb (spec_effects_ok P s acts)); [exact I|].
      destruct (invariants_ok false P (spec_succ P s acts)); [right; reflexivity | exact I].
  Qed.

  Lemma fired_extra I' effs b :
    fired false I' (effs ++ [bool_effect fk b]) =
    match collect_res (eres_list false I' effs) with Some acts => Some (acts ++ xacts fk [b]) | None => None end.
  Proof.
    unfold fired. rewrite flat_map_app, collect_res_app. fold (eres_list false I' effs).
    destruct (collect_res (eres_list false I' effs)); reflexivity.
  Qed.

  (* the action with the extra effect fk := b steps in the compiled problem exactly when the action steps in the original
     problem; the successors agree off fk, and fk = b afterwards *)
  Lemma step_extra a b args s s' : agree_off fk s s' -> action_cleanf fk a = true ->
    match spec_step false P s a args, spec_step false P' s' (add_eff a (bool_effect fk b)) args with
    | Some t, Some t' => agree_off fk t t' /\ t' fk [] = Some (VBool b)
    | None, None => True
    | _, _ => False
    end.
  Proof.
    intros Hs Hc.
    pose proof (step_mon a (add_eff a (bool_effect fk b)) args s s' true (Some [b]) Hs Hc eq_refl
                  (eq_sym (andb_true_r _)) (fired_extra _ (a_effs a) b)) as H.
    destruct (spec_step false P s a args), (spec_step false P' s' (add_eff a (bool_effect fk b)) args); try exact H.
    - destruct H as (_ & Ha & l & E & Hb). inversion E; subst l. split; [exact Ha|]. rewrite Hb. cbn. rewrite orb_false_r. reflexivity.
    - destruct H as [H|H]; discriminate.
  Qed.
End ExtraStep.

Section UQD.
  Variables tr smp1 smp : expr -> expr.
  Variables G0 G2 : state -> Prop.
  Variable cdnf : expr -> list expr.
  Variable pre_dnf : action -> list (list expr).
  Variable nm : N -> nat -> N.
  Variable fk : N.
  Variable gnm : nat -> N.
  Variable gds : list (list expr).
  Variable P : problem.
  Let l := uqd_stages tr smp1 G0 smp cdnf pre_dnf nm fk gnm gds G2 P.
  Let P3 := uqd_dst tr smp1 smp cdnf pre_dnf nm fk gnm gds P.

  Lemma uqd_linked : linked l P3.
  Proof. cbn. repeat split; auto. Qed.

  Lemma uqd_aux : st_aux (compose_all l P3) = 1.
  Proof. reflexivity. Qed.
End UQD.

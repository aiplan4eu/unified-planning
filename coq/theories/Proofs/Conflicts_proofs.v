(* Proofs about the conflicting-effects bookkeeping model (C24). *)
From Coq Require Import List ZArith NArith QArith Bool Lia Permutation.
Import ListNotations.
Require Import UPV.Model.Conflicts UPV.Proofs.ListFacts.

(* generic argument:
   a container whose insertion raises exactly when the new member conflicts (symmetric relation) with a member
   already held, and otherwise holds the new member too.  Then "some insertion raises" holds iff the collection
   (together with what the container held before) contains a conflicting pair -- which does not mention the order. *)
Section Generic.
  Variables St Item : Type.
  Variable add : St -> Item -> St * bool.
  Variable items : St -> list Item.
  Variable confl : Item -> Item -> bool.
  Variable P : St -> list Item -> Prop.
  Hypothesis confl_sym : forall a b, confl a b = confl b a.
  Hypothesis P_perm : forall s l l', Permutation l l' -> P s l -> P s l'.
  Hypothesis add_rej : forall s i l, P s (i :: l) ->
    (snd (add s i) = true <-> existsb (confl i) (items s) = true).
  Hypothesis add_acc : forall s i l, P s (i :: l) -> snd (add s i) = false ->
    P (fst (add s i)) l /\ forall x, In x (items (fst (add s i))) <-> x = i \/ In x (items s).

  Fixpoint graises (s : St) (l : list Item) : bool :=
    match l with
    | [] => false
    | i :: l' => snd (add s i) || graises (fst (add s i)) l'
    end.

  Definition Clash (base l : list Item) : Prop :=
    exists l1 x l2 y, l = l1 ++ x :: l2 /\ In y (base ++ l1 ++ l2) /\ confl x y = true.

  Lemma Clash_ext base base' l : (forall x, In x base <-> In x base') -> Clash base l -> Clash base' l.
  Proof.
    intros H (l1 & x & l2 & y & E & Hy & Hc). exists l1, x, l2, y. split; [exact E|]. split; [|exact Hc].
    rewrite in_app_iff in *. rewrite <- H. exact Hy.
  Qed.

  Lemma Clash_perm base l l' : Permutation l l' -> Clash base l -> Clash base l'.
  Proof.
    intros Hp (l1 & x & l2 & y & E & Hy & Hc). subst l.
    assert (Hx : In x l') by (eapply Permutation_in; [exact Hp | apply in_elt]).
    apply in_split in Hx. destruct Hx as (l1' & l2' & E'). subst l'.
    apply Permutation_app_inv in Hp.
    exists l1', x, l2', y. split; [reflexivity|]. split; [|exact Hc].
    rewrite in_app_iff in *. destruct Hy as [Hy|Hy]; [left; exact Hy | right; eapply Permutation_in; eauto].
  Qed.

  Lemma Clash_cons base i l : existsb (confl i) base = false -> (Clash base (i :: l) <-> Clash (i :: base) l).
  Proof.
    intros Hn. split.
    - intros (l1 & x & l2 & y & E & Hy & Hc). destruct l1 as [|a l1]; simpl in E; inversion E; subst.
      + simpl in Hy. rewrite in_app_iff in Hy. destruct Hy as [Hy|Hy].
        * exfalso. assert (existsb (confl x) base = true) by (apply existsb_exists; eauto). congruence.
        * apply in_split in Hy. destruct Hy as (r1 & r2 & ->).
          exists r1, y, r2, x. split; [reflexivity|]. split; [left; reflexivity | rewrite confl_sym; exact Hc].
      + exists l1, x, l2, y. split; [reflexivity|]. split; [|exact Hc].
        apply in_app_or in Hy. simpl.
        destruct Hy as [Hy|[<-|Hy]]; [right; apply in_or_app; left; exact Hy | left; reflexivity | right; apply in_or_app; right; exact Hy].
    - intros (l1 & x & l2 & y & E & Hy & Hc). subst l.
      exists (i :: l1), x, l2, y. split; [reflexivity|]. split; [|exact Hc].
      destruct Hy as [<-|Hy]; [apply in_or_app; right; left; reflexivity|].
      apply in_app_or in Hy. apply in_or_app. destruct Hy as [Hy|Hy]; [left; exact Hy | right; right; exact Hy].
  Qed.

  Lemma graises_iff : forall l s, P s l -> (graises s l = true <-> Clash (items s) l).
  Proof.
    induction l as [|a l IH]; intros s HP; simpl.
    - split; [discriminate|]. intros (l1 & x & l2 & y & E & _). destruct l1; discriminate.
    - destruct (snd (add s a)) eqn:R; simpl.
      + split; [intros _ | reflexivity].
        apply (add_rej s a l HP) in R. apply existsb_exists in R. destruct R as (y & Hy & Hc).
        exists [], a, l, y. split; [reflexivity|]. split; [|exact Hc]. rewrite in_app_iff. left; exact Hy.
      + destruct (add_acc s a l HP R) as [HP' Hit]. rewrite (IH _ HP').
        assert (Hn : existsb (confl a) (items s) = false).
        { destruct (existsb (confl a) (items s)) eqn:E; [|reflexivity]. apply (add_rej s a l HP) in E. congruence. }
        rewrite (Clash_cons _ _ _ Hn).
        assert (Hiff : forall x, In x (items (fst (add s a))) <-> In x (a :: items s)).
        { intros x. rewrite Hit. simpl. split; intros [H|H]; [left; symmetry; exact H | right; exact H | left; symmetry; exact H | right; exact H]. }
        split; apply Clash_ext; intros x; [|symmetry]; apply Hiff.
  Qed.

  Theorem graises_perm s l l' : P s l -> Permutation l l' -> graises s l = graises s l'.
  Proof.
    intros HP Hp. pose proof (P_perm _ _ _ Hp HP) as HP'.
    apply eq_true_iff_eq. rewrite (graises_iff _ _ HP), (graises_iff _ _ HP').
    split; apply Clash_perm; [exact Hp | apply Permutation_sym, Hp].
  Qed.
End Generic.

Lemma veq_refl v : veq v v = true.
Proof. destruct v; simpl; [apply Qeq_bool_iff; reflexivity | apply N.eqb_refl | apply N.eqb_refl]. Qed.

Lemma veq_sym a b : veq a b = veq b a.
Proof. destruct a, b; simpl; auto using Qeq_bool_comm, N.eqb_sym. Qed.

Lemma veq_trans a b c : veq a b = true -> veq b c = true -> veq a c = true.
Proof.
  destruct a, b; simpl; try discriminate; destruct c; simpl; try discriminate.
  - intros H1 H2. apply Qeq_bool_iff in H1, H2. apply Qeq_bool_iff. exact (Qeq_trans _ _ _ H1 H2).
  - rewrite !N.eqb_eq. congruence.
  - rewrite !N.eqb_eq. congruence.
Qed.

Lemma veq_neq_l a b c : veq a b = true -> veq a c = false -> veq b c = false.
Proof.
  intros H1 H2. destruct (veq b c) eqn:E; [|reflexivity].
  rewrite (veq_trans a b c H1 E) in H2. discriminate.
Qed.

Lemma mem_In f s : mem f s = true <-> In f s.
Proof. apply (existsb_eqb_In _ N.eqb_eq). Qed.

Lemma mem_app f a b : mem f (a ++ b) = mem f a || mem f b.
Proof. unfold mem. apply existsb_app. Qed.

Lemma mem_set_add g f s : mem g (set_add f s) = (g =? f)%N || mem g s.
Proof.
  unfold set_add. destruct (mem f s) eqn:E.
  - destruct (g =? f)%N eqn:G; [|reflexivity]. apply N.eqb_eq in G. subst. rewrite E. reflexivity.
  - rewrite mem_app. simpl. rewrite orb_false_r. apply orb_comm.
Qed.

Lemma lookup_app f d g v :
  lookup f (d ++ [(g, v)]) = match lookup f d with Some x => Some x | None => if (f =? g)%N then Some v else None end.
Proof.
  induction d as [|[g' v'] d IH]; simpl; [reflexivity|].
  destruct (f =? g')%N; [reflexivity | exact IH].
Qed.

Lemma existsb_orb {A} (f g : A -> bool) l : existsb (fun x => f x || g x) l = existsb f l || existsb g l.
Proof.
  induction l as [|x l IH]; simpl; [reflexivity|]. rewrite IH.
  destruct (f x), (g x), (existsb f l); reflexivity.
Qed.

Lemma existsb_swap {A B} (g : A -> B -> bool) la lb :
  existsb (fun a => existsb (g a) lb) la = existsb (fun b => existsb (fun a => g a b) la) lb.
Proof.
  induction la as [|a la IH]; simpl.
  - symmetry. apply existsb_false. reflexivity.
  - rewrite IH, <- existsb_orb. reflexivity.
Qed.

Definition raised (e : effect) (sm : option (list N)) (fa : fdict) (fid : fset) : bool :=
  relevant e &&
  (if is_assign e
   then mem (e_fluent e) fid || in_sim (e_fluent e) sm ||
        match lookup (e_fluent e) fa with Some v0 => negb (veq v0 (e_value e)) | None => false end
   else has_key (e_fluent e) fa || in_sim (e_fluent e) sm).

Definition recorded (e : effect) (fa : fdict) (fid : fset) : fdict * fset :=
  if relevant e then
    if is_assign e
    then (match lookup (e_fluent e) fa with Some _ => fa | None => fa ++ [(e_fluent e, e_value e)] end, fid)
    else (fa, set_add (e_fluent e) fid)
  else (fa, fid).

(* a raising check leaves both bookkeeping structures as they were *)
Lemma check_spec e sm fa fid :
  check_conflicting_effects e sm fa fid =
  if raised e sm fa fid then (fa, fid, true) else (recorded e fa fid, false).
Proof.
  unfold check_conflicting_effects, raised, recorded, is_assign, has_key.
  destruct (relevant e); [|reflexivity]. simpl. destruct (e_kind e); simpl.
  1: destruct (mem _ fid); [reflexivity|]; destruct (in_sim _ sm); [reflexivity|]; simpl;
     destruct (lookup _ fa) as [v0|]; [destruct (veq v0 _)|]; reflexivity.
  all: destruct (lookup _ fa); [reflexivity|]; simpl; destruct (in_sim _ sm); reflexivity.
Qed.

Lemma add_effect_instance_spec s e :
  add_effect_instance s e =
  if raised e (sim s) (assigned s) (incdec s) then (s, true)
  else ({| effects := effects s ++ [e]; assigned := fst (recorded e (assigned s) (incdec s));
           incdec := snd (recorded e (assigned s) (incdec s)); sim := sim s |}, false).
Proof.
  unfold add_effect_instance. rewrite check_spec. destruct (raised _ _ _ _); [destruct s; reflexivity|].
  destruct (recorded _ _ _); reflexivity.
Qed.

Theorem add_item_rejected_noop s i : snd (add_item s i) = true -> fst (add_item s i) = s.
Proof.
  destruct i as [e|F]; simpl.
  - rewrite add_effect_instance_spec. destruct (raised _ _ _ _); simpl; [reflexivity | discriminate].
  - unfold set_simulated_effect.
    destruct (check_conflicting_simulated_effects F (assigned s) (incdec s)); simpl; [reflexivity | discriminate].
Qed.

Corollary rejected_then_as_if_never s i l :
  snd (add_item s i) = true ->
  raises (fst (add_item s i)) l = raises s l /\ run (fst (add_item s i)) l = run s l.
Proof. intros H. rewrite (add_item_rejected_noop s i H). split; reflexivity. Qed.

(* what an insertion does to the stored effects and to the simulated effect *)
Lemma add_effect_instance_fields s e :
  effects (fst (add_effect_instance s e)) = (if snd (add_effect_instance s e) then effects s else effects s ++ [e])
  /\ sim (fst (add_effect_instance s e)) = sim s.
Proof. rewrite add_effect_instance_spec. destruct (raised _ _ _ _); simpl; auto. Qed.

(* the invariant tying bookkeeping to stored effects *)
Definition rel_incdec_on (f : N) (e : effect) : bool := relevant e && negb (is_assign e) && (e_fluent e =? f)%N.
Definition rel_assign_on (f : N) (e : effect) : bool := relevant e && is_assign e && (e_fluent e =? f)%N.

Definition Inv (s : tp) : Prop :=
  (forall f, mem f (incdec s) = existsb (rel_incdec_on f) (effects s)) /\
  (forall f, match lookup f (assigned s) with
             | Some v0 => existsb (rel_assign_on f) (effects s) = true /\
                          forall e, In e (effects s) -> rel_assign_on f e = true -> veq v0 (e_value e) = true
             | None => existsb (rel_assign_on f) (effects s) = false
             end).

Lemma Inv_empty : Inv tp_empty.
Proof. split; intros f; reflexivity. Qed.

Lemma recorded_incdec e fa fid f : mem f (snd (recorded e fa fid)) = mem f fid || rel_incdec_on f e.
Proof.
  unfold recorded, rel_incdec_on. destruct (relevant e); [|simpl; rewrite orb_false_r; reflexivity].
  destruct (is_assign e); simpl; [rewrite orb_false_r; reflexivity|].
  rewrite mem_set_add, N.eqb_sym. apply orb_comm.
Qed.

Lemma recorded_assigned e fa fid f :
  lookup f (fst (recorded e fa fid)) =
  match lookup f fa with Some v => Some v | None => if rel_assign_on f e then Some (e_value e) else None end.
Proof.
  unfold recorded, rel_assign_on. destruct (relevant e); [|simpl; destruct (lookup f fa); reflexivity].
  destruct (is_assign e); simpl; [|destruct (lookup f fa); reflexivity].
  destruct (lookup (e_fluent e) fa) eqn:L.
  - destruct (lookup f fa) eqn:L2; [reflexivity|]. destruct (N.eqb_spec (e_fluent e) f); [subst; congruence | reflexivity].
  - rewrite lookup_app, (N.eqb_sym f). reflexivity.
Qed.

Lemma not_raised_veq e sm fa fid f v0 :
  raised e sm fa fid = false -> rel_assign_on f e = true -> lookup f fa = Some v0 -> veq v0 (e_value e) = true.
Proof.
  unfold raised, rel_assign_on. intros R Hr L. rewrite !andb_true_iff in Hr. destruct Hr as [[Hrel Ha] Hf].
  apply N.eqb_eq in Hf. subst f. rewrite Hrel, Ha, L in R. simpl in R. rewrite !orb_false_iff in R.
  destruct R as [_ R]. apply negb_false_iff. exact R.
Qed.

Lemma Inv_add_effect s e : Inv s -> Inv (fst (add_effect_instance s e)).
Proof.
  intros [Hi Ha]. rewrite add_effect_instance_spec. destruct (raised _ _ _ _) eqn:R; [split; assumption|].
  split; intros f; simpl.
  - rewrite recorded_incdec, existsb_app, Hi. simpl. rewrite orb_false_r. reflexivity.
  - rewrite recorded_assigned. specialize (Ha f). destruct (lookup f (assigned s)) as [v0|] eqn:L.
    + destruct Ha as [A1 A2]. split; [rewrite existsb_app, A1; reflexivity|].
      intros e' He' Hr. apply in_app_iff in He'. destruct He' as [He'|[<-|[]]]; [auto|].
      exact (not_raised_veq _ _ _ _ _ _ R Hr L).
    + destruct (rel_assign_on f e) eqn:Re.
      * split; [rewrite existsb_app; simpl; rewrite Re; apply orb_true_r|].
        intros e' He' Hr. apply in_app_iff in He'. destruct He' as [He'|[<-|[]]]; [|apply veq_refl].
        exfalso. assert (existsb (rel_assign_on f) (effects s) = true) by (apply existsb_exists; eauto). congruence.
      * rewrite existsb_app, Ha. simpl. rewrite Re. reflexivity.
Qed.

Lemma Inv_add_item s i : Inv s -> Inv (fst (add_item s i)).
Proof.
  destruct i as [e|F]; simpl; [apply Inv_add_effect|].
  intros H. unfold set_simulated_effect.
  destruct (check_conflicting_simulated_effects F (assigned s) (incdec s)); exact H.
Qed.

Theorem reach_Inv s : reach s -> Inv s.
Proof. induction 1; [apply Inv_empty | apply Inv_add_item; assumption]. Qed.

Lemma conflicts_sym a b : conflicts a b = conflicts b a.
Proof.
  destruct a as [a|F], b as [b|G]; simpl; try reflexivity.
  unfold conflicts_ee. rewrite (N.eqb_sym (e_fluent a)), (veq_sym (e_value a)).
  destruct (relevant a), (relevant b), (e_fluent b =? e_fluent a)%N, (is_assign a), (is_assign b); reflexivity.
Qed.

Lemma existsb_items (f : item -> bool) s :
  existsb f (tp_items s) = existsb (fun e => f (IEff e)) (effects s) || match sim s with Some F => f (ISim F) | None => false end.
Proof.
  unfold tp_items. rewrite existsb_app, existsb_map. destruct (sim s); simpl; [rewrite orb_false_r|]; reflexivity.
Qed.

Lemma assigned_some_iff s f : Inv s -> (has_key f (assigned s) = existsb (rel_assign_on f) (effects s)).
Proof.
  intros [_ Ha]. specialize (Ha f). unfold has_key. destruct (lookup f (assigned s)); [destruct Ha as [-> _]|rewrite Ha]; reflexivity.
Qed.

(* the recorded value of f differs from v iff some stored assignment to f has a value different from v *)
Lemma assigned_differs s f v : Inv s ->
  match lookup f (assigned s) with Some v0 => negb (veq v0 v) | None => false end =
  existsb (fun x => rel_assign_on f x && negb (veq v (e_value x))) (effects s).
Proof.
  intros [_ Ha]. specialize (Ha f). symmetry. destruct (lookup f (assigned s)) as [v0|].
  - destruct Ha as [A1 A2]. destruct (veq v0 v) eqn:V; simpl.
    + apply existsb_false. intros x Hx. destruct (rel_assign_on f x) eqn:Hr; [simpl | reflexivity].
      rewrite (veq_trans v v0 (e_value x)); [reflexivity | rewrite veq_sym; exact V | apply A2; assumption].
    + apply existsb_exists in A1. destruct A1 as (x & Hx & Hr). apply existsb_exists. exists x. split; [exact Hx|].
      rewrite Hr, veq_sym, (veq_neq_l v0 (e_value x) v (A2 x Hx Hr) V). reflexivity.
  - apply existsb_false. intros x Hx. destruct (rel_assign_on f x) eqn:Hr; [|reflexivity].
    assert (existsb (rel_assign_on f) (effects s) = true) by (apply existsb_exists; eauto). congruence.
Qed.

Lemma raised_conflicts s e : Inv s ->
  raised e (sim s) (assigned s) (incdec s) = existsb (conflicts (IEff e)) (tp_items s).
Proof.
  intros HI. rewrite existsb_items. simpl. unfold raised. destruct (relevant e) eqn:R; simpl.
  2:{ rewrite existsb_false.
      - unfold conflicts_se. rewrite R. destruct (sim s); reflexivity.
      - intros x _. unfold conflicts_ee. rewrite R. reflexivity. }
  replace (match sim s with Some F => conflicts_se F e | None => false end) with (in_sim (e_fluent e) (sim s))
    by (unfold conflicts_se, in_sim; rewrite R; destruct (sim s); reflexivity).
  destruct (is_assign e) eqn:A.
  - rewrite (existsb_ext_in _ (fun x => rel_incdec_on (e_fluent e) x ||
                                        rel_assign_on (e_fluent e) x && negb (veq (e_value e) (e_value x)))).
    + rewrite existsb_orb, <- (proj1 HI), <- (assigned_differs s _ _ HI).
      rewrite <- !orb_assoc. f_equal. apply orb_comm.
    + intros x _. unfold conflicts_ee, rel_incdec_on, rel_assign_on. rewrite R, A, (N.eqb_sym (e_fluent e)).
      destruct (relevant x), (e_fluent x =? e_fluent e)%N, (is_assign x); simpl; try reflexivity;
        rewrite ?orb_false_r; reflexivity.
  - rewrite (assigned_some_iff s _ HI). f_equal. apply existsb_ext_in. intros x _.
    unfold conflicts_ee, rel_assign_on. rewrite R, A, (N.eqb_sym (e_fluent e)).
    destruct (relevant x), (e_fluent x =? e_fluent e)%N, (is_assign x); reflexivity.
Qed.

(* the flag of set_simulated_effect, as a function of the stored effects *)
Lemma sim_raised_conflicts s F : Inv s ->
  check_conflicting_simulated_effects F (assigned s) (incdec s) = existsb (conflicts_se F) (effects s).
Proof.
  intros HI. unfold check_conflicting_simulated_effects.
  transitivity (existsb (fun f => existsb (fun e => relevant e && (e_fluent e =? f)%N) (effects s)) F).
  - apply existsb_ext. intros f. rewrite (proj1 HI), (assigned_some_iff s f HI), <- existsb_orb.
    apply existsb_ext. intros e. unfold rel_incdec_on, rel_assign_on.
    destruct (relevant e), (is_assign e), (e_fluent e =? f)%N; reflexivity.
  - rewrite existsb_swap. apply existsb_ext. intros e. unfold conflicts_se, mem.
    destruct (relevant e); simpl; [reflexivity | apply existsb_false; reflexivity].
Qed.

Lemma add_item_raises_iff s i : Inv s -> (snd (add_item s i) = true <-> existsb (conflicts i) (tp_items s) = true).
Proof.
  intros HI. destruct i as [e|F]; simpl.
  - rewrite add_effect_instance_spec, <- (raised_conflicts s e HI). destruct (raised _ _ _ _); reflexivity.
  - rewrite existsb_items. simpl. unfold set_simulated_effect. rewrite (sim_raised_conflicts s F HI).
    destruct (existsb (conflicts_se F) (effects s)); simpl; [tauto|]. destruct (sim s); simpl; split; discriminate.
Qed.

Definition P_tp (s : tp) (l : list item) : Prop := Inv s /\ (sim_count s + count_sims l <= 1)%nat.

Lemma count_sims_perm l l' : Permutation l l' -> count_sims l = count_sims l'.
Proof.
  induction 1 as [| x l l' _ IH | x y l | l l' l'' _ IH1 _ IH2]; simpl.
  - reflexivity.
  - destruct x; rewrite IH; reflexivity.
  - destruct x, y; reflexivity.
  - congruence.
Qed.

Lemma raises_graises s l : raises s l = graises tp item add_item s l.
Proof.
  revert s. induction l as [|i l IH]; intros s; simpl; [reflexivity|].
  destruct (add_item s i) as [s' r] eqn:E. simpl. rewrite IH. reflexivity.
Qed.

Lemma P_tp_perm s l l' : Permutation l l' -> P_tp s l -> P_tp s l'.
Proof. intros Hp [H1 H2]. split; [exact H1|]. rewrite <- (count_sims_perm _ _ Hp). exact H2. Qed.

Lemma P_tp_rej s i l : P_tp s (i :: l) -> (snd (add_item s i) = true <-> existsb (conflicts i) (tp_items s) = true).
Proof. intros [H _]. apply add_item_raises_iff; exact H. Qed.

Lemma P_tp_acc s i l : P_tp s (i :: l) -> snd (add_item s i) = false ->
  P_tp (fst (add_item s i)) l /\ forall x, In x (tp_items (fst (add_item s i))) <-> x = i \/ In x (tp_items s).
Proof.
  intros [HI HC] R. split; [split; [apply Inv_add_item; exact HI|]|].
  - destruct i as [e|F]; simpl in *.
    + destruct (add_effect_instance_fields s e) as [_ Hs]. unfold sim_count in *. rewrite Hs. exact HC.
    + unfold set_simulated_effect in *.
      destruct (check_conflicting_simulated_effects F (assigned s) (incdec s)); simpl in *; [discriminate|].
      unfold sim_count in *. simpl. destruct (sim s); simpl in HC; lia.
  - intros x. destruct i as [e|F]; simpl in *.
    + destruct (add_effect_instance_fields s e) as [He Hs]. rewrite R in He.
      unfold tp_items. rewrite He, Hs, map_app, !in_app_iff. simpl.
      split; [intros [[H|[H|[]]]|H] | intros [H|[H|H]]]; auto.
    + unfold set_simulated_effect in *.
      destruct (check_conflicting_simulated_effects F (assigned s) (incdec s)); simpl in *; [discriminate|].
      unfold tp_items; simpl. unfold sim_count in HC.
      destruct (sim s); simpl in HC; [lia|]. rewrite !in_app_iff. simpl.
      split; [intros [H|[H|[]]] | intros [H|[H|[]]]]; auto.
Qed.

Definition clash (base l : list item) : Prop := Clash item conflicts base l.

(* some insertion raises  <=>  two members of the collection (or a member and something already held) conflict *)
Theorem raises_iff_clash s l : Inv s -> (sim_count s + count_sims l <= 1)%nat ->
  (raises s l = true <-> clash (tp_items s) l).
Proof.
  intros HI HC. rewrite raises_graises.
  apply (graises_iff tp item add_item tp_items conflicts P_tp conflicts_sym P_tp_rej P_tp_acc).
  split; assumption.
Qed.

Theorem raises_perm s l l' : Inv s -> (sim_count s + count_sims l <= 1)%nat -> Permutation l l' ->
  raises s l = raises s l'.
Proof.
  intros HI HC Hp. rewrite !raises_graises.
  apply (graises_perm tp item add_item tp_items conflicts P_tp conflicts_sym P_tp_perm P_tp_rej P_tp_acc); [split; assumption | exact Hp].
Qed.

Corollary raises_perm_reach s l l' : reach s -> (sim_count s + count_sims l <= 1)%nat -> Permutation l l' ->
  raises s l = raises s l'.
Proof. intros H. apply raises_perm, reach_Inv, H. Qed.

Corollary raises_perm_fresh l l' : (count_sims l <= 1)%nat -> Permutation l l' -> raises tp_empty l = raises tp_empty l'.
Proof. intros H. apply raises_perm; [apply Inv_empty | exact H]. Qed.

Lemma tget_tset t' t s m : tget t' (tset t s m) = if (t' =? t)%N then s else tget t' m.
Proof.
  unfold tget. induction m as [|[t0 s0] m IH]; simpl.
  - destruct (t' =? t)%N; reflexivity.
  - destruct (t =? t0)%N eqn:E; simpl.
    + apply N.eqb_eq in E. subst t0. destruct (t' =? t)%N; reflexivity.
    + destruct (t' =? t0)%N eqn:F.
      * apply N.eqb_eq in F. subst t0. rewrite N.eqb_sym in E. rewrite E. reflexivity.
      * exact IH.
Qed.

(* every time point of a reachable timed container is a reachable single-time-point container *)
Lemma treach_reach m : treach m -> forall t, reach (tget t m).
Proof.
  induction 1 as [|m [t0 i] _ IH]; intros t; [apply reach_empty|].
  unfold tadd_item; simpl. destruct (add_item (tget t0 m) i) as [s' r] eqn:E. simpl. rewrite tget_tset.
  destruct (t =? t0)%N; [|apply IH]. change s' with (fst (s', r)). rewrite <- E. apply reach_add, IH.
Qed.

Lemma treach_Inv m : treach m -> forall t, Inv (tget t m).
Proof. intros H t. apply reach_Inv, treach_reach, H. Qed.

Theorem tadd_item_rejected_noop m ti :
  snd (tadd_item m ti) = true -> forall t, tget t (fst (tadd_item m ti)) = tget t m.
Proof.
  destruct ti as [t0 i]. unfold tadd_item; simpl.
  destruct (add_item (tget t0 m) i) as [s' r] eqn:E. simpl. intros -> t. rewrite tget_tset.
  destruct (t =? t0)%N eqn:F; [|reflexivity]. apply N.eqb_eq in F. subst t0.
  change s' with (fst (s', true)). rewrite <- E. apply add_item_rejected_noop. rewrite E. reflexivity.
Qed.

(* an insertion at one time point never touches another time point *)
Lemma tadd_item_other m t0 i t : t <> t0 -> tget t (fst (tadd_item m (t0, i))) = tget t m.
Proof.
  intros H. unfold tadd_item; simpl. destruct (add_item (tget t0 m) i) as [s' r]. simpl. rewrite tget_tset.
  destruct (t =? t0)%N eqn:F; [apply N.eqb_eq in F; contradiction | reflexivity].
Qed.

Lemma traises_iff : forall l m, traises m l = true <-> exists t, raises (tget t m) (proj t l) = true.
Proof.
  induction l as [|[t0 i] l IH]; intros m; simpl.
  - split; [discriminate | intros [t H]; discriminate].
  - unfold tadd_item; simpl. destruct (add_item (tget t0 m) i) as [s' r] eqn:E.
    rewrite orb_true_iff, IH. split.
    + intros [->|[t H]].
      * exists t0. rewrite N.eqb_refl. simpl. rewrite E. reflexivity.
      * exists t. rewrite tget_tset in H. destruct (t =? t0)%N eqn:F.
        -- apply N.eqb_eq in F. subst t0. simpl. rewrite E, H. apply orb_true_r.
        -- exact H.
    + intros [t H]. destruct (t =? t0)%N eqn:F.
      * apply N.eqb_eq in F. subst t0. simpl in H. rewrite E in H. apply orb_true_iff in H.
        destruct H as [H|H]; [left; exact H | right; exists t; rewrite tget_tset, N.eqb_refl; exact H].
      * right. exists t. rewrite tget_tset, F. exact H.
Qed.

Lemma proj_perm t l l' : Permutation l l' -> Permutation (proj t l) (proj t l').
Proof.
  induction 1 as [| [t1 x] l l' _ IH | [t1 x] [t2 y] l | l l' l'' _ IH1 _ IH2]; simpl.
  - constructor.
  - destruct (t =? t1)%N; [constructor|]; exact IH.
  - destruct (t =? t1)%N, (t =? t2)%N; try apply Permutation_refl. apply perm_swap.
  - eapply Permutation_trans; eauto.
Qed.

Theorem traises_perm m l l' :
  (forall t, Inv (tget t m)) -> (forall t, (sim_count (tget t m) + count_sims (proj t l) <= 1)%nat) ->
  Permutation l l' -> traises m l = traises m l'.
Proof.
  intros HI HC Hp. apply eq_true_iff_eq. rewrite !traises_iff.
  assert (E : forall t, raises (tget t m) (proj t l) = raises (tget t m) (proj t l')).
  { intros t. apply raises_perm; [apply HI | apply HC | apply proj_perm, Hp]. }
  split; intros [t H]; exists t; [rewrite <- E | rewrite E]; exact H.
Qed.

Corollary traises_perm_reach m l l' :
  treach m -> (forall t, (sim_count (tget t m) + count_sims (proj t l) <= 1)%nat) ->
  Permutation l l' -> traises m l = traises m l'.
Proof. intros H. apply traises_perm. apply treach_Inv, H. Qed.

(* the hypothesis "at most one simulated effect" is needed:
   set_simulated_effect REPLACES the previous one, so with two of them the order decides which one is in force *)
Definition ex_assign (f : N) : effect :=
  {| e_fluent := f; e_bool := false; e_kind := KAssign; e_value := VNum 1; e_cond := false; e_tag := 0 |}.
Example two_sims_order_matters :
  raises tp_empty [ISim [1%N]; ISim [2%N]; IEff (ex_assign 1)] = false /\
  raises tp_empty [ISim [2%N]; ISim [1%N]; IEff (ex_assign 1)] = true.
Proof. split; vm_compute; reflexivity. Qed.

(* the code before commit "fix: do not record a rejected
   increase/decrease ..." added the fluent to fluents_inc_dec BEFORE the simulated-effect test; kept only to document
   what the repaired order buys: with the old order a rejected insertion changed the bookkeeping *)
Definition check_incdec_before_fix (e : effect) (sm : option (list N)) (fa : fdict) (fid : fset) : fdict * fset * bool :=
  if has_key (e_fluent e) fa then (fa, fid, true)
  else if in_sim (e_fluent e) sm then (fa, set_add (e_fluent e) fid, true)
  else (fa, set_add (e_fluent e) fid, false).
Example before_fix_rejected_changes_bookkeeping :
  let e := {| e_fluent := 1; e_bool := false; e_kind := KIncrease; e_value := VNum 1; e_cond := false; e_tag := 0 |} in
  check_incdec_before_fix e (Some [1%N]) [] [] = ([], [1%N], true).
Proof. reflexivity. Qed.

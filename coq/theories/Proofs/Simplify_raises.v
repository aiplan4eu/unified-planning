(* Where the implementation raises (a divisor that simplifies to the constant 0), the expression has no value:
   [raises G strict n e = true -> eval false e I = None].  So the exceptions of walk_div (ZeroDivisionError /
   AssertionError, and the type checker's ZeroDivisionError when Div(l, 0) is built) never hide a defined value. *)
From Coq Require Import List ZArith NArith QArith Qcanon Bool Lia.
Import ListNotations.
Require Import UPV.Core.Expr UPV.Core.Eval UPV.Proofs.Eval_lemmas UPV.Proofs.ExprView UPV.Proofs.EvalView UPV.Walkers.Simplify UPV.Proofs.Simplify_base
  UPV.Proofs.Simplify_fv UPV.Proofs.Simplify_sem UPV.Proofs.Simplify_wf UPV.Proofs.Simplify_wfp UPV.Proofs.Simplify_sound
  UPV.Proofs.Simplify_quant.
Local Open Scope nat_scope.

Section UnfoldRaises.
  Variables (G : cfg) (s : bool) (n : nat).
  Lemma rs_leaf e : is_leaf e = true -> raises G s n e = false.
  Proof. destruct e; try discriminate; destruct n; reflexivity. Qed.
  Lemma rs_E1 o a : raises G s n (E1 o a) = raises G s n a. Proof. destruct o, n; reflexivity. Qed.
  (* only a division adds a way to raise at the node itself *)
  Lemma rs_E2 o a b :
    raises G s n (E2 o a b) = true ->
    raises G s n a || raises G s n b = true \/ (o = BDiv /\ div0 s (simp G n a) (simp G n b) = true).
  Proof.
    destruct o; try (destruct n; left; assumption).
    replace (raises G s n (E2 BDiv a b)) with (raises G s n a || raises G s n b || div0 s (simp G n a) (simp G n b))
      by (destruct n; reflexivity).
    intros H. apply orb_true_iff in H. destruct H; auto.
  Qed.
  Lemma rs_En o l : raises G s n (En o l) = existsb (raises G s n) l. Proof. destruct o, n; reflexivity. Qed.
  Lemma rs_EForall vs a : raises G s n (EForall vs a) = raises G s n a. Proof. destruct n; reflexivity. Qed.
  Lemma rs_EExists vs a :
    raises G s n (EExists vs a) =
    raises G s n a ||
    (let body := simp G n a in
     let vs0 := prune G vs body in
     match elim_step G vs0 body with
     | None => false
     | Some _ =>
         match n with
         | O => false
         | S n' => let '(vs1, b1) := elim_loop G (length vs0) vs0 body in raises G s n' (mkExists vs1 b1)
         end
     end).
  Proof. destruct n; reflexivity. Qed.
End UnfoldRaises.


Section Raises.
  Variables (G : cfg) (tau : N -> N) (QT : N -> bool) (strict : bool).
  Hypothesis HG : cfg_consts G.
  Notation wf := (wfx tau QT).
  Notation eok := (env_ok G tau QT).

  Lemma quant_none ex I S vs a :
    eok I -> binders_ok tau QT S vs = true ->
    (forall J, eok J -> eval false a J = None) -> eval false (EQ ex vs a) I = None.
  Proof.
    intros E W H. apply binders_ok_spec in W. destruct W as [A ND]. rewrite eval_EQ.
    assert (Hne : instances I vs <> []).
    { apply instances_nonempty. intros p Hp. destruct (A p Hp) as (_ & A2 & _). apply (ok_inh _ _ _ _ E). exact A2. }
    destruct (instances I vs) as [|J L] eqn:EL; [congruence|]. cbn [map q_fold].
    rewrite (H J); [reflexivity|]. eapply env_ok_inst; eauto.
    - intros p Hp. apply A. exact Hp.
    - rewrite EL. left. reflexivity.
  Qed.

  Lemma raises_gen n :
    (forall x S I, wf S x = true -> eok I ->
       (match n with O => false | S n' => raises G strict n' x end) = true -> eval false x I = None) ->
    forall e S I, wf S e = true -> eok I -> raises G strict n e = true -> eval false e I = None.
  Proof.
    intros Hrs.
    induction e using expr_view_ind; intros S I W E Rz.
    - rewrite rs_leaf in Rz by assumption. discriminate.
    - rewrite rs_E1 in Rz. rewrite wf_E1 in W. apply eval_E1_none, (IHe S I W E Rz).
    - rewrite wf_E2 in W. apply andb_true_iff in W. destruct W as [W1 W2].
      destruct (rs_E2 _ _ _ _ _ _ Rz) as [Rab|[-> Rd]]; [apply orb_true_iff in Rab; destruct Rab as [Ra|Rb]|]; clear Rz.
      + apply eval_E2_none. left. exact (IHe1 S I W1 E Ra).
      + apply eval_E2_none. right. exact (IHe2 S I W2 E Rb).
      + (* a divisor that simplifies to the constant 0 has the value 0 (soundness), so the quotient has none *)
        rename Rd into Rz. cbn [E2]. rewrite eval_EDiv.
        unfold div0 in Rz. destruct (num_of (simp G n e2)) as [z|] eqn:Nz; [|discriminate].
        apply andb_true_iff in Rz. destruct Rz as [Z0 _]. apply num_is0_spec in Z0.
        destruct (as_num (eval false e1 I)) as [x|]; [|reflexivity].
        destruct (eval false e2 I) as [v2|] eqn:V2; [|reflexivity].
        assert (V2' := simp_sound G tau QT HG n e2 S I W2 E _ V2).
        rewrite (eval_num_of false I _ z Nz) in V2'. inversion V2'; subst. cbn [as_num]. rewrite Z0. reflexivity.
    - rewrite rs_En in Rz. apply existsb_exists in Rz. destruct Rz as [x [Hx Rx]]. rewrite Forall_forall in H.
      apply (eval_En_none _ _ _ _ x Hx). exact (H x Hx S I (wf_En_in tau QT S o l x W Hx) E Rx).
    - rewrite wf_EQ in W. apply andb_true_iff in W. destruct W as [W1 W2]. destruct ex; cbn [EQ] in *.
      + rewrite rs_EExists in Rz. apply orb_true_iff in Rz. destruct Rz as [Rz|Rz].
        * apply (quant_none true I S vs e E W1). intros J EJ. exact (IHe _ J W2 EJ Rz).
        * cbv zeta in Rz.
          destruct (elim_step G (prune G vs (simp G n e)) (simp G n e)) as [p|] eqn:ES; [|discriminate].
          destruct n as [|n']; [discriminate|].
          destruct (elim_loop G (length (prune G vs (simp G (Datatypes.S n') e))) (prune G vs (simp G (Datatypes.S n') e)) (simp G (Datatypes.S n') e)) as [vs1 b1] eqn:L.
          assert (U : walk_exists G (fun x => x) vs (simp G (Datatypes.S n') e) = mkExists vs1 b1).
          { unfold walk_exists. rewrite ES, L. reflexivity. }
          assert (Wb : wf S (EExists vs (simp G (Datatypes.S n') e)) = true).
          { cbn [wfx]. rewrite W1. cbn [andb]. apply simp_wf; assumption. }
          assert (Wm : wf S (mkExists vs1 b1) = true).
          { rewrite <- U. apply (wf_walk_exists tau QT G (fun x => x) vs _ S HG); [auto|exact Wb]. }
          assert (Nn := Hrs _ S I Wm E Rz).
          destruct (eval false (EExists vs e) I) as [v|] eqn:V; [|reflexivity]. exfalso.
          assert (R1 : R I I (EExists vs e) (EExists vs (simp G (Datatypes.S n') e))).
          { apply (cong_EQ_body G tau QT true I S vs e _ E W1). intros J. apply (simp_sound G tau QT HG _ e _ J W2). }
          assert (R2 : R I I (EExists vs (simp G (Datatypes.S n') e)) (mkExists vs1 b1)).
          { rewrite <- U. apply (sound_walk_exists G tau QT HG (fun x => x) I S); [|exact E|exact Wb].
            intros x S' I' _ _. apply R_refl. }
          rewrite (R2 _ (R1 _ V)) in Nn. discriminate.
      + rewrite rs_EForall in Rz. apply (quant_none false I S vs e E W1). intros J EJ. exact (IHe _ J W2 EJ Rz).
  Qed.

  Theorem raises_no_value n : forall e S I, wf S e = true -> eok I -> raises G strict n e = true -> eval false e I = None.
  Proof.
    induction n as [|n IHn]; apply raises_gen.
    - intros x S I _ _ H. discriminate.
    - intros x S I W E H. eapply IHn; eauto.
  Qed.
End Raises.

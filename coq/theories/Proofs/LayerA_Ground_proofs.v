(* C06 / C07, Layer A — Grounder: proofs about Compilers/LayerA_Ground.v.
   The key fact is C01's substitution lemma [psubst_eval] (Proofs/Ground_proofs.v): evaluating the substituted expression
   with no parameter bound = evaluating the original with the parameters bound.  From it: the ground action takes exactly
   the step of the original action on the given arguments ([ground_step]). *)
From Coq Require Import List ZArith NArith QArith Qcanon Bool Lia.
Import ListNotations.
Require Import UPV.Core.Expr UPV.Core.Eval UPV.Core.Interp UPV.Planning.Problem UPV.Planning.Sem UPV.Planning.Ground.
Require Import UPV.Proofs.Eval_lemmas UPV.Proofs.Sem_proofs UPV.Proofs.Step_proofs UPV.Proofs.Ground_proofs.
Require Import UPV.Compilers.Variants UPV.Compilers.LayerA_Defs UPV.Compilers.LayerA_Variants UPV.Compilers.LayerA_Quant.
Require Import UPV.Compilers.LayerA_Ground.
Require Import UPV.Proofs.LayerA_base UPV.Proofs.LayerA_tables UPV.Proofs.ListFacts UPV.Compilers.LayerA_Pipe UPV.Proofs.LayerA_sim.
Local Open Scope nat_scope.

Lemma gt_back_unique t id' ia g : NoDup (map fst (gt_actions t)) -> In (id', ia, g) t -> gt_back t id' = ia.
Proof.
  intros Hnd Hin. unfold gt_back. rewrite (find_key_unique t id' ia g); [reflexivity | | exact Hin].
  unfold gt_actions in Hnd. rewrite map_map in Hnd. exact Hnd.
Qed.

Section GroundProofs.
  Variable smp : expr -> expr.
  Variable tuples : N -> list (list value).
  Variable nm : N -> nat -> N.
  Variable P : problem.
  Variable G : state -> Prop.
  Hypothesis Hsmp : smp_exact_on P G smp.

  Let tbl := ground_table smp tuples nm P.
  Let P' := ground_compile smp tuples nm P.

  Lemma g_pre_spec s sg pre : G s ->
    match g_pre smp sg pre with
    | Some pre' => all_hold false (mk_interp P s []) pre' = all_hold false (mk_interp P s sg) pre
    | None => all_hold false (mk_interp P s sg) pre = false
    end.
  Proof.
    intros HG. apply g_pre_holds. unfold holds. rewrite (Hsmp _ s [] (mk_interp P s []) HG (or_introl eq_refl)).
    fold (holds false (mk_interp P s []) (mkAnd (map (psubst sg) pre))). rewrite holds_mkAnd.
    apply all_hold_map_eq2. intros x _. apply psubst_eval. apply prel_mk_interp.
  Qed.

  Lemma g_effect_instance s sg e J J' :
    G s -> In J' (instances (mk_interp P s []) (e_vars e)) -> prel sg J J' -> evals_l false J (e_args e) <> None ->
    match g_effect smp sg e with
    | Some ge => eval_effect false J' ge = eval_effect false J e
    | None => eval_effect false J e = ESkip
    end.
  Proof.
    intros HG HJ' HR Ht.
    assert (EV : forall x, eval false (smp (psubst sg x)) J' = eval false x J).
    { intros x. rewrite (Hsmp _ s (e_vars e) J' HG HJ'). apply psubst_eval. exact HR. }
    unfold g_effect. destruct (is_false (smp (psubst sg (e_cond e)))) eqn:Fc; unfold eval_effect.
    - apply is_false_eq in Fc. pose proof (EV (e_cond e)) as Ec. rewrite Fc in Ec. cbn [eval] in Ec.
      destruct (evals_l false J (e_args e)); [|contradiction Ht; reflexivity]. rewrite <- Ec. reflexivity.
    - cbn [e_args e_cond e_val e_fl e_kind].
      rewrite (evals_l_map_eq2 false J J' _ (e_args e) (fun x _ => EV x)), !EV. reflexivity.
  Qed.

  Lemma g_effects_fired s a args : G s -> vars_kept smp a args -> g_targets_total P a args ->
    fired false (mk_interp P s []) (g_effects smp (zip_params (a_params a) args) (a_effs a)) =
    fired false (mk_interp P s (zip_params (a_params a) args)) (a_effs a).
  Proof.
    intros HG Hv Ht. apply (fired_g_effects _ _ _ _ _ (prel_mk_interp P s _) Hv).
    intros e J J' He HJ HJ' HR. exact (g_effect_instance s _ e J J' HG HJ' HR (Ht s e J He HJ)).
  Qed.

  (* the ground action, whatever it is applied to, takes exactly the step of the original action on the arguments *)
  Lemma ground_step_args s a args g args' : G s -> vars_kept smp a args -> g_targets_total P a args ->
    g_action smp a args = Some g ->
    spec_step false P' s g args' = spec_step false P s a args.
  Proof.
    intros HG Hv Ht Hg. unfold g_action in Hg.
    destruct (add_effs_ok [] [] (g_effects smp (zip_params (a_params a) args) (a_effs a))); [|discriminate].
    pose proof (g_pre_spec s (zip_params (a_params a) args) (a_pre a) HG) as Hp.
    destruct (g_pre smp (zip_params (a_params a) args) (a_pre a)) as [pre|]; [|discriminate].
    inversion Hg; subst g. clear Hg.
    apply spec_step_cong2; try reflexivity.
    - exact Hp.
    - cbn [a_effs a_params zip_params]. apply g_effects_fired; assumption.
    - intros acts _. apply (invariants_ok_same P P'); reflexivity.
  Qed.

  Lemma ground_step s a args g : G s -> vars_kept smp a args -> g_targets_total P a args ->
    g_action smp a args = Some g ->
    spec_step false P' s g [] = spec_step false P s a args.
  Proof. apply ground_step_args. Qed.

  (* no ground action because the simplified precondition is FALSE: the instance is not applicable *)
  Lemma ground_pre_none s a args : G s -> g_pre smp (zip_params (a_params a) args) (a_pre a) = None ->
    spec_step false P s a args = None.
  Proof.
    intros HG Hn. pose proof (g_pre_spec s (zip_params (a_params a) args) (a_pre a) HG) as Hp. rewrite Hn in Hp.
    rewrite spec_step_eq, Hp. reflexivity.
  Qed.

  Hypothesis Hu : unique_ids P.
  Hypothesis Hu' : unique_ids P'.      (* the ground names are pairwise different (fix 206e087; C08) *)
  Hypothesis Gstep : forall s aid a args t, G s -> lookup_action P aid = Some a -> spec_step false P s a args = Some t -> G t.
  Hypothesis Hinst : instances_ok smp tuples P.

  Lemma ground_lookup id' g : lookup_action P' id' = Some g ->
    exists i args a, gt_back tbl id' = (i, args) /\ lookup_action P i = Some a /\ In args (tuples i) /\
                     g_action smp a args = Some g.
  Proof.
    unfold lookup_action. change (p_actions P') with (gt_actions tbl). intros H. apply lookupN_In in H.
    apply rows_actions_In in H. destruct H as [[i args] Hin].
    destruct (ground_table_In smp tuples nm P id' i args g Hin) as [a [Ha [Ht Hg]]].
    exists i, args, a. repeat split; try assumption.
    - apply (gt_back_unique tbl id' (i, args) g); [exact Hu' | exact Hin].
    - apply lookupN_unique; assumption.
  Qed.

  Lemma gt_map_back_pback pi' : gt_map_back tbl pi' = pback (ground_back smp tuples nm P) pi'.
  Proof. induction pi' as [|x pi' IH]; [reflexivity|]. rewrite pback_cons, <- IH. reflexivity. Qed.

  (* a step of the ground problem is the step of its image, from the same state *)
  Lemma ground_sim_step s s' x' t' : st_rel (ground_stage smp tuples nm G P) s s' -> True ->
    run P' (spec_step false P') s' [x'] = Some t' ->
    exists t, run P (spec_step false P) s (ostep (ground_back smp tuples nm P) x') = Some t /\
              st_rel (ground_stage smp tuples nm G P) t t'.
  Proof.
    intros [<- HG] _. destruct x' as [id' args']. unfold ostep, ground_back. cbn [fst]. rewrite run_single.
    destruct (lookup_action P' id') as [g|] eqn:EL; [|discriminate].
    destruct (ground_lookup id' g EL) as (i & args & a & Hb & ELo & Htu & Hg). fold tbl. rewrite Hb, run_single, ELo.
    assert (Ha : In (i, a) (p_actions P)) by (apply lookupN_In; exact ELo).
    destruct (Hinst i a args Ha Htu) as [Hv Htt].
    rewrite (ground_step_args s a args g args' HG Hv Htt Hg).
    intros ES. exists t'. split; [exact ES|]. split; [reflexivity | eapply Gstep; eassumption].
  Qed.

  Lemma ground_run_sound pi' : forall s t, G s ->
    run P' (spec_step false P') s pi' = Some t -> run P (spec_step false P) s (gt_map_back tbl pi') = Some t.
  Proof.
    intros s t HG ER. rewrite gt_map_back_pback.
    destruct (sim_run (ground_stage smp tuples nm G P) ground_sim_step pi' s s t (conj eq_refl HG)
                (proj2 (Forall_forall _ _) (fun _ _ => I)) ER) as [t0 [E [<- _]]]. exact E.
  Qed.

  (* soundness: a valid plan of the ground problem, mapped back by lift_action_instance, is a valid plan of the
     original problem through the SAME states (the runs are equal for every plan, hence for every prefix) *)
  Theorem ground_sound s0 pi' : G s0 ->
    valid_plan false P' s0 pi' = true -> valid_plan false P s0 (gt_map_back tbl pi') = true.
  Proof.
    intros HG. unfold valid_plan.
    destruct (run P' (spec_step false P') s0 pi') as [t|] eqn:ER; [|discriminate].
    rewrite (ground_run_sound pi' s0 t HG ER). intros H. exact H.
  Qed.

  (* ---- completeness.  An instance left out because its ground effects conflict SYNTACTICALLY must be inapplicable:
     true when syntactically different assigned values differ at run time (C37_conflict_drop_sound's hypotheses);
     false in the recorded findings C01-grounding-syntactic-conflict / C07-grounder-syntactic-conflict-action-dropped *)
  Hypothesis Hconf : forall s i a args, G s -> In (i, a) (p_actions P) -> In args (tuples i) ->
    add_effs_ok [] [] (g_effects smp (zip_params (a_params a) args) (a_effs a)) = false ->
    spec_step false P s a args = None.

  Lemma ground_cstep s i a args t : G s -> In (i, a) (p_actions P) -> In args (tuples i) ->
    spec_step false P s a args = Some t ->
    exists g, g_action smp a args = Some g /\ spec_step false P' s g [] = Some t.
  Proof.
    intros HG Ha Htu ES. destruct (Hinst i a args Ha Htu) as [Hv Htt].
    destruct (g_action smp a args) as [g|] eqn:Eg.
    - exists g. split; [reflexivity|]. rewrite (ground_step s a args g HG Hv Htt Eg). exact ES.
    - exfalso. unfold g_action in Eg.
      destruct (add_effs_ok [] [] (g_effects smp (zip_params (a_params a) args) (a_effs a))) eqn:Ec.
      + destruct (g_pre smp (zip_params (a_params a) args) (a_pre a)) eqn:Ep; [discriminate|].
        rewrite (ground_pre_none s a args HG Ep) in ES. discriminate.
      + rewrite (Hconf s i a args HG Ha Htu Ec) in ES. discriminate.
  Qed.

  Lemma ground_tbl_lookup id' ia g : In (id', ia, g) tbl -> lookup_action P' id' = Some g.
  Proof.
    intros Ht. unfold lookup_action. change (p_actions P') with (gt_actions tbl). apply lookupN_unique; [exact Hu'|].
    unfold gt_actions. apply in_map_iff. exists (id', ia, g). split; [reflexivity | exact Ht].
  Qed.

  Lemma ground_run_complete pi : forall s t, G s -> plan_in_tuples tuples pi ->
    run P (spec_step false P) s pi = Some t ->
    exists pi', run P' (spec_step false P') s pi' = Some t /\ gt_map_back tbl pi' = pi.
  Proof.
    induction pi as [|[i args] pi IH]; intros s t HG Hin; cbn [run].
    - intros E. exists []. split; [exact E | reflexivity].
    - destruct (lookup_action P i) as [a|] eqn:EL; [|discriminate].
      destruct (spec_step false P s a args) as [s1|] eqn:ES; [|discriminate]. intros ER.
      assert (Ha : In (i, a) (p_actions P)) by (apply lookupN_In; exact EL).
      assert (Htu : In args (tuples i)) by (apply Hin; left; reflexivity).
      destruct (ground_cstep s i a args s1 HG Ha Htu ES) as [g [Eg Es]].
      destruct (In_ground_table smp tuples nm P i a args g Ha Htu Eg) as [k Ht]. fold tbl in Ht.
      destruct (IH s1 t (Gstep s i a args s1 HG EL ES)) as [pi' [R1 R2]]; [intros j b Hj; apply Hin; right; exact Hj | exact ER|].
      exists ((nm i k, []) :: pi'). cbn [run gt_map_back map fst]. split.
      * rewrite (ground_tbl_lookup _ _ g Ht), Es. exact R1.
      * rewrite (gt_back_unique tbl (nm i k) (i, args) g Hu' Ht). fold (gt_map_back tbl pi'). rewrite R2. reflexivity.
  Qed.

  (* completeness: every valid plan of the original problem whose steps use enumerated parameter tuples is the image
     of a valid plan of the ground problem (same length, same states) *)
  Theorem ground_complete s0 pi : G s0 -> plan_in_tuples tuples pi ->
    valid_plan false P s0 pi = true ->
    exists pi', valid_plan false P' s0 pi' = true /\ gt_map_back tbl pi' = pi.
  Proof.
    intros HG Hin. unfold valid_plan.
    destruct (run P (spec_step false P) s0 pi) as [t|] eqn:ER; [|discriminate]. intros Hgl.
    destruct (ground_run_complete pi s0 t HG Hin ER) as [pi' [R1 R2]].
    exists pi'. rewrite R1. split; [exact Hgl | exact R2].
  Qed.
End GroundProofs.

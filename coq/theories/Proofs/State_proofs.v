(* Proofs about the UPState model (C36): refinement to a finite map with defaults. *)
From Coq Require Import List ZArith NArith Bool Lia Permutation.
Import ListNotations.
Require Import UPV.Model.State UPV.Proofs.ListFacts.

Lemma gf_eqb_eq a b : gf_eqb a b = true <-> a = b.
Proof.
  unfold gf_eqb; destruct a as [a1 a2], b as [b1 b2]; simpl.
  rewrite andb_true_iff, !N.eqb_eq. split; [intros [-> ->]; reflexivity | intros H; inversion H; auto].
Qed.
Lemma gf_eqb_refl a : gf_eqb a a = true.
Proof. apply gf_eqb_eq; reflexivity. Qed.
Lemma gf_eqb_neq a b : gf_eqb a b = false <-> a <> b.
Proof.
  split; intros H.
  - intros E. apply gf_eqb_eq in E. congruence.
  - destruct (gf_eqb a b) eqn:E; [apply gf_eqb_eq in E; contradiction | reflexivity].
Qed.

Definition keys (d : dict) : list gf := map fst d.
Definition ndk (d : dict) : Prop := NoDup (keys d).

Lemma lookup_app k a b :
  lookup k (a ++ b) = match lookup k a with Some v => Some v | None => lookup k b end.
Proof.
  induction a as [|[k' v] a IH]; simpl; [reflexivity|].
  destruct (gf_eqb k k'); [reflexivity | exact IH].
Qed.

Lemma lookup_none_notin k d : lookup k d = None <-> ~ In k (keys d).
Proof.
  induction d as [|[k' v] d IH]; simpl; [tauto|].
  destruct (gf_eqb k k') eqn:E.
  - apply gf_eqb_eq in E; subst. split; [discriminate | intros H; exfalso; apply H; auto].
  - apply gf_eqb_neq in E. rewrite IH. split; [intros H [H1|H1]; [congruence|auto] | tauto].
Qed.

Lemma lookup_in k v d : lookup k d = Some v -> In (k, v) d.
Proof.
  induction d as [|[k' v'] d IH]; simpl; [discriminate|].
  destruct (gf_eqb k k') eqn:E.
  - apply gf_eqb_eq in E; subst. intros H; inversion H; auto.
  - auto.
Qed.

Lemma in_lookup k v d : ndk d -> In (k, v) d -> lookup k d = Some v.
Proof.
  unfold ndk, keys. induction d as [|[k' v'] d IH]; simpl; intros ND HI; [tauto|].
  inversion ND as [|? ? Hn ND']; subst.
  destruct HI as [HI|HI].
  - inversion HI; subst. rewrite gf_eqb_refl; reflexivity.
  - destruct (gf_eqb k k') eqn:E.
    + apply gf_eqb_eq in E; subst. exfalso; apply Hn. change k' with (fst (k', v)). apply in_map; exact HI.
    + auto.
Qed.

Lemma lookup_setdefaults k d : forall acc,
  lookup k (setdefaults acc d) = match lookup k acc with Some v => Some v | None => lookup k d end.
Proof.
  induction d as [|[k' v'] d IH]; intros acc; simpl.
  - destruct (lookup k acc); reflexivity.
  - destruct (lookup k' acc) eqn:E.
    + rewrite IH. destruct (lookup k acc) eqn:E2; [reflexivity|].
      destruct (gf_eqb k k') eqn:E3; [apply gf_eqb_eq in E3; subst; congruence | reflexivity].
    + rewrite IH, lookup_app. destruct (lookup k acc); [reflexivity|]. simpl.
      destruct (gf_eqb k k'); reflexivity.
Qed.

Lemma ndk_app_single acc k v : ndk acc -> lookup k acc = None -> ndk (acc ++ [(k, v)]).
Proof.
  unfold ndk, keys. intros ND HN. rewrite map_app; simpl.
  apply NoDup_snoc; [exact ND | apply lookup_none_notin; exact HN].
Qed.

Lemma ndk_setdefaults d : forall acc, ndk acc -> ndk (setdefaults acc d).
Proof.
  induction d as [|[k v] d IH]; intros acc ND; simpl; [exact ND|].
  destruct (lookup k acc) eqn:E; [apply IH; exact ND | apply IH, ndk_app_single; assumption].
Qed.

Lemma ndk_nil : ndk [].
Proof. constructor. Qed.

Lemma ndk_filter p d : ndk d -> ndk (filter p d).
Proof.
  unfold ndk, keys. induction d as [|[k v] d IH]; simpl; intros ND; [constructor|].
  inversion ND as [|? ? Hn ND']; subst.
  destruct (p (k, v)); simpl; [constructor|]; auto.
  intros HI. apply Hn. apply in_map_iff in HI. destruct HI as [[k2 v2] [E HI]]. simpl in E; subst.
  apply filter_In in HI. destruct HI as [HI _]. change k with (fst (k, v2)). apply in_map; exact HI.
Qed.

Lemma lookup_filter p k d : ndk d ->
  lookup k (filter p d) = match lookup k d with Some v => if p (k, v) then Some v else None | None => None end.
Proof.
  unfold ndk, keys. induction d as [|[k' v'] d IH]; simpl; intros ND; [reflexivity|].
  inversion ND as [|? ? Hn ND']; subst.
  destruct (gf_eqb k k') eqn:E.
  - apply gf_eqb_eq in E; subst. destruct (p (k', v')) eqn:Ep; simpl.
    + rewrite gf_eqb_refl; reflexivity.
    + rewrite IH by exact ND'. apply lookup_none_notin in Hn. rewrite Hn. reflexivity.
  - destruct (p (k', v')); simpl; [rewrite E|]; apply IH; exact ND'.
Qed.

Lemma lookup_collect k s : forall acc,
  lookup k (collect acc s) = match lookup k acc with Some v => Some v | None => get_chain s k end.
Proof.
  induction s as [vs | vs f IH]; intros acc; simpl.
  - apply lookup_setdefaults.
  - rewrite IH, lookup_setdefaults. destruct (lookup k acc); [reflexivity|]. destruct (lookup k vs); reflexivity.
Qed.

Lemma ndk_collect s : forall acc, ndk acc -> ndk (collect acc s).
Proof.
  induction s as [vs | vs f IH]; intros acc ND; simpl; [apply ndk_setdefaults; exact ND|].
  apply IH, ndk_setdefaults; exact ND.
Qed.

(* a value that was filtered out because it equals the default is still what get_value returns *)
Lemma filtered_default D k (o : option Z) :
  match (match o with Some v => if nondefault D (k, v) then Some v else None | None => None end) with
  | Some v => Some v
  | None => lookup_sym (fst k) D
  end = match o with Some v => Some v | None => lookup_sym (fst k) D end.
Proof.
  destruct o as [v|]; [|reflexivity]. unfold nondefault; simpl.
  destruct (lookup_sym (fst k) D) as [d|] eqn:E; [|reflexivity].
  destruct (d =? v)%Z eqn:E2; simpl; [apply Z.eqb_eq in E2; subst; reflexivity | reflexivity].
Qed.

Lemma get_value_root D vs k :
  get_value D (mk_root D vs) k = match lookup k vs with Some v => Some v | None => lookup_sym (fst k) D end.
Proof.
  unfold get_value, mk_root; simpl.
  rewrite lookup_filter by (apply ndk_setdefaults, ndk_nil).
  rewrite lookup_setdefaults; simpl. apply filtered_default.
Qed.

(* make_child: the child answers with the update when it has one, with the parent otherwise; for EVERY ancestor limit *)
Theorem get_value_make_child D limit s upd k :
  get_value D (make_child D limit s upd) k =
  match lookup k upd with Some v => Some v | None => get_value D s k end.
Proof.
  unfold make_child. destruct (must_condense limit s).
  - unfold get_value at 1; simpl.
    rewrite lookup_filter by (apply ndk_collect, ndk_setdefaults, ndk_nil).
    rewrite lookup_collect, lookup_setdefaults; simpl.
    rewrite filtered_default. unfold get_value. destruct (lookup k upd); [reflexivity|].
    destruct (get_chain s k); reflexivity.
  - unfold get_value; simpl. rewrite lookup_setdefaults; simpl.
    destruct (lookup k upd); reflexivity.
Qed.

(* _condense_state (run by hash()/repr(), in place) never changes any answer *)
Theorem get_value_condense D s k : get_value D (condense D s) k = get_value D s k.
Proof.
  destruct s as [vs | vs f]; [reflexivity|].
  unfold condense, get_value at 1. cbn [get_chain].
  rewrite lookup_filter by (apply ndk_collect, ndk_nil).
  rewrite lookup_collect; cbn [lookup].
  rewrite filtered_default. reflexivity.
Qed.

(* a child only depends on what its father ANSWERS, not on how the father is represented: hashing or printing
   an ancestor (which condenses it in place) cannot change the child *)
Theorem child_father_ext D vs f f' :
  (forall k, get_value D f k = get_value D f' k) ->
  forall k, get_value D (Child vs f) k = get_value D (Child vs f') k.
Proof.
  intros H k. specialize (H k). unfold get_value in *; simpl.
  destruct (lookup k vs); [reflexivity | exact H].
Qed.

Inductive reach (D : defaults) : ustate -> dict -> list dict -> Prop :=
| reach_root vs : reach D (mk_root D vs) vs []
| reach_child limit s r h upd : reach D s r h -> reach D (make_child D limit s upd) r (h ++ [upd])
| reach_condense s r h : reach D s r h -> reach D (condense D s) r h.

Lemma spec_get_snoc D r h upd k :
  spec_get D r (h ++ [upd]) k = match lookup k upd with Some v => Some v | None => spec_get D r h k end.
Proof.
  unfold spec_get. rewrite fold_left_app; simpl.
  destruct (lookup k upd); reflexivity.
Qed.

(* every state produced by any history of constructor / make_child (any limit, limits may even change along the way)
   / in-place condensations answers like the finite map "latest update, else root value, else default" *)
Theorem reach_refines_map D s r h : reach D s r h -> forall k, get_value D s k = spec_get D r h k.
Proof.
  induction 1 as [vs | limit s r h upd _ IH | s r h _ IH]; intros k.
  - rewrite get_value_root. reflexivity.
  - rewrite get_value_make_child, spec_get_snoc, IH. reflexivity.
  - rewrite get_value_condense. apply IH.
Qed.

Corollary history_refines_map D limit vs (h : list dict) k :
  get_value D (fold_left (make_child D limit) h (mk_root D vs)) k = spec_get D vs h k.
Proof.
  apply reach_refines_map.
  assert (G : forall h0 s r h1, reach D s r h1 -> reach D (fold_left (make_child D limit) h0 s) r (h1 ++ h0)).
  { induction h0 as [|u h0 IH]; intros s r h1 H; simpl; [rewrite app_nil_r; exact H|].
    replace (h1 ++ u :: h0) with ((h1 ++ [u]) ++ h0) by (rewrite <- app_assoc; reflexivity).
    apply IH. constructor. exact H. }
  apply (G h _ vs []). constructor.
Qed.

(* "raises for a fluent with neither": get_value is None exactly when the map has neither value nor default *)
Corollary missing_iff D s r h k : reach D s r h ->
  (get_value D s k = None <-> spec_get D r h k = None).
Proof. intros H. rewrite (reach_refines_map D s r h H k). tauto. Qed.

Definition canonical (D : defaults) (d : dict) : Prop :=
  ndk d /\ forall kv, In kv d -> nondefault D kv = true.

Lemma canonical_filter D d : ndk d -> canonical D (filter (nondefault D) d).
Proof. intros H. split; [apply ndk_filter, H | intros kv HI; apply filter_In in HI; tauto]. Qed.

(* well-formed: root dictionaries are canonical (established by the constructor and by make_child) *)
Fixpoint wf (D : defaults) (s : ustate) : Prop :=
  match s with
  | Root vs => canonical D vs
  | Child _ f => wf D f
  end.

Lemma wf_mk_root D vs : wf D (mk_root D vs).
Proof. apply canonical_filter, ndk_setdefaults, ndk_nil. Qed.
Lemma wf_make_child D limit s upd : wf D s -> wf D (make_child D limit s upd).
Proof.
  intros H. unfold make_child. destruct (must_condense limit s); simpl; [|exact H].
  apply canonical_filter, ndk_collect, ndk_setdefaults, ndk_nil.
Qed.
Lemma wf_condense D s : wf D s -> wf D (condense D s).
Proof. destruct s as [vs|vs f]; [simpl; auto|]. intros _. apply canonical_filter, ndk_collect, ndk_nil. Qed.
Lemma reach_wf D s r h : reach D s r h -> wf D s.
Proof. induction 1; [apply wf_mk_root | apply wf_make_child; assumption | apply wf_condense; assumption]. Qed.

Lemma values_of_canonical D s : wf D s -> canonical D (values_of D s).
Proof. destruct s as [vs|vs f]; [simpl; auto | intros _; apply canonical_filter, ndk_collect, ndk_nil]. Qed.

Lemma get_value_values_of D s k :
  match lookup k (values_of D s) with Some v => Some v | None => lookup_sym (fst k) D end = get_value D s k.
Proof.
  rewrite <- (get_value_condense D s k). unfold values_of, get_value.
  destruct (condense D s) as [vs|vs f] eqn:E; [reflexivity|].
  destruct s; simpl in E; discriminate.
Qed.

(* on canonical dictionaries, "same answers (with defaults)" is the same as "same bindings" *)
Lemma canonical_same_lookup D a b : canonical D a -> canonical D b ->
  (forall k, match lookup k a with Some v => Some v | None => lookup_sym (fst k) D end
           = match lookup k b with Some v => Some v | None => lookup_sym (fst k) D end) ->
  forall k, lookup k a = lookup k b.
Proof.
  intros [Na Ca] [Nb Cb] H k. specialize (H k).
  assert (X : forall d, (forall kv, In kv d -> nondefault D kv = true) -> forall v, lookup k d = Some v ->
              lookup_sym (fst k) D <> Some v).
  { intros d Cd v Hl Hs. apply lookup_in in Hl. apply Cd in Hl. unfold nondefault in Hl; simpl in Hl.
    rewrite Hs in Hl. rewrite Z.eqb_refl in Hl. discriminate. }
  destruct (lookup k a) as [va|] eqn:Ea, (lookup k b) as [vb|] eqn:Eb; try congruence.
  - exfalso. apply (X a Ca va Ea). congruence.
  - exfalso. apply (X b Cb vb Eb). congruence.
Qed.

Lemma dict_incl_spec a b :
  dict_incl a b = true <-> (forall k v, In (k, v) a -> lookup k b = Some v).
Proof.
  unfold dict_incl. rewrite forallb_forall. split.
  - intros H k v HI. specialize (H (k, v) HI). simpl in H.
    destruct (lookup k b) as [v'|]; [|discriminate]. apply Z.eqb_eq in H. congruence.
  - intros H [k v] HI. simpl. rewrite (H k v HI). apply Z.eqb_refl.
Qed.

Lemma same_lookup_perm a b : ndk a -> ndk b -> (forall k, lookup k a = lookup k b) -> Permutation a b.
Proof.
  intros Na Nb H. apply NoDup_Permutation.
  - unfold ndk, keys in Na. eapply NoDup_map_inv; exact Na.
  - unfold ndk, keys in Nb. eapply NoDup_map_inv; exact Nb.
  - intros [k v]. split; intros HI.
    + apply lookup_in. rewrite <- H. apply in_lookup; assumption.
    + apply lookup_in. rewrite H. apply in_lookup; assumption.
Qed.

Lemma dict_eqb_spec a b : ndk a -> ndk b ->
  (dict_eqb a b = true <-> forall k, lookup k a = lookup k b).
Proof.
  intros Na Nb. unfold dict_eqb. rewrite !andb_true_iff, !dict_incl_spec, Nat.eqb_eq. split.
  - intros [[_ Hab] Hba] k.
    destruct (lookup k a) as [v|] eqn:E.
    + symmetry. apply Hab. apply lookup_in; exact E.
    + destruct (lookup k b) as [v|] eqn:E2; [|reflexivity].
      apply lookup_in, Hba in E2. congruence.
  - intros H. split; [split|].
    + apply Permutation_length, same_lookup_perm; assumption.
    + intros k v HI. rewrite <- H. apply in_lookup; assumption.
    + intros k v HI. rewrite H. apply in_lookup; assumption.
Qed.

Lemma fold_xor_perm (h : gf * Z -> Z) a b : Permutation a b ->
  fold_right (fun kv acc => Z.lxor (h kv) acc) 0%Z a = fold_right (fun kv acc => Z.lxor (h kv) acc) 0%Z b.
Proof.
  induction 1 as [| x l l' _ IH | x y l | l l' l'' _ IH1 _ IH2]; simpl.
  - reflexivity.
  - rewrite IH; reflexivity.
  - rewrite <- (Z.lxor_assoc (h y)), <- (Z.lxor_assoc (h x)), (Z.lxor_comm (h y) (h x)). reflexivity.
  - congruence.
Qed.

Definition same_map (D : defaults) (s t : ustate) : Prop := forall k, get_value D s k = get_value D t k.

Lemma same_map_lookup D s t : wf D s -> wf D t -> same_map D s t ->
  forall k, lookup k (values_of D s) = lookup k (values_of D t).
Proof.
  intros Ws Wt H. apply (canonical_same_lookup D); try (apply values_of_canonical; assumption).
  intros k. rewrite !get_value_values_of. apply H.
Qed.

(* two states that give every fluent the same value have the same hash, whatever Python's item hash is *)
Theorem same_map_same_hash h D s t : wf D s -> wf D t -> same_map D s t -> state_hash h D s = state_hash h D t.
Proof.
  intros Ws Wt H. unfold state_hash. apply fold_xor_perm.
  apply same_lookup_perm; try (apply values_of_canonical; assumption).
  apply same_map_lookup; assumption.
Qed.

(* == holds iff every fluent has the same value (or is missing) in both states *)
Theorem state_eq_iff_same_map h D s t : wf D s -> wf D t -> (state_eq h D s t = true <-> same_map D s t).
Proof.
  intros Ws Wt. unfold state_eq. rewrite andb_true_iff.
  pose proof (values_of_canonical D s Ws) as [Ns _]. pose proof (values_of_canonical D t Wt) as [Nt _].
  rewrite (dict_eqb_spec _ _ Ns Nt). split.
  - intros [_ H] k. rewrite <- !get_value_values_of, H. reflexivity.
  - intros H. split; [apply Z.eqb_eq, same_map_same_hash; assumption | apply same_map_lookup; assumption].
Qed.

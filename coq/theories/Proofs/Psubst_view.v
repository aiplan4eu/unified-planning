(* Planning/Ground.v's parameter substitution [psubst] on the five shapes of an expression. *)
From Coq Require Import List NArith.
Import ListNotations.
Require Import UPV.Core.Expr UPV.Core.Interp UPV.Planning.Problem UPV.Planning.Ground UPV.Proofs.ExprView.

Lemma psubst_leaf sg e : is_leaf e = true -> psubst sg e = match e with EParam p => match lookupN p sg with Some v => value_expr v | None => e end | _ => e end.
Proof. destruct e; try discriminate; reflexivity. Qed.
Lemma psubst_E1 sg o a : psubst sg (E1 o a) = E1 o (psubst sg a). Proof. destruct o; reflexivity. Qed.
Lemma psubst_E2 sg o a b : psubst sg (E2 o a b) = E2 o (psubst sg a) (psubst sg b). Proof. destruct o; reflexivity. Qed.
Lemma psubst_En sg o l : psubst sg (En o l) = En o (map (psubst sg) l). Proof. destruct o; reflexivity. Qed.
Lemma psubst_EQ sg ex vs a : psubst sg (EQ ex vs a) = EQ ex vs (psubst sg a). Proof. destruct ex; reflexivity. Qed.

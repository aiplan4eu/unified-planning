(* The simulator's ordered effect loop computes exactly the declarative per-fluent combination (C01 core): a per-fluent
   automaton [kstep] is what the loop does to one ground fluent (step_proj, loop_proj), and folding it over the effects
   on one fluent equals the declarative [combine] (kfold_spec).  Then the interface of Planning/Sem.v: [holds] and
   [all_hold], [collect_res], [fired], [avals] and [deltas] on concatenations, the successor as a function of the state. *)
From Coq Require Import List ZArith NArith QArith Qcanon Bool.
Import ListNotations.
Require Import UPV.Core.Expr UPV.Core.Eval UPV.Core.Interp UPV.Planning.Problem UPV.Planning.Sem.
Require Import UPV.Proofs.Eval_lemmas.

Lemma value_eqb_refl v : value_eqb v v = true.
Proof. apply value_eqb_eq; reflexivity. Qed.

Lemma sum_deltas_app c d1 d2 :
  sum_deltas c (d1 ++ d2) = match sum_deltas c d1 with Some r => sum_deltas r d2 | None => None end.
Proof.
  revert c; induction d1 as [|[d|] d1 IH]; intros c; simpl; [reflexivity | apply IH | reflexivity].
Qed.

(* per-fluent automaton: the loop's bookkeeping restricted to one ground fluent *)
Definition ks := (option value * bool)%type.
Definition kdelta (kind : ekind) (v : value) : option Qc :=
  match v, kind with VNum d, KInc => Some d | VNum d, KDec => Some (Qcopp d) | _, _ => None end.

Definition kstep (isb : bool) (old : option value) (st : ks) (x : ekind * value) : option ks :=
  let '(u, m) := st in
  let '(kind, v) := x in
  match kind with
  | KAssign =>
      match u with
      | Some o =>
          if negb (value_eqb v o)
          then (if isb then (match o with VBool false => Some (Some v, m) | _ => Some (u, m) end) else None)
          else if negb m then None else Some (Some v, true)
      | None => Some (Some v, true)
      end
  | _ =>
      if m then None
      else match old with
           | None => None
           | Some cur0 =>
               let cur := match u with Some w => w | None => cur0 end in
               match cur, kdelta kind v with
               | VNum c, Some d => Some (Some (VNum (Qcplus c d)), m)
               | _, _ => None
               end
           end
  end.

Fixpoint kfold (isb : bool) (old : option value) (st : ks) (l : list (ekind * value)) : option ks :=
  match l with
  | [] => Some st
  | x :: l' => match kstep isb old st x with Some st' => kfold isb old st' l' | None => None end
  end.

Definition kA (l : list (ekind * value)) : list value :=
  map snd (filter (fun x => match fst x with KAssign => true | _ => false end) l).
Definition kD (l : list (ekind * value)) : list (option Qc) :=
  map (fun x => kdelta (fst x) (snd x)) (filter (fun x => match fst x with KAssign => false | _ => true end) l).

Definition kwt (isb : bool) (x : ekind * value) : bool :=
  if isb then (match fst x with KAssign => is_vbool (snd x) | _ => false end) else true.

Definition kspec (isb : bool) (old : option value) (l : list (ekind * value)) : option ks :=
  match combine isb old (kA l) (kD l) with
  | CUnchanged => Some (None, false)
  | CVal v => Some (Some v, negb (match kA l with [] => true | _ => false end))
  | CFail => None
  end.

Lemma kfold_app isb old st l1 l2 :
  kfold isb old st (l1 ++ l2) = match kfold isb old st l1 with Some st' => kfold isb old st' l2 | None => None end.
Proof.
  revert st; induction l1 as [|x l1 IH]; intros st; simpl; [reflexivity|].
  destruct (kstep isb old st x); [apply IH | reflexivity].
Qed.

Local Arguments sum_deltas : simpl never.
Lemma kD_bool l : forallb (kwt true) l = true -> kD l = [].
Proof.
  induction l as [|[k v] l IH]; simpl; intros H; [reflexivity|].
  apply andb_true_iff in H. destruct H as [H1 H2]. unfold kwt in H1. simpl in H1.
  destruct k; try discriminate. unfold kD. simpl. apply IH. exact H2.
Qed.

Lemma kfold_spec isb old l : forallb (kwt isb) l = true -> kfold isb old (None, false) l = kspec isb old l.
Proof.
  induction l as [|x l IH] using rev_ind; intros WT; [reflexivity|].
  rewrite forallb_app in WT. apply andb_true_iff in WT. destruct WT as [WT Wx]. simpl in Wx. rewrite andb_true_r in Wx.
  rewrite kfold_app, IH by exact WT. clear IH.
  unfold kspec, kA, kD. rewrite !filter_app, !map_app. simpl.
  fold (kA l). fold (kD l).
  destruct x as [kind v]. unfold kwt in Wx. simpl in Wx.
  destruct isb.
  - (* Boolean fluent: only Boolean assignments *)
    rewrite (kD_bool l WT). destruct kind; try discriminate. destruct v as [bv| |]; try discriminate.
    simpl.
    destruct (kA l) as [|a0 A] eqn:EA; simpl; [destruct bv; reflexivity|].
    rewrite existsb_app. simpl. rewrite orb_false_r, orb_assoc.
    destruct (is_vtrue a0 || existsb is_vtrue A) eqn:EO; simpl.
    + destruct bv; simpl; reflexivity.
    + destruct bv; simpl; reflexivity.
  - (* non-Boolean fluent *)
    destruct kind; simpl.
    + rewrite app_nil_r.
      destruct (kA l) as [|a0 A] eqn:EA, (kD l) as [|d0 D] eqn:ED; simpl; try reflexivity.
      * destruct old as [[b|c|o]|]; try reflexivity.
        destruct (sum_deltas c (d0 :: D)) as [r|] eqn:ES; simpl; [|reflexivity].
        destruct (negb (value_eqb v (VNum r))); reflexivity.
      * rewrite forallb_app. simpl. rewrite andb_true_r.
        destruct (forallb (value_eqb a0) A) eqn:EAll; simpl; [|reflexivity].
        destruct (value_eqb v a0) eqn:EV; simpl.
        -- apply value_eqb_eq in EV. subst. rewrite value_eqb_refl. reflexivity.
        -- destruct (value_eqb a0 v) eqn:EV2; [|reflexivity].
           apply value_eqb_eq in EV2. subst. rewrite value_eqb_refl in EV. discriminate.
    + rewrite app_nil_r.
      destruct (kA l) as [|a0 A] eqn:EA, (kD l) as [|d0 D] eqn:ED; simpl.
      * destruct old as [[b|c|o]|]; try reflexivity.
        unfold sum_deltas. destruct (kdelta KInc v); reflexivity.
      * destruct old as [[b|c|o]|]; try reflexivity.
        change (d0 :: D ++ [kdelta KInc v]) with ((d0 :: D) ++ [kdelta KInc v]).
        rewrite sum_deltas_app.
        destruct (sum_deltas c (d0 :: D)) as [r|] eqn:ES; simpl; [|reflexivity].
        unfold sum_deltas. destruct (kdelta KInc v); reflexivity.
      * destruct (forallb (value_eqb a0) A); reflexivity.
      * reflexivity.
    + rewrite app_nil_r.
      destruct (kA l) as [|a0 A] eqn:EA, (kD l) as [|d0 D] eqn:ED; simpl.
      * destruct old as [[b|c|o]|]; try reflexivity.
        unfold sum_deltas. destruct (kdelta KDec v); reflexivity.
      * destruct old as [[b|c|o]|]; try reflexivity.
        change (d0 :: D ++ [kdelta KDec v]) with ((d0 :: D) ++ [kdelta KDec v]).
        rewrite sum_deltas_app.
        destruct (sum_deltas c (d0 :: D)) as [r|] eqn:ES; simpl; [|reflexivity].
        unfold sum_deltas. destruct (kdelta KDec v); reflexivity.
      * destruct (forallb (value_eqb a0) A); reflexivity.
      * reflexivity.
Qed.

Lemma values_eqb_eq a : forall b, values_eqb a b = true <-> a = b.
Proof.
  induction a as [|x a IH]; intros [|y b]; simpl; try (split; [discriminate | intros H; discriminate H]); [tauto|].
  rewrite andb_true_iff, value_eqb_eq, IH. split; [intros [-> ->]; reflexivity | intros H; inversion H; auto].
Qed.
Lemma gfl_eqb_eq a b : gfl_eqb a b = true <-> a = b.
Proof.
  destruct a as [f x], b as [g y]. unfold gfl_eqb; simpl.
  rewrite andb_true_iff, N.eqb_eq, values_eqb_eq. split; [intros [-> ->]; reflexivity | intros H; inversion H; auto].
Qed.
Lemma gfl_eqb_refl a : gfl_eqb a a = true.
Proof. apply gfl_eqb_eq; reflexivity. Qed.
Lemma gfl_eqb_sym a b : gfl_eqb a b = gfl_eqb b a.
Proof.
  destruct (gfl_eqb a b) eqn:E1, (gfl_eqb b a) eqn:E2; try reflexivity.
  - apply gfl_eqb_eq in E1; subst. rewrite gfl_eqb_refl in E2; discriminate.
  - apply gfl_eqb_eq in E2; subst. rewrite gfl_eqb_refl in E1; discriminate.
Qed.

Section Loop.
  Variable P : problem.
  Variable s : state.

  Definition proj (k : gfl) (st : upd_map * list gfl) : ks := (alookup k (fst st), amem k (snd st)).
  Definition kl (k : gfl) (l : list aeff) : list (ekind * value) :=
    map (fun a => (ae_kind a, ae_val a)) (filter (fun a => gfl_eqb (ae_key a) k) l).
  Definition isb (k : gfl) := is_bool_fluent P (fst k).
  Definition oldv (k : gfl) := s (fst k) (snd k).

  Lemma kdelta_delta_of a : kdelta (ae_kind a) (ae_val a) = delta_of a.
  Proof. unfold kdelta, delta_of. destruct (ae_val a), (ae_kind a); reflexivity. Qed.

  Ltac fin FIN := intros k E; simpl; rewrite ?(FIN k E); reflexivity.

  Lemma step_proj st a :
    let k0 := ae_key a in
    match kstep (isb k0) (oldv k0) (proj k0 st) (ae_kind a, ae_val a) with
    | None => sim_step P s st a = None
    | Some q => exists st', sim_step P s st a = Some st' /\ proj k0 st' = q /\
                            forall k, gfl_eqb k0 k = false -> proj k st' = proj k st
    end.
  Proof.
    destruct st as [upd asg]. intros k0. unfold sim_step, kstep, proj. fold k0. simpl fst; simpl snd.
    unfold isb, oldv.
    assert (FIN : forall (k : gfl), gfl_eqb k0 k = false -> gfl_eqb k k0 = false).
    { intros k E. rewrite gfl_eqb_sym. exact E. }
    destruct (ae_kind a) eqn:EK.
    - destruct (alookup k0 upd) as [o|] eqn:EL.
      + destruct (negb (value_eqb (ae_val a) o)).
        * destruct (is_bool_fluent P (fst k0)); [|reflexivity].
          destruct o as [[|]| |]; eexists; (split; [reflexivity|]); simpl; rewrite ?gfl_eqb_refl, ?EL;
            (split; [reflexivity|]); fin FIN.
        * destruct (negb (amem k0 asg)); [reflexivity|].
          eexists; split; [reflexivity|]. simpl. rewrite gfl_eqb_refl. split; [reflexivity|]. fin FIN.
      + eexists; split; [reflexivity|]. simpl. rewrite gfl_eqb_refl. split; [reflexivity|]. fin FIN.
    - destruct (amem k0 asg) eqn:EM; [reflexivity|].
      destruct (s (fst k0) (snd k0)) as [cur0|]; [|reflexivity].
      rewrite <- kdelta_delta_of, EK.
      destruct (match alookup k0 upd with Some w => w | None => cur0 end) as [|c|]; try reflexivity.
      destruct (kdelta KInc (ae_val a)); [|reflexivity].
      eexists; split; [reflexivity|]. simpl. rewrite gfl_eqb_refl, ?EM. split; [reflexivity|]. fin FIN.
    - destruct (amem k0 asg) eqn:EM; [reflexivity|].
      destruct (s (fst k0) (snd k0)) as [cur0|]; [|reflexivity].
      rewrite <- kdelta_delta_of, EK.
      destruct (match alookup k0 upd with Some w => w | None => cur0 end) as [|c|]; try reflexivity.
      destruct (kdelta KDec (ae_val a)); [|reflexivity].
      eexists; split; [reflexivity|]. simpl. rewrite gfl_eqb_refl, ?EM. split; [reflexivity|]. fin FIN.
  Qed.

  Lemma kl_cons k a l :
    kl k (a :: l) = if gfl_eqb (ae_key a) k then (ae_kind a, ae_val a) :: kl k l else kl k l.
  Proof. unfold kl. simpl. destruct (gfl_eqb (ae_key a) k); reflexivity. Qed.

  Lemma loop_proj l : forall st,
    match sim_loop P s st l with
    | Some st' => forall k, kfold (isb k) (oldv k) (proj k st) (kl k l) = Some (proj k st')
    | None => exists a, In a l /\ kfold (isb (ae_key a)) (oldv (ae_key a)) (proj (ae_key a) st) (kl (ae_key a) l) = None
    end.
  Proof.
    induction l as [|a l IH]; intros st; simpl; [reflexivity|].
    pose proof (step_proj st a) as SP. cbv zeta in SP.
    destruct (kstep (isb (ae_key a)) (oldv (ae_key a)) (proj (ae_key a) st) (ae_kind a, ae_val a)) as [q|] eqn:EKS.
    - destruct SP as [st' [E1 [E2 E3]]]. rewrite E1. specialize (IH st').
      destruct (sim_loop P s st' l) as [st''|].
      + intros k. rewrite kl_cons. destruct (gfl_eqb (ae_key a) k) eqn:E.
        * apply gfl_eqb_eq in E. subst k. cbn [kfold]. rewrite EKS. rewrite <- E2. apply IH.
        * rewrite <- (E3 k E). apply IH.
      + destruct IH as [b [Hb Hf]]. exists b. split; [right; exact Hb|].
        rewrite kl_cons. destruct (gfl_eqb (ae_key a) (ae_key b)) eqn:E.
        * apply gfl_eqb_eq in E. rewrite <- E in *. cbn [kfold]. rewrite EKS. rewrite <- E2. exact Hf.
        * rewrite <- (E3 _ E). exact Hf.
    - rewrite SP. exists a. split; [left; reflexivity|].
      rewrite kl_cons, gfl_eqb_refl. cbn [kfold]. rewrite EKS. reflexivity.
  Qed.

  Lemma kA_kl k l : kA (kl k l) = avals k l.
  Proof.
    unfold kA, kl, avals. induction l as [|a l IH]; [reflexivity|]. simpl.
    unfold is_assign. destruct (gfl_eqb (ae_key a) k); simpl; [|exact IH].
    destruct (ae_kind a); simpl; rewrite IH; reflexivity.
  Qed.

  Lemma kD_kl k l : kD (kl k l) = deltas k l.
  Proof.
    unfold kD, kl, deltas. induction l as [|a l IH]; [reflexivity|]. simpl.
    unfold is_assign. destruct (gfl_eqb (ae_key a) k); simpl; [|exact IH].
    destruct (ae_kind a) eqn:EK; simpl; rewrite ?IH; try reflexivity;
      rewrite <- kdelta_delta_of, EK; reflexivity.
  Qed.

  Lemma kwt_kl k l : forallb (wt_aeff P) l = true -> forallb (kwt (isb k)) (kl k l) = true.
  Proof.
    unfold kl. induction l as [|a l IH]; [reflexivity|]. simpl. intros H.
    apply andb_true_iff in H. destruct H as [H1 H2].
    destruct (gfl_eqb (ae_key a) k) eqn:E; [|apply IH; exact H2].
    simpl. rewrite (IH H2), andb_true_r.
    apply gfl_eqb_eq in E. subst k. unfold wt_aeff in H1. unfold kwt, isb. simpl.
    destruct (is_bool_fluent P (fst (ae_key a))); [|reflexivity].
    unfold is_assign in H1. destruct (ae_kind a); simpl in *; try discriminate. exact H1.
  Qed.

  Lemma kspec_spec_fluent k l : 
    kspec (isb k) (oldv k) (kl k l) =
    match spec_fluent P s l k with
    | CUnchanged => Some (None, false)
    | CVal v => Some (Some v, negb (match avals k l with [] => true | _ => false end))
    | CFail => None
    end.
  Proof. unfold kspec, spec_fluent, isb, oldv. rewrite kA_kl, kD_kl. reflexivity. Qed.

  (* the loop succeeds exactly when the specification has no conflict, and then make_child(updated_values) is the
     specified successor, fluent by fluent *)
  Theorem sim_loop_spec acts :
    forallb (wt_aeff P) acts = true ->
    match sim_loop P s ([], []) acts with
    | Some (upd, _) => spec_effects_ok P s acts = true /\
                       forall f args, apply_upd s upd f args = spec_succ P s acts f args
    | None => spec_effects_ok P s acts = false
    end.
  Proof.
    intros WT. pose proof (loop_proj acts ([], [])) as H.
    destruct (sim_loop P s ([], []) acts) as [[upd asg]|].
    - assert (K : forall k, kspec (isb k) (oldv k) (kl k acts) = Some (alookup k upd, amem k asg)).
      { intros k. rewrite <- kfold_spec by (apply kwt_kl; exact WT). apply (H k). }
      split.
      + unfold spec_effects_ok. apply forallb_forall. intros a _.
        specialize (K (ae_key a)). rewrite kspec_spec_fluent in K.
        destruct (spec_fluent P s acts (ae_key a)); [reflexivity | reflexivity | discriminate].
      + intros f args. unfold apply_upd, spec_succ.
        specialize (K (f, args)). rewrite kspec_spec_fluent in K.
        destruct (spec_fluent P s acts (f, args)); inversion K as [[K1 K2]]; reflexivity.
    - destruct H as [a [Ha Hf]].
      change (proj (ae_key a) ([], [])) with ((None, false) : ks) in Hf.
      rewrite kfold_spec in Hf by (apply kwt_kl; exact WT). rewrite kspec_spec_fluent in Hf.
      unfold spec_effects_ok. match goal with |- ?x = false => destruct x eqn:E end; [|reflexivity].
      rewrite forallb_forall in E. specialize (E a Ha).
      destruct (spec_fluent P s acts (ae_key a)); discriminate.
  Qed.
End Loop.

Lemma values_eqb_refl a : values_eqb a a = true.
Proof. apply values_eqb_eq; reflexivity. Qed.

Lemma evals_l_evals sc I l : evals_l sc I l = evals sc I l.
Proof. reflexivity. Qed.

Lemma holds_of_is_true sc I e : is_true e = true -> holds sc I e = true.
Proof. intros H. apply is_true_eq in H. subst. reflexivity. Qed.

Lemma holds_of_is_false sc I e : is_false e = true -> holds sc I e = false.
Proof. intros H. apply is_false_eq in H. subst. reflexivity. Qed.

Lemma holds_as_bool sc I x : holds sc I x = match as_bool (eval sc x I) with Some b => b | None => false end.
Proof. unfold holds. destruct (eval sc x I) as [[[|]| |]|]; reflexivity. Qed.

Lemma all_hold_In sc I l e : all_hold sc I l = true -> In e l -> holds sc I e = true.
Proof. unfold all_hold. rewrite forallb_forall. auto. Qed.

Lemma all_hold_app sc I l1 l2 : all_hold sc I (l1 ++ l2) = all_hold sc I l1 && all_hold sc I l2.
Proof. unfold all_hold. apply forallb_app. Qed.

Lemma holds_EAnd sc I l : holds sc I (EAnd l) = all_hold sc I l.
Proof.
  unfold holds at 1. rewrite eval_EAnd.
  assert (G : match ebools sc I l with Some bs => forallb (fun b => b) bs | None => false end = all_hold sc I l).
  { induction l as [|x l IH]; [reflexivity|]. cbn [ebools].
    change (all_hold sc I (x :: l)) with (holds sc I x && all_hold sc I l). rewrite holds_as_bool, <- IH.
    destruct (as_bool (eval sc x I)) as [b|]; [|reflexivity].
    destruct (ebools sc I l) as [bs|]; [reflexivity | destruct b; reflexivity]. }
  rewrite <- G. destruct (ebools sc I l) as [bs|]; [|reflexivity]. destruct (forallb (fun b => b) bs); reflexivity.
Qed.

Lemma holds_mkAnd sc I l : holds sc I (mkAnd l) = all_hold sc I l.
Proof.
  destruct l as [|x [|y l]]; [reflexivity | | apply holds_EAnd].
  cbn [mkAnd]. change (all_hold sc I [x]) with (holds sc I x && true). rewrite andb_true_r. reflexivity.
Qed.

Lemma evals_l_app sc I l1 l2 :
  evals_l sc I (l1 ++ l2) =
  match evals_l sc I l1, evals_l sc I l2 with Some a, Some b => Some (a ++ b) | _, _ => None end.
Proof.
  induction l1 as [|x l1 IH]; cbn [app evals_l].
  - destruct (evals_l sc I l2); reflexivity.
  - rewrite IH. destruct (eval sc x I); [|reflexivity].
    destruct (evals_l sc I l1); [|reflexivity]. destruct (evals_l sc I l2); reflexivity.
Qed.

Lemma eval_value_expr sc I v : eval sc (value_expr v) I = Some v.
Proof. destruct v as [b|q|o]; [reflexivity | apply eval_num_node | reflexivity]. Qed.

Lemma evals_value_exprs sc I vs : evals sc I (map value_expr vs) = Some vs.
Proof.
  induction vs as [|v vs IH]; [reflexivity|]. cbn [map evals]. rewrite eval_value_expr, IH. reflexivity.
Qed.

Lemma collect_res_app r1 r2 :
  collect_res (r1 ++ r2) =
  match collect_res r1, collect_res r2 with Some x, Some y => Some (x ++ y) | _, _ => None end.
Proof.
  induction r1 as [|[| |a] r1 IH]; cbn [app collect_res].
  - destruct (collect_res r2); reflexivity.
  - reflexivity.
  - exact IH.
  - rewrite IH. destruct (collect_res r1), (collect_res r2); reflexivity.
Qed.

Lemma collect_res_In rs : forall l a, collect_res rs = Some l -> In a l -> In (EAct a) rs.
Proof.
  induction rs as [|[| |b] rs IH]; intros l a H Hin; cbn [collect_res] in H.
  - inversion H; subst. destruct Hin.
  - discriminate.
  - right. exact (IH l a H Hin).
  - destruct (collect_res rs) as [l'|]; [|discriminate]. inversion H; subst. destruct Hin as [<-|Hin].
    + left. reflexivity.
    + right. exact (IH l' a eq_refl Hin).
Qed.

Lemma fired_app sc I a b :
  fired sc I (a ++ b) =
  match fired sc I a, fired sc I b with Some x, Some y => Some (x ++ y) | _, _ => None end.
Proof. unfold fired. rewrite flat_map_app. apply collect_res_app. Qed.

Lemma avals_cons k x l :
  avals k (x :: l) = if gfl_eqb (ae_key x) k && is_assign x then ae_val x :: avals k l else avals k l.
Proof. unfold avals. cbn [filter]. destruct (gfl_eqb (ae_key x) k && is_assign x); reflexivity. Qed.
Lemma deltas_cons k x l :
  deltas k (x :: l) = if gfl_eqb (ae_key x) k && negb (is_assign x) then delta_of x :: deltas k l else deltas k l.
Proof. unfold deltas. cbn [filter]. destruct (gfl_eqb (ae_key x) k && negb (is_assign x)); reflexivity. Qed.

Lemma avals_app k l1 l2 : avals k (l1 ++ l2) = avals k l1 ++ avals k l2.
Proof. unfold avals. rewrite filter_app, map_app. reflexivity. Qed.
Lemma deltas_app k l1 l2 : deltas k (l1 ++ l2) = deltas k l1 ++ deltas k l2.
Proof. unfold deltas. rewrite filter_app, map_app. reflexivity. Qed.

Lemma map_filter_nil {A B} (f : A -> B) p l : map f (filter p l) = [] <-> forall y, In y l -> p y = false.
Proof.
  induction l as [|x l IH]; [split; [intros _ y [] | reflexivity]|]. cbn [filter]. destruct (p x) eqn:E.
  - split; [discriminate|]. intros H. rewrite (H x (or_introl eq_refl)) in E. discriminate.
  - rewrite IH. split.
    + intros H y [<-|Hy]; [exact E | exact (H y Hy)].
    + intros H y Hy. apply H. right. exact Hy.
Qed.

Lemma map_filter_nonempty {A B} (f : A -> B) p l : map f (filter p l) <> [] <-> exists y, In y l /\ p y = true.
Proof.
  split.
  - intros H. destruct (filter p l) as [|y r] eqn:E; [contradiction H; reflexivity|].
    exists y. apply filter_In. rewrite E. left. reflexivity.
  - intros [y Hy]. apply filter_In in Hy. destruct (filter p l); [destruct Hy | discriminate].
Qed.

Lemma avals_nil k l : avals k l = [] <-> forall y, In y l -> gfl_eqb (ae_key y) k && is_assign y = false.
Proof. apply map_filter_nil. Qed.
Lemma deltas_nil k l : deltas k l = [] <-> forall y, In y l -> gfl_eqb (ae_key y) k && negb (is_assign y) = false.
Proof. apply map_filter_nil. Qed.

Lemma absent_key_nil k l : (forall y, In y l -> gfl_eqb (ae_key y) k = false) -> avals k l = [] /\ deltas k l = [].
Proof. intros H. split; [apply avals_nil | apply deltas_nil]; intros y Hy; rewrite (H y Hy); reflexivity. Qed.

Lemma avals_nonempty k l : avals k l <> [] <-> exists y, In y l /\ ae_key y = k /\ is_assign y = true.
Proof.
  unfold avals. rewrite map_filter_nonempty. split; intros [y [Hy H]]; exists y; split; try exact Hy.
  - apply andb_true_iff in H. rewrite gfl_eqb_eq in H. exact H.
  - rewrite andb_true_iff, gfl_eqb_eq. exact H.
Qed.
Lemma deltas_nonempty k l : deltas k l <> [] <-> exists y, In y l /\ ae_key y = k /\ is_assign y = false.
Proof.
  unfold deltas. rewrite map_filter_nonempty. split; intros [y [Hy H]]; exists y; split; try exact Hy.
  - apply andb_true_iff in H. rewrite gfl_eqb_eq, negb_true_iff in H. exact H.
  - rewrite andb_true_iff, gfl_eqb_eq, negb_true_iff. exact H.
Qed.

Lemma combine_unchanged isb old A D : combine isb old A D = CUnchanged <-> A = [] /\ D = [].
Proof.
  split; [|intros [-> ->]; reflexivity].
  destruct A as [|a A], D as [|d D]; cbn [combine]; try discriminate; auto.
  - destruct old as [[| |]|]; try discriminate. destruct (sum_deltas q (d :: D)); discriminate.
  - destruct isb; [discriminate|]. destruct (forallb (value_eqb a) A); discriminate.
Qed.

(* a fluent changes, or the step fails on it, exactly when some effect instance has it as its key *)
Lemma spec_fluent_touched P s acts k : spec_fluent P s acts k <> CUnchanged <-> exists y, In y acts /\ ae_key y = k.
Proof.
  unfold spec_fluent. rewrite combine_unchanged. split.
  - intros H. destruct (avals k acts) eqn:EA.
    + destruct (proj1 (deltas_nonempty k acts)) as [y [Hy [Hk _]]]; [intros ED; apply H; auto | exists y; auto].
    + destruct (proj1 (avals_nonempty k acts)) as [y [Hy [Hk _]]]; [rewrite EA; discriminate | exists y; auto].
  - intros [y [Hy Hk]] [EA ED]. destruct (is_assign y) eqn:Ea.
    + apply (proj2 (avals_nonempty k acts)); [exists y; auto | exact EA].
    + apply (proj2 (deltas_nonempty k acts)); [exists y; auto | exact ED].
Qed.

Lemma existsb_vtrue_const A b : A <> [] -> (forall y, In y A -> y = VBool b) -> existsb is_vtrue A = b.
Proof.
  intros Hne H. destruct b.
  - destruct A as [|y A]; [contradiction|]. cbn [existsb]. rewrite (H y (or_introl eq_refl)). reflexivity.
  - induction A as [|y A IH]; [contradiction|]. cbn [existsb]. rewrite (H y (or_introl eq_refl)). cbn [is_vtrue orb].
    destruct A as [|z A']; [reflexivity|]. apply IH; [discriminate|]. intros w Hw. apply H. right; exact Hw.
Qed.

Lemma combine_old_irrelevant isb o1 o2 A D : (D <> [] -> A = [] -> o1 = o2) -> combine isb o1 A D = combine isb o2 A D.
Proof.
  intros H. destruct A as [|a A], D as [|d D]; try reflexivity. rewrite (H ltac:(discriminate) eq_refl). reflexivity.
Qed.

Lemma combine_all_true isb old A : Forall (fun v => v = VBool true) A ->
  combine isb old A [] = match A with [] => CUnchanged | _ => CVal (VBool true) end.
Proof.
  intros H. destruct A as [|a rest]; [reflexivity|]. inversion H as [|? ? Ha Hr]; subst. cbn [combine].
  destruct isb; [reflexivity|].
  assert (E : forallb (value_eqb (VBool true)) rest = true).
  { apply forallb_forall. intros v Hv. rewrite Forall_forall in Hr. rewrite (Hr v Hv). reflexivity. }
  rewrite E. reflexivity.
Qed.

Lemma spec_fluent_congr P s t acts k : s (fst k) (snd k) = t (fst k) (snd k) -> spec_fluent P s acts k = spec_fluent P t acts k.
Proof. intros H. unfold spec_fluent. rewrite H. reflexivity. Qed.

Lemma spec_succ_congr P s t acts f vs : s f vs = t f vs -> spec_succ P s acts f vs = spec_succ P t acts f vs.
Proof. intros H. unfold spec_succ. rewrite (spec_fluent_congr P s t acts (f, vs) H), H. reflexivity. Qed.

Lemma spec_effects_ok_congr P s t acts :
  (forall a, In a acts -> s (fst (ae_key a)) (snd (ae_key a)) = t (fst (ae_key a)) (snd (ae_key a))) ->
  spec_effects_ok P s acts = spec_effects_ok P t acts.
Proof.
  intros H. unfold spec_effects_ok.
  assert (E : forall l, incl l acts ->
            forallb (fun a => match spec_fluent P s acts (ae_key a) with CFail => false | _ => true end) l =
            forallb (fun a => match spec_fluent P t acts (ae_key a) with CFail => false | _ => true end) l).
  { induction l as [|a l IH]; intros Hi; [reflexivity|]. cbn [forallb].
    rewrite (spec_fluent_congr P s t acts (ae_key a) (H a (Hi a (or_introl eq_refl)))), IH; [reflexivity|].
    intros x Hx. apply Hi. right. exact Hx. }
  apply E, incl_refl.
Qed.

(* Proofs for Model/Belief.v (C30): tabulated states simulate function states; with Explore_proofs (exploration covers
   what is reachable, runs trace paths of a graph that matches their steps) this gives the belief search, the
   unsolvability check and the product check; the relevance relation and the
   dominated-state reduction; the literal-level problem as a problem of the shared semantics. *)
From Coq Require Import List ZArith NArith Bool Lia.
Import ListNotations.
Require Import UPV.Core.Expr UPV.Core.Eval UPV.Core.Interp UPV.Planning.Problem UPV.Planning.Sem.
Require Import UPV.Proofs.ListFacts UPV.Proofs.Eval_lemmas UPV.Proofs.Sem_proofs UPV.Proofs.Step_proofs.
Require Import UPV.Model.Belief UPV.Proofs.Explore_proofs.

Definition plan_over (insts : list step_id) (pi : plan) : Prop := Forall (fun st => In st insts) pi.


Lemma kstate_eq_sym s t : state_eq s t -> state_eq t s.
Proof. exact (state_eq_sym s t). Qed.

Lemma sstep_ext P s t st : state_eq s t -> ostate_eq (sstep P s st) (sstep P t st).
Proof. intros H. unfold sstep. destruct (lookup_action P (fst st)); [apply spec_step_ext, H | exact I]. Qed.

Definition supported (K : list gfl) (s : state) : Prop := forall f a, amem (f, a) K = false -> s f a = None.

Lemma fst_of_tab K s f a : fst_of (tab K s) f a = if amem (f, a) K then s f a else None.
Proof.
  unfold fst_of. induction K as [|[g b] K IH]; simpl; [reflexivity|].
  unfold gfl_eqb at 1. simpl.
  destruct ((f =? g)%N && values_eqb a b) eqn:E; simpl.
  - apply andb_true_iff in E. destruct E as [E1 E2]. apply N.eqb_eq in E1. apply values_eqb_eq in E2. subst.
    destruct (s g b) as [v|]; simpl.
    + rewrite N.eqb_refl, values_eqb_refl. reflexivity.
    + rewrite IH. destruct (amem (g, b) K); reflexivity.
  - destruct (s g b); simpl; [rewrite E|]; exact IH.
Qed.

Lemma supported_tab K s : supported K (fst_of (tab K s)).
Proof. intros f a H. rewrite fst_of_tab, H. reflexivity. Qed.

Lemma tab_roundtrip K s : supported K s -> state_eq (fst_of (tab K s)) s.
Proof.
  intros H f a. rewrite fst_of_tab. destruct (amem (f, a) K) eqn:E; [reflexivity|]. symmetry. apply H, E.
Qed.

Lemma tab_ext K s t : state_eq s t -> tab K s = tab K t.
Proof.
  intros H. unfold tab. induction K as [|k K IH]; simpl; [reflexivity|]. rewrite (H (fst k) (snd k)), IH. reflexivity.
Qed.

Lemma keys_in_supported K l : keys_in K l = true -> supported K (fst_of l).
Proof.
  intros H f a Hm. unfold fst_of. induction l as [|[[g b] v] l IH]; simpl; [reflexivity|].
  simpl in H. apply andb_true_iff in H. destruct H as [H1 H2].
  destruct ((f =? g)%N && values_eqb a b) eqn:E.
  - apply andb_true_iff in E. destruct E as [E1 E2]. apply N.eqb_eq in E1. apply values_eqb_eq in E2. subst.
    simpl in H1. congruence.
  - apply IH, H2.
Qed.

Lemma amem_In k l : amem k l = true <-> In k l.
Proof. exact (existsb_eqb_In gfl_eqb gfl_eqb_eq k l). Qed.

Lemma spec_succ_supported K P s acts :
  supported K s -> forallb (fun x => amem (ae_key x) K) acts = true -> supported K (spec_succ P s acts).
Proof.
  intros Hs Hw f a Hm. unfold spec_succ, spec_fluent.
  assert (Hnone : forall (g : aeff -> bool), filter (fun x => gfl_eqb (ae_key x) (f, a) && g x) acts = []).
  { intros g. rewrite forallb_forall in Hw. induction acts as [|x acts IH]; simpl; [reflexivity|].
    destruct (gfl_eqb (ae_key x) (f, a)) eqn:E; simpl.
    - apply gfl_eqb_eq in E. specialize (Hw x (or_introl eq_refl)). rewrite E in Hw. congruence.
    - apply IH. intros y Hy. apply Hw. right. exact Hy. }
  unfold avals, deltas. rewrite (Hnone is_assign), (Hnone (fun x => negb (is_assign x))). simpl.
  apply Hs, Hm.
Qed.

Lemma value_eqb_refl' v : value_eqb v v = true.
Proof. exact (value_eqb_refl v). Qed.

Lemma fstate_eqb_eq a : forall b, fstate_eqb a b = true <-> a = b.
Proof.
  induction a as [|[[f x] v] a IH]; intros [|[[g y] w] b]; simpl; try (split; [discriminate | intros H; discriminate H]); [tauto|].
  unfold entry_eqb. simpl. rewrite !andb_true_iff, gfl_eqb_eq, value_eqb_eq, IH.
  split; [intros [[E ->] ->]; inversion E; reflexivity | intros H; inversion H; auto].
Qed.

Lemma belief_eqb_eq a : forall b, belief_eqb a b = true <-> a = b.
Proof.
  induction a as [|x a IH]; intros [|y b]; simpl; try (split; [discriminate | intros H; discriminate H]); [tauto|].
  rewrite andb_true_iff, fstate_eqb_eq, IH. split; [intros [-> ->]; reflexivity | intros H; inversion H; auto].
Qed.

Lemma bnode_eqb_eq (a b : bnode) : bnode_eqb a b = true <-> a = b.
Proof.
  destruct a as [x|], b as [y|]; simpl; try (split; [discriminate | intros H; discriminate H]); [|tauto].
  rewrite belief_eqb_eq. split; [intros ->; reflexivity | intros H; inversion H; auto].
Qed.

Lemma cnode_eqb_eq (a b : cnode) : cnode_eqb a b = true <-> a = b.
Proof.
  destruct a as [x|], b as [y|]; simpl; try (split; [discriminate | intros H; discriminate H]); [|tauto].
  rewrite fstate_eqb_eq. split; [intros ->; reflexivity | intros H; inversion H; auto].
Qed.

Lemma pnode_eqb_eq (a b : pnode) : pnode_eqb a b = true <-> a = b.
Proof.
  destruct a as [[c1 o1]|], b as [[c2 o2]|]; simpl; try (split; [discriminate | intros H; discriminate H]); [|tauto].
  change (obelief_eqb o1 o2) with (bnode_eqb o1 o2). rewrite andb_true_iff, fstate_eqb_eq, bnode_eqb_eq.
  split; [intros [-> ->]; reflexivity | intros H; inversion H; auto].
Qed.

Lemma valid_plan_cons P s st pi :
  valid_plan false P s (st :: pi) = match sstep P s st with Some s' => valid_plan false P s' pi | None => false end.
Proof.
  unfold valid_plan, sstep. destruct st as [aid args]. simpl.
  destruct (lookup_action P aid) as [a|]; [|reflexivity].
  destruct (spec_step false P s a args); reflexivity.
Qed.

Lemma forallb_map_opt {A B} (f : A -> option B) (g : B -> bool) l :
  forallb (fun x => match f x with Some y => g y | None => false end) l
  = match map_opt f l with Some r => forallb g r | None => false end.
Proof.
  induction l as [|x l IH]; simpl; [reflexivity|]. rewrite IH.
  destruct (f x) as [y|]; [|reflexivity]. destruct (map_opt f l); simpl; [reflexivity | apply andb_false_r].
Qed.

Lemma conformant_check_forallb P pi : forall b,
  conformant_check P b pi = forallb (fun s => valid_plan false P s pi) b.
Proof.
  induction pi as [|st pi IH]; intros b.
  - reflexivity.
  - unfold conformant_check. cbn [brun]. unfold bstep.
    rewrite (forallb_ext (fun s => valid_plan false P s (st :: pi))
               (fun s => match sstep P s st with Some s' => valid_plan false P s' pi | None => false end) b
               (fun s => valid_plan_cons P s st pi)).
    rewrite (forallb_map_opt (fun s => sstep P s st) (fun s' => valid_plan false P s' pi)).
    destruct (map_opt (fun s => sstep P s st) b) as [b'|]; [|reflexivity].
    rewrite <- IH. reflexivity.
Qed.

Theorem conformant_check_correct P inits pi :
  conformant_check P inits pi = true <-> forall s, In s inits -> valid_plan false P s pi = true.
Proof. rewrite conformant_check_forallb, forallb_forall. tauto. Qed.

Definition frel (K : list gfl) (l : fstate) (s : state) : Prop := state_eq (fst_of l) s /\ supported K (fst_of l).

Lemma frel_tab K s : supported K s -> frel K (tab K s) s.
Proof. intros H. split; [apply tab_roundtrip, H | apply supported_tab]. Qed.

Lemma frel_init K l : keys_in K l = true -> frel K (tab K (fst_of l)) (fst_of l).
Proof. intros H. apply frel_tab, keys_in_supported, H. Qed.

Lemma fstep_sim K P l s a args : frel K l s ->
  match fstep K P l a args with
  | FErr => True
  | FNone => spec_step false P s a args = None
  | FSome l' => exists s', spec_step false P s a args = Some s' /\ frel K l' s'
  end.
Proof.
  intros [He Hs]. pose proof (spec_step_ext false P (fst_of l) s a args He) as Hx. unfold fstep.
  destruct (fired false (mk_interp P (fst_of l) (zip_params (a_params a) args)) (a_effs a)) as [acts|] eqn:Ef.
  - destruct (forallb (fun x => amem (ae_key x) K) acts) eqn:Ew; [|exact I].
    destruct (spec_step false P (fst_of l) a args) as [s1|] eqn:Es, (spec_step false P s a args) as [s2|];
      try contradiction; [|reflexivity].
    exists s2. split; [reflexivity|]. split; [|apply supported_tab].
    destruct (spec_step_inv _ _ _ _ _ _ Es) as (_ & acts' & Ef' & _ & -> & _).
    assert (acts' = acts) by congruence. subst acts'.
    eapply state_eq_trans; [apply tab_roundtrip, spec_succ_supported; assumption | exact Hx].
  - rewrite spec_step_eq, Ef in Hx.
    destruct (negb _) in Hx; destruct (spec_step false P s a args); try contradiction; reflexivity.
Qed.

Lemma fmap_step_sim K P a args : forall b bs, Forall2 (frel K) b bs ->
  match fmap_step K P a args b with
  | BErr => True
  | BNone => map_opt (fun s => spec_step false P s a args) bs = None
  | BSome b' => exists bs', map_opt (fun s => spec_step false P s a args) bs = Some bs' /\ Forall2 (frel K) b' bs'
  end.
Proof.
  intros b bs H. induction H as [|l s b bs Hl Hb IH]; simpl.
  - exists []. split; [reflexivity | constructor].
  - pose proof (fstep_sim K P l s a args Hl) as Hx.
    destruct (fstep K P l a args) as [| |l'].
    + exact I.
    + destruct (fmap_step K P a args b); [exact I | |]; rewrite Hx; reflexivity.
    + destruct Hx as [s' [Es Hr]]. destruct (fmap_step K P a args b) as [| |b'].
      * exact I.
      * rewrite Es, IH. reflexivity.
      * destruct IH as [bs' [Eb Hb']]. exists (s' :: bs'). rewrite Es, Eb. split; [reflexivity | constructor; assumption].
Qed.

Lemma bgoal_rel K P b bs : Forall2 (frel K) b bs -> bgoalF P b = bgoal P bs.
Proof.
  intros H. unfold bgoalF, bgoal. induction H as [|l s b bs [Hl _] Hb IH]; simpl; [reflexivity|].
  unfold fgoal at 1. rewrite (goals_hold_ext false P _ _ Hl), IH. reflexivity.
Qed.

Lemma map_opt_sstep P st a bs : lookup_action P (fst st) = Some a ->
  map_opt (fun s => sstep P s st) bs = map_opt (fun s => spec_step false P s a (snd st)) bs.
Proof. intros E. induction bs as [|s bs IH]; simpl; [reflexivity|]. unfold sstep at 1. rewrite E, IH. reflexivity. Qed.

(* ---- the belief graph: beliefs are kept non-empty, so that a step of the belief has an action to look up *)
Definition brel (K : list gfl) (b : list fstate) (bs : list state) : Prop := Forall2 (frel K) b bs /\ b <> [].

Lemma brun_crun P pi : forall bs, brun P bs pi = crun (bstep P) bs pi.
Proof. induction pi as [|st pi IH]; intros bs; simpl; [reflexivity|]. destruct (bstep P bs st); auto. Qed.

Lemma bsim K P b bs st bs' : brel K b bs -> bstep P bs st = Some bs' ->
  exists y, In y (bsucc1 K P b st) /\ orel (brel K) y bs'.
Proof.
  intros [Hrel Hne] Eb. destruct Hrel as [|l s b bs Hl Hb]; [congruence|]. unfold bstep, bsucc1 in *.
  destruct (lookup_action P (fst st)) as [a|] eqn:Ea; [|simpl in Eb; unfold sstep in Eb; rewrite Ea in Eb; discriminate].
  rewrite (map_opt_sstep P st a _ Ea) in Eb.
  pose proof (fmap_step_sim K P a (snd st) (l :: b) (s :: bs) (Forall2_cons _ _ Hl Hb)) as Hx.
  destruct (fmap_step K P a (snd st) (l :: b)) as [| |b'] eqn:Ef.
  - exists None. simpl. auto.
  - congruence.
  - destruct Hx as [bs2 [E2 Hrel2]]. exists (Some b'). split; [left; reflexivity|].
    assert (bs2 = bs') by congruence. subst bs2. split; [exact Hrel2|].
    simpl in Ef. destruct (fstep K P l a (snd st)), (fmap_step K P a (snd st) b); try discriminate Ef.
    injection Ef as <-. discriminate.
Qed.

Lemma init_rel K inits : forallb (keys_in K) inits = true ->
  Forall2 (frel K) (map (fun l => tab K (fst_of l)) inits) (map fst_of inits).
Proof.
  intros H. induction inits as [|l inits IH]; simpl; [constructor|].
  simpl in H. apply andb_true_iff in H. destruct H as [H1 H2].
  constructor; [apply frel_init, H1 | apply IH, H2].
Qed.

Theorem exists_conformant_plan_complete K P insts inits n :
  exists_conformant_plan K P insts inits n = Some false ->
  forall pi, plan_over insts pi -> length pi <= n -> conformant_check P (map fst_of inits) pi = false.
Proof.
  unfold exists_conformant_plan. intros H pi Hover Hlen.
  destruct (forallb (keys_in K) inits) eqn:Eg; simpl in H; [|discriminate].
  set (b0 := map (fun l => tab K (fst_of l)) inits).
  assert (Hcov : explored (bsuccs K P insts) (belief_nodes K P insts inits n) (Some b0) (length pi)).
  { intros k y Hk. apply (bfs_explored bnode_eqb bnode_eqb_eq). lia. }
  set (V := belief_nodes K P insts inits n) in *.
  destruct (existsb is_none V) eqn:En; [discriminate|]. injection H as Hex.
  destruct (conformant_check P (map fst_of inits) pi) eqn:Ec; [|reflexivity]. exfalso.
  assert (Hg : exists y, In y V /\ match y with Some bg => bgoalF P bg = true | None => True end).
  { destruct inits as [|l0 inits'].
    - exists (Some b0). split; [apply (Hcov 0); [lia | constructor] | reflexivity].
    - unfold conformant_check in Ec. rewrite brun_crun in Ec.
      destruct (crun (bstep P) (map fst_of (l0 :: inits')) pi) as [bsf|] eqn:Er; [|discriminate].
      assert (Hr0 : brel K b0 (map fst_of (l0 :: inits'))) by (split; [apply init_rel, Eg | discriminate]).
      destruct (run_explored (bsucc1 K P) (bstep P) (brel K) insts (bsim K P) V pi _ _ _ Hcov Hr0 Hover Er)
        as [y [Hin Hy]].
      exists y. split; [exact Hin|].
      destruct y as [bg|]; [|exact I]. destruct Hy as [Hy _]. rewrite (bgoal_rel K P bg bsf Hy). exact Ec. }
  destruct Hg as [[bg|] [Hin Hy]].
  - rewrite (existsb_false_in _ _ Hex _ Hin) in Hy. discriminate.
  - discriminate (existsb_false_in _ _ En _ Hin).
Qed.

Lemma run_crun P pi : forall s, run P (spec_step false P) s pi = crun (sstep P) s pi.
Proof.
  induction pi as [|st pi IH]; intros s; [reflexivity|]. rewrite run_cons. cbn [crun]. unfold sstep.
  destruct (lookup_action P (fst st)) as [a|]; [|reflexivity]. destruct (spec_step false P s a (snd st)); auto.
Qed.

Lemma csim K P l s st s' : frel K l s -> sstep P s st = Some s' ->
  exists y, In y (csucc1 K P l st) /\ orel (frel K) y s'.
Proof.
  unfold sstep, csucc1. intros Hr H. destruct (lookup_action P (fst st)) as [a|]; [|discriminate].
  pose proof (fstep_sim K P l s a (snd st) Hr) as Hx.
  destruct (fstep K P l a (snd st)) as [| |l']; [exists None; simpl; auto | congruence |].
  destruct Hx as [s1 [E Hr']]. exists (Some l'). split; [left; reflexivity|]. simpl. congruence.
Qed.

Theorem unsolvable_closed_correct K P acts c0 n :
  unsolvable_closed K P acts c0 n = true ->
  forall pi, plan_over acts pi -> valid_plan false P (fst_of c0) pi = false.
Proof.
  unfold unsolvable_closed, classical_nodes. intros H pi Hover.
  apply andb_true_iff in H. destruct H as [H Hgoal]. apply andb_true_iff in H. destruct H as [Hk Hclosed].
  unfold valid_plan. rewrite run_crun.
  destruct (crun (sstep P) (fst_of c0) pi) as [sfin|] eqn:Er; [|reflexivity].
  set (x0 := Some (tab K (fst_of c0))) in *. set (V := bfs cnode_eqb (csuccs K P acts) n [x0] [x0]) in *.
  assert (Hx0 : In x0 V) by (apply (bfs_mono cnode_eqb cnode_eqb_eq); left; reflexivity).
  destruct (run_explored (csucc1 K P) (sstep P) (frel K) acts (csim K P) V pi _ _ _
              (closedb_explored cnode_eqb cnode_eqb_eq _ V x0 _ Hclosed Hx0) (frel_init K c0 Hk) Hover Er)
    as [y [Hin Hy]].
  rewrite forallb_forall in Hgoal. specialize (Hgoal y Hin).
  destruct y as [lf|]; [|discriminate]. destruct Hy as [Hf _]. unfold fgoal in Hgoal.
  rewrite (goals_hold_ext false P _ _ Hf) in Hgoal. destruct (goals_hold false P sfin); [discriminate | reflexivity].
Qed.

Definition obrun (P : problem) (obs : option (list state)) (pi : plan) : option (list state) :=
  match obs with Some bs => brun P bs pi | None => None end.

(* the checker's belief component may be None at any time (that only makes [pgood] harder to satisfy) *)
Definition obrel (KO : list gfl) (ob : option (list fstate)) (obs : option (list state)) : Prop :=
  match ob with
  | None => True
  | Some b => exists bs, obs = Some bs /\ Forall2 (frel KO) b bs
  end.

Section ProductProofs.
  Variables (KC : list gfl) (CP : problem) (KO : list gfl) (P : problem) (back : back_table) (cacts : list step_id).

  Definition ostep (obs : option (list state)) (o : step_id) : option (list state) :=
    match obs with Some bs => bstep P bs o | None => None end.

  Definition oback (obs : option (list state)) (st : step_id) : option (list state) :=
    match blookup st back with Some (Some o) => ostep obs o | _ => obs end.

  Lemma obrun_map_back pi : forall obs, obrun P obs (map_back back pi) = fold_left oback pi obs.
  Proof.
    induction pi as [|st pi IH]; intros obs; [destruct obs; reflexivity|].
    change (map_back back (st :: pi))
      with (match blookup st back with Some (Some o) => [o] | _ => [] end ++ map_back back pi).
    cbn [fold_left]. unfold oback at 2. destruct (blookup st back) as [[o|]|]; cbn [app]; try apply IH.
    rewrite <- IH. destruct obs as [bs|]; simpl; [|reflexivity]. destruct (bstep P bs o); reflexivity.
  Qed.

  Lemma oadvance_sim ob obs st : obrel KO ob obs ->
    match oadvance KO P back ob st with None => True | Some ob' => obrel KO ob' (oback obs st) end.
  Proof.
    intros Hrel. unfold oadvance, oback. destruct (blookup st back) as [[ost|]|]; try exact Hrel.
    destruct ob as [b|]; [|exact I]. destruct Hrel as [bs [-> Hb]].
    destruct (lookup_action P (fst ost)) as [oa|] eqn:Ea; [|exact I].
    pose proof (fmap_step_sim KO P oa (snd ost) b bs Hb) as Hx.
    destruct (fmap_step KO P oa (snd ost) b) as [| |b']; [exact I | exact I |].
    destruct Hx as [bs' [E Hb']]. exists bs'. split; [|exact Hb'].
    simpl. unfold bstep. rewrite (map_opt_sstep P ost oa bs Ea). exact E.
  Qed.

  Definition pstep (x : state * option (list state)) (st : step_id) : option (state * option (list state)) :=
    match sstep CP (fst x) st with Some s' => Some (s', oback (snd x) st) | None => None end.

  Definition prel (x : fstate * option (list fstate)) (y : state * option (list state)) : Prop :=
    frel KC (fst x) (fst y) /\ obrel KO (snd x) (snd y).

  Lemma crun_pstep pi : forall s obs sfin, crun (sstep CP) s pi = Some sfin ->
    crun pstep (s, obs) pi = Some (sfin, fold_left oback pi obs).
  Proof.
    induction pi as [|st pi IH]; intros s obs sfin H; simpl in *; [congruence|]. unfold pstep at 1. simpl.
    destruct (sstep CP s st) as [s1|]; [apply IH, H | discriminate].
  Qed.

  Lemma psim x y st y' : prel x y -> pstep y st = Some y' ->
    exists z, In z (psucc1 KC CP KO P back (fst x) (snd x) st) /\ orel prel z y'.
  Proof.
    destruct x as [cl ob], y as [s obs]. intros [Hr Ho] H. unfold pstep, sstep in H. simpl in *. unfold psucc1.
    destruct (lookup_action CP (fst st)) as [a|]; [|discriminate].
    pose proof (fstep_sim KC CP cl s a (snd st) Hr) as Hx.
    destruct (spec_step false CP s a (snd st)) as [s1|] eqn:Es; [|discriminate]. injection H as <-.
    destruct (fstep KC CP cl a (snd st)) as [| |cl']; [exists None; simpl; auto | discriminate |].
    destruct Hx as [s1' [E Hr']]. assert (s1' = s1) by congruence. subst s1'.
    pose proof (oadvance_sim ob obs st Ho) as Hq.
    destruct (oadvance KO P back ob st) as [ob'|]; [|exists None; simpl; auto].
    exists (Some (cl', ob')). split; [left; reflexivity | split; assumption].
  Qed.

  Lemma product_sound V c0 inits pi :
    keys_in KC c0 = true -> forallb (keys_in KO) inits = true -> forallb (pgood CP P) V = true ->
    explored (psuccs KC CP KO P back cacts) V
           (Some (tab KC (fst_of c0), Some (map (fun l => tab KO (fst_of l)) inits))) (length pi) ->
    plan_over cacts pi -> valid_plan false CP (fst_of c0) pi = true ->
    conformant_check P (map fst_of inits) (map_back back pi) = true.
  Proof.
    intros Hk1 Hk2 Hgood Hcov Hover Hvalid. unfold valid_plan in Hvalid. rewrite run_crun in Hvalid.
    destruct (crun (sstep CP) (fst_of c0) pi) as [sfin|] eqn:Er; [|discriminate].
    assert (Hr0 : prel (tab KC (fst_of c0), Some (map (fun l => tab KO (fst_of l)) inits))
                       (fst_of c0, Some (map fst_of inits))).
    { split; [apply frel_init, Hk1|]. exists (map fst_of inits). split; [reflexivity | apply init_rel, Hk2]. }
    apply (explored_ext _ (osuccs (fun x => psucc1 KC CP KO P back (fst x) (snd x)) cacts)) in Hcov;
      [|intros [[cl ob]|]; reflexivity].
    destruct (run_explored _ pstep prel cacts psim V pi _ _ _ Hcov Hr0 Hover (crun_pstep pi _ _ _ Er)) as [y [Hin Hy]].
    rewrite forallb_forall in Hgood. specialize (Hgood y Hin).
    destruct y as [[clf obf]|]; [|discriminate]. destruct Hy as [[Hf _] Hof]. simpl in Hgood, Hf, Hof.
    unfold fgoal in Hgood. rewrite (goals_hold_ext false CP _ _ Hf), Hvalid in Hgood.
    destruct obf as [b|]; [|discriminate]. destruct Hof as [bs [Hobs Hb]].
    unfold conformant_check. change (brun P (map fst_of inits) (map_back back pi))
      with (obrun P (Some (map fst_of inits)) (map_back back pi)).
    rewrite obrun_map_back, Hobs, <- (bgoal_rel KO P b bs Hb). exact Hgood.
  Qed.

  Theorem sound_check_correct c0 inits n :
    sound_check KC CP KO P back cacts c0 inits n = true ->
    forall pi, plan_over cacts pi -> length pi <= n -> valid_plan false CP (fst_of c0) pi = true ->
               conformant_check P (map fst_of inits) (map_back back pi) = true.
  Proof.
    unfold sound_check, product_nodes. intros H pi Hover Hlen.
    apply andb_true_iff in H. destruct H as [H Hgood]. apply andb_true_iff in H. destruct H as [Hk1 Hk2].
    apply (product_sound _ c0 inits pi Hk1 Hk2 Hgood); [|exact Hover].
    intros k y Hk. apply (bfs_explored pnode_eqb pnode_eqb_eq). lia.
  Qed.

  Theorem sound_check_closed_correct c0 inits n :
    sound_check_closed KC CP KO P back cacts c0 inits n = true ->
    forall pi, plan_over cacts pi -> valid_plan false CP (fst_of c0) pi = true ->
               conformant_check P (map fst_of inits) (map_back back pi) = true.
  Proof.
    unfold sound_check_closed, sound_check, product_nodes. intros H pi Hover.
    apply andb_true_iff in H. destruct H as [H Hclosed].
    apply andb_true_iff in H. destruct H as [H Hgood]. apply andb_true_iff in H. destruct H as [Hk1 Hk2].
    apply (product_sound _ c0 inits pi Hk1 Hk2 Hgood); [|exact Hover].
    apply (closedb_explored pnode_eqb pnode_eqb_eq _ _ _ _ Hclosed). apply (bfs_mono pnode_eqb pnode_eqb_eq). left. reflexivity.
  Qed.
End ProductProofs.

Lemma lit_eqb_eq a b : lit_eqb a b = true <-> a = b.
Proof.
  destruct a as [p x], b as [q y]. unfold lit_eqb. simpl.
  rewrite andb_true_iff, N.eqb_eq, Bool.eqb_true_iff. split; [intros [-> ->]; reflexivity | intros H; inversion H; auto].
Qed.
Lemma lit_eqb_refl a : lit_eqb a a = true.
Proof. apply lit_eqb_eq. reflexivity. Qed.

Lemma lneg_invol l : lneg (lneg l) = l.
Proof. destruct l as [p b]. unfold lneg. simpl. rewrite negb_involutive. reflexivity. Qed.

Lemma lmem_In l s : lmem l s = true <-> In l s.
Proof. exact (existsb_eqb_In lit_eqb lit_eqb_eq l s). Qed.

Lemma lsubset_incl a b : lsubset a b = true <-> incl a b.
Proof.
  unfold lsubset. rewrite forallb_forall. split.
  - intros H x Hx. apply lmem_In, H, Hx.
  - intros H x Hx. apply lmem_In, H, Hx.
Qed.

Lemma ladd_In l s x : In x (ladd l s) <-> x = l \/ In x s.
Proof.
  unfold ladd. destruct (lmem l s) eqn:E.
  - apply lmem_In in E. split; [auto|]. intros [->|H]; auto.
  - rewrite in_app_iff. simpl. split; [intros [H|[H|[]]]; auto | intros [H|H]; auto].
Qed.

Lemma lunion_In a b x : In x (lunion a b) <-> In x a \/ In x b.
Proof.
  unfold lunion. revert a. induction b as [|y b IH]; intros a; simpl; [tauto|].
  rewrite IH, ladd_In. simpl. split; [intros [[->|H]|H]; auto | intros [H|[->|H]]; auto].
Qed.

Definition rkeys (R : reltab) : list lit := map fst R.

Lemma rget_rset R l v m :
  rget (rset R l v) m = if lit_eqb m l && lmem l (rkeys R) then v else rget R m.
Proof.
  induction R as [|[k x] R IH]; simpl.
  - rewrite andb_false_r. reflexivity.
  - destruct (lit_eqb k l) eqn:Ekl; simpl.
    + apply lit_eqb_eq in Ekl. subst k. rewrite lit_eqb_refl. simpl. rewrite andb_true_r.
      destruct (lit_eqb m l) eqn:Eml; [reflexivity|]. rewrite IH. reflexivity.
    + assert (Hlk : lit_eqb l k = false).
      { destruct (lit_eqb l k) eqn:E; [|reflexivity]. apply lit_eqb_eq in E. subst. rewrite lit_eqb_refl in Ekl. discriminate. }
      rewrite Hlk. simpl. destruct (lit_eqb m k) eqn:Emk.
      * apply lit_eqb_eq in Emk. subst m. rewrite Ekl. reflexivity.
      * exact IH.
Qed.

Lemma rkeys_rset R l v : rkeys (rset R l v) = rkeys R.
Proof.
  unfold rkeys, rset. rewrite map_map. apply map_ext. intros [k x]. simpl. destruct (lit_eqb k l); reflexivity.
Qed.

Definition rle (R R' : reltab) : Prop := rkeys R = rkeys R' /\ forall l, incl (rget R l) (rget R' l).

Lemma rle_refl R : rle R R.
Proof. split; [reflexivity | intros l; apply incl_refl]. Qed.
Lemma rle_trans A B C : rle A B -> rle B C -> rle A C.
Proof. intros [K1 H1] [K2 H2]. split; [congruence | intros l; eapply incl_tran; eauto]. Qed.

Lemma rle_rset R l v : incl (rget R l) v -> rle R (rset R l v).
Proof.
  intros H. split; [symmetry; apply rkeys_rset|]. intros m. rewrite rget_rset.
  destruct (lit_eqb m l && lmem l (rkeys R)) eqn:E; [|apply incl_refl].
  apply andb_true_iff in E. destruct E as [E _]. apply lit_eqb_eq in E. subst. exact H.
Qed.

Definition init_step (R : reltab) (ct : lit * lit) : reltab := rset R (fst ct) (ladd (snd ct) (rget R (fst ct))).

Lemma init_step_rle R ct : rle R (init_step R ct).
Proof. apply rle_rset. intros x Hx. apply ladd_In. auto. Qed.

Lemma init_fold pairs : forall R,
  rle R (fold_left init_step pairs R) /\
  forall c t, In (c, t) pairs -> lmem c (rkeys R) = true -> In t (rget (fold_left init_step pairs R) c).
Proof.
  induction pairs as [|ct pairs IH]; intros R; simpl.
  - split; [apply rle_refl | intros c t []].
  - destruct (IH (init_step R ct)) as [Hle Hin]. pose proof (init_step_rle R ct) as Hs.
    split; [eapply rle_trans; eauto|].
    intros c t [->|Hct] Hk.
    + destruct Hle as [_ Hle]. apply Hle. unfold init_step. simpl. rewrite rget_rset, lit_eqb_refl, Hk. simpl.
      apply ladd_In. auto.
    + apply Hin; [exact Hct|]. destruct Hs as [Hs _]. rewrite <- Hs. exact Hk.
Qed.

Lemma rget_base lits l : rget (map (fun l => (l, [l])) lits) l = if lmem l lits then [l] else [].
Proof.
  induction lits as [|k lits IH]; simpl; [reflexivity|].
  destruct (lit_eqb l k) eqn:E; simpl; [apply lit_eqb_eq in E; subst; reflexivity | exact IH].
Qed.

Lemma rkeys_base lits : rkeys (map (fun l : lit => (l, [l])) lits) = lits.
Proof. unfold rkeys. rewrite map_map. simpl. apply map_id. Qed.

(* ---- the two kinds of visits are instances of one scheme *)
Definition gvisit (grow : reltab -> lit -> bool) (upd : reltab -> lit -> reltab) (st : reltab * bool) (l : lit)
  : reltab * bool := if grow (fst st) l then (upd (fst st) l, true) else st.

Definition texp (R : reltab) (l : lit) : list lit := fold_left (fun acc m => lunion acc (rget R m)) (rget R l) (rget R l).
Definition cexp (R : reltab) (l : lit) : list lit := fold_left (fun acc t => ladd (lneg t) acc) (rget R (lneg l)) (rget R l).

Lemma trans_visit_g st l :
  trans_visit st l = gvisit (fun R l => negb (lsubset (texp R l) (rget R l))) (fun R l => rset R l (texp R l)) st l.
Proof. destruct st as [R ch]. reflexivity. Qed.
Lemma compl_visit_g st l :
  compl_visit st l = gvisit (fun R l => negb (lsubset (cexp R l) (rget R l))) (fun R l => rset R l (cexp R l)) st l.
Proof. destruct st as [R ch]. reflexivity. Qed.

Lemma gfold_flag grow upd lits : forall R R' ch, fold_left (gvisit grow upd) lits (R, true) = (R', ch) -> ch = true.
Proof.
  induction lits as [|l lits IH]; intros R R' ch H; simpl in H; [inversion H; reflexivity|].
  unfold gvisit at 2 in H. simpl in H. destruct (grow R l); eapply IH; exact H.
Qed.

Lemma gfold_nochange grow upd lits : forall R ch0 R',
  fold_left (gvisit grow upd) lits (R, ch0) = (R', false) ->
  ch0 = false /\ R' = R /\ forall l, In l lits -> grow R l = false.
Proof.
  induction lits as [|l lits IH]; intros R ch0 R' H; simpl in H.
  - inversion H; subst. split; [reflexivity|]. split; [reflexivity | intros l []].
  - unfold gvisit at 2 in H. simpl in H. destruct (grow R l) eqn:Eg.
    + apply gfold_flag in H. discriminate.
    + destruct (IH _ _ _ H) as [A [B C]]. split; [exact A|]. split; [exact B|].
      intros m [->|Hm]; [exact Eg | apply C, Hm].
Qed.

Lemma gfold_rle grow upd (Hupd : forall R l, rle R (upd R l)) lits : forall st,
  rle (fst st) (fst (fold_left (gvisit grow upd) lits st)).
Proof.
  induction lits as [|l lits IH]; intros st; simpl; [apply rle_refl|].
  eapply rle_trans; [|apply IH]. unfold gvisit. destruct (grow (fst st) l); simpl; [apply Hupd | apply rle_refl].
Qed.

Lemma fold_lunion_In {A} (g : A -> list lit) ms x : forall acc,
  In x (fold_left (fun acc m => lunion acc (g m)) ms acc) <-> In x acc \/ exists m, In m ms /\ In x (g m).
Proof.
  induction ms as [|m ms IH]; intros acc; simpl.
  - split; [auto | intros [H|[m [[] _]]]; exact H].
  - rewrite IH, lunion_In. split.
    + intros [[H|H]|[m' [H1 H2]]]; [auto | right; exists m; auto | right; exists m'; auto].
    + intros [H|[m' [[->|H1] H2]]]; [auto | auto | right; exists m'; auto].
Qed.

Lemma texp_In R l x : In x (texp R l) <-> In x (rget R l) \/ exists m, In m (rget R l) /\ In x (rget R m).
Proof. unfold texp. apply fold_lunion_In. Qed.

Lemma texp_incl R l : incl (rget R l) (texp R l).
Proof. intros x Hx. apply texp_In. auto. Qed.

Lemma cexp_In R l x : In x (cexp R l) <-> In x (rget R l) \/ exists t, In t (rget R (lneg l)) /\ x = lneg t.
Proof.
  (* [ladd y acc] is [lunion acc [y]] *)
  unfold cexp. rewrite (fold_lunion_In (fun t => [lneg t])). apply or_iff_compat_l.
  split; intros [t [Ht Hx]]; exists t; (split; [exact Ht|]).
  - destruct Hx as [<-|[]]. reflexivity.
  - left. symmetry. exact Hx.
Qed.

Lemma cexp_incl R l : incl (rget R l) (cexp R l).
Proof. intros x Hx. apply cexp_In. auto. Qed.

Lemma fold_left_ext2 {A B} (f g : A -> B -> A) (H : forall a b, f a b = g a b) l : forall a,
  fold_left f l a = fold_left g l a.
Proof. induction l as [|b l IH]; intros a; simpl; [reflexivity|]. rewrite H. apply IH. Qed.

Lemma rel_pass_g NP R :
  rel_pass NP R =
  fold_left (gvisit (fun R l => negb (lsubset (cexp R l) (rget R l))) (fun R l => rset R l (cexp R l))) (all_lits NP)
    (fold_left (gvisit (fun R l => negb (lsubset (texp R l) (rget R l))) (fun R l => rset R l (texp R l))) (all_lits NP)
       (R, false)).
Proof.
  unfold rel_pass. rewrite (fold_left_ext2 _ _ compl_visit_g), (fold_left_ext2 _ _ trans_visit_g). reflexivity.
Qed.

Lemma rel_pass_rle NP R : rle R (fst (rel_pass NP R)).
Proof.
  rewrite rel_pass_g.
  eapply rle_trans; [|apply gfold_rle; intros R0 l; apply rle_rset, cexp_incl].
  apply (gfold_rle _ _ (fun R0 l => rle_rset R0 l _ (texp_incl R0 l)) _ (R, false)).
Qed.

Definition rclosed (NP : nprob) (R : reltab) : Prop :=
  (forall l, In l (all_lits NP) -> forall m, In m (rget R l) -> incl (rget R m) (rget R l))
  /\ (forall l, In l (all_lits NP) -> forall t, In t (rget R (lneg l)) -> In (lneg t) (rget R l)).

Lemma rel_pass_fix NP R R' : rel_pass NP R = (R', false) -> R' = R /\ rclosed NP R.
Proof.
  rewrite rel_pass_g. intros H.
  destruct (fold_left (gvisit (fun R l => negb (lsubset (texp R l) (rget R l))) (fun R l => rset R l (texp R l)))
              (all_lits NP) (R, false)) as [R1 ch1] eqn:E1.
  destruct (gfold_nochange _ _ _ _ _ _ H) as [-> [-> Hc]].
  destruct (gfold_nochange _ _ _ _ _ _ E1) as [_ [-> Ht]].
  split; [reflexivity|]. split.
  - intros l Hl m Hm x Hx. specialize (Ht l Hl). apply negb_false_iff, lsubset_incl in Ht.
    apply Ht, texp_In. right. exists m. auto.
  - intros l Hl t Htn. specialize (Hc l Hl). apply negb_false_iff, lsubset_incl in Hc.
    apply Hc, cexp_In. right. exists t. auto.
Qed.

Lemma rel_loop_spec NP fuel : forall R Rf, rel_loop NP fuel R = Some Rf -> rle R Rf /\ rclosed NP Rf.
Proof.
  induction fuel as [|fuel IH]; intros R Rf H; simpl in H; [discriminate|].
  pose proof (rel_pass_rle NP R) as Hle.
  destruct (rel_pass NP R) as [R' ch] eqn:E. simpl in Hle. destruct ch.
  - destruct (IH _ _ H) as [A B]. split; [eapply rle_trans; eauto | exact B].
  - inversion H; subst. destruct (rel_pass_fix _ _ _ E) as [-> Hc]. split; [apply rle_refl | exact Hc].
Qed.

Definition rel_ok (NP : nprob) (R : reltab) : Prop :=
  (forall l, In l (all_lits NP) -> In l (rget R l))
  /\ (forall c t, In (c, t) (cond_pairs NP) -> In c (all_lits NP) -> In t (rget R c))
  /\ rclosed NP R.

Theorem relevance_ok NP fuel R : relevance NP fuel = Some R -> rel_ok NP R.
Proof.
  unfold relevance. intros H. destruct (rel_loop_spec _ _ _ _ H) as [[_ Hle] Hc].
  unfold rel_init in Hle.
  change (fun (R : reltab) (ct : lit * lit) => rset R (fst ct) (ladd (snd ct) (rget R (fst ct)))) with init_step in Hle.
  destruct (init_fold (cond_pairs NP) (map (fun l => (l, [l])) (all_lits NP))) as [[_ Hle0] Hin].
  split; [|split; [|exact Hc]].
  - intros l Hl. apply Hle, Hle0. rewrite rget_base. apply lmem_In in Hl. rewrite Hl. left. reflexivity.
  - intros c t Hct Hcl. apply Hle, Hin; [exact Hct|]. rewrite rkeys_base. apply lmem_In, Hcl.
Qed.

Definition dom (NP : nprob) (R : reltab) (T : lit) (s' s : nstate) : Prop :=
  forall L, In L (all_lits NP) -> In T (rget R L) -> holds_lit s' L = true -> holds_lit s L = true.

Lemma lit_ok_all NP l : lit_ok NP l = true -> In l (all_lits NP).
Proof.
  unfold lit_ok, all_lits. rewrite existsb_exists. intros [p [Hp E]]. apply N.eqb_eq in E.
  apply in_flat_map. exists p. split; [exact Hp|]. destruct l as [q b]. simpl in E. subst. destruct b; simpl; auto.
Qed.

Lemma nwf_inv NP : nwf NP = true ->
  (forall a, In a (np_acts NP) ->
     (forall l, In l (na_pre a) -> lit_ok NP l = true) /\
     (forall r, In r (na_rules a) -> (forall c, In c (r_cond r) -> lit_ok NP c = true) /\ lit_ok NP (r_tgt r) = true))
  /\ (forall l, In l (np_goal NP) -> lit_ok NP l = true).
Proof.
  unfold nwf. rewrite andb_true_iff, !forallb_forall. intros [Ha Hg]. split; [|exact Hg].
  intros a Hin. specialize (Ha a Hin). rewrite andb_true_iff, !forallb_forall in Ha. destruct Ha as [Hp Hr].
  split; [exact Hp|]. intros r Hrin. specialize (Hr r Hrin). rewrite andb_true_iff, forallb_forall in Hr. exact Hr.
Qed.

Lemma all_lits_neg NP l : In l (all_lits NP) -> In (lneg l) (all_lits NP).
Proof.
  unfold all_lits. rewrite !in_flat_map. intros [p [Hp Hl]]. exists p. split; [exact Hp|].
  simpl in Hl. destruct Hl as [<-|[<-|[]]]; simpl; auto.
Qed.

Lemma holds_lneg s l : holds_lit s (lneg l) = negb (holds_lit s l).
Proof. unfold holds_lit, lneg. simpl. destruct (s (fst l)), (snd l); reflexivity. Qed.

Lemma sets_incl s1 s2 a l :
  (forall r, In r (na_rules a) -> r_tgt r = l -> fires s1 r = true -> fires s2 r = true) ->
  sets s1 a l = true -> sets s2 a l = true.
Proof.
  intros H. unfold sets. rewrite !existsb_exists. intros [r [Hr Hrl]]. exists r. split; [exact Hr|].
  apply andb_true_iff in Hrl. destruct Hrl as [Hf Ht]. rewrite Ht, andb_true_r. apply lit_eqb_eq in Ht.
  apply (H r Hr Ht Hf).
Qed.

Section DomStep.
  Variables (NP : nprob) (R : reltab).
  Hypothesis Hok : rel_ok NP R.
  Hypothesis Hwf : nwf NP = true.
  Variable a : nact.
  Hypothesis Ha : In a (np_acts NP).

  Lemma rule_lits r : In r (na_rules a) ->
    (forall c, In c (r_cond r) -> In c (all_lits NP) /\ In (r_tgt r) (rget R c)) /\ In (r_tgt r) (all_lits NP).
  Proof.
    intros Hr. destruct (proj2 (proj1 (nwf_inv NP Hwf) a Ha) r Hr) as [Hc Ht]. split; [|apply lit_ok_all, Ht].
    intros c Hcin. pose proof (lit_ok_all _ _ (Hc c Hcin)) as Hcl. split; [exact Hcl|].
    destruct Hok as [_ [Hrule _]]. apply Hrule; [|exact Hcl].
    unfold cond_pairs. apply in_flat_map. exists a. split; [exact Ha|]. apply in_flat_map. exists r. split; [exact Hr|].
    apply in_map_iff. exists c. auto.
  Qed.

  Variables (T : lit) (s' s : nstate).
  Hypothesis Hdom : dom NP R T s' s.

  Lemma fires_mono r : In r (na_rules a) -> In T (rget R (r_tgt r)) -> fires s' r = true -> fires s r = true.
  Proof.
    intros Hr HT Hf. unfold fires in *. rewrite forallb_forall in *. intros c Hc.
    destruct (rule_lits r Hr) as [Hcs _]. destruct (Hcs c Hc) as [Hcl Htc].
    apply Hdom; [exact Hcl | | apply Hf, Hc].
    destruct Hok as [_ [_ [Htrans _]]]. apply (Htrans c Hcl (r_tgt r) Htc). exact HT.
  Qed.

  Lemma fires_back r L : In r (na_rules a) -> In L (all_lits NP) -> In T (rget R L) -> r_tgt r = lneg L ->
    fires s r = true -> fires s' r = true.
  Proof.
    intros Hr HL HT Htgt Hf. destruct (fires s' r) eqn:E; [reflexivity|]. exfalso.
    unfold fires in E. destruct (forallb_false_ex _ _ E) as [c [Hc Hcf]].
    destruct (rule_lits r Hr) as [Hcs _]. destruct (Hcs c Hc) as [Hcl Htc].
    destruct Hok as [_ [_ [Htrans Hcompl]]].
    pose proof (all_lits_neg _ _ Hcl) as Hncl.
    assert (HLn : In L (rget R (lneg c))).
    { rewrite <- (lneg_invol L). apply (Hcompl (lneg c) Hncl). rewrite lneg_invol, <- Htgt. exact Htc. }
    assert (HTn : In T (rget R (lneg c))) by (apply (Htrans (lneg c) Hncl L HLn), HT).
    assert (Hs : holds_lit s (lneg c) = true).
    { apply Hdom; [exact Hncl | exact HTn |]. rewrite holds_lneg, Hcf. reflexivity. }
    rewrite holds_lneg in Hs. unfold fires in Hf. rewrite forallb_forall in Hf. rewrite (Hf c Hc) in Hs. discriminate.
  Qed.

  Lemma dom_step : dom NP R T (nsucc s' a) (nsucc s a).
  Proof.
    intros L HL HT Hh. destruct L as [p b].
    assert (Hmono : sets s' a (p, b) = true -> sets s a (p, b) = true).
    { apply sets_incl. intros r Hr Ht. apply (fires_mono r Hr). rewrite Ht. exact HT. }
    assert (Hback : sets s a (p, negb b) = true -> sets s' a (p, negb b) = true).
    { apply sets_incl. intros r Hr Ht. apply (fires_back r (p, b) Hr HL HT Ht). }
    assert (Hd : Bool.eqb (s' p) b = true -> Bool.eqb (s p) b = true) by (apply (Hdom (p, b) HL HT)).
    unfold holds_lit, nsucc in *. simpl in *. destruct b; simpl in *.
    - destruct (sets s' a (p, true)) eqn:E1.
      + rewrite (Hmono eq_refl). reflexivity.
      + destruct (sets s a (p, true)); [reflexivity|].
        destruct (sets s' a (p, false)) eqn:E2; [discriminate|].
        destruct (sets s a (p, false)) eqn:E4; [discriminate (Hback eq_refl)|].
        apply Hd. exact Hh.
    - destruct (sets s a (p, true)) eqn:E3.
      + rewrite (Hback eq_refl) in Hh. discriminate.
      + destruct (sets s' a (p, true)) eqn:E1; [discriminate|].
        destruct (sets s' a (p, false)) eqn:E2.
        * rewrite (Hmono eq_refl). reflexivity.
        * destruct (sets s a (p, false)); [reflexivity|]. apply Hd. exact Hh.
  Qed.
End DomStep.

Lemma lsubset_refl a : lsubset a a = true.
Proof. apply lsubset_incl, incl_refl. Qed.
Lemma lsubset_trans a b c : lsubset a b = true -> lsubset b c = true -> lsubset a c = true.
Proof. rewrite !lsubset_incl. apply incl_tran. Qed.

Lemma relset_dom NP R T s' s : lsubset (rel_set NP R T s') (rel_set NP R T s) = true -> dom NP R T s' s.
Proof.
  rewrite lsubset_incl. intros H L HL HT Hh.
  assert (HinL : In L (rel_set NP R T s')).
  { unfold rel_set, rel_sources. apply filter_In. split; [|exact Hh]. apply filter_In. split; [exact HL | apply lmem_In, HT]. }
  apply H in HinL. unfold rel_set in HinL. apply filter_In in HinL. apply HinL.
Qed.

Section Minimals.
  Variables (NP : nprob) (R : reltab) (T : lit).

  Definition mins_ok (all : list nstate) (mins : list (nat * list lit)) : Prop :=
    forall j es, In (j, es) mins -> exists sj, nth_error all j = Some sj /\ es = rel_set NP R T sj.
  Definition covers (mins : list (nat * list lit)) (s : nstate) : Prop :=
    exists j es, In (j, es) mins /\ lsubset es (rel_set NP R T s) = true.

  Lemma scan_minimals_eq rs mins :
    scan_minimals rs mins
    = (existsb (fun e => lsubset (snd e) rs) mins,
       filter (fun e => lsubset (snd e) rs || negb (lsubset rs (snd e))) mins).
  Proof.
    induction mins as [|[ei es] mins IH]; [reflexivity|]. simpl. rewrite IH.
    destruct (lsubset es rs); simpl; [reflexivity|]. rewrite andb_true_r. destruct (lsubset rs es); reflexivity.
  Qed.

  Lemma scan_spec rs mins : forall d upd, scan_minimals rs mins = (d, upd) ->
    (d = true <-> exists j es, In (j, es) mins /\ lsubset es rs = true)
    /\ (forall x, In x upd -> In x mins)
    /\ (forall j es, In (j, es) mins -> In (j, es) upd \/ lsubset rs es = true).
  Proof.
    intros d upd H. rewrite scan_minimals_eq in H. injection H as <- <-. split; [|split].
    - rewrite existsb_exists. split; [intros [[j es] H]; exists j, es; exact H | intros [j [es H]]; exists (j, es); exact H].
    - intros x Hx. apply filter_In in Hx. apply Hx.
    - intros j es Hin. destruct (lsubset rs es) eqn:E; [right; reflexivity|]. left.
      apply filter_In. split; [exact Hin|]. simpl. rewrite E. apply orb_true_r.
  Qed.

  Lemma minimals_from_spec all : forall states pre mins i,
    length pre = i -> all = pre ++ states -> mins_ok all mins -> (forall s, In s pre -> covers mins s) ->
    mins_ok all (minimals_from NP R T i states mins)
    /\ forall s, In s all -> covers (minimals_from NP R T i states mins) s.
  Proof.
    induction states as [|s states IH]; intros pre mins i Hlen Hall Hok Hcov; simpl.
    - split; [exact Hok|]. intros s Hs. apply Hcov. rewrite Hall, app_nil_r in Hs. exact Hs.
    - destruct (scan_minimals (rel_set NP R T s) mins) as [d upd] eqn:E.
      destruct (scan_spec _ _ _ _ E) as [A [B C]].
      apply (IH (pre ++ [s])).
      + rewrite app_length. simpl. lia.
      + rewrite <- app_assoc. exact Hall.
      + destruct d; [exact Hok|]. intros j es Hin. apply in_app_iff in Hin. destruct Hin as [Hin|[Hin|[]]].
        * apply Hok, B, Hin.
        * inversion Hin; subst. exists s. split; [|reflexivity].
          rewrite nth_error_app2 by lia. rewrite Nat.sub_diag. reflexivity.
      + intros s1 Hs1. apply in_app_iff in Hs1. destruct d.
        * destruct Hs1 as [Hs1|[<-|[]]]; [apply Hcov, Hs1|].
          destruct (proj1 A eq_refl) as [j [es [Hin Hsub]]]. exists j, es. auto.
        * destruct Hs1 as [Hs1|[<-|[]]].
          -- destruct (Hcov s1 Hs1) as [j [es [Hin Hsub]]]. destruct (C j es Hin) as [Hu|Hd].
             ++ exists j, es. split; [apply in_app_iff; auto | exact Hsub].
             ++ exists i, (rel_set NP R T s). split; [apply in_app_iff; right; left; reflexivity|].
                eapply lsubset_trans; eauto.
          -- exists i, (rel_set NP R T s). split; [apply in_app_iff; right; left; reflexivity | apply lsubset_refl].
  Qed.

  Lemma minimals_cover states s : In s states ->
    exists j sj, In j (map fst (minimals_from NP R T 0 states [])) /\ nth_error states j = Some sj
                 /\ lsubset (rel_set NP R T sj) (rel_set NP R T s) = true.
  Proof.
    intros Hs.
    destruct (minimals_from_spec states states [] [] 0 eq_refl eq_refl) as [Hok Hcov].
    - intros j es [].
    - intros s1 [].
    - destruct (Hcov s Hs) as [j [es [Hin Hsub]]]. destruct (Hok j es Hin) as [sj [Hn ->]].
      exists j, sj. split; [apply in_map_iff; exists (j, rel_set NP R T sj); auto|]. auto.
  Qed.
End Minimals.

Lemma nat_mem_In i l : nat_mem i l = true <-> In i l.
Proof. exact (existsb_eqb_In Nat.eqb Nat.eqb_eq i l). Qed.

Lemma pick_In {A} sel (l : list A) : forall i j x,
  nth_error l j = Some x -> nat_mem (i + j) sel = true -> In x (pick_indices sel i l).
Proof.
  induction l as [|y l IH]; intros i j x Hn Hm; [destruct j; discriminate|].
  destruct j as [|j]; simpl in *.
  - inversion Hn; subst. rewrite Nat.add_0_r in Hm. rewrite Hm. left. reflexivity.
  - assert (In x (pick_indices sel (S i) l)) by (apply (IH (S i) j); [exact Hn | rewrite <- Nat.add_succ_comm in Hm; exact Hm]).
    destruct (nat_mem i sel); [right|]; assumption.
Qed.

Lemma pick_sub {A} sel (l : list A) : forall i x, In x (pick_indices sel i l) -> In x l.
Proof.
  induction l as [|y l IH]; intros i x H; simpl in *; [exact H|].
  destruct (nat_mem i sel); [destruct H as [->|H]; [left; reflexivity | right; eapply IH; exact H] | right; eapply IH; exact H].
Qed.

Lemma merge_targets_In NP l : In l (flat_map na_pre (np_acts NP) ++ np_goal NP) -> In l (merge_targets NP).
Proof. intros H. apply (lunion_In [] _ l). auto. Qed.

Lemma nvalid_no_targets NP : merge_targets NP = [] -> forall pi s s', nvalid NP s pi = nvalid NP s' pi.
Proof.
  intros H.
  assert (Hno : forall l, ~ In l (flat_map na_pre (np_acts NP) ++ np_goal NP)).
  { intros l Hl. apply merge_targets_In in Hl. rewrite H in Hl. exact Hl. }
  assert (Hp : forall a, In a (np_acts NP) -> na_pre a = []).
  { intros a Ha. destruct (na_pre a) as [|c cs] eqn:E; [reflexivity|]. destruct (Hno c).
    apply in_or_app. left. apply in_flat_map. exists a. rewrite E. simpl. auto. }
  assert (Hgoal : np_goal NP = []).
  { destruct (np_goal NP) as [|c cs]; [reflexivity|]. destruct (Hno c). apply in_or_app. right. left. reflexivity. }
  induction pi as [|i pi IH]; intros s s'; simpl.
  - rewrite Hgoal. reflexivity.
  - destruct (nth_error (np_acts NP) i) as [a|] eqn:E; [|reflexivity].
    unfold nstep. rewrite (Hp a (nth_error_In _ _ E)). simpl. apply IH.
Qed.

Section Main.
  Variables (NP : nprob) (R : reltab).
  Hypothesis Hok : rel_ok NP R.
  Hypothesis Hwf : nwf NP = true.

  Lemma target_holds Bc sc l :
    In l (merge_targets NP) -> In l (all_lits NP) ->
    (forall T, In T (merge_targets NP) -> exists s', In s' Bc /\ dom NP R T s' sc) ->
    (forall s', In s' Bc -> holds_lit s' l = true) -> holds_lit sc l = true.
  Proof.
    intros Ht Hl Hdom Hall. destruct (Hdom l Ht) as [s' [Hs' Hd]].
    apply (Hd l Hl); [|apply Hall, Hs']. destruct Hok as [Hrefl _]. apply Hrefl, Hl.
  Qed.

  Lemma goal_lits_ok l : In l (np_goal NP) -> In l (all_lits NP).
  Proof.
    intros H. apply lit_ok_all, (proj2 (nwf_inv NP Hwf)), H.
  Qed.

  Lemma pre_lits_ok a l : In a (np_acts NP) -> In l (na_pre a) -> In l (all_lits NP).
  Proof.
    intros Ha H. apply lit_ok_all, (proj1 (proj1 (nwf_inv NP Hwf) a Ha)), H.
  Qed.

  Lemma dominated_valid : forall pi Bc sc,
    (exists s', In s' Bc) ->
    (forall T, In T (merge_targets NP) -> exists s', In s' Bc /\ dom NP R T s' sc) ->
    (forall s', In s' Bc -> nvalid NP s' pi = true) -> nvalid NP sc pi = true.
  Proof.
    induction pi as [|i pi IH]; intros Bc sc Hne Hdom Hall; simpl.
    - apply forallb_forall. intros l Hl.
      apply (target_holds Bc sc l); [apply merge_targets_In, in_app_iff; auto | apply goal_lits_ok, Hl | exact Hdom|].
      intros s' Hs'. specialize (Hall s' Hs'). simpl in Hall. rewrite forallb_forall in Hall. apply Hall, Hl.
    - destruct Hne as [s0 Hs0]. pose proof (Hall s0 Hs0) as H0. simpl in H0.
      destruct (nth_error (np_acts NP) i) as [a|] eqn:Ea; [|discriminate]. clear H0.
      pose proof (nth_error_In _ _ Ea) as Ha.
      assert (Hpre : forallb (holds_lit sc) (na_pre a) = true).
      { apply forallb_forall. intros l Hl.
        apply (target_holds Bc sc l); [|apply (pre_lits_ok a l Ha Hl) | exact Hdom|].
        - apply merge_targets_In, in_app_iff. left. apply in_flat_map. exists a. auto.
        - intros s' Hs'. specialize (Hall s' Hs'). simpl in Hall. rewrite Ea in Hall. unfold nstep in Hall.
          destruct (forallb (holds_lit s') (na_pre a)) eqn:E; [|discriminate]. rewrite forallb_forall in E. apply E, Hl. }
      unfold nstep. rewrite Hpre.
      apply (IH (map (fun s' => nsucc s' a) Bc)).
      + exists (nsucc s0 a). apply in_map_iff. exists s0. auto.
      + intros T HT. destruct (Hdom T HT) as [s' [Hs' Hd]]. exists (nsucc s' a).
        split; [apply in_map_iff; exists s'; auto|]. apply (dom_step NP R Hok Hwf a Ha T s' sc Hd).
      + intros t Ht. apply in_map_iff in Ht. destruct Ht as [s' [<- Hs']].
        specialize (Hall s' Hs'). simpl in Hall. rewrite Ea in Hall. unfold nstep in Hall.
        destruct (forallb (holds_lit s') (na_pre a)); [exact Hall | discriminate].
  Qed.

  Lemma basis_covers S0 s T :
    In T (merge_targets NP) -> In s S0 ->
    exists s', In s' (reduce_to_basis NP R S0) /\ dom NP R T s' s.
  Proof.
    intros HT Hs.
    destruct (minimals_cover NP R T S0 s Hs) as [j [sj [Hj [Hn Hsub]]]].
    destruct S0 as [|s0 [|s1 S']]; [destruct Hs | exists s; split; [exact Hs | intros L _ _ H; exact H] |].
    exists sj. split; [|apply relset_dom, Hsub].
    unfold reduce_to_basis, basis_indices.
    destruct (merge_targets NP) as [|t0 ts] eqn:Et; [destruct HT|].
    apply (pick_In _ _ 0 j sj Hn). simpl (0 + j). apply nat_mem_In, filter_In. split.
    - apply in_seq. split; [lia|]. apply nth_error_Some. congruence.
    - apply nat_mem_In. unfold selected_indices. apply in_flat_map. exists T. rewrite Et. auto.
  Qed.

  Lemma reduce_sound S0 pi : nconformant NP (reduce_to_basis NP R S0) pi = nconformant NP S0 pi.
  Proof.
    unfold nconformant.
    destruct (forallb (fun s => nvalid NP s pi) S0) eqn:E.
    - rewrite forallb_forall in *. intros s Hs. apply E. unfold reduce_to_basis in Hs. eapply pick_sub, Hs.
    - destruct (forallb (fun s => nvalid NP s pi) (reduce_to_basis NP R S0)) eqn:E2; [|reflexivity].
      rewrite <- E. symmetry. rewrite forallb_forall in *. intros s Hs.
      destruct (merge_targets NP) as [|t0 ts] eqn:Et.
      + assert (H0 : exists s0, In s0 (reduce_to_basis NP R S0)).
        { destruct S0 as [|s0 [|s1 S']]; [destruct Hs | exists s0; left; reflexivity |].
          exists s0. unfold reduce_to_basis, basis_indices. rewrite Et. apply (pick_In _ _ 0 0 s0); reflexivity. }
        destruct H0 as [s0 H0]. rewrite (nvalid_no_targets NP Et pi s s0). apply E2, H0.
      + assert (Hcov : forall T, In T (merge_targets NP) -> exists s', In s' (reduce_to_basis NP R S0) /\ dom NP R T s' s).
        { intros T HT. apply (basis_covers S0 s T HT Hs). }
        apply (dominated_valid pi (reduce_to_basis NP R S0) s); [|exact Hcov | exact E2].
        destruct (Hcov t0) as [s' [Hs' _]]; [rewrite Et; left; reflexivity | exists s'; exact Hs'].
  Qed.
End Main.

(* MAIN THEOREM of the reduction: for the model of _get_relevance_relation / _reduce_possible_initial_states_to_basis,
   a plan is conformant for the kept states iff it is conformant for all the possible initial states; hence neither
   "the mapped-back plan is conformant" nor "a conformant plan exists" changes when dominated states are dropped *)
Theorem basis_reduction_sound_lemma NP fuel R S0 :
  nwf NP = true -> relevance NP fuel = Some R ->
  forall pi, nconformant NP (reduce_to_basis NP R S0) pi = nconformant NP S0 pi.
Proof. intros Hwf Hr pi. apply reduce_sound; [eapply relevance_ok; exact Hr | exact Hwf]. Qed.

Corollary basis_reduction_exists NP fuel R S0 :
  nwf NP = true -> relevance NP fuel = Some R ->
  ((exists pi, nconformant NP (reduce_to_basis NP R S0) pi = true) <-> (exists pi, nconformant NP S0 pi = true)).
Proof.
  intros Hwf Hr. split; intros [pi H]; exists pi.
  - rewrite <- (basis_reduction_sound_lemma NP fuel R S0 Hwf Hr). exact H.
  - rewrite (basis_reduction_sound_lemma NP fuel R S0 Hwf Hr). exact H.
Qed.

Lemma reach_plan K P insts k x y : reachn (bsuccs K P insts) k x y ->
  forall b bg bs, x = Some b -> y = Some bg -> Forall2 (frel K) b bs ->
  exists pi bs', length pi = k /\ plan_over insts pi /\ brun P bs pi = Some bs' /\ Forall2 (frel K) bg bs'.
Proof.
  induction 1 as [x|k x y1 z Hy1 Hr IH]; intros b bg bs Hx Hy Hrel.
  - subst. inversion Hy; subst. exists [], bs. split; [reflexivity|]. split; [constructor|]. split; [reflexivity | exact Hrel].
  - subst. simpl in Hy1. apply in_flat_map in Hy1. destruct Hy1 as [st [Hst Hy1]].
    unfold bsucc1 in Hy1. destruct (lookup_action P (fst st)) as [a|] eqn:Ea; [|destruct Hy1].
    pose proof (fmap_step_sim K P a (snd st) b bs Hrel) as Hx.
    destruct (fmap_step K P a (snd st) b) as [| |b']; simpl in Hy1.
    + destruct Hy1 as [<-|[]]. apply (reach_none (bsucc1 K P) insts) in Hr. discriminate.
    + destruct Hy1.
    + destruct Hy1 as [<-|[]]. destruct Hx as [bs1 [E1 Hrel1]].
      destruct (IH b' bg bs1 eq_refl eq_refl Hrel1) as [pi [bs' [Hlen [Hover [Hrun Hrel']]]]].
      exists (st :: pi), bs'. split; [simpl; lia|]. split; [constructor; assumption|]. split; [|exact Hrel'].
      simpl. unfold bstep. rewrite (map_opt_sstep P st a bs Ea), E1. exact Hrun.
Qed.

Theorem exists_conformant_plan_sound K P insts inits n :
  exists_conformant_plan K P insts inits n = Some true ->
  exists pi, plan_over insts pi /\ length pi <= n /\ conformant_check P (map fst_of inits) pi = true.
Proof.
  unfold exists_conformant_plan. intros H.
  destruct (forallb (keys_in K) inits) eqn:Eg; simpl in H; [|discriminate].
  destruct (existsb is_none (belief_nodes K P insts inits n)); [discriminate|].
  injection H as Hex. apply existsb_exists in Hex. destruct Hex as [y [Hin Hg]].
  destruct y as [bg|]; [|discriminate].
  destruct (bfs_reached bnode_eqb bnode_eqb_eq _ n _ _ Hin) as [k [Hk Hr]].
  destruct (reach_plan K P insts k _ _ Hr _ bg (map fst_of inits) eq_refl eq_refl (init_rel K inits Eg))
    as [pi [bs' [Hlen [Hover [Hrun Hrel]]]]].
  exists pi. split; [exact Hover|]. split; [lia|].
  unfold conformant_check. rewrite Hrun, <- (bgoal_rel K P bg bs' Hrel). exact Hg.
Qed.

Section Embed.
  Variable NP : nprob.
  Hypothesis Hwf : nwf NP = true.
  Variable s : nstate.
  Let I := mk_interp (embed NP) (embed_state s) [].

  Lemma eval_lit_expr l : eval false (lit_expr l) I = Some (VBool (holds_lit s l)).
  Proof.
    destruct l as [p b]. unfold lit_expr, holds_lit. simpl fst. simpl snd. destruct b.
    - rewrite eval_EFluent. simpl. destruct (s p); reflexivity.
    - rewrite eval_ENot, eval_EFluent. simpl. destruct (s p); reflexivity.
  Qed.

  Lemma holds_lit_expr l : holds false I (lit_expr l) = holds_lit s l.
  Proof. unfold holds. rewrite eval_lit_expr. destruct (holds_lit s l); reflexivity. Qed.

  Lemma all_hold_lits ls : all_hold false I (map lit_expr ls) = forallb (holds_lit s) ls.
  Proof. unfold all_hold. induction ls as [|l ls IH]; simpl; [reflexivity|]. rewrite holds_lit_expr, IH. reflexivity. Qed.

  Lemma ebools_lits ls : ebools false I (map lit_expr ls) = Some (map (holds_lit s) ls).
  Proof. induction ls as [|l ls IH]; simpl; [reflexivity|]. rewrite eval_lit_expr, IH. reflexivity. Qed.

  Lemma eval_cond r : eval false (EAnd (map lit_expr (r_cond r))) I = Some (VBool (fires s r)).
  Proof. rewrite eval_EAnd, ebools_lits, forallb_map. reflexivity. Qed.

  Definition rule_aeff (r : nrule) : aeff :=
    {| ae_key := (fst (r_tgt r), []); ae_kind := KAssign; ae_val := VBool (snd (r_tgt r)) |}.

  Lemma eval_rule_effect r :
    eval_effect false I (rule_effect r) = if fires s r then EAct (rule_aeff r) else ESkip.
  Proof.
    unfold eval_effect. cbn [rule_effect e_args e_cond e_val e_fl e_kind evals_l].
    rewrite eval_cond. destruct (fires s r); reflexivity.
  Qed.

  Lemma fired_rules rules :
    fired false I (map rule_effect rules) = Some (map rule_aeff (filter (fires s) rules)).
  Proof.
    unfold fired. induction rules as [|r rules IH]; [reflexivity|].
    cbn [map flat_map]. cbn [rule_effect e_vars instances map app]. fold (rule_effect r).
    rewrite eval_rule_effect. cbn [filter]. destruct (fires s r); cbn [collect_res app]; rewrite IH; reflexivity.
  Qed.

  Lemma atom_is_bool p : existsb (N.eqb p) (np_atoms NP) = true -> is_bool_fluent (embed NP) p = true.
  Proof.
    unfold is_bool_fluent, embed. cbn [p_fluents]. intros H. rewrite existsb_exists in *.
    destruct H as [q [Hq E]]. apply N.eqb_eq in E. subst q.
    exists {| fd_id := p; fd_sig := []; fd_ty := FBool |}. split; [apply in_map_iff; exists p; auto|].
    simpl. rewrite N.eqb_refl. reflexivity.
  Qed.

  Lemma avals_rules k L :
    avals k (map rule_aeff L) = map (fun r => VBool (snd (r_tgt r))) (filter (fun r => gfl_eqb (fst (r_tgt r), []) k) L).
  Proof. unfold avals. rewrite filter_map_swap, map_map. apply f_equal, filter_ext. intros r. apply andb_true_r. Qed.

  Lemma deltas_rules k L : deltas k (map rule_aeff L) = [].
  Proof. unfold deltas. rewrite filter_map_swap, filter_nil; [reflexivity|]. intros r _. apply andb_false_r. Qed.

  (* the combined effect on atom p: a true assignment wins, else a false one, else unchanged *)
  Lemma combine_rules p L :
    (match map (fun r => VBool (snd (r_tgt r))) (filter (fun r => (fst (r_tgt r) =? p)%N) L) with
     | [] => CUnchanged
     | v :: A => CVal (VBool (existsb is_vtrue (v :: A)))
     end)
    = if existsb (fun r => lit_eqb (r_tgt r) (p, true)) L then CVal (VBool true)
      else if existsb (fun r => lit_eqb (r_tgt r) (p, false)) L then CVal (VBool false)
      else CUnchanged.
  Proof.
    induction L as [|r L IH]; [reflexivity|].
    cbn [filter existsb]. unfold lit_eqb at 1 3. cbn [fst snd].
    destruct (fst (r_tgt r) =? p)%N; cbn [andb orb]; [|exact IH].
    cbn [map].
    set (F := map (fun r0 : nrule => VBool (snd (r_tgt r0))) (filter (fun r0 : nrule => (fst (r_tgt r0) =? p)%N) L)) in *.
    set (Et := existsb (fun r0 : nrule => lit_eqb (r_tgt r0) (p, true)) L) in *.
    set (Ef := existsb (fun r0 : nrule => lit_eqb (r_tgt r0) (p, false)) L) in *.
    destruct (snd (r_tgt r)); cbn [existsb is_vtrue Bool.eqb orb].
    - reflexivity.
    - destruct F as [|v l].
      + destruct Et; [discriminate IH | reflexivity].
      + destruct Et.
        * injection IH as IH. cbn [existsb] in *. rewrite IH. reflexivity.
        * destruct Ef; [injection IH as IH; cbn [existsb] in *; rewrite IH; reflexivity | discriminate IH].
  Qed.

  Variable a : nact.
  Hypothesis Ha : In a (np_acts NP).

  Lemma sets_filter l : sets s a l = existsb (fun r => lit_eqb (r_tgt r) l) (filter (fires s) (na_rules a)).
  Proof.
    unfold sets. induction (na_rules a) as [|r L IH]; [reflexivity|].
    cbn [existsb filter]. rewrite IH. destruct (fires s r); reflexivity.
  Qed.

  Lemma rule_target_atom r : In r (na_rules a) -> is_bool_fluent (embed NP) (fst (r_tgt r)) = true.
  Proof.
    intros Hr. apply atom_is_bool, (proj2 (proj1 (nwf_inv NP Hwf) a Ha) r Hr).
  Qed.

  Definition fired_acts : list aeff := map rule_aeff (filter (fires s) (na_rules a)).

  Lemma spec_fluent_rules p :
    spec_fluent (embed NP) (embed_state s) fired_acts (p, [])
    = if sets s a (p, true) then CVal (VBool true) else if sets s a (p, false) then CVal (VBool false) else CUnchanged.
  Proof.
    unfold spec_fluent, fired_acts. cbn [fst snd]. rewrite avals_rules, deltas_rules, !sets_filter, <- combine_rules.
    rewrite (filter_ext _ (fun r => (fst (r_tgt r) =? p)%N)) by (intros r; apply andb_true_r).
    destruct (map (fun r => VBool (snd (r_tgt r))) (filter (fun r => (fst (r_tgt r) =? p)%N) (filter (fires s) (na_rules a))))
      as [|v A] eqn:EA; [reflexivity|].
    assert (Hb : is_bool_fluent (embed NP) p = true).
    { assert (Hin : In v (v :: A)) by (left; reflexivity). rewrite <- EA in Hin.
      apply in_map_iff in Hin. destruct Hin as [r [_ Hr]]. apply filter_In in Hr. destruct Hr as [Hr Hc].
      apply N.eqb_eq in Hc. subst p. apply filter_In in Hr. apply rule_target_atom, Hr. }
    unfold combine. rewrite Hb. reflexivity.
  Qed.

  Lemma spec_fluent_args p x args : spec_fluent (embed NP) (embed_state s) fired_acts (p, x :: args) = CUnchanged.
  Proof.
    unfold spec_fluent, fired_acts. rewrite avals_rules, deltas_rules, filter_nil; [reflexivity|].
    intros r _. apply andb_false_r.
  Qed.

  Lemma effects_ok_rules : spec_effects_ok (embed NP) (embed_state s) fired_acts = true.
  Proof.
    unfold spec_effects_ok. apply forallb_forall. intros x Hx. unfold fired_acts in Hx.
    apply in_map_iff in Hx. destruct Hx as [r [<- _]]. cbn [rule_aeff ae_key].
    rewrite spec_fluent_rules. destruct (sets s a (fst (r_tgt r), true)); [reflexivity|].
    destruct (sets s a (fst (r_tgt r), false)); reflexivity.
  Qed.

  Lemma succ_rules : state_eq (spec_succ (embed NP) (embed_state s) fired_acts) (embed_state (nsucc s a)).
  Proof.
    intros f args. unfold spec_succ. destruct args as [|x args].
    - rewrite spec_fluent_rules. unfold embed_state, nsucc.
      destruct (sets s a (f, true)); [reflexivity|]. destruct (sets s a (f, false)); reflexivity.
    - rewrite spec_fluent_args. reflexivity.
  Qed.

  Lemma bound_invs_embed : bound_invs (embed NP) = [].
  Proof.
    unfold bound_invs. change (p_fluents (embed NP)) with (map (fun p => {| fd_id := p; fd_sig := []; fd_ty := FBool |}) (np_atoms NP)).
    generalize (embed NP). intros Q. induction (np_atoms NP) as [|p l IH]; [reflexivity | exact IH].
  Qed.

  Lemma embed_step :
    match nstep s a with
    | Some s' => exists t, spec_step false (embed NP) (embed_state s) (embed_act a) [] = Some t /\ state_eq t (embed_state s')
    | None => spec_step false (embed NP) (embed_state s) (embed_act a) [] = None
    end.
  Proof.
    unfold nstep, spec_step. cbn [embed_act a_params a_pre a_effs zip_params].
    fold I. rewrite all_hold_lits. destruct (forallb (holds_lit s) (na_pre a)); cbn [negb]; [|reflexivity].
    rewrite fired_rules. fold fired_acts. rewrite effects_ok_rules. cbn [negb].
    unfold invariants_ok. rewrite bound_invs_embed. cbn [embed p_invs app all_hold forallb].
    eexists. split; [reflexivity | apply succ_rules].
  Qed.
End Embed.

Lemma lookupN_number_from {A} (l : list A) : forall k i, lookupN (N.of_nat (k + i)) (number_from k l) = nth_error l i.
Proof.
  induction l as [|x l IH]; intros k i; [destruct i; reflexivity|]. cbn [number_from lookupN].
  destruct i as [|i].
  - rewrite Nat.add_0_r, N.eqb_refl. reflexivity.
  - assert (E : (N.of_nat (k + S i) =? N.of_nat k)%N = false) by (apply N.eqb_neq; lia).
    rewrite E. rewrite <- Nat.add_succ_comm. apply IH.
Qed.

Lemma lookup_embed NP i : lookup_action (embed NP) (N.of_nat i) = option_map embed_act (nth_error (np_acts NP) i).
Proof.
  unfold lookup_action, embed. cbn [p_actions]. rewrite (lookupN_number_from _ 0 i). apply nth_error_map.
Qed.

Theorem embed_valid NP : nwf NP = true -> forall pi s t,
  state_eq t (embed_state s) -> valid_plan false (embed NP) t (embed_plan pi) = nvalid NP s pi.
Proof.
  intros Hwf. induction pi as [|i pi IH]; intros s t Ht.
  - cbn [embed_plan map nvalid]. unfold valid_plan. cbn [run].
    rewrite (goals_hold_ext false (embed NP) _ _ Ht). unfold goals_hold. cbn [embed p_goals]. apply all_hold_lits.
  - cbn [embed_plan map nvalid]. fold (embed_plan pi). rewrite valid_plan_cons. unfold sstep. cbn [fst snd].
    rewrite lookup_embed. destruct (nth_error (np_acts NP) i) as [a|] eqn:Ea; cbn [option_map]; [|reflexivity].
    pose proof (spec_step_ext false (embed NP) t (embed_state s) (embed_act a) [] Ht) as Hx.
    pose proof (embed_step NP Hwf s a (nth_error_In _ _ Ea)) as Hs.
    destruct (nstep s a) as [s'|].
    + destruct Hs as [t' [E Ht']]. rewrite E in Hx.
      destruct (spec_step false (embed NP) t (embed_act a) []) as [t''|]; [|contradiction].
      apply IH. eapply state_eq_trans; eauto.
    + rewrite Hs in Hx. destruct (spec_step false (embed NP) t (embed_act a) []); [contradiction | reflexivity].
Qed.

Lemma embed_conformant NP : nwf NP = true -> forall S0 pi,
  conformant_check (embed NP) (map embed_state S0) (embed_plan pi) = nconformant NP S0 pi.
Proof.
  intros Hwf S0 pi. rewrite conformant_check_forallb. unfold nconformant.
  induction S0 as [|s S0 IH]; [reflexivity|]. cbn [map forallb].
  rewrite (embed_valid NP Hwf pi s (embed_state s) (state_eq_refl _)), IH. reflexivity.
Qed.

Theorem basis_reduction_sound NP fuel R S0 :
  nwf NP = true -> relevance NP fuel = Some R ->
  forall pi, conformant_check (embed NP) (map embed_state (reduce_to_basis NP R S0)) (embed_plan pi)
             = conformant_check (embed NP) (map embed_state S0) (embed_plan pi).
Proof.
  intros Hwf Hr pi. rewrite !(embed_conformant NP Hwf). apply (basis_reduction_sound_lemma NP fuel R S0 Hwf Hr).
Qed.

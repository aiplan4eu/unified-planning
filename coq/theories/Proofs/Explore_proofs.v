(* Breadth-first exploration with a seen set (Model/Belief.v, Part 0) reaches what is reachable, and a closed set holds
   what is reachable from its members; runs of a deterministic system as paths of an option-node graph. *)
From Coq Require Import List Bool Lia.
Import ListNotations.
Require Import UPV.Proofs.ListFacts UPV.Model.Belief.

Section BFS_proofs.
  Context {node : Type}.
  Variable eqb : node -> node -> bool.
  Hypothesis eqb_spec : forall x y, eqb x y = true <-> x = y.
  Variable succs : node -> list node.

  Inductive reachn : nat -> node -> node -> Prop :=
  | reach0 x : reachn 0 x x
  | reachS k x y z : In y (succs x) -> reachn k y z -> reachn (S k) x z.

  Lemma nmem_In x l : nmem eqb x l = true <-> In x l.
  Proof. exact (existsb_eqb_In eqb eqb_spec x l). Qed.

  Lemma add_new_spec cands : forall seen new seen' new',
    add_new eqb seen new cands = (seen', new') ->
    (forall x, In x seen' <-> In x seen \/ In x cands) /\
    (forall x, In x new' <-> In x new \/ (In x cands /\ ~ In x seen)).
  Proof.
    induction cands as [|c cs IH]; intros seen new seen' new' H; simpl in H.
    - inversion H; subst. split; intros x; simpl; tauto.
    - destruct (nmem eqb c seen) eqn:E.
      + apply nmem_In in E. destruct (IH _ _ _ _ H) as [A B]. split; intros x.
        * rewrite A. simpl. split; [tauto|]. intros [?|[?|?]]; subst; auto.
        * rewrite B. simpl. split; [tauto|]. intros [?|[[?|?] ?]]; subst; tauto.
      + assert (Hn : ~ In c seen) by (intros Hc; apply nmem_In in Hc; congruence).
        destruct (IH _ _ _ _ H) as [A B]. split; intros x.
        * rewrite A. simpl. tauto.
        * rewrite B. simpl. split.
          -- intros [[Hx|Hx]|[Hx Hx']]; [subst; auto | auto | right; split; [auto|]; intros Hs; apply Hx'; auto].
          -- intros [Hx|[[Hx|Hx] Hx']]; [auto | subst; auto |].
             destruct (eqb c x) eqn:E2.
             ++ apply eqb_spec in E2. subst. auto.
             ++ right. split; [exact Hx|]. intros [Hc|Hc]; [|auto].
                subst. assert (eqb x x = true) by (apply eqb_spec; reflexivity). congruence.
  Qed.

  Definition binv (seen frontier : list node) : Prop :=
    incl frontier seen /\ forall z, In z seen -> ~ In z frontier -> incl (succs z) seen.

  Lemma binv_step seen frontier seen' new :
    binv seen frontier -> add_new eqb seen [] (flat_map succs frontier) = (seen', new) ->
    binv seen' new /\ incl seen seen' /\ (forall x, In x frontier -> incl (succs x) seen').
  Proof.
    intros [Hf Hc] H. destruct (add_new_spec _ _ _ _ _ H) as [A B].
    assert (Hinc : incl seen seen') by (intros x Hx; apply A; auto).
    assert (Hfr : forall x, In x frontier -> incl (succs x) seen').
    { intros x Hx y Hy. apply A. right. apply in_flat_map. exists x. auto. }
    split; [|split; assumption]. split.
    - intros x Hx. apply B in Hx. destruct Hx as [[]|[Hx _]]. apply A. auto.
    - intros z Hz Hnz. destruct (nmem eqb z seen) eqn:Es.
      + apply nmem_In in Es. destruct (nmem eqb z frontier) eqn:E.
        * apply nmem_In in E. apply Hfr, E.
        * intros y Hy. apply Hinc. apply (Hc z Es); [|exact Hy]. intros Hc'. apply nmem_In in Hc'. congruence.
      + assert (Hns : ~ In z seen) by (intros Hc'; apply nmem_In in Hc'; congruence).
        exfalso. apply Hnz. apply B. right. split; [|exact Hns].
        apply A in Hz. tauto.
  Qed.

  Lemma bfs_mono n : forall seen frontier, incl seen (bfs eqb succs n seen frontier).
  Proof.
    induction n as [|n IH]; intros seen frontier; simpl; [apply incl_refl|].
    destruct (add_new eqb seen [] (flat_map succs frontier)) as [seen' new] eqn:E.
    destruct (add_new_spec _ _ _ _ _ E) as [A _].
    intros x Hx. apply IH. apply A. auto.
  Qed.

  Lemma bfs_complete n : forall seen frontier, binv seen frontier ->
    forall k x y, In x seen -> k <= n -> reachn k x y -> In y (bfs eqb succs n seen frontier).
  Proof.
    induction n as [|n IHn]; intros seen frontier Hinv k x y Hx Hk Hr.
    - assert (k = 0) by lia. subst. inversion Hr; subst. exact Hx.
    - simpl. destruct (add_new eqb seen [] (flat_map succs frontier)) as [seen' new] eqn:E.
      destruct (binv_step _ _ _ _ Hinv E) as [Hinv' [Hinc Hfr]].
      revert x Hx Hk Hr. induction k as [|k IHk]; intros x Hx Hk Hr.
      + inversion Hr; subst. apply bfs_mono, Hinc, Hx.
      + inversion Hr as [|k' x' p1 y' Hp1 Hr']; subst.
        destruct (nmem eqb x frontier) eqn:Ef.
        * apply nmem_In in Ef. apply (IHn seen' new Hinv' k p1 y); [apply (Hfr x Ef), Hp1 | lia | exact Hr'].
        * apply (IHk p1); [|lia|exact Hr'].
          destruct Hinv as [_ Hc]. apply (Hc x Hx); [|exact Hp1]. intros Hc'. apply nmem_In in Hc'. congruence.
  Qed.

  Lemma binv_init x0 : binv [x0] [x0].
  Proof. split; [apply incl_refl|]. intros z Hz Hn. contradiction. Qed.

  Definition explored (V : list node) (x0 : node) (n : nat) : Prop :=
    forall k y, k <= n -> reachn k x0 y -> In y V.

  Lemma bfs_explored n x0 : explored (bfs eqb succs n [x0] [x0]) x0 n.
  Proof. intros k y Hk Hr. apply (bfs_complete n _ _ (binv_init x0) k x0 y); simpl; auto. Qed.

  Lemma closedb_reach V : closedb eqb succs V = true -> forall k x y, In x V -> reachn k x y -> In y V.
  Proof.
    intros Hc k x y Hx Hr. induction Hr as [|k x p1 y Hp1 Hr IH]; [exact Hx|].
    apply IH. unfold closedb in Hc. rewrite forallb_forall in Hc. specialize (Hc x Hx).
    rewrite forallb_forall in Hc. apply nmem_In, Hc, Hp1.
  Qed.

  Lemma closedb_explored V x0 n : closedb eqb succs V = true -> In x0 V -> explored V x0 n.
  Proof. intros Hc Hx k y _ Hr. exact (closedb_reach V Hc k x0 y Hx Hr). Qed.

  Lemma bfs_sound n : forall seen frontier y, incl frontier seen -> In y (bfs eqb succs n seen frontier) ->
    In y seen \/ exists x k, In x frontier /\ k <= n /\ reachn k x y.
  Proof.
    induction n as [|n IH]; intros seen frontier y Hf Hy; simpl in Hy; [auto|].
    destruct (add_new eqb seen [] (flat_map succs frontier)) as [seen' new] eqn:E.
    destruct (add_new_spec _ _ _ _ _ E) as [A B].
    assert (Hn : incl new seen').
    { intros x Hx. apply B in Hx. destruct Hx as [[]|[Hx _]]. apply A. auto. }
    destruct (IH seen' new y Hn Hy) as [Hs|[x [k [Hx [Hk Hr]]]]].
    - apply A in Hs. destruct Hs as [Hs|Hs]; [auto|]. right.
      apply in_flat_map in Hs. destruct Hs as [x [Hx Hxy]].
      exists x, 1. split; [exact Hx|]. split; [lia|]. eapply reachS; [exact Hxy | apply reach0].
    - right. apply B in Hx. destruct Hx as [[]|[Hx _]]. apply in_flat_map in Hx. destruct Hx as [x0 [Hx0 Hx0x]].
      exists x0, (S k). split; [exact Hx0|]. split; [lia|]. eapply reachS; eauto.
  Qed.

  Lemma bfs_reached n x0 y : In y (bfs eqb succs n [x0] [x0]) -> exists k, k <= n /\ reachn k x0 y.
  Proof.
    intros H. destruct (bfs_sound n [x0] [x0] y (incl_refl _) H) as [[<-|[]]|[x [k [[<-|[]] [Hk Hr]]]]].
    - exists 0. split; [lia | constructor].
    - exists k. auto.
  Qed.
End BFS_proofs.

Lemma reachn_ext {node} (f g : node -> list node) : (forall x, f x = g x) ->
  forall k x y, reachn f k x y -> reachn g k x y.
Proof.
  intros E k x y H. induction H as [|k x y z Hy _ IH]; [constructor|]. rewrite E in Hy. eapply reachS; eassumption.
Qed.

Lemma explored_ext {node} (f g : node -> list node) V x0 n : (forall x, f x = g x) ->
  explored f V x0 n -> explored g V x0 n.
Proof. intros E H k y Hk Hr. apply (H k y Hk). revert Hr. apply reachn_ext. intros x. symmetry. apply E. Qed.

(* Graphs whose nodes are [option X], [None] ("outside the model") being a sink.  When every step of a deterministic
   system is matched by an edge to a related node or to [None], every run traces a path to a node related to its end. *)
Section OGraph.
  Context {X St : Type}.
  Variables (succ1 : X -> step_id -> list (option X)) (cstep : St -> step_id -> option St) (R : X -> St -> Prop).
  Variable acts : list step_id.

  Definition osuccs (x : option X) : list (option X) :=
    match x with None => [] | Some x => flat_map (succ1 x) acts end.

  Lemma reach_none k z : reachn osuccs k None z -> z = None.
  Proof. intros H. inversion H; subst; [reflexivity | contradiction]. Qed.

  Fixpoint crun (s : St) (pi : plan) : option St :=
    match pi with
    | [] => Some s
    | st :: pi' => match cstep s st with Some s' => crun s' pi' | None => None end
    end.

  Definition orel (y : option X) (s : St) : Prop := match y with None => True | Some x => R x s end.

  Hypothesis sim : forall x s st s', R x s -> cstep s st = Some s' -> exists y, In y (succ1 x st) /\ orel y s'.

  Lemma run_path pi : forall x s sfin, R x s -> Forall (fun st => In st acts) pi -> crun s pi = Some sfin ->
    exists k y, k <= length pi /\ reachn osuccs k (Some x) y /\ orel y sfin.
  Proof.
    induction pi as [|st pi IH]; intros x s sfin Hr Hover Hrun; simpl in Hrun.
    - injection Hrun as <-. exists 0, (Some x). split; [lia|]. split; [constructor | exact Hr].
    - inversion Hover as [|? ? Hin Hover']; subst.
      destruct (cstep s st) as [s1|] eqn:Es; [|discriminate].
      destruct (sim x s st s1 Hr Es) as [y [Hy Hry]].
      assert (Hstep : In y (osuccs (Some x))) by (apply in_flat_map; eauto).
      destruct y as [x1|].
      + destruct (IH x1 s1 sfin Hry Hover' Hrun) as [k [y [Hk [Hreach Hy']]]].
        exists (S k), y. split; [simpl; lia|]. split; [eapply reachS; eauto | exact Hy'].
      + exists 1, None. split; [simpl; lia|]. split; [eapply reachS; [exact Hstep | constructor] | exact I].
  Qed.

  Lemma run_explored V pi x s sfin : explored osuccs V (Some x) (length pi) -> R x s ->
    Forall (fun st => In st acts) pi -> crun s pi = Some sfin -> exists y, In y V /\ orel y sfin.
  Proof.
    intros Hcov Hr Hover Hrun. destruct (run_path pi x s sfin Hr Hover Hrun) as [k [y [Hk [Hreach Hy]]]].
    exists y. split; [exact (Hcov k y Hk Hreach) | exact Hy].
  Qed.
End OGraph.

(* The side conditions of the soundness theorem.

   [wfx tau QT S e]  (a boolean, computable check):
     - every variable occurrence [EVar x ty] has ty = tau x and x is in the scope S (so free_vars e is inside S),
     - every quantifier binds pairwise distinct variables, each with type tau x, of a quantifiable type (QT: the
       types that have at least one object), none of them already in scope (no shadowing),
     - arguments of fluents and interpreted functions contain no quantifier.
   These are exactly what makes FNode.substitute capture-free where walk_exists uses it. *)
From Coq Require Import List ZArith NArith Bool.
Import ListNotations.
Require Import UPV.Core.Expr UPV.Core.Eval UPV.Proofs.Eval_lemmas UPV.Proofs.ExprView UPV.Walkers.Simplify UPV.Proofs.Simplify_base
  UPV.Proofs.Simplify_sem.
Local Open Scope nat_scope.

Fixpoint qfree (e : expr) : bool :=
  match e with
  | EBool _ | EInt _ | EReal _ | EObj _ | EParam _ | EVar _ _ => true
  | EFluent _ l | EIFun _ l | EAnd l | EOr l | EPlus l | ETimes l => forallb qfree l
  | ENot a | EAlways a | ESometime a | EAtMostOnce a => qfree a
  | EExists _ _ | EForall _ _ => false
  | EImplies a b | EIff a b | EMinus a b | EDiv a b | ELe a b | ELt a b | EEquals a b
  | ESometimeBefore a b | ESometimeAfter a b => qfree a && qfree b
  end.

Fixpoint nodupb (l : list N) : bool :=
  match l with [] => true | x :: r => negb (memN x r) && nodupb r end.

Definition binders_ok (tau : N -> N) (QT : N -> bool) (S : list N) (vs : list (N * N)) : bool :=
  forallb (fun p => (snd p =? tau (fst p))%N && QT (snd p) && negb (memN (fst p) S)) vs && nodupb (map fst vs).

Fixpoint wfx (tau : N -> N) (QT : N -> bool) (S : list N) (e : expr) {struct e} : bool :=
  match e with
  | EBool _ | EInt _ | EReal _ | EObj _ | EParam _ => true
  | EVar x ty => (ty =? tau x)%N && memN x S
  | EFluent _ l | EIFun _ l => forallb (fun a => qfree a && wfx tau QT S a) l
  | EAnd l | EOr l | EPlus l | ETimes l => forallb (wfx tau QT S) l
  | ENot a | EAlways a | ESometime a | EAtMostOnce a => wfx tau QT S a
  | EExists vs a | EForall vs a => binders_ok tau QT S vs && wfx tau QT (map fst vs ++ S) a
  | EImplies a b | EIff a b | EMinus a b | EDiv a b | ELe a b | ELt a b | EEquals a b
  | ESometimeBefore a b | ESometimeAfter a b => wfx tau QT S a && wfx tau QT S b
  end.

Lemma nodupb_NoDup l : nodupb l = true <-> NoDup l.
Proof.
  induction l as [|x l IH]; simpl; [split; [constructor|reflexivity]|].
  rewrite andb_true_iff, negb_true_iff, memN_false, IH. split.
  - intros [A B]. constructor; assumption.
  - intros H. inversion H; auto.
Qed.

Lemma binders_ok_spec tau QT S vs :
  binders_ok tau QT S vs = true <->
  (forall p, In p vs -> snd p = tau (fst p) /\ QT (snd p) = true /\ ~ In (fst p) S) /\ NoDup (map fst vs).
Proof.
  unfold binders_ok. rewrite andb_true_iff, forallb_forall, nodupb_NoDup. split; intros [A B]; (split; [|exact B]).
  - intros p Hp. specialize (A p Hp). rewrite !andb_true_iff, N.eqb_eq, negb_true_iff, memN_false in A. tauto.
  - intros p Hp. specialize (A p Hp). rewrite !andb_true_iff, N.eqb_eq, negb_true_iff, memN_false. tauto.
Qed.

Lemma qfree_E1 o a : qfree (E1 o a) = qfree a. Proof. destruct o; reflexivity. Qed.
Lemma qfree_E2 o a b : qfree (E2 o a b) = qfree a && qfree b. Proof. destruct o; reflexivity. Qed.
Lemma qfree_En o l : qfree (En o l) = forallb qfree l. Proof. destruct o; reflexivity. Qed.
Lemma qfree_EQ ex vs a : qfree (EQ ex vs a) = false. Proof. destruct ex; reflexivity. Qed.

Lemma qfree_bvars e : qfree e = true -> bvars e = [].
Proof.
  induction e using expr_view_ind.
  - destruct e; try discriminate; reflexivity.
  - rewrite qfree_E1, bv_E1. exact IHe.
  - rewrite qfree_E2, bv_E2, andb_true_iff. intros [Q1 Q2]. rewrite (IHe1 Q1), (IHe2 Q2). reflexivity.
  - rewrite qfree_En, bv_En. intros Q. unfold bvl.
    induction H as [|x l Hx _ IH]; [reflexivity|]. cbn [forallb] in Q. apply andb_true_iff in Q.
    cbn [flat_map]. rewrite (Hx (proj1 Q)), (IH (proj2 Q)). reflexivity.
  - rewrite qfree_EQ. discriminate.
Qed.

Section WF.
  Variables (tau : N -> N) (QT : N -> bool).
  Notation wf := (wfx tau QT).

  Lemma wf_E1 S o a : wf S (E1 o a) = wf S a. Proof. destruct o; reflexivity. Qed.
  Lemma wf_E2 S o a b : wf S (E2 o a b) = wf S a && wf S b. Proof. destruct o; reflexivity. Qed.
  Lemma wf_EQ S ex vs a : wf S (EQ ex vs a) = binders_ok tau QT S vs && wf (map fst vs ++ S) a.
  Proof. destruct ex; reflexivity. Qed.
  (* the arguments of the two applications must be quantifier-free as well; the other list operators only ask [wf] *)
  Lemma wf_En S o l : wf S (En o l) = forallb (fun a => (negb (is_app o) || qfree a) && wf S a) l.
  Proof. destruct o; reflexivity. Qed.
  Lemma wf_En_in S o l x : wf S (En o l) = true -> In x l -> wf S x = true.
  Proof.
    rewrite wf_En, forallb_forall. intros W Hx. specialize (W x Hx). apply andb_true_iff in W. apply W.
  Qed.

  Lemma wf_bvars e : forall S, wf S e = true -> forall w, In w (bvars e) -> ~ In w S.
  Proof.
    induction e using expr_view_ind; intros S W w.
    - destruct e; try discriminate; intros [].
    - rewrite bv_E1. rewrite wf_E1 in W. exact (IHe S W w).
    - rewrite bv_E2, in_app_iff. rewrite wf_E2 in W. apply andb_true_iff in W. destruct W as [W1 W2].
      intros [Hb|Hb]; [exact (IHe1 S W1 w Hb)|exact (IHe2 S W2 w Hb)].
    - rewrite bv_En, in_bvl. intros [y [Hy Hw]]. rewrite Forall_forall in H.
      exact (H y Hy S (wf_En_in S o l y W Hy) w Hw).
    - rewrite bv_EQ, in_app_iff. rewrite wf_EQ in W. apply andb_true_iff in W. destruct W as [W1 W2].
      apply binders_ok_spec in W1. destruct W1 as [W1 _]. intros [Hb|Hb].
      + apply in_map_iff in Hb. destruct Hb as [p [<- Hp]]. apply W1. exact Hp.
      + intros Hs. apply (IHe _ W2 w Hb). apply in_or_app. right. exact Hs.
  Qed.

  Lemma wf_fv e : forall S, wf S e = true -> forall w, In w (free_vars e) -> In w S.
  Proof.
    induction e using expr_view_ind; intros S W w.
    - destruct e; try discriminate; try (intros []; fail).
      intros [<-|[]]. cbn [wfx] in W. apply andb_true_iff in W. apply memN_In, W.
    - rewrite fv_E1. rewrite wf_E1 in W. exact (IHe S W w).
    - rewrite fv_E2, in_app_iff. rewrite wf_E2 in W. apply andb_true_iff in W. destruct W as [W1 W2].
      intros [Hb|Hb]; [exact (IHe1 S W1 w Hb)|exact (IHe2 S W2 w Hb)].
    - rewrite fvl_En, in_fvl. intros [y [Hy Hw]]. rewrite Forall_forall in H.
      exact (H y Hy S (wf_En_in S o l y W Hy) w Hw).
    - rewrite fv_EQ, in_fv_quant. rewrite wf_EQ in W. apply andb_true_iff in W. destruct W as [_ W2].
      intros [Hf Hn]. apply (IHe _ W2) in Hf. apply in_app_or in Hf. tauto.
  Qed.

  (* change of scope: the new scope must contain the free variables and avoid the bound ones *)
  Lemma wf_rescope e : forall S S', wf S e = true ->
    (forall w, In w (free_vars e) -> In w S') -> (forall w, In w (bvars e) -> ~ In w S') -> wf S' e = true.
  Proof.
    induction e using expr_view_ind; intros S S' W HF HB.
    - destruct e; try discriminate; try reflexivity.
      cbn [wfx] in *. apply andb_true_iff in W. destruct W as [W1 _]. rewrite W1. apply memN_In, HF. left. reflexivity.
    - rewrite wf_E1 in *. rewrite fv_E1 in HF. rewrite bv_E1 in HB. exact (IHe S S' W HF HB).
    - rewrite wf_E2 in *. rewrite fv_E2 in HF. rewrite bv_E2 in HB. apply andb_true_iff in W. destruct W as [W1 W2].
      rewrite (IHe1 S S' W1), (IHe2 S S' W2); [reflexivity|..]; intros w Hw;
        first [apply HF | apply HB]; apply in_or_app; auto.
    - rewrite fvl_En in HF. rewrite bv_En in HB. rewrite wf_En in *. rewrite forallb_forall in *. intros y Hy.
      specialize (W y Hy). apply andb_true_iff in W. destruct W as [Wq Wy]. rewrite Wq. rewrite Forall_forall in H.
      apply (H y Hy S S' Wy); intros w Hw; [apply HF, in_fvl | apply HB, in_bvl]; eauto.
    - rewrite wf_EQ in *. rewrite fv_EQ in HF. rewrite bv_EQ in HB. apply andb_true_iff in W. destruct W as [W1 W2].
      apply andb_true_iff. split.
      + apply binders_ok_spec in W1. apply binders_ok_spec. destruct W1 as [A B]. split; [|exact B].
        intros p Hp. destruct (A p Hp) as (A1 & A2 & A3). repeat split; auto.
        apply HB. apply in_or_app. left. apply in_map. exact Hp.
      + eapply IHe; [exact W2| |].
        * intros w Hw. apply in_or_app. destruct (in_dec N.eq_dec w (map fst vs)); [left; assumption|right].
          apply HF. apply in_fv_quant. tauto.
        * intros w Hw Hin. apply in_app_or in Hin. destruct Hin as [Hin|Hin].
          -- apply (wf_bvars _ _ W2 w Hw). apply in_or_app. left. exact Hin.
          -- apply (HB w); [apply in_or_app; right; exact Hw|exact Hin].
  Qed.

  Lemma wf_incl_qfree t S S' : qfree t = true -> wf S t = true -> (forall w, In w S -> In w S') -> wf S' t = true.
  Proof.
    intros Q W HS. eapply wf_rescope; [exact W| |].
    - intros w Hw. apply HS. eapply wf_fv; eauto.
    - rewrite (qfree_bvars _ Q). intros w [].
  Qed.
End WF.

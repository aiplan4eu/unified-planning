(* Proofs about Model/Names.v (property C38). *)
From Coq Require Import List String Ascii Bool Arith NArith Lia Decimal DecimalString DecimalNat FinFun.
Import ListNotations.
Require Import UPV.Model.Names UPV.Proofs.StringFacts UPV.Proofs.ListFacts.
Require Import UPV.Gen.Gen_Keywords.
Open Scope string_scope.

Lemma append_nil_r : forall s, s ++ "" = s.
Proof. exact str_app_nil_r. Qed.

Lemma append_assoc : forall a b c : string, (a ++ b) ++ c = a ++ (b ++ c).
Proof. exact str_app_assoc. Qed.

Lemma sall_append : forall p a b, sall p (a ++ b) = sall p a && sall p b.
Proof. induction a; simpl; intros; auto. rewrite IHa. apply andb_assoc. Qed.

Lemma sall_smap : forall p f s, (forall c, sall p (f c) = true) -> sall p (smap f s) = true.
Proof. induction s; simpl; intros; auto. rewrite sall_append, H, IHs; auto. Qed.

Lemma sall_impl : forall (p q : ascii -> bool) s, (forall c, p c = true -> q c = true) -> sall p s = true -> sall q s = true.
Proof.
  induction s; simpl; intros; auto. apply andb_true_iff in H0. destruct H0.
  rewrite (H _ H0), IHs; auto.
Qed.

Lemma mem_str_In : forall s l, mem_str s l = true <-> In s l.
Proof. exact (existsb_eqb_In String.eqb String.eqb_eq). Qed.

Lemma mem_str_false : forall s l, mem_str s l = false <-> ~ In s l.
Proof. exact (existsb_eqb_not_In String.eqb String.eqb_eq). Qed.

Lemma all_ascii_complete : forall c, In c all_ascii.
Proof.
  intros c. unfold all_ascii. rewrite <- (ascii_nat_embedding c).
  apply in_map. apply in_seq. pose proof (nat_ascii_bounded c). lia.
Qed.

Lemma forall_ascii : forall p : ascii -> bool, forallb p all_ascii = true -> forall c, p c = true.
Proof. intros p H c. rewrite forallb_forall in H. apply H. apply all_ascii_complete. Qed.

Lemma class_sub_spec : forall cl p, class_sub cl p = true -> forall c, in_class cl c = true -> p c = true.
Proof.
  unfold class_sub. intros cl p H c Hc. pose proof (forall_ascii _ H c) as Hi. simpl in Hi.
  rewrite Hc in Hi. exact Hi.
Qed.

Lemma lower_char_not_upper : forall c, is_upper_letter (lower_char c) = false.
Proof.
  intros c. apply negb_true_iff. apply (all_chars_spec (fun c => negb (is_upper_letter (lower_char c)))). vm_compute. reflexivity.
Qed.

Lemma no_upper_lower : forall s, no_upper (lower s) = true.
Proof.
  unfold no_upper, lower. intros. apply sall_smap. intros c. simpl.
  rewrite lower_char_not_upper. reflexivity.
Qed.

Lemma digit_not_upper : forall c, is_digit c = true -> is_upper_letter c = false.
Proof.
  apply chars_excl. vm_compute. reflexivity.
Qed.

Lemma dec_inj : forall i j, dec i = dec j -> i = j.
Proof.
  unfold dec. intros i j H. apply Unsigned.to_uint_inj.
  assert (Some (Nat.to_uint i) = Some (Nat.to_uint j)) as E.
  { rewrite <- (NilEmpty.usu (Nat.to_uint i)), <- (NilEmpty.usu (Nat.to_uint j)), H. reflexivity. }
  inversion E; auto.
Qed.

Lemma uint_digits : forall d, sall is_digit (NilEmpty.string_of_uint d) = true.
Proof. induction d; simpl; auto. Qed.

Lemma dec_digits : forall n, sall is_digit (dec n) = true.
Proof. intros. apply uint_digits. Qed.

Lemma first_free_spec : forall b cand f k s,
  first_free b cand k f = Some s -> b s = false /\ exists i, s = cand (k + i).
Proof.
  induction f; simpl; intros k s H; try discriminate.
  destruct (b (cand k)) eqn:E.
  - apply IHf in H. destruct H as [H1 [i H2]]. split; auto. exists (S i). rewrite H2. f_equal. lia.
  - inversion H; subst. split; auto. exists 0. f_equal. lia.
Qed.

Lemma first_free_none : forall b cand f k,
  first_free b cand k f = None -> forall i, i < f -> b (cand (k + i)) = true.
Proof.
  induction f; simpl; intros k H i Hi; try lia.
  destruct (b (cand k)) eqn:E; try discriminate.
  destruct i.
  - replace (k + 0) with k by lia. auto.
  - replace (k + S i) with (S k + i) by lia. apply IHf; auto. lia.
Qed.

Lemma first_free_total : forall b cand bl f k,
  (forall i j, cand i = cand j -> i = j) ->
  (forall s, b s = true -> In s bl) ->
  List.length bl < f ->
  first_free b cand k f <> None.
Proof.
  intros b cand bl f k Hinj Hb Hlen Hnone.
  pose proof (first_free_none _ _ _ _ Hnone) as Hall.
  assert (NoDup (map cand (seq k f))) as Hnd.
  { apply Injective_map_NoDup. - intros x y; apply Hinj. - apply seq_NoDup. }
  assert (incl (map cand (seq k f)) bl) as Hincl.
  { intros s Hs. apply in_map_iff in Hs. destruct Hs as [x [Hx Hin]]. subst s.
    apply in_seq in Hin. apply Hb. replace x with (k + (x - k)) by lia. apply Hall. lia. }
  pose proof (NoDup_incl_length Hnd Hincl) as Hle. rewrite map_length, seq_length in Hle. lia.
Qed.

Lemma length_pad : forall s k, String.length (pad s k) = String.length s + k.
Proof. induction k; simpl; intros; try lia. rewrite str_length_app, IHk. simpl. lia. Qed.

Lemma pad_inj : forall s i j, pad s i = pad s j -> i = j.
Proof. intros s i j H. apply (f_equal String.length) in H. rewrite !length_pad in H. lia. Qed.

Lemma counter_cand_inj : forall tmp i j, counter_cand tmp i = counter_cand tmp j -> i = j.
Proof.
  intros tmp [|i] [|j] H; simpl in H; auto.
  - apply (f_equal String.length) in H. rewrite str_length_app in H. simpl in H. lia.
  - apply (f_equal String.length) in H. rewrite str_length_app in H. simpl in H. lia.
  - apply str_app_inj_l in H. simpl in H. inversion H. f_equal. apply dec_inj; auto.
Qed.

Lemma has_us_append_r : forall a b, has_us b = true -> has_us (a ++ b) = true.
Proof.
  unfold has_us. intros a b H. apply negb_true_iff in H. apply negb_true_iff.
  rewrite sall_append, H. apply andb_false_r.
Qed.

Lemma has_us_us : forall s, has_us ("_" ++ s) = true.
Proof. intros; reflexivity. Qed.

Lemma kw_ok_no_us : forall kws s, forallb kw_ok kws = true -> has_us s = true -> ~ In s kws.
Proof.
  intros kws s H Hs Hin. rewrite forallb_forall in H. apply H in Hin. unfold kw_ok in Hin.
  rewrite Hs in Hin. discriminate.
Qed.

Lemma kw_ok_no_qmark : forall kws s, forallb kw_ok kws = true -> starts_qmark s = true -> ~ In s kws.
Proof.
  intros kws s H Hs Hin. rewrite forallb_forall in H. apply H in Hin. unfold kw_ok in Hin.
  rewrite Hs in Hin. rewrite andb_false_r in Hin. discriminate.
Qed.

Lemma kw_ok_incl : forall a b, incl a b -> forallb kw_ok b = true -> forallb kw_ok a = true.
Proof. intros a b Hi H. rewrite forallb_forall in *. intros x Hx. apply H, Hi, Hx. Qed.

Lemma ident_append : forall rest a b, ident rest a = true -> sall rest b = true -> ident rest (a ++ b) = true.
Proof.
  intros rest [|c r] b Ha Hb; simpl in *; try discriminate.
  apply andb_true_iff in Ha. destruct Ha as [H1 H2]. rewrite H1, sall_append, H2, Hb. reflexivity.
Qed.

Lemma no_upper_append : forall a b, no_upper (a ++ b) = no_upper a && no_upper b.
Proof. intros. apply sall_append. Qed.

Definition rest_ok (rest : ascii -> bool) : Prop :=
  rest "_"%char = true /\ forall c, is_digit c = true -> rest c = true.

Lemma anml_rest_ok : rest_ok anml_rest.
Proof. split; [reflexivity|]. intros c H. unfold anml_rest. rewrite H. rewrite orb_true_r. reflexivity. Qed.
Lemma pddl_rest_ok : rest_ok pddl_rest.
Proof.
  destruct anml_rest_ok as [A B]. split; [reflexivity|]. intros c H. unfold pddl_rest. rewrite (B _ H). reflexivity.
Qed.

Lemma suffix_rest : forall rest j, rest_ok rest -> sall rest ("_" ++ dec j) = true.
Proof.
  intros rest j [Hus Hd]. simpl. rewrite Hus. simpl.
  apply sall_impl with (p := is_digit); auto. apply dec_digits.
Qed.

Lemma suffix_no_upper : forall j, no_upper ("_" ++ dec j) = true.
Proof.
  intros. unfold no_upper. simpl.
  apply sall_impl with (p := is_digit); [|apply dec_digits].
  intros c H. rewrite (digit_not_upper _ H). reflexivity.
Qed.

Lemma tables_ok_spec : forall c rest, tables_ok c rest = true ->
  (forall ch, in_class (c_start c) ch = true -> is_letter ch = true) /\
  (forall ch, in_class (c_start c) ch = true -> in_class (c_keep c) ch = true) /\
  (forall ch, in_class (c_keep c) ch = true -> rest ch = true) /\
  sall rest (c_repl c) = true /\ rest "_"%char = true /\
  forallb (fun kv => letter_ok c (snd kv)) (c_letters c) = true /\ letter_ok c (c_default c) = true.
Proof.
  unfold tables_ok. intros c rest H. repeat rewrite andb_true_iff in H.
  destruct H as [[[[[[H1 H2] H3] H4] H5] H6] H7].
  repeat split; auto; apply class_sub_spec; auto.
Qed.

Lemma assoc_str_In : forall l k v, assoc_str k l = Some v -> exists k', In (k', v) l.
Proof.
  induction l as [|[k' v'] l IH]; simpl; intros k0 v Hk0; try discriminate.
  destruct (String.eqb k0 k').
  - inversion Hk0; subst. eauto.
  - apply IH in Hk0. destruct Hk0; eauto.
Qed.

Lemma initial_letter_all : forall (P : string -> bool) c cls,
  forallb (fun kv => P (snd kv)) (c_letters c) = true -> P (c_default c) = true -> P (initial_letter c cls) = true.
Proof.
  intros P c cls F D. unfold initial_letter. destruct (assoc_str cls (c_letters c)) eqn:E; [|exact D].
  destruct (assoc_str_In _ _ _ E) as [k' Hin]. rewrite forallb_forall in F. exact (F _ Hin).
Qed.

Section Base.
  Variable c : cfg.
  Variable rest : ascii -> bool.
  Hypothesis Hrest : rest_ok rest.
  Hypothesis Htab : tables_ok c rest = true.

  Lemma H_start_letter : forall ch, in_class (c_start c) ch = true -> is_letter ch = true.
  Proof. apply (tables_ok_spec _ _ Htab). Qed.
  Lemma H_start_keep : forall ch, in_class (c_start c) ch = true -> in_class (c_keep c) ch = true.
  Proof. apply (tables_ok_spec _ _ Htab). Qed.
  Lemma H_keep_rest : forall ch, in_class (c_keep c) ch = true -> rest ch = true.
  Proof. apply (tables_ok_spec _ _ Htab). Qed.
  Lemma H_repl : sall rest (c_repl c) = true.
  Proof. apply (tables_ok_spec _ _ Htab). Qed.
  Lemma H_letters : forall cls, letter_ok c (initial_letter c cls) = true.
  Proof. intros cls. apply initial_letter_all; apply (tables_ok_spec _ _ Htab). Qed.

  Lemma sub_chars_rest : forall s, sall rest (sub_chars c s) = true.
  Proof.
    intros s. unfold sub_chars. apply sall_smap. intros ch.
    destruct (in_class (c_keep c) ch) eqn:E.
    - simpl. rewrite (H_keep_rest _ E). reflexivity.
    - apply H_repl.
  Qed.

  Lemma sub_chars_cons_keep : forall ch r, in_class (c_keep c) ch = true ->
    sub_chars c (String ch r) = String ch (sub_chars c r).
  Proof. intros ch r H. unfold sub_chars. simpl. rewrite H. reflexivity. Qed.

  Definition pre_name (it : item) : string :=
    let n := if c_lower c then lower (it_name it) else it_name it in
    let n := if starts_in (c_start c) n then n else initial_letter c (it_cls it) ++ "_" ++ n in
    sub_chars c n.

  Lemma pre_name_ident : forall it, ident rest (pre_name it) = true.
  Proof.
    intros it. unfold pre_name.
    generalize (if c_lower c then lower (it_name it) else it_name it). intros n.
    destruct (starts_in (c_start c) n) eqn:E.
    - destruct n as [|ch r]; simpl in E; try discriminate.
      rewrite sub_chars_cons_keep by (apply H_start_keep; auto). simpl. rewrite (H_start_letter _ E), sub_chars_rest. reflexivity.
    - pose proof (H_letters (it_cls it)) as HL. destruct (initial_letter c (it_cls it)) as [|lc lr]; simpl in HL; try discriminate.
      apply andb_true_iff in HL. destruct HL as [HL H3]. apply andb_true_iff in HL. destruct HL as [H1 H2].
      simpl. rewrite sub_chars_cons_keep by auto. simpl. rewrite H1, sub_chars_rest. reflexivity.
  Qed.

  Lemma pad_ident : forall s k, ident rest s = true -> ident rest (pad s k) = true.
  Proof.
    induction k; simpl; intros; auto. apply ident_append; auto. simpl. destruct Hrest as [Hus _]. rewrite Hus. reflexivity.
  Qed.

  Lemma avoid_keywords_total : forall s, avoid_keywords c s <> None.
  Proof.
    intros s. unfold avoid_keywords. apply first_free_total with (bl := c_kws c).
    - apply pad_inj.
    - intros x Hx. apply mem_str_In; auto.
    - lia.
  Qed.

  Lemma base_name_total : forall it, exists n, base_name c it = Some n.
  Proof.
    intros it. unfold base_name. destruct (avoid_keywords c _) eqn:E; eauto. exfalso. eapply avoid_keywords_total; eauto.
  Qed.

  Lemma base_name_spec : forall it n, base_name c it = Some n ->
    ident rest n = true /\ ~ In n (c_kws c) /\ exists k, n = pad (pre_name it) k.
  Proof.
    intros it n H. unfold base_name in H. fold (pre_name it) in H. unfold avoid_keywords in H.
    apply first_free_spec in H. destruct H as [Hb [k Hk]]. simpl in Hk. subst n.
    split; [apply pad_ident, pre_name_ident|]. split; [apply mem_str_false; auto|eauto].
  Qed.

  Lemma no_upper_smap_keep : forall s, no_upper (c_repl c) = true -> no_upper s = true -> no_upper (sub_chars c s) = true.
  Proof.
    intros s Hr. unfold no_upper, sub_chars. induction s; simpl; intros H; auto.
    apply andb_true_iff in H. destruct H as [H1 H2]. rewrite sall_append, IHs by auto.
    destruct (in_class (c_keep c) a); simpl; [rewrite H1|fold (no_upper (c_repl c)); rewrite Hr]; reflexivity.
  Qed.

  Lemma base_name_no_upper : forall it n, tables_lower_ok c = true -> base_name c it = Some n -> no_upper n = true.
  Proof.
    intros it n Hl H. apply base_name_spec in H. destruct H as [_ [_ [k Hk]]]. subst n.
    unfold tables_lower_ok in Hl. repeat (apply andb_true_iff in Hl; destruct Hl as [Hl ?]).
    assert (no_upper (pre_name it) = true) as Hp.
    { unfold pre_name. rewrite Hl. apply no_upper_smap_keep; auto.
      destruct (starts_in (c_start c) (lower (it_name it))); [apply no_upper_lower|].
      rewrite !no_upper_append, no_upper_lower. simpl. rewrite andb_true_r. apply initial_letter_all; assumption. }
    induction k; simpl; auto. rewrite no_upper_append, IHk. reflexivity.
  Qed.
End Base.

Lemma item_eqb_eq : forall a b, item_eqb a b = true <-> a = b.
Proof.
  intros [c1 i1 n1] [c2 i2 n2]. unfold item_eqb. simpl. split.
  - intros H. apply andb_true_iff in H. destruct H as [H H3]. apply andb_true_iff in H. destruct H as [H1 H2].
    apply String.eqb_eq in H1. apply N.eqb_eq in H2. apply String.eqb_eq in H3. subst. reflexivity.
  - intros H. inversion H; subst. rewrite !String.eqb_refl, N.eqb_refl. reflexivity.
Qed.

Lemma item_eqb_refl : forall a, item_eqb a a = true.
Proof. intros. apply item_eqb_eq. reflexivity. Qed.

Lemma item_eqb_neq : forall a b, item_eqb a b = false <-> a <> b.
Proof.
  intros. split.
  - intros H E. apply item_eqb_eq in E. congruence.
  - intros H. destruct (item_eqb a b) eqn:E; auto. exfalso. apply H. apply item_eqb_eq; auto.
Qed.

Lemma lookup_otn_In : forall it n l, lookup_otn it l = Some n -> In (it, n) l.
Proof.
  induction l as [|[k v] l IH]; simpl; intros H; try discriminate.
  destruct (item_eqb it k) eqn:E.
  - apply item_eqb_eq in E. inversion H; subst. auto.
  - auto.
Qed.

Lemma lookup_otn_None : forall it l, lookup_otn it l = None -> ~ In it (map fst l).
Proof.
  induction l as [|[k v] l IH]; simpl; intros H; auto.
  destruct (item_eqb it k) eqn:E; try discriminate.
  apply item_eqb_neq in E. intros [A|A]; [congruence|]. apply IH; auto.
Qed.

Lemma In_lookup_otn : forall it n l, NoDup (map fst l) -> In (it, n) l -> lookup_otn it l = Some n.
Proof.
  induction l as [|[k v] l IH]; simpl; intros Hnd Hin; try contradiction.
  inversion Hnd; subst.
  destruct Hin as [A|A].
  - inversion A; subst. rewrite item_eqb_refl. reflexivity.
  - destruct (item_eqb it k) eqn:E.
    + apply item_eqb_eq in E. subst. exfalso. apply H1. apply in_map_iff. exists (k, n). auto.
    + auto.
Qed.

Lemma lookup_otn_app : forall it n l l', lookup_otn it l = Some n -> lookup_otn it (l ++ l') = Some n.
Proof.
  induction l as [|[k v] l IH]; simpl; intros l' H; try discriminate.
  destruct (item_eqb it k); auto.
Qed.

Lemma anml_item_named_In : forall n it m, anml_item_named n m = Some it -> In (it, n) m.
Proof.
  induction m as [|[k x] m IH]; simpl; intros H; try discriminate.
  destruct (String.eqb n x) eqn:E.
  - apply String.eqb_eq in E. inversion H; subst. auto.
  - auto.
Qed.

Lemma In_anml_item_named : forall n it m, NoDup (values m) -> In (it, n) m -> anml_item_named n m = Some it.
Proof.
  unfold values. induction m as [|[k x] m IH]; simpl; intros Hnd Hin; try contradiction.
  inversion Hnd; subst. destruct Hin as [A|A].
  - inversion A; subst. rewrite String.eqb_refl. reflexivity.
  - destruct (String.eqb n x) eqn:E.
    + apply String.eqb_eq in E. subst. exfalso. apply H1. apply in_map_iff. exists (it, x). auto.
    + auto.
Qed.

Lemma assoc_inverse : forall m it n, NoDup (map fst m) -> NoDup (values m) ->
  (lookup_otn it m = Some n <-> anml_item_named n m = Some it).
Proof.
  intros m it n Hk Hv. split; intros H.
  - apply In_anml_item_named; [exact Hv|]. apply lookup_otn_In; auto.
  - apply In_lookup_otn; [exact Hk|]. apply anml_item_named_In; auto.
Qed.

Definition swap (p : item * string) : string * item := (snd p, fst p).

Lemma map_fst_swap : forall l, map fst (map swap l) = map snd l.
Proof. induction l as [|[a b] l IH]; simpl; congruence. Qed.

Lemma lookup_nto_swap : forall n l, lookup_nto n (map swap l) = anml_item_named n l.
Proof. induction l as [|[k v] l IH]; simpl; [reflexivity|]. rewrite IH. reflexivity. Qed.

Section Pddl.
  Variable c : cfg.
  Variable hier : bool.
  Variable pnames : list string.
  Hypothesis Htab : tables_ok c pddl_rest = true.

  Definition pgood (e : item * string) : Prop :=
    pddl_ident_for (fst e) (snd e) = true
    /\ (forallb kw_ok (c_kws c) = true -> ~ In (snd e) (c_kws c))
    /\ (tables_lower_ok c = true -> no_upper (snd e) = true).

  Record pinv (st : pstate) : Prop := {
    pi_sym : nto st = map swap (otn st);
    pi_keys : NoDup (map fst (otn st));
    pi_vals : NoDup (map snd (otn st));
    pi_good : Forall pgood (otn st);
    pi_fresh : Forall (fun e => snd e <> it_name (fst e) -> ~ In (snd e) pnames) (otn st)
  }.

  Lemma pinv0 : pinv pstate0.
  Proof. split; simpl; auto; constructor. Qed.

  Lemma pddl_name_total : forall it, exists n, pddl_name c it = Some n.
  Proof.
    intros it. unfold pddl_name. destruct (base_name_total c it) as [n Hn]. rewrite Hn. eauto.
  Qed.

  Lemma pgood_pddl_name : forall it n, pddl_name c it = Some n -> pgood (it, n).
  Proof.
    intros it n H. unfold pddl_name in H. destruct (base_name c it) as [b|] eqn:E; try discriminate.
    inversion H; subst; clear H.
    pose proof (base_name_spec c pddl_rest pddl_rest_ok Htab _ _ E) as [Hid [Hkw _]].
    unfold pgood, pddl_ident_for; simpl. destruct (is_paramvar it) eqn:Ep.
    - split; [simpl; exact Hid|]. split.
      + intros Hk. apply kw_ok_no_qmark; auto.
      + intros Hl. simpl. unfold no_upper in *. simpl.
        apply (base_name_no_upper c pddl_rest pddl_rest_ok Htab _ _ Hl E).
    - split; [exact Hid|]. split; auto. intros Hl.
      apply (base_name_no_upper c pddl_rest pddl_rest_ok Htab _ _ Hl E).
  Qed.

  Lemma pgood_suffix : forall it s x, pgood (it, s) ->
    sall pddl_rest x = true -> no_upper x = true -> has_us x = true -> pgood (it, s ++ x).
  Proof.
    intros it s x [H1 [H2 H3]] Hx Hu Hus. unfold pgood in *; simpl in *. split; [|split].
    - unfold pddl_ident_for in *. destruct (is_paramvar it).
      + destruct s as [|ch r]; simpl in *; try discriminate.
        apply andb_true_iff in H1. destruct H1 as [Hq Hr]. rewrite Hq. simpl.
        apply ident_append; auto.
      + apply ident_append; auto.
    - intros Hk. apply kw_ok_no_us; auto. apply has_us_append_r; auto.
    - intros Hl. rewrite no_upper_append, H3, Hu; auto.
  Qed.

  Lemma pgood_counter : forall it s k, pgood (it, s) -> pgood (it, counter_cand s k).
  Proof.
    intros it s [|j] H; simpl; auto.
    apply pgood_suffix; auto.
    - apply suffix_rest. apply pddl_rest_ok.
    - apply suffix_no_upper.
  Qed.

  Lemma taken_false : forall st n, pinv st -> taken st n = false -> ~ In n (map snd (otn st)).
  Proof.
    intros st n Hi Ht. unfold taken in Ht. apply mem_str_false in Ht.
    rewrite (pi_sym _ Hi), map_fst_swap in Ht. exact Ht.
  Qed.

  Lemma pddl_mangled_total : forall st it, exists r, pddl_mangled c hier pnames st it = Some r.
  Proof.
    intros st it. unfold pddl_mangled.
    destruct (lookup_otn it (otn st)); eauto.
    destruct (pddl_name_total it) as [t0 Ht0]. rewrite Ht0.
    set (tmp := if is_type it && hier && (t0 =? "object") then t0 ++ "_" else t0).
    destruct ((tmp =? it_name it) && negb (taken st tmp)); eauto.
    destruct (first_free _ (counter_cand tmp) 0 _) eqn:E; eauto.
    exfalso. revert E. apply first_free_total with (bl := (pnames ++ map fst (nto st))%list).
    - apply counter_cand_inj.
    - intros s Hs. apply orb_true_iff in Hs. apply in_or_app. destruct Hs as [Hs|Hs]; [left|right]; apply mem_str_In; auto.
    - rewrite app_length, map_length. lia.
  Qed.

  Lemma pddl_mangled_found : forall st it n, lookup_otn it (otn st) = Some n ->
    pddl_mangled c hier pnames st it = Some (n, st).
  Proof. intros. unfold pddl_mangled. rewrite H. reflexivity. Qed.

  Lemma is_type_not_paramvar : forall it, is_type it = true -> is_paramvar it = false.
  Proof.
    unfold is_type, is_paramvar. intros it H. apply String.eqb_eq in H. rewrite H. reflexivity.
  Qed.

  Lemma pddl_mangled_new : forall st it n st', pinv st -> lookup_otn it (otn st) = None ->
    pddl_mangled c hier pnames st it = Some (n, st') ->
    st' = mk_pstate (otn st ++ [(it, n)])%list (nto st ++ [(n, it)])%list /\ pgood (it, n) /\ ~ In n (map snd (otn st))
    /\ (n <> it_name it -> ~ In n pnames).
  Proof.
    intros st it n st' Hi Hl H. unfold pddl_mangled in H. rewrite Hl in H.
    destruct (pddl_name c it) as [t0|] eqn:Et0; try discriminate.
    set (tmp := if is_type it && hier && (t0 =? "object") then t0 ++ "_" else t0) in *.
    assert (pgood (it, tmp)) as Hg.
    { pose proof (pgood_pddl_name _ _ Et0) as G. unfold tmp.
      destruct (is_type it && hier && (t0 =? "object")); auto.
      apply pgood_suffix; auto. }
    destruct ((tmp =? it_name it) && negb (taken st tmp)) eqn:Eb.
    - inversion H; subst; clear H. apply andb_true_iff in Eb. destruct Eb as [E1 E2].
      apply negb_true_iff in E2. apply String.eqb_eq in E1.
      split; auto. split; auto. split; [apply taken_false; auto|]. intros Hne. congruence.
    - destruct (first_free _ (counter_cand tmp) 0 _) as [new|] eqn:Ef; try discriminate.
      inversion H; subst; clear H.
      apply first_free_spec in Ef. destruct Ef as [Hb [i Hi']]. simpl in Hi'. subst n.
      apply orb_false_iff in Hb. destruct Hb as [Hb1 Hb2].
      split; auto. split; [apply pgood_counter; auto|]. split; [apply taken_false; auto|].
      intros _. apply mem_str_false; auto.
  Qed.

  Lemma pddl_mangled_inv : forall st it n st', pinv st ->
    pddl_mangled c hier pnames st it = Some (n, st') ->
    pinv st' /\ lookup_otn it (otn st') = Some n /\ exists l, otn st' = (otn st ++ l)%list.
  Proof.
    intros st it n st' Hi H.
    destruct (lookup_otn it (otn st)) as [n0|] eqn:El.
    - rewrite (pddl_mangled_found _ _ _ El) in H. inversion H; subst. split; auto. split; auto. exists []. rewrite app_nil_r; auto.
    - destruct (pddl_mangled_new _ _ _ _ Hi El H) as [Hst [Hg [Hv Hfr]]]. subst st'. simpl.
      assert (NoDup (map fst (otn st ++ [(it, n)]))) as Hk.
      { rewrite map_app. simpl. apply NoDup_snoc; [apply (pi_keys _ Hi)|]. apply lookup_otn_None; auto. }
      split; [|split].
      + split; simpl.
        * rewrite (pi_sym _ Hi), map_app. reflexivity.
        * exact Hk.
        * rewrite map_app. simpl. apply NoDup_snoc; [apply (pi_vals _ Hi)|]. auto.
        * apply Forall_app. split; [apply (pi_good _ Hi)|]. constructor; auto.
        * apply Forall_app. split; [apply (pi_fresh _ Hi)|]. constructor; auto.
      + apply In_lookup_otn; [exact Hk|]. apply in_or_app. right. simpl. auto.
      + eauto.
  Qed.

  Lemma pddl_run_from_total : forall reqs st, exists r, pddl_run_from c hier pnames st reqs = Some r.
  Proof.
    induction reqs as [|it reqs IH]; simpl; intros st; eauto.
    destruct (pddl_mangled_total st it) as [[n st1] H]. rewrite H.
    destruct (IH st1) as [[ns st2] H2]. rewrite H2. eauto.
  Qed.

  Lemma pddl_run_from_inv : forall reqs st ns st', pinv st ->
    pddl_run_from c hier pnames st reqs = Some (ns, st') ->
    pinv st' /\ (exists l, otn st' = (otn st ++ l)%list)
    /\ Forall2 (fun it n => get_pddl_name st' it = Some n) reqs ns.
  Proof.
    induction reqs as [|it reqs IH]; simpl; intros st ns st' Hi H.
    - inversion H; subst. split; auto. split; [exists []; rewrite app_nil_r; auto|constructor].
    - destruct (pddl_mangled c hier pnames st it) as [[n st1]|] eqn:E1; try discriminate.
      destruct (pddl_run_from c hier pnames st1 reqs) as [[ns1 st2]|] eqn:E2; try discriminate.
      inversion H; subst; clear H.
      destruct (pddl_mangled_inv _ _ _ _ Hi E1) as [Hi1 [Hl1 [l1 Ho1]]].
      destruct (IH _ _ _ Hi1 E2) as [Hi2 [[l2 Ho2] HF]].
      split; auto. split.
      + exists (l1 ++ l2)%list. rewrite Ho2, Ho1, app_assoc. reflexivity.
      + constructor; auto. unfold get_pddl_name. rewrite Ho2. apply lookup_otn_app; auto.
  Qed.

  Lemma pinv_inverse : forall st it n, pinv st ->
    (get_pddl_name st it = Some n <-> get_item_named st n = Some it).
  Proof.
    intros st it n Hi. unfold get_pddl_name, get_item_named. rewrite (pi_sym _ Hi), lookup_nto_swap.
    apply assoc_inverse; [apply (pi_keys _ Hi)|apply (pi_vals _ Hi)].
  Qed.

  Lemma pinv_injective : forall st a b n, pinv st ->
    get_pddl_name st a = Some n -> get_pddl_name st b = Some n -> a = b.
  Proof.
    intros st a b n Hi Ha Hb. apply (pinv_inverse _ _ _ Hi) in Ha. apply (pinv_inverse _ _ _ Hi) in Hb. congruence.
  Qed.

  Lemma pinv_good : forall st it n, pinv st -> get_pddl_name st it = Some n -> pgood (it, n).
  Proof.
    intros st it n Hi H. apply lookup_otn_In in H. pose proof (pi_good _ Hi) as G. rewrite Forall_forall in G. apply (G _ H).
  Qed.

  Lemma pinv_fresh : forall st it n, pinv st -> get_pddl_name st it = Some n -> n <> it_name it -> ~ In n pnames.
  Proof.
    intros st it n Hi H. apply lookup_otn_In in H. pose proof (pi_fresh _ Hi) as G. rewrite Forall_forall in G. apply (G _ H).
  Qed.
End Pddl.

Lemma lower_no_upper_id : forall s, no_upper s = true -> lower s = s.
Proof.
  unfold no_upper, lower. induction s; simpl; intros H; auto.
  apply andb_true_iff in H. destruct H as [H1 H2]. rewrite IHs by auto.
  unfold lower_char. unfold is_upper_letter in H1. apply negb_true_iff in H1. rewrite H1. reflexivity.
Qed.

Lemma sall_ext : forall (p q : ascii -> bool) s, (forall c, p c = q c) -> sall p s = sall q s.
Proof. induction s; simpl; intros; auto. rewrite H, IHs; auto. Qed.

Lemma anml_is_valid_spec : forall v kws s, vcfg_ok v = true ->
  anml_is_valid v kws s = anml_ident s && negb (mem_str s kws).
Proof.
  intros v kws s H. unfold vcfg_ok in H. repeat rewrite andb_true_iff in H. destruct H as [[H1 H2] H3].
  unfold anml_is_valid, anml_ident, ident. destruct s as [|ch r]; auto.
  rewrite H1. f_equal.
  pose proof (forall_ascii _ H2 ch) as A. simpl in A. apply eqb_prop in A. rewrite A. f_equal.
  apply sall_ext. intros x. pose proof (forall_ascii _ H3 x) as B. simpl in B. apply eqb_prop in B. exact B.
Qed.

Lemma nodup_str_NoDup : forall l, nodup_str l = true -> NoDup l.
Proof.
  induction l; simpl; intros H; constructor.
  - apply andb_true_iff in H. destruct H as [H _]. apply negb_true_iff in H. apply mem_str_false; auto.
  - apply andb_true_iff in H. destruct H; auto.
Qed.

Lemma set_map_In : forall k v m e, In e (set_map k v m) -> e = (k, v) \/ In e m.
Proof.
  induction m as [|[k' v'] m IH]; simpl; intros e H.
  - destruct H as [H|[]]; auto.
  - destruct (item_eqb k k'); simpl in H.
    + destruct H as [H|H]; auto.
    + destruct H as [H|H]; auto. apply IH in H. destruct H; auto.
Qed.

Lemma set_map_keys_In : forall k v m x, In x (map fst (set_map k v m)) -> x = k \/ In x (map fst m).
Proof.
  intros k v m x H. apply in_map_iff in H. destruct H as [e [He Hin]]. apply set_map_In in Hin.
  destruct Hin as [Hin|Hin]; subst; auto. right. apply in_map; auto.
Qed.

Lemma set_map_vals_In : forall k v m x, In x (values (set_map k v m)) -> x = v \/ In x (values m).
Proof.
  intros k v m x H. unfold values in *. apply in_map_iff in H. destruct H as [e [He Hin]]. apply set_map_In in Hin.
  destruct Hin as [Hin|Hin]; subst; auto. right. apply in_map; auto.
Qed.

Lemma set_map_keys_NoDup : forall k v m, NoDup (map fst m) -> NoDup (map fst (set_map k v m)).
Proof.
  induction m as [|[k' v'] m IH]; simpl; intros H.
  - repeat constructor; auto.
  - inversion H; subst. destruct (item_eqb k k') eqn:E; simpl.
    + apply item_eqb_eq in E. subst. constructor; auto.
    + constructor; auto. intros Hin. apply set_map_keys_In in Hin. destruct Hin as [Hin|Hin]; auto.
      subst. rewrite item_eqb_refl in E. discriminate.
Qed.

Lemma set_map_vals_NoDup : forall k v m, NoDup (values m) -> ~ In v (values m) -> NoDup (values (set_map k v m)).
Proof.
  unfold values. induction m as [|[k' v'] m IH]; simpl; intros H Hv.
  - repeat constructor; auto.
  - inversion H; subst. destruct (item_eqb k k') eqn:E; simpl.
    + constructor; auto.
    + constructor; auto. intros Hin. apply set_map_vals_In in Hin. destruct Hin as [Hin|Hin]; auto.
  Qed.

Lemma set_map_Forall : forall (P : item * string -> Prop) k v m, Forall P m -> P (k, v) -> Forall P (set_map k v m).
Proof.
  intros P k v m H Hp. rewrite Forall_forall in *. intros e He. apply set_map_In in He. destruct He; subst; auto.
Qed.

Lemma lookup_set_same : forall k v m, lookup_otn k (set_map k v m) = Some v.
Proof.
  induction m as [|[k' v'] m IH]; simpl.
  - rewrite item_eqb_refl. reflexivity.
  - destruct (item_eqb k k') eqn:E; simpl.
    + rewrite item_eqb_refl. reflexivity.
    + rewrite E. exact IH.
Qed.

Lemma lookup_set_other : forall k v m k', k' <> k -> lookup_otn k' (set_map k v m) = lookup_otn k' m.
Proof.
  induction m as [|[k0 v0] m IH]; simpl; intros k' Hne.
  - apply item_eqb_neq in Hne. rewrite Hne. reflexivity.
  - destruct (item_eqb k k0) eqn:E; simpl.
    + apply item_eqb_eq in E. subst k0. apply item_eqb_neq in Hne. rewrite Hne. reflexivity.
    + destruct (item_eqb k' k0); auto.
Qed.

Lemma anml_init_nodup : forall builtin, builtin_ok builtin = true ->
  NoDup (map fst (anml_init builtin)) /\ NoDup (values (anml_init builtin)).
Proof.
  intros builtin Hb. unfold builtin_ok in Hb. apply andb_true_iff in Hb. destruct Hb as [Hl Hn].
  apply Nat.eqb_eq in Hl. apply nodup_str_NoDup in Hn.
  destruct builtin as [|a [|b [|d [|e r]]]]; simpl in Hl; try discriminate.
  split.
  - simpl. repeat constructor; simpl; intuition discriminate.
  - exact Hn.
Qed.

Section Anml.
  Variable v : vcfg.
  Variable c : cfg.
  Variable builtin : list string.
  Hypothesis Htab : tables_ok c anml_rest = true.
  Hypothesis Hv : vcfg_ok v = true.
  Hypothesis Hkw : forallb kw_ok (c_kws c) = true.
  Hypothesis Hb : builtin_ok builtin = true.

  Definition aname_ok (n : string) : Prop := anml_ident n = true /\ ~ In n (c_kws c).
  Definition agood (e : item * string) : Prop := In e (anml_init builtin) \/ aname_ok (snd e).

  Record ainv (m : amap) : Prop := {
    ai_keys : NoDup (map fst m);
    ai_vals : NoDup (values m);
    ai_good : Forall agood m
  }.

  Lemma ainv_init : ainv (anml_init builtin).
  Proof.
    destruct (anml_init_nodup _ Hb) as [A B]. split; auto.
    apply Forall_forall. intros e He. left. exact He.
  Qed.

  Lemma aname_ok_valid : forall n, aname_ok n <-> anml_is_valid v (c_kws c) n = true.
  Proof.
    intros n. rewrite (anml_is_valid_spec _ _ _ Hv). unfold aname_ok. rewrite andb_true_iff, negb_true_iff, mem_str_false.
    reflexivity.
  Qed.

  Lemma ainv_set : forall m k x, ainv m -> ~ In x (values m) -> aname_ok x -> ainv (set_map k x m).
  Proof.
    intros m k x Hi Hx Hok. split.
    - apply set_map_keys_NoDup, (ai_keys _ Hi).
    - apply set_map_vals_NoDup; [apply (ai_vals _ Hi)|exact Hx].
    - apply set_map_Forall; [apply (ai_good _ Hi)|]. right. exact Hok.
  Qed.

  Lemma anml_prefill_inv : forall m it, ainv m -> ainv (anml_prefill v c m it).
  Proof.
    intros m it Hi. unfold anml_prefill.
    destruct (anml_is_valid v (c_kws c) (it_name it) && negb (mem_str (it_name it) (values m))) eqn:E; auto.
    apply andb_true_iff in E. destruct E as [E1 E2]. apply negb_true_iff in E2. apply mem_str_false in E2.
    apply ainv_set; [exact Hi|exact E2|apply aname_ok_valid, E1].
  Qed.

  Lemma aname_ok_counter : forall s k, aname_ok s -> aname_ok (counter_cand s k).
  Proof.
    intros s [|j] [H1 H2]; simpl; [split; auto|]. split.
    - apply ident_append; auto. apply suffix_rest. apply anml_rest_ok.
    - apply kw_ok_no_us; auto. apply has_us_append_r. reflexivity.
  Qed.

  Lemma anml_get_name_total : forall m it, is_numtype it = false -> exists r, anml_get_name c m it = Some r.
  Proof.
    intros m it Hn. unfold anml_get_name. destruct (lookup_otn it m); eauto. rewrite Hn.
    destruct (base_name_total c it) as [b Hb']. rewrite Hb'.
    destruct (first_free _ (counter_cand b) 0 _) eqn:E; eauto.
    exfalso. revert E. apply first_free_total with (bl := values m).
    - apply counter_cand_inj.
    - intros s Hs. apply mem_str_In; auto.
    - unfold values. rewrite map_length. lia.
  Qed.

  Lemma anml_get_name_inv : forall m it n m', ainv m -> anml_get_name c m it = Some (n, m') ->
    ainv m' /\ lookup_otn it m' = Some n
    /\ (forall k x, lookup_otn k m = Some x -> lookup_otn k m' = Some x)
    /\ (lookup_otn it m = None -> aname_ok n /\ ~ In n (values m)).
  Proof.
    intros m it n m' Hi H. unfold anml_get_name in H.
    destruct (lookup_otn it m) as [n0|] eqn:El.
    - inversion H; subst. split; [exact Hi|]. split; [exact El|]. split; [auto|].
      intros X. congruence.
    - destruct (is_numtype it); try discriminate.
      destruct (base_name c it) as [b|] eqn:Eb; try discriminate.
      destruct (first_free _ (counter_cand b) 0 _) as [t|] eqn:Ef; try discriminate.
      inversion H; subst; clear H.
      apply first_free_spec in Ef. destruct Ef as [Hbl [i Hi']]. simpl in Hi'. subst n.
      apply mem_str_false in Hbl.
      pose proof (base_name_spec c anml_rest anml_rest_ok Htab _ _ Eb) as [Hid [Hk _]].
      assert (aname_ok (counter_cand b i)) as Hok by (apply aname_ok_counter; split; auto).
      split; [|split; [|split]].
      + apply ainv_set; assumption.
      + apply lookup_set_same.
      + intros k x Hk'. rewrite lookup_set_other; auto. intros Heq. subst. congruence.
      + intros _. split; auto.
  Qed.

  Definition aop_named (o : aop) : Prop :=
    match o with AReq it => is_numtype it = false | APre _ => True end.

  Lemma anml_run_from_total : forall ops m, Forall aop_named ops -> exists r, anml_run_from v c m ops = Some r.
  Proof.
    induction ops as [|[it|it] ops IH]; simpl; intros m H; eauto; inversion H; subst.
    - destruct (IH (anml_prefill v c m it) H3) as [[ns m'] E]. rewrite E. eauto.
    - destruct (anml_get_name_total m it H2) as [[n m1] E1]. rewrite E1.
      destruct (IH m1 H3) as [[ns m'] E]. rewrite E. eauto.
  Qed.

  Lemma anml_run_from_inv : forall ops m ns m', ainv m -> anml_run_from v c m ops = Some (ns, m') -> ainv m'.
  Proof.
    induction ops as [|[it|it] ops IH]; simpl; intros m ns m' Hi H.
    - inversion H; subst; auto.
    - destruct (anml_run_from v c (anml_prefill v c m it) ops) as [[ns1 m1]|] eqn:E; try discriminate.
      inversion H; subst. eapply IH; [|exact E]. apply anml_prefill_inv; auto.
    - destruct (anml_get_name c m it) as [[n m1]|] eqn:E1; try discriminate.
      destruct (anml_run_from v c m1 ops) as [[ns1 m2]|] eqn:E; try discriminate.
      inversion H; subst. eapply IH; [|exact E]. apply (anml_get_name_inv _ _ _ _ Hi E1).
  Qed.

  (* the request phase: every answer is the final binding, earlier bindings persist *)
  Lemma anml_requests_stable : forall reqs m ns m', ainv m ->
    anml_run_from v c m (map AReq reqs) = Some (ns, m') ->
    ns = map (fun it => lookup_otn it m') reqs
    /\ (forall k x, lookup_otn k m = Some x -> lookup_otn k m' = Some x).
  Proof.
    induction reqs as [|it reqs IH]; simpl; intros m ns m' Hi H.
    - inversion H; subst. auto.
    - destruct (anml_get_name c m it) as [[n m1]|] eqn:E1; try discriminate.
      destruct (anml_run_from v c m1 (map AReq reqs)) as [[ns1 m2]|] eqn:E; try discriminate.
      inversion H; subst; clear H.
      destruct (anml_get_name_inv _ _ _ _ Hi E1) as [Hi1 [Hl [Hp _]]].
      destruct (IH _ _ _ Hi1 E) as [Hns Hp2]. split.
      + rewrite (Hp2 _ _ Hl). f_equal. exact Hns.
      + intros k x Hk. apply Hp2, Hp, Hk.
  Qed.

  Lemma ainv_inverse : forall m it n, ainv m -> (lookup_otn it m = Some n <-> anml_item_named n m = Some it).
  Proof.
    intros m it n Hi. apply assoc_inverse; [apply (ai_keys _ Hi)|apply (ai_vals _ Hi)].
  Qed.

  Lemma ainv_injective : forall m a b n, ainv m -> lookup_otn a m = Some n -> lookup_otn b m = Some n -> a = b.
  Proof.
    intros m a b n Hi Ha Hb'. apply (ainv_inverse _ _ _ Hi) in Ha. apply (ainv_inverse _ _ _ Hi) in Hb'. congruence.
  Qed.

  Lemma ainv_good : forall m it n, ainv m -> lookup_otn it m = Some n -> In (it, n) (anml_init builtin) \/ aname_ok n.
  Proof.
    intros m it n Hi H. apply lookup_otn_In in H. pose proof (ai_good _ Hi) as G. rewrite Forall_forall in G. apply (G _ H).
  Qed.
End Anml.


(* A character class lies within another when each of its ranges lies within one range of the other: the side conditions
   on the generated tables are decided on the end points of the ranges, not character by character. *)
Definition range_in (r1 r2 : ascii * ascii) : bool :=
  (N_of_ascii (fst r2) <=? N_of_ascii (fst r1))%N && (N_of_ascii (snd r1) <=? N_of_ascii (snd r2))%N.
Definition class_incl (cl cl2 : cclass) : bool := forallb (fun r => existsb (range_in r) cl2) cl.

Lemma class_incl_spec : forall cl cl2, class_incl cl cl2 = true -> forall c, in_class cl c = true -> in_class cl2 c = true.
Proof.
  unfold class_incl, in_class. intros cl cl2 H c Hc. rewrite forallb_forall in H. apply existsb_exists in Hc.
  destruct Hc as [r [Hr Hc]]. apply H, existsb_exists in Hr. destruct Hr as [r2 [Hr2 Hin]]. apply existsb_exists.
  exists r2. split; [exact Hr2|]. unfold in_range, range_in in *. rewrite !andb_true_iff, !N.leb_le in *. lia.
Qed.

Lemma class_sub_intro : forall cl p, (forall c, in_class cl c = true -> p c = true) -> class_sub cl p = true.
Proof.
  intros cl p H. apply forallb_forall. intros c _. destruct (in_class cl c) eqn:E; [apply (H c E)|reflexivity].
Qed.

Lemma in_range_single : forall x c, in_range (x, x) c = Ascii.eqb c x.
Proof.
  intros x c. unfold in_range. cbn [fst snd]. destruct (Ascii.eqb_spec c x) as [->|Hne]; [rewrite N.leb_refl; reflexivity|].
  destruct (N.leb_spec (N_of_ascii x) (N_of_ascii c)), (N.leb_spec (N_of_ascii c) (N_of_ascii x)); try reflexivity.
  exfalso. apply Hne. rewrite <- (ascii_N_embedding c), <- (ascii_N_embedding x). f_equal. lia.
Qed.

Definition letter_cl : cclass := [("a", "z"); ("A", "Z")]%char.
Definition anml_rest_cl : cclass := [("a", "z"); ("A", "Z"); ("0", "9"); ("_", "_")]%char.
Definition pddl_rest_cl : cclass := [("a", "z"); ("A", "Z"); ("0", "9"); ("_", "_"); ("-", "-")]%char.

Lemma is_letter_class : forall c, is_letter c = in_class letter_cl c.
Proof. intros c. unfold is_letter, is_lower_letter, is_upper_letter. unfold in_class, letter_cl. cbn [existsb]. rewrite orb_false_r. reflexivity. Qed.
Lemma anml_rest_class : forall c, anml_rest c = in_class anml_rest_cl c.
Proof.
  intros c. unfold anml_rest, is_letter, is_lower_letter, is_upper_letter, is_digit, is_us.
  unfold in_class, anml_rest_cl. cbn [existsb]. rewrite in_range_single, orb_false_r, !orb_assoc. reflexivity.
Qed.
Lemma pddl_rest_class : forall c, pddl_rest c = in_class pddl_rest_cl c.
Proof.
  intros c. unfold pddl_rest, anml_rest, is_letter, is_lower_letter, is_upper_letter, is_digit, is_us.
  unfold in_class, pddl_rest_cl. cbn [existsb]. rewrite !in_range_single, orb_false_r, !orb_assoc. reflexivity.
Qed.

Lemma tables_ok_intro : forall c rest rest_cl, (forall ch, rest ch = in_class rest_cl ch) ->
  class_incl (c_start c) letter_cl = true -> class_incl (c_start c) (c_keep c) = true -> class_incl (c_keep c) rest_cl = true ->
  sall rest (c_repl c) && rest "_"%char && forallb (fun kv => letter_ok c (snd kv)) (c_letters c) && letter_ok c (c_default c) = true ->
  tables_ok c rest = true.
Proof.
  intros c rest rest_cl Hr H1 H2 H3 H4. unfold tables_ok.
  rewrite (class_sub_intro _ is_letter), (class_sub_intro _ (in_class (c_keep c))), (class_sub_intro _ rest); [exact H4|..].
  - intros ch Hc. rewrite Hr. exact (class_incl_spec _ _ H3 ch Hc).
  - exact (class_incl_spec _ _ H2).
  - intros ch Hc. rewrite is_letter_class. exact (class_incl_spec _ _ H1 ch Hc).
Qed.

Lemma vcfg_ok_intro : forall v, v_full v = true ->
  class_incl (v_first v) letter_cl = true -> class_incl letter_cl (v_first v) = true ->
  class_incl (v_rest v) anml_rest_cl = true -> class_incl anml_rest_cl (v_rest v) = true -> vcfg_ok v = true.
Proof.
  intros v Hf A1 A2 B1 B2. unfold vcfg_ok. rewrite Hf. apply andb_true_iff. split; apply forallb_forall; intros ch _;
    apply eqb_true_iff, eq_true_iff_eq; [rewrite is_letter_class|rewrite anml_rest_class]; split; apply class_incl_spec; assumption.
Qed.

Lemma pddl_tables_ok : forall kws, tables_ok (pddl_cfg kws) pddl_rest = true.
Proof. intros kws. apply (tables_ok_intro _ _ pddl_rest_cl pddl_rest_class); vm_compute; reflexivity. Qed.
Lemma pddl_tables_lower_ok : forall kws, tables_lower_ok (pddl_cfg kws) = true.
Proof. intros kws. vm_compute. reflexivity. Qed.
Lemma pddl_all_keywords_ok : forallb kw_ok pddl_all_keywords = true.
Proof. vm_compute. reflexivity. Qed.
Lemma anml_tables_ok : tables_ok anml_cfg anml_rest = true.
Proof. apply (tables_ok_intro _ _ anml_rest_cl anml_rest_class); vm_compute; reflexivity. Qed.
Lemma anml_vcfg_ok : vcfg_ok anml_vcfg = true.
Proof. apply vcfg_ok_intro; vm_compute; reflexivity. Qed.
Lemma anml_keywords_ok : forallb kw_ok (c_kws anml_cfg) = true.
Proof. vm_compute. reflexivity. Qed.
Lemma anml_builtin_ok : builtin_ok anml_builtin_names = true.
Proof. vm_compute. reflexivity. Qed.

Definition builtin_items : list item := [bool_item; int_item; real_item].

Section Final.
  Variables (kws : list string) (hier : bool) (pnames : list string).
  Let c := pddl_cfg kws.

  Lemma pddl_final_total : forall reqs, exists ns st, pddl_run c hier pnames reqs = Some (ns, st).
  Proof. intros reqs. destruct (pddl_run_from_total c hier pnames reqs pstate0) as [[ns st] H]. eauto. Qed.

  Lemma pddl_final_inv : forall reqs ns st, pddl_run c hier pnames reqs = Some (ns, st) -> pinv c pnames st.
  Proof.
    intros reqs ns st H.
    destruct (pddl_run_from_inv c hier pnames (pddl_tables_ok kws) reqs pstate0 ns st (pinv0 c pnames) H) as [A _]. exact A.
  Qed.

  Lemma pddl_final_valid : forall reqs ns st it n, pddl_run c hier pnames reqs = Some (ns, st) ->
    get_pddl_name st it = Some n -> pddl_ident_for it n = true /\ no_upper n = true.
  Proof.
    intros reqs ns st it n H Hg. pose proof (pinv_good c pnames st it n (pddl_final_inv _ _ _ H) Hg) as [A [_ B]].
    split; [exact A|]. apply B. apply pddl_tables_lower_ok.
  Qed.

  Lemma pddl_final_not_keyword : forall reqs ns st it n, incl kws pddl_all_keywords ->
    pddl_run c hier pnames reqs = Some (ns, st) -> get_pddl_name st it = Some n -> ~ In n kws.
  Proof.
    intros reqs ns st it n Hk H Hg. pose proof (pinv_good c pnames st it n (pddl_final_inv _ _ _ H) Hg) as [_ [A _]].
    apply A. simpl. apply (kw_ok_incl _ _ Hk). apply pddl_all_keywords_ok.
  Qed.

  Lemma pddl_final_injective : forall reqs ns st a b n, pddl_run c hier pnames reqs = Some (ns, st) ->
    get_pddl_name st a = Some n -> get_pddl_name st b = Some n -> a = b.
  Proof. intros reqs ns st a b n H. apply (pinv_injective c pnames). apply (pddl_final_inv _ _ _ H). Qed.

  Lemma pddl_final_injective_nocase : forall reqs ns st a b n1 n2, pddl_run c hier pnames reqs = Some (ns, st) ->
    get_pddl_name st a = Some n1 -> get_pddl_name st b = Some n2 -> lower n1 = lower n2 -> a = b.
  Proof.
    intros reqs ns st a b n1 n2 H Ha Hb Hl.
    destruct (pddl_final_valid _ _ _ _ _ H Ha) as [_ U1]. destruct (pddl_final_valid _ _ _ _ _ H Hb) as [_ U2].
    rewrite (lower_no_upper_id _ U1), (lower_no_upper_id _ U2) in Hl. subst n2.
    apply (pddl_final_injective _ _ _ _ _ _ H Ha Hb).
  Qed.

  Lemma pddl_final_inverse : forall reqs ns st it n, pddl_run c hier pnames reqs = Some (ns, st) ->
    (get_pddl_name st it = Some n <-> get_item_named st n = Some it).
  Proof. intros reqs ns st it n H. apply (pinv_inverse c pnames). apply (pddl_final_inv _ _ _ H). Qed.

  Lemma pddl_final_answers : forall reqs ns st, pddl_run c hier pnames reqs = Some (ns, st) ->
    Forall2 (fun it n => get_pddl_name st it = Some n) reqs ns.
  Proof.
    intros reqs ns st H.
    destruct (pddl_run_from_inv c hier pnames (pddl_tables_ok kws) reqs pstate0 ns st (pinv0 c pnames) H) as [_ [_ A]]. exact A.
  Qed.

  Lemma pddl_final_fresh : forall reqs ns st it n, pddl_run c hier pnames reqs = Some (ns, st) ->
    get_pddl_name st it = Some n -> n <> it_name it -> ~ In n pnames.
  Proof. intros reqs ns st it n H. apply (pinv_fresh c pnames). apply (pddl_final_inv _ _ _ H). Qed.

  Lemma pddl_final_name : forall it, exists n, pddl_name c it = Some n /\ pddl_ident_for it n = true /\ no_upper n = true
    /\ (incl kws pddl_all_keywords -> ~ In n kws).
  Proof.
    intros it. destruct (pddl_name_total c it) as [n Hn]. exists n. split; auto.
    destruct (pgood_pddl_name c (pddl_tables_ok kws) it n Hn) as [A [B C]]. simpl in *.
    split; auto. split; [apply C, pddl_tables_lower_ok|].
    intros Hk. apply B. apply (kw_ok_incl _ _ Hk). apply pddl_all_keywords_ok.
  Qed.
End Final.

Section FinalAnml.
  Let run := anml_run anml_vcfg anml_cfg anml_builtin_names.
  Let INV := ainv anml_cfg anml_builtin_names.

  Lemma anml_final_total : forall ops, Forall aop_named ops -> exists ns m, run ops = Some (ns, m).
  Proof.
    intros ops H. destruct (anml_run_from_total anml_vcfg anml_cfg ops (anml_init anml_builtin_names) H) as [[ns m] E]. eauto.
  Qed.

  Lemma anml_final_inv : forall ops ns m, run ops = Some (ns, m) -> INV m.
  Proof.
    intros ops ns m H.
    apply (anml_run_from_inv anml_vcfg anml_cfg anml_builtin_names anml_tables_ok anml_vcfg_ok anml_keywords_ok ops _ ns m
             (ainv_init anml_cfg anml_builtin_names anml_builtin_ok) H).
  Qed.

  Lemma anml_final_valid : forall ops ns m it n, run ops = Some (ns, m) -> lookup_otn it m = Some n ->
    ~ In it builtin_items -> anml_ident n = true /\ ~ In n anml_keywords.
  Proof.
    intros ops ns m it n H Hl Hnb.
    destruct (ainv_good anml_cfg anml_builtin_names m it n (anml_final_inv _ _ _ H) Hl) as [A|A]; auto.
    exfalso. apply Hnb. unfold anml_init in A. apply in_combine_l in A. exact A.
  Qed.

  Lemma anml_final_injective : forall ops ns m a b n, run ops = Some (ns, m) ->
    lookup_otn a m = Some n -> lookup_otn b m = Some n -> a = b.
  Proof. intros ops ns m a b n H. apply (ainv_injective anml_cfg anml_builtin_names). apply (anml_final_inv _ _ _ H). Qed.

  Lemma anml_final_inverse : forall ops ns m it n, run ops = Some (ns, m) ->
    (lookup_otn it m = Some n <-> anml_item_named n m = Some it).
  Proof. intros ops ns m it n H. apply (ainv_inverse anml_cfg anml_builtin_names). apply (anml_final_inv _ _ _ H). Qed.

  Lemma anml_final_is_valid : forall s,
    anml_is_valid anml_vcfg anml_keywords s = anml_ident s && negb (mem_str s anml_keywords).
  Proof. intros s. apply anml_is_valid_spec. apply anml_vcfg_ok. Qed.

  (* the writer's shape: pre-fill loops first, then requests *)
  Lemma anml_final_writer : forall pre reqs ns1 m1 ns m,
    run (map APre pre) = Some (ns1, m1) ->
    anml_run_from anml_vcfg anml_cfg m1 (map AReq reqs) = Some (ns, m) ->
    INV m /\ ns = map (fun it => lookup_otn it m) reqs
    /\ (forall k x, lookup_otn k m1 = Some x -> lookup_otn k m = Some x).
  Proof.
    intros pre reqs ns1 m1 ns m H1 H2. pose proof (anml_final_inv _ _ _ H1) as I1.
    split.
    - apply (anml_run_from_inv anml_vcfg anml_cfg anml_builtin_names anml_tables_ok anml_vcfg_ok anml_keywords_ok _ _ _ _ I1 H2).
    - apply (anml_requests_stable anml_vcfg anml_cfg anml_builtin_names anml_tables_ok anml_keywords_ok reqs m1 ns m I1 H2).
  Qed.

  (* the assertion `assert _is_valid_anml_name(new_name)` of _get_anml_name holds for every fresh name *)
  Lemma anml_final_assert : forall ops ns m it n m', run ops = Some (ns, m) -> lookup_otn it m = None ->
    anml_get_name anml_cfg m it = Some (n, m') -> anml_is_valid anml_vcfg anml_keywords n = true /\ ~ In n (values m).
  Proof.
    intros ops ns m it n m' H Hl Hg.
    destruct (anml_get_name_inv anml_cfg anml_builtin_names anml_tables_ok anml_keywords_ok m it n m' (anml_final_inv _ _ _ H) Hg)
      as [_ [_ [_ A]]]. destruct (A Hl) as [[B1 B2] C]. split; auto.
    rewrite anml_final_is_valid. apply andb_true_iff. split; [exact B1|]. apply negb_true_iff. apply mem_str_false. exact B2.
  Qed.
End FinalAnml.

Lemma subset_b_incl : forall a b, subset_b a b = true -> incl a b.
Proof. unfold subset_b. intros a b H x Hx. rewrite forallb_forall in H. apply mem_str_In. apply H, Hx. Qed.

Lemma kws_of_rules_incl : forall base rules has,
  incl (kws_of_rules base rules has) (base ++ List.concat (map snd rules))%list.
Proof.
  intros base rules has. unfold kws_of_rules. apply incl_app; [apply incl_appl, incl_refl|]. apply incl_appr.
  induction rules as [|r rules IH]; simpl; [apply incl_refl|].
  destruct (rule_applies has r).
  - apply incl_app; [apply incl_appl, incl_refl|apply incl_appr, IH].
  - apply incl_appr, IH.
Qed.

Lemma pddl_writer_kws_incl : forall has, incl (pddl_writer_kws has) pddl_all_keywords.
Proof. intros has. apply kws_of_rules_incl. Qed.

Lemma incl_if : forall (b : bool) (l m : list string), (b = true -> incl l m) -> incl (if b then l else []) m.
Proof. intros [|] l m H; [auto|intros x []]. Qed.

(* piece by piece: the fixed part of the specification is checked against the base table by evaluation; each optional
   part is literally the table of the rule that adds it *)
Lemma pddl_reserved_covered : forall has, incl (pddl_reserved_spec has) (pddl_writer_kws has).
Proof.
  intros has. unfold pddl_reserved_spec, pddl_writer_kws, kws_of_rules, pddl_keyword_rules, rule_applies.
  cbn [map fst snd existsb List.concat]. repeat apply incl_app.
  - apply incl_appl, subset_b_incl. vm_compute. reflexivity.
  - apply incl_if. intros H. rewrite orb_false_r, orb_comm, H. do 3 apply incl_appr. apply incl_appl, incl_refl.
  - apply incl_if. intros H. rewrite orb_false_r, H. do 4 apply incl_appr. rewrite app_nil_r. apply incl_refl.
  - apply incl_if. intros _. apply incl_appr, incl_appl, incl_refl.
  - apply incl_if. intros _. do 2 apply incl_appr. apply incl_appl, incl_refl.
Qed.

Lemma pddl_final_not_reserved : forall has hier pnames reqs ns st it n,
  pddl_run (pddl_cfg (pddl_writer_kws has)) hier pnames reqs = Some (ns, st) ->
  get_pddl_name st it = Some n -> ~ In n (pddl_reserved_spec has).
Proof.
  intros has hier pnames reqs ns st it n H Hg Hin.
  apply (pddl_final_not_keyword (pddl_writer_kws has) hier pnames reqs ns st it n (pddl_writer_kws_incl has) H Hg).
  apply pddl_reserved_covered, Hin.
Qed.

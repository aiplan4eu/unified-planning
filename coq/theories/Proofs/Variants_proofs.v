(* C37 — proofs about the action splitting of Compilers/Variants.v over the documented step [spec_step false]. *)
From Coq Require Import List ZArith NArith QArith Qcanon Bool Lia Permutation.
Import ListNotations.
Require Import UPV.Core.Expr UPV.Core.Eval UPV.Core.Interp UPV.Planning.Problem UPV.Planning.Sem.
Require Import UPV.Proofs.Eval_lemmas UPV.Proofs.Sem_proofs UPV.Proofs.Step_proofs UPV.Proofs.ListFacts UPV.Proofs.Sem_perm UPV.Compilers.Variants
  UPV.Proofs.LayerA_base.

Definition acts_of (L : list eres) : list aeff :=
  flat_map (fun r => match r with EAct a => [a] | _ => [] end) L.
Definition is_err (r : eres) : bool := match r with EErr => true | _ => false end.
Definition has_err (L : list eres) : bool := existsb is_err L.

Lemma collect_res_spec L : collect_res L = if has_err L then None else Some (acts_of L).
Proof.
  induction L as [|r L IH]; simpl; auto.
  destruct r; simpl; auto. rewrite IH. destruct (has_err L); auto.
Qed.

Lemma acts_of_app L1 L2 : acts_of (L1 ++ L2) = acts_of L1 ++ acts_of L2.
Proof. unfold acts_of. apply flat_map_app. Qed.
Lemma has_err_app L1 L2 : has_err (L1 ++ L2) = has_err L1 || has_err L2.
Proof. unfold has_err. apply existsb_app. Qed.

Definition nasg (a : aeff) : bool := negb (is_assign a).

(* two fired lists are similar when they contain the same assignments (as sets) and the same increases/decreases
   (as multisets) *)
Definition lsim (l l' : list aeff) : Prop :=
  (forall a, is_assign a = true -> (In a l <-> In a l')) /\ Permutation (filter nasg l) (filter nasg l').

Lemma lsim_refl l : lsim l l.
Proof. split; [tauto | apply Permutation_refl]. Qed.
Lemma lsim_sym l l' : lsim l l' -> lsim l' l.
Proof. intros [H1 H2]. split; [intros a Ha; symmetry; auto | apply Permutation_sym; auto]. Qed.
Lemma lsim_trans l1 l2 l3 : lsim l1 l2 -> lsim l2 l3 -> lsim l1 l3.
Proof.
  intros [H1 H2] [H3 H4]. split.
  - intros a Ha. rewrite (H1 a Ha). auto.
  - eapply Permutation_trans; eauto.
Qed.
Lemma lsim_app a a' b b' : lsim a a' -> lsim b b' -> lsim (a ++ b) (a' ++ b').
Proof.
  intros [H1 H2] [H3 H4]. split.
  - intros x Hx. rewrite !in_app_iff, (H1 x Hx), (H3 x Hx). tauto.
  - rewrite !filter_app. apply Permutation_app; auto.
Qed.
Lemma lsim_app_comm a b : lsim (a ++ b) (b ++ a).
Proof.
  split.
  - intros x _. rewrite !in_app_iff. tauto.
  - rewrite !filter_app. apply Permutation_app_comm.
Qed.
Lemma lsim_perm l l' : Permutation l l' -> lsim l l'.
Proof.
  intros H. split.
  - intros a _. split; apply Permutation_in; auto. apply Permutation_sym; auto.
  - induction H; simpl.
    + constructor.
    + destruct (nasg x); auto.
    + destruct (nasg x), (nasg y); auto. constructor.
    + eapply Permutation_trans; eauto.
Qed.

Definition esim (L L' : list eres) : Prop := has_err L = has_err L' /\ lsim (acts_of L) (acts_of L').

Lemma esim_refl L : esim L L.
Proof. split; auto using lsim_refl. Qed.
Lemma esim_sym L L' : esim L L' -> esim L' L.
Proof. intros [H1 H2]. split; auto using lsim_sym. Qed.
Lemma esim_trans L1 L2 L3 : esim L1 L2 -> esim L2 L3 -> esim L1 L3.
Proof. intros [H1 H2] [H3 H4]. split; [congruence | eauto using lsim_trans]. Qed.
Lemma esim_app a a' b b' : esim a a' -> esim b b' -> esim (a ++ b) (a' ++ b').
Proof.
  intros [H1 H2] [H3 H4]. split.
  - rewrite !has_err_app. congruence.
  - rewrite !acts_of_app. apply lsim_app; auto.
Qed.
Lemma esim_app_comm a b : esim (a ++ b) (b ++ a).
Proof.
  split.
  - rewrite !has_err_app. apply orb_comm.
  - rewrite !acts_of_app. apply lsim_app_comm.
Qed.
Lemma esim_skips L : Forall (fun r => r = ESkip) L -> esim L [].
Proof.
  intros H. induction H as [|r L Hr _ IH]; [apply esim_refl|].
  subst r. destruct IH as [H1 H2]. split; simpl; auto.
Qed.
Lemma esim_flat_map {A} (f g : A -> list eres) l :
  (forall x, In x l -> esim (f x) (g x)) -> esim (flat_map f l) (flat_map g l).
Proof.
  induction l as [|x l IH]; intros H; simpl; [apply esim_refl|].
  apply esim_app; [apply H; left; auto | apply IH; intros y Hy; apply H; right; auto].
Qed.



Lemma filter_andb {A} (p q : A -> bool) l : filter (fun x => p x && q x) l = filter p (filter q l).
Proof.
  induction l as [|x l IH]; simpl; auto.
  destruct (q x) eqn:Hq; simpl; rewrite ?andb_true_r, ?andb_false_r; [destruct (p x); simpl; congruence | auto].
Qed.

Lemma in_avals k l v :
  In v (avals k l) <-> exists a, In a l /\ gfl_eqb (ae_key a) k = true /\ is_assign a = true /\ ae_val a = v.
Proof.
  unfold avals. rewrite in_map_iff. split.
  - intros [a [Hv Ha]]. apply filter_In in Ha. destruct Ha as [Ha Hb]. apply andb_true_iff in Hb.
    exists a. tauto.
  - intros [a [Ha [Hk [Has Hv]]]]. exists a. split; auto. apply filter_In. split; auto. rewrite Hk, Has. auto.
Qed.

Lemma lsim_avals k l l' : lsim l l' -> forall v, In v (avals k l) <-> In v (avals k l').
Proof.
  intros [H _] v. rewrite !in_avals. split; intros [a [Ha [Hk [Has Hv]]]]; exists a; repeat split; auto;
    apply (H a Has); auto.
Qed.

Lemma lsim_deltas k l l' : lsim l l' -> Permutation (deltas k l) (deltas k l').
Proof.
  intros [_ H]. unfold deltas.
  change (fun a => gfl_eqb (ae_key a) k && negb (is_assign a)) with (fun a => (fun a => gfl_eqb (ae_key a) k) a && nasg a).
  rewrite !filter_andb. apply Permutation_map. apply Permutation_filter. exact H.
Qed.

(* "every assigned value is the first one" says that the assigned values are all equal, a property of their set *)
Lemma all_same_iff a rest :
  forallb (value_eqb a) rest = true <-> forall x y, In x (a :: rest) -> In y (a :: rest) -> x = y.
Proof.
  rewrite forallb_forall. split.
  - intros H. assert (G : forall x, In x (a :: rest) -> x = a)
      by (intros x [Hx|Hx]; [symmetry; exact Hx | symmetry; apply value_eqb_eq, H, Hx]).
    intros x y Hx Hy. rewrite (G x Hx), (G y Hy). reflexivity.
  - intros H x Hx. apply value_eqb_eq. apply H; [left; reflexivity | right; exact Hx].
Qed.

Lemma all_same_ext a rest a' rest' : (forall v, In v (a :: rest) <-> In v (a' :: rest')) ->
  forallb (value_eqb a) rest = forallb (value_eqb a') rest' /\ (forallb (value_eqb a) rest = true -> a = a').
Proof.
  intros HA. split.
  - apply eq_true_iff_eq. rewrite !all_same_iff. split; intros H x y Hx Hy; apply H; apply HA; assumption.
  - intros H. apply (proj1 (all_same_iff a rest) H); [left; reflexivity | apply HA; left; reflexivity].
Qed.

Lemma combine_same_set isb old A A' D : (forall v, In v A <-> In v A') -> combine isb old A D = combine isb old A' D.
Proof.
  intros HA. destruct A as [|a rest], A' as [|a' rest']; try reflexivity.
  - exfalso. apply (HA a'). left; reflexivity.
  - exfalso. apply (HA a). left; reflexivity.
  - destruct D; [|reflexivity]. cbn [combine]. destruct isb.
    + f_equal. f_equal. apply eq_true_iff_eq. rewrite !existsb_exists.
      split; intros [x [Hx Hv]]; exists x; split; auto; apply HA; auto.
    + destruct (all_same_ext a rest a' rest' HA) as [<- Haa].
      destruct (forallb (value_eqb a) rest); [rewrite (Haa eq_refl)|]; reflexivity.
Qed.

Lemma combine_perm isb old A D D' : Permutation D D' -> combine isb old A D = combine isb old A D'.
Proof.
  intros HD. destruct D as [|d D], D' as [|d' D''].
  - reflexivity.
  - apply Permutation_nil in HD. discriminate.
  - apply Permutation_sym, Permutation_nil in HD. discriminate.
  - destruct A; [|reflexivity]. cbn [combine]. destruct old as [[b|c|o]|]; try reflexivity.
    rewrite (sum_deltas_perm _ _ HD c). reflexivity.
Qed.

Lemma lsim_spec_fluent P s l l' k : lsim l l' -> spec_fluent P s l k = spec_fluent P s l' k.
Proof.
  intros H. unfold spec_fluent.
  rewrite (combine_same_set _ _ _ (avals k l') _ (lsim_avals k l l' H)). apply combine_perm, lsim_deltas, H.
Qed.

Lemma lsim_key_in l l' a : lsim l l' -> In a l -> exists a', In a' l' /\ ae_key a' = ae_key a.
Proof.
  intros [H1 H2] Ha. destruct (is_assign a) eqn:E.
  - exists a. split; auto. apply (H1 a E). auto.
  - assert (Hf : In a (filter nasg l)) by (apply filter_In; split; auto; unfold nasg; rewrite E; auto).
    apply (Permutation_in _ H2) in Hf. apply filter_In in Hf. exists a. tauto.
Qed.

Lemma lsim_effects_ok P s l l' : lsim l l' -> spec_effects_ok P s l = spec_effects_ok P s l'.
Proof.
  assert (G : forall l1 l2, lsim l1 l2 -> spec_effects_ok P s l1 = true -> spec_effects_ok P s l2 = true).
  { intros l1 l2 H. unfold spec_effects_ok. rewrite !forallb_forall. intros Hall a Ha.
    destruct (lsim_key_in l2 l1 a (lsim_sym _ _ H) Ha) as [a' [Ha' Hk]].
    specialize (Hall a' Ha'). rewrite Hk in Hall. rewrite <- (lsim_spec_fluent P s l1 l2 _ H). exact Hall. }
  intros H. apply eq_true_iff_eq. split; apply G; [exact H | apply lsim_sym, H].
Qed.

Lemma lsim_succ P s l l' : lsim l l' -> state_eq (spec_succ P s l) (spec_succ P s l').
Proof. intros H f a. unfold spec_succ. rewrite (lsim_spec_fluent P s l l' _ H). reflexivity. Qed.

(* the tail of [spec_step] after the precondition test, as a function of the evaluated effect instances *)
Definition finish_step (P : problem) (s : state) (L : list eres) : option state :=
  match collect_res L with
  | None => None
  | Some acts =>
      if negb (spec_effects_ok P s acts) then None
      else let s' := spec_succ P s acts in if invariants_ok false P s' then Some s' else None
  end.

Definition eres_of (I : interp) (effs : list effect) : list eres :=
  flat_map (fun e => map (fun J => eval_effect false J e) (instances I (e_vars e))) effs.

Lemma spec_step_unfold P s a args :
  spec_step false P s a args =
  let I := mk_interp P s (zip_params (a_params a) args) in
  if negb (all_hold false I (a_pre a)) then None else finish_step P s (eres_of I (a_effs a)).
Proof. reflexivity. Qed.

Lemma esim_finish P s L L' : esim L L' -> ostate_eq (finish_step P s L) (finish_step P s L').
Proof.
  intros [He Hl]. unfold finish_step. rewrite !collect_res_spec, <- He.
  destruct (has_err L); simpl; auto.
  rewrite <- (lsim_effects_ok P s _ _ Hl).
  destruct (spec_effects_ok P s (acts_of L)); simpl; auto.
  rewrite <- (invariants_ok_ext false P _ _ (lsim_succ P s _ _ Hl)).
  destruct (invariants_ok false P (spec_succ P s (acts_of L))); simpl; auto.
  apply lsim_succ; auto.
Qed.

Lemma finish_nil P s t : finish_step P s [] = Some t -> state_eq t s.
Proof.
  unfold finish_step. simpl. destruct (invariants_ok false P (spec_succ P s [])); intros H; inversion H; subst.
  intros f x. reflexivity.
Qed.

Section StepOf.
  Variable P : problem.
  Variable s : state.
  Variable a : action.
  Variable args : list value.
  Let I := mk_interp P s (zip_params (a_params a) args).

  Lemma applicable_unfold :
    applicable P s a args = all_hold false I (a_pre a) && is_some (finish_step P s (eres_of I (a_effs a))).
  Proof.
    unfold applicable. rewrite spec_step_unfold. cbv zeta. fold I. destruct (all_hold false I (a_pre a)); reflexivity.
  Qed.

  Lemma esim_step v :
    a_params v = a_params a -> all_hold false I (a_pre v) = all_hold false I (a_pre a) ->
    esim (eres_of I (a_effs v)) (eres_of I (a_effs a)) ->
    ostate_eq (spec_step false P s v args) (spec_step false P s a args).
  Proof.
    intros Hp Hpre He. rewrite !spec_step_unfold. cbv zeta. rewrite Hp. fold I. rewrite Hpre.
    destruct (negb (all_hold false I (a_pre a))); [exact Logic.I | apply esim_finish; exact He].
  Qed.

  Lemma nothing_fires_noop t : esim (eres_of I (a_effs a)) [] -> spec_step false P s a args = Some t -> state_eq t s.
  Proof.
    intros He Ht. rewrite spec_step_unfold in Ht. cbv zeta in Ht. fold I in Ht. destruct (negb _) in Ht; [discriminate|].
    pose proof (esim_finish P s _ _ He) as H. rewrite Ht in H.
    destruct (finish_step P s []) as [t'|] eqn:E; [|destruct H].
    apply finish_nil in E. intros f x. rewrite (H f x). apply E.
  Qed.
End StepOf.

Lemma eres_of_app I l1 l2 : eres_of I (l1 ++ l2) = eres_of I l1 ++ eres_of I l2.
Proof. unfold eres_of. apply flat_map_app. Qed.

Lemma eres_of_flat_map {A} I (g : A -> list effect) l : eres_of I (flat_map g l) = flat_map (fun x => eres_of I (g x)) l.
Proof. unfold eres_of. apply flat_map_flat_map. Qed.

Lemma fired_eres I effs : fired false I effs = collect_res (eres_of I effs).
Proof. reflexivity. Qed.
Lemma fired_some I effs acts : fired false I effs = Some acts -> acts = acts_of (eres_of I effs).
Proof.
  rewrite fired_eres, collect_res_spec. destruct (has_err (eres_of I effs)); [discriminate|].
  intros H. inversion H. reflexivity.
Qed.

Definition piece (I : interp) (e : effect) : list eres :=
  map (fun J => eval_effect false J e) (instances I (e_vars e)).

Lemma eres_of_cons I e l : eres_of I (e :: l) = piece I e ++ eres_of I l.
Proof. reflexivity. Qed.
Lemma eres_of_one I e : eres_of I [e] = piece I e.
Proof. unfold eres_of. simpl. apply app_nil_r. Qed.

(* the step only reads the preconditions through [all_hold]: the simplified preconditions of
   check_and_simplify_preconditions may replace the unsimplified ones wherever they are equivalent *)
Lemma step_pre_ext P s a1 a2 args :
  a_params a1 = a_params a2 -> a_effs a1 = a_effs a2 ->
  all_hold false (mk_interp P s (zip_params (a_params a1) args)) (a_pre a1) =
  all_hold false (mk_interp P s (zip_params (a_params a1) args)) (a_pre a2) ->
  spec_step false P s a1 args = spec_step false P s a2 args.
Proof. intros Hp He Hh. rewrite !spec_step_unfold. cbv zeta. rewrite <- Hp, <- He, Hh. reflexivity. Qed.

(* what an effect instance produces once its condition is known *)
Definition fire (J : interp) (e : effect) : eres :=
  match evals_l false J (e_args e) with
  | Some vs =>
      match eval false (e_val e) J with
      | Some v => EAct {| ae_key := (e_fl e, vs); ae_kind := e_kind e; ae_val := v |}
      | None => EErr
      end
  | None => EErr
  end.

Lemma eval_effect_true J e c :
  eval false c J = Some (VBool true) -> eval_effect false J (set_cond e c) = fire J e.
Proof.
  intros H. unfold eval_effect, fire. simpl. destruct (evals_l false J (e_args e)); auto. rewrite H. reflexivity.
Qed.
Lemma eval_effect_false J e c :
  eval false c J = Some (VBool false) -> evals_l false J (e_args e) <> None ->
  eval_effect false J (set_cond e c) = ESkip.
Proof.
  intros H Ha. unfold eval_effect. simpl. destruct (evals_l false J (e_args e)); [|congruence]. rewrite H. reflexivity.
Qed.
Lemma set_cond_id e : set_cond e (e_cond e) = e.
Proof. destruct e; reflexivity. Qed.

Lemma holds_bool sc I c b : eval sc c I = Some (VBool b) -> holds sc I c = b.
Proof. intros H. unfold holds. rewrite H. destruct b; reflexivity. Qed.

Lemma holds_mkNot I c b : eval false c I = Some (VBool b) -> holds false I (mkNot c) = negb b.
Proof.
  intros H. destruct c; try (unfold mkNot; unfold holds; rewrite eval_ENot, H; destruct b; reflexivity).
  (* c = ENot c0: ExpressionManager.Not returns c0 *)
  simpl. rewrite eval_ENot in H. destruct (eval false c I) as [[b0| |]|] eqn:E; simpl in H; try discriminate.
  inversion H; subst. unfold holds. rewrite E. destruct b0; reflexivity.
Qed.

Lemma esim_partition I (p : effect -> bool) effs :
  esim (eres_of I effs) (eres_of I (filter p effs) ++ eres_of I (filter (fun e => negb (p e)) effs)).
Proof.
  induction effs as [|e effs IH]; [apply esim_refl|]. cbn [filter]. rewrite eres_of_cons.
  destruct (p e); cbn [negb]; rewrite eres_of_cons.
  - rewrite <- app_assoc. apply esim_app; [apply esim_refl | exact IH].
  - eapply esim_trans; [apply esim_app; [apply esim_refl | exact IH]|].
    rewrite !app_assoc. apply esim_app; [apply esim_app_comm | apply esim_refl].
Qed.

Lemma sel_effs_map (f : effect -> bool) ces :
  sel_effs ces (map f ces) = flat_map (fun e => if f e then [strip_cond e] else []) ces.
Proof. induction ces as [|e ces IH]; [reflexivity|]. cbn [map sel_effs flat_map]. rewrite IH. reflexivity. Qed.

Section CE.
  Variable P : problem.
  Variable s : state.
  Variable a : action.
  Variable args : list value.
  Let I := mk_interp P s (zip_params (a_params a) args).

  (* HYPOTHESIS of the theorems, per conditional effect: its condition evaluates to a Boolean in the state, to the
     same Boolean under every instance of the effect's forall variables (i.e. it does not depend on them), and the
     target arguments are defined under every instance (so that a non-firing effect is skipped, not an error) *)
  Definition cond_ok (e : effect) : Prop :=
    exists b, eval false (e_cond e) I = Some (VBool b) /\
              Forall (fun J => eval false (e_cond e) J = Some (VBool b) /\ evals_l false J (e_args e) <> None)
                     (instances I (e_vars e)).

  Definition cv (e : effect) : bool := holds false I (e_cond e).
  Definition the_sel : list bool := map cv (cond_effs (a_effs a)).

  Lemma sel_pre_holds ces : Forall cond_ok ces -> forall sel, length sel = length ces ->
    (all_hold false I (sel_pre ces sel) = true <-> sel = map cv ces).
  Proof.
    induction 1 as [|e ces He _ IH]; intros sel Hl.
    - destruct sel; [|discriminate]. simpl. tauto.
    - destruct sel as [|b sel]; [discriminate|]. simpl in Hl. injection Hl as Hl.
      destruct He as [b0 [He _]].
      change (all_hold false I (sel_pre (e :: ces) (b :: sel)))
        with (holds false I (if b then e_cond e else mkNot (e_cond e)) && all_hold false I (sel_pre ces sel)).
      rewrite andb_true_iff, (IH sel Hl). simpl map.
      assert (Hcv : cv e = b0) by (unfold cv; apply holds_bool; auto). rewrite Hcv.
      destruct b.
      + rewrite (holds_bool _ _ _ _ He). split.
        * intros [H1 H2]. congruence.
        * intros H. injection H as H1 H2. auto.
      + rewrite (holds_mkNot _ _ _ He). split.
        * intros [H1 H2]. destruct b0; [discriminate|]. congruence.
        * intros H. injection H as H1 H2. rewrite <- H1. auto.
  Qed.

  Lemma piece_selected e : cond_ok e -> cv e = true -> piece I (strip_cond e) = piece I e.
  Proof.
    intros [b [Hb Hall]] Hc. unfold cv in Hc. rewrite (holds_bool _ _ _ _ Hb) in Hc. subst b.
    unfold piece. simpl. apply map_ext_in. intros J HJ.
    rewrite Forall_forall in Hall. destruct (Hall J HJ) as [H1 _].
    unfold strip_cond. rewrite (eval_effect_true J e (EBool true)) by reflexivity.
    rewrite <- (set_cond_id e) at 2. rewrite (eval_effect_true J e (e_cond e) H1). reflexivity.
  Qed.

  Lemma piece_unselected e : cond_ok e -> cv e = false -> esim (piece I e) [].
  Proof.
    intros [b [Hb Hall]] Hc. unfold cv in Hc. rewrite (holds_bool _ _ _ _ Hb) in Hc. subst b.
    apply esim_skips. unfold piece. apply Forall_forall. intros r Hr. apply in_map_iff in Hr.
    destruct Hr as [J [Hr HJ]]. rewrite Forall_forall in Hall. destruct (Hall J HJ) as [H1 H2].
    rewrite <- Hr, <- (set_cond_id e). apply eval_effect_false; auto.
  Qed.

  Lemma piece_sel e : cond_ok e -> esim (piece I e) (eres_of I (if cv e then [strip_cond e] else [])).
  Proof.
    intros He. destruct (cv e) eqn:Hc; [|apply piece_unselected; assumption].
    rewrite eres_of_one, piece_selected by assumption. apply esim_refl.
  Qed.

  Lemma ce_eres effs : Forall cond_ok (cond_effs effs) ->
    esim (eres_of I effs) (eres_of I (uncond_effs effs ++ sel_effs (cond_effs effs) (map cv (cond_effs effs)))).
  Proof.
    intros Hok. rewrite eres_of_app, sel_effs_map, eres_of_flat_map.
    eapply esim_trans; [apply (esim_partition I is_uncond)|]. apply esim_app; [apply esim_refl|].
    unfold eres_of at 1. apply esim_flat_map. intros e He. apply piece_sel. rewrite Forall_forall in Hok. apply Hok, He.
  Qed.

  Hypothesis Hok : Forall cond_ok (cond_effs (a_effs a)).

  Lemma ce_sel_length sel : In sel (ce_sels a) -> length sel = length (cond_effs (a_effs a)).
  Proof.
    unfold ce_sels. generalize (length (cond_effs (a_effs a))). intros n. revert sel.
    induction n as [|n IH]; intros sel H; simpl in H.
    - destruct H as [H|[]]. subst. reflexivity.
    - apply in_app_iff in H. destruct H as [H|H]; apply in_map_iff in H; destruct H as [x [Hx Hin]]; subst;
        simpl; f_equal; apply IH; auto.
  Qed.

  Lemma all_sels_complete n : forall sel, length sel = n -> In sel (all_sels n).
  Proof.
    induction n as [|n IH]; intros sel H.
    - destruct sel; [left; auto | discriminate].
    - destruct sel as [|b sel]; [discriminate|]. injection H as H. simpl. apply in_app_iff.
      destruct b; [right | left]; apply in_map; apply IH; auto.
  Qed.
  Lemma nodup_map_inj {A B} (f : A -> B) l : (forall x y, f x = f y -> x = y) -> NoDup l -> NoDup (map f l).
  Proof.
    intros Hf H. induction H; simpl; constructor; auto.
    rewrite in_map_iff. intros [y [Hy Hin]]. apply Hf in Hy. subst. auto.
  Qed.
  Lemma all_sels_nodup n : NoDup (all_sels n).
  Proof.
    induction n as [|n IH]; simpl; [repeat constructor; auto|].
    apply NoDup_app_iff. split; [|split].
    - apply nodup_map_inj; auto. intros x y H; injection H; auto.
    - apply nodup_map_inj; auto. intros x y H; injection H; auto.
    - intros x H1 H2. apply in_map_iff in H1. apply in_map_iff in H2.
      destruct H1 as [y [Hy _]], H2 as [z [Hz _]]. subst. discriminate.
  Qed.

  Lemma the_sel_in : In the_sel (ce_sels a).
  Proof. apply all_sels_complete. unfold the_sel. apply map_length. Qed.

  Lemma ce_the_variant_step :
    ostate_eq (spec_step false P s (ce_variant a the_sel) args) (spec_step false P s a args).
  Proof.
    apply esim_step; [reflexivity | | apply esim_sym, ce_eres, Hok].
    cbn [ce_variant a_pre]. fold I. rewrite all_hold_app.
    rewrite (proj2 (sel_pre_holds _ Hok the_sel (map_length _ _)) eq_refl). apply andb_true_r.
  Qed.

  Lemma ce_applicable_sel sel :
    In sel (ce_sels a) -> applicable P s (ce_variant a sel) args = true -> sel = the_sel.
  Proof.
    intros Hin Happ. rewrite applicable_unfold in Happ. cbn [ce_variant a_params a_pre] in Happ. fold I in Happ.
    rewrite all_hold_app in Happ. apply andb_true_iff in Happ. destruct Happ as [Happ _].
    apply andb_true_iff in Happ. destruct Happ as [_ E].
    apply sel_pre_holds in E; auto. apply ce_sel_length; auto.
  Qed.

  Lemma ostate_eq_is_some (x y : option state) : ostate_eq x y -> is_some x = is_some y.
  Proof. destruct x, y; simpl; tauto. Qed.

  Lemma ce_the_variant_applicable :
    applicable P s (ce_variant a the_sel) args = applicable P s a args.
  Proof. unfold applicable. apply ostate_eq_is_some. apply ce_the_variant_step. Qed.

  Theorem ce_variant_same_successor sel :
    In sel (ce_sels a) -> applicable P s (ce_variant a sel) args = true ->
    ostate_eq (spec_step false P s (ce_variant a sel) args) (spec_step false P s a args).
  Proof. intros Hin Happ. rewrite (ce_applicable_sel sel Hin Happ). apply ce_the_variant_step. Qed.

  Theorem ce_applicable_iff_some_variant :
    applicable P s a args = true <->
    exists sel, In sel (ce_sels a) /\ applicable P s (ce_variant a sel) args = true.
  Proof.
    split.
    - intros H. exists the_sel. split; [apply the_sel_in | rewrite ce_the_variant_applicable; auto].
    - intros [sel [Hin Happ]]. rewrite <- ce_the_variant_applicable, <- (ce_applicable_sel sel Hin Happ). auto.
  Qed.

  Lemma filter_unique {A} (f : A -> bool) (l : list A) (x : A) :
    NoDup l -> In x l -> f x = true -> (forall y, In y l -> f y = true -> y = x) -> filter f l = [x].
  Proof.
    induction l as [|z l IH]; intros Hnd Hin Hfx Hu; [destruct Hin|].
    inversion Hnd as [|? ? Hnz Hnd']; subst. simpl.
    destruct Hin as [Hin|Hin].
    - subst z. rewrite Hfx. f_equal.
      assert (Hnone : forall y, In y l -> f y = false).
      { intros y Hy. destruct (f y) eqn:E; auto. exfalso. apply Hnz. rewrite <- (Hu y (or_intror Hy) E). auto. }
      clear -Hnone. induction l as [|y l IH]; auto. simpl. rewrite (Hnone y (or_introl eq_refl)).
      apply IH. intros w Hw. apply Hnone. right; auto.
    - destruct (f z) eqn:E.
      + exfalso. apply Hnz. rewrite (Hu z (or_introl eq_refl) E). auto.
      + apply IH; auto. intros y Hy. apply Hu. right; auto.
  Qed.

  Theorem ce_exactly_one_variant :
    applicable P s a args = true ->
    filter (fun v => applicable P s v args) (ce_variants a) = [ce_variant a the_sel].
  Proof.
    intros Happ. unfold ce_variants. rewrite filter_map_swap.
    rewrite (filter_unique _ (ce_sels a) the_sel); auto.
    - apply all_sels_nodup.
    - apply the_sel_in.
    - rewrite ce_the_variant_applicable; auto.
    - intros y Hy Hay. apply ce_applicable_sel; auto.
  Qed.

  Theorem ce_no_variant_when_inapplicable :
    applicable P s a args = false -> filter (fun v => applicable P s v args) (ce_variants a) = [].
  Proof.
    intros Happ. unfold ce_variants. rewrite filter_map_swap. rewrite filter_nil; auto.
    intros sel Hin. destruct (applicable P s (ce_variant a sel) args) eqn:E; auto.
    rewrite (ce_applicable_sel sel Hin E), ce_the_variant_applicable in E. congruence.
  Qed.
End CE.

Section CE_kept.
  Variable P : problem.
  Variable s : state.
  Variable a : action.
  Variable args : list value.
  Hypothesis Hok : Forall (cond_ok P s a args) (cond_effs (a_effs a)).

  (* `if len(new_action.effects) > 0`: the variant selected in a state is dropped for having no effect only where the
     original step changes nothing *)
  Theorem ce_dropped_empty_is_noop :
    a_effs (ce_variant a (the_sel P s a args)) = [] ->
    forall t, spec_step false P s a args = Some t -> state_eq t s.
  Proof.
    intros Hnil t. apply nothing_fires_noop.
    pose proof (ce_eres P s a args (a_effs a) Hok) as H.
    change (uncond_effs (a_effs a) ++ _) with (a_effs (ce_variant a (the_sel P s a args))) in H. rewrite Hnil in H. exact H.
  Qed.

  (* the kept variants: at most one is applicable; exactly one wherever the original is applicable, its selection
     is not dropped *)
  Theorem ce_kept_exactly_one :
    applicable P s a args = true -> ce_kept a (the_sel P s a args) = true ->
    filter (fun v => applicable P s v args) (ce_kept_variants a) = [ce_variant a (the_sel P s a args)].
  Proof.
    intros Happ Hk. unfold ce_kept_variants, ce_kept_sels. rewrite filter_map_swap.
    rewrite (filter_unique _ _ (the_sel P s a args)); auto.
    - apply NoDup_filter. apply all_sels_nodup.
    - apply filter_In. split; auto. apply the_sel_in.
    - rewrite ce_the_variant_applicable; auto.
    - intros y Hy Hay. apply filter_In in Hy. apply ce_applicable_sel; tauto.
  Qed.

  Theorem ce_kept_none_when_dropped :
    ce_kept a (the_sel P s a args) = false ->
    filter (fun v => applicable P s v args) (ce_kept_variants a) = [].
  Proof.
    intros Hk. unfold ce_kept_variants, ce_kept_sels. rewrite filter_map_swap. rewrite filter_nil; auto.
    intros sel Hin. apply filter_In in Hin. destruct Hin as [Hin Hkept].
    destruct (applicable P s (ce_variant a sel) args) eqn:E; auto.
    rewrite (ce_applicable_sel P s a args Hok sel Hin E) in Hkept. congruence.
  Qed.
End CE_kept.

Lemma in_acts_of a L : In a (acts_of L) <-> In (EAct a) L.
Proof.
  unfold acts_of. rewrite in_flat_map. split.
  - intros [r [Hr Ha]]. destruct r; simpl in Ha; try tauto. destruct Ha as [Ha|[]]. subst. auto.
  - intros H. exists (EAct a). split; auto. left; auto.
Qed.
Lemma has_err_in L : has_err L = true <-> In EErr L.
Proof.
  unfold has_err. rewrite existsb_exists. split.
  - intros [r [Hr He]]. destruct r; try discriminate. auto.
  - intros H. exists EErr. auto.
Qed.

(* two result lists whose actions are all assignments are similar as soon as they agree as sets *)
Lemma esim_assign_sets L L' :
  (forall x, In (EAct x) L -> is_assign x = true) -> (forall x, In (EAct x) L' -> is_assign x = true) ->
  (In EErr L <-> In EErr L') -> (forall x, In (EAct x) L <-> In (EAct x) L') -> esim L L'.
Proof.
  intros HA HA' HE HX. split; [|split].
  - apply eq_true_iff_eq. rewrite !has_err_in. auto.
  - intros x _. rewrite !in_acts_of. auto.
  - assert (Hn : forall M, (forall x, In (EAct x) M -> is_assign x = true) -> filter nasg (acts_of M) = []).
    { intros M HM. apply filter_nil. intros x Hx. apply in_acts_of in Hx. unfold nasg. rewrite (HM x Hx). auto. }
    rewrite (Hn L HA), (Hn L' HA'). constructor.
Qed.

(* copies of a result list, one per element of [ds], each keeping the results its element selects: similar to the single
   list that keeps a result when some element selects it, if multiplicity does not matter (assignments) or there is at
   most one copy *)
Lemma esim_copies {A B} (Js : list A) (ds : list B) (p : A -> B -> bool) (r : A -> eres) :
  (forall J x, r J = EAct x -> is_assign x = true) \/ (length ds <= 1)%nat ->
  esim (map (fun J => if existsb (p J) ds then r J else ESkip) Js)
       (flat_map (fun d => map (fun J => if p J d then r J else ESkip) Js) ds).
Proof.
  intros [Hk|Hlen].
  - assert (Hmem : forall x, x <> ESkip ->
              (In x (map (fun J => if existsb (p J) ds then r J else ESkip) Js) <->
               In x (flat_map (fun d => map (fun J => if p J d then r J else ESkip) Js) ds))).
    { intros x Hx. rewrite in_map_iff, in_flat_map. split.
      - intros [J [E HJ]]. destruct (existsb (p J) ds) eqn:Ex; [|congruence].
        apply existsb_exists in Ex. destruct Ex as [d [Hd Hp]].
        exists d. split; [exact Hd|]. apply in_map_iff. exists J. rewrite Hp. split; assumption.
      - intros [d [Hd Hx']]. apply in_map_iff in Hx'. destruct Hx' as [J [E HJ]]. destruct (p J d) eqn:Hp; [|congruence].
        exists J. split; [|exact HJ]. replace (existsb (p J) ds) with true; [exact E|].
        symmetry. apply existsb_exists. eauto. }
    apply esim_assign_sets.
    + intros x Hx. apply in_map_iff in Hx. destruct Hx as [J [E _]].
      destruct (existsb (p J) ds); [eapply Hk; exact E | discriminate].
    + intros x Hx. apply in_flat_map in Hx. destruct Hx as [d [_ Hx]]. apply in_map_iff in Hx. destruct Hx as [J [E _]].
      destruct (p J d); [eapply Hk; exact E | discriminate].
    + apply Hmem. discriminate.
    + intros x. apply Hmem. discriminate.
  - destruct ds as [|d [|d2 ds]]; [| |simpl in Hlen; lia]; cbn [flat_map existsb].
    + apply esim_skips. apply Forall_forall. intros x Hx. apply in_map_iff in Hx. destruct Hx as [J [<- _]]. reflexivity.
    + rewrite app_nil_r, (map_ext _ (fun J => if p J d then r J else ESkip)); [apply esim_refl|].
      intros J. rewrite orb_false_r. reflexivity.
Qed.

Section DNF.
  Variable cdnf : expr -> list expr.
  Variable P : problem.
  Variable s : state.
  Variable a : action.
  Variable args : list value.
  Let I := mk_interp P s (zip_params (a_params a) args).

  (* HYPOTHESES per conditional effect and instance of its forall variables: target arguments defined, the condition
     and each supplied disjunct evaluate to Booleans, and "some disjunct holds iff the condition holds"
     (the DNF equivalence, proved for the walker in C12 and validated per instance by the harness) *)
  Definition dnf_cond_ok (J : interp) (e : effect) : Prop :=
    evals_l false J (e_args e) <> None /\
    (exists b, eval false (e_cond e) J = Some (VBool b)) /\
    (forall d, In d (cdnf (e_cond e)) -> exists bd, eval false d J = Some (VBool bd)) /\
    holds false J (e_cond e) = existsb (holds false J) (cdnf (e_cond e)).

  (* an effect split into several copies must be an assignment (the copies of an increase would add up:
     known finding C06-dcr-increase-per-disjunct, see dnf_increase_split_refuted in Props/C37.v) *)
  Definition split_ok (e : effect) : Prop :=
    is_kassign e = true \/ (length (cdnf (e_cond e)) <= 1)%nat.

  Definition dnf_effect_ok (e : effect) : Prop :=
    split_ok e /\ Forall (fun J => dnf_cond_ok J e) (instances I (e_vars e)).

  Lemma fire_assign J e x : is_kassign e = true -> fire J e = EAct x -> is_assign x = true.
  Proof.
    unfold fire, is_kassign, is_assign. intros Hk H.
    destruct (evals_l false J (e_args e)); [|discriminate]. destruct (eval false (e_val e) J); [|discriminate].
    inversion H; subst. simpl. exact Hk.
  Qed.

  Lemma result_cases J e c b : evals_l false J (e_args e) <> None -> eval false c J = Some (VBool b) ->
    eval_effect false J (set_cond e c) = if b then fire J e else ESkip.
  Proof. intros Ha Hc. destruct b; [apply eval_effect_true | apply eval_effect_false]; auto. Qed.

  Lemma split_results J e : dnf_cond_ok J e ->
    eval_effect false J e = (if existsb (holds false J) (cdnf (e_cond e)) then fire J e else ESkip) /\
    forall d, In d (cdnf (e_cond e)) -> eval_effect false J (set_cond e d) = if holds false J d then fire J e else ESkip.
  Proof.
    intros (Ha & [b Hb] & Hds & Heq). split.
    - rewrite <- Heq, <- (set_cond_id e) at 1.
      rewrite (result_cases J e (e_cond e) b Ha Hb), (holds_bool _ _ _ _ Hb). reflexivity.
    - intros d Hd. destruct (Hds d Hd) as [bd Hbd]. rewrite (result_cases J e d bd Ha Hbd), (holds_bool _ _ _ _ Hbd). reflexivity.
  Qed.

  Lemma piece_split e : dnf_effect_ok e -> esim (piece I e) (eres_of I (split_effect cdnf e)).
  Proof.
    intros [Hsplit Hall]. unfold split_effect. destruct (is_uncond e) eqn:Hu.
    { rewrite eres_of_one. apply esim_refl. }
    rewrite Forall_forall in Hall.
    assert (E1 : piece I e = map (fun J => if existsb (holds false J) (cdnf (e_cond e)) then fire J e else ESkip)
                                 (instances I (e_vars e))).
    { apply map_ext_in. intros J HJ. apply (split_results J e (Hall J HJ)). }
    assert (E2 : eres_of I (map (set_cond e) (cdnf (e_cond e))) =
                 flat_map (fun d => map (fun J => if holds false J d then fire J e else ESkip) (instances I (e_vars e)))
                          (cdnf (e_cond e))).
    { unfold eres_of. rewrite flat_map_map. apply flat_map_ext_in. intros d Hd. apply map_ext_in. intros J HJ.
      apply (split_results J e (Hall J HJ)), Hd. }
    rewrite E1, E2. apply (esim_copies _ _ (fun J d => holds false J d) (fun J => fire J e)).
    destruct Hsplit as [Hk|Hlen]; [left | right; exact Hlen]. intros J x. apply fire_assign. exact Hk.
  Qed.

  Hypothesis Heffs : Forall dnf_effect_ok (a_effs a).

  Lemma dnf_eres : esim (eres_of I (a_effs a)) (eres_of I (flat_map (split_effect cdnf) (a_effs a))).
  Proof.
    rewrite eres_of_flat_map. apply esim_flat_map. intros e He. apply piece_split.
    rewrite Forall_forall in Heffs. apply Heffs, He.
  Qed.

  Lemma dnf_variant_applicable d :
    applicable P s (dnf_variant cdnf a d) args =
    all_hold false I d && is_some (finish_step P s (eres_of I (a_effs a))).
  Proof.
    rewrite applicable_unfold. cbn [dnf_variant a_params a_pre a_effs]. fold I. f_equal.
    apply ostate_eq_is_some, esim_finish, esim_sym, dnf_eres.
  Qed.

  Theorem dnf_variant_same_successor d :
    (all_hold false I d = true -> all_hold false I (a_pre a) = true) ->
    applicable P s (dnf_variant cdnf a d) args = true ->
    ostate_eq (spec_step false P s (dnf_variant cdnf a d) args) (spec_step false P s a args).
  Proof.
    intros Hd Happ. rewrite dnf_variant_applicable in Happ. apply andb_true_iff in Happ. destruct Happ as [E _].
    apply esim_step; [reflexivity | | apply esim_sym, dnf_eres].
    cbn [dnf_variant a_pre]. fold I. rewrite E, (Hd E). reflexivity.
  Qed.

  (* original applicable <=> some variant applicable, given "some disjunct holds <=> the precondition holds" *)
  Theorem dnf_applicable_iff_some_variant pre_dnf :
    existsb (all_hold false I) pre_dnf = all_hold false I (a_pre a) ->
    (applicable P s a args = true <->
     exists d, In d pre_dnf /\ applicable P s (dnf_variant cdnf a d) args = true).
  Proof.
    intros Hdnf. rewrite applicable_unfold. fold I. rewrite <- Hdnf. split.
    - intros H. apply andb_true_iff in H. destruct H as [H1 H2]. apply existsb_exists in H1.
      destruct H1 as [d [Hin Hd]]. exists d. split; auto. rewrite dnf_variant_applicable, Hd, H2. auto.
    - intros [d [Hin Hd]]. rewrite dnf_variant_applicable in Hd. apply andb_true_iff in Hd. destruct Hd as [H1 H2].
      rewrite H2, andb_true_r. apply existsb_exists. eauto.
  Qed.

  (* `if len(new_action.effects) == 0: return None`: a dropped variant could only have taken a step that changes
     nothing *)
  Theorem dnf_dropped_empty_is_noop :
    flat_map (split_effect cdnf) (a_effs a) = [] ->
    forall t, spec_step false P s a args = Some t -> state_eq t s.
  Proof.
    intros Hnil t. apply nothing_fires_noop. pose proof dnf_eres as H. rewrite Hnil in H. exact H.
  Qed.
End DNF.

Section Goals.
  Variable P : problem.
  Variable s : state.
  Let I0 := mk_interp P s [].

  (* the state after a fake-goal achiever: only the fake fluent changes, to true *)
  Definition set_true (fk : N) : state :=
    fun f x => if gfl_eqb (f, x) (fk, []) then Some (VBool true) else s f x.

  Lemma fake_eres fk :
    eval_effect false I0 (fake_effect fk) = EAct {| ae_key := (fk, []); ae_kind := KAssign; ae_val := VBool true |}.
  Proof. reflexivity. Qed.

  Lemma fake_succ fk :
    state_eq (spec_succ P s [{| ae_key := (fk, []); ae_kind := KAssign; ae_val := VBool true |}]) (set_true fk).
  Proof.
    intros f x. unfold spec_succ, spec_fluent, set_true, avals, deltas. simpl.
    rewrite (gfl_eqb_sym (fk, []) (f, x)).
    destruct (gfl_eqb (f, x) (fk, [])); simpl; [|reflexivity].
    destruct (is_bool_fluent P f); reflexivity.
  Qed.

  Lemma fake_effects_ok fk :
    spec_effects_ok P s [{| ae_key := (fk, []); ae_kind := KAssign; ae_val := VBool true |}] = true.
  Proof.
    unfold spec_effects_ok, spec_fluent, avals, deltas. simpl. rewrite gfl_eqb_refl. simpl.
    destruct (is_bool_fluent P fk); reflexivity.
  Qed.

  (* an achiever is applicable exactly where its disjunct holds (and the invariants survive); it makes the fake
     goal fluent true and changes nothing else *)
  Theorem fake_action_step fk d :
    ostate_eq (spec_step false P s (fake_action fk d) [])
              (if all_hold false I0 d && invariants_ok false P (set_true fk) then Some (set_true fk) else None).
  Proof.
    rewrite spec_step_unfold. cbv zeta. simpl a_params. simpl a_pre. simpl a_effs. simpl zip_params. fold I0.
    destruct (all_hold false I0 d); simpl; auto.
    rewrite fake_eres. unfold finish_step. cbn [collect_res]. rewrite fake_effects_ok. cbn [negb].
    rewrite (invariants_ok_ext false P _ _ (fake_succ fk)).
    destruct (invariants_ok false P (set_true fk)); simpl; auto. apply fake_succ.
  Qed.

  Lemma set_true_goal fk : holds false (mk_interp P (set_true fk) []) (EFluent fk []) = true.
  Proof. unfold holds. rewrite eval_EFluent. simpl. unfold set_true. rewrite gfl_eqb_refl. reflexivity. Qed.

  (* how each original goal was compiled, and what must hold of the supplied DNF (validated per instance):
     a goal kept as an expression is equivalent to the original; the disjuncts of a fake goal cover the original *)
  Definition cgoal_ok (g : expr) (c : cgoal) : Prop :=
    match c with
    | CDirect g' => holds false I0 g' = holds false I0 g
    | CFake fk ds => existsb (all_hold false I0) ds = holds false I0 g
    end.

  (* the compiled goal is met in s (direct) or can be met from s by one achiever (fake) *)
  Definition cgoal_sat (c : cgoal) : bool :=
    match c with
    | CDirect g' => holds false I0 g'
    | CFake fk ds => existsb (fun d => all_hold false I0 d) ds
    end.

  Theorem goals_equiv gs cs : Forall2 cgoal_ok gs cs -> all_hold false I0 gs = forallb cgoal_sat cs.
  Proof.
    induction 1 as [|g c gs cs Hgc _ IH]; [reflexivity|].
    change (all_hold false I0 (g :: gs)) with (holds false I0 g && all_hold false I0 gs).
    simpl forallb. rewrite IH. f_equal. destruct c; simpl in *; auto.
  Qed.

  (* a fake goal: the original goal holds iff some achiever's disjunct holds; that achiever (if the invariants
     survive) leads to a state that satisfies the compiled goal and differs from s only on the fake fluent *)
  Theorem fake_goal_achievable g fk ds :
    cgoal_ok g (CFake fk ds) ->
    (holds false I0 g = true <-> exists d, In d ds /\ all_hold false I0 d = true).
  Proof. simpl. intros H. rewrite <- H, existsb_exists. tauto. Qed.
End Goals.

Definition relevant (e : effect) : bool := is_uncond e && negb (e_isbool e).

Lemma lexpr_eqb_eq (l l' : list expr) : list_expr_eqb l l' = true <-> l = l'.
Proof. apply list_expr_eqb_eq. apply Forall_forall. intros x _. apply expr_eqb_eq. Qed.

Lemma tgt_eqb_eq x y : tgt_eqb x y = true <-> x = y.
Proof.
  destruct x as [f a], y as [g b]. unfold tgt_eqb. simpl. rewrite andb_true_iff, N.eqb_eq, lexpr_eqb_eq.
  split; [intros [H1 H2]; congruence | intros H; inversion H; auto].
Qed.

(* what UPConflictingEffectsException means: two unconditional effects on a non-Boolean fluent with the same
   (syntactic) target: two assignments of different value expressions, or an assignment and an increase/decrease *)
Definition conflict_pair (e1 e2 : effect) : Prop :=
  relevant e1 = true /\ relevant e2 = true /\ e_tgt e1 = e_tgt e2 /\
  ((is_kassign e1 = true /\ is_kassign e2 = true /\ same_value (e_val e1) (e_val e2) = false) \/
   (is_kassign e1 = true /\ is_kassign e2 = false) \/ (is_kassign e1 = false /\ is_kassign e2 = true)).

Definition fa_ok (fa : list (tgt * expr)) (seen : list effect) : Prop :=
  forall t v, fa_lookup t fa = Some v ->
    exists e1, In e1 seen /\ relevant e1 = true /\ is_kassign e1 = true /\ e_tgt e1 = t /\ e_val e1 = v.
Definition fid_ok (fid : list tgt) (seen : list effect) : Prop :=
  forall t, existsb (tgt_eqb t) fid = true ->
    exists e1, In e1 seen /\ relevant e1 = true /\ is_kassign e1 = false /\ e_tgt e1 = t.

Lemma fa_ok_mono fa seen e : fa_ok fa seen -> fa_ok fa (seen ++ [e]).
Proof. intros H t v Hl. destruct (H t v Hl) as [e1 [Hin Hr]]. exists e1. split; [apply in_or_app; auto | auto]. Qed.
Lemma fid_ok_mono fid seen e : fid_ok fid seen -> fid_ok fid (seen ++ [e]).
Proof. intros H t Hl. destruct (H t Hl) as [e1 [Hin Hr]]. exists e1. split; [apply in_or_app; auto | auto]. Qed.

Lemma add_effs_conflict es : forall fa fid seen, fa_ok fa seen -> fid_ok fid seen ->
  add_effs_ok fa fid es = false ->
  exists e1 e2, In e1 (seen ++ es) /\ In e2 es /\ conflict_pair e1 e2.
Proof.
  induction es as [|e es IH]; intros fa fid seen Hfa Hfid H; [discriminate|].
  assert (Hrec : forall fa' fid', fa_ok fa' (seen ++ [e]) -> fid_ok fid' (seen ++ [e]) ->
            add_effs_ok fa' fid' es = false ->
            exists e1 e2, In e1 (seen ++ e :: es) /\ In e2 (e :: es) /\ conflict_pair e1 e2).
  { intros fa' fid' H1 H2 H3. destruct (IH fa' fid' (seen ++ [e]) H1 H2 H3) as [e1 [e2 [Hi1 [Hi2 Hc]]]].
    exists e1, e2. rewrite <- app_assoc in Hi1. simpl in Hi1. split; auto. split; [right; auto | auto]. }
  simpl in H. fold (relevant e) in H.
  destruct (relevant e) eqn:Hrel.
  - destruct (is_kassign e) eqn:Hk.
    + destruct (existsb (tgt_eqb (e_tgt e)) fid) eqn:Hfid'.
      * destruct (Hfid _ Hfid') as [e1 [Hin [Hr [Hk1 Ht]]]].
        exists e1, e. split; [apply in_or_app; auto|]. split; [left; auto|].
        repeat split; auto.
      * destruct (fa_lookup (e_tgt e) fa) as [v|] eqn:Hl.
        -- destruct (same_value v (e_val e)) eqn:Hsv.
           ++ apply (Hrec fa fid); auto using fa_ok_mono, fid_ok_mono.
           ++ destruct (Hfa _ _ Hl) as [e1 [Hin [Hr [Hk1 [Ht Hv]]]]].
              exists e1, e. split; [apply in_or_app; auto|]. split; [left; auto|].
              repeat split; auto. left. subst v. auto.
        -- apply (Hrec ((e_tgt e, e_val e) :: fa) fid); auto using fid_ok_mono.
           intros t v Hl'. simpl in Hl'. destruct (tgt_eqb t (e_tgt e)) eqn:Ht.
           ++ inversion Hl'; subst. apply tgt_eqb_eq in Ht. exists e. split; [apply in_or_app; right; left; auto|].
              repeat split; auto.
           ++ exact (fa_ok_mono fa seen e Hfa t v Hl').
    + destruct (fa_lookup (e_tgt e) fa) as [v|] eqn:Hl.
      * destruct (Hfa _ _ Hl) as [e1 [Hin [Hr [Hk1 [Ht Hv]]]]].
        exists e1, e. split; [apply in_or_app; auto|]. split; [left; auto|]. repeat split; auto.
      * apply (Hrec fa (e_tgt e :: fid)); auto using fa_ok_mono.
        intros t Hl'. simpl in Hl'. apply orb_true_iff in Hl'. destruct Hl' as [Ht|Ht].
        -- apply tgt_eqb_eq in Ht. exists e. split; [apply in_or_app; right; left; auto|]. repeat split; auto.
        -- exact (fid_ok_mono fid seen e Hfid t Ht).
  - apply (Hrec fa fid); auto using fa_ok_mono, fid_ok_mono.
Qed.

Lemma assign_clash P s acts x1 x2 :
  In x1 acts -> In x2 acts -> ae_key x2 = ae_key x1 -> is_bool_fluent P (fst (ae_key x1)) = false ->
  is_assign x1 = true -> (is_assign x2 = true -> ae_val x1 <> ae_val x2) ->
  spec_fluent P s acts (ae_key x1) = CFail.
Proof.
  intros H1 H2 Hk Hnb Ha1 Hv. unfold spec_fluent. rewrite Hnb.
  assert (A1 : In (ae_val x1) (avals (ae_key x1) acts)) by (apply in_avals; exists x1; rewrite gfl_eqb_refl; auto).
  destruct (avals (ae_key x1) acts) as [|a0 rest] eqn:EA; [destruct A1|].
  destruct (deltas (ae_key x1) acts) as [|d0 D] eqn:ED; [|reflexivity]. cbn [combine].
  destruct (forallb (value_eqb a0) rest) eqn:Eall; [exfalso|reflexivity].
  destruct (is_assign x2) eqn:Ha2.
  - assert (A2 : In (ae_val x2) (a0 :: rest))
      by (rewrite <- EA; apply in_avals; exists x2; rewrite Hk, gfl_eqb_refl; auto).
    apply (Hv eq_refl), (proj1 (all_same_iff a0 rest) Eall); assumption.
  - assert (Hi : In (delta_of x2) (deltas (ae_key x1) acts))
      by (unfold deltas; apply in_map, filter_In; split; [exact H2 | rewrite Hk, gfl_eqb_refl, Ha2; reflexivity]).
    rewrite ED in Hi. destruct Hi.
Qed.

Lemma fire_act J e : fire J e <> EErr ->
  exists vs v, evals_l false J (e_args e) = Some vs /\ eval false (e_val e) J = Some v /\
               fire J e = EAct {| ae_key := (e_fl e, vs); ae_kind := e_kind e; ae_val := v |}.
Proof.
  unfold fire. destruct (evals_l false J (e_args e)) as [vs|]; [|congruence].
  destruct (eval false (e_val e) J) as [v|]; [|congruence]. intros _. exists vs, v. repeat split.
Qed.

Section Conflict.
  Variable P : problem.
  Variable s : state.
  Variable a : action.
  Variable args : list value.
  Let I := mk_interp P s (zip_params (a_params a) args).

  Lemma piece_uncond_novars e : is_uncond e = true -> e_vars e = [] -> piece I e = [fire I e].
  Proof.
    intros Hu Hv. unfold piece. rewrite Hv. simpl. f_equal.
    rewrite <- (set_cond_id e) at 1. apply eval_effect_true. apply is_true_eq in Hu. rewrite Hu. reflexivity.
  Qed.

  Lemma fire_in e : In e (a_effs a) -> is_uncond e = true -> e_vars e = [] -> In (fire I e) (eres_of I (a_effs a)).
  Proof.
    intros Hin Hu Hv. unfold eres_of. apply in_flat_map. exists e. split; auto.
    change (In (fire I e) (piece I e)). rewrite piece_uncond_novars; auto. left; auto.
  Qed.

  (* two effects that conflict for check_conflicting_effects make the action inapplicable, provided: they have no
     forall variables, the target is not a Boolean fluent of the problem, and (two assignments) their values differ
     in the state whenever they differ as expressions *)
  Theorem conflict_inapplicable e1 e2 :
    In e1 (a_effs a) -> In e2 (a_effs a) -> conflict_pair e1 e2 ->
    e_vars e1 = [] -> e_vars e2 = [] -> is_bool_fluent P (e_fl e1) = false ->
    (is_kassign e1 = true -> is_kassign e2 = true ->
     forall v1 v2, eval false (e_val e1) I = Some v1 -> eval false (e_val e2) I = Some v2 -> v1 <> v2) ->
    spec_step false P s a args = None.
  Proof.
    intros Hin1 Hin2 [Hr1 [Hr2 [Htgt Hkinds]]] Hv1 Hv2 Hnb Hdiff.
    rewrite spec_step_unfold. cbv zeta. fold I. destruct (negb (all_hold false I (a_pre a))); [reflexivity|].
    unfold relevant in Hr1, Hr2. apply andb_true_iff in Hr1. apply andb_true_iff in Hr2.
    destruct Hr1 as [Hu1 _], Hr2 as [Hu2 _].
    pose proof (fire_in e1 Hin1 Hu1 Hv1) as F1. pose proof (fire_in e2 Hin2 Hu2 Hv2) as F2.
    unfold finish_step. rewrite collect_res_spec.
    destruct (has_err (eres_of I (a_effs a))) eqn:Herr; [reflexivity|].
    assert (Hne : forall e, In (fire I e) (eres_of I (a_effs a)) -> fire I e <> EErr).
    { intros e Hi He. rewrite He in Hi. apply has_err_in in Hi. congruence. }
    destruct (fire_act I e1 (Hne e1 F1)) as (vs & v1 & Ea1 & E1 & X1).
    destruct (fire_act I e2 (Hne e2 F2)) as (vs2 & v2 & Ea2 & E2 & X2).
    unfold e_tgt in Htgt. inversion Htgt as [[Hfl Hargs]]. rewrite <- Hargs, Ea1 in Ea2. inversion Ea2; subst vs2.
    rewrite <- Hfl in X2. rewrite X1 in F1. rewrite X2 in F2. apply in_acts_of in F1. apply in_acts_of in F2.
    set (acts := acts_of (eres_of I (a_effs a))) in *.
    set (x1 := {| ae_key := (e_fl e1, vs); ae_kind := e_kind e1; ae_val := v1 |}) in *.
    set (x2 := {| ae_key := (e_fl e1, vs); ae_kind := e_kind e2; ae_val := v2 |}) in *.
    assert (Hfail : spec_fluent P s acts (e_fl e1, vs) = CFail).
    { destruct Hkinds as [[Hk1 [Hk2 _]] | [[Hk1 Hk2] | [Hk1 Hk2]]].
      - apply (assign_clash P s acts x1 x2 F1 F2 eq_refl Hnb Hk1). intros _. apply Hdiff; assumption.
      - apply (assign_clash P s acts x1 x2 F1 F2 eq_refl Hnb Hk1). intros Hk. change (is_kassign e2 = true) in Hk. congruence.
      - apply (assign_clash P s acts x2 x1 F2 F1 eq_refl Hnb Hk2). intros Hk. change (is_kassign e1 = true) in Hk. congruence. }
    replace (spec_effects_ok P s acts) with false; [reflexivity|]. symmetry. unfold spec_effects_ok.
    apply not_true_is_false. intros E. rewrite forallb_forall in E. specialize (E x1 F1). cbn [x1 ae_key] in E.
    rewrite Hfail in E. discriminate.
  Qed.
End Conflict.

(* an action whose effects fail the syntactic conflict check is not applicable, under the hypotheses of
   [conflict_inapplicable] for its effects *)
Lemma conflicting_inapplicable P s v args :
  let I := mk_interp P s (zip_params (a_params v) args) in
  add_effs_ok [] [] (a_effs v) = false ->
  (forall e, In e (a_effs v) -> relevant e = true -> e_vars e = [] /\ is_bool_fluent P (e_fl e) = false) ->
  (forall e1 e2, In e1 (a_effs v) -> In e2 (a_effs v) -> same_value (e_val e1) (e_val e2) = false ->
     forall v1 v2, eval false (e_val e1) I = Some v1 -> eval false (e_val e2) I = Some v2 -> v1 <> v2) ->
  applicable P s v args = false.
Proof.
  intros I Hconf Hrel Hdiff.
  destruct (add_effs_conflict (a_effs v) [] [] []) as [e1 [e2 [Hi1 [Hi2 Hc]]]]; auto.
  { intros t x H. discriminate. }
  { intros t H. discriminate. }
  simpl in Hi1. pose proof Hc as [Hr1 [Hr2 [_ Hk]]].
  destruct (Hrel e1 Hi1 Hr1) as [Hv1 Hb1]. destruct (Hrel e2 Hi2 Hr2) as [Hv2 _].
  unfold applicable. rewrite (conflict_inapplicable P s v args e1 e2); auto.
  intros Hk1 Hk2. apply Hdiff; auto.
  destruct Hk as [[_ [_ H]] | [[_ H] | [H _]]]; auto; congruence.
Qed.

(* the selected variant dropped for a conflict: the original action is not applicable there (so nothing is lost),
   under the hypotheses of [conflict_inapplicable] for the effects of that variant *)
Theorem ce_conflict_drop_sound P s a args :
  Forall (cond_ok P s a args) (cond_effs (a_effs a)) ->
  let v := ce_variant a (the_sel P s a args) in
  let I := mk_interp P s (zip_params (a_params a) args) in
  add_effs_ok [] [] (a_effs v) = false ->
  (forall e, In e (a_effs v) -> relevant e = true -> e_vars e = [] /\ is_bool_fluent P (e_fl e) = false) ->
  (forall e1 e2, In e1 (a_effs v) -> In e2 (a_effs v) -> same_value (e_val e1) (e_val e2) = false ->
     forall v1 v2, eval false (e_val e1) I = Some v1 -> eval false (e_val e2) I = Some v2 -> v1 <> v2) ->
  applicable P s a args = false.
Proof.
  intros Hok v I Hconf Hrel Hdiff.
  rewrite <- (ce_the_variant_applicable P s a args Hok). exact (conflicting_inapplicable P s v args Hconf Hrel Hdiff).
Qed.

(* the same for a variant of the disjunctive splitting left out after UPConflictingEffectsException (a split effect
   whose condition simplified to TRUE): wherever its disjunct holds the original action is not applicable *)
Theorem dnf_conflict_drop_sound cdnf P s a args d :
  Forall (dnf_effect_ok cdnf P s a args) (a_effs a) ->
  let v := dnf_variant cdnf a d in
  let I := mk_interp P s (zip_params (a_params a) args) in
  add_effs_ok [] [] (a_effs v) = false ->
  (forall e, In e (a_effs v) -> relevant e = true -> e_vars e = [] /\ is_bool_fluent P (e_fl e) = false) ->
  (forall e1 e2, In e1 (a_effs v) -> In e2 (a_effs v) -> same_value (e_val e1) (e_val e2) = false ->
     forall v1 v2, eval false (e_val e1) I = Some v1 -> eval false (e_val e2) I = Some v2 -> v1 <> v2) ->
  all_hold false I d = true -> (all_hold false I d = true -> all_hold false I (a_pre a) = true) ->
  applicable P s a args = false.
Proof.
  intros Hok v I Hconf Hrel Hdiff Hd Hpre.
  pose proof (conflicting_inapplicable P s v args Hconf Hrel Hdiff) as Hv.
  unfold v in Hv. rewrite (dnf_variant_applicable cdnf P s a args Hok d) in Hv. fold I in Hv. rewrite Hd in Hv.
  rewrite applicable_unfold. fold I. rewrite (Hpre Hd). exact Hv.
Qed.

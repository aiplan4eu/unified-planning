(* Specifications of the steps of walk_exists and the invariant principle for its loop.  Free variables: substitution,
   the key lists of walk_and / walk_or, and the quantifier node functions introduce none (the theorem for the whole
   simplifier is simp_fv in Simplify_wfp.v). *)
From Coq Require Import List ZArith NArith QArith Qcanon Bool Lia.
Import ListNotations.
Require Import UPV.Core.Expr UPV.Core.Eval UPV.Proofs.Eval_lemmas UPV.Proofs.ExprView UPV.Walkers.Simplify UPV.Proofs.Simplify_base.
Local Open Scope nat_scope.

(* the tables only contain constants *)
Definition cfg_consts (G : cfg) : Prop :=
  (forall f a c, stat G f a = Some c -> is_const c = true) /\
  (forall f a c, itab G f a = Some c -> is_const c = true).

Lemma walkn_app_result G o l :
  cfg_consts G -> is_app o = true ->
  walkn G o l = En o l \/ is_const (walkn G o l) = true.
Proof.
  intros [HS HI]. destruct o; try discriminate; intros _; cbn [walkn En]; unfold walk_fluent, walk_ifun;
    (destruct (forallb is_const l); [|left; reflexivity]).
  - destruct (stat G f l) as [c|] eqn:E; [right; exact (HS _ _ _ E)|left; reflexivity].
  - destruct (itab G f l) as [c|] eqn:E; [right; exact (HI _ _ _ E)|left; reflexivity].
Qed.

Lemma elim_cand_spec G vs c x t :
  elim_cand G vs c = Some (x, t) ->
  exists ty, (c = EEquals (EVar x ty) t \/ c = EEquals t (EVar x ty)) /\ bound_in x vs = true /\
             memN x (free_vars t) = false /\ exists tv, user_type_of G t = Some tv /\ compat G ty tv = true.
Proof.
  unfold elim_cand. destruct c; try discriminate.
  destruct (is_bvar vs c1) eqn:B.
  - destruct c1; try discriminate.
    destruct (bound_in v vs && negb (memN v (free_vars c2)) &&
              match user_type_of G c2 with Some tv => compat G ty tv | None => false end) eqn:E; [|discriminate].
    intros H; inversion H; subst. apply andb_true_iff in E. destruct E as [E E3]. apply andb_true_iff in E.
    destruct E as [E1 E2]. apply negb_true_iff in E2.
    exists ty. split; [left; reflexivity|]. split; [exact E1|]. split; [exact E2|].
    destruct (user_type_of G t); [eauto|discriminate].
  - destruct c2; try discriminate.
    destruct (bound_in v vs && negb (memN v (free_vars c1)) &&
              match user_type_of G c1 with Some tv => compat G ty tv | None => false end) eqn:E; [|discriminate].
    intros H; inversion H; subst. apply andb_true_iff in E. destruct E as [E E3]. apply andb_true_iff in E.
    destruct E as [E1 E2]. apply negb_true_iff in E2.
    exists ty. split; [right; reflexivity|]. split; [exact E1|]. split; [exact E2|].
    destruct (user_type_of G t); [eauto|discriminate].
Qed.

Lemma find_elim_spec G vs l pre x t post :
  find_elim G vs l = Some (pre, (x, t), post) ->
  exists c, l = pre ++ c :: post /\ elim_cand G vs c = Some (x, t) /\
            Forall (fun d => elim_cand G vs d = None) pre.
Proof.
  revert pre post. induction l as [|c r IH]; intros pre post H; [discriminate|].
  cbn [find_elim] in H. destruct (elim_cand G vs c) as [xt|] eqn:E.
  - inversion H; subst. exists c. split; [reflexivity|]. split; [exact E| constructor].
  - destruct (find_elim G vs r) as [[[pre' xt'] post']|] eqn:F; [|discriminate].
    inversion H; subst. destruct (IH _ _ eq_refl) as [c' [-> [E' Hp]]].
    exists c'. split; [reflexivity|]. split; [exact E'| constructor; assumption].
Qed.

Lemma find_elim_none G vs l : find_elim G vs l = None -> Forall (fun d => elim_cand G vs d = None) l.
Proof.
  induction l as [|c r IH]; intros H; [constructor|].
  cbn [find_elim] in H. destruct (elim_cand G vs c) eqn:E; [discriminate|].
  destruct (find_elim G vs r) as [[[? ?] ?]|] eqn:F; [discriminate|]. constructor; auto.
Qed.

Lemma elim_step_spec G vs body vs' body' :
  elim_step G vs body = Some (vs', body') ->
  exists pre c post x t, body = EAnd (pre ++ c :: post) /\ elim_cand G vs c = Some (x, t) /\
    vs' = remove_var x vs /\ body' = subst x t (mkAnd (pre ++ post)).
Proof.
  unfold elim_step. destruct body; try discriminate.
  destruct (find_elim G vs l) as [[[pre [x t]] post]|] eqn:F; [|discriminate].
  intros H; inversion H; subst. destruct (find_elim_spec _ _ _ _ _ _ _ F) as [c [-> [E _]]].
  exists pre, c, post, x, t. auto.
Qed.

Lemma elim_loop_inv G (Q : list (N * N) -> expr -> Prop) :
  (forall vs b vs' b', elim_step G vs b = Some (vs', b') -> Q vs b -> Q vs' b') ->
  forall k vs b vs' b', elim_loop G k vs b = (vs', b') -> Q vs b -> Q vs' b'.
Proof.
  intros Hs. induction k as [|k IH]; intros vs b vs' b' H Q0; cbn [elim_loop] in H.
  - inversion H; subst. exact Q0.
  - destruct (elim_step G vs b) as [[vs1 b1]|] eqn:E.
    + exact (IH _ _ _ _ H (Hs _ _ _ _ E Q0)).
    + inversion H; subst. exact Q0.
Qed.

(* [Q] holds after pruning and is kept by every iteration; [T] follows from it for the rebuilt node, re-simplified or not *)
Lemma walk_exists_inv G (Q : list (N * N) -> expr -> Prop) (T : expr -> Prop) rs vs b :
  Q (prune G vs b) b ->
  (forall vs b vs' b', elim_step G vs b = Some (vs', b') -> Q vs b -> Q vs' b') ->
  (forall vs1 b1, Q vs1 b1 -> T (mkExists vs1 b1)) -> (forall vs1 b1, Q vs1 b1 -> T (rs (mkExists vs1 b1))) ->
  T (walk_exists G rs vs b).
Proof.
  intros Q0 Hs Hm Hr. unfold walk_exists. destruct (elim_step G (prune G vs b) b) as [p|] eqn:E; [|apply Hm, Q0].
  destruct (elim_loop G (length (prune G vs b)) (prune G vs b) b) as [vs1 b1] eqn:L.
  apply Hr. exact (elim_loop_inv G Q Hs _ _ _ _ _ L Q0).
Qed.

Lemma in_remove_var w x vs : In w (map fst (remove_var x vs)) -> In w (map fst vs).
Proof.
  induction vs as [|p r IH]; simpl; [tauto|].
  destruct (fst p =? x)%N; simpl; [tauto|]. intros [H|H]; auto.
Qed.

Lemma in_remove_var_neq w x vs : In w (map fst vs) -> w <> x -> In w (map fst (remove_var x vs)).
Proof.
  induction vs as [|p r IH]; simpl; [tauto|].
  destruct (fst p =? x)%N eqn:E; simpl.
  - apply N.eqb_eq in E. intros [H|H] Hn; [congruence|exact H].
  - intros [H|H] Hn; auto.
Qed.

Lemma length_remove_var x vs : bound_in x vs = true -> S (length (remove_var x vs)) = length vs.
Proof.
  rewrite bound_in_In. induction vs as [|p r IH]; simpl; [tauto|].
  destruct (fst p =? x)%N eqn:E; [reflexivity|].
  intros [H|H]; [apply N.eqb_neq in E; congruence|]. simpl. rewrite IH; auto.
Qed.

Lemma fv_subst x t e :
  forall w, In w (free_vars (subst x t e)) -> (In w (free_vars e) /\ w <> x) \/ In w (free_vars t).
Proof.
  induction e using expr_view_ind; intros w.
  - destruct e; try discriminate; cbn [subst free_vars]; try (intros []).
    destruct (v =? x)%N eqn:E; [tauto|]. apply N.eqb_neq in E. intros [->|[]]. left. split; [left; reflexivity|congruence].
  - rewrite subst_E1, fv_mk1, fv_E1. exact (IHe w).
  - rewrite subst_E2, !fv_E2, !in_app_iff. intros [Hw|Hw]; [destruct (IHe1 w Hw)|destruct (IHe2 w Hw)]; tauto.
  - rewrite subst_En, fv_mkn, fvl_En. fold (fvl (map (subst x t) l)). rewrite !in_fvl.
    intros [y [Hy Hw]]. apply in_map_iff in Hy. destruct Hy as [z [<- Hz]]. rewrite Forall_forall in H.
    destruct (H z Hz w Hw) as [[A B]|A]; [left; split; [eauto|exact B]|right; exact A].
  - rewrite subst_EQ. destruct (memN x (map fst vs)) eqn:B; rewrite !fv_EQ, !in_fv_quant.
    + apply memN_In in B. intros [Hw Hn]. left. split; [tauto|]. intros ->. tauto.
    + intros [Hw Hn]. destruct (IHe w Hw) as [[A C]|A]; tauto.
Qed.

(* walk_and / walk_or: the keys come from the arguments *)
Definition jitems (k : bool) (args : list expr) : list expr :=
  flat_map (fun a => match junct_args k a with Some ss => ss | None => [a] end) args.

Lemma in_add_key y s seen : In y (add_key s seen) -> In y seen \/ y = s.
Proof. unfold add_key. destruct (mem_expr s seen); [tauto|]. rewrite in_app_iff. simpl. intuition. Qed.

Lemma j_inner_sub ss : forall seen out, j_inner ss seen = Some out -> incl out (seen ++ ss).
Proof.
  induction ss as [|s ss IH]; intros seen out H; cbn [j_inner] in H.
  - inversion H; subst. rewrite app_nil_r. apply incl_refl.
  - destruct (mem_expr (walk_not s) seen); [discriminate|].
    intros y Hy. apply (IH _ _ H) in Hy. rewrite in_app_iff in *. simpl.
    destruct Hy as [Hy|Hy]; [|tauto]. apply in_add_key in Hy. intuition.
Qed.

Lemma j_outer_sub k args : forall seen out, j_outer k args seen = Some out -> incl out (seen ++ jitems k args).
Proof.
  induction args as [|a r IH]; intros seen out H; cbn [j_outer] in H.
  - inversion H; subst. cbn. rewrite app_nil_r. apply incl_refl.
  - cbn [jitems flat_map]. fold (jitems k r).
    destruct (is_unit k a).
    { intros y Hy. apply (IH _ _ H) in Hy. rewrite !in_app_iff in *. tauto. }
    destruct (is_zero k a); [discriminate|].
    destruct (junct_args k a) as [ss|] eqn:J.
    + destruct (j_inner ss seen) as [seen'|] eqn:I; [|discriminate].
      intros y Hy. apply (IH _ _ H) in Hy. rewrite !in_app_iff in *.
      destruct Hy as [Hy|Hy]; [|tauto]. apply (j_inner_sub _ _ _ I) in Hy. rewrite in_app_iff in Hy. tauto.
    + destruct (mem_expr (walk_not a) seen); [discriminate|].
      intros y Hy. apply (IH _ _ H) in Hy. rewrite !in_app_iff in *. simpl.
      destruct Hy as [Hy|Hy]; [|tauto]. apply in_add_key in Hy. intuition.
Qed.

Lemma fv_prune G vs b : incl (free_vars (EExists (prune G vs b) b)) (free_vars (EExists vs b)).
Proof.
  intros w. cbn [free_vars]. rewrite !in_fv_quant. intros [Hw Hn]. split; [exact Hw|].
  intros Hin. apply Hn. apply in_map_iff in Hin. destruct Hin as [p [<- Hp]].
  apply in_map. unfold prune. apply filter_In. split; [exact Hp|]. apply orb_true_iff. left. apply memN_In. exact Hw.
Qed.

Lemma fv_walk_forall G vs b : incl (free_vars (walk_forall G vs b)) (free_vars (EForall vs b)).
Proof. unfold walk_forall. rewrite fv_mkForall. apply (fv_prune G vs b). Qed.

Lemma fv_elim_step G vs body vs' body' :
  elim_step G vs body = Some (vs', body') ->
  incl (free_vars (EExists vs' body')) (free_vars (EExists vs body)).
Proof.
  intros H. destruct (elim_step_spec _ _ _ _ _ H) as [pre [c [post [x [t [-> [E [-> ->]]]]]]]].
  destruct (elim_cand_spec _ _ _ _ _ E) as [ty [Hc [Hb [Hocc _]]]].
  apply memN_false in Hocc.
  assert (Ht : incl (free_vars t) (free_vars c)).
  { destruct Hc as [->| ->]; cbn [free_vars]; [apply incl_appr|apply incl_appl]; apply incl_refl. }
  intros w. rewrite !(fv_EQ true), !in_fv_quant, (fvl_En NAnd). intros [Hw Hn].
  assert (Hfv : In w (fvl (pre ++ c :: post)) /\ w <> x).
  { apply fv_subst in Hw. rewrite (fv_mkn NAnd) in Hw. fold (fvl (pre ++ post)) in Hw. destruct Hw as [[Hw Hx]|Hw].
    - split; [|exact Hx]. rewrite fvl_app in *. rewrite fvl_cons. rewrite !in_app_iff in *. tauto.
    - split; [|intros ->; tauto]. rewrite fvl_app, fvl_cons. rewrite !in_app_iff. right; left. apply Ht, Hw. }
  destruct Hfv as [Hfv Hx]. split; [exact Hfv|].
  intros Hin. apply Hn. apply in_remove_var_neq; assumption.
Qed.

Lemma fv_walk_exists G rs vs b :
  (forall x, incl (free_vars (rs x)) (free_vars x)) ->
  incl (free_vars (walk_exists G rs vs b)) (free_vars (EExists vs b)).
Proof.
  intros Hrs.
  apply (walk_exists_inv G (fun vs1 b1 => incl (free_vars (EExists vs1 b1)) (free_vars (EExists vs b)))
                           (fun x => incl (free_vars x) (free_vars (EExists vs b)))).
  - apply fv_prune.
  - intros v c v' c' E K. exact (incl_tran (fv_elim_step _ _ _ _ _ E) K).
  - intros v c K. rewrite fv_mkExists. exact K.
  - intros v c K. apply (incl_tran (Hrs _)). rewrite fv_mkExists. exact K.
Qed.

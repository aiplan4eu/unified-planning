(* Facts about the REGENERATED registry Gen_Engines.builtin_engines (decided by computation over the finite tables). *)
From Coq Require Import List NArith Bool String.
Import ListNotations.
Require Import UPV.Model.Kind UPV.Model.Factory UPV.Gen.Gen_Kind UPV.Gen.Gen_Engines.

(* every built-in engine: constructible supported kind of the LATEST version, at least one operation mode;
   compilers declare at least one compilation kind; names are distinct and every built-in name is in the default
   preference list *)
Definition builtin_registry_ok : bool :=
  forallb (fun ne =>
             let e := snd ne in
             wf gen_tables (e_supported e)
             && (version gen_tables (e_supported e) =? LATEST_PROBLEM_KIND_VERSION)%N
             && negb (Nat.eqb (List.length (e_modes e)) 0)
             && (negb (is_mode e COMPILER) || negb (Nat.eqb (List.length (e_compilations e)) 0))
             && existsb (String.eqb (fst ne)) default_preference_list) builtin_engines
  && Nat.eqb (List.length (nodup string_dec (map fst builtin_engines))) (List.length builtin_engines)
  && forallb (fun e => forallb (fun c => N.ltb c (N.of_nat (List.length compilation_kinds))) (e_compilations (snd e))) builtin_engines.

Lemma gen_builtin_registry_ok : builtin_registry_ok = true.
Proof. vm_compute. reflexivity. Qed.


Lemma lookup_In name (reg : registry) e : lookup name reg = Some e -> exists n, In (n, e) reg.
Proof.
  induction reg as [|[n' e'] reg IH]; simpl; [discriminate|].
  destruct (String.eqb name n').
  - intros H; inversion H; subst. exists n'. now left.
  - intros H. destruct (IH H) as [n Hn]. exists n. now right.
Qed.

(* every built-in engine declares its supported kind at the LATEST version (a conjunct of builtin_registry_ok,
   evaluated on its own: projecting it out of the evaluated conjunction makes the checker unfold the registry) *)
Lemma builtin_versions_b :
  forallb (fun ne => (version gen_tables (e_supported (snd ne)) =? LATEST_PROBLEM_KIND_VERSION)%N) builtin_engines = true.
Proof. vm_compute. reflexivity. Qed.

Lemma builtin_versions n e :
  lookup n builtin_engines = Some e -> version gen_tables (e_supported e) = LATEST_PROBLEM_KIND_VERSION.
Proof.
  intros L. destruct (lookup_In _ _ _ L) as [n' Hin]. apply N.eqb_eq.
  exact (proj1 (forallb_forall _ _) builtin_versions_b _ Hin).
Qed.

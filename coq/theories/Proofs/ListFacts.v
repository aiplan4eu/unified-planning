(* Facts about forallb, existsb, flat_map, filter, Forall2, NoDup, last, fold_left and Permutation that the standard
   library of Coq 8.16 does not have, stated as it would state them. *)
From Coq Require Import List Bool Permutation.
Import ListNotations.

Lemma forallb_ext_in {A} (f g : A -> bool) l : (forall x, In x l -> f x = g x) -> forallb f l = forallb g l.
Proof.
  induction l as [|x l IH]; intros H; simpl; [reflexivity|].
  rewrite (H x (or_introl eq_refl)), IH; [reflexivity|]. intros y Hy. apply H. right. exact Hy.
Qed.

Lemma forallb_ext {A} (f g : A -> bool) l : (forall x, f x = g x) -> forallb f l = forallb g l.
Proof. intros H. apply forallb_ext_in. intros x _. apply H. Qed.

Lemma existsb_ext_in {A} (f g : A -> bool) l : (forall x, In x l -> f x = g x) -> existsb f l = existsb g l.
Proof.
  induction l as [|x l IH]; intros H; simpl; [reflexivity|].
  rewrite (H x (or_introl eq_refl)), IH; [reflexivity|]. intros y Hy. apply H. right. exact Hy.
Qed.

Lemma existsb_ext {A} (f g : A -> bool) l : (forall x, f x = g x) -> existsb f l = existsb g l.
Proof. intros H. apply existsb_ext_in. intros x _. apply H. Qed.

Lemma forallb_map {A B} (f : B -> bool) (g : A -> B) l : forallb f (map g l) = forallb (fun x => f (g x)) l.
Proof. induction l as [|x l IH]; simpl; [reflexivity|]. rewrite IH. reflexivity. Qed.

Lemma existsb_map {A B} (f : B -> bool) (g : A -> B) l : existsb f (map g l) = existsb (fun x => f (g x)) l.
Proof. induction l as [|x l IH]; simpl; [reflexivity|]. rewrite IH. reflexivity. Qed.

Lemma forallb_impl {A} (f g : A -> bool) l :
  (forall x, In x l -> f x = true -> g x = true) -> forallb f l = true -> forallb g l = true.
Proof. rewrite !forallb_forall. intros H Hf x Hx. apply H; [exact Hx | apply Hf, Hx]. Qed.

Lemma forallb_false_ex {A} (f : A -> bool) l : forallb f l = false -> exists x, In x l /\ f x = false.
Proof.
  induction l as [|x l IH]; simpl; [discriminate|]. destruct (f x) eqn:E; simpl.
  - intros H. destruct (IH H) as [y [Hy Ey]]. exists y. auto.
  - intros _. exists x. auto.
Qed.

Lemma forallb_map_in {A B} (f : A -> B) (p : A -> bool) (q : B -> bool) l :
  (forall x, In x l -> p x = true -> q (f x) = true) -> forallb p l = true -> forallb q (map f l) = true.
Proof.
  intros H Hp. rewrite forallb_map. rewrite forallb_forall in *. intros x Hx. apply H; [exact Hx|apply Hp, Hx].
Qed.

Lemma forallb_flat_map {A B} (p : B -> bool) (g : A -> list B) l :
  forallb p (flat_map g l) = forallb (fun x => forallb p (g x)) l.
Proof. induction l as [|x l IH]; [reflexivity|]. cbn [flat_map forallb]. rewrite forallb_app, IH. reflexivity. Qed.

Lemma forallb_incl {A} (p : A -> bool) l l' : incl l l' -> forallb p l' = true -> forallb p l = true.
Proof. intros HI H. rewrite forallb_forall in *. intros x Hx. apply H, HI, Hx. Qed.

Lemma forallb_app_inv {A} (P : A -> bool) l c r : forallb P (l ++ c :: r) = true -> forallb P (l ++ r) = true /\ P c = true.
Proof. rewrite !forallb_app. cbn. rewrite !andb_true_iff. tauto. Qed.

Lemma existsb_false_in {A} (f : A -> bool) l : existsb f l = false -> forall x, In x l -> f x = false.
Proof.
  intros H x Hx. destruct (f x) eqn:E; [|reflexivity].
  rewrite <- H. symmetry. apply existsb_exists. exists x. auto.
Qed.

Lemma existsb_false {A} (f : A -> bool) l : (forall x, In x l -> f x = false) -> existsb f l = false.
Proof.
  intros H. destruct (existsb f l) eqn:E; [|reflexivity].
  apply existsb_exists in E. destruct E as [x [Hx E]]. rewrite (H x Hx) in E. discriminate.
Qed.

Lemma existsb_flat_map {A B} (f : B -> bool) (g : A -> list B) l :
  existsb f (flat_map g l) = existsb (fun x => existsb f (g x)) l.
Proof. induction l as [|x l IH]; [reflexivity|]. cbn [flat_map existsb]. rewrite existsb_app, IH. reflexivity. Qed.

Lemma existsb_andb_negb {A} (p q : A -> bool) l :
  existsb p l = true -> existsb (fun e => p e && q e) l = false -> existsb (fun e => p e && negb (q e)) l = true.
Proof.
  induction l as [|e r IH]; cbn [existsb]; [discriminate|]. intros H1 H2.
  apply orb_false_iff in H2. destruct H2 as [H2 H3].
  destruct (p e) eqn:Ep; cbn [andb orb] in *; [rewrite H2; reflexivity|]. apply IH; assumption.
Qed.

Lemma existsb_snoc {A} (p : A -> bool) l x : existsb p (l ++ [x]) = existsb p l || p x.
Proof. rewrite existsb_app. cbn [existsb]. rewrite orb_false_r. reflexivity. Qed.

Section Eqb.
  Context {A : Type} (eqb : A -> A -> bool).
  Hypothesis eqb_spec : forall x y, eqb x y = true <-> x = y.

  Lemma existsb_eqb_In x l : existsb (eqb x) l = true <-> In x l.
  Proof.
    rewrite existsb_exists. split.
    - intros [y [Hy E]]. apply eqb_spec in E. subst. exact Hy.
    - intros H. exists x. split; [exact H | apply eqb_spec; reflexivity].
  Qed.

  Lemma existsb_eqb_not_In x l : existsb (eqb x) l = false <-> ~ In x l.
  Proof. rewrite <- existsb_eqb_In. destruct (existsb (eqb x) l); split; congruence. Qed.
End Eqb.

Lemma flat_map_ext_in {A B} (f g : A -> list B) l : (forall x, In x l -> f x = g x) -> flat_map f l = flat_map g l.
Proof.
  induction l as [|x l IH]; intros H; simpl; [reflexivity|].
  rewrite (H x (or_introl eq_refl)), IH; [reflexivity|]. intros y Hy. apply H. right. exact Hy.
Qed.

Lemma flat_map_map {A B C} (f : B -> list C) (g : A -> B) l : flat_map f (map g l) = flat_map (fun x => f (g x)) l.
Proof. induction l as [|x l IH]; simpl; [reflexivity|]. rewrite IH. reflexivity. Qed.

Lemma map_flat_map {A B C} (f : B -> C) (g : A -> list B) l : map f (flat_map g l) = flat_map (fun x => map f (g x)) l.
Proof. induction l as [|x l IH]; simpl; [reflexivity|]. rewrite map_app, IH. reflexivity. Qed.

Lemma flat_map_singleton {A B} (f : A -> B) l : flat_map (fun x => [f x]) l = map f l.
Proof. induction l as [|x l IH]; simpl; [reflexivity|]. rewrite IH. reflexivity. Qed.

Lemma flat_map_nil {A B} (f : A -> list B) l : (forall x, In x l -> f x = []) -> flat_map f l = [].
Proof.
  induction l as [|x l IH]; intros H; simpl; [reflexivity|].
  rewrite (H x (or_introl eq_refl)). apply IH. intros y Hy. apply H. right. exact Hy.
Qed.

Lemma flat_map_flat_map {A B C} (f : B -> list C) (g : A -> list B) l :
  flat_map f (flat_map g l) = flat_map (fun x => flat_map f (g x)) l.
Proof. induction l as [|x l IH]; [reflexivity|]. cbn [flat_map]. rewrite flat_map_app, IH. reflexivity. Qed.

Lemma incl_flat_map {A B} (g g' : A -> list B) l : (forall x, incl (g x) (g' x)) -> incl (flat_map g l) (flat_map g' l).
Proof.
  intros H y Hy. apply in_flat_map in Hy. destruct Hy as (x & Hx & Hy). apply in_flat_map. exists x. split; [exact Hx | exact (H x y Hy)].
Qed.

Lemma filter_nil {A} (f : A -> bool) l : (forall x, In x l -> f x = false) -> filter f l = [].
Proof.
  induction l as [|x l IH]; intros H; simpl; [reflexivity|].
  rewrite (H x (or_introl eq_refl)). apply IH. intros y Hy. apply H. right. exact Hy.
Qed.

Lemma filter_true {A} (f : A -> bool) l : forallb f l = true -> filter f l = l.
Proof.
  induction l as [|x l IH]; simpl; [reflexivity|]. intros H. apply andb_true_iff in H. destruct H as [H1 H2].
  rewrite H1, (IH H2). reflexivity.
Qed.

Lemma filter_map_swap {A B} (f : B -> bool) (g : A -> B) l : filter f (map g l) = map g (filter (fun x => f (g x)) l).
Proof. induction l as [|x l IH]; simpl; [reflexivity|]. rewrite IH. destruct (f (g x)); reflexivity. Qed.

Lemma filter_flat_map {A B} (f : B -> bool) (g : A -> list B) l :
  filter f (flat_map g l) = flat_map (fun x => filter f (g x)) l.
Proof. induction l as [|x l IH]; simpl; [reflexivity|]. rewrite filter_app, IH. reflexivity. Qed.

Lemma filter_filter_imp {A} (p q : A -> bool) l :
  (forall x, p x = true -> q x = true) -> filter p (filter q l) = filter p l.
Proof.
  intro H. induction l as [|x l IH]; simpl; [reflexivity|].
  destruct (q x) eqn:Q; simpl; destruct (p x) eqn:Px; rewrite ?IH; try reflexivity.
  rewrite (H x Px) in Q. discriminate.
Qed.

Lemma filter_cons_false {A} (p : A -> bool) a l : p a = false -> filter p (a :: l) = filter p l.
Proof. intro H. simpl. rewrite H. reflexivity. Qed.

Lemma Forall2_impl {A B} (P Q : A -> B -> Prop) l l' : (forall a b, P a b -> Q a b) -> Forall2 P l l' -> Forall2 Q l l'.
Proof. intros H F. induction F; constructor; auto. Qed.

Lemma Forall2_snoc {A B} (R : A -> B -> Prop) l l' a b : Forall2 R l l' -> R a b -> Forall2 R (l ++ [a]) (l' ++ [b]).
Proof. intros F H. apply Forall2_app; [exact F | constructor; [exact H | constructor]]. Qed.

Lemma Forall2_map_eq {A A' B} (R : A -> A' -> Prop) (f : A -> B) (g : A' -> B) l l' :
  Forall2 R l l' -> (forall x y, R x y -> f x = g y) -> map f l = map g l'.
Proof. intros F H. induction F as [|x y l l' Hxy _ IH]; simpl; [reflexivity|]. rewrite (H x y Hxy), IH. reflexivity. Qed.

Lemma Forall2_In_l {A B} (R : A -> B -> Prop) l l' x : Forall2 R l l' -> In x l -> exists y, In y l' /\ R x y.
Proof.
  intros F. induction F as [|a b l l' Hab _ IH]; intros Hx; [destruct Hx|].
  destruct Hx as [<-|Hx]; [exists b; simpl; auto|]. destruct (IH Hx) as [y [Hy Hr]]. exists y. simpl. auto.
Qed.

Lemma Forall2_In_r {A B} (R : A -> B -> Prop) l l' y : Forall2 R l l' -> In y l' -> exists x, In x l /\ R x y.
Proof.
  intros F. induction F as [|a b l l' Hab _ IH]; intros Hy; [destruct Hy|].
  destruct Hy as [<-|Hy]; [exists a; simpl; auto|]. destruct (IH Hy) as [x [Hx Hr]]. exists x. simpl. auto.
Qed.

Lemma Forall2_diag {A} (R : A -> A -> Prop) l : Forall (fun x => R x x) l -> Forall2 R l l.
Proof. induction 1; constructor; assumption. Qed.

Lemma Forall2_map_self {A} (R : A -> A -> Prop) (f : A -> A) l : Forall (fun x => R (f x) x) l -> Forall2 R (map f l) l.
Proof. induction 1; constructor; assumption. Qed.

Lemma Forall2_trans {A B C} (P : A -> B -> Prop) (Q : B -> C -> Prop) (T : A -> C -> Prop) l1 l2 l3 :
  (forall a b c, P a b -> Q b c -> T a c) -> Forall2 P l1 l2 -> Forall2 Q l2 l3 -> Forall2 T l1 l3.
Proof.
  intros H H12. revert l3. induction H12 as [|a b l1 l2 Hab _ IH]; intros l3 H23; inversion H23; subst; constructor; eauto.
Qed.

Lemma Forall2_ex {A B} (R : A -> B -> Prop) l : Forall (fun x => exists y, R x y) l -> exists ys, Forall2 R l ys.
Proof. induction 1 as [|x l [y Hy] _ [ys IH]]; [exists []; constructor | exists (y :: ys); constructor; assumption]. Qed.

Lemma NoDup_app_iff {A} (l1 l2 : list A) :
  NoDup (l1 ++ l2) <-> NoDup l1 /\ NoDup l2 /\ (forall x, In x l1 -> ~ In x l2).
Proof.
  induction l1 as [|a l1 IH]; simpl.
  - split; [intros H; repeat split; [constructor | exact H | intros x []] | intros [_ [H _]]; exact H].
  - rewrite !NoDup_cons_iff, IH, in_app_iff. split.
    + intros [Ha [H1 [H2 H3]]]. repeat split; auto. intros x [<-|Hx]; auto.
    + intros [[Ha H1] [H2 H3]]. repeat split; auto. intros [H|H]; [auto | apply (H3 a); auto].
Qed.

Lemma NoDup_snoc {A} (l : list A) x : NoDup l -> ~ In x l -> NoDup (l ++ [x]).
Proof.
  intros H Hx. apply NoDup_app_iff. split; [exact H|]. split; [constructor; [intros [] | constructor]|].
  intros y Hy [<-|[]]. exact (Hx Hy).
Qed.

Lemma NoDup_map_filter {A B} (f : A -> B) (p : A -> bool) l : NoDup (map f l) -> NoDup (map f (filter p l)).
Proof.
  induction l as [|a l IH]; intros H; [constructor|]. inversion H; subst. cbn [filter].
  destruct (p a); [|auto]. cbn [map]. constructor; [|auto].
  intros Hin. apply H2. apply in_map_iff in Hin. destruct Hin as [y [E Hy]]. apply filter_In in Hy.
  apply in_map_iff. exists y. tauto.
Qed.

Lemma last_cons {A} (a : A) l d : last (a :: l) d = last l a.
Proof.
  revert a d. induction l as [|b l IH]; intros a d; [reflexivity|].
  change (last (b :: l) d = last (b :: l) a). rewrite !IH. reflexivity.
Qed.

Lemma last_cons_indep {A} (a : A) l d d' : last (a :: l) d = last (a :: l) d'.
Proof. rewrite !last_cons. reflexivity. Qed.

Lemma fold_left_inv {A B} (P : A -> Prop) (f : A -> B -> A) : forall l a,
  P a -> (forall a b, In b l -> P a -> P (f a b)) -> P (fold_left f l a).
Proof.
  induction l as [|x l IH]; intros a Ha Hf; simpl; [exact Ha|].
  apply IH; [apply Hf; [left; reflexivity | exact Ha] | intros a' b Hb; apply Hf; right; exact Hb].
Qed.

Lemma Permutation_filter {A} (f : A -> bool) l l' : Permutation l l' -> Permutation (filter f l) (filter f l').
Proof.
  induction 1 as [|x l l' _ IH|x y l|l l' l'' _ IH1 _ IH2]; simpl.
  - constructor.
  - destruct (f x); [constructor|]; exact IH.
  - destruct (f x), (f y); try apply Permutation_refl. apply perm_swap.
  - eapply Permutation_trans; eassumption.
Qed.

Lemma Permutation_forallb {A} (f : A -> bool) l l' : Permutation l l' -> forallb f l = forallb f l'.
Proof.
  intros H. apply eq_true_iff_eq. rewrite !forallb_forall.
  split; intros F x Hx; apply F; [apply Permutation_sym in H|]; eapply Permutation_in; eassumption.
Qed.

Lemma Permutation_existsb {A} (f : A -> bool) l l' : Permutation l l' -> existsb f l = existsb f l'.
Proof.
  intros H. apply eq_true_iff_eq. rewrite !existsb_exists.
  split; intros [x [Hx E]]; exists x; (split; [|exact E]); [|apply Permutation_sym in H]; eapply Permutation_in; eassumption.
Qed.

(* A concrete successor state is a closure; a witness taken from evaluation ([eexists] then [vm_compute]) would put its
   whole normal form into the proof term.  Evaluate what is observed of it instead: [option_map g o] is first-order. *)
Lemma obs_some {A B} (o : option A) (g : A -> B) (b : B) : option_map g o = Some b -> exists t, o = Some t /\ g t = b.
Proof. destruct o as [t|]; [|discriminate]. intros H. exists t. split; [reflexivity | injection H; auto]. Qed.

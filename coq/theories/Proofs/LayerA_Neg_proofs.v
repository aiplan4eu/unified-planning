(* C06 / C07, Layer A — NegativeConditionsRemover: proofs about Compilers/LayerA_Neg.v.
   Invariant: every negation fluent holds the complement of its fluent ([neg_rel]).  Under it the rewritten conditions
   have the value of the original ones (hypothesis [rw_ok]), every expression of the original problem evaluates alike
   ([eval_clean]: it mentions no negation fluent), the compiled action fires the original effect instances followed by
   their mirrors ([n_effects_fired]), and the successor states are related again provided the assignments that fire on
   one ground negated fluent carry one value ([one_value]; decidable sufficient condition [ncr_safe]): [neg_step],
   [neg_run], [neg_valid_plan] (compiled verdict from the related state = original verdict, for every plan). *)
From Coq Require Import List ZArith NArith QArith Qcanon Bool Lia.
Import ListNotations.
Require Import UPV.Core.Expr UPV.Core.Eval UPV.Core.Interp UPV.Planning.Problem UPV.Planning.Sem.
Require Import UPV.Proofs.Eval_lemmas UPV.Proofs.Sem_proofs UPV.Proofs.Step_proofs UPV.Proofs.ExprKids UPV.Proofs.ListFacts.
Require Import UPV.Proofs.ExprView UPV.Proofs.EvalView.
Require Import UPV.Walkers.Subst UPV.Proofs.Subst_proofs.
Require Import UPV.Compilers.Variants UPV.Compilers.LayerA_Defs UPV.Compilers.LayerA_Quant UPV.Compilers.LayerA_Neg.
Require Import UPV.Proofs.LayerA_base UPV.Proofs.LayerA_sim UPV.Proofs.LayerA_Wf_proofs UPV.Proofs.LayerA_Quant_proofs
  UPV.Proofs.Variants_proofs.
Local Open Scope nat_scope.

Section NegEval.
  Variable nmap : list (N * N).

  Lemma nrel_bind I I' v o : nrel_interp nmap I I' -> nrel_interp nmap (bind_var I v o) (bind_var I' v o).
  Proof.
    intros (H1 & H2 & H3 & H4 & H5 & H6). repeat split; simpl; auto. intros w. destruct (w =? v)%N; auto.
  Qed.

  Lemma nrel_instances vs : forall I I', nrel_interp nmap I I' ->
    Forall2 (nrel_interp nmap) (instances I vs) (instances I' vs).
  Proof.
    apply instances_Forall2; [intros I I' (_ & _ & _ & H4 & _) t; symmetry; apply H4 | intros I I' v o; apply nrel_bind].
  Qed.

  Lemma nrel_agree I I' : nrel_interp nmap I I' -> fl_agree (fun g => is_negb nmap g = false) I' I.
  Proof. intros (H1 & H2 & H3 & H4 & H5 & _). repeat split; assumption. Qed.

  Lemma clean_kids e : clean nmap e = true ->
    match e with EFluent f _ => is_negb nmap f = false | _ => True end /\ forallb (clean nmap) (kids e) = true.
  Proof.
    destruct e; cbn [clean kids forallb]; intros H; rewrite ?andb_true_r; try (split; [exact I | exact H]).
    apply andb_true_iff in H. destruct H as [Hf Hl]. split; [apply negb_true_iff; exact Hf | exact Hl].
  Qed.

  (* an expression that mentions no negation fluent does not see the difference: it only reads fluents on which the two
     interpretations agree *)
  Lemma eval_clean sc e I I' : nrel_interp nmap I I' -> clean nmap e = true -> eval sc e I' = eval sc e I.
  Proof.
    intros HR Hc.
    exact (eval_checked (clean nmap) (fun g => is_negb nmap g = false) clean_kids sc e I' I (nrel_agree I I' HR) Hc).
  Qed.

  Lemma evals_clean sc I I' args : nrel_interp nmap I I' -> forallb (clean nmap) args = true ->
    evals sc I' args = evals sc I args.
  Proof.
    intros HR. induction args as [|x l IH]; intros H; [reflexivity|]. cbn [forallb] in H. nfsplit. cbn [evals].
    rewrite (eval_clean sc x I I' HR), IH by assumption. reflexivity.
  Qed.

  (* the reference rewriting [nrw] (walk_not on a fluent) is exact under the invariant on [nrw_dom] *)
  Definition nrw_exact_at (e : expr) : Prop := forall I I', nrel_interp nmap I I' -> nrw_dom nmap e = true ->
    eval false (nrw (ng nmap) e) I' = eval false e I.

  Lemma nrw_exact_list I I' l : nrel_interp nmap I I' -> Forall nrw_exact_at l -> forallb (nrw_dom nmap) l = true ->
    ebools false I' (map (nrw (ng nmap)) l) = ebools false I l.
  Proof.
    intros HR H Hd. apply ebools_ext2, Forall2_map_self. rewrite forallb_forall in Hd. rewrite Forall_forall in *.
    intros x Hx. apply (H x Hx I I' HR), Hd, Hx.
  Qed.

  Lemma nrw_exact e : nrw_exact_at e.
  Proof.
    induction e using expr_ind'; intros I I' HR Hd;
      try (cbn [nrw]; apply (eval_clean false _ I I' HR); exact Hd).
    - cbn [nrw nrw_dom] in *. rewrite !eval_EAnd, (nrw_exact_list I I' l HR H Hd). reflexivity.
    - cbn [nrw nrw_dom] in *. rewrite !eval_EOr, (nrw_exact_list I I' l HR H Hd). reflexivity.
    - destruct e; try (cbn [nrw]; apply (eval_clean false _ I I' HR); exact Hd).
      cbn [nrw nrw_dom] in *. destruct (ng nmap f) as [nf|] eqn:En.
      + nfsplit. rewrite eval_ENot, !eval_EFluent. rewrite (evals_clean false I I' args HR) by assumption.
        destruct (evals false I args) as [vs|]; [|reflexivity].
        destruct HR as (_ & _ & _ & _ & _ & H6). rewrite (H6 f nf vs En). unfold compl, as_bool.
        destruct (fl I f vs) as [[b| |]|]; reflexivity.
      + apply (eval_clean false _ I I' HR). exact Hd.
  Qed.
End NegEval.

Definition negv (v : value) : value := match v with VBool b => VBool (negb b) | _ => v end.
Definition mk_neg (nf : N) (x : aeff) : aeff :=
  {| ae_key := (nf, snd (ae_key x)); ae_kind := ae_kind x; ae_val := negv (ae_val x) |}.
Definition mres (nf : N) (r : Sem.eres) : Sem.eres :=
  match r with EAct x => EAct (mk_neg nf x) | ESkip => ESkip | EErr => EErr end.

Lemma nodupN_NoDup l : nodupN l = true -> NoDup l.
Proof. apply nodupN_iff. Qed.

Section NegProofs.
  Variable nmap : list (N * N).
  Variable rw : expr -> expr.
  Variable smp : expr -> expr.
  Variable P : problem.
  Notation ngf := (ng nmap).
  Notation isn := (is_negb nmap).
  Let P' := neg_compile nmap rw smp P.

  Hypothesis Hmap : nmap_ok nmap P = true.
  Hypothesis Hclean : problem_clean nmap P = true.
  Hypothesis Hconst : ncr_const nmap P = true.
  Hypothesis Hone : one_value nmap P.
  Hypothesis Hrw : rw_ok nmap rw P.
  Hypothesis Hsmp : smp_exact smp.

  Definition macts (acts : list aeff) : list aeff :=
    flat_map (fun x => match ngf (fst (ae_key x)) with Some nf => [mk_neg nf x] | None => [] end) acts.

  Lemma map_facts :
    NoDup (map snd nmap) /\ (forall f nf, ngf f = Some nf -> isn f = false) /\
    (forall fd, In fd (p_fluents P) -> isn (fd_id fd) = false) /\
    (forall fd nf, In fd (p_fluents P) -> ngf (fd_id fd) = Some nf -> fd_ty fd = FBool) /\
    (forall f nf, ngf f = Some nf -> exists fd, In fd (p_fluents P) /\ fd_id fd = f).
  Proof.
    pose proof Hmap as H. unfold nmap_ok in H.
    apply andb_true_iff in H. destruct H as [H Hty]. apply andb_true_iff in H. destruct H as [H Hdecl].
    apply andb_true_iff in H. destruct H as [H Hfl]. apply andb_true_iff in H. destruct H as [H Hkey].
    apply andb_true_iff in H. destruct H as [_ Hnd]. rewrite forallb_forall in Hty, Hdecl, Hfl, Hkey. repeat split.
    - apply nodupN_NoDup. exact Hnd.
    - intros f nf Hf. apply negb_true_iff. apply (Hkey (f, nf)). apply lookupN_In. exact Hf.
    - intros fd Hfd. apply negb_true_iff. apply (Hfl fd Hfd).
    - intros fd nf Hfd Hn. specialize (Hty fd Hfd). rewrite Hn in Hty. destruct (fd_ty fd); try discriminate; reflexivity.
    - intros f nf Hn. specialize (Hdecl (f, nf) (lookupN_In _ _ _ Hn)). apply existsb_exists in Hdecl.
      destruct Hdecl as [fd [Hfd E]]. apply N.eqb_eq in E. exists fd. split; assumption.
  Qed.

  Lemma ng_isn f nf : ngf f = Some nf -> isn nf = true.
  Proof. intros H. apply lookupN_In in H. unfold is_negb. apply existsb_exists. exists (f, nf). split; [exact H | apply N.eqb_refl]. Qed.

  Lemma ng_inj f1 f2 nf : ngf f1 = Some nf -> ngf f2 = Some nf -> f1 = f2.
  Proof.
    intros H1 H2. apply lookupN_In in H1. apply lookupN_In in H2. destruct map_facts as [Hnd _].
    clear -H1 H2 Hnd. induction nmap as [|[a b] l IH]; [destruct H1|]. cbn [map snd] in Hnd. inversion Hnd as [|? ? Hn Hnd']; subst.
    destruct H1 as [H1|H1], H2 as [H2|H2].
    - inversion H1; inversion H2; subst. reflexivity.
    - inversion H1; subst. exfalso. apply Hn. apply in_map_iff. exists (f2, nf). split; [reflexivity | exact H2].
    - inversion H2; subst. exfalso. apply Hn. apply in_map_iff. exists (f1, nf). split; [reflexivity | exact H1].
    - apply IH; assumption.
  Qed.

  Lemma nrel_mk s s' pars : neg_rel nmap s s' -> nrel_interp nmap (mk_interp P s pars) (mk_interp P' s' pars).
  Proof. intros [H1 H2]. repeat split; cbn [mk_interp fl par var ifun objs]; auto. Qed.

  Lemma effect_clean_split e : effect_clean nmap e = true ->
    isn (e_fl e) = false /\ forallb (clean nmap) (e_args e) = true /\ clean nmap (e_val e) = true /\ clean nmap (e_cond e) = true.
  Proof. unfold effect_clean. intros H. nfsplit. repeat split; try assumption. apply negb_true_iff. assumption. Qed.

  Lemma evals_l_clean J J' l : nrel_interp nmap J J' -> forallb (clean nmap) l = true -> evals_l false J' l = evals_l false J l.
  Proof.
    intros HR. induction l as [|x l IH]; intros H; [reflexivity|]. cbn [forallb] in H. nfsplit. cbn [evals_l].
    rewrite (eval_clean nmap false x J J' HR), IH by assumption. reflexivity.
  Qed.

  Lemma n_effect_eval J J' e : nrel_interp nmap J J' -> effect_clean nmap e = true -> In (e_cond e) (conds_of P) ->
    eval_effect false J' (n_effect rw e) = eval_effect false J e.
  Proof.
    intros HR Hc Hin. destruct (effect_clean_split e Hc) as (_ & Ca & Cv & Cc).
    unfold n_effect. destruct (is_uncond e) eqn:Eu.
    - unfold eval_effect. rewrite (evals_l_clean J J' _ HR Ca), (eval_clean nmap false _ J J' HR Cc),
        (eval_clean nmap false _ J J' HR Cv). reflexivity.
    - unfold eval_effect. cbn [set_cond e_args e_cond e_val e_fl e_kind].
      rewrite (evals_l_clean J J' _ HR Ca), (Hrw _ Hin J J' HR), (eval_clean nmap false _ J J' HR Cv). reflexivity.
  Qed.

  Lemma n_effect_same e :
    e_vars (n_effect rw e) = e_vars e /\ e_fl (n_effect rw e) = e_fl e /\ e_args (n_effect rw e) = e_args e /\
    e_val (n_effect rw e) = e_val e /\ e_kind (n_effect rw e) = e_kind e.
  Proof. unfold n_effect. destruct (is_uncond e); repeat split; reflexivity. Qed.

  Lemma mirror_eval J J' e nf b : nrel_interp nmap J J' -> effect_clean nmap e = true -> In (e_cond e) (conds_of P) ->
    e_val e = EBool b ->
    eval_effect false J'
      {| e_fl := nf; e_args := e_args (n_effect rw e); e_val := smp (mkNot (e_val (n_effect rw e)));
         e_cond := e_cond (n_effect rw e); e_kind := e_kind (n_effect rw e); e_vars := e_vars (n_effect rw e);
         e_isbool := e_isbool (n_effect rw e) |} = mres nf (eval_effect false J e).
  Proof.
    intros HR Hc Hin Hb. pose proof (n_effect_eval J J' e HR Hc Hin) as E.
    destruct (n_effect_same e) as (_ & S4 & S1 & S2 & S3).
    unfold eval_effect in *. cbn [e_args e_cond e_val e_fl e_kind]. rewrite S1, S2, S3 in *. rewrite S4 in E.
    rewrite Hb in *. rewrite Hsmp. change (mkNot (EBool b)) with (ENot (EBool b)). cbn [eval as_bool].
    destruct (effect_clean_split e Hc) as (_ & Ca & _ & _).
    rewrite (evals_l_clean J J' _ HR Ca) in *.
    destruct (evals_l false J (e_args e)) as [vs|]; [|reflexivity].
    cbn [eval] in E.
    destruct (eval false (e_cond (n_effect rw e)) J') as [[[|]| |]|], (eval false (e_cond e) J) as [[[|]| |]|];
      try discriminate; reflexivity.
  Qed.

  Definition eff_hyp (e : effect) : Prop :=
    effect_clean nmap e = true /\ In (e_cond e) (conds_of P) /\
    (forall nf, ngf (e_fl e) = Some nf -> is_kassign e = true /\ exists b, e_val e = EBool b).

  Lemma piece_n_effect I I' e : nrel_interp nmap I I' -> eff_hyp e -> piece I' (n_effect rw e) = piece I e.
  Proof.
    intros HR (Hc & Hin & _). unfold piece. destruct (n_effect_same e) as (-> & _). symmetry.
    apply (Forall2_map_eq (nrel_interp nmap) _ _ _ _ (nrel_instances nmap (e_vars e) I I' HR)).
    intros J J' HJ. symmetry. apply n_effect_eval; assumption.
  Qed.

  Lemma piece_mirror I I' e nf : nrel_interp nmap I I' -> eff_hyp e -> ngf (e_fl e) = Some nf ->
    eres_of I' (mirror nmap smp (n_effect rw e)) = map (mres nf) (piece I e).
  Proof.
    intros HR (Hc & Hin & Hs) Hn. destruct (Hs nf Hn) as [_ [b Hb]].
    unfold mirror. destruct (n_effect_same e) as (Ev & Ef & _). rewrite Ef, Hn. unfold eres_of. cbn [flat_map e_vars].
    rewrite app_nil_r, Ev. unfold piece. rewrite map_map. symmetry.
    apply (Forall2_map_eq (nrel_interp nmap) _ _ _ _ (nrel_instances nmap (e_vars e) I I' HR)).
    intros J J' HJ. symmetry. apply (mirror_eval J J' e nf b); assumption.
  Qed.

  Lemma piece_mirror_none I' e : ngf (e_fl e) = None -> eres_of I' (mirror nmap smp (n_effect rw e)) = [].
  Proof. intros Hn. unfold mirror. destruct (n_effect_same e) as (_ & Ef & _). rewrite Ef, Hn. reflexivity. Qed.

  Lemma piece_keys I e x : In x (acts_of (piece I e)) ->
    fst (ae_key x) = e_fl e /\ ae_kind x = e_kind e /\ (forall b, e_val e = EBool b -> ae_val x = VBool b).
  Proof.
    intros H. apply in_acts_of in H. unfold piece in H. apply in_map_iff in H. destruct H as [J [E _]].
    unfold eval_effect in E. destruct (evals_l false J (e_args e)); [|discriminate].
    destruct (eval false (e_cond e) J) as [[[|]| |]|]; try discriminate.
    destruct (eval false (e_val e) J) as [v|] eqn:Ev; [|discriminate]. inversion E; subst. cbn [ae_key ae_kind ae_val fst].
    repeat split. intros b Hb. rewrite Hb in Ev. cbn [eval] in Ev. inversion Ev. reflexivity.
  Qed.

  Lemma acts_of_mres nf L : acts_of (map (mres nf) L) = map (mk_neg nf) (acts_of L).
  Proof.
    induction L as [|r L IH]; [reflexivity|]. change (r :: L) with ([r] ++ L). rewrite map_app, !acts_of_app, map_app, IH.
    f_equal. destruct r; reflexivity.
  Qed.
  Lemma has_err_mres nf L : has_err (map (mres nf) L) = has_err L.
  Proof.
    induction L as [|r L IH]; [reflexivity|]. change (r :: L) with ([r] ++ L). rewrite map_app, !has_err_app, IH.
    f_equal. destruct r; reflexivity.
  Qed.

  Lemma macts_app l1 l2 : macts (l1 ++ l2) = macts l1 ++ macts l2.
  Proof. unfold macts. apply flat_map_app. Qed.

  Lemma macts_same_fluent f l : (forall x, In x l -> fst (ae_key x) = f) ->
    macts l = match ngf f with Some nf => map (mk_neg nf) l | None => [] end.
  Proof.
    induction l as [|x l IH]; intros H; [destruct (ngf f); reflexivity|].
    unfold macts in *. cbn [flat_map]. rewrite (H x (or_introl eq_refl)), IH by (intros y Hy; apply H; right; exact Hy).
    destruct (ngf f); reflexivity.
  Qed.

  Lemma fired_E1 I I' effs : nrel_interp nmap I I' -> Forall eff_hyp effs ->
    eres_of I' (map (n_effect rw) effs) = eres_of I effs.
  Proof.
    intros HR HF. induction HF as [|e l He _ IH]; [reflexivity|]. unfold eres_of in *. cbn [map flat_map]. rewrite IH.
    f_equal. apply (piece_n_effect I I' e HR He).
  Qed.

  Lemma mirrors_cons I' e l :
    eres_of I' (flat_map (mirror nmap smp) (map (n_effect rw) (e :: l))) =
    eres_of I' (mirror nmap smp (n_effect rw e)) ++ eres_of I' (flat_map (mirror nmap smp) (map (n_effect rw) l)).
  Proof. cbn [map flat_map]. unfold eres_of. apply flat_map_app. Qed.

  Lemma fired_E2 I I' effs : nrel_interp nmap I I' -> Forall eff_hyp effs ->
    has_err (eres_of I' (flat_map (mirror nmap smp) (map (n_effect rw) effs))) = true -> has_err (eres_of I effs) = true.
  Proof.
    intros HR HF. induction HF as [|e l He _ IH]; [intros H; exact H|].
    rewrite mirrors_cons, eres_of_cons, !has_err_app. intros H.
    apply orb_true_iff in H. apply orb_true_iff. destruct H as [H|H]; [left | right; apply IH; exact H].
    destruct (ngf (e_fl e)) as [nf|] eqn:En.
    - rewrite (piece_mirror I I' e nf HR He En), has_err_mres in H. exact H.
    - rewrite (piece_mirror_none I' e En) in H. discriminate.
  Qed.

  Lemma fired_E3 I I' effs : nrel_interp nmap I I' -> Forall eff_hyp effs ->
    acts_of (eres_of I' (flat_map (mirror nmap smp) (map (n_effect rw) effs))) = macts (acts_of (eres_of I effs)).
  Proof.
    intros HR HF. induction HF as [|e l He _ IH]; [reflexivity|].
    rewrite mirrors_cons, eres_of_cons, !acts_of_app, macts_app, IH. f_equal.
    rewrite (macts_same_fluent (e_fl e)) by (intros x Hx; apply (piece_keys I e x Hx)).
    destruct (ngf (e_fl e)) as [nf|] eqn:En.
    - rewrite (piece_mirror I I' e nf HR He En). apply acts_of_mres.
    - rewrite (piece_mirror_none I' e En). reflexivity.
  Qed.

  Lemma n_effects_fired I I' effs : nrel_interp nmap I I' -> Forall eff_hyp effs ->
    fired false I' (n_effects nmap rw smp effs) =
    match fired false I effs with Some acts => Some (acts ++ macts acts) | None => None end.
  Proof.
    intros HR HF. rewrite !fired_eres, !collect_res_spec. unfold n_effects. cbv zeta.
    rewrite (eres_of_app I'). rewrite has_err_app, acts_of_app, (fired_E1 I I' effs HR HF), (fired_E3 I I' effs HR HF).
    destruct (has_err (eres_of I effs)) eqn:Eh; [reflexivity|].
    destruct (has_err (eres_of I' (flat_map (mirror nmap smp) (map (n_effect rw) effs)))) eqn:Eh2; [|reflexivity].
    rewrite (fired_E2 I I' effs HR HF Eh2) in Eh. discriminate.
  Qed.

  Lemma const_bool_eq e b : const_bool e = Some b -> e = EBool b.
  Proof. destruct e; try discriminate. intros H; inversion H; reflexivity. Qed.

  Lemma clean_split :
    (forall aid a, In (aid, a) (p_actions P) ->
       forallb (clean nmap) (a_pre a) = true /\ forallb (effect_clean nmap) (a_effs a) = true) /\
    forallb (clean nmap) (p_goals P) = true /\ forallb (clean nmap) (p_invs P) = true.
  Proof.
    pose proof Hclean as Hc. unfold problem_clean in Hc. apply andb_true_iff in Hc. destruct Hc as [H12 H3].
    apply andb_true_iff in H12. destruct H12 as [H1 H2]. split; [|split; assumption].
    intros aid a Hin. rewrite forallb_forall in H1. specialize (H1 _ Hin). cbn [snd] in H1.
    apply andb_true_iff in H1. exact H1.
  Qed.

  Lemma const_split aid a e nf : In (aid, a) (p_actions P) -> In e (a_effs a) -> ngf (e_fl e) = Some nf ->
    is_kassign e = true /\ exists b, e_val e = EBool b.
  Proof.
    intros Hin He Hn. pose proof Hconst as Hs. unfold ncr_const in Hs. rewrite forallb_forall in Hs.
    specialize (Hs _ Hin). cbn [snd] in Hs. unfold action_const in Hs. rewrite forallb_forall in Hs.
    pose proof (Hs e He) as H1. rewrite Hn in H1. apply andb_true_iff in H1. destruct H1 as [Hk Hv].
    split; [exact Hk|]. destruct (const_bool (e_val e)) as [b|] eqn:Eb; [|discriminate].
    exists b. apply const_bool_eq; exact Eb.
  Qed.

  Lemma action_eff_hyp aid a : In (aid, a) (p_actions P) -> Forall eff_hyp (a_effs a).
  Proof.
    intros Hin. apply Forall_forall. intros e He. destruct clean_split as [Hc _].
    destruct (Hc aid a Hin) as [_ Hce]. rewrite forallb_forall in Hce. split; [apply Hce; exact He|]. split.
    - unfold conds_of. apply in_or_app. left. apply in_flat_map. exists (aid, a). split; [exact Hin|]. cbn [snd].
      apply in_or_app. right. apply in_map. exact He.
    - intros nf Hn. exact (const_split aid a e nf Hin He Hn).
  Qed.

  (* ---- the fired effect instances of an original action: no key on a negation fluent; the instances on a negated
     fluent are assignments of Booleans, and those on ONE ground negated fluent carry one value *)
  Definition acts_good (acts : list aeff) : Prop :=
    (forall x, In x acts -> isn (fst (ae_key x)) = false) /\
    (forall x nf, In x acts -> ngf (fst (ae_key x)) = Some nf -> is_assign x = true /\ exists b, ae_val x = VBool b) /\
    (forall x y, In x acts -> In y acts -> ngf (fst (ae_key x)) <> None -> ae_key x = ae_key y -> ae_val x = ae_val y).

  Lemma in_acts_eres I effs x : In x (acts_of (eres_of I effs)) -> exists e, In e effs /\ In x (acts_of (piece I e)).
  Proof.
    induction effs as [|e l IH]; [intros []|]. rewrite eres_of_cons, acts_of_app. intros H. apply in_app_or in H.
    destruct H as [H|H]; [exists e; split; [left; reflexivity | exact H]|].
    destruct (IH H) as [e' [H1 H2]]. exists e'. split; [right; exact H1 | exact H2].
  Qed.

  Lemma fired_good s aid a args acts : In (aid, a) (p_actions P) ->
    all_hold false (mk_interp P s (zip_params (a_params a) args)) (a_pre a) = true ->
    fired false (mk_interp P s (zip_params (a_params a) args)) (a_effs a) = Some acts -> acts_good acts.
  Proof.
    intros Hin Hpre HF. pose proof (Hone s aid a args acts Hin Hpre HF) as H1.
    apply fired_some in HF. subst acts. destruct clean_split as [Hc _]. destruct (Hc aid a Hin) as [_ Hce].
    rewrite forallb_forall in Hce. split; [|split].
    - intros x Hx. destruct (in_acts_eres _ _ x Hx) as [e [He Hxe]]. destruct (piece_keys _ e x Hxe) as [-> _].
      destruct (effect_clean_split e (Hce e He)) as [Hi _]. exact Hi.
    - intros x nf Hx Hn. destruct (in_acts_eres _ _ x Hx) as [e [He Hxe]].
      destruct (piece_keys _ e x Hxe) as (Kf & Kk & Kv). rewrite Kf in Hn.
      destruct (const_split aid a e nf Hin He Hn) as [Hk [b Hb]]. split.
      + unfold is_assign. rewrite Kk. exact Hk.
      + exists b. apply Kv. exact Hb.
    - exact H1.
  Qed.

  Lemma in_macts acts y : In y (macts acts) ->
    exists x nf, In x acts /\ ngf (fst (ae_key x)) = Some nf /\ y = mk_neg nf x.
  Proof.
    unfold macts. rewrite in_flat_map. intros [x [Hx Hy]]. destruct (ngf (fst (ae_key x))) as [nf|] eqn:En; [|destruct Hy].
    destruct Hy as [<-|[]]. exists x, nf. repeat split; assumption.
  Qed.

  Lemma other_symbols_silent g x l : (forall a, In a l -> fst (ae_key a) <> g) -> avals (g, x) l = [] /\ deltas (g, x) l = [].
  Proof. intros H. unfold avals, deltas. rewrite !(filter_other_key g x _ l H). split; reflexivity. Qed.

  Lemma macts_nonneg k acts : isn (fst k) = false -> avals k (macts acts) = [] /\ deltas k (macts acts) = [].
  Proof.
    destruct k as [g x]. cbn [fst]. intros Hk. apply other_symbols_silent. intros y Hy E.
    destruct (in_macts acts y Hy) as (a & nf & _ & Hn & ->). cbn [mk_neg ae_key fst] in E. subst nf.
    rewrite (ng_isn _ _ Hn) in Hk. discriminate.
  Qed.

  Lemma acts_neg nf args acts : acts_good acts -> isn nf = true ->
    avals (nf, args) acts = [] /\ deltas (nf, args) acts = [].
  Proof.
    intros [Hg _] Hn. apply other_symbols_silent. intros y Hy E. rewrite <- E, (Hg y Hy) in Hn. discriminate.
  Qed.

  Lemma is_assign_mk_neg nf x : is_assign (mk_neg nf x) = is_assign x.
  Proof. reflexivity. Qed.

  Lemma macts_avals f nf args l : ngf f = Some nf ->
    avals (nf, args) (macts l) = map negv (avals (f, args) l).
  Proof.
    intros Hn. induction l as [|x l IH]; [reflexivity|].
    change (macts (x :: l)) with ((match ngf (fst (ae_key x)) with Some nf => [mk_neg nf x] | None => [] end) ++ macts l).
    rewrite avals_app, IH. change (x :: l) with ([x] ++ l). rewrite (avals_app (f, args)), map_app. f_equal.
    unfold avals. cbn [filter].
    destruct (ngf (fst (ae_key x))) as [nf'|] eqn:En.
    - cbn [filter]. rewrite is_assign_mk_neg. unfold gfl_eqb. cbn [mk_neg ae_key fst snd].
      destruct (nf' =? nf)%N eqn:E1.
      + apply N.eqb_eq in E1. subst nf'. rewrite (ng_inj _ _ _ En Hn), N.eqb_refl.
        destruct (values_eqb (snd (ae_key x)) args); destruct (is_assign x); reflexivity.
      + destruct (fst (ae_key x) =? f)%N eqn:E2; [|reflexivity].
        apply N.eqb_eq in E2. rewrite E2 in En. rewrite En in Hn. inversion Hn; subst. rewrite N.eqb_refl in E1. discriminate.
    - unfold gfl_eqb. cbn [fst snd]. destruct (fst (ae_key x) =? f)%N eqn:E2; [|reflexivity].
      apply N.eqb_eq in E2. rewrite E2 in En. congruence.
  Qed.

  Lemma macts_deltas k acts : acts_good acts -> deltas k (macts acts) = [].
  Proof.
    intros (_ & Hg & _). unfold deltas. rewrite filter_nil; [reflexivity|]. intros y Hy.
    destruct (in_macts acts y Hy) as (x & nf & Hx & Hn & ->). rewrite is_assign_mk_neg.
    destruct (Hg x nf Hx Hn) as [-> _]. apply andb_false_r.
  Qed.

  Lemma acts_deltas_negated f nf args acts : acts_good acts -> ngf f = Some nf -> deltas (f, args) acts = [].
  Proof.
    intros (_ & Hg & _) Hn. unfold deltas. rewrite filter_nil; [reflexivity|]. intros y Hy.
    destruct (gfl_eqb (ae_key y) (f, args)) eqn:E; [|reflexivity]. apply gfl_eqb_eq in E.
    assert (Hf : fst (ae_key y) = f) by (rewrite E; reflexivity). rewrite <- Hf in Hn.
    destruct (Hg y nf Hy Hn) as [-> _]. reflexivity.
  Qed.

  Lemma acts_avals_const f nf args acts : acts_good acts -> ngf f = Some nf ->
    exists b, Forall (fun v => v = VBool b) (avals (f, args) acts).
  Proof.
    intros (_ & Hg & Hv) Hn.
    assert (Hin : forall v, In v (avals (f, args) acts) -> exists x, In x acts /\ ae_key x = (f, args) /\ ae_val x = v).
    { intros v Hi. apply in_avals in Hi. destruct Hi as (x & Hx & Hk & _ & E). apply gfl_eqb_eq in Hk. eauto. }
    destruct (avals (f, args) acts) as [|v0 r]; [exists true; constructor|].
    destruct (Hin v0 (or_introl eq_refl)) as (x0 & Hx0 & Hk0 & E0).
    destruct (Hg x0 nf Hx0) as [_ [b Hb]]; [rewrite Hk0; exact Hn|]. exists b.
    apply Forall_forall. intros v Hi. destruct (Hin v Hi) as (y & Hy & Hky & <-).
    rewrite <- Hb. symmetry. apply Hv; [exact Hx0 | exact Hy | rewrite Hk0; cbn [fst]; rewrite Hn; discriminate | congruence].
  Qed.

  Lemma existsb_const b A : Forall (fun v => v = VBool b) A -> A <> [] ->
    existsb is_vtrue A = b /\ existsb is_vtrue (map negv A) = negb b.
  Proof.
    induction 1 as [|v A Hv HA IH]; intros Hne; [contradiction|]. subst v. cbn [map existsb negv is_vtrue].
    destruct A as [|w A].
    - cbn [map existsb]. destruct b; split; reflexivity.
    - destruct IH as [-> ->]; [discriminate|]. destruct b; split; reflexivity.
  Qed.

  Lemma ibf_nonneg g : isn g = false -> is_bool_fluent P' g = is_bool_fluent P g.
  Proof.
    intros Hg. unfold is_bool_fluent. change (p_fluents P') with (n_fluents nmap (p_fluents P)). unfold n_fluents.
    rewrite existsb_flat_map. apply existsb_ext. intros fd. cbn [existsb].
    destruct (ngf (fd_id fd)) as [nf|] eqn:En; cbn [existsb fd_id]; rewrite !orb_false_r; [|reflexivity].
    destruct (nf =? g)%N eqn:E; [|apply orb_false_r]. apply N.eqb_eq in E. subst. rewrite (ng_isn _ _ En) in Hg. discriminate.
  Qed.

  Lemma in_n_fluents fd nf : In fd (p_fluents P) -> ngf (fd_id fd) = Some nf ->
    In {| fd_id := nf; fd_sig := fd_sig fd; fd_ty := fd_ty fd |} (p_fluents P').
  Proof.
    intros Hin Hn. change (p_fluents P') with (n_fluents nmap (p_fluents P)). unfold n_fluents. apply in_flat_map.
    exists fd. split; [exact Hin|]. right. rewrite Hn. left. reflexivity.
  Qed.

  Lemma ibf_neg f nf : ngf f = Some nf -> is_bool_fluent P f = true /\ is_bool_fluent P' nf = true.
  Proof.
    intros Hn. destruct map_facts as (_ & _ & _ & Hty & Hdecl). destruct (Hdecl f nf Hn) as [fd [Hfd E]].
    rewrite <- E in Hn. pose proof (Hty fd nf Hfd Hn) as Ety. unfold is_bool_fluent. split; apply existsb_exists.
    - exists fd. split; [exact Hfd|]. rewrite E, N.eqb_refl, Ety. reflexivity.
    - exists {| fd_id := nf; fd_sig := fd_sig fd; fd_ty := fd_ty fd |}. split; [apply in_n_fluents; assumption|].
      cbn [fd_id fd_ty]. rewrite N.eqb_refl, Ety. reflexivity.
  Qed.

  Lemma spec_fluent_nonneg s s' acts k : neg_rel nmap s s' -> isn (fst k) = false ->
    spec_fluent P' s' (acts ++ macts acts) k = spec_fluent P s acts k.
  Proof.
    intros [HR _] Hk. unfold spec_fluent. rewrite avals_app, deltas_app.
    destruct (macts_nonneg k acts Hk) as [-> ->]. rewrite !app_nil_r, (ibf_nonneg _ Hk), (HR _ _ Hk). reflexivity.
  Qed.

  Lemma spec_fluent_neg s s' acts f nf args : neg_rel nmap s s' -> acts_good acts -> ngf f = Some nf ->
    match spec_fluent P s acts (f, args), spec_fluent P' s' (acts ++ macts acts) (nf, args) with
    | CUnchanged, CUnchanged => True
    | CVal v, CVal v' => Some v' = compl (Some v)
    | _, _ => False
    end.
  Proof.
    intros HR Hg Hn. unfold spec_fluent. cbn [fst snd]. rewrite avals_app, deltas_app.
    destruct (acts_neg nf args acts Hg (ng_isn _ _ Hn)) as [-> ->]. cbn [app].
    rewrite (macts_avals f nf args acts Hn), (macts_deltas _ acts Hg), (acts_deltas_negated f nf args acts Hg Hn).
    destruct (ibf_neg f nf Hn) as [-> ->]. destruct (acts_avals_const f nf args acts Hg Hn) as [b Hb].
    destruct (avals (f, args) acts) as [|a A] eqn:EA; [exact I|].
    destruct (existsb_const b (a :: A) Hb) as [E1 E2]; [discriminate|].
    cbn [map combine]. change (negv a :: map negv A) with (map negv (a :: A)). rewrite E1, E2. reflexivity.
  Qed.

  Lemma effects_ok_rel s s' acts : neg_rel nmap s s' -> acts_good acts ->
    spec_effects_ok P' s' (acts ++ macts acts) = spec_effects_ok P s acts.
  Proof.
    intros HR Hg. unfold spec_effects_ok. rewrite forallb_app.
    replace (forallb (fun a => match spec_fluent P' s' (acts ++ macts acts) (ae_key a) with CFail => false | _ => true end) (macts acts))
      with true.
    - rewrite andb_true_r. apply forallb_ext_in. intros x Hx. pose proof Hg as [Hg1 _].
      rewrite (spec_fluent_nonneg s s' acts (ae_key x) HR (Hg1 x Hx)). reflexivity.
    - symmetry. apply forallb_forall. intros y Hy. destruct (in_macts acts y Hy) as (x & nf & Hx & Hn & ->).
      cbn [mk_neg ae_key]. pose proof (spec_fluent_neg s s' acts _ nf (snd (ae_key x)) HR Hg Hn) as H.
      destruct (spec_fluent P s acts (fst (ae_key x), snd (ae_key x)));
        destruct (spec_fluent P' s' (acts ++ macts acts) (nf, snd (ae_key x))); try reflexivity; destruct H.
  Qed.

  Lemma succ_rel s s' acts : neg_rel nmap s s' -> acts_good acts ->
    neg_rel nmap (spec_succ P s acts) (spec_succ P' s' (acts ++ macts acts)).
  Proof.
    intros HR Hg. split.
    - intros g args Hgn. unfold spec_succ. rewrite (spec_fluent_nonneg s s' acts (g, args) HR Hgn).
      destruct HR as [H1 _]. rewrite (H1 _ _ Hgn). reflexivity.
    - intros f nf args Hn. unfold spec_succ. pose proof (spec_fluent_neg s s' acts f nf args HR Hg Hn) as H.
      destruct (spec_fluent P s acts (f, args)); destruct (spec_fluent P' s' (acts ++ macts acts) (nf, args));
        try (destruct H; fail).
      + destruct HR as [_ H2]. apply H2. exact Hn.
      + exact H.
  Qed.

  Lemma all_hold_clean J J' l : nrel_interp nmap J J' -> forallb (clean nmap) l = true ->
    all_hold false J' l = all_hold false J l.
  Proof.
    intros HR Hc. rewrite <- (map_id l) at 1. apply all_hold_map_eq2. intros x Hx.
    rewrite forallb_forall in Hc. apply (eval_clean nmap false x J J' HR). apply Hc. exact Hx.
  Qed.

  Lemma in_conds_pre aid a x : In (aid, a) (p_actions P) -> In x (a_pre a) -> In x (conds_of P).
  Proof.
    intros Hin Hx. unfold conds_of. apply in_or_app. left. apply in_flat_map. exists (aid, a). split; [exact Hin|].
    cbn [snd]. apply in_or_app. left. exact Hx.
  Qed.
  Lemma in_conds_goal x : In x (p_goals P) -> In x (conds_of P).
  Proof. intros Hx. unfold conds_of. apply in_or_app. right. apply in_or_app. left. exact Hx. Qed.
  Lemma in_conds_inv x : In x (p_invs P) -> In x (conds_of P).
  Proof. intros Hx. unfold conds_of. apply in_or_app. right. apply in_or_app. right. exact Hx. Qed.

  Lemma pre_rel J J' aid a : nrel_interp nmap J J' -> In (aid, a) (p_actions P) ->
    all_hold false J' (a_pre (n_action nmap rw smp a)) = all_hold false J (a_pre a).
  Proof.
    intros HR Hin. cbn [n_action a_pre]. rewrite all_hold_add_pres. apply all_hold_map_eq2. intros x Hx.
    apply Hrw; [apply (in_conds_pre aid a x Hin Hx) | exact HR].
  Qed.

  Lemma goals_rel t t' : neg_rel nmap t t' -> goals_hold false P' t' = goals_hold false P t.
  Proof.
    intros HR. unfold goals_hold. change (p_goals P') with (add_goals (map rw (p_goals P))). unfold add_goals.
    rewrite all_hold_filter_true. apply all_hold_map_eq2. intros x Hx.
    apply Hrw; [apply in_conds_goal; exact Hx | apply nrel_mk; exact HR].
  Qed.

  Definition binv_of (Q : problem) (fd : fdecl) : list expr :=
    match fd_ty fd with
    | FNum lo hi =>
        flat_map (fun a =>
          let fe := EFluent (fd_id fd) (map value_expr a) in
          (match lo with Some l => [ELe (num_node l) fe] | None => [] end) ++
          (match hi with Some h => [ELe fe (num_node h)] | None => [] end))
          (arg_tuples Q (fd_sig fd))
    | _ => []
    end.

  Lemma bound_invs_binv Q : bound_invs Q = flat_map (binv_of Q) (p_fluents Q).
  Proof. reflexivity. Qed.

  Lemma bound_invs_neg : bound_invs P' = bound_invs P.
  Proof.
    rewrite !bound_invs_binv. change (p_fluents P') with (n_fluents nmap (p_fluents P)).
    rewrite (flat_map_ext (binv_of P') (binv_of P))
      by (intros fd; unfold binv_of; destruct (fd_ty fd); try reflexivity;
          rewrite (arg_tuples_objs P P' _ eq_refl); reflexivity).
    destruct map_facts as (_ & _ & _ & Hty & _). unfold n_fluents. rewrite flat_map_flat_map. apply flat_map_ext_in.
    intros fd Hfd. cbn [flat_map]. destruct (ngf (fd_id fd)) as [nf|] eqn:En; cbn [flat_map]; rewrite ?app_nil_r; [|reflexivity].
    unfold binv_of at 2. cbn [fd_ty]. rewrite (Hty fd nf Hfd En). apply app_nil_r.
  Qed.

  Lemma clean_num_node q : clean nmap (num_node q) = true.
  Proof. unfold num_node. destruct (Z.pos (Qden (this q)) =? 1)%Z; reflexivity. Qed.
  Lemma clean_value_expr v : clean nmap (value_expr v) = true.
  Proof. destruct v; try reflexivity. apply clean_num_node. Qed.
  Lemma clean_value_exprs a : forallb (clean nmap) (map value_expr a) = true.
  Proof. induction a as [|v a IH]; [reflexivity|]. cbn [map forallb]. rewrite clean_value_expr, IH. reflexivity. Qed.

  Lemma bound_invs_clean : forallb (clean nmap) (bound_invs P) = true.
  Proof.
    apply forallb_forall. intros e He. rewrite bound_invs_binv in He. apply in_flat_map in He.
    destruct He as [fd [Hfd He]]. destruct map_facts as (_ & _ & Hnn & _). specialize (Hnn fd Hfd).
    unfold binv_of in He. destruct (fd_ty fd) as [|lo hi|]; try (destruct He; fail).
    apply in_flat_map in He. destruct He as [a [_ He]]. cbv zeta in He. apply in_app_or in He.
    destruct He as [He|He].
    - destruct lo as [l|]; [|destruct He]. destruct He as [<-|[]]. cbn [clean].
      rewrite clean_num_node, Hnn, clean_value_exprs. reflexivity.
    - destruct hi as [h|]; [|destruct He]. destruct He as [<-|[]]. cbn [clean].
      rewrite clean_num_node, Hnn, clean_value_exprs. reflexivity.
  Qed.

  Lemma invariants_rel t t' : neg_rel nmap t t' -> invariants_ok false P' t' = invariants_ok false P t.
  Proof.
    intros HR. unfold invariants_ok. rewrite bound_invs_neg, !all_hold_app.
    pose proof (nrel_mk t t' [] HR) as HI. f_equal.
    - change (p_invs P') with (filter (fun i => negb (is_true i)) (map (fun i => smp (rw i)) (p_invs P))).
      rewrite all_hold_filter_true. apply all_hold_map_eq2. intros x Hx. rewrite Hsmp.
      apply Hrw; [apply in_conds_inv; exact Hx | exact HI].
    - apply all_hold_clean; [exact HI | exact bound_invs_clean].
  Qed.

  (* ---- one step: the compiled action is applicable exactly when the original one is, and the successors are
     related again *)
  Theorem neg_step s s' aid a args : neg_rel nmap s s' -> In (aid, a) (p_actions P) ->
    orel_by (neg_rel nmap) (spec_step false P s a args) (spec_step false P' s' (n_action nmap rw smp a) args).
  Proof.
    intros HR Hin. rewrite !spec_step_eq.
    change (a_params (n_action nmap rw smp a)) with (a_params a).
    change (a_effs (n_action nmap rw smp a)) with (n_effects nmap rw smp (a_effs a)).
    pose proof (nrel_mk s s' (zip_params (a_params a) args) HR) as HI.
    rewrite (pre_rel _ _ aid a HI Hin).
    destruct (all_hold false (mk_interp P s (zip_params (a_params a) args)) (a_pre a)) eqn:Epre; cbn [negb]; [|exact I].
    rewrite (n_effects_fired _ _ _ HI (action_eff_hyp aid a Hin)).
    destruct (fired false (mk_interp P s (zip_params (a_params a) args)) (a_effs a)) as [acts|] eqn:EF; [|exact I].
    pose proof (fired_good s aid a args acts Hin Epre EF) as Hg.
    rewrite (effects_ok_rel s s' acts HR Hg). destruct (negb (spec_effects_ok P s acts)); [exact I|].
    pose proof (succ_rel s s' acts HR Hg) as HS. rewrite (invariants_rel _ _ HS).
    destruct (invariants_ok false P (spec_succ P s acts)); [exact HS | exact I].
  Qed.

  Lemma neg_lookup aid : lookup_action P' aid = option_map (n_action nmap rw smp) (lookup_action P aid).
  Proof.
    unfold lookup_action. change (p_actions P') with (map (fun ia => (fst ia, n_action nmap rw smp (snd ia))) (p_actions P)).
    apply lookupN_map_snd.
  Qed.

  Lemma neg_step_named s s' aid args : neg_rel nmap s s' ->
    orel_by (neg_rel nmap) (match lookup_action P aid with Some a => spec_step false P s a args | None => None end)
            (match lookup_action P' aid with Some a' => spec_step false P' s' a' args | None => None end).
  Proof.
    intros HR. rewrite neg_lookup. destruct (lookup_action P aid) as [a|] eqn:EL; cbn [option_map]; [|exact I].
    exact (neg_step s s' aid a args HR (lookupN_In _ _ _ EL)).
  Qed.

  Theorem neg_run pi : forall s s', neg_rel nmap s s' ->
    orel_by (neg_rel nmap) (run P (spec_step false P) s pi) (run P' (spec_step false P') s' pi).
  Proof. exact (run_sim P P' (neg_rel nmap) neg_step_named pi). Qed.

  Theorem neg_valid_plan s s' pi : neg_rel nmap s s' -> valid_plan false P' s' pi = valid_plan false P s pi.
  Proof. exact (valid_plan_sim P P' (neg_rel nmap) neg_step_named goals_rel s s' pi). Qed.
End NegProofs.

Lemma ncr_safe_const nmap P : ncr_safe nmap P = true -> ncr_const nmap P = true.
Proof.
  unfold ncr_safe, ncr_const. rewrite !forallb_forall. intros H ia Hia. specialize (H ia Hia).
  unfold action_safe, action_const in *. rewrite forallb_forall in *. intros e He. specialize (H e He).
  destruct (ng nmap (e_fl e)); [|reflexivity]. apply andb_true_iff in H. destruct H as [-> H].
  destruct (const_bool (e_val e)); [reflexivity | discriminate].
Qed.

Lemma ncr_safe_one_value nmap P : ncr_safe nmap P = true -> one_value nmap P.
Proof.
  intros Hs s aid a args acts Hin _ HF x y Hx Hy Hn Hk. apply fired_some in HF. subst acts.
  destruct (in_acts_eres _ _ x Hx) as [e [He Hxe]]. destruct (in_acts_eres _ _ y Hy) as [e2 [He2 Hye]].
  destruct (piece_keys _ e x Hxe) as (Kf & _ & Kv). destruct (piece_keys _ e2 y Hye) as (Kf2 & _ & Kv2).
  unfold ncr_safe in Hs. rewrite forallb_forall in Hs. specialize (Hs _ Hin). cbn [snd] in Hs.
  unfold action_safe in Hs. rewrite forallb_forall in Hs. specialize (Hs e He).
  rewrite Kf in Hn. destruct (ng nmap (e_fl e)); [|contradiction]. apply andb_true_iff in Hs. destruct Hs as [_ Hs].
  destruct (const_bool (e_val e)) as [b|] eqn:Eb; [|discriminate]. rewrite forallb_forall in Hs. specialize (Hs e2 He2).
  assert (Ef : e_fl e2 = e_fl e) by (rewrite <- Kf, <- Kf2, Hk; reflexivity). rewrite Ef, N.eqb_refl in Hs.
  destruct (const_bool (e_val e2)) as [b2|] eqn:Eb2; [|discriminate]. apply Bool.eqb_prop in Hs. subst b2.
  apply const_bool_eq in Eb. apply const_bool_eq in Eb2. rewrite (Kv _ Eb), (Kv2 _ Eb2). reflexivity.
Qed.

Theorem neg_valid_plan_safe nmap rw smp P :
  nmap_ok nmap P = true -> problem_clean nmap P = true -> ncr_safe nmap P = true -> rw_ok nmap rw P -> smp_exact smp ->
  forall s s' pi, neg_rel nmap s s' ->
    valid_plan false (neg_compile nmap rw smp P) s' pi = valid_plan false P s pi.
Proof.
  intros Hm Hc Hs. exact (neg_valid_plan nmap rw smp P Hm Hc (ncr_safe_const nmap P Hs) (ncr_safe_one_value nmap P Hs)).
Qed.

Theorem neg_run_safe nmap rw smp P :
  nmap_ok nmap P = true -> problem_clean nmap P = true -> ncr_safe nmap P = true -> rw_ok nmap rw P -> smp_exact smp ->
  forall pi s s', neg_rel nmap s s' ->
    orel_by (neg_rel nmap) (run P (spec_step false P) s pi)
              (run (neg_compile nmap rw smp P) (spec_step false (neg_compile nmap rw smp P)) s' pi).
Proof.
  intros Hm Hc Hs Hr Hsm pi s s' HR.
  exact (neg_run nmap rw smp P Hm Hc (ncr_safe_const nmap P Hs) (ncr_safe_one_value nmap P Hs) Hr Hsm pi s s' HR).
Qed.

(* [rw_ok] for the reference rewriting: decidable on the conditions of the problem *)
Lemma rw_ok_nrw nmap P : forallb (nrw_dom nmap) (conds_of P) = true -> rw_ok nmap (nrw (ng nmap)) P.
Proof.
  intros H e He I I' HR. rewrite forallb_forall in H. apply (nrw_exact nmap e I I' HR). apply H. exact He.
Qed.

Lemma neg_rel_one f nf (s : state) (v' : value) : (forall args, Some v' = compl (s f args)) ->
  neg_rel [(f, nf)] s (fun g args => if (g =? nf)%N then Some v' else s g args).
Proof.
  intros Hv. split.
  - intros g args Hg. unfold is_negb in Hg. cbn [existsb snd] in Hg. rewrite orb_false_r, N.eqb_sym in Hg. rewrite Hg. reflexivity.
  - intros f' nf' args Hn. unfold ng in Hn. cbn [lookupN] in Hn. destruct (f' =? f)%N eqn:E; [|discriminate].
    inversion Hn; subst nf'. apply N.eqb_eq in E. subst f'. rewrite N.eqb_refl. apply Hv.
Qed.

(* ---- a concrete instance for the non-vacuity examples: door (fluent 0, negation fluent 5), inside (fluent 1);
   open: pre not door, door := true;  enter: pre door, inside := true;  close: pre door, door := false;
   goal inside and not door *)
Module NegEx.
  Definition beff (f : N) (v : expr) : effect :=
    {| e_fl := f; e_args := []; e_val := v; e_cond := EBool true; e_kind := KAssign; e_vars := []; e_isbool := true |}.
  Definition fl0 (f : N) : expr := EFluent f [].
  Definition a_open : action := {| a_params := []; a_pre := [ENot (fl0 0)]; a_effs := [beff 0 (EBool true)] |}.
  Definition a_enter : action := {| a_params := []; a_pre := [fl0 0]; a_effs := [beff 1 (EBool true)] |}.
  Definition a_close : action := {| a_params := []; a_pre := [fl0 0]; a_effs := [beff 0 (EBool false)] |}.
  Definition bfd (f : N) : fdecl := {| fd_id := f; fd_sig := []; fd_ty := FBool |}.
  Definition Pe : problem :=
    {| p_objs := []; p_ifun := []; p_fluents := [bfd 0; bfd 1];
       p_actions := [(0%N, a_open); (1%N, a_enter); (2%N, a_close)]; p_goals := [fl0 1; ENot (fl0 0)]; p_invs := [] |}.
  Definition nm : list (N * N) := [(0%N, 5%N)].
  Definition idf (e : expr) : expr := e.
  Definition se : state := fun f a => Some (VBool false).
  Definition se' : state := fun f a => if (f =? 5)%N then Some (VBool true) else se f a.
  Definition Pe' : problem := neg_compile nm (nrw (ng nm)) idf Pe.
  Definition plan : list (N * list value) := [(0%N, []); (1%N, []); (2%N, [])].
  Lemma rel : neg_rel nm se se'.
  Proof. apply (neg_rel_one 0 5 se (VBool true)). reflexivity. Qed.
  Lemma rwok : rw_ok nm (nrw (ng nm)) Pe.
  Proof. apply rw_ok_nrw. vm_compute. reflexivity. Qed.
  Lemma smpok : smp_exact idf.
  Proof. intros e I. reflexivity. Qed.
End NegEx.

(* ---- the add-after-delete witness: without [ncr_safe] the compiled problem accepts a plan the original rejects.
   f, c true initially; action 0: f := false; if c then f := true (add-after-delete keeps f true, and the mirrored pair
   nf := true; if c then nf := false keeps nf true as well); action 1: pre not f, eff g := true; goal g. *)
Module NegWitness.
  Definition beff (f : N) (v c : expr) : effect :=
    {| e_fl := f; e_args := []; e_val := v; e_cond := c; e_kind := KAssign; e_vars := []; e_isbool := true |}.
  Definition fl0 (f : N) : expr := EFluent f [].
  Definition aa : action :=
    {| a_params := []; a_pre := []; a_effs := [beff 0 (EBool false) (EBool true); beff 0 (EBool true) (fl0 1)] |}.
  Definition ab : action := {| a_params := []; a_pre := [ENot (fl0 0)]; a_effs := [beff 2 (EBool true) (EBool true)] |}.
  Definition bfd (f : N) : fdecl := {| fd_id := f; fd_sig := []; fd_ty := FBool |}.
  Definition Pw : problem :=
    {| p_objs := []; p_ifun := []; p_fluents := [bfd 0; bfd 1; bfd 2];
       p_actions := [(0%N, aa); (1%N, ab)]; p_goals := [fl0 2]; p_invs := [] |}.
  Definition nm : list (N * N) := [(0%N, 3%N)].
  Definition idf (e : expr) : expr := e.
  Definition sw : state := fun f a => Some (VBool ((f =? 0)%N || (f =? 1)%N)).
  Definition sw' : state := fun f a => if (f =? 3)%N then Some (VBool false) else sw f a.
  Definition Pw' : problem := neg_compile nm (nrw (ng nm)) idf Pw.
  Definition plan : list (N * list value) := [(0%N, []); (1%N, [])].
End NegWitness.

Lemma ncr_unsafe_witness :
  nmap_ok NegWitness.nm NegWitness.Pw = true /\ problem_clean NegWitness.nm NegWitness.Pw = true /\
  ncr_safe NegWitness.nm NegWitness.Pw = false /\
  neg_rel NegWitness.nm NegWitness.sw NegWitness.sw' /\
  valid_plan false NegWitness.Pw' NegWitness.sw' NegWitness.plan = true /\
  valid_plan false NegWitness.Pw NegWitness.sw NegWitness.plan = false.
Proof.
  split; [vm_compute; reflexivity|]. split; [vm_compute; reflexivity|]. split; [vm_compute; reflexivity|].
  split; [|split; vm_compute; reflexivity].
  apply (neg_rel_one 0 3 NegWitness.sw (VBool false)). reflexivity.
Qed.

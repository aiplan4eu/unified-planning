(* C06 / C07, Layer A — compilers that split actions into variants (ConditionalEffectsRemover,
   DisjunctiveConditionsRemover for problems whose goals need no auxiliary goal action): the action-level theorems of
   Proofs/Variants_proofs.v (C37) lifted to plans, once for any compiled action table with a map back. *)
From Coq Require Import List ZArith NArith QArith Qcanon Bool Lia.
Import ListNotations.
Require Import UPV.Core.Expr UPV.Core.Eval UPV.Core.Interp UPV.Planning.Problem UPV.Planning.Sem.
Require Import UPV.Proofs.Eval_lemmas UPV.Proofs.Sem_proofs UPV.Proofs.Step_proofs.
Require Import UPV.Compilers.Variants UPV.Proofs.Variants_proofs.
Require Import UPV.Compilers.LayerA_Defs UPV.Compilers.LayerA_Variants UPV.Compilers.LayerA_Pipe.
Require Import UPV.Proofs.LayerA_base UPV.Proofs.LayerA_sim.
Require Export UPV.Proofs.LayerA_tables.
Local Open Scope nat_scope.

Lemma vt_back_unique t id' i a' : NoDup (map fst (vt_actions t)) -> In (id', i, a') t -> vt_back t id' = i.
Proof.
  intros Hnd Hin. unfold vt_back. rewrite (find_key_unique t id' i a'); [reflexivity | | exact Hin].
  unfold vt_actions in Hnd. rewrite map_map in Hnd. exact Hnd.
Qed.

Lemma ostate_eq_some t o : ostate_eq (Some t) o -> exists u, o = Some u /\ state_eq t u.
Proof. destruct o as [u|]; [|intros []]. intros H. exists u. split; [reflexivity | exact H]. Qed.

Lemma variant_step_back P s a a' args t' :
  (applicable P s a' args = true -> ostate_eq (spec_step false P s a' args) (spec_step false P s a args)) ->
  spec_step false P s a' args = Some t' -> exists t, spec_step false P s a args = Some t /\ state_eq t t'.
Proof.
  intros H E. unfold applicable in H. rewrite E in H. destruct (ostate_eq_some _ _ (H eq_refl)) as [t [Et Ht]].
  exists t. split; [exact Et | apply state_eq_sym; exact Ht].
Qed.

Section Lift.
  Variables P P' : problem.
  Variable tbl : vtable.
  Hypothesis Ho : p_objs P' = p_objs P.
  Hypothesis Hi : p_ifun P' = p_ifun P.
  Hypothesis Hf : p_fluents P' = p_fluents P.
  Hypothesis Hv : p_invs P' = p_invs P.
  Hypothesis Ha : p_actions P' = vt_actions tbl.
  Hypothesis Hu' : unique_ids P'.

  (* the set of states the hypotheses on the actions are required on (e.g. the states in which every fluent has a
     value of its type): it contains the initial state and is closed under the steps of the original problem *)
  Variable G : state -> Prop.
  Hypothesis Gstep : forall s aid a args t, G s -> lookup_action P aid = Some a -> spec_step false P s a args = Some t -> G t.
  Hypothesis Hgoal : forall s, G s -> goals_hold false P' s = goals_hold false P s.

  Lemma tbl_nodup : NoDup (map fst (vt_actions tbl)).
  Proof. unfold unique_ids in Hu'. rewrite Ha in Hu'. exact Hu'. Qed.

  Lemma lookup_tbl id' a' : lookup_action P' id' = Some a' -> exists i, In (id', i, a') tbl /\ vt_back tbl id' = i.
  Proof.
    unfold lookup_action. rewrite Ha. intros H. apply lookupN_In in H. apply rows_actions_In in H.
    destruct H as [i Hin]. exists i. split; [exact Hin|].
    exact (vt_back_unique tbl id' i a' tbl_nodup Hin).
  Qed.

  Lemma tbl_lookup id' i a' : In (id', i, a') tbl -> lookup_action P' id' = Some a'.
  Proof.
    intros Hin. unfold lookup_action. rewrite Ha. apply lookupN_unique.
    - exact tbl_nodup.
    - unfold vt_actions. apply in_map_iff. exists (id', i, a'). split; [reflexivity | exact Hin].
  Qed.

  Hypothesis Hsound : forall id' i a', In (id', i, a') tbl ->
    exists a, lookup_action P i = Some a /\
      forall s args t', G s -> spec_step false P s a' args = Some t' ->
        exists t, spec_step false P s a args = Some t /\ state_eq t t'.

  (* the table as a stage: related states are equal up to extensionality and lie in G *)
  Let st : stage :=
    {| st_src := P; st_dst := P'; st_back := fun x => Some (vt_back tbl (fst x), snd x); st_aux := 0;
       st_rel := fun s s' => G s /\ state_eq s s'; st_okS := fun _ => True; st_okD := fun _ => True |}.

  Lemma lift_step s s' x' t' : st_rel st s s' -> st_okD st x' ->
    run P' (spec_step false P') s' [x'] = Some t' ->
    exists t, run P (spec_step false P) s (ostep (st_back st) x') = Some t /\ st_rel st t t'.
  Proof.
    intros [HG Hs] _. destruct x' as [id' args]. unfold ostep. cbn [st st_back fst snd]. rewrite !run_single.
    destruct (lookup_action P' id') as [a'|] eqn:EL; [|discriminate].
    destruct (lookup_tbl id' a' EL) as [i [Hin Hb]]. rewrite Hb.
    destruct (Hsound id' i a' Hin) as [a [ELo Hstep]]. rewrite ELo, (spec_step_same P P' Ho Hi Hf Hv). intros E1.
    pose proof (spec_step_ext false P s s' a' args Hs) as Hx. rewrite E1 in Hx.
    apply ostate_eq_sym, ostate_eq_some in Hx. destruct Hx as [t1 [E2 Ht1]].
    destruct (Hstep s args t1 HG E2) as [t [E3 Ht]]. exists t. split; [exact E3|].
    split; [eapply Gstep; eassumption | exact (state_eq_trans _ _ _ Ht (state_eq_sym _ _ Ht1))].
  Qed.

  Lemma lift_run_sound pi' : forall s s' t', G s -> state_eq s s' ->
    run P' (spec_step false P') s' pi' = Some t' ->
    exists t, run P (spec_step false P) s (vt_map_back tbl pi') = Some t /\ state_eq t t' /\ G t.
  Proof.
    intros s s' t' HG Hs ER. rewrite vt_map_back_pback.
    destruct (sim_run st lift_step pi' s s' t' (conj HG Hs) (proj2 (Forall_forall _ _) (fun _ _ => I)) ER) as [t [Et [HGt Ht]]].
    exists t. auto.
  Qed.

  Lemma lift_goals t t' : st_rel st t t' -> goals_hold false P' t' = goals_hold false P t.
  Proof. intros [HG Ht]. rewrite <- (goals_hold_ext false P' t t' Ht). apply Hgoal, HG. Qed.

  Theorem lift_sound s0 pi' : G s0 ->
    valid_plan false P' s0 pi' = true -> valid_plan false P s0 (vt_map_back tbl pi') = true.
  Proof.
    intros HG Hval. rewrite vt_map_back_pback.
    apply (sim_sound st lift_step (fun t t' HR Hg => eq_trans (eq_sym (lift_goals t t' HR)) Hg) s0 s0);
      [exact (conj HG (state_eq_refl s0)) | apply Forall_forall; intros; exact I | exact Hval].
  Qed.

  Hypothesis Hcomplete : forall i a s args t, G s -> lookup_action P i = Some a ->
    spec_step false P s a args = Some t ->
    (forall f x, t f x = s f x) \/
    exists id' a' t', In (id', i, a') tbl /\ spec_step false P s a' args = Some t' /\ state_eq t t'.

  Lemma lift_cstep s s' x t : st_rel st s s' -> st_okS st x -> run P (spec_step false P) s [x] = Some t ->
    ((forall f a, t f a = s f a) /\ st_rel st t s') \/
    exists x' t', run P' (spec_step false P') s' [x'] = Some t' /\ st_back st x' = Some x /\ st_okD st x' /\ st_rel st t t'.
  Proof.
    intros [HG Hs] _. destruct x as [i args]. rewrite run_single.
    destruct (lookup_action P i) as [a|] eqn:EL; [|discriminate]. intros E1.
    assert (HG1 : G t) by (eapply Gstep; eassumption).
    destruct (Hcomplete i a s args t HG EL E1) as [Hnoop | (id' & a' & t1' & Hin & E2 & Ht1)].
    - (* the step changes nothing: skipped on the compiled side *)
      left. split; [exact Hnoop|]. split; [exact HG1|]. intros f x. rewrite (Hnoop f x). apply Hs.
    - right. pose proof (spec_step_ext false P s s' a' args Hs) as Hx. rewrite E2 in Hx.
      apply ostate_eq_some in Hx. destruct Hx as [t1'' [E3 Hx]].
      exists (id', args), t1''. rewrite run_single, (tbl_lookup id' i a' Hin), (spec_step_same P P' Ho Hi Hf Hv).
      split; [exact E3|]. cbn [st st_back fst snd].
      rewrite (vt_back_unique tbl id' i a' tbl_nodup Hin).
      repeat split; [exact HG1 | eapply state_eq_trans; eassumption].
  Qed.

  Theorem lift_complete s0 pi : G s0 -> valid_plan false P s0 pi = true ->
    exists pi', valid_plan false P' s0 pi' = true /\ length pi' <= length pi /\
                sub_noop_eq P s0 pi (vt_map_back tbl pi').
  Proof.
    intros HG Hval.
    destruct (sim_complete st lift_cstep (fun t t' HR Hg => eq_trans (lift_goals t t' HR) Hg) s0 s0 pi
                (conj HG (state_eq_refl s0)) (proj2 (Forall_forall _ _) (fun _ _ => I)) Hval) as (pi' & L & V & _ & S).
    exists pi'. rewrite vt_map_back_pback. cbn [st st_aux] in L. rewrite Nat.add_0_r in L. auto.
  Qed.
End Lift.

Lemma is_nil_eq {A} (l : list A) : is_nil l = true -> l = [].
Proof. destruct l; [reflexivity | discriminate]. Qed.

(* a variant is left out for one of two reasons ([ce_kept a sel] is [dnf_kept (ce_variant a sel)]) *)
Lemma not_kept v : dnf_kept v = false -> add_effs_ok [] [] (a_effs v) = false \/ a_effs v = [].
Proof.
  unfold dnf_kept. intros H. apply andb_false_iff in H. destruct H as [H|H]; [left; exact H | right].
  apply is_nil_eq, negb_false_iff, H.
Qed.

Section CERProofs.
  Variable simp_pre : list expr -> option (list expr).
  Hypothesis Hsimp : simp_pre_ok simp_pre.
  Variable nm : N -> nat -> N.
  Variable P : problem.
  Let tbl := cer_table simp_pre nm P.
  Let P' := cer_compile simp_pre nm P.
  Hypothesis Hu : unique_ids P.
  Hypothesis Hu' : unique_ids P'.        (* the names chosen by get_fresh_name are new (C08) *)

  Variable G : state -> Prop.
  Hypothesis Gstep : forall s aid a args t, G s -> lookup_action P aid = Some a -> spec_step false P s a args = Some t -> G t.
  (* on the states of G every effect condition is a defined Boolean that does not depend on the forall variables of
     its effect, and the effect targets are defined (the hypothesis of the C37 theorems) *)
  Hypothesis Hcond : forall s args i a, G s -> In (i, a) (p_actions P) ->
    Forall (cond_ok P s a args) (cond_effs (a_effs a)).

  Lemma step_set_pre s v pre' args : simp_pre (a_pre v) = Some pre' ->
    spec_step false P s (set_pre v pre') args = spec_step false P s v args.
  Proof.
    intros Es. apply step_pre_ext; try reflexivity. cbn [set_pre a_params a_pre].
    pose proof (Hsimp (a_pre v) (mk_interp P s (zip_params (a_params v) args))) as H. rewrite Es in H. exact H.
  Qed.

  Lemma step_pre_none s v args : simp_pre (a_pre v) = None -> spec_step false P s v args = None.
  Proof.
    intros Es. pose proof (Hsimp (a_pre v) (mk_interp P s (zip_params (a_params v) args))) as H. rewrite Es in H.
    rewrite spec_step_eq, H. reflexivity.
  Qed.

  Lemma cer_Hsound id' i a' : In (id', i, a') tbl ->
    exists a, lookup_action P i = Some a /\
      forall s args t', G s -> spec_step false P s a' args = Some t' ->
        exists t, spec_step false P s a args = Some t /\ state_eq t t'.
  Proof.
    intros Hin. destruct (cer_table_In simp_pre nm P id' i a' Hin) as [a [Ha Hc]]. exists a.
    split; [apply lookupN_unique; assumption|].
    destruct Hc as [(_ & _ & ->) | (_ & sel & pre' & Hsel & Es & ->)].
    - intros s args t' _ E. exists t'. split; [exact E | apply state_eq_refl].
    - intros s args t' HG. rewrite (step_set_pre s _ pre' args Es). apply variant_step_back.
      apply (ce_variant_same_successor P s a args (Hcond s args i a HG Ha) sel).
      unfold ce_kept_sels in Hsel. apply filter_In in Hsel. apply Hsel.
  Qed.

  Theorem cer_sound s0 pi' : G s0 ->
    valid_plan false (cer_compile simp_pre nm P) s0 pi' = true ->
    valid_plan false P s0 (vt_map_back (cer_table simp_pre nm P) pi') = true.
  Proof.
    exact (lift_sound P P' tbl eq_refl eq_refl eq_refl eq_refl eq_refl Hu' G Gstep (fun s _ => eq_refl) cer_Hsound s0 pi').
  Qed.

  (* completeness needs one more fact about the variants the code leaves out for conflicting effects: wherever such
     a variant is the selected one the original action is not applicable.  C37_conflict_drop_sound proves it when the
     effects taking part in the syntactic check have no forall variables, target non-Boolean fluents, and two
     syntactically different assigned values evaluate differently (without the last condition the implementation
     loses a plan: finding C07-cer-syntactic-conflict-variant-dropped). *)
  Hypothesis Hconf : forall s args i a, G s -> In (i, a) (p_actions P) ->
    add_effs_ok [] [] (a_effs (ce_variant a (the_sel P s a args))) = false -> applicable P s a args = false.

  Lemma cer_Hcomplete i a s args t : G s -> lookup_action P i = Some a -> spec_step false P s a args = Some t ->
    (forall f x, t f x = s f x) \/
    exists id' a' t', In (id', i, a') tbl /\ spec_step false P s a' args = Some t' /\ state_eq t t'.
  Proof.
    intros HG EL E. assert (Ha : In (i, a) (p_actions P)) by (apply lookupN_In; exact EL).
    destruct (is_cond_action a) eqn:Ec.
    - pose proof (Hcond s args i a HG Ha) as Hok.
      set (sel := the_sel P s a args).
      pose proof (ce_the_variant_step P s a args Hok) as Hx. fold sel in Hx. rewrite E in Hx.
      apply ostate_eq_sym, ostate_eq_some in Hx. destruct Hx as [t' [Ev Hx]].
      destruct (ce_kept a sel) eqn:Ek.
      + right. destruct (simp_pre (a_pre (ce_variant a sel))) as [pre'|] eqn:Es.
        * assert (Hsel : In sel (ce_kept_sels a)) by (apply filter_In; split; [apply the_sel_in | exact Ek]).
          destruct (In_cer_table_variant simp_pre nm P i a sel pre' Ha Ec Hsel Es) as [k Hk].
          exists (nm i k), (set_pre (ce_variant a sel) pre'), t'.
          split; [exact Hk|]. split; [rewrite (step_set_pre s _ pre' args Es); exact Ev | exact Hx].
        * rewrite (step_pre_none s _ args Es) in Ev. discriminate.
      + destruct (not_kept (ce_variant a sel) Ek) as [Ec'|En].
        * exfalso. pose proof (Hconf s args i a HG Ha Ec') as Hn. unfold applicable in Hn. rewrite E in Hn. discriminate.
        * left. intros f x. apply (ce_dropped_empty_is_noop P s a args Hok En t E).
    - right. exists i, a, t. split; [exact (In_cer_table_plain simp_pre nm P i a Ha Ec)|].
      split; [exact E | apply state_eq_refl].
  Qed.

  Theorem cer_complete s0 pi : G s0 -> valid_plan false P s0 pi = true ->
    exists pi', valid_plan false (cer_compile simp_pre nm P) s0 pi' = true /\ length pi' <= length pi /\
                sub_noop_eq P s0 pi (vt_map_back (cer_table simp_pre nm P) pi').
  Proof.
    exact (lift_complete P P' tbl eq_refl eq_refl eq_refl eq_refl eq_refl Hu' G Gstep (fun s _ => eq_refl) cer_Hcomplete s0 pi).
  Qed.
End CERProofs.

Section DCRProofs.
  Variable cdnf : expr -> list expr.
  Variable pre_dnf : action -> list (list expr).
  Variable nm : N -> nat -> N.
  Variable P : problem.
  Variable goals' : list expr.
  Let tbl := dcr_table cdnf pre_dnf nm P.
  Let P' := dcr_compile cdnf pre_dnf nm P goals'.
  Hypothesis Hu : unique_ids P.
  Hypothesis Hu' : unique_ids P'.

  Variable G : state -> Prop.
  Hypothesis Gstep : forall s aid a args t, G s -> lookup_action P aid = Some a -> spec_step false P s a args = Some t -> G t.
  (* the hypotheses of the C37 theorems on the states of G: effect conditions and their supplied disjuncts are defined
     Booleans, "some disjunct holds iff the condition holds", only assignments are split into several copies
     (an increase split per disjunct is finding C06-dcr-increase-per-disjunct), ... *)
  Hypothesis Heffs : forall s args i a, G s -> In (i, a) (p_actions P) ->
    Forall (dnf_effect_ok cdnf P s a args) (a_effs a).
  (* ... the supplied disjuncts of the preconditions are equivalent to the preconditions (C12) ... *)
  Hypothesis Hpre : forall s args i a, G s -> In (i, a) (p_actions P) ->
    existsb (all_hold false (mk_interp P s (zip_params (a_params a) args))) (pre_dnf a) =
    all_hold false (mk_interp P s (zip_params (a_params a) args)) (a_pre a).
  (* ... and so are the compiled goals (the conjuncts of the goals' DNF) *)
  Hypothesis Hgoals : forall s, G s ->
    all_hold false (mk_interp P s []) goals' = all_hold false (mk_interp P s []) (p_goals P).

  Lemma disjunct_implies s args i a d : G s -> In (i, a) (p_actions P) -> In d (pre_dnf a) ->
    all_hold false (mk_interp P s (zip_params (a_params a) args)) d = true ->
    all_hold false (mk_interp P s (zip_params (a_params a) args)) (a_pre a) = true.
  Proof.
    intros HG Ha Hd H. rewrite <- (Hpre s args i a HG Ha). apply existsb_exists. exists d. split; assumption.
  Qed.

  Lemma dcr_Hsound id' i a' : In (id', i, a') tbl ->
    exists a, lookup_action P i = Some a /\
      forall s args t', G s -> spec_step false P s a' args = Some t' ->
        exists t, spec_step false P s a args = Some t /\ state_eq t t'.
  Proof.
    intros Hin. destruct (dcr_table_In cdnf pre_dnf nm P id' i a' Hin) as (a & d & Ha & Hd & -> & _). exists a.
    split; [apply lookupN_unique; assumption|].
    intros s args t' HG. apply variant_step_back.
    exact (dnf_variant_same_successor cdnf P s a args (Heffs s args i a HG Ha) d (disjunct_implies s args i a d HG Ha Hd)).
  Qed.

  Lemma dcr_goal s : G s -> goals_hold false P' s = goals_hold false P s.
  Proof. intros HG. unfold goals_hold. change (mk_interp P' s []) with (mk_interp P s []). apply Hgoals. exact HG. Qed.

  Theorem dcr_sound s0 pi' : G s0 ->
    valid_plan false (dcr_compile cdnf pre_dnf nm P goals') s0 pi' = true ->
    valid_plan false P s0 (vt_map_back (dcr_table cdnf pre_dnf nm P) pi') = true.
  Proof.
    exact (lift_sound P P' tbl eq_refl eq_refl eq_refl eq_refl eq_refl Hu' G Gstep dcr_goal dcr_Hsound s0 pi').
  Qed.

  (* a variant left out after UPConflictingEffectsException (fix faaf4e7) loses nothing: C37_dnf_conflict_drop_sound
     proves this hypothesis under the conditions stated there *)
  Hypothesis Hconf : forall s args i a d, G s -> In (i, a) (p_actions P) -> In d (pre_dnf a) ->
    add_effs_ok [] [] (a_effs (dnf_variant cdnf a d)) = false ->
    all_hold false (mk_interp P s (zip_params (a_params a) args)) d = true -> applicable P s a args = false.

  Lemma dcr_Hcomplete i a s args t : G s -> lookup_action P i = Some a -> spec_step false P s a args = Some t ->
    (forall f x, t f x = s f x) \/
    exists id' a' t', In (id', i, a') tbl /\ spec_step false P s a' args = Some t' /\ state_eq t t'.
  Proof.
    intros HG EL E. assert (Ha : In (i, a) (p_actions P)) by (apply lookupN_In; exact EL).
    pose proof (Heffs s args i a HG Ha) as Hok.
    assert (Happ : applicable P s a args = true) by (unfold applicable; rewrite E; reflexivity).
    apply (dnf_applicable_iff_some_variant cdnf P s a args Hok (pre_dnf a) (Hpre s args i a HG Ha)) in Happ.
    destruct Happ as [d [Hd Hv]].
    set (v := dnf_variant cdnf a d) in *.
    destruct (dnf_kept v) eqn:Ek.
    - right.
      pose proof (dnf_variant_same_successor cdnf P s a args Hok d (disjunct_implies s args i a d HG Ha Hd) Hv) as Hx.
      fold v in Hx. rewrite E in Hx. apply ostate_eq_sym, ostate_eq_some in Hx. destruct Hx as [t' [Ev Hx]].
      destruct (In_dcr_table cdnf pre_dnf nm P i a d Ha Hd Ek) as [k Hk].
      exists (nm i k), v, t'. split; [exact Hk|]. split; [exact Ev | exact Hx].
    - destruct (not_kept v Ek) as [Ec|En].
      + exfalso. unfold v in Hv, Ec. rewrite dnf_variant_applicable in Hv by exact Hok. apply andb_true_iff in Hv. destruct Hv as [Hv _].
        pose proof (Hconf s args i a d HG Ha Hd Ec Hv) as Hn. unfold applicable in Hn. rewrite E in Hn. discriminate.
      + left. intros f x. apply (dnf_dropped_empty_is_noop cdnf P s a args Hok En t E).
  Qed.

  Theorem dcr_complete s0 pi : G s0 -> valid_plan false P s0 pi = true ->
    exists pi', valid_plan false (dcr_compile cdnf pre_dnf nm P goals') s0 pi' = true /\ length pi' <= length pi /\
                sub_noop_eq P s0 pi (vt_map_back (dcr_table cdnf pre_dnf nm P) pi').
  Proof.
    exact (lift_complete P P' tbl eq_refl eq_refl eq_refl eq_refl eq_refl Hu' G Gstep dcr_goal dcr_Hcomplete s0 pi).
  Qed.
End DCRProofs.

(* Proofs about the naming model of Model/FreshNames.v (property C08). *)
From Coq Require Import List String Ascii Bool Arith Lia Decimal DecimalString DecimalNat FinFun.
Import ListNotations.
Require Import UPV.Model.FreshNames UPV.Proofs.StringFacts UPV.Proofs.ListFacts.
Require UPV.Model.Names UPV.Proofs.Names_proofs.
Open Scope string_scope.

Lemma mem_In x l : mem x l = true <-> In x l.
Proof. exact (existsb_eqb_In String.eqb String.eqb_eq x l). Qed.

Lemma mem_false x l : mem x l = false <-> ~ In x l.
Proof. exact (existsb_eqb_not_In String.eqb String.eqb_eq x l). Qed.

(* the counter loop is the writers' first-free search (Model/Names.v) over the candidates base_0, base_1, ... *)
Lemma fresh_loop_first_free used base c fuel :
  fresh_loop used base c fuel = Names.first_free (fun x => mem x used) (fun k => base ++ "_" ++ dec k) c fuel.
Proof. revert c. induction fuel as [|f IH]; intro c; [reflexivity|]. cbn [fresh_loop Names.first_free]. rewrite IH. reflexivity. Qed.

Lemma fresh_loop_not_used used base fuel c n : fresh_loop used base c fuel = Some n -> ~ In n used.
Proof. rewrite fresh_loop_first_free. intros H. apply Names_proofs.first_free_spec in H. apply mem_false, H. Qed.

Theorem get_fresh_name_not_used used o ps t n : get_fresh_name used o ps t = Some n -> ~ In n used.
Proof.
  unfold get_fresh_name. destruct (mem _ used) eqn:E.
  - apply fresh_loop_not_used.
  - intros H. injection H as <-. apply mem_false, E.
Qed.

(* names handed out one after the other, each recorded before the next request: pairwise distinct and new *)
Theorem fresh_names_nodup items : forall used names,
  add_all_fresh used items = Some names -> NoDup names /\ (forall n, In n names -> ~ In n used).
Proof.
  induction items as [|[[o ps] t] r IH]; intros used names H; cbn [add_all_fresh] in H.
  - injection H as <-. split; [constructor | intros ? []].
  - destruct (get_fresh_name used o ps t) as [n|] eqn:E; [|discriminate].
    destruct (add_all_fresh (n :: used) r) as [l|] eqn:El; [|discriminate]. injection H as <-.
    destruct (IH _ _ El) as [ND Hnew]. apply get_fresh_name_not_used in E. split.
    + constructor; [|exact ND]. intros Hin. apply (Hnew n Hin). left; reflexivity.
    + intros m [<-|Hm]; [exact E|]. intros Hu. apply (Hnew m Hm). right; exact Hu.
Qed.

Theorem get_fresh_name_total used o ps t : exists n, get_fresh_name used o ps t = Some n.
Proof.
  unfold get_fresh_name. set (base := join_us _). destruct (mem base used); [|eauto]. rewrite fresh_loop_first_free.
  destruct (Names.first_free _ _ _ _) as [n|] eqn:E; [eauto|]. exfalso. revert E.
  apply (Names_proofs.first_free_total _ _ used).
  - intros i j H. do 2 apply str_app_inj_l in H. exact (Names_proofs.dec_inj i j H).
  - intros s. apply mem_In.
  - lia.
Qed.

(* the plain join is not injective: move(a_b, c) and move(a, b_c) *)
Theorem ground_names_injective_refuted :
  exists a ps a' ps', (a, ps) <> (a', ps') /\ ground_name a ps = ground_name a' ps'.
Proof. exists "move", ["a_b"; "c"], "move", ["a"; "b_c"]. split; [discriminate | reflexivity]. Qed.

(* the repaired naming: the names given to the groundings of a problem are pairwise distinct, provided the
   parameterless actions (which keep their names) have distinct names that are names of the problem *)
Definition paramless (items : list item) : list string :=
  flat_map (fun it => match snd it with [] => [fst it] | _ :: _ => [] end) items.

Lemma ground_all_inv items : forall pnames used names,
  ground_all pnames used items = Some names ->
  NoDup (paramless items) -> (forall a, In a (paramless items) -> In a pnames) ->
  NoDup names /\ (forall n, In n names -> (In n (paramless items)) \/ (~ In n pnames /\ ~ In n used)).
Proof.
  induction items as [|[a ps] r IH]; intros pnames used names H ND Hp; cbn [ground_all] in H.
  - injection H as <-. split; [constructor | intros ? []].
  - destruct ps as [|p ps].
    + destruct (ground_all pnames used r) as [l|] eqn:El; [|discriminate]. injection H as <-.
      cbn [paramless flat_map snd fst app] in ND, Hp. fold (paramless r) in ND, Hp.
      inversion ND as [|x y Hnin ND']; subst.
      destruct (IH _ _ _ El ND' (fun b Hb => Hp b (or_intror Hb))) as [NDl Hl]. split.
      * constructor; [|exact NDl]. intros Hin. destruct (Hl a Hin) as [H1|[H1 _]]; [exact (Hnin H1)|].
        apply H1, Hp. left; reflexivity.
      * intros n [<-|Hn]; [left; left; reflexivity|]. destruct (Hl n Hn) as [H1|H1]; [left; right; exact H1 | right; exact H1].
    + destruct (get_fresh_name (pnames ++ used) a (p :: ps) None) as [n|] eqn:E; [|discriminate].
      destruct (ground_all pnames (n :: used) r) as [l|] eqn:El; [|discriminate]. injection H as <-.
      cbn [paramless flat_map snd fst app] in ND, Hp. fold (paramless r) in ND, Hp.
      destruct (IH _ _ _ El ND Hp) as [NDl Hl].
      apply get_fresh_name_not_used in E.
      assert (E1 : ~ In n pnames) by (intros X; apply E, in_or_app; left; exact X).
      assert (E2 : ~ In n used) by (intros X; apply E, in_or_app; right; exact X).
      split.
      * constructor; [|exact NDl]. intros Hin. destruct (Hl n Hin) as [H1|[_ H1]].
        -- apply E1, Hp, H1.
        -- apply H1. left; reflexivity.
      * intros m [<-|Hm]; [right; split; assumption|].
        destruct (Hl m Hm) as [H1|[H1 H2]]; [left; exact H1|]. right. split; [exact H1|].
        intros X. apply H2. right; exact X.
Qed.

Theorem ground_names_nodup pnames items names :
  ground_all pnames [] items = Some names ->
  NoDup (paramless items) -> (forall a, In a (paramless items) -> In a pnames) ->
  NoDup names.
Proof. intros H ND Hp. exact (proj1 (ground_all_inv items pnames [] names H ND Hp)). Qed.

Lemma ground_all_length items : forall pnames used names,
  ground_all pnames used items = Some names -> List.length names = List.length items.
Proof.
  induction items as [|[a ps] r IH]; intros pnames used names H; cbn [ground_all] in H.
  - injection H as <-. reflexivity.
  - destruct ps.
    + destruct (ground_all pnames used r) eqn:E; [|discriminate]. injection H as <-. simpl. f_equal. eapply IH; eauto.
    + destruct (get_fresh_name _ _ _ _); [|discriminate].
      destruct (ground_all pnames (s0 :: used) r) eqn:E; [|discriminate]. injection H as <-. simpl. f_equal. eapply IH; eauto.
Qed.

(* injectivity in the form of the property: two different groundings (positions i <> j) never get the same name *)
Theorem ground_names_injective pnames items names :
  ground_all pnames [] items = Some names ->
  NoDup (paramless items) -> (forall a, In a (paramless items) -> In a pnames) ->
  forall i j n, nth_error names i = Some n -> nth_error names j = Some n -> i = j.
Proof.
  intros H ND Hp i j n Hi Hj. pose proof (ground_names_nodup _ _ _ H ND Hp) as NDn.
  rewrite NoDup_nth_error in NDn. apply NDn; [|congruence].
  apply nth_error_Some. congruence.
Qed.

Theorem compiler_result_has_back_conversion (Prob MapBack Conv : Type) (derive : MapBack -> Conv) p m c r :
  post_init Prob MapBack Conv derive (Some p) m c = Some r -> r_conv _ _ _ r <> None /\ r_problem _ _ _ r = Some p.
Proof.
  unfold post_init. destruct m as [mb|], c as [cv|]; intros H; try discriminate; injection H as <-; simpl;
    split; congruence.
Qed.

Lemma nodupb_NoDup l : nodupb l = true <-> NoDup l.
Proof.
  induction l as [|x r IH]; simpl; [split; [constructor | reflexivity]|].
  rewrite andb_true_iff, negb_true_iff, mem_false, IH. split.
  - intros [H1 H2]. constructor; assumption.
  - intros H. inversion H; subst. split; assumption.
Qed.

Lemma declared_type_spec P t : declared_type P t = true <-> (t = "" \/ In t (map fst (np_types P))).
Proof. unfold declared_type. rewrite orb_true_iff, String.eqb_eq, mem_In. reflexivity. Qed.

Lemma declared_fluent_spec P f n :
  declared_fluent P (f, n) = true <-> exists sig, In (f, sig) (np_fluents P) /\ List.length sig = n.
Proof.
  unfold declared_fluent. rewrite existsb_exists. cbn [fst snd]. split.
  - intros ([g sig] & Hin & E). apply andb_true_iff in E. destruct E as [E1 E2]. cbn [fst snd] in *.
    apply String.eqb_eq in E1. apply Nat.eqb_eq in E2. subst. exists sig. split; [exact Hin | reflexivity].
  - intros (sig & Hin & E). exists (f, sig). split; [exact Hin|]. cbn [fst snd].
    rewrite String.eqb_refl, E, Nat.eqb_refl. reflexivity.
Qed.

Lemma forallb_iff {A} (f : A -> bool) (P : A -> Prop) l :
  (forall x, f x = true <-> P x) -> (forallb f l = true <-> forall x, In x l -> P x).
Proof. intros H. rewrite forallb_forall. split; intros F x Hx; apply H, F, Hx. Qed.

Lemma forallb_pair_iff {A B} (f : A * B -> bool) (P : A -> B -> Prop) l :
  (forall a b, f (a, b) = true <-> P a b) -> (forallb f l = true <-> forall a b, In (a, b) l -> P a b).
Proof. intros H. rewrite forallb_forall. split; [intros F a b Hx|intros F [a b] Hx]; apply H, F, Hx. Qed.

Lemma refs_ok_spec P params r : refs_ok P params r = true <-> refs_wf P params r.
Proof.
  unfold refs_ok, refs_wf. rewrite !andb_true_iff, !and_assoc.
  rewrite (forallb_pair_iff _ _ _ (declared_fluent_spec P)), (forallb_iff _ _ _ (fun o => mem_In o _)),
    (forallb_iff _ _ _ (declared_type_spec P)), (forallb_iff _ _ _ (fun p => mem_In p params)).
  reflexivity.
Qed.

Lemma typed_params_spec P (sig : list (string * string)) :
  forallb (fun p => declared_type P (snd p)) sig = true <-> forall p t, In (p, t) sig -> t = "" \/ In t (map fst (np_types P)).
Proof. apply forallb_pair_iff. intros p t. apply declared_type_spec. Qed.

Theorem wf_np_spec P : wf_np P = true <-> wf_problem P.
Proof.
  unfold wf_np, wf_problem. rewrite !andb_true_iff, !and_assoc, nodupb_NoDup, !refs_ok_spec.
  rewrite (typed_params_spec P (np_types P)).
  rewrite (forallb_pair_iff _ (fun o t => t <> "" /\ In t (map fst (np_types P)))).
  2:{ intros o t. cbn [snd]. rewrite andb_true_iff, negb_true_iff, String.eqb_neq, declared_type_spec. tauto. }
  rewrite (forallb_pair_iff _ (fun f sig => NoDup (map fst sig) /\ forall p t, In (p, t) sig -> t = "" \/ In t (map fst (np_types P)))).
  2:{ intros f sig. cbn [snd]. rewrite andb_true_iff, nodupb_NoDup, typed_params_spec. reflexivity. }
  rewrite (forallb_iff _ (fun a => NoDup (map fst (na_params a))
             /\ (forall p t, In (p, t) (na_params a) -> t = "" \/ In t (map fst (np_types P)))
             /\ refs_wf P (map fst (na_params a)) (na_refs a))).
  2:{ intros a. rewrite !andb_true_iff, and_assoc, nodupb_NoDup, typed_params_spec, refs_ok_spec. reflexivity. }
  rewrite (forallb_iff _ _ _ (fun a => mem_In a _)). reflexivity.
Qed.

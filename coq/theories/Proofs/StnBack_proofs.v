(* Proofs about the back conversion STN plan -> time-triggered plan (C26, Planning/StnBack.v). *)
From Coq Require Import List ZArith NArith QArith Qabs Bool Lia Lqa Permutation.
Import ListNotations.
Require Import UPV.Model.Stn UPV.Proofs.Stn_proofs UPV.Proofs.Stn_termination.
Require Import UPV.Planning.StnPlan UPV.Proofs.StnPlan_proofs UPV.Planning.StnBack UPV.Proofs.ListFacts.
Local Open Scope Q_scope.

Section Keys.
  Context {V : Type}.
  Implicit Types (m : list (N * V)).
  Definition keys m : list N := map fst m.

  Lemma find_none_notin k m : find k m = None <-> ~ In k (keys m).
  Proof.
    induction m as [|[k' v'] m IH]; simpl; [tauto|].
    destruct (N.eqb_spec k k'); [subst; split; [discriminate | intros H; exfalso; apply H; left; reflexivity]|].
    rewrite IH. split; [intros H [E|E]; [congruence | contradiction] | intros H E; apply H; right; exact E].
  Qed.

  Lemma find_some_in k m : find k m <> None <-> In k (keys m).
  Proof.
    pose proof (find_none_notin k m) as H. destruct (find k m); split; intros; try congruence.
    - destruct (in_dec N.eq_dec k (keys m)); [assumption|]. apply H in n. discriminate.
    - exfalso. apply H; auto.
  Qed.

  Lemma find_in_nodup k v m : NoDup (keys m) -> In (k, v) m -> find k m = Some v.
  Proof.
    induction m as [|[k' v'] m IH]; simpl; intros Hn HI; [destruct HI|].
    inversion Hn as [|? ? Hni Hn']; subst. destruct HI as [E|HI].
    - inversion E; subst. rewrite N.eqb_refl. reflexivity.
    - destruct (N.eqb_spec k k'); [subst; exfalso; apply Hni; apply (in_map fst) in HI; exact HI | apply IH; assumption].
  Qed.

  Lemma find_some_in_pair k v m : find k m = Some v -> In (k, v) m.
  Proof.
    induction m as [|[k' v'] m IH]; simpl; [discriminate|].
    destruct (N.eqb_spec k k'); [intros E; inversion E; subst; left; reflexivity | intros E; right; apply IH; exact E].
  Qed.

  Lemma keys_set k v m :
    keys (set k v m) = match find k m with Some _ => keys m | None => keys m ++ [k] end.
  Proof.
    induction m as [|[k' v'] m IH]; simpl; [reflexivity|].
    destruct (N.eqb_spec k k'); simpl; [subst; reflexivity|].
    rewrite IH. destruct (find k m); reflexivity.
  Qed.

  Lemma keys_setdefault k v m :
    keys (setdefault k v m) = match find k m with Some _ => keys m | None => keys m ++ [k] end.
  Proof. unfold setdefault. destruct (find k m); [reflexivity|]. unfold keys. rewrite map_app. reflexivity. Qed.

  Lemma setdefault_known k v m : find k m <> None -> setdefault k v m = m.
  Proof. unfold setdefault. destruct (find k m); [reflexivity | congruence]. Qed.
End Keys.

(* a property of all keys, together with their uniqueness *)
Definition kok (P : N -> Prop) {V} (m : list (N * V)) : Prop := NoDup (keys m) /\ forall k, In k (keys m) -> P k.

Lemma kok_set (P : N -> Prop) {V} (m : list (N * V)) k v : kok P m -> P k -> kok P (set k v m).
Proof.
  intros [Hn Hp] Hk. unfold kok. rewrite keys_set. destruct (find k m) eqn:E; [split; assumption|].
  apply find_none_notin in E. split; [apply NoDup_snoc; assumption|].
  intros k' HI. apply in_app_or in HI. destruct HI as [HI|[<-|[]]]; auto.
Qed.

Lemma kok_setdefault (P : N -> Prop) {V} (m : list (N * V)) k v : kok P m -> P k -> kok P (setdefault k v m).
Proof. unfold kok. rewrite keys_setdefault, <- (keys_set k v m). apply kok_set. Qed.

Lemma inc_check_kok (P : N -> Prop) fuel cm d eps x y b d' r :
  (forall u v bb, edge cm u v bb -> P v) -> P y -> kok P d ->
  inc_check fuel cm d eps x y b = Finished d' r -> kok P d'.
Proof.
  intros Hc Hy. apply (inc_check_pres cm eps y b (kok P)).
  - intros d0 u v bb q He Hk. apply kok_set; [exact Hk | eapply Hc; exact He].
  - intros d0 q Hk. apply kok_set; assumption.
Qed.

(* keys of _distances are unique and satisfy P; every neighbour stored in _constraints satisfies P *)
Definition kinv (P : N -> Prop) (s : stn) : Prop :=
  kok P (s_dist s) /\ forall u v bb, edge (s_cons s) u v bb -> P v.

Lemma add_kinv (P : N -> Prop) fuel s x y b s' : kinv P s -> P x -> P y -> add fuel s x y b = Some s' -> kinv P s'.
Proof.
  intros [Hk Hc] Hx Hy H. apply add_cases in H. cbv zeta in H.
  assert (Hd1 : kok P (setdefault y 0 (setdefault x 0 (s_dist s)))).
  { apply kok_setdefault; [apply kok_setdefault|]; assumption. }
  destruct H as [[_ ->]|[(_ & _ & ->)|(_ & _ & d2 & r & EI & ->)]].
  - split; assumption.
  - split; [exact Hd1|]. simpl. intros u v bb He. apply edge_setdefault in He. eapply Hc; exact He.
  - assert (Hc2 : forall u v bb, edge (set x ((y, b) :: getc (s_cons s) x) (setdefault y [] (s_cons s))) u v bb -> P v).
    { intros u v bb He. apply edge_add in He. destruct He as [(_ & -> & _)|He]; [exact Hy | eapply Hc; exact He]. }
    split; [|exact Hc2]. simpl. eapply inc_check_kok; eauto.
Qed.

Lemma reg_kinv (P : N -> Prop) s x y : kinv P s -> P x -> P y -> kinv P (reg s x y).
Proof. intros [Hk Hc] Hx Hy. split; [|exact Hc]. simpl. apply kok_setdefault; [apply kok_setdefault|]; assumption. Qed.

Definition iop_nodes (o : iop) : list N :=
  match o with IAdd c => [fst (fst c); snd (fst c)] | IReg x y => [x; y] end.

Lemma run_iops_kinv (P : N -> Prop) fuel : forall ops s s',
  kinv P s -> (forall o n, In o ops -> In n (iop_nodes o) -> P n) -> run_iops fuel s ops = Some s' -> kinv P s'.
Proof.
  induction ops as [|o ops IH]; intros s s' Hk Hp H; simpl in H; [inversion H; subst; exact Hk|].
  assert (Hp' : forall o' n, In o' ops -> In n (iop_nodes o') -> P n) by (intros; eapply Hp; [right|]; eauto).
  destruct o as [c|x y].
  - destruct (add fuel s (fst (fst c)) (snd (fst c)) (snd c)) as [s1|] eqn:EA; [|discriminate].
    apply (IH s1 s'); [|exact Hp'|exact H].
    eapply add_kinv; [exact Hk| | |exact EA]; apply (Hp (IAdd c)); simpl; auto.
  - apply (IH (reg s x y) s'); [|exact Hp'|exact H].
    apply reg_kinv; [exact Hk| |]; apply (Hp (IReg x y)); simpl; auto.
Qed.

Lemma node_adds_nodes n c : In c (node_adds n) -> incl (iop_nodes (IAdd c)) [start_plan; end_plan; n].
Proof.
  unfold node_adds. intros H. apply in_app_or in H. destruct H as [H|H].
  - destruct (n =? start_plan)%N; [destruct H|]. destruct H as [<-|[]]. intros z [<-|[<-|[]]]; simpl; auto.
  - destruct (n =? end_plan)%N; [destruct H|]. destruct H as [<-|[]]. intros z [<-|[<-|[]]]; simpl; auto.
Qed.

Lemma interval_adds_nodes a b lb ub c : In c (interval_adds a b lb ub) -> incl (iop_nodes (IAdd c)) [a; b].
Proof.
  unfold interval_adds. intros H. apply in_app_or in H. destruct H as [H|H].
  - destruct lb; [|destruct H]. destruct H as [<-|[]]. intros z [<-|[<-|[]]]; simpl; auto.
  - destruct ub; [|destruct H]. destruct H as [<-|[]]. intros z [<-|[<-|[]]]; simpl; auto.
Qed.

Lemma pcon_ops_nodes a lb ub b o : In o (pcon_ops (a, lb, ub, b)) -> incl (iop_nodes o) [start_plan; end_plan; a; b].
Proof.
  assert (Ia : incl [start_plan; end_plan; a] [start_plan; end_plan; a; b]) by (intros z [<-|[<-|[<-|[]]]]; simpl; auto).
  assert (Ib : incl [start_plan; end_plan; b] [start_plan; end_plan; a; b]) by (intros z [<-|[<-|[<-|[]]]]; simpl; auto).
  assert (Iab : incl [a; b] [start_plan; end_plan; a; b]) by (intros z [<-|[<-|[]]]; simpl; auto).
  unfold pcon_ops. intros H. apply in_app_or in H. destruct H as [H|H].
  - apply in_map_iff in H. destruct H as (c & <- & H). apply in_app_or in H.
    destruct H as [H|H]; apply node_adds_nodes in H; eapply incl_tran; eauto.
  - unfold interval_ops in H. destruct lb as [l|]; [|destruct ub as [u|]].
    1, 2: apply in_map_iff in H; destruct H as (c & <- & H); apply interval_adds_nodes in H; eapply incl_tran; eauto.
    destruct H as [<-|[]]. exact Iab.
Qed.

Lemma init_ops_nodes cs o n : In o (init_ops cs) -> In n (iop_nodes o) -> init_node cs n.
Proof.
  intros [<-|H] Hn.
  - simpl in Hn. unfold init_node. destruct Hn as [<-|[<-|[]]]; auto.
  - apply in_flat_map in H. destruct H as ([[[a lb] ub] b] & Hin & H).
    apply (pcon_ops_nodes _ _ _ _ _ H) in Hn. unfold init_node.
    destruct Hn as [<-|[<-|[<-|[<-|[]]]]]; auto; right; right; apply in_flat_map; exists (a, lb, ub, b); simpl; auto.
Qed.

Lemma kinv_empty (P : N -> Prop) eps : kinv P (empty_stn eps).
Proof. split; [split; [constructor | intros k []] | intros u v bb []]. Qed.

Lemma back_init_kinv fuel cs s : back_init fuel cs = Some s -> kinv (init_node cs) s.
Proof.
  intros H. eapply run_iops_kinv; [apply kinv_empty | | exact H].
  intros o n Ho Hn. eapply init_ops_nodes; eauto.
Qed.
Lemma add_unsat fuel s x y b : s_sat s = false -> add fuel s x y b = Some s.
Proof. intros H. unfold add. rewrite H. reflexivity. Qed.

Lemma run_adds_unsat fuel : forall l s, s_sat s = false -> run_adds fuel s l = Some s.
Proof.
  induction l as [|[[x y] b] l IH]; intros s H; simpl; [reflexivity|]. rewrite add_unsat by exact H. apply IH; exact H.
Qed.

Lemma add_keys_mono fuel s x y b s' k :
  add fuel s x y b = Some s' -> find k (s_dist s) <> None -> find k (s_dist s') <> None.
Proof.
  intros H Hk. apply add_cases in H. cbv zeta in H.
  assert (H1 : find k (setdefault y 0 (setdefault x 0 (s_dist s))) <> None).
  { apply find_setdefault_some, find_setdefault_some; exact Hk. }
  destruct H as [[_ ->]|[(_ & _ & ->)|(_ & _ & d2 & r & EI & ->)]]; simpl.
  - exact Hk.
  - exact H1.
  - eapply inc_check_keys; eauto.
Qed.

Lemma add_known fuel s x y b s' :
  add fuel s x y b = Some s' -> s_sat s' = true -> find x (s_dist s') <> None /\ find y (s_dist s') <> None.
Proof.
  intros H Hs. apply add_cases in H. cbv zeta in H.
  assert (H1 : find x (setdefault y 0 (setdefault x 0 (s_dist s))) <> None).
  { apply find_setdefault_some, find_setdefault_self. }
  assert (H2 : find y (setdefault y 0 (setdefault x 0 (s_dist s))) <> None) by apply find_setdefault_self.
  destruct H as [[E ->]|[(_ & _ & ->)|(_ & _ & d2 & r & EI & ->)]]; simpl.
  - congruence.
  - split; assumption.
  - split; eapply inc_check_keys; eauto.
Qed.

Lemma run_adds_keys_mono fuel k : forall l s s',
  run_adds fuel s l = Some s' -> find k (s_dist s) <> None -> find k (s_dist s') <> None.
Proof.
  induction l as [|[[x y] b] l IH]; intros s s' H Hk; simpl in H; [inversion H; subst; exact Hk|].
  destruct (add fuel s x y b) as [s1|] eqn:EA; [|discriminate].
  eapply IH; [exact H|]. eapply add_keys_mono; eauto.
Qed.

Lemma run_adds_known fuel : forall l s s' x y b,
  run_adds fuel s l = Some s' -> s_sat s' = true -> In (x, y, b) l ->
  find x (s_dist s') <> None /\ find y (s_dist s') <> None.
Proof.
  induction l as [|[[x0 y0] b0] l IH]; intros s s' x y b H Hs HI; simpl in H; [destruct HI|].
  destruct (add fuel s x0 y0 b0) as [s1|] eqn:EA; [|discriminate].
  destruct (s_sat s1) eqn:E1.
  2:{ rewrite run_adds_unsat in H by exact E1. inversion H; subst. congruence. }
  destruct HI as [E|HI]; [|eapply IH; eauto].
  inversion E; subst. destruct (add_known _ _ _ _ _ _ EA E1) as [Hx Hy].
  split; eapply run_adds_keys_mono; eauto.
Qed.

Lemma run_iops_app fuel : forall a s b,
  run_iops fuel s (a ++ b) = match run_iops fuel s a with Some s' => run_iops fuel s' b | None => None end.
Proof.
  induction a as [|o a IH]; intros s b; simpl; [reflexivity|]. destruct o as [c|x y].
  - destruct (add _ _ _ _ _); [apply IH | reflexivity].
  - apply IH.
Qed.

Lemma run_iops_adds fuel : forall l s, run_iops fuel s (map IAdd l) = run_adds fuel s l.
Proof.
  induction l as [|[[x y] b] l IH]; intros s; simpl; [reflexivity|].
  destruct (add fuel s x y b); [apply IH | reflexivity].
Qed.

(* the two runs are in the same state as long as it is consistent, and agree on consistency *)
Definition simR (s s1 : stn) : Prop := s_sat s = s_sat s1 /\ (s_sat s = true -> s = s1).
Definition simO (a b : option stn) : Prop :=
  match a, b with Some x, Some y => simR x y | None, None => True | _, _ => False end.

Lemma simR_refl s : simR s s.
Proof. split; [reflexivity | intros _; reflexivity]. Qed.

Lemma sim_adds fuel : forall l s s1, simR s s1 -> simO (run_adds fuel s l) (run_adds fuel s1 l).
Proof.
  intros l s s1 [H1 H2]. destruct (s_sat s) eqn:E.
  - rewrite <- (H2 eq_refl). destruct (run_adds fuel s l); simpl; [apply simR_refl | exact I].
  - rewrite !run_adds_unsat by congruence. simpl. split; [congruence | intros; congruence].
Qed.

Lemma node_adds_mentions n : exists x y b, In (x, y, b) (node_adds n) /\ (x = n \/ y = n).
Proof.
  unfold node_adds. destruct (N.eqb_spec n start_plan) as [->|Hne].
  - exists start_plan, end_plan, (- 0). split; [simpl; left; reflexivity | left; reflexivity].
  - exists start_plan, n, (- 0). split; [simpl; left; reflexivity | right; reflexivity].
Qed.

Lemma reg_known s x y : find x (s_dist s) <> None -> find y (s_dist s) <> None -> reg s x y = s.
Proof.
  intros Hx Hy. unfold reg. rewrite (setdefault_known x 0 _ Hx), (setdefault_known y 0 _ Hy). destruct s; reflexivity.
Qed.

Lemma sim_pcon fuel c s s1 : simR s s1 -> simO (run_iops fuel s (pcon_ops c)) (run_adds fuel s1 (pcon_adds c)).
Proof.
  destruct c as [[[a lb] ub] b]. intros HR. unfold pcon_ops, pcon_adds.
  assert (Hgen : forall l, simO (run_iops fuel s (map IAdd l)) (run_adds fuel s1 l)) by (intros l; rewrite run_iops_adds; apply sim_adds; exact HR).
  destruct lb as [l|]; [|destruct ub as [u|]].
  1,2: (unfold interval_ops; rewrite <- map_app, <- app_assoc; apply Hgen).
  unfold interval_ops, interval_adds. simpl app at 2. rewrite app_nil_r, run_iops_app.
  specialize (Hgen (node_adds a ++ node_adds b)). rewrite run_iops_adds in *.
  destruct (run_adds fuel s (node_adds a ++ node_adds b)) as [t|] eqn:Et;
    destruct (run_adds fuel s1 (node_adds a ++ node_adds b)) as [t1|] eqn:Et1; simpl in Hgen; try contradiction; [|exact I].
  simpl. destruct Hgen as [G1 G2]. destruct (s_sat t) eqn:Es.
  - assert (Ka : find a (s_dist t) <> None).
    { destruct (node_adds_mentions a) as (x & y & bb & HI & Hor).
      destruct (run_adds_known fuel _ _ _ x y bb Et Es (in_or_app _ _ _ (or_introl HI))) as [Kx Ky]. destruct Hor; subst; assumption. }
    assert (Kb : find b (s_dist t) <> None).
    { destruct (node_adds_mentions b) as (x & y & bb & HI & Hor).
      destruct (run_adds_known fuel _ _ _ x y bb Et Es (in_or_app _ _ _ (or_intror HI))) as [Kx Ky]. destruct Hor; subst; assumption. }
    rewrite reg_known by assumption. split; [congruence | intros _; apply G2; reflexivity].
  - split; [simpl; congruence | simpl; intros; congruence].
Qed.

Lemma sim_pcons fuel : forall cs s s1, simR s s1 ->
  simO (run_iops fuel s (flat_map pcon_ops cs)) (run_adds fuel s1 (flat_map pcon_adds cs)).
Proof.
  induction cs as [|c cs IH]; intros s s1 HR; simpl; [exact HR|].
  rewrite run_iops_app, run_adds_app. pose proof (sim_pcon fuel c s s1 HR) as H.
  destruct (run_iops fuel s (pcon_ops c)) as [t|]; destruct (run_adds fuel s1 (pcon_adds c)) as [t1|]; simpl in H; try contradiction; [|exact I].
  apply IH. exact H.
Qed.

Lemma back_init_sim fuel cs : simO (back_init fuel cs) (stn_plan_init fuel cs).
Proof.
  unfold back_init, stn_plan_init, init_ops, init_adds.
  change (IAdd (start_plan, end_plan, - 0) :: flat_map pcon_ops cs) with (map IAdd [(start_plan, end_plan, - 0)] ++ flat_map pcon_ops cs).
  change ((start_plan, end_plan, - 0) :: flat_map pcon_adds cs) with ([(start_plan, end_plan, - 0)] ++ flat_map pcon_adds cs).
  rewrite run_iops_app, run_adds_app, run_iops_adds.
  destruct (run_adds fuel (empty_stn 0) [(start_plan, end_plan, - 0)]) as [s0|]; [|exact I].
  apply sim_pcons. apply simR_refl.
Qed.

(* while the network is consistent, the calls that are not `add` change nothing *)
Lemma back_init_sat_eq fuel cs s : back_init fuel cs = Some s -> check_stn s = true -> stn_plan_init fuel cs = Some s.
Proof.
  intros H Hs. pose proof (back_init_sim fuel cs) as S. rewrite H in S.
  destruct (stn_plan_init fuel cs) as [s1|]; simpl in S; [|contradiction].
  destruct S as [S1 S2]. rewrite (S2 Hs). reflexivity.
Qed.

Lemma back_init_of_plan_init fuel cs s : stn_plan_init fuel cs = Some s -> check_stn s = true -> back_init fuel cs = Some s.
Proof.
  intros H Hs. pose proof (back_init_sim fuel cs) as S. rewrite H in S.
  destruct (back_init fuel cs) as [s1|]; simpl in S; [|contradiction].
  destruct S as [S1 S2]. unfold check_stn in Hs. rewrite <- S2 by congruence. reflexivity.
Qed.

Lemma back_init_terminates cs : exists s, back_init (enough_fuel (init_adds cs)) cs = Some s.
Proof.
  destruct (stn_plan_init_terminates cs) as [s1 H1]. pose proof (back_init_sim (enough_fuel (init_adds cs)) cs) as S.
  rewrite H1 in S. destruct (back_init _ cs) as [s|]; simpl in S; [eexists; reflexivity | contradiction].
Qed.

Lemma back_init_consistent_iff fuel cs s : back_init fuel cs = Some s -> (check_stn s = true <-> solvable (init_adds cs)).
Proof.
  intros H. pose proof (back_init_sim fuel cs) as S. rewrite H in S.
  destruct (stn_plan_init fuel cs) as [s1|] eqn:E1; simpl in S; [|contradiction].
  destruct S as [S1 _]. unfold check_stn. rewrite S1.
  exact (stn_sat_iff fuel 0 _ s1 (Qeq_refl 0) E1).
Qed.
Lemma snode_idx k : ((snode k - 2) / 2 = k)%N /\ N.even (snode k) = true /\ (snode k <? 2)%N = false.
Proof.
  unfold snode. split; [|split].
  - replace (2 + 2 * k - 2)%N with (k * 2)%N by lia. apply N.div_mul. discriminate.
  - rewrite N.even_add_mul_2. reflexivity.
  - apply N.ltb_ge. lia.
Qed.

Lemma enode_idx k : ((enode k - 2) / 2 = k)%N /\ N.even (enode k) = false /\ (enode k <? 2)%N = false.
Proof.
  unfold enode. split; [|split].
  - replace (3 + 2 * k - 2)%N with (1 + k * 2)%N by lia. rewrite N.div_add by discriminate. reflexivity.
  - rewrite N.even_add_mul_2. reflexivity.
  - apply N.ltb_ge. lia.
Qed.

Lemma node_split n : (2 <= n)%N -> if N.even n then n = snode ((n - 2) / 2) else n = enode ((n - 2) / 2).
Proof.
  intros Hn. destruct (N.even n) eqn:E.
  - apply N.even_spec in E. destruct E as [m ->]. assert (1 <= m)%N by lia.
    replace (2 * m - 2)%N with ((m - 1) * 2)%N by lia. rewrite N.div_mul by discriminate. unfold snode. lia.
  - assert (O : N.odd n = true) by (rewrite <- N.negb_even, E; reflexivity).
    apply N.odd_spec in O. destruct O as [m ->]. assert (1 <= m)%N by lia.
    replace (2 * m + 1 - 2)%N with (1 + (m - 1) * 2)%N by lia. rewrite N.div_add by discriminate.
    change (1 / 2)%N with 0%N. unfold enode. lia.
Qed.

Lemma snode_inj k k' : snode k = snode k' -> k = k'.
Proof. unfold snode. lia. Qed.
Lemma enode_inj k k' : enode k = enode k' -> k = k'.
Proof. unfold enode. lia. Qed.
Lemma snode_enode k k' : snode k <> enode k'.
Proof. unfold snode, enode. lia. Qed.
Lemma enode_pred k : (enode k - 1)%N = snode k.
Proof. unfold snode, enode. lia. Qed.

Lemma amap_set_is_set k v (m : amap) : amap_set k v m = set k v m.
Proof. induction m as [|[k' w] m IH]; simpl; [reflexivity|]. destruct (N.eqb_spec k k'); [subst; reflexivity | rewrite IH; reflexivity]. Qed.
Lemma amap_get_find k (m : amap) : amap_get k m = match find k m with Some v => v | None => (None, None) end.
Proof. induction m as [|[k' w] m IH]; simpl; [reflexivity|]. destruct (k =? k')%N; [reflexivity | exact IH]. Qed.

Lemma amap_get_set_eq k v (m : amap) : amap_get k (set k v m) = v.
Proof. rewrite amap_get_find, find_set_eq. reflexivity. Qed.
Lemma amap_get_set_neq k k' v (m : amap) : k' <> k -> amap_get k' (set k v m) = amap_get k' m.
Proof. intros H. rewrite !amap_get_find, find_set_neq by exact H. reflexivity. Qed.

Lemma tt_collect_global m n q : (n <? 2)%N = true -> tt_collect m (n, q) = m.
Proof. intros H. unfold tt_collect. rewrite H. reflexivity. Qed.
Lemma tt_collect_start m k q : tt_collect m (snode k, q) = set k (Some (- q), snd (amap_get k m)) m.
Proof.
  unfold tt_collect. destruct (snode_idx k) as (H1 & H2 & H3). rewrite H3, H1, H2.
  destruct (amap_get k m) as [s e]. rewrite amap_set_is_set. reflexivity.
Qed.
Lemma tt_collect_end m k q : tt_collect m (enode k, q) = set k (fst (amap_get k m), Some (- q)) m.
Proof.
  unfold tt_collect. destruct (enode_idx k) as (H1 & H2 & H3). rewrite H3, H1, H2.
  destruct (amap_get k m) as [s e]. rewrite amap_set_is_set. reflexivity.
Qed.

Lemma node_cases n : (n <? 2)%N = true \/ (exists k, n = snode k) \/ (exists k, n = enode k).
Proof.
  destruct (n <? 2)%N eqn:E; [left; reflexivity | right]. apply N.ltb_ge in E.
  pose proof (node_split n E) as H. destruct (N.even n); [left | right]; eexists; exact H.
Qed.

Definition oneg (o : option Q) : oq := match o with Some q => Some (- q) | None => None end.
Definition oor (a b : oq) : oq := match a with Some _ => a | None => b end.

Lemma collect_get : forall (l : dist) (m0 : amap) k, NoDup (keys l) ->
  amap_get k (fold_left tt_collect l m0) =
  (oor (oneg (find (snode k) l)) (fst (amap_get k m0)), oor (oneg (find (enode k) l)) (snd (amap_get k m0))).
Proof.
  induction l as [|[n q] l IH]; intros m0 k Hn; cbn [fold_left].
  - simpl. destruct (amap_get k m0); reflexivity.
  - inversion Hn as [|? ? Hni Hn']; subst. rewrite (IH _ k Hn'). clear IH. simpl find.
    assert (Hf : forall x, x = n -> find x l = None) by (intros x ->; apply find_none_notin; exact Hni).
    destruct (node_cases n) as [Hg|[[k' ->]|[k' ->]]].
    + rewrite tt_collect_global by exact Hg. apply N.ltb_lt in Hg.
      destruct (N.eqb_spec (snode k) n) as [E|_]; [unfold snode in E; lia|].
      destruct (N.eqb_spec (enode k) n) as [E|_]; [unfold enode in E; lia|]. reflexivity.
    + rewrite tt_collect_start. destruct (N.eqb_spec (enode k) (snode k')) as [E|_]; [symmetry in E; apply snode_enode in E; destruct E|].
      destruct (N.eqb_spec (snode k) (snode k')) as [E|Hne].
      * apply snode_inj in E. subst k'. rewrite (Hf _ eq_refl), amap_get_set_eq. simpl. reflexivity.
      * rewrite amap_get_set_neq by (intros ->; apply Hne; reflexivity). reflexivity.
    + rewrite tt_collect_end. destruct (N.eqb_spec (snode k) (enode k')) as [E|_]; [apply snode_enode in E; destruct E|].
      destruct (N.eqb_spec (enode k) (enode k')) as [E|Hne].
      * apply enode_inj in E. subst k'. rewrite (Hf _ eq_refl), amap_get_set_eq. simpl. reflexivity.
      * rewrite amap_get_set_neq by (intros ->; apply Hne; reflexivity). reflexivity.
Qed.

Lemma in_keys_set {V} k k' (v : V) m : In k (keys (set k' v m)) <-> In k (keys m) \/ k = k'.
Proof.
  rewrite keys_set. destruct (find k' m) eqn:E.
  - split; [auto|]. intros [H| ->]; [exact H|]. apply find_some_in. congruence.
  - rewrite in_app_iff. simpl. intuition.
Qed.

Lemma collect_keys : forall (l : dist) (m0 : amap) k,
  In k (keys (fold_left tt_collect l m0)) <-> In k (keys m0) \/ In (snode k) (keys l) \/ In (enode k) (keys l).
Proof.
  induction l as [|[n q] l IH]; intros m0 k; cbn [fold_left]; [simpl; tauto|].
  rewrite IH. clear IH. cbn [keys map fst In].
  destruct (node_cases n) as [Hg|[[k' ->]|[k' ->]]].
  - rewrite tt_collect_global by exact Hg. apply N.ltb_lt in Hg.
    assert (Hs : n <> snode k) by (unfold snode; lia). assert (He : n <> enode k) by (unfold enode; lia).
    split; [intros [H1|[H1|H1]] | intros [H1|[[H1|H1]|[H1|H1]]]]; auto; contradiction.
  - rewrite tt_collect_start, in_keys_set. pose proof (snode_enode k' k).
    split; [intros [[H1| ->]|[H1|H1]]; auto | intros [H1|[[H1|H1]|[H1|H1]]]; auto].
    + apply snode_inj in H1. subst; auto.
    + contradiction.
  - rewrite tt_collect_end, in_keys_set. pose proof (snode_enode k k').
    split; [intros [[H1| ->]|[H1|H1]]; auto | intros [H1|[[H1|H1]|[H1|H1]]]; auto].
    + symmetry in H1. contradiction.
    + apply enode_inj in H1. subst; auto.
Qed.

Lemma collect_nodup (l : dist) (m0 : amap) : NoDup (keys m0) -> NoDup (keys (fold_left tt_collect l m0)).
Proof.
  intros H0. apply (fold_left_inv (fun m : amap => NoDup (keys m))); [exact H0|]. intros m [n q] _ H.
  destruct (node_cases n) as [Hg|[[k' ->]|[k' ->]]].
  - rewrite tt_collect_global by exact Hg. exact H.
  - rewrite tt_collect_start. apply (kok_set (fun _ => True)); [split; auto | exact I].
  - rewrite tt_collect_end. apply (kok_set (fun _ => True)); [split; auto | exact I].
Qed.

(* action_instance_map, read off _distances *)
Lemma back_map_get s k : NoDup (keys (s_dist s)) ->
  amap_get k (back_map s) = (oneg (find (snode k) (s_dist s)), oneg (find (enode k) (s_dist s))).
Proof.
  intros Hn. unfold back_map, distances. rewrite collect_get by exact Hn. simpl.
  destruct (find (snode k) (s_dist s)), (find (enode k) (s_dist s)); reflexivity.
Qed.

Lemma back_map_keys s k :
  In k (keys (back_map s)) <-> find (snode k) (s_dist s) <> None \/ find (enode k) (s_dist s) <> None.
Proof. unfold back_map, distances. rewrite collect_keys, !find_some_in. simpl. tauto. Qed.

Lemma back_map_nodup s : NoDup (keys (back_map s)).
Proof. apply collect_nodup. constructor. Qed.

Lemma back_map_in s k v : NoDup (keys (s_dist s)) ->
  In (k, v) (back_map s) <->
  (find (snode k) (s_dist s) <> None \/ find (enode k) (s_dist s) <> None) /\
  v = (oneg (find (snode k) (s_dist s)), oneg (find (enode k) (s_dist s))).
Proof.
  intros Hn. pose proof (back_map_get s k Hn) as Hg. rewrite amap_get_find in Hg. rewrite <- back_map_keys. split.
  - intros HI. rewrite (find_in_nodup _ _ _ (back_map_nodup s) HI) in Hg. split; [exact (in_map fst _ _ HI) | exact Hg].
  - intros [Hk ->]. apply find_some_in in Hk. destruct (find k (back_map s)) as [v|] eqn:Fv; [|congruence].
    rewrite <- Hg. apply find_some_in_pair. exact Fv.
Qed.

Definition entry (kv : N * (oq * oq)) : list ttstep :=
  match fst (snd kv) with
  | Some st => [(st, fst kv, match snd (snd kv) with Some e => Some (e - st) | None => None end)]
  | None => []
  end.

Lemma insert_tt_perm x : forall l, Permutation (insert_tt x l) (x :: l).
Proof.
  induction l as [|y r IH]; simpl; [apply Permutation_refl|].
  destruct (Qlt_bool _ _); [apply Permutation_refl|].
  eapply Permutation_trans; [apply perm_skip; exact IH | apply perm_swap].
Qed.

Lemma to_tt_fold_perm : forall (m : amap) acc,
  Permutation (fold_left (fun acc kv =>
               match fst (snd kv) with
               | Some st => insert_tt (st, fst kv, match snd (snd kv) with Some e => Some (e - st) | None => None end) acc
               | None => acc
               end) m acc) (flat_map entry m ++ acc).
Proof.
  induction m as [|[k0 [so eo]] m IH]; intros acc; [apply Permutation_refl|].
  cbn [fold_left flat_map]. eapply Permutation_trans; [apply IH|]. unfold entry at 2. cbn [fst snd]. destruct so as [st|].
  - eapply Permutation_trans; [apply Permutation_app_head; apply insert_tt_perm|].
    rewrite <- app_assoc. apply Permutation_sym. simpl. apply Permutation_middle.
  - apply Permutation_refl.
Qed.

Lemma to_tt_perm s : Permutation (to_tt s) (flat_map entry (back_map s)).
Proof. unfold to_tt, back_map. eapply Permutation_trans; [apply to_tt_fold_perm|]. rewrite app_nil_r. apply Permutation_refl. Qed.

Lemma insert_tt_sorted x : forall l, sorted_by_start l -> sorted_by_start (insert_tt x l).
Proof.
  induction l as [|y r IH]; intros H; [exact I|].
  cbn [insert_tt]. destruct (Qlt_bool (fst (fst x)) (fst (fst y))) eqn:E.
  - apply Qlt_bool_iff in E. split; [lra | exact H].
  - apply Qlt_bool_false in E. destruct r as [|z r'].
    + split; [exact E | exact I].
    + destruct H as [H1 H2]. specialize (IH H2). cbn [insert_tt] in IH |- *.
      destruct (Qlt_bool (fst (fst x)) (fst (fst z))); (split; [assumption|exact IH]).
Qed.

Lemma to_tt_sorted s : sorted_by_start (to_tt s).
Proof.
  unfold to_tt. apply (fold_left_inv sorted_by_start); [exact I|].
  intros acc [k0 [so eo]] _ H. cbn [fst snd]. destruct so; [apply insert_tt_sorted; exact H | exact H].
Qed.

Lemma entry_steps : forall (m : amap) k, In k (map step_of (flat_map entry m)) -> In k (keys m).
Proof.
  induction m as [|kv m IH]; intros k H; simpl in *; [exact H|].
  rewrite map_app, in_app_iff in H. destruct H as [H|H]; [|right; apply IH; exact H].
  unfold entry in H. destruct (fst (snd kv)); [|destruct H]. destruct H as [<-|[]]. left. reflexivity.
Qed.

Lemma entry_nodup : forall (m : amap), NoDup (keys m) -> NoDup (map step_of (flat_map entry m)).
Proof.
  induction m as [|kv m IH]; intros H; simpl; [constructor|]. inversion H as [|? ? Hni Hn]; subst.
  rewrite map_app. unfold entry at 1. destruct (fst (snd kv)); simpl; [|apply IH; exact Hn].
  constructor; [|apply IH; exact Hn]. intros HI. apply Hni. apply entry_steps. exact HI.
Qed.

Lemma tt_find_in : forall p x, NoDup (map step_of p) -> In x p -> tt_find (step_of x) p = Some x.
Proof.
  induction p as [|y p IH]; intros x Hn HI; [destruct HI|]. simpl. inversion Hn as [|? ? Hni Hn']; subst.
  destruct HI as [->|HI]; [rewrite N.eqb_refl; reflexivity|].
  destruct (N.eqb_spec (step_of y) (step_of x)) as [E|_]; [|apply IH; assumption].
  exfalso. apply Hni. rewrite E. apply in_map. exact HI.
Qed.

Lemma model_of_find s n q : find n (s_dist s) = Some q -> model_of s n = - q.
Proof. intros Hf. unfold model_of, getd. rewrite Hf. reflexivity. Qed.

(* the entry of action instance k in the time-triggered plan: its START node has to be in _distances *)
Definition tt_entry (s : stn) (k : N) : ttstep :=
  (model_of s (snode k), k,
   match find (enode k) (s_dist s) with Some _ => Some (model_of s (enode k) - model_of s (snode k)) | None => None end).

Lemma entry_back_map s k :
  entry (k, (oneg (find (snode k) (s_dist s)), oneg (find (enode k) (s_dist s)))) =
  match find (snode k) (s_dist s) with Some _ => [tt_entry s k] | None => [] end.
Proof.
  unfold entry, tt_entry, model_of, getd. simpl. destruct (find (snode k) (s_dist s)); [|reflexivity].
  destruct (find (enode k) (s_dist s)); reflexivity.
Qed.

Lemma to_tt_in s x : NoDup (keys (s_dist s)) ->
  In x (to_tt s) <-> exists k, find (snode k) (s_dist s) <> None /\ x = tt_entry s k.
Proof.
  intros Hn.
  assert (Hperm : In x (to_tt s) <-> In x (flat_map entry (back_map s))).
  { split; apply Permutation_in; [|apply Permutation_sym]; apply to_tt_perm. }
  rewrite Hperm, in_flat_map. split.
  - intros ([k v] & Hm & Hx). apply (back_map_in s k v Hn) in Hm. destruct Hm as [_ ->]. rewrite entry_back_map in Hx.
    exists k. destruct (find (snode k) (s_dist s)); [|destruct Hx]. destruct Hx as [<-|[]]. split; [discriminate | reflexivity].
  - intros (k & Hk & ->). eexists (k, _). split; [apply back_map_in; [exact Hn|]; split; [left; exact Hk | reflexivity]|].
    rewrite entry_back_map. destruct (find (snode k) (s_dist s)); [left; reflexivity | congruence].
Qed.

Lemma to_tt_nodup s : NoDup (keys (s_dist s)) -> NoDup (map step_of (to_tt s)).
Proof.
  intros Hn. eapply Permutation_NoDup; [apply Permutation_sym, Permutation_map, to_tt_perm|].
  apply entry_nodup, back_map_nodup.
Qed.

Lemma to_tt_steps s k : NoDup (keys (s_dist s)) -> In k (map step_of (to_tt s)) <-> find (snode k) (s_dist s) <> None.
Proof.
  intros Hn. rewrite in_map_iff. split.
  - intros (x & E & HI). apply (to_tt_in s x Hn) in HI. destruct HI as (k' & Hk & ->). unfold step_of, tt_entry in E. simpl in E.
    subst k'. exact Hk.
  - intros Hk. exists (tt_entry s k). split; [reflexivity | apply to_tt_in; eauto].
Qed.

(* the time of a node of an action instance, read back from the converted plan, is its time in the network, provided
   _distances holds the START node of every action instance whose END node it holds *)
Lemma tt_time_to_tt s ge n : NoDup (keys (s_dist s)) ->
  (forall k, find (enode k) (s_dist s) <> None -> find (snode k) (s_dist s) <> None) ->
  (2 <= n)%N -> find n (s_dist s) <> None -> tt_time (to_tt s) ge n == model_of s n.
Proof.
  intros Hnd Hes Hn2 Kn.
  unfold tt_time. destruct (N.eqb_spec n start_plan) as [E|_]; [unfold start_plan in E; lia|].
  destruct (N.eqb_spec n end_plan) as [E|_]; [unfold end_plan in E; lia|].
  pose proof (node_split n Hn2) as Hsplit. set (k := ((n - 2) / 2)%N) in *.
  assert (Hf : find (snode k) (s_dist s) <> None -> tt_find k (to_tt s) = Some (tt_entry s k)).
  { intros Ks. apply (tt_find_in _ (tt_entry s k)); [apply to_tt_nodup; exact Hnd | apply to_tt_in; eauto]. }
  destruct (N.even n) eqn:Ev.
  - rewrite Hf by (rewrite <- Hsplit; exact Kn). rewrite Hsplit. reflexivity.
  - rewrite Hf by (apply Hes; rewrite <- Hsplit; exact Kn). unfold tt_entry. rewrite <- Hsplit.
    destruct (find n (s_dist s)) eqn:Fn; [|congruence]. simpl. ring.
Qed.

(* _convert_to_time_triggered raises nothing when no time is negative and no START node is missing *)
Lemma back_convert_ok s : NoDup (keys (s_dist s)) ->
  (forall k, find (enode k) (s_dist s) <> None -> find (snode k) (s_dist s) <> None) ->
  (forall n, 0 <= model_of s n) -> back_convert s = BackPlan (to_tt s).
Proof.
  intros Hnd Hes Hnn. unfold back_convert.
  assert (H1 : forallb (fun kv : N * Q => Qle_bool (snd kv) 0) (distances s) = true).
  { apply forallb_forall. intros [k q] HI. simpl. apply Qle_bool_iff. unfold distances in HI.
    pose proof (Hnn k) as Hk. rewrite (model_of_find _ _ _ (find_in_nodup _ _ _ Hnd HI)) in Hk. lra. }
  assert (H2 : forallb has_start (back_map s) = true).
  { apply forallb_forall. intros [k v] HI. apply (back_map_in s k v Hnd) in HI. destruct HI as [Hk ->].
    assert (Hst : find (snode k) (s_dist s) <> None) by (destruct Hk as [Hk|Hk]; [exact Hk | apply Hes, Hk]).
    unfold has_start. simpl. destruct (find (snode k) (s_dist s)); [reflexivity | congruence]. }
  rewrite H1, H2. reflexivity.
Qed.

Lemma init_adds_nodes cs x y bb : In (x, y, bb) (init_adds cs) -> init_node cs x /\ init_node cs y.
Proof.
  intros H. assert (Ho : In (IAdd (x, y, bb)) (init_ops cs)).
  { destruct H as [E|H]; [left; rewrite E; reflexivity | right].
    apply in_flat_map in H. destruct H as ([[[a lb] ub] b] & Hin & H). apply in_flat_map. exists (a, lb, ub, b). split; [exact Hin|].
    simpl in H |- *. rewrite app_assoc in H. apply in_app_or in H. apply in_or_app. destruct H as [H|H].
    - left. apply in_map. exact H.
    - right. unfold interval_ops. destruct lb, ub; try (apply in_map; exact H). destruct H. }
  split; eapply init_ops_nodes; try exact Ho; simpl; auto.
Qed.

Lemma init_node_lower cs x : init_node cs x -> x = start_plan \/ In (start_plan, x, - 0) (init_adds cs).
Proof.
  intros [->|[->|H]]; [left; reflexivity | right; left; reflexivity |].
  destruct (N.eqb_spec x start_plan) as [->|Hne]; [left; reflexivity | right].
  apply in_flat_map in H. destruct H as ([[[a lb] ub] b] & Hin & H). right. apply in_flat_map. exists (a, lb, ub, b).
  split; [exact Hin|]. simpl. assert (Hna : In (start_plan, x, - 0) (node_adds x)).
  { unfold node_adds. destruct (N.eqb_spec x start_plan); [contradiction|]. left. reflexivity. }
  simpl in H. destruct H as [<-|[<-|[]]]; [apply in_or_app; left | apply in_or_app; right; apply in_or_app; left]; exact Hna.
Qed.

Definition in_adds (n : N) (A : list cstr) : bool := existsb (fun c => (fst (fst c) =? n)%N || (snd (fst c) =? n)%N) A.

Lemma in_adds_l x y b A : In (x, y, b) A -> in_adds x A = true /\ in_adds y A = true.
Proof.
  intros H. split; apply existsb_exists; exists (x, y, b); (split; [exact H|]); simpl; rewrite N.eqb_refl; [reflexivity | apply orb_true_r].
Qed.

Lemma model_start_zero fuel cs s : stn_plan_init fuel cs = Some s -> check_stn s = true -> model_of s start_plan == 0.
Proof.
  intros H Hs. destruct (back_times_solve _ _ _ H Hs) as (_ & Hnn & Hleast).
  unfold stn_plan_init in H. destruct (stn_model_least_nonneg fuel 0 _ s (Qeq_refl 0) H Hs) as (Hsol & _ & _).
  set (m := model_of s) in *. set (A := init_adds cs) in *.
  set (t := fun x => if in_adds x A then m x - m start_plan else m x).
  assert (Hlow : forall x, in_adds x A = true -> m start_plan <= m x).
  { intros x Hx. apply existsb_exists in Hx. destruct Hx as ([[a b] bb] & HI & Hor). simpl in Hor.
    destruct (init_adds_nodes cs a b bb HI) as [Na Nb].
    assert (Nx : init_node cs x).
    { apply orb_true_iff in Hor. destruct Hor as [E|E]; apply N.eqb_eq in E; subst; assumption. }
    destruct (init_node_lower cs x Nx) as [->|HL]; [lra|]. specialize (Hsol _ HL). simpl in Hsol. fold m in Hsol. lra. }
  assert (Ht : nonneg t).
  { intros x. unfold t. destruct (in_adds x A) eqn:E; [specialize (Hlow x E); lra | apply Hnn]. }
  assert (Hts : solution t A).
  { intros [[x y] b] HI. destruct (in_adds_l _ _ _ _ HI) as [Ex Ey]. simpl. unfold t. rewrite Ex, Ey.
    specialize (Hsol _ HI). simpl in Hsol. fold m in Hsol. lra. }
  specialize (Hleast t Ht Hts start_plan). fold m in Hleast. unfold t in Hleast.
  assert (E0 : in_adds start_plan A = true) by (apply (in_adds_l start_plan end_plan (- 0)); left; reflexivity).
  rewrite E0 in Hleast. specialize (Hnn start_plan). fold m in Hnn. lra.
Qed.

Lemma mentioned_in n cs : mentioned n cs = true <-> In n (nodes_of cs).
Proof.
  unfold mentioned. rewrite existsb_exists. split; [intros (x & HI & E); apply N.eqb_eq in E; subst; exact HI | intros H; exists n; split; [exact H | apply N.eqb_refl]].
Qed.

Lemma init_adds_mentions cs n : init_node cs n -> exists x y b, In (x, y, b) (init_adds cs) /\ (x = n \/ y = n).
Proof.
  intros H. destruct (init_node_lower cs n H) as [->|HL].
  - exists start_plan, end_plan, (- 0). split; [left; reflexivity | left; reflexivity].
  - exists start_plan, n, (- 0). split; [exact HL | right; reflexivity].
Qed.

Lemma sat_pcon_ext t t' c : (forall n, In n (pcon_nodes c) -> t n == t' n) -> sat_pcon t c -> sat_pcon t' c.
Proof.
  destruct c as [[[a lb] ub] b]. intros He [H1 H2]. pose proof (He a (or_introl eq_refl)) as Ea.
  pose proof (He b (or_intror (or_introl eq_refl))) as Eb. unfold sat_pcon. split.
  - destruct lb; [|exact I]. rewrite <- Ea, <- Eb. exact H1.
  - destruct ub; [|exact I]. rewrite <- Ea, <- Eb. exact H2.
Qed.

(* the keys of _distances of a consistent STN plan are exactly the nodes its constructor touches *)
Lemma back_init_keys fuel cs s : back_init fuel cs = Some s -> check_stn s = true ->
  NoDup (keys (s_dist s)) /\ forall n, find n (s_dist s) <> None <-> init_node cs n.
Proof.
  intros Hb Hs. pose proof (back_init_kinv _ _ _ Hb) as [[Hnd Hkeys] _]. split; [exact Hnd|]. intros n. split.
  - intros Hf. apply Hkeys, find_some_in, Hf.
  - intros Hn. pose proof (stn_plan_init_inv _ _ _ (back_init_sat_eq _ _ _ Hb Hs)) as Hinv.
    destruct (init_adds_mentions cs n Hn) as (x & y & b & HI & Hor).
    destruct (i_known _ _ (inv_checked _ _ Hinv Hs) _ _ _ HI) as [Kx Ky]. destruct Hor; subst; assumption.
Qed.

Lemma init_node_mentioned cs n : (2 <= n)%N -> (init_node cs n <-> mentioned n cs = true).
Proof.
  intros Hn. rewrite mentioned_in. unfold init_node, start_plan, end_plan.
  split; [intros [E|[E|E]]; [lia | lia | exact E] | auto].
Qed.

Lemma back_convert_facts fuel cs s :
  back_init fuel cs = Some s -> check_stn s = true -> starts_present cs = true ->
  exists plan, back_convert s = BackPlan plan /\ back_facts cs s plan.
Proof.
  intros Hb Hs Hsp.
  destruct (back_init_keys _ _ _ Hb Hs) as [Hnd Hkey].
  pose proof (back_init_sat_eq _ _ _ Hb Hs) as Hp.
  destruct (back_times_solve _ _ _ Hp Hs) as (_ & Hnn & _).
  assert (Hsn : forall k, find (snode k) (s_dist s) <> None <-> mentioned (snode k) cs = true).
  { intros k. rewrite Hkey. apply init_node_mentioned. unfold snode. lia. }
  assert (Hen : forall k, find (enode k) (s_dist s) <> None <-> mentioned (enode k) cs = true).
  { intros k. rewrite Hkey. apply init_node_mentioned. unfold enode. lia. }
  assert (Hes : forall k, find (enode k) (s_dist s) <> None -> find (snode k) (s_dist s) <> None).
  { intros k Hm. apply Hen, mentioned_in in Hm. apply Hsn. unfold starts_present in Hsp. rewrite forallb_forall in Hsp.
    specialize (Hsp _ Hm). destruct (enode_idx k) as (_ & E2 & E3). rewrite E2, E3, enode_pred in Hsp. exact Hsp. }
  exists (to_tt s). split; [apply back_convert_ok; assumption|].
  constructor.
  - apply to_tt_sorted.
  - apply to_tt_nodup. exact Hnd.
  - intros k. rewrite <- Hsn. apply to_tt_steps. exact Hnd.
  - intros st k du HI. apply (to_tt_in s _ Hnd) in HI. destruct HI as (k' & Hk & E). inversion E. subst k' st du. clear E.
    split; [reflexivity|]. split; [apply Hnn|].
    destruct (find (enode k) (s_dist s)) eqn:F2.
    + split; [apply Hen; congruence | reflexivity].
    + destruct (mentioned (enode k) cs) eqn:E; [|reflexivity]. apply Hen in E. congruence.
  - intros n Hn. destruct (N.eq_dec n start_plan) as [->|N0]; [symmetry; exact (model_start_zero _ _ _ Hp Hs)|].
    destruct (N.eq_dec n end_plan) as [->|N1]; [reflexivity|].
    apply tt_time_to_tt; [exact Hnd | exact Hes | unfold start_plan, end_plan in *; lia | apply Hkey; exact Hn].
Qed.
Lemma back_times_satisfy_stn fuel cs s :
  back_init fuel cs = Some s -> check_stn s = true -> starts_present cs = true ->
  exists plan, back_convert s = BackPlan plan /\ back_facts cs s plan /\
    (forall c, In c cs -> sat_pcon (tt_time plan (model_of s end_plan)) c) /\
    (forall st k d, In (st, k, Some d) plan -> dur_nonneg_in k cs -> 0 <= d) /\
    (forall t, nonneg t -> solution t (init_adds cs) ->
       forall n, init_node cs n -> tt_time plan (model_of s end_plan) n <= t n).
Proof.
  intros Hb Hs Hsp. destruct (back_convert_facts _ _ _ Hb Hs Hsp) as (plan & Hc & Hf).
  pose proof (back_init_sat_eq _ _ _ Hb Hs) as Hp.
  destruct (back_times_solve _ _ _ Hp Hs) as (Hsat & Hnn & Hleast).
  exists plan. split; [exact Hc|]. split; [exact Hf|]. split; [|split].
  - intros c Hin. apply (sat_pcon_ext (model_of s)); [|apply Hsat; exact Hin].
    intros n Hn. symmetry. apply (bf_time _ _ _ Hf). right. right. apply in_flat_map. exists c. split; assumption.
  - intros st k d HI (l & ub & Hin & Hl). destruct (bf_entry _ _ _ Hf _ _ _ HI) as (E1 & _ & _ & E2).
    destruct (Hsat _ Hin) as [H1 _]. simpl in H1. lra.
  - intros t Ht Hts n Hn. rewrite (bf_time _ _ _ Hf n Hn). apply Hleast; assumption.
Qed.

(* an inconsistent STN plan has no schedule at all: whatever plan comes out of the back conversion violates a constraint *)
Lemma back_inconsistent_no_schedule fuel cs s :
  back_init fuel cs = Some s -> check_stn s = false ->
  forall t, (forall n, node_ok t n) -> ~ (forall c, In c cs -> sat_pcon t c).
Proof.
  intros Hb Hs t Hn Hc. pose proof (back_init_consistent_iff _ _ _ Hb) as [_ H].
  rewrite H in Hs; [discriminate|]. exists t. apply init_adds_solution; assumption.
Qed.

(* ... but _convert_to_time_triggered never looks at is_consistent(): witness  a.start + 1 <= b.start,
   b.start + 1 <= a.start, b.end = b.start + 3  (a = action instance 0, b = action instance 1) *)
Definition wit_inconsistent : list pcon :=
  [ (2%N, Some 1, None, 4%N); (4%N, Some 1, None, 2%N); (4%N, Some 3, Some 3, 5%N) ].
Definition wit_inconsistent_plan : list ttstep := [ (- - (2), 0%N, None); (- - (3), 1%N, None) ].
Definition wit_run := back_of_constraints 100 wit_inconsistent.

Lemma inconsistent_rejected_refuted :
  exists cs s plan, back_init 100 cs = Some s /\ check_stn s = false /\ back_convert s = BackPlan plan /\ plan <> [].
Proof.
  exists wit_inconsistent. eexists. exists [ (2, 0%N, None); (3, 1%N, None) ].
  split; [vm_compute; reflexivity|]. split; [reflexivity|]. split; [vm_compute; reflexivity | discriminate].
Qed.

(* nothing in an STN plan forces END >= START: START of action instance 0 at least 5 after GLOBAL_START, END only >= 0 *)
Definition wit_negative : list pcon := [ (0%N, Some 5, None, 2%N); (0%N, Some 0, None, 3%N) ].
Lemma negative_duration_possible :
  exists s, back_init 100 wit_negative = Some s /\ check_stn s = true /\ starts_present wit_negative = true /\
            back_convert s = BackPlan [ (5, 0%N, Some (- (5))) ].
Proof. eexists. split; [vm_compute; reflexivity|]. split; [reflexivity|]. split; vm_compute; reflexivity. Qed.

(* an END node without its START node: the implementation raises *)
Lemma end_without_start_raises :
  exists s, back_init 100 [ (0%N, Some 5, None, 3%N) ] = Some s /\ check_stn s = true /\ back_convert s = BackError.
Proof. eexists. split; [vm_compute; reflexivity|]. split; vm_compute; reflexivity. Qed.
(* the nodes that can occur: GLOBAL_START, START of a plan step, END of a durative plan step *)
Definition plan_node (plan : list step) (n : N) : Prop :=
  n = start_plan \/
  exists k stp, nth_error plan k = Some stp /\ (n = start_node (S k) \/ (n = end_node (S k) /\ st_dur stp <> None)).

Definition nodes_ok (plan : list step) (k : N) (v : oq * oq * N) : Prop := plan_node plan k /\ plan_node plan (snd v).

Lemma gen_node effs conds plan g st : nth_error (mock_step effs conds :: plan) g = Some st -> plan_node plan (start_node g).
Proof.
  destruct g as [|k]; [left; reflexivity|]. simpl. intros H. right. exists k, st. split; [exact H | left; reflexivity].
Qed.

Lemma base_entry_nodes effs conds plan g st k v :
  nth_error (mock_step effs conds :: plan) g = Some st -> base_entry g st = Some (k, v) -> nodes_ok plan k v.
Proof.
  intros H0 He. unfold base_entry in He. destruct (st_dur st) as [d|] eqn:Ed.
  - destruct g as [|j]; [discriminate|]. inversion He; subst. split; [eapply gen_node; exact H0|].
    simpl. simpl in H0. right. exists j, st. split; [exact H0|]. right. split; [reflexivity | congruence].
  - inversion He; subst. split; [left; reflexivity | eapply gen_node; exact H0].
Qed.

Lemma edge_entry_nodes eps effs conds plan evs ij k v :
  (forall e, In e evs -> ev_wf (mock_step effs conds :: plan) e) ->
  edge_entry eps evs ij = Some (k, v) -> nodes_ok plan k v.
Proof.
  intros Hwf He. unfold edge_entry in He.
  destruct (nth_error evs (fst ij)) as [a|] eqn:Ea; [|discriminate].
  destruct (nth_error evs (snd ij)) as [b|] eqn:Eb; [|discriminate].
  destruct (Hwf a (nth_error_In _ _ Ea)) as (sa & Ha & _). destruct (Hwf b (nth_error_In _ _ Eb)) as (sb & Hb & _).
  unfold edge_constraint in He. destruct (Nat.eqb _ _); [discriminate|].
  destruct (Qeq_bool _ _); inversion He; subst; (split; [eapply gen_node; eassumption | simpl; eapply gen_node; eassumption]).
Qed.

Lemma snode_start_node i : snode (N.of_nat i) = start_node (S i).
Proof. reflexivity. Qed.
Lemma enode_end_node i : enode (N.of_nat i) = end_node (S i).
Proof. reflexivity. Qed.

Lemma plan_node_snode plan k : plan_node plan (snode k) -> exists stp, nth_error plan (N.to_nat k) = Some stp.
Proof.
  intros [E|(i & stp & Hn & [E|[E _]])].
  - unfold snode, start_plan in E. lia.
  - rewrite <- snode_start_node in E. apply snode_inj in E. subst k. rewrite Nat2N.id. eauto.
  - rewrite <- enode_end_node in E. apply snode_enode in E. destruct E.
Qed.

Lemma plan_node_enode plan k : plan_node plan (enode k) -> exists stp, nth_error plan (N.to_nat k) = Some stp /\ st_dur stp <> None.
Proof.
  intros [E|(i & stp & Hn & [E|[E Hd]])].
  - unfold enode, start_plan in E. lia.
  - rewrite <- snode_start_node in E. symmetry in E. apply snode_enode in E. destruct E.
  - rewrite <- enode_end_node in E. apply enode_inj in E. subst k. rewrite Nat2N.id. eauto.
Qed.

(* the constraints of the converted plan: which nodes occur *)
Lemma conv_nodes eps effs conds plan edges :
  let cs := flatten (conv_constraints eps (mock_step effs conds) plan edges) in
  (forall n, In n (nodes_of cs) -> plan_node plan n) /\
  (forall i stp, nth_error plan i = Some stp ->
     In (start_node (S i)) (nodes_of cs) /\
     match st_dur stp with
     | Some d => In (start_node (S i), Some d, Some d, end_node (S i)) cs
     | None => True
     end).
Proof.
  intros cs. unfold cs, conv_constraints.
  set (mock := mock_step effs conds). set (evs := plan_events eps mock plan).
  set (m := add_edges eps evs edges (base_constraints 0 (mock :: plan) [])).
  assert (Hall : forall k v, din k v m -> nodes_ok plan k v).
  { intros k v Hd. apply din_add_edges in Hd. destruct Hd as [Hd|(ij & _ & He)].
    - apply din_base in Hd. destruct Hd as [(l & [] & _)|(i & st & Hi & He)]. eapply base_entry_nodes; eauto.
    - eapply edge_entry_nodes; [|exact He]. intros e Hin. eapply plan_events_wf; exact Hin. }
  assert (Hne : no_empty m) by (apply no_empty_add_edges, no_empty_base; intros k l []).
  split.
  - intros n Hn. apply in_flat_map in Hn. destruct Hn as (c & Hc & Hn).
    destruct (flatten_in m c Hc) as [(k & v & Hd & ->)|(k & Hk & _)]; [|exfalso; exact (Hne _ _ Hk eq_refl)].
    destruct (Hall _ _ Hd) as [Q1 Q2]. unfold mk_pcon in Hn. simpl in Hn. destruct Hn as [<-|[<-|[]]]; assumption.
  - intros i stp Hi.
    assert (B4 : forall k v, base_entry (S i) stp = Some (k, v) -> In (mk_pcon k v) (flatten m)).
    { intros k v He. apply flatten_din, din_add_edges. left. apply din_base. right. exists (S i), stp. auto. }
    unfold base_entry in B4. destruct (st_dur stp) as [d|] eqn:Ed; specialize (B4 _ _ eq_refl).
    + split; [|exact B4]. apply in_flat_map. eexists. split; [exact B4|]. left. reflexivity.
    + split; [|exact I]. apply in_flat_map. eexists. split; [exact B4|]. right. left. reflexivity.
Qed.

Lemma conv_starts_present eps effs conds plan edges :
  starts_present (flatten (conv_constraints eps (mock_step effs conds) plan edges)) = true.
Proof.
  destruct (conv_nodes eps effs conds plan edges) as [N1 N2].
  unfold starts_present. apply forallb_forall. intros n Hn. destruct (N1 n Hn) as [->|(i & stp & Hi & [->|[-> Hd]])].
  - reflexivity.
  - rewrite <- snode_start_node. destruct (snode_idx (N.of_nat i)) as (_ & -> & _). rewrite orb_true_r. reflexivity.
  - rewrite <- enode_end_node, enode_pred, snode_start_node.
    apply orb_true_iff. right. apply mentioned_in. apply (N2 i stp Hi).
Qed.

(* the back conversion of a converted plan: [back_facts], the same action instances, every constraint satisfied, no
   node later than in the original plan *)
Lemma back_forward_facts eps effs conds plan edges fuel s :
  times_nonneg plan = true ->
  gap_ok eps (plan_events eps (mock_step effs conds) plan) = true ->
  edges_forward (length (plan_events eps (mock_step effs conds) plan)) edges = true ->
  convert_to_stn fuel eps (mock_step effs conds) plan edges = Some s ->
  let cs := flatten (conv_constraints eps (mock_step effs conds) plan edges) in
  check_stn s = true /\ back_init fuel cs = Some s /\
  exists bp, back_convert s = BackPlan bp /\ back_facts cs s bp /\ same_instances plan bp /\
    (forall c, In c cs -> sat_pcon (tt_time bp (model_of s end_plan)) c) /\
    (forall x, model_of s x <= orig_time plan x).
Proof.
  intros Hnn Hg Hf Hc cs.
  destruct (roundtrip_partial eps effs conds plan edges fuel s Hnn Hg Hf Hc) as (Hs & _ & Hsat & _ & Hle).
  unfold convert_to_stn in Hc. fold cs in Hc.
  pose proof (back_init_of_plan_init _ _ _ Hc Hs) as Hb.
  destruct (conv_nodes eps effs conds plan edges) as [N1 N2]. fold cs in N1, N2.
  pose proof (conv_starts_present eps effs conds plan edges) as Hsp. fold cs in Hsp.
  destruct (back_times_satisfy_stn fuel cs s Hb Hs Hsp) as (bp & Hbc & Hfacts & Hall & _ & _).
  split; [exact Hs|]. split; [exact Hb|]. exists bp. split; [exact Hbc|]. split; [exact Hfacts|].
  split; [|split; [exact Hall | exact Hle]].
  split; [apply (bf_nodup _ _ _ Hfacts)|]. split.
  - intros k. rewrite (bf_steps _ _ _ Hfacts), mentioned_in. split.
    + intros Hn. destruct (plan_node_snode plan k (N1 _ Hn)) as (stp & Hk). apply nth_error_Some. congruence.
    + intros Hlt. apply nth_error_Some in Hlt. destruct (nth_error plan (N.to_nat k)) as [stp|] eqn:Hk; [|congruence].
      destruct (N2 _ _ Hk) as [H1 _]. rewrite <- snode_start_node, N2Nat.id in H1. exact H1.
  - intros st k du HI. destruct (bf_entry _ _ _ Hfacts _ _ _ HI) as (E1 & _ & E3).
    assert (Hk : In k (map step_of bp)) by (apply in_map_iff; exists (st, k, du); split; [reflexivity | exact HI]).
    apply (bf_steps _ _ _ Hfacts) in Hk. apply mentioned_in in Hk.
    destruct (plan_node_snode plan k (N1 _ Hk)) as (stp & Hstp). exists stp. split; [exact Hstp|].
    destruct (N2 _ _ Hstp) as [_ H2]. rewrite <- snode_start_node, <- enode_end_node, N2Nat.id in H2.
    destruct (st_dur stp) as [d'|] eqn:Ed.
    + assert (Hm : mentioned (enode k) cs = true).
      { apply mentioned_in. apply in_flat_map. eexists. split; [exact H2|]. right. left. reflexivity. }
      destruct du as [d|]; [|congruence]. destruct E3 as [_ E3].
      destruct (Hsat _ H2) as [S1 S2]. simpl in S1, S2. lra.
    + destruct du as [d|]; [|exact I]. destruct E3 as [Hm _]. apply mentioned_in in Hm.
      destruct (plan_node_enode plan k (N1 _ Hm)) as (stp' & Hstp' & Hd). congruence.
Qed.

Lemma back_forward_roundtrip eps effs conds plan edges fuel s :
  times_nonneg plan = true ->
  gap_ok eps (plan_events eps (mock_step effs conds) plan) = true ->
  edges_forward (length (plan_events eps (mock_step effs conds) plan)) edges = true ->
  convert_to_stn fuel eps (mock_step effs conds) plan edges = Some s ->
  let cs := flatten (conv_constraints eps (mock_step effs conds) plan edges) in
  check_stn s = true /\ back_init fuel cs = Some s /\
  exists bp, back_convert s = BackPlan bp /\ sorted_by_start bp /\ same_instances plan bp /\
    (forall c, In c cs -> sat_pcon (tt_time bp (model_of s end_plan)) c) /\
    (forall st k du, In (st, k, du) bp -> 0 <= st /\ st <= orig_time plan (snode k)).
Proof.
  intros Hnn Hg Hf Hc cs.
  destruct (back_forward_facts eps effs conds plan edges fuel s Hnn Hg Hf Hc) as (Hs & Hb & bp & Hbc & Hfacts & Hsame & Hall & Hle).
  split; [exact Hs|]. split; [exact Hb|]. exists bp. split; [exact Hbc|]. split; [apply (bf_sorted _ _ _ Hfacts)|].
  split; [exact Hsame|]. split; [exact Hall|].
  intros st k du HI. destruct (bf_entry _ _ _ Hfacts _ _ _ HI) as (E1 & E2 & _).
  split; [exact E2|]. rewrite E1. apply Hle.
Qed.
Lemma retime_from_nth s : forall plan k0 i stp,
  nth_error plan i = Some stp ->
  exists stp', nth_error (retime_from s k0 plan) i = Some stp' /\
               st_start stp' = model_of s (start_node (S (k0 + i))) /\ st_dur stp' = st_dur stp /\
               st_effs stp' = st_effs stp /\ st_conds stp' = st_conds stp /\ st_dyn stp' = st_dyn stp.
Proof.
  induction plan as [|st plan IH]; intros k0 i stp H; [destruct i; discriminate|].
  destruct i as [|i]; simpl in H.
  - inversion H; subst. eexists. split; [reflexivity|]. rewrite Nat.add_0_r. simpl. auto.
  - destruct (IH (S k0) i stp H) as (stp' & H1 & H2). exists stp'. split; [exact H1|].
    replace (k0 + S i)%nat with (S k0 + i)%nat by lia. exact H2.
Qed.

(* every entry of back(forward(pi)) is the step of [retime s pi] at the same position: same start (up to Qeq), same
   duration (up to Qeq), and [retime] keeps the action (effects, conditions) of the original step *)
Lemma back_forward_is_retime eps effs conds plan edges fuel s bp :
  times_nonneg plan = true ->
  gap_ok eps (plan_events eps (mock_step effs conds) plan) = true ->
  edges_forward (length (plan_events eps (mock_step effs conds) plan)) edges = true ->
  convert_to_stn fuel eps (mock_step effs conds) plan edges = Some s ->
  back_convert s = BackPlan bp ->
  length bp = length plan /\
  forall st k du, In (st, k, du) bp ->
    exists stp', nth_error (retime s plan) (N.to_nat k) = Some stp' /\ st == st_start stp' /\
      match du, st_dur stp' with Some d, Some d' => d == d' | None, None => True | _, _ => False end.
Proof.
  intros Hnn Hg Hf Hc Hbc.
  destruct (back_forward_facts eps effs conds plan edges fuel s Hnn Hg Hf Hc) as (_ & _ & bp' & Hbc' & Hfacts & Hsame & _ & _).
  rewrite Hbc in Hbc'. inversion Hbc'; subst bp'. clear Hbc'.
  destruct Hsame as (Hnd & Hsteps & Hent).
  split.
  - (* the steps of bp are exactly 0 .. length plan - 1, without repetition *)
    assert (Hperm : Permutation (map N.to_nat (map step_of bp)) (seq 0 (length plan))).
    { apply NoDup_Permutation.
      - apply FinFun.Injective_map_NoDup; [intros a b E; apply N2Nat.inj; exact E | exact Hnd].
      - apply seq_NoDup.
      - intros x. rewrite in_seq. split.
        + intros HI. apply in_map_iff in HI. destruct HI as (k & <- & HI). apply Hsteps in HI. lia.
        + intros [_ Hx]. apply in_map_iff. exists (N.of_nat x). split; [apply Nat2N.id|]. apply Hsteps. rewrite Nat2N.id. exact Hx. }
    apply Permutation_length in Hperm. rewrite !map_length, seq_length in Hperm. exact Hperm.
  - intros st k du HI. destruct (Hent _ _ _ HI) as (stp & Hstp & Hdu).
    destruct (retime_from_nth s plan 0%nat _ _ Hstp) as (stp' & R1 & R2 & R3 & _).
    exists stp'. split; [exact R1|]. destruct (bf_entry _ _ _ Hfacts _ _ _ HI) as (E1 & _ & _).
    split.
    + rewrite R2, E1. simpl Nat.add. rewrite <- snode_start_node, N2Nat.id. reflexivity.
    + rewrite R3. exact Hdu.
Qed.

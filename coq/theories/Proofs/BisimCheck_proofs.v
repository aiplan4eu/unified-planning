(* Soundness of the bisimulation checker of Compilers/BisimCheck.v (C18, C19, C21). *)
From Coq Require Import List ZArith NArith QArith Qcanon Bool Lia.
Import ListNotations.
Require Import UPV.Core.Expr UPV.Core.Eval UPV.Core.Interp UPV.Planning.Problem UPV.Planning.Sem UPV.Planning.SeqValidate.
Require Import UPV.Proofs.Eval_lemmas UPV.Proofs.Sem_proofs UPV.Proofs.Step_proofs.
Require Import UPV.Compilers.BisimCheck.

Lemma lookup_app_app f a u l :
  lookup_app f a (u ++ l) = match lookup_app f a u with Some v => Some v | None => lookup_app f a l end.
Proof.
  induction u as [|[[g b] v] u IH]; simpl; [reflexivity|].
  destruct ((f =? g)%N && values_eqb a b); [reflexivity | exact IH].
Qed.

Lemma lookup_app_some_in f a l v : lookup_app f a l = Some v -> In (f, a, v) l.
Proof.
  induction l as [|[[g b] w] l IH]; simpl; [discriminate|].
  destruct ((f =? g)%N && values_eqb a b) eqn:E.
  - intros H; inversion H; subst. apply andb_true_iff in E. destruct E as [E1 E2].
    apply N.eqb_eq in E1. apply values_eqb_eq in E2. subst. left; reflexivity.
  - intros H; right; auto.
Qed.

Lemma state_eq_refl s : state_eq s s.
Proof. exact (Step_proofs.state_eq_refl s). Qed.

Lemma state_list_eqb_sound l1 l2 : state_list_eqb l1 l2 = true -> state_eq (st_of l1) (st_of l2).
Proof.
  intros H f a. unfold st_of. unfold state_list_eqb in H. rewrite forallb_forall in H.
  destruct (lookup_app f a l1) as [v1|] eqn:E1.
  - pose proof (H _ (in_or_app _ _ _ (or_introl (lookup_app_some_in _ _ _ _ E1)))) as H1. simpl in H1.
    rewrite E1 in H1. destruct (lookup_app f a l2) as [v2|]; simpl in H1; [|discriminate].
    apply value_eqb_eq in H1. subst; reflexivity.
  - destruct (lookup_app f a l2) as [v2|] eqn:E2; [|reflexivity].
    pose proof (H _ (in_or_app _ _ _ (or_intror (lookup_app_some_in _ _ _ _ E2)))) as H1. simpl in H1.
    rewrite E1, E2 in H1. discriminate.
Qed.

Lemma step_of_ext P s t i : state_eq s t -> ostate_eq (step_of P s i) (step_of P t i).
Proof. intros H. unfold step_of. destruct (lookup_action P (fst i)); [apply spec_step_ext, H | exact I]. Qed.

Section Upd.
  Variable P : problem.
  Variable s : state.
  Variable acts : list aeff.

  Let entry (x : aeff) : fstate :=
    match spec_fluent P s acts (ae_key x) with
    | CVal v => [(fst (ae_key x), snd (ae_key x), v)]
    | _ => []
    end.

  Lemma upd_lookup acts' f a :
    lookup_app f a (flat_map entry acts') =
    if existsb (fun x => gfl_eqb (f, a) (ae_key x)) acts'
    then match spec_fluent P s acts (f, a) with CVal v => Some v | _ => None end
    else None.
  Proof.
    induction acts' as [|x acts' IH]; [reflexivity|].
    cbn [flat_map existsb]. rewrite lookup_app_app.
    destruct (gfl_eqb (f, a) (ae_key x)) eqn:E.
    - pose proof E as E'. apply gfl_eqb_eq in E'. unfold entry at 1. rewrite <- E'. cbn [fst snd orb].
      destruct (spec_fluent P s acts (f, a)) as [|v|] eqn:SF.
      + cbn [lookup_app]. rewrite IH. destruct (existsb _ acts'); reflexivity.
      + cbn [lookup_app]. rewrite N.eqb_refl, values_eqb_refl. reflexivity.
      + cbn [lookup_app]. rewrite IH. destruct (existsb _ acts'); reflexivity.
    - cbn [orb]. unfold entry at 1.
      destruct (spec_fluent P s acts (ae_key x)) as [|v|]; cbn [lookup_app]; try exact IH.
      unfold gfl_eqb in E. cbn [fst snd] in E. rewrite E. exact IH.
  Qed.

  Lemma no_effect_unchanged k :
    existsb (fun x => gfl_eqb k (ae_key x)) acts = false -> spec_fluent P s acts k = CUnchanged.
  Proof.
    intros H. unfold spec_fluent, avals, deltas.
    assert (F : forall g, filter (fun a0 => gfl_eqb (ae_key a0) k && g a0) acts = []).
    { intros g. induction acts as [|x l IH]; [reflexivity|].
      cbn [existsb] in H. apply orb_false_iff in H. destruct H as [H1 H2].
      cbn [filter]. rewrite gfl_eqb_sym, H1. cbn [andb]. apply IH, H2. }
    rewrite (F is_assign), (F (fun a0 => negb (is_assign a0))). reflexivity.
  Qed.

  Lemma upd_of_lookup f a :
    lookup_app f a (upd_of P s acts) = match spec_fluent P s acts (f, a) with CVal v => Some v | _ => None end.
  Proof.
    unfold upd_of. fold entry. change (flat_map (fun a0 => entry a0) acts) with (flat_map entry acts).
    rewrite upd_lookup.
    destruct (existsb (fun x => gfl_eqb (f, a) (ae_key x)) acts) eqn:E; [reflexivity|].
    rewrite (no_effect_unchanged _ E). reflexivity.
  Qed.
End Upd.

Lemma upd_of_spec P l acts : state_eq (st_of (upd_of P (st_of l) acts ++ l)) (spec_succ P (st_of l) acts).
Proof.
  intros f a. unfold st_of at 1. rewrite lookup_app_app, upd_of_lookup. unfold spec_succ.
  destruct (spec_fluent P (st_of l) acts (f, a)); reflexivity.
Qed.

Definition rel_ls (a : option fstate) (b : option state) : Prop :=
  match a, b with
  | Some l, Some s => state_eq s (st_of l)
  | None, None => True
  | _, _ => False
  end.

Lemma fstep_a_spec P l a args : rel_ls (fstep_a P l a args) (spec_step false P (st_of l) a args).
Proof.
  unfold fstep_a, spec_step. cbv zeta.
  destruct (negb (all_hold false (mk_interp P (st_of l) (zip_params (a_params a) args)) (a_pre a))); [exact I|].
  destruct (fired false (mk_interp P (st_of l) (zip_params (a_params a) args)) (a_effs a)) as [acts|]; [|exact I].
  destruct (negb (spec_effects_ok P (st_of l) acts)); [exact I|].
  rewrite (invariants_ok_ext false P _ _ (upd_of_spec P l acts)).
  destruct (invariants_ok false P (spec_succ P (st_of l) acts)); [|exact I].
  simpl. apply state_eq_sym, upd_of_spec.
Qed.

Lemma fstep_spec P l i s : state_eq s (st_of l) -> rel_ls (fstep P l i) (step_of P s i).
Proof.
  intros H. unfold fstep, step_of.
  destruct (lookup_action P (fst i)) as [a|]; [|exact I].
  pose proof (fstep_a_spec P l a (snd i)) as F.
  pose proof (spec_step_ext false P s (st_of l) a (snd i) H) as E.
  destruct (fstep_a P l a (snd i)) as [l'|], (spec_step false P (st_of l) a (snd i)) as [s1|],
           (spec_step false P s a (snd i)) as [s2|]; simpl in *; try contradiction; try exact I.
  eapply state_eq_trans; eauto.
Qed.

Lemma zq1' : zq 1 = 1%Qc.
Proof. exact zq1. Qed.

Lemma step_metric_ext sc P M s t aid a args acc :
  state_eq s t -> step_metric sc P M s aid a args acc = step_metric sc P M t aid a args acc.
Proof.
  intros H. unfold step_metric. destruct M; try reflexivity.
  destruct (cost_expr (MCosts costs dflt) aid) as [e|]; [|reflexivity].
  rewrite (eval_ext sc e _ _ (mk_interp_ext P s t (zip_params (a_params a) args) H)). reflexivity.
Qed.

Lemma gains_ext sc I J gs : interp_eq I J -> gains sc I gs = gains sc J gs.
Proof.
  intros H. induction gs as [|[g w] gs IH]; simpl; [reflexivity|].
  rewrite (eval_ext sc g I J H), IH. reflexivity.
Qed.

Lemma final_metric_ext sc P M s t acc : state_eq s t -> final_metric sc P M s acc = final_metric sc P M t acc.
Proof.
  intros H. unfold final_metric. destruct M; try reflexivity.
  - rewrite (eval_ext sc e _ _ (mk_interp_ext P s t [] H)). reflexivity.
  - rewrite (gains_ext sc _ _ goals (mk_interp_ext P s t [] H)). reflexivity.
Qed.

Lemma step_metric_acc sc P M s aid a args acc :
  step_metric sc P M s aid a args acc =
  match step_metric sc P M s aid a args (zq 0) with Some d => Some (Qcplus d acc) | None => None end.
Proof.
  unfold step_metric. destruct M.
  - f_equal. rewrite zq0. ring.
  - destruct (cost_expr (MCosts costs dflt) aid) as [e|]; [|reflexivity].
    destruct (eval sc e (mk_interp P s (zip_params (a_params a) args))) as [[b|c|o]|]; try reflexivity.
    f_equal. rewrite zq0. ring.
  - f_equal. rewrite zq0. ring.
  - f_equal. rewrite zq0. ring.
  - f_equal. rewrite zq0. ring.
Qed.

Lemma final_metric_acc sc P Q M1 M2 s acc :
  mclass M1 = mclass M2 ->
  final_metric sc P M1 s (zq 0) = final_metric sc Q M2 s (zq 0) ->
  final_metric sc P M1 s acc = final_metric sc Q M2 s acc.
Proof.
  destruct M1, M2; simpl; intros C H; try discriminate C; try reflexivity; exact H.
Qed.

Lemma oqc_eqb_eq a b : oqc_eqb a b = true -> a = b.
Proof. destruct a, b; simpl; try discriminate; try reflexivity. intros H. apply qc_eqb_eq in H. subst; reflexivity. Qed.
Lemma ooqc_eqb_eq a b : ooqc_eqb a b = true -> a = b.
Proof. destruct a, b; simpl; try discriminate; try reflexivity. intros H. apply oqc_eqb_eq in H. subst; reflexivity. Qed.

Definition sdelta (P : problem) (M : metric) (s : state) (i : inst) : option Qc :=
  match lookup_action P (fst i) with
  | None => None
  | Some a => step_metric false P M s (fst i) a (snd i) (zq 0)
  end.

Lemma sdelta_ext P M s t i : state_eq s t -> sdelta P M s i = sdelta P M t i.
Proof. intros H. unfold sdelta. destruct (lookup_action P (fst i)); [apply step_metric_ext, H | reflexivity]. Qed.

Lemma vplan_nil P M s acc :
  vplan P M s acc [] =
  if goals_hold false P s then match final_metric false P M s acc with Some m => Valid m | None => Invalid end else Invalid.
Proof. reflexivity. Qed.

Lemma vplan_cons P M s acc i plan :
  vplan P M s acc (i :: plan) =
  match step_of P s i with
  | None => Invalid
  | Some s' => match sdelta P M s i with
               | None => Invalid
               | Some d => vplan P M s' (Qcplus d acc) plan
               end
  end.
Proof.
  destruct i as [aid args]. unfold vplan, step_of, sdelta. cbn [validate_from fst snd].
  destruct (lookup_action P aid) as [a|]; [|reflexivity].
  destruct (spec_step false P s a args) as [s'|]; [|reflexivity].
  rewrite step_metric_acc. destruct (step_metric false P M s aid a args (zq 0)); reflexivity.
Qed.

Lemma run_step_of P s i plan :
  run P (spec_step false P) s (i :: plan) =
  match step_of P s i with None => None | Some s' => run P (spec_step false P) s' plan end.
Proof.
  destruct i as [aid args]. unfold step_of. cbn [run fst snd].
  destruct (lookup_action P aid) as [a|]; reflexivity.
Qed.

Local Open Scope nat_scope.
Section Cert.
  Variables P Q : problem.
  Variables MP MQ : metric.
  Variable insts : list inst.
  Variable V : list node.
  Variable b : nat.

  Definition Inv (k : nat) (s : state) : Prop :=
    exists nd, In nd V /\ n_rank nd <= k /\ state_eq s (st_of (n_st nd)).

  Lemma Inv_mono k k' s : k <= k' -> Inv k s -> Inv k' s.
  Proof. intros H (nd & H1 & H2 & H3). exists nd. repeat split; auto. lia. Qed.

  Lemma in_cert_sound r l : in_cert V r l = true -> Inv r (st_of l).
  Proof.
    unfold in_cert. rewrite existsb_exists. intros (nd & H1 & H2).
    apply andb_true_iff in H2. destruct H2 as [H2 H3]. apply Nat.leb_le in H2.
    exists nd. repeat split; auto. apply state_list_eqb_sound, H3.
  Qed.

  Lemma state_code_0 l : state_code P Q MP MQ l = 0%N ->
    goals_hold false P (st_of l) = goals_hold false Q (st_of l) /\
    final_metric false P MP (st_of l) (zq 0) = final_metric false Q MQ (st_of l) (zq 0).
  Proof.
    unfold state_code. destruct (Bool.eqb _ _) eqn:E1; [|discriminate]. destruct (ooqc_eqb _ _) eqn:E2; [|discriminate].
    intros _. split; [apply eqb_prop, E1 | apply ooqc_eqb_eq, E2].
  Qed.

  Lemma inst_code_0 r l i : inst_code P Q MP MQ V r l i = 0%N ->
    match fstep P l i, fstep Q l i with
    | Some l1, Some l2 =>
        state_eq (st_of l1) (st_of l2) /\ step_delta P MP l i = step_delta Q MQ l i /\ Inv (S r) (st_of l1)
    | None, None => True
    | _, _ => False
    end.
  Proof.
    unfold inst_code. destruct (fstep P l i) as [l1|], (fstep Q l i) as [l2|]; try discriminate; [|reflexivity].
    destruct (state_list_eqb l1 l2) eqn:E1; [|discriminate]. destruct (oqc_eqb _ _) eqn:E2; [|discriminate].
    destruct (in_cert V (S r) l1) eqn:E3; [|discriminate].
    intros _. split; [apply state_list_eqb_sound, E1|]. split; [apply oqc_eqb_eq, E2 | apply in_cert_sound, E3].
  Qed.

  Hypothesis nodes_ok : forallb (node_ok P Q MP MQ insts V b) V = true.

  Lemma node_ok_inv nd : In nd V ->
    state_code P Q MP MQ (n_st nd) = 0%N /\
    (n_rank nd < b -> forall i, In i insts -> inst_code P Q MP MQ V (n_rank nd) (n_st nd) i = 0%N).
  Proof.
    intros HIn. rewrite forallb_forall in nodes_ok. pose proof (nodes_ok nd HIn) as H.
    unfold node_ok in H. apply andb_true_iff in H. destruct H as [H1 H2]. split; [apply N.eqb_eq, H1|].
    intros Hr i Hi. apply Nat.ltb_lt in Hr. rewrite Hr, forallb_forall in H2. apply N.eqb_eq, H2, Hi.
  Qed.

  Lemma node_state nd s : In nd V -> state_eq s (st_of (n_st nd)) ->
    goals_hold false P s = goals_hold false Q s /\
    final_metric false P MP s (zq 0) = final_metric false Q MQ s (zq 0).
  Proof.
    intros HIn HS.
    rewrite (goals_hold_ext false P _ _ HS), (goals_hold_ext false Q _ _ HS).
    rewrite (final_metric_ext false P MP _ _ (zq 0) HS), (final_metric_ext false Q MQ _ _ (zq 0) HS).
    apply state_code_0, node_ok_inv, HIn.
  Qed.

  Lemma node_step nd s i : In nd V -> n_rank nd < b -> In i insts -> state_eq s (st_of (n_st nd)) ->
    match step_of P s i, step_of Q s i with
    | Some s1, Some s2 => state_eq s1 s2 /\ Inv (S (n_rank nd)) s1 /\ sdelta P MP s i = sdelta Q MQ s i
    | None, None => True
    | _, _ => False
    end.
  Proof.
    intros HIn Hr Hi HS. pose proof (inst_code_0 _ _ _ (proj2 (node_ok_inv nd HIn) Hr i Hi)) as C.
    pose proof (fstep_spec P (n_st nd) i s HS) as FP.
    pose proof (fstep_spec Q (n_st nd) i s HS) as FQ.
    rewrite (sdelta_ext P MP s _ i HS), (sdelta_ext Q MQ s _ i HS).
    destruct (fstep P (n_st nd) i) as [l1|], (fstep Q (n_st nd) i) as [l2|],
             (step_of P s i) as [s1|], (step_of Q s i) as [s2|]; simpl in FP, FQ; try contradiction; try exact I.
    destruct C as (E1 & E2 & nd' & A1 & A2 & A3). split; [|split].
    - eapply state_eq_trans; [exact FP|]. eapply state_eq_trans; [exact E1|]. apply state_eq_sym, FQ.
    - exists nd'. repeat split; auto. eapply state_eq_trans; [exact FP | exact A3].
    - exact E2.
  Qed.

  Hypothesis same_class : mclass MP = mclass MQ.

  Lemma cert_plans : forall plan k sP sQ acc,
    (cert_closed V b = true \/ k + length plan <= b) ->
    Inv k sP -> state_eq sP sQ -> Forall (fun i => In i insts) plan ->
    vplan P MP sP acc plan = vplan Q MQ sQ acc plan /\
    ostate_eq (run P (spec_step false P) sP plan) (run Q (spec_step false Q) sQ plan) /\
    valid_plan false P sP plan = valid_plan false Q sQ plan.
  Proof.
    induction plan as [|i plan IH]; intros k sP sQ acc HB HI HS HF.
    - destruct HI as (nd & H1 & H2 & H3).
      destruct (node_state nd sP H1 H3) as [G F].
      rewrite !vplan_nil. unfold valid_plan. cbn [run].
      rewrite <- (goals_hold_ext false Q _ _ HS), <- (final_metric_ext false Q MQ _ _ acc HS).
      rewrite (final_metric_acc false P Q MP MQ sP acc same_class F), G.
      repeat split; auto.
    - inversion HF as [|x l Hi HF']; subst.
      destruct HI as (nd & H1 & H2 & H3).
      assert (Hr : n_rank nd < b).
      { destruct HB as [HB|HB].
        - unfold cert_closed in HB. rewrite forallb_forall in HB. apply Nat.ltb_lt, HB, H1.
        - cbn [length] in HB. lia. }
      pose proof (node_step nd sP i H1 Hr Hi H3) as ST.
      pose proof (step_of_ext Q sP sQ i HS) as EQ.
      rewrite !vplan_cons. unfold valid_plan. rewrite !run_step_of.
      rewrite <- (sdelta_ext Q MQ sP sQ i HS).
      destruct (step_of P sP i) as [s1|], (step_of Q sP i) as [s2|], (step_of Q sQ i) as [s3|];
        simpl in EQ; try contradiction; try (repeat split; auto; exact I).
      destruct ST as (A1 & A2 & A3). rewrite A3.
      assert (HB' : cert_closed V b = true \/ S k + length plan <= b).
      { destruct HB as [HB|HB]; [left; exact HB | right; cbn [length] in HB; lia]. }
      assert (HI' : Inv (S k) s1) by (apply (Inv_mono (S (n_rank nd))); [lia | exact A2]).
      assert (HS' : state_eq s1 s3) by (eapply state_eq_trans; eauto).
      destruct (sdelta Q MQ sP i) as [d|].
      + destruct (IH (S k) s1 s3 (Qcplus d acc) HB' HI' HS' HF') as (R1 & R2 & R3).
        repeat split; auto.
      + destruct (IH (S k) s1 s3 acc HB' HI' HS' HF') as (R1 & R2 & R3).
        repeat split; auto.
  Qed.
End Cert.

Lemma seteqN_spec a b : seteqN a b = true -> forall x, In x a <-> In x b.
Proof.
  unfold seteqN, subsetN. rewrite andb_true_iff, !forallb_forall. intros [H1 H2] x.
  split; intros H; [apply memN_In, H1, H | apply memN_In, H2, H].
Qed.

Lemma objs_agree_spec P Q : objs_agree P Q = true -> forall t o, In o (objs_of P t) <-> In o (objs_of Q t).
Proof.
  unfold objs_agree. rewrite andb_true_iff, !forallb_forall. intros [H1 H2] t o.
  unfold objs_of at 1. destruct (lookupN t (p_objs P)) as [os|] eqn:E1.
  - apply lookupN_In in E1. apply (seteqN_spec _ _ (H1 _ E1)).
  - unfold objs_of. destruct (lookupN t (p_objs Q)) as [os|] eqn:E2; [|tauto].
    apply lookupN_In in E2. pose proof (seteqN_spec _ _ (H2 _ E2) o) as H. cbn [fst snd] in H.
    unfold objs_of in H. rewrite E1 in H. symmetry; exact H.
Qed.

Lemma in_arg_tuples P sig : forall args,
  In args (arg_tuples P sig) <-> Forall2 (fun t v => exists o, v = VObj o /\ In o (objs_of P t)) sig args.
Proof.
  induction sig as [|t sig IH]; intros args; simpl.
  - split; [intros [<-|[]]; constructor | intros H; inversion H; left; reflexivity].
  - rewrite in_flat_map. split.
    + intros (o & Ho & H). apply in_map_iff in H. destruct H as (tl & <- & Htl).
      constructor; [exists o; auto | apply IH, Htl].
    + intros H. inversion H as [|t' v sig' tl (o & -> & Ho) Htl]; subst.
      exists o. split; [exact Ho|]. apply in_map, IH, Htl.
Qed.

Lemma in_all_insts P sigs aid args :
  In (aid, args) (all_insts P sigs) <-> exists sig, In (aid, sig) sigs /\ In args (arg_tuples P sig).
Proof.
  unfold all_insts. rewrite in_flat_map. split.
  - intros ([a sig] & H1 & H2). apply in_map_iff in H2. destruct H2 as (x & E & Hx). inversion E; subst.
    exists sig. auto.
  - intros (sig & H1 & H2). exists (aid, sig). split; [exact H1|]. cbn [fst snd]. apply in_map, H2.
Qed.

Lemma all_insts_agree P Q sigs : objs_agree P Q = true ->
  forall i, In i (all_insts P sigs) <-> In i (all_insts Q sigs).
Proof.
  intros H [aid args]. rewrite !in_all_insts.
  assert (E : forall sig, In args (arg_tuples P sig) <-> In args (arg_tuples Q sig)).
  { intros sig. rewrite !in_arg_tuples. revert args. induction sig as [|t sig IH]; intros args.
    - split; intros F; inversion F; constructor.
    - split; intros F; inversion F as [|t' v sig' tl (o & -> & Ho) Htl]; subst; constructor;
        try (exists o; split; [reflexivity | apply (objs_agree_spec P Q H), Ho]); apply IH, Htl. }
  split; intros (sig & H1 & H2); exists sig; (split; [exact H1 | apply E, H2]).
Qed.

Definition plan_over (insts : list inst) (plan : list inst) : Prop := Forall (fun i => In i insts) plan.

Definition agree_on (P Q : problem) (MP MQ : metric) (l0P l0Q : fstate) (plan : list inst) : Prop :=
  vplan P MP (st_of l0P) (zq 0) plan = vplan Q MQ (st_of l0Q) (zq 0) plan /\
  ostate_eq (run P (spec_step false P) (st_of l0P) plan) (run Q (spec_step false Q) (st_of l0Q) plan) /\
  valid_plan false P (st_of l0P) plan = valid_plan false Q (st_of l0Q) plan.

Lemma bisim_check_with_inv vb P Q MP MQ sigsP sigsQ l0P l0Q :
  (forall w tr i, bisim_check_with vb P Q MP MQ sigsP sigsQ l0P l0Q <> BFail w tr i) ->
  objs_agree P Q = true /\ sigs_agree sigsP sigsQ = true /\ metric_kind_eqb MP MQ = true /\
  state_list_eqb l0P l0Q = true /\
  exists V b, cert_ok P Q (qm_m MP) (qm_m MQ) (all_insts P sigsP) V b l0P = true /\
              bisim_check_with vb P Q MP MQ sigsP sigsQ l0P l0Q = (if cert_closed V b then BClosed else BBounded b).
Proof.
  unfold bisim_check_with. intros H.
  destruct (objs_agree P Q); cbn [negb] in *; [|exfalso; eapply H; reflexivity].
  destruct (sigs_agree sigsP sigsQ); cbn [negb] in *; [|exfalso; eapply H; reflexivity].
  destruct (metric_kind_eqb MP MQ); cbn [negb] in *; [|exfalso; eapply H; reflexivity].
  destruct (state_list_eqb l0P l0Q); cbn [negb] in *; [|exfalso; eapply H; reflexivity].
  cbv zeta in *.
  destruct (cert_ok P Q (qm_m MP) (qm_m MQ) (all_insts P sigsP) (fst vb) (snd vb) l0P) eqn:C.
  - repeat split; auto. exists (fst vb), (snd vb). split; [exact C | reflexivity].
  - exfalso. destruct (first_bad P Q (qm_m MP) (qm_m MQ) (all_insts P sigsP) (fst vb) (snd vb)) as [[[w tr] i]|];
      eapply H; reflexivity.
Qed.

Lemma metric_kind_class MP MQ : metric_kind_eqb MP MQ = true -> mclass (qm_m MP) = mclass (qm_m MQ).
Proof. unfold metric_kind_eqb. rewrite andb_true_iff. intros [_ H]. apply N.eqb_eq, H. Qed.

Lemma cert_ok_agree P Q MP MQ insts V b l0P l0Q plan :
  cert_ok P Q MP MQ insts V b l0P = true -> mclass MP = mclass MQ -> state_list_eqb l0P l0Q = true ->
  (cert_closed V b = true \/ length plan <= b) -> plan_over insts plan ->
  agree_on P Q MP MQ l0P l0Q plan.
Proof.
  unfold cert_ok. rewrite andb_true_iff. intros [C1 C2] HC HS HB HP.
  apply (cert_plans P Q MP MQ insts V b C2 HC plan 0).
  - destruct HB; [left; assumption | right; lia].
  - apply in_cert_sound, C1.
  - apply state_list_eqb_sound, HS.
  - exact HP.
Qed.

(* The verdict is sound for ANY proposed certificate, so the search that builds one need not be trusted.
   Closed product graph: all plans over the well-typed ground instances *)
Theorem bisim_check_with_closed_sound vb P Q MP MQ sigsP sigsQ l0P l0Q :
  bisim_check_with vb P Q MP MQ sigsP sigsQ l0P l0Q = BClosed ->
  forall plan, plan_over (all_insts P sigsP) plan -> agree_on P Q (qm_m MP) (qm_m MQ) l0P l0Q plan.
Proof.
  intros H plan HP.
  destruct (bisim_check_with_inv vb P Q MP MQ sigsP sigsQ l0P l0Q) as (_ & _ & HK & HS & V & b & C & E).
  { intros w tr i. rewrite H. discriminate. }
  rewrite H in E. destruct (cert_closed V b) eqn:CL; [|discriminate E].
  eapply cert_ok_agree; eauto using metric_kind_class.
Qed.

Theorem bisim_check_with_bounded_sound vb P Q MP MQ sigsP sigsQ l0P l0Q b :
  bisim_check_with vb P Q MP MQ sigsP sigsQ l0P l0Q = BBounded b ->
  forall plan, length plan <= b -> plan_over (all_insts P sigsP) plan -> agree_on P Q (qm_m MP) (qm_m MQ) l0P l0Q plan.
Proof.
  intros H plan HL HP.
  destruct (bisim_check_with_inv vb P Q MP MQ sigsP sigsQ l0P l0Q) as (_ & _ & HK & HS & V & b' & C & E).
  { intros w tr i. rewrite H. discriminate. }
  rewrite H in E. destruct (cert_closed V b') eqn:CL; [discriminate E|]. inversion E; subst b'.
  eapply cert_ok_agree; eauto using metric_kind_class.
Qed.

Theorem bisim_check_closed_sound P Q MP MQ sigsP sigsQ l0P l0Q n cap :
  bisim_check P Q MP MQ sigsP sigsQ l0P l0Q n cap = BClosed ->
  forall plan, plan_over (all_insts P sigsP) plan -> agree_on P Q (qm_m MP) (qm_m MQ) l0P l0Q plan.
Proof. apply bisim_check_with_closed_sound. Qed.

Theorem bisim_check_bounded_sound P Q MP MQ sigsP sigsQ l0P l0Q n cap b :
  bisim_check P Q MP MQ sigsP sigsQ l0P l0Q n cap = BBounded b ->
  forall plan, length plan <= b -> plan_over (all_insts P sigsP) plan -> agree_on P Q (qm_m MP) (qm_m MQ) l0P l0Q plan.
Proof. apply bisim_check_with_bounded_sound. Qed.

Theorem bisim_check_static P Q MP MQ sigsP sigsQ l0P l0Q n cap :
  (forall w tr i, bisim_check P Q MP MQ sigsP sigsQ l0P l0Q n cap <> BFail w tr i) ->
  (forall t o, In o (objs_of P t) <-> In o (objs_of Q t)) /\
  (forall i, In i (all_insts P sigsP) <-> In i (all_insts Q sigsP)) /\
  state_eq (st_of l0P) (st_of l0Q) /\
  qm_max MP = qm_max MQ /\ mclass (qm_m MP) = mclass (qm_m MQ).
Proof.
  intros H. destruct (bisim_check_with_inv _ _ _ _ _ _ _ _ _ H) as (HO & _ & HK & HS & _).
  repeat split; try (apply (objs_agree_spec P Q HO)); try (apply (all_insts_agree P Q sigsP HO)).
  - apply state_list_eqb_sound, HS.
  - unfold metric_kind_eqb in HK. apply andb_true_iff in HK. destruct HK as [HK _]. apply eqb_prop, HK.
  - apply metric_kind_class, HK.
Qed.

Lemma ground_instances_spec P sigs aid args :
  In (aid, args) (all_insts P sigs) <->
  exists sig, In (aid, sig) sigs /\ Forall2 (fun t v => exists o, v = VObj o /\ In o (objs_of P t)) sig args.
Proof.
  rewrite in_all_insts.
  split; intros (sig & H1 & H2); exists sig; (split; [exact H1 | apply in_arg_tuples, H2]).
Qed.

Lemma plan_eqb_eq a : forall b, plan_eqb a b = true -> a = b.
Proof.
  induction a as [|[x u] a IH]; intros [|[y v] b]; simpl; try discriminate; [reflexivity|].
  rewrite !andb_true_iff. intros [[H1 H2] H3]. apply N.eqb_eq in H1. apply values_eqb_eq in H2.
  rewrite (IH _ H3). subst; reflexivity.
Qed.

Lemma oexpr_eqb_eq a b : oexpr_eqb a b = true -> a = b.
Proof. destruct a, b; simpl; try discriminate; try reflexivity. intros H. apply expr_eqb_eq in H. subst; reflexivity. Qed.

Lemma gains_eqb_eq a : forall b, gains_eqb a b = true -> a = b.
Proof.
  induction a as [|[g w] a IH]; intros [|[h v] b]; simpl; try discriminate; [reflexivity|].
  rewrite !andb_true_iff. intros [[H1 H2] H3]. apply expr_eqb_eq in H1. apply qc_eqb_eq in H2.
  rewrite (IH _ H3). subst; reflexivity.
Qed.

Theorem metric_eqb_sound acts a b : metric_eqb acts a b = true ->
  qm_max a = qm_max b /\ mclass (qm_m a) = mclass (qm_m b) /\
  (forall aid, In aid acts -> cost_of (qm_m a) aid = cost_of (qm_m b) aid) /\
  (forall e, qm_m a = MFinal e -> qm_m b = MFinal e) /\
  (forall g, qm_m a = MOversub g -> qm_m b = MOversub g).
Proof.
  unfold metric_eqb. rewrite !andb_true_iff. intros [[H1 H2] H3].
  pose proof (metric_kind_class a b H1) as HC.
  unfold metric_kind_eqb in H1. apply andb_true_iff in H1. destruct H1 as [H1 _]. apply eqb_prop in H1.
  rewrite forallb_forall in H2.
  repeat split; auto.
  - intros aid Hin. apply oexpr_eqb_eq, H2, Hin.
  - intros e E. rewrite E in H3. destruct (qm_m b); simpl in H3; try discriminate H3.
    apply expr_eqb_eq in H3. subst; reflexivity.
  - intros g E. rewrite E in H3. destruct (qm_m b); simpl in H3; try discriminate H3.
    apply gains_eqb_eq in H3. subst; reflexivity.
Qed.

Lemma timing_eqb_eq a b : timing_eqb a b = true -> a = b.
Proof.
  destruct a, b. unfold timing_eqb; simpl. rewrite andb_true_iff, N.eqb_eq, qc_eqb_eq. intros [-> ->]; reflexivity.
Qed.

Lemma tinterval_eqb_eq a b : tinterval_eqb a b = true -> a = b.
Proof.
  destruct a, b. unfold tinterval_eqb; simpl. rewrite !andb_true_iff. intros [[[H1 H2] H3] H4].
  apply timing_eqb_eq in H1, H2. apply eqb_prop in H3, H4. subst; reflexivity.
Qed.

Lemma ekind_eqb_eq a b : ekind_eqb a b = true -> a = b.
Proof. destruct a, b; simpl; try discriminate; reflexivity. Qed.

Lemma list_expr_eqb_eq' l l' : list_expr_eqb l l' = true -> l = l'.
Proof.
  apply list_expr_eqb_eq. apply Forall_forall. intros x _ y. apply expr_eqb_eq.
Qed.

Lemma effect_eqb_eq a b : effect_eqb a b = true -> a = b.
Proof.
  destruct a, b. unfold effect_eqb; simpl. rewrite !andb_true_iff. intros [[[[[[H1 H2] H3] H4] H5] H6] H7].
  apply N.eqb_eq in H1. apply list_expr_eqb_eq' in H2. apply expr_eqb_eq in H3, H4. apply ekind_eqb_eq in H5.
  apply vars_eqb_eq in H6. apply eqb_prop in H7. subst; reflexivity.
Qed.

Lemma cond_eqb_eq a b : cond_eqb a b = true -> a = b.
Proof.
  destruct a, b. unfold cond_eqb; simpl. rewrite andb_true_iff. intros [H1 H2].
  apply tinterval_eqb_eq in H1. apply expr_eqb_eq in H2. subst; reflexivity.
Qed.

Lemma teff_eqb_eq a b : teff_eqb a b = true -> a = b.
Proof.
  destruct a, b. unfold teff_eqb; simpl. rewrite andb_true_iff. intros [H1 H2].
  apply timing_eqb_eq in H1. apply effect_eqb_eq in H2. subst; reflexivity.
Qed.

Lemma listN_eqb_eq a : forall b, listN_eqb a b = true -> a = b.
Proof.
  induction a as [|x a IH]; intros [|y b]; simpl; try discriminate; [reflexivity|].
  rewrite andb_true_iff, N.eqb_eq. intros [-> H]. rewrite (IH _ H). reflexivity.
Qed.

Lemma seteq_b_spec {A} (eqb : A -> A -> bool) (Heq : forall x y, eqb x y = true -> x = y) a b :
  seteq_b eqb a b = true -> forall x, In x a <-> In x b.
Proof.
  unfold seteq_b, incl_b. rewrite andb_true_iff, !forallb_forall. intros [H1 H2] x. split; intros H.
  - apply H1 in H. apply existsb_exists in H. destruct H as (y & Hy & E). apply Heq in E. subst; exact Hy.
  - apply H2 in H. apply existsb_exists in H. destruct H as (y & Hy & E). apply Heq in E. subst; exact Hy.
Qed.

Definition daction_same (a b : daction) : Prop :=
  da_sig a = da_sig b /\ da_dlo a = da_dlo b /\ da_dhi a = da_dhi b /\
  da_dlopen a = da_dlopen b /\ da_dropen a = da_dropen b /\
  (forall c, In c (da_conds a) <-> In c (da_conds b)) /\
  (forall e, In e (da_effs a) <-> In e (da_effs b)).

Lemma daction_eqb_sound a b : daction_eqb a b = true -> daction_same a b.
Proof.
  unfold daction_eqb. rewrite !andb_true_iff. intros [[[[[[H1 H2] H3] H4] H5] H6] H7].
  apply listN_eqb_eq in H1. apply expr_eqb_eq in H2, H3. apply eqb_prop in H4, H5.
  unfold daction_same. repeat split; auto;
    try (apply (seteq_b_spec cond_eqb cond_eqb_eq _ _ H6)); try (apply (seteq_b_spec teff_eqb teff_eqb_eq _ _ H7)).
Qed.

Lemma dactions_sub_sound a b : dactions_sub a b = true ->
  forall aid x, lookupN aid a = Some x -> exists y, lookupN aid b = Some y /\ daction_same x y.
Proof.
  unfold dactions_sub. rewrite forallb_forall. intros H aid x L.
  pose proof (H _ (lookupN_In _ _ _ L)) as C. cbn [fst snd] in C.
  destruct (lookupN aid b) as [y|]; [|discriminate C]. exists y. split; [reflexivity | apply daction_eqb_sound, C].
Qed.

Theorem temporal_structure_eqb_sound a b : temporal_structure_eqb a b = true ->
  (forall aid x, lookupN aid (ts_actions a) = Some x -> exists y, lookupN aid (ts_actions b) = Some y /\ daction_same x y) /\
  (forall aid y, lookupN aid (ts_actions b) = Some y -> exists x, lookupN aid (ts_actions a) = Some x /\ daction_same y x) /\
  (forall e, In e (ts_teffs a) <-> In e (ts_teffs b)) /\
  (forall g, In g (ts_tgoals a) <-> In g (ts_tgoals b)).
Proof.
  unfold temporal_structure_eqb. rewrite !andb_true_iff. intros [[[H1 H2] H3] H4].
  repeat split; try (apply (dactions_sub_sound _ _ H1)); try (apply (dactions_sub_sound _ _ H2));
    try (apply (seteq_b_spec teff_eqb teff_eqb_eq _ _ H3)); try (apply (seteq_b_spec cond_eqb cond_eqb_eq _ _ H4)).
Qed.

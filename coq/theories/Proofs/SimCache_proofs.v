(* Proofs about Planning/SimCache.v: a cache that only ever holds [ground k] under key [k] ([coherent]) does not change
   the answer of any query. *)
From Coq Require Import List Bool.
Import ListNotations.
Require Import UPV.Planning.SimCache.

Section CacheProofs.
  Variables K A Q R : Type.
  Variable keqb : K -> K -> bool.
  Hypothesis keqb_eq : forall a b, keqb a b = true -> a = b.
  Variable ground : K -> A.
  Variable key : Q -> K.
  Variable answer : A -> Q -> R.

  Definition coherent (c : cache K A) : Prop := forall k a, cfind K A keqb k c = Some a -> a = ground k.

  Lemma coherent_nil : coherent [].
  Proof. intros k a H. discriminate. Qed.

  Lemma cached_ground_correct c k : coherent c ->
    fst (cached_ground K A keqb ground c k) = ground k /\ coherent (snd (cached_ground K A keqb ground c k)).
  Proof.
    intros H. unfold cached_ground. destruct (cfind K A keqb k c) as [a|] eqn:E; simpl.
    - split; [apply H; exact E | exact H].
    - split; [reflexivity|]. intros k' a'. simpl. destruct (keqb k' k) eqn:E2.
      + intros H1. inversion H1. apply keqb_eq in E2. subst. reflexivity.
      + apply H.
  Qed.

  (* every interleaving of queries on ONE simulator instance gives each query the answer the cache-free simulator
     gives it alone, and leaves the cache coherent *)
  Theorem run_cached_queries_pure qs : forall c, coherent c ->
    fst (run_cached_queries K A Q R keqb ground key answer c qs) = map (fun q => answer (ground (key q)) q) qs /\
    coherent (snd (run_cached_queries K A Q R keqb ground key answer c qs)).
  Proof.
    induction qs as [|q qs IH]; intros c H; simpl; [split; [reflexivity | exact H]|].
    unfold cached_query. destruct (cached_ground_correct c (key q) H) as [E1 E2].
    destruct (cached_ground K A keqb ground c (key q)) as [a c'] eqn:EC. simpl in E1, E2.
    specialize (IH c' E2). destruct (run_cached_queries K A Q R keqb ground key answer c' qs) as [rs c''].
    simpl in IH |- *. destruct IH as [IH1 IH2]. split; [rewrite E1, IH1; reflexivity | exact IH2].
  Qed.

  Corollary fresh_simulator_pure qs :
    fst (run_cached_queries K A Q R keqb ground key answer [] qs) = map (fun q => answer (ground (key q)) q) qs.
  Proof. apply run_cached_queries_pure, coherent_nil. Qed.
End CacheProofs.

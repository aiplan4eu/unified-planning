(* C06 / C07, Layer A — UsertypeFluentsRemover: proofs about Compilers/LayerA_Utfr.v.
   Invariant [utfr_rel]: o(x, u) is true iff o(x) = u (u an object of o's type), o(x, _) is undefined iff o(x) is.
   Under it: expressions without object fluents evaluate alike ([eval_uclean]); one converted effect fires exactly the
   Boolean images of the original effect instance ([split_eff_res], [u_effect_res], [u_effects_res]); the successor
   states are related again and the conflict checks agree ([succ_rel], [effects_ok_eq]) provided the assignments fired on
   one ground object fluent carry one value; steps, runs and plans follow ([u_step], [u_run], [u_valid_plan]).
   [utfr_masked_conflict_witness]: without "one value" the compiled problem accepts a plan the original rejects. *)
From Coq Require Import List ZArith NArith QArith Qcanon Bool Lia.
Import ListNotations.
Require Import UPV.Core.Expr UPV.Core.Eval UPV.Core.Interp UPV.Planning.Problem UPV.Planning.Sem.
Require Import UPV.Proofs.Eval_lemmas UPV.Proofs.Sem_proofs UPV.Proofs.Step_proofs.
Require Import UPV.Walkers.Subst UPV.Proofs.Subst_proofs.
Require Import UPV.Compilers.Variants UPV.Compilers.LayerA_Defs UPV.Compilers.LayerA_Quant UPV.Compilers.LayerA_Utfr.
Require Import UPV.Proofs.Variants_proofs UPV.Proofs.LayerA_base UPV.Proofs.LayerA_Quant_proofs UPV.Proofs.ExprKids UPV.Proofs.ListFacts UPV.Proofs.LayerA_sim.
Local Open Scope nat_scope.


Section UExpr.
  Variable ot : N -> option N.

  Lemma urel_bind I I' v o : urel_interp ot I I' -> urel_interp ot (bind_var I v o) (bind_var I' v o).
  Proof.
    intros (H1 & H2 & H3 & H4 & H5 & H6). repeat split; simpl; auto. intros w. destruct (w =? v)%N; auto.
  Qed.

  Lemma urel_agree I I' : urel_interp ot I I' -> fl_agree (fun g => ot g = None) I' I.
  Proof. intros (H1 & H2 & H3 & H4 & H5 & _). repeat split; assumption. Qed.

  Lemma uclean_kids e : uclean ot e = true ->
    match e with EFluent f _ => ot f = None | _ => True end /\ forallb (uclean ot) (kids e) = true.
  Proof.
    destruct e; cbn [uclean kids forallb]; intros H; rewrite ?andb_true_r; try (split; [exact I | exact H]).
    destruct (ot f); [discriminate | split; [reflexivity | exact H]].
  Qed.

  (* an expression that mentions no object fluent does not see the encoding *)
  Lemma eval_uclean sc e : forall I I', urel_interp ot I I' -> uclean ot e = true -> eval sc e I' = eval sc e I.
  Proof.
    intros I I' HR Hc. exact (eval_checked (uclean ot) (fun g => ot g = None) uclean_kids sc e I' I (urel_agree I I' HR) Hc).
  Qed.

  Lemma evals_l_uclean J J' l : urel_interp ot J J' -> forallb (uclean ot) l = true ->
    evals_l false J' l = evals_l false J l.
  Proof.
    intros HR. induction l as [|x l IH]; intros H; [reflexivity|]. cbn [forallb] in H. nfsplit. cbn [evals_l].
    rewrite (eval_uclean false x J J' HR), IH by assumption. reflexivity.
  Qed.
End UExpr.

Lemma eval_mkNot_b J v b : eval false v J = Some (VBool b) -> eval false (mkNot v) J = Some (VBool (negb b)).
Proof.
  intros H. assert (G : eval false (ENot v) J = Some (VBool (negb b))) by (rewrite eval_ENot, H; reflexivity).
  destruct v; try exact G. cbn [mkNot].
  rewrite eval_ENot in H. destruct (as_bool (eval false v J)) as [x|] eqn:E; [|discriminate].
  inversion H. apply as_bool_some in E. rewrite E, negb_involutive. reflexivity.
Qed.

Section USplit.
  Variable smp : expr -> expr.
  Hypothesis Hsmp : smp_exact smp.

  Lemma eval_cond_and J c x cb xb : eval false c J = Some (VBool cb) -> eval false x J = Some (VBool xb) ->
    eval false (cond_and smp c x) J = Some (VBool (cb && xb)).
  Proof.
    intros Hc Hx. unfold cond_and. rewrite Hsmp, eval_EAnd. cbn [ebools]. rewrite Hc, eval_EAnd. cbn [ebools eval as_bool].
    rewrite Hx. cbn [as_bool forallb]. rewrite !andb_true_r. reflexivity.
  Qed.

  Lemma eval_cond_only J c cb : eval false c J = Some (VBool cb) ->
    eval false (cond_only smp c) J = Some (VBool cb).
  Proof.
    intros Hc. unfold cond_only. rewrite Hsmp, eval_EAnd. cbn [ebools eval as_bool]. rewrite Hc. cbn [as_bool forallb].
    rewrite !andb_true_r. reflexivity.
  Qed.

  Lemma eval_mk_eff J f args v c k vars isb vs cb val :
    evals_l false J args = Some vs -> eval false c J = Some (VBool cb) -> eval false v J = Some val ->
    eval_effect false J (mk_eff f args v c k vars isb) =
    if cb then EAct {| ae_key := (f, vs); ae_kind := k; ae_val := val |} else ESkip.
  Proof.
    intros Ha Hc Hv. unfold eval_effect. cbn [mk_eff e_args e_cond e_val e_fl e_kind]. rewrite Ha, Hc.
    destruct cb; [rewrite Hv|]; reflexivity.
  Qed.

  (* one converted target/value: exactly the original effect instance, no error *)
  Lemma split_eff_res J f args v c k vars isb vs cb val :
    evals_l false J args = Some vs -> eval false c J = Some (VBool cb) -> eval false v J = Some val ->
    (isb = true -> exists b, val = VBool b) ->
    let L := map (fun e => eval_effect false J e) (split_eff smp f args v c k vars isb) in
    has_err L = false /\
    acts_of L = if cb then [{| ae_key := (f, vs); ae_kind := k; ae_val := val |}] else [].
  Proof.
    intros Ha Hc Hv Hb. unfold split_eff. destruct (isb && negb (is_bconst v)) eqn:Es.
    - apply andb_true_iff in Es. destruct Es as [Ei _]. destruct (Hb Ei) as [bv ->].
      pose proof (eval_cond_and J c v cb bv Hc Hv) as Ep.
      pose proof (eval_cond_and J c (mkNot v) cb (negb bv) Hc (eval_mkNot_b J v bv Hv)) as En.
      assert (Et : eval false (EBool true) J = Some (VBool true)) by reflexivity.
      assert (Ef : eval false (EBool false) J = Some (VBool false)) by reflexivity.
      destruct (is_false (cond_and smp c v)) eqn:Fp; destruct (is_false (cond_and smp c (mkNot v))) eqn:Fn;
        try (apply is_false_eq in Fp; rewrite Fp in Ep; cbn [eval] in Ep; inversion Ep as [Ep']);
        try (apply is_false_eq in Fn; rewrite Fn in En; cbn [eval] in En; inversion En as [En']);
        cbn [app map]; repeat rewrite (eval_mk_eff J _ _ _ _ _ _ _ vs _ _ Ha Ep Et);
        repeat rewrite (eval_mk_eff J _ _ _ _ _ _ _ vs _ _ Ha En Ef);
        destruct cb, bv; try discriminate; cbn; split; reflexivity.
    - pose proof (eval_cond_only J c cb Hc) as Eo.
      destruct (is_false (cond_only smp c)) eqn:Fo.
      + apply is_false_eq in Fo. rewrite Fo in Eo. cbn [eval] in Eo. inversion Eo. split; reflexivity.
      + cbn [map]. rewrite (eval_mk_eff J _ _ _ _ _ _ _ vs cb val Ha Eo Hv). destruct cb; split; reflexivity.
  Qed.
End USplit.


Definition objv (v : value) : N := match v with VObj o => o | _ => 0%N end.

Section UEffect.
  Variable tr : expr -> expr.
  Variable smp : expr -> expr.
  Variable P : problem.
  Notation ot := (otype P).
  Hypothesis Hsmp : smp_exact smp.

  (* the Boolean assignments that encode one fired assignment of an object fluent *)
  Definition img1 (x : aeff) (u : N) : aeff :=
    {| ae_key := (fst (ae_key x), snd (ae_key x) ++ [VObj u]); ae_kind := ae_kind x;
       ae_val := VBool (objv (ae_val x) =? u)%N |}.
  Definition img (x : aeff) : list aeff :=
    match ot (fst (ae_key x)) with
    | Some t => map (img1 x) (objs_of P t)
    | None => [x]
    end.

  Lemma vtest_eval I I' val u t w : urel_interp ot I I' -> val_flat P t val = true ->
    eval false val I = Some (VObj w) -> In u (objs I t) ->
    eval false (vtest P val u) I' = Some (VBool (w =? u)%N).
  Proof.
    intros HR Hf Hv Hu. pose proof HR as (_ & _ & _ & _ & _ & Hob).
    assert (Gen : uclean ot val = true -> eval false (EEquals val (EObj u)) I' = Some (VBool (w =? u)%N)).
    { intros Hc. rewrite eval_EEquals, (eval_uclean ot false val I I' HR Hc), Hv. reflexivity. }
    unfold vtest, val_flat in *. destruct val; try (apply Gen; exact Hf).
    destruct (ot f) as [t'|] eqn:Eq; [|apply Gen; exact Hf].
    apply andb_true_iff in Hf. destruct Hf as [Et Hb]. apply N.eqb_eq in Et. subst t'.
    rewrite eval_EFluent in Hv. rewrite eval_EFluent, <- evals_l_evals, evals_l_app.
    rewrite (evals_l_uclean ot I I' args HR Hb), evals_l_evals.
    destruct (evals false I args) as [bs|]; [|discriminate]. cbn [evals_l eval].
    specialize (Hob f t bs Eq). rewrite Hv in Hob. destruct Hob as [_ Hob]. apply Hob. exact Hu.
  Qed.

  Lemma u_effect_res I I' e : urel_interp ot I I' -> objs I = objs_of P -> eff_flat P e = true ->
    eff_defined P I e -> eval false (tr (e_cond e)) I' = eval false (e_cond e) I ->
    let L' := map (fun x => eval_effect false I' x) (u_effect tr smp P e) in
    has_err L' = false /\ acts_of L' = flat_map img (acts_of [eval_effect false I e]) /\
    is_err (eval_effect false I e) = false.
  Proof.
    intros HR Ho Hf ((vs & Ha) & (cb & Hc) & (v & Hv & Hty)) Htr.
    unfold eff_flat in Hf. apply andb_true_iff in Hf. destruct Hf as [Hf Hf3].
    apply andb_true_iff in Hf. destruct Hf as [Hargs _].
    assert (E0 : eval_effect false I e =
                 if cb then EAct {| ae_key := (e_fl e, vs); ae_kind := e_kind e; ae_val := v |} else ESkip).
    { unfold eval_effect. rewrite Ha, Hc. destruct cb; [rewrite Hv|]; reflexivity. }
    rewrite Hc in Htr.
    assert (Ea' : evals_l false I' (map smp (e_args e)) = Some vs).
    { rewrite (evals_l_map_eq2 false I' I' smp) by (intros; apply Hsmp).
      rewrite (evals_l_uclean ot I I' _ HR Hargs). exact Ha. }
    unfold u_effect. cbv zeta. destruct (ot (e_fl e)) as [t|] eqn:Et.
    - destruct Hty as (w & -> & Hw). apply andb_true_iff in Hf3. destruct Hf3 as [_ Hvf].
      assert (Gen : forall us, incl us (objs_of P t) ->
        let L := map (fun x => eval_effect false I' x)
                     (flat_map (fun u => split_eff smp (e_fl e) (map smp (e_args e ++ [EObj u])) (smp (vtest P (e_val e) u))
                                                   (tr (e_cond e)) (e_kind e) (e_vars e) true) us) in
        has_err L = false /\
        acts_of L = if cb then map (img1 {| ae_key := (e_fl e, vs); ae_kind := e_kind e; ae_val := VObj w |}) us else []).
      { induction us as [|u us IH]; intros Hin; cbv zeta.
        - destruct cb; split; reflexivity.
        - cbn [flat_map]. rewrite map_app, has_err_app, acts_of_app.
          destruct (IH (fun x Hx => Hin x (or_intror Hx))) as [IH1 IH2]. cbv zeta in IH1, IH2. rewrite IH1, IH2.
          assert (Hu : In u (objs I t)) by (rewrite Ho; apply Hin; left; reflexivity).
          assert (Eau : evals_l false I' (map smp (e_args e ++ [EObj u])) = Some (vs ++ [VObj u])).
          { rewrite map_app, evals_l_app, Ea'. cbn [map evals_l]. rewrite Hsmp. reflexivity. }
          assert (Evu : eval false (smp (vtest P (e_val e) u)) I' = Some (VBool (w =? u)%N))
            by (rewrite Hsmp; apply (vtest_eval I I' _ u t w HR Hvf Hv Hu)).
          destruct (split_eff_res smp Hsmp I' (e_fl e) _ _ _ (e_kind e) (e_vars e) true _ cb _ Eau Htr Evu
                      (fun _ => ex_intro _ _ eq_refl)) as [S1 S2].
          cbv zeta in S1, S2. rewrite S1, S2. destruct cb; split; reflexivity. }
      destruct (Gen (objs_of P t) (incl_refl _)) as [G1 G2]. cbv zeta in G1, G2.
      split; [exact G1|]. split; [|rewrite E0; destruct cb; reflexivity].
      rewrite G2, E0. destruct cb; [|reflexivity]. unfold acts_of. cbn [flat_map app].
      unfold img. cbn [ae_key fst]. rewrite Et, app_nil_r. reflexivity.
    - assert (Ev' : eval false (smp (e_val e)) I' = Some v)
        by (rewrite Hsmp, (eval_uclean ot false _ I I' HR Hf3); exact Hv).
      destruct (split_eff_res smp Hsmp I' (e_fl e) _ _ _ (e_kind e) (e_vars e) (e_isbool e) _ cb _ Ea' Htr Ev') as [S1 S2].
      { intros Hb. rewrite Hb in Hty. exact Hty. }
      cbv zeta in S1, S2. split; [exact S1|]. split; [|rewrite E0; destruct cb; reflexivity].
      rewrite S2, E0. destruct cb; [|reflexivity]. unfold acts_of. cbn [flat_map app].
      unfold img. cbn [ae_key fst]. rewrite Et. reflexivity.
  Qed.
End UEffect.

Section UEffects.
  Variable tr : expr -> expr.
  Variable smp : expr -> expr.
  Variable P : problem.
  Notation ot := (otype P).
  Hypothesis Hsmp : smp_exact smp.

  Lemma split_eff_vars f args v c k vars isb x : In x (split_eff smp f args v c k vars isb) -> e_vars x = vars.
  Proof.
    unfold split_eff. destruct (isb && negb (is_bconst v)).
    - intros H. apply in_app_or in H. destruct H as [H|H].
      + destruct (is_false (cond_and smp c v)); [destruct H | destruct H as [<-|[]]; reflexivity].
      + destruct (is_false (cond_and smp c (mkNot v))); [destruct H | destruct H as [<-|[]]; reflexivity].
    - destruct (is_false (cond_only smp c)); [intros [] | intros [<-|[]]; reflexivity].
  Qed.

  Lemma u_effect_vars e x : In x (u_effect tr smp P e) -> e_vars x = e_vars e.
  Proof.
    unfold u_effect. cbv zeta. destruct (ot (e_fl e)).
    - intros H. apply in_flat_map in H. destruct H as [u [_ H]]. apply split_eff_vars in H. exact H.
    - apply split_eff_vars.
  Qed.

  Lemma eres_novars I effs : (forall e, In e effs -> e_vars e = []) ->
    eres_of I effs = map (fun e => eval_effect false I e) effs.
  Proof.
    induction effs as [|e l IH]; intros H; [reflexivity|]. rewrite eres_of_cons, IH by (intros x Hx; apply H; right; exact Hx).
    unfold piece. rewrite (H e (or_introl eq_refl)). reflexivity.
  Qed.

  Lemma eff_flat_novars e : eff_flat P e = true -> e_vars e = [].
  Proof.
    unfold eff_flat. intros H. apply andb_true_iff in H. destruct H as [H _]. apply andb_true_iff in H.
    destruct H as [_ H]. destruct (e_vars e); [reflexivity | discriminate].
  Qed.

  (* what fires on an object fluent is the assignment of an object of its type *)
  Lemma fired_typed I effs x t : objs I = objs_of P ->
    (forall e, In e effs -> eff_flat P e = true /\ eff_defined P I e) ->
    In x (acts_of (eres_of I effs)) -> ot (fst (ae_key x)) = Some t ->
    is_assign x = true /\ exists w, ae_val x = VObj w /\ In w (objs_of P t).
  Proof.
    intros Ho H Hx Ht. rewrite (eres_novars I effs) in Hx by (intros e He; apply eff_flat_novars, (H e He)).
    apply in_acts_of in Hx. apply in_map_iff in Hx. destruct Hx as [e [Ee He]].
    destruct (H e He) as [Hflat ((vs & Ha) & (cb & Hc) & (v & Hv & Hty))].
    unfold eval_effect in Ee. rewrite Ha, Hc in Ee. destruct cb; [|discriminate]. rewrite Hv in Ee.
    inversion Ee; subst x; clear Ee. cbn [ae_key fst ae_val] in *. rewrite Ht, Ho in Hty.
    split; [|exact Hty]. unfold eff_flat in Hflat. rewrite Ht in Hflat.
    apply andb_true_iff in Hflat. destruct Hflat as [_ Hk]. apply andb_true_iff in Hk. destruct Hk as [Hk _].
    unfold is_assign, is_kassign in *. cbn [ae_kind]. exact Hk.
  Qed.

  Lemma u_effects_res I I' effs : urel_interp ot I I' -> objs I = objs_of P ->
    (forall e, In e effs -> eff_flat P e = true /\ eff_defined P I e /\
                            eval false (tr (e_cond e)) I' = eval false (e_cond e) I) ->
    has_err (eres_of I effs) = false /\ has_err (eres_of I' (u_effects tr smp P effs)) = false /\
    acts_of (eres_of I' (u_effects tr smp P effs)) = flat_map (img P) (acts_of (eres_of I effs)).
  Proof.
    intros HR Ho H.
    rewrite (eres_novars I effs) by (intros e He; apply eff_flat_novars, (H e He)).
    rewrite (eres_novars I' (u_effects tr smp P effs)).
    2:{ intros x Hx. unfold u_effects in Hx. apply in_flat_map in Hx. destruct Hx as [e [He Hx]].
        rewrite (u_effect_vars e x Hx). apply eff_flat_novars, (H e He). }
    induction effs as [|e l IH]; [repeat split; reflexivity|].
    destruct (H e (or_introl eq_refl)) as (Hf & Hd & Ht).
    destruct (u_effect_res tr smp P Hsmp I I' e HR Ho Hf Hd Ht) as (R1 & R2 & R3). cbv zeta in R1, R2.
    destruct (IH (fun x Hx => H x (or_intror Hx))) as (I1 & I2 & I3).
    unfold u_effects in *. cbn [flat_map map]. rewrite map_app, !has_err_app, acts_of_app, R1, R2, I2, I3.
    change (eval_effect false I e :: map (fun e0 => eval_effect false I e0) l)
      with ([eval_effect false I e] ++ map (fun e0 => eval_effect false I e0) l).
    rewrite has_err_app, acts_of_app, flat_map_app, I1. cbn [has_err existsb]. rewrite R3. repeat split; reflexivity.
  Qed.
End UEffects.


Section USucc.
  Variable tr : expr -> expr.
  Variable smp : expr -> expr.
  Variable P : problem.
  Notation ot := (otype P).
  Notation P' := (utfr_compile tr smp P).
  Hypothesis Hdecl : decls_ok P = true.

  Lemma ot_in f t : ot f = Some t -> exists fd, In fd (p_fluents P) /\ fd_id fd = f /\ fd_ty fd = FObj t.
  Proof.
    unfold otype, olist. intros H. apply lookupN_In in H. apply in_flat_map in H. destruct H as [fd [Hfd H]].
    exists fd. destruct (fd_ty fd) eqn:E; [destruct H | destruct H | destruct H as [H|[]]; inversion H; subst; auto].
  Qed.

  Lemma ot_none_in f fd : ot f = None -> In fd (p_fluents P) -> fd_id fd = f -> forall t, fd_ty fd <> FObj t.
  Proof.
    intros Hn Hfd Hid t Ht. unfold otype in Hn.
    assert (Hin : In (f, t) (olist P)).
    { unfold olist. apply in_flat_map. exists fd. split; [exact Hfd|]. rewrite Ht, Hid. left; reflexivity. }
    clear -Hn Hin. induction (olist P) as [|[k v] l IH]; [destruct Hin|]. cbn [lookupN] in Hn.
    destruct (f =? k)%N eqn:E; [discriminate|]. destruct Hin as [Hin|Hin]; [inversion Hin; subst; rewrite N.eqb_refl in E; discriminate|].
    apply IH; assumption.
  Qed.

  Lemma isb_obj' f t : ot f = Some t -> is_bool_fluent P' f = true.
  Proof.
    intros H. destruct (ot_in f t H) as (fd & Hfd & Hid & Hty). unfold is_bool_fluent. cbn [utfr_compile p_fluents].
    apply existsb_exists. exists (u_fd fd). split; [apply in_map; exact Hfd|]. unfold u_fd. rewrite Hty. cbn [fd_id fd_ty].
    rewrite Hid, N.eqb_refl. reflexivity.
  Qed.

  Lemma isb_obj f t : ot f = Some t -> is_bool_fluent P f = false.
  Proof.
    intros H. destruct (ot_in f t H) as (fd & Hfd & Hid & Hty). unfold decls_ok in Hdecl.
    rewrite forallb_forall in Hdecl. specialize (Hdecl fd Hfd). rewrite Hty, Hid in Hdecl.
    apply negb_true_iff in Hdecl. exact Hdecl.
  Qed.

  Lemma isb_other g : ot g = None -> is_bool_fluent P' g = is_bool_fluent P g.
  Proof.
    intros H. unfold is_bool_fluent. cbn [utfr_compile p_fluents]. rewrite existsb_map. apply existsb_ext_in. intros fd Hfd.
    unfold u_fd. destruct (fd_ty fd) as [|lo hi|ty] eqn:Ety; [rewrite ?Ety; reflexivity | rewrite ?Ety; reflexivity |].
    cbn [fd_id fd_ty]. rewrite ?Ety. destruct (fd_id fd =? g)%N eqn:E; [|reflexivity]. apply N.eqb_eq in E.
    exfalso. exact (ot_none_in g fd H Hfd E ty Ety).
  Qed.

  Variable acts : list aeff.
  (* the fired assignments on object fluents are assignments of objects of the fluent's type *)
  Hypothesis Htyped : forall x t, In x acts -> ot (fst (ae_key x)) = Some t ->
    is_assign x = true /\ exists w, ae_val x = VObj w /\ In w (objs_of P t).
  Hypothesis Hone : forall f t a v1 v2, ot f = Some t ->
    In v1 (avals (f, a) acts) -> In v2 (avals (f, a) acts) -> v1 = v2.

  Notation acts' := (flat_map (img P) acts).

  Lemma img_key_other x y g : In y (img P x) -> ot g = None -> fst (ae_key y) = g -> y = x.
  Proof.
    unfold img. destruct (ot (fst (ae_key x))) eqn:E.
    - intros H Hg Hk. apply in_map_iff in H. destruct H as [u [<- _]]. cbn [img1 ae_key fst] in Hk. congruence.
    - intros [<-|[]] _ _. reflexivity.
  Qed.

  Lemma filter_img_other (p : aeff -> bool) g a l :
    ot g = None ->
    filter (fun x => gfl_eqb (ae_key x) (g, a) && p x) (flat_map (img P) l) =
    filter (fun x => gfl_eqb (ae_key x) (g, a) && p x) l.
  Proof.
    intros Hg. induction l as [|x l IH]; [reflexivity|]. cbn [flat_map]. rewrite filter_app, IH. cbn [filter].
    unfold img. destruct (ot (fst (ae_key x))) eqn:E.
    - assert (N1 : gfl_eqb (ae_key x) (g, a) = false).
      { destruct (gfl_eqb (ae_key x) (g, a)) eqn:K; [|reflexivity]. apply gfl_eqb_eq in K. rewrite K in E. cbn in E. congruence. }
      rewrite N1. cbn [andb]. rewrite (filter_nil _ (map (img1 x) (objs_of P n))); [reflexivity|].
      intros y Hy. apply in_map_iff in Hy. destruct Hy as [u [<- _]].
      destruct (gfl_eqb (ae_key (img1 x u)) (g, a)) eqn:K; [|reflexivity]. apply gfl_eqb_eq in K.
      cbn [img1 ae_key] in K. inversion K. congruence.
    - cbn [filter app]. destruct (gfl_eqb (ae_key x) (g, a) && p x); reflexivity.
  Qed.

  Lemma avals_other g a : ot g = None -> avals (g, a) acts' = avals (g, a) acts.
  Proof. intros H. unfold avals. rewrite (filter_img_other is_assign g a acts H). reflexivity. Qed.

  Lemma deltas_other g a : ot g = None -> deltas (g, a) acts' = deltas (g, a) acts.
  Proof. intros H. unfold deltas. rewrite (filter_img_other (fun x => negb (is_assign x)) g a acts H). reflexivity. Qed.

  Lemma deltas_obj f t a : ot f = Some t -> deltas (f, a) acts = [].
  Proof.
    intros H. apply deltas_nil. intros x Hx.
    destruct (gfl_eqb (ae_key x) (f, a)) eqn:K; [|reflexivity]. apply gfl_eqb_eq in K.
    destruct (Htyped x t Hx) as [Ha _]; [rewrite K; exact H|]. rewrite Ha. reflexivity.
  Qed.

  Lemma in_acts' y : In y acts' <-> exists x, In x acts /\ In y (img P x).
  Proof. apply in_flat_map. Qed.

  Lemma deltas_obj' f t a : ot f = Some t -> deltas (f, a) acts' = [].
  Proof.
    intros H. apply deltas_nil. intros y Hy.
    destruct (gfl_eqb (ae_key y) (f, a)) eqn:K; [|reflexivity]. apply gfl_eqb_eq in K. cbn [andb].
    apply in_acts' in Hy. destruct Hy as [x [Hx Hy]]. unfold img in Hy.
    destruct (ot (fst (ae_key x))) as [t0|] eqn:E.
    - apply in_map_iff in Hy. destruct Hy as [u [<- _]]. destruct (Htyped x t0 Hx E) as [Ha _].
      unfold is_assign in *. cbn [img1 ae_kind]. rewrite Ha. reflexivity.
    - destruct Hy as [<-|[]]. rewrite K in E. cbn in E. congruence.
  Qed.

  (* the assignments on the encoding o(a, u) are the images of the assignments on o(a) *)
  Lemma in_avals' f t a u v : ot f = Some t ->
    (In v (avals (f, a ++ [VObj u]) acts') <->
     In u (objs_of P t) /\ exists w, In (VObj w) (avals (f, a) acts) /\ v = VBool (w =? u)%N).
  Proof.
    intros H. rewrite in_avals. split.
    - intros (y & Hy & Hk & Ha & Hv). apply gfl_eqb_eq in Hk. apply in_acts' in Hy. destruct Hy as [x [Hx Hy]].
      unfold img in Hy. destruct (ot (fst (ae_key x))) as [t0|] eqn:E.
      + apply in_map_iff in Hy. destruct Hy as [u0 [<- Hu0]]. cbn [img1 ae_key ae_val] in *.
        inversion Hk as [[Kf Ka]]. apply app_inj_tail in Ka. destruct Ka as [Ka Ku]. inversion Ku; subst u0.
        rewrite Kf in E. rewrite H in E. inversion E; subst t0. split; [exact Hu0|].
        destruct (Htyped x t Hx) as [Has [w [Hw _]]]; [rewrite Kf; exact H|].
        exists w. split; [|rewrite <- Hv, Hw; reflexivity].
        apply in_avals. exists x. repeat split; auto. apply gfl_eqb_eq. destruct (ae_key x); cbn in *; subst; reflexivity.
      + destruct Hy as [<-|[]]. rewrite Hk in E. cbn in E. congruence.
    - intros (Hu & w & Hw & ->). apply in_avals in Hw. destruct Hw as (x & Hx & Hk & Ha & Hv). apply gfl_eqb_eq in Hk.
      exists (img1 x u). split; [|split; [|split]].
      + apply in_acts'. exists x. split; [exact Hx|]. unfold img. rewrite Hk. cbn [fst]. rewrite H. apply in_map. exact Hu.
      + apply gfl_eqb_eq. cbn [img1 ae_key]. rewrite Hk. reflexivity.
      + unfold is_assign in *. cbn [img1 ae_kind]. exact Ha.
      + cbn [img1 ae_val]. rewrite Hv. reflexivity.
  Qed.

  Lemma avals_obj_shape f t a : ot f = Some t ->
    avals (f, a) acts = [] \/
    exists w, In w (objs_of P t) /\ avals (f, a) acts <> [] /\ (forall v, In v (avals (f, a) acts) -> v = VObj w).
  Proof.
    intros H. destruct (avals (f, a) acts) as [|v0 A] eqn:EA; [left; reflexivity|]. right.
    assert (H0 : In v0 (avals (f, a) acts)) by (rewrite EA; left; reflexivity).
    pose proof H0 as H0'. apply in_avals in H0'. destruct H0' as (x & Hx & Hk & _ & Hv). apply gfl_eqb_eq in Hk.
    destruct (Htyped x t Hx) as [_ [w [Hw Hin]]]; [rewrite Hk; exact H|].
    exists w. split; [exact Hin|]. split; [discriminate|]. intros v Hv'. rewrite <- EA in Hv'.
    rewrite (Hone f t a v v0 H Hv' H0), <- Hv, Hw. reflexivity.
  Qed.

  Lemma spec_fluent_obj f t a : ot f = Some t -> forall s,
    spec_fluent P s acts (f, a) =
    match avals (f, a) acts with [] => CUnchanged | v :: _ => CVal v end.
  Proof.
    intros H s. unfold spec_fluent. cbn [fst snd]. rewrite (isb_obj f t H), (deltas_obj f t a H).
    destruct (avals_obj_shape f t a H) as [->|(w & _ & _ & Hall)]; [reflexivity|].
    destruct (avals (f, a) acts) as [|v0 A]; [reflexivity|]. cbn [combine].
    rewrite (proj2 (forallb_forall _ _)); [reflexivity|]. intros y Hy.
    rewrite (Hall v0 (or_introl eq_refl)), (Hall y (or_intror Hy)). apply value_eqb_refl.
  Qed.

  Lemma spec_fluent_obj' f t k s' : ot f = Some t -> fst k = f ->
    spec_fluent P' s' acts' k =
    match avals k acts' with [] => CUnchanged | _ :: _ => CVal (VBool (existsb is_vtrue (avals k acts'))) end.
  Proof.
    intros H Hk. unfold spec_fluent. rewrite Hk, (isb_obj' f t H). destruct k as [f0 a0]. cbn [fst] in Hk. subst f0.
    rewrite (deltas_obj' f t a0 H). destruct (avals (f, a0) acts'); reflexivity.
  Qed.

  (* the encoding o(a, u) of a ground object fluent o(a) becomes "the value assigned to o(a) is u" *)
  Lemma spec_fluent_enc f t a u s' : ot f = Some t -> In u (objs_of P t) ->
    spec_fluent P' s' acts' (f, a ++ [VObj u]) =
    match avals (f, a) acts with [] => CUnchanged | v :: _ => CVal (VBool (objv v =? u)%N) end.
  Proof.
    intros Hf Hu. rewrite (spec_fluent_obj' f t (f, a ++ [VObj u]) s' Hf eq_refl).
    destruct (avals_obj_shape f t a Hf) as [E|(w & Hw & Hne & Hall)].
    - rewrite E. destruct (avals (f, a ++ [VObj u]) acts') as [|v A] eqn:EA; [reflexivity|].
      assert (Hv : In v (avals (f, a ++ [VObj u]) acts')) by (rewrite EA; left; reflexivity).
      apply (in_avals' f t a u v Hf) in Hv. destruct Hv as (_ & w & Hw & _). rewrite E in Hw. destruct Hw.
    - destruct (avals (f, a) acts) as [|v0 A] eqn:EA; [contradiction|].
      rewrite (Hall v0 (or_introl eq_refl)). cbn [objv].
      assert (Hin : In (VBool (w =? u)%N) (avals (f, a ++ [VObj u]) acts')).
      { apply (in_avals' f t a u _ Hf). split; [exact Hu|]. exists w. split; [|reflexivity].
        rewrite EA. left. apply Hall. left; reflexivity. }
      destruct (avals (f, a ++ [VObj u]) acts') as [|y A'] eqn:EA'; [destruct Hin|].
      rewrite (existsb_vtrue_const (y :: A') (w =? u)%N); [reflexivity | discriminate|].
      intros z Hz. rewrite <- EA' in Hz. apply (in_avals' f t a u z Hf) in Hz. destruct Hz as (_ & w' & Hw' & ->).
      rewrite EA in Hw'. specialize (Hall _ Hw'). inversion Hall. reflexivity.
  Qed.

  Lemma spec_fluent_other g a s s' : ot g = None -> s' g a = s g a ->
    spec_fluent P' s' acts' (g, a) = spec_fluent P s acts (g, a).
  Proof.
    intros H Hs. unfold spec_fluent. cbn [fst snd]. rewrite (isb_other g H), Hs, (avals_other g a H), (deltas_other g a H).
    reflexivity.
  Qed.

  Variables s s' : state.
  Hypothesis Hrel : utfr_rel P s s'.

  Lemma succ_rel : utfr_rel P (spec_succ P s acts) (spec_succ P' s' acts').
  Proof.
    destruct Hrel as [R1 R2]. split.
    - intros g a Hg. unfold spec_succ. rewrite (spec_fluent_other g a s s' Hg (R1 g a Hg)), (R1 g a Hg). reflexivity.
    - intros f t a Hf. unfold spec_succ. rewrite (spec_fluent_obj f t a Hf s). specialize (R2 f t a Hf).
      destruct (avals_obj_shape f t a Hf) as [E|(w & Hw & Hne & Hall)].
      + rewrite E. destruct (s f a) as [[| |c]|]; try exact R2.
        * destruct R2 as [Hc R2]. split; [exact Hc|]. intros u Hu. rewrite (spec_fluent_enc f t a u s' Hf Hu), E. apply R2, Hu.
        * intros u Hu. rewrite (spec_fluent_enc f t a u s' Hf Hu), E. apply R2, Hu.
      + destruct (avals (f, a) acts) as [|v0 A] eqn:EA; [contradiction|].
        rewrite (Hall v0 (or_introl eq_refl)). split; [exact Hw|]. intros u Hu.
        rewrite (spec_fluent_enc f t a u s' Hf Hu), EA, (Hall v0 (or_introl eq_refl)). reflexivity.
  Qed.

  Lemma effects_ok_eq : spec_effects_ok P' s' acts' = spec_effects_ok P s acts.
  Proof.
    destruct Hrel as [R1 _]. unfold spec_effects_ok. rewrite forallb_flat_map. apply forallb_ext. intros x.
    assert (Ei : img P x = match ot (fst (ae_key x)) with Some t => map (img1 x) (objs_of P t) | None => [x] end)
      by reflexivity. rewrite Ei. clear Ei. destruct (ot (fst (ae_key x))) as [t|] eqn:E.
    - destruct (ae_key x) as [f a] eqn:K. cbn [fst] in E. rewrite (spec_fluent_obj f t a E s).
      replace (match match avals (f, a) acts with [] => CUnchanged | v :: _ => CVal v end with CFail => false | _ => true end)
        with true by (destruct (avals (f, a) acts); reflexivity).
      apply forallb_forall. intros y Hy. apply in_map_iff in Hy. destruct Hy as [u [<- _]].
      rewrite (spec_fluent_obj' f t _ s' E) by (cbn [img1 ae_key fst]; rewrite K; reflexivity).
      destruct (avals (ae_key (img1 x u)) acts'); reflexivity.
    - cbn [forallb]. rewrite andb_true_r. destruct (ae_key x) as [g a] eqn:K. cbn [fst] in E.
      rewrite (spec_fluent_other g a s s' E (R1 g a E)). reflexivity.
  Qed.
End USucc.

Lemma all_hold_same I I' l : (forall x, In x l -> eval false x I' = eval false x I) -> all_hold false I' l = all_hold false I l.
Proof. intros H. rewrite <- (map_id l) at 1. apply all_hold_map_eq2. exact H. Qed.

Section UPlan.
  Variable tr : expr -> expr.
  Variable smp : expr -> expr.
  Variable P : problem.
  Variable G : state -> Prop.
  Notation ot := (otype P).
  Notation P' := (utfr_compile tr smp P).
  Hypothesis Hsmp : smp_exact smp.
  Hypothesis Hwf : utfr_wf tr smp P = true.
  Hypothesis Htr : tr_ok tr P.
  Hypothesis Hdef : effects_defined P G.
  Hypothesis Hone : one_value P G.
  Hypothesis Hcl : closed P G.
  Hypothesis Hid : unique_ids P.

  Lemma wf_decl : decls_ok P = true.
  Proof. unfold utfr_wf in Hwf. apply andb_true_iff in Hwf. tauto. Qed.

  Lemma wf_action i a : In (i, a) (p_actions P) ->
    (forall e, In e (a_effs a) -> eff_flat P e = true) /\ exists a', u_action tr smp P a = Some a'.
  Proof.
    intros H. unfold utfr_wf in Hwf. apply andb_true_iff in Hwf. destruct Hwf as [_ H2].
    rewrite forallb_forall in H2. specialize (H2 _ H). cbn [snd] in H2. apply andb_true_iff in H2. destruct H2 as [F1 F2].
    split; [rewrite forallb_forall in F1; exact F1|]. destruct (u_action tr smp P a) as [a'|]; [eexists; reflexivity | discriminate].
  Qed.

  Lemma rel_mk s s' pars : utfr_rel P s s' -> urel_interp ot (mk_interp P s pars) (mk_interp P' s' pars).
  Proof. intros [H1 H2]. repeat split; cbn [mk_interp fl par var ifun objs]; auto. Qed.

  Lemma in_conds_pre i a x : In (i, a) (p_actions P) -> In x (a_pre a) -> In x (conds_of_u P).
  Proof.
    intros Ha Hx. unfold conds_of_u. apply in_or_app. left. apply in_flat_map. exists (i, a). split; [exact Ha|].
    apply in_or_app. left. exact Hx.
  Qed.
  Lemma in_conds_eff i a e : In (i, a) (p_actions P) -> In e (a_effs a) -> In (e_cond e) (conds_of_u P).
  Proof.
    intros Ha Hx. unfold conds_of_u. apply in_or_app. left. apply in_flat_map. exists (i, a). split; [exact Ha|].
    apply in_or_app. right. apply in_map. exact Hx.
  Qed.

  (* bounded types: numeric fluents are untouched *)
  Lemma bound_invs_u : bound_invs P' = bound_invs P.
  Proof.
    unfold bound_invs. cbn [utfr_compile p_fluents]. induction (p_fluents P) as [|fd l IH]; [reflexivity|].
    cbn [map flat_map]. rewrite IH. f_equal. unfold u_fd. destruct (fd_ty fd) as [|lo hi|ty] eqn:E; rewrite ?E; try reflexivity.
    rewrite (arg_tuples_objs P P' (fd_sig fd) eq_refl). reflexivity.
  Qed.

  Lemma uclean_value_expr v : uclean ot (value_expr v) = true.
  Proof. destruct v; try reflexivity. cbn [value_expr]. unfold num_node. destruct (_ =? _)%Z; reflexivity. Qed.

  Lemma bound_invs_clean x : In x (bound_invs P) -> uclean ot x = true.
  Proof.
    pose proof wf_decl as Hd. unfold decls_ok in Hd. rewrite forallb_forall in Hd.
    unfold bound_invs. intros H. apply in_flat_map in H. destruct H as [fd [Hfd H]]. specialize (Hd fd Hfd).
    destruct (fd_ty fd) as [|lo hi|ty] eqn:E; try destruct H. apply in_flat_map in H. destruct H as [a [_ H]].
    destruct (ot (fd_id fd)) eqn:Eo; [discriminate|].
    assert (Cf : uclean ot (EFluent (fd_id fd) (map value_expr a)) = true).
    { cbn [uclean]. rewrite Eo. apply forallb_forall. intros y Hy. apply in_map_iff in Hy. destruct Hy as [v [<- _]].
      apply uclean_value_expr. }
    assert (Cn : forall q, uclean ot (num_node q) = true) by (intros q; unfold num_node; destruct (_ =? _)%Z; reflexivity).
    apply in_app_or in H. destruct H as [H|H].
    - destruct lo; [|destruct H]. destruct H as [<-|[]]. cbn [uclean]. fold (uclean ot). rewrite Cn. exact Cf.
    - destruct hi; [|destruct H]. destruct H as [<-|[]]. cbn [uclean]. fold (uclean ot). rewrite Cn, andb_true_r. exact Cf.
  Qed.

  Lemma invariants_rel t t' : utfr_rel P t t' -> invariants_ok false P' t' = invariants_ok false P t.
  Proof.
    intros HR. pose proof (rel_mk t t' [] HR) as HI. unfold invariants_ok. rewrite bound_invs_u, !all_hold_app.
    cbn [utfr_compile p_invs]. rewrite all_hold_filter_true. f_equal.
    - apply all_hold_map_eq2. intros x Hx. apply Htr; [|exact HI|reflexivity]. unfold conds_of_u. apply in_or_app. right. apply in_or_app. right. exact Hx.
    - apply all_hold_same. intros x Hx. apply (eval_uclean ot false x _ _ HI), bound_invs_clean, Hx.
  Qed.

  Lemma goals_rel t t' : utfr_rel P t t' -> goals_hold false P' t' = goals_hold false P t.
  Proof.
    intros HR. pose proof (rel_mk t t' [] HR) as HI. unfold goals_hold. cbn [utfr_compile p_goals]. unfold add_goals.
    rewrite all_hold_filter_true. apply all_hold_map_eq2. intros x Hx. apply Htr; [|exact HI|reflexivity].
    unfold conds_of_u. apply in_or_app. right. apply in_or_app. left. exact Hx.
  Qed.

  Lemma u_step s s' i a a' args : G s -> utfr_rel P s s' -> In (i, a) (p_actions P) -> u_action tr smp P a = Some a' ->
    orel_by (utfr_rel P) (spec_step false P s a args) (spec_step false P' s' a' args).
  Proof.
    intros HG HR Hin Hua. destruct (wf_action i a Hin) as [Hflat _].
    unfold u_action in Hua. destruct (add_effs_ok [] [] (u_effects tr smp P (a_effs a))); [|discriminate].
    inversion Hua; subst a'; clear Hua. rewrite !spec_step_unfold. cbn [a_params a_pre a_effs]. cbv zeta.
    set (I := mk_interp P s (zip_params (a_params a) args)). set (I' := mk_interp P' s' (zip_params (a_params a) args)).
    pose proof (rel_mk s s' (zip_params (a_params a) args) HR) as HI. fold I I' in HI.
    rewrite all_hold_add_pres, (all_hold_map_eq2 false I I' tr (a_pre a))
      by (intros x Hx; apply Htr; [apply (in_conds_pre i a x Hin Hx) | exact HI | reflexivity]).
    destruct (all_hold false I (a_pre a)) eqn:Epre; cbn [negb]; [|exact Logic.I].
    destruct (u_effects_res tr smp P Hsmp I I' (a_effs a) HI eq_refl) as (E1 & E2 & E3).
    { intros e He. split; [apply Hflat, He|]. split; [apply (Hdef s i a args e HG Hin He Epre)|].
      apply Htr; [apply (in_conds_eff i a e Hin He) | exact HI | reflexivity]. }
    unfold finish_step. rewrite !collect_res_spec, E1, E2, E3.
    set (acts := acts_of (eres_of I (a_effs a))).
    assert (Hfired : fired false I (a_effs a) = Some acts).
    { change (fired false I (a_effs a)) with (collect_res (eres_of I (a_effs a))). rewrite collect_res_spec, E1. reflexivity. }
    pose proof (fun x t => fired_typed P I (a_effs a) x t eq_refl
                  (fun e He => conj (Hflat e He) (Hdef s i a args e HG Hin He Epre))) as Htyped. fold acts in Htyped.
    assert (Hone' : forall f t x v1 v2, ot f = Some t -> In v1 (avals (f, x) acts) -> In v2 (avals (f, x) acts) -> v1 = v2).
    { intros f t x v1 v2 Hf. apply (Hone s i a args acts f t x v1 v2 HG Hin Hfired Hf). }
    rewrite (effects_ok_eq tr smp P wf_decl acts Htyped Hone' s s' HR).
    destruct (negb (spec_effects_ok P s acts)); [exact Logic.I|]. cbv zeta.
    pose proof (succ_rel tr smp P wf_decl acts Htyped Hone' s s' HR) as HS.
    rewrite (invariants_rel _ _ HS). destruct (invariants_ok false P (spec_succ P s acts)); [exact HS | exact Logic.I].
  Qed.

  Lemma lookup_u aid : lookup_action P' aid =
    match lookup_action P aid with Some a => u_action tr smp P a | None => None end.
  Proof. unfold lookup_action. cbn [utfr_compile p_actions]. apply lookup_map_actions. exact Hid. Qed.

  Lemma u_steps s s' aid args : G s /\ utfr_rel P s s' ->
    orel_by (fun s s' => G s /\ utfr_rel P s s')
      (match lookup_action P aid with Some a => spec_step false P s a args | None => None end)
      (match lookup_action P' aid with Some a' => spec_step false P' s' a' args | None => None end).
  Proof.
    intros [HG HR]. rewrite lookup_u. destruct (lookup_action P aid) as [a|] eqn:EL; [|exact Logic.I].
    assert (Hin : In (aid, a) (p_actions P)) by (apply lookupN_In; exact EL).
    destruct (wf_action aid a Hin) as [_ [a' Ea]]. rewrite Ea.
    pose proof (u_step s s' aid a a' args HG HR Hin Ea) as HS. unfold orel_by in HS.
    destruct (spec_step false P s a args) as [t|] eqn:Es, (spec_step false P' s' a' args) as [t'|]; try contradiction;
      [|exact Logic.I].
    split; [apply (Hcl s aid a args t HG EL Es) | exact HS].
  Qed.

  Theorem u_run pi : forall s s', G s -> utfr_rel P s s' ->
    orel_by (utfr_rel P) (run P (spec_step false P) s pi) (run P' (spec_step false P') s' pi).
  Proof.
    intros s s' HG HR. pose proof (run_sim P P' _ u_steps pi s s' (conj HG HR)) as H. unfold orel_by in *.
    destruct (run P (spec_step false P) s pi), (run P' (spec_step false P') s' pi); try exact H. exact (proj2 H).
  Qed.

  (* the compiled problem accepts exactly the plans of the original (soundness and completeness; the map back of a plan
     is the plan itself: replace_action with the new_to_old dictionary, same names and parameters) *)
  Theorem u_valid_plan s s' pi : G s -> utfr_rel P s s' ->
    valid_plan false P' s' pi = valid_plan false P s pi.
  Proof.
    intros HG HR. exact (valid_plan_sim P P' _ u_steps (fun t t' H => goals_rel t t' (proj2 H)) s s' pi (conj HG HR)).
  Qed.
End UPlan.

Lemma split_last_snoc a x : split_last (a ++ [x]) = Some (a, x).
Proof. unfold split_last. rewrite rev_app_distr. cbn [rev app]. rewrite rev_involutive. reflexivity. Qed.

(* the compiled initial values: related to the original ones whenever the object fluents hold objects of their type *)
Lemma enc_rel P s :
  (forall f t a, otype P f = Some t -> match s f a with
                                       | Some (VObj c) => In c (objs_of P t) | Some _ => False | None => True end) ->
  utfr_rel P s (enc_state P s).
Proof.
  intros H. split.
  - intros g a Hg. unfold enc_state. rewrite Hg. reflexivity.
  - intros f t a Hf. specialize (H f t a Hf). unfold enc_state. rewrite Hf.
    destruct (s f a) as [[| |c]|] eqn:E; try contradiction.
    + split; [exact H|]. intros u _. rewrite split_last_snoc, E. reflexivity.
    + intros u _. rewrite split_last_snoc, E. reflexivity.
Qed.

Lemma in_avals_effect I effs k v : (forall e, In e effs -> e_vars e = []) ->
  In v (avals k (acts_of (eres_of I effs))) ->
  exists e, In e effs /\ e_fl e = fst k /\ exists x, eval_effect false I e = EAct x /\ ae_val x = v.
Proof.
  intros Hv H. apply in_avals in H. destruct H as (x & Hx & Hk & _ & Hval).
  rewrite (eres_novars I effs Hv) in Hx. apply in_acts_of in Hx. apply in_map_iff in Hx. destruct Hx as [e [Ee He]].
  exists e. split; [exact He|]. apply gfl_eqb_eq in Hk. split; [|exists x; split; assumption].
  unfold eval_effect in Ee. destruct (evals_l false I (e_args e)); [|discriminate].
  destruct (eval false (e_cond e) I) as [[[|]| |]|]; try discriminate. destruct (eval false (e_val e) I); [|discriminate].
  inversion Ee; subst x. cbn [ae_key] in Hk. rewrite <- Hk. reflexivity.
Qed.

(* no object fluent symbol is the target of two effects of one action (and no effect has forall variables): then the
   assignments fired on one ground object fluent come from one effect instance *)
Lemma one_value_single_target P (G : state -> Prop) :
  (forall i a, In (i, a) (p_actions P) ->
     (forall e, In e (a_effs a) -> e_vars e = []) /\
     (forall e1 e2, In e1 (a_effs a) -> In e2 (a_effs a) -> e_fl e1 = e_fl e2 -> otype P (e_fl e1) <> None -> e1 = e2)) ->
  one_value P G.
Proof.
  intros H s i a args acts f t x v1 v2 _ Hin Hf Hot H1 H2. destruct (H i a Hin) as [Hv Huniq].
  change (fired false ?I ?l) with (collect_res (eres_of I l)) in Hf. rewrite collect_res_spec in Hf.
  destruct (has_err _); [discriminate|]. inversion Hf; subst acts; clear Hf.
  destruct (in_avals_effect _ _ _ _ Hv H1) as (e1 & He1 & Hk1 & x1 & Ex1 & <-).
  destruct (in_avals_effect _ _ _ _ Hv H2) as (e2 & He2 & Hk2 & x2 & Ex2 & <-). cbn [fst] in Hk1, Hk2.
  rewrite (Huniq e1 e2 He1 He2) in Ex1; [|congruence | rewrite Hk1, Hot; discriminate].
  rewrite Ex1 in Ex2. inversion Ex2. reflexivity.
Qed.

Module UtfrWitness.
  Definition oeff (v c : expr) : effect :=
    {| e_fl := 0%N; e_args := []; e_val := v; e_cond := c; e_kind := KAssign; e_vars := []; e_isbool := false |}.
  Definition geff : effect :=
    {| e_fl := 1%N; e_args := []; e_val := EBool true; e_cond := EBool true; e_kind := KAssign; e_vars := []; e_isbool := true |}.
  (* o := 1; if b then o := 2; g := true      (type 0 = {1, 2}; o : type 0, g, b Boolean) *)
  Definition aw : action :=
    {| a_params := []; a_pre := []; a_effs := [oeff (EObj 1%N) (EBool true); oeff (EObj 2%N) (EFluent 2%N []); geff] |}.
  Definition fds : list fdecl :=
    [{| fd_id := 0%N; fd_sig := []; fd_ty := FObj 0%N |}; {| fd_id := 1%N; fd_sig := []; fd_ty := FBool |};
     {| fd_id := 2%N; fd_sig := []; fd_ty := FBool |}].
  Definition Pw : problem :=
    {| p_objs := [(0%N, [1%N; 2%N])]; p_ifun := []; p_fluents := fds; p_actions := [(0%N, aw)];
       p_goals := [EFluent 1%N []]; p_invs := [] |}.
  Definition idf (e : expr) : expr := e.
  Definition sw : state :=
    fun f a => match f with 0%N => Some (VObj 1%N) | 1%N => Some (VBool false) | _ => Some (VBool true) end.
  Definition Pw' : problem := utfr_compile idf idf Pw.
  Definition plan : list (N * list value) := [(0%N, [])].

  (* the sound variant: the second assignment is gone, the first takes its value from the object fluent q (id 3) *)
  Definition qeff : effect :=
    {| e_fl := 0%N; e_args := []; e_val := EFluent 3%N []; e_cond := EFluent 2%N []; e_kind := KAssign; e_vars := [];
       e_isbool := false |}.
  Definition an : action := {| a_params := []; a_pre := [EFluent 2%N []]; a_effs := [qeff; geff] |}.
  Definition Pn : problem :=
    {| p_objs := [(0%N, [1%N; 2%N])]; p_ifun := [];
       p_fluents := fds ++ [{| fd_id := 3%N; fd_sig := []; fd_ty := FObj 0%N |}]; p_actions := [(0%N, an)];
       p_goals := [EFluent 1%N []]; p_invs := [] |}.
  Definition sn : state :=
    fun f a => match f with 0%N => Some (VObj 1%N) | 1%N => Some (VBool false) | 3%N => Some (VObj 2%N)
                       | _ => Some (VBool true) end.
  Definition Gn (s : state) : Prop :=
    (forall a, exists b, s 2%N a = Some (VBool b)) /\ (forall a, exists w, s 3%N a = Some (VObj w) /\ (w = 1 \/ w = 2)%N).
End UtfrWitness.

Lemma utfr_masked_conflict_witness :
  utfr_wf UtfrWitness.idf UtfrWitness.idf UtfrWitness.Pw = true /\
  obj_assigned_once UtfrWitness.Pw = false /\
  utfr_rel UtfrWitness.Pw UtfrWitness.sw (enc_state UtfrWitness.Pw UtfrWitness.sw) /\
  valid_plan false UtfrWitness.Pw' (enc_state UtfrWitness.Pw UtfrWitness.sw) UtfrWitness.plan = true /\
  valid_plan false UtfrWitness.Pw UtfrWitness.sw UtfrWitness.plan = false.
Proof.
  split; [vm_compute; reflexivity|]. split; [vm_compute; reflexivity|]. split; [|split; vm_compute; reflexivity].
  apply enc_rel. intros f t a Hf. unfold otype in Hf. cbn in Hf. destruct (f =? 0)%N eqn:E; [|discriminate].
  apply N.eqb_eq in E. subst f. inversion Hf; subst t. cbn. left; reflexivity.
Qed.

Lemma tr_ok_id P : (forall e, In e (conds_of_u P) -> uclean (otype P) e = true) -> tr_ok (fun e => e) P.
Proof. intros H e He I I' HR _. apply (eval_uclean (otype P) false e I I' HR), H, He. Qed.

Lemma utfr_nonvacuous :
  smp_exact UtfrWitness.idf /\ utfr_wf UtfrWitness.idf UtfrWitness.idf UtfrWitness.Pn = true /\
  tr_ok UtfrWitness.idf UtfrWitness.Pn /\ effects_defined UtfrWitness.Pn UtfrWitness.Gn /\
  one_value UtfrWitness.Pn UtfrWitness.Gn /\ closed UtfrWitness.Pn UtfrWitness.Gn /\ unique_ids UtfrWitness.Pn /\
  UtfrWitness.Gn UtfrWitness.sn /\
  utfr_rel UtfrWitness.Pn UtfrWitness.sn (enc_state UtfrWitness.Pn UtfrWitness.sn) /\
  valid_plan false UtfrWitness.Pn UtfrWitness.sn UtfrWitness.plan = true /\
  valid_plan false (utfr_compile UtfrWitness.idf UtfrWitness.idf UtfrWitness.Pn)
             (enc_state UtfrWitness.Pn UtfrWitness.sn) UtfrWitness.plan = true /\
  length (a_effs (snd (hd (0%N, UtfrWitness.an)
                          (p_actions (utfr_compile UtfrWitness.idf UtfrWitness.idf UtfrWitness.Pn))))) = 5.
Proof.
  split; [intros e I; reflexivity|]. split; [vm_compute; reflexivity|].
  split.
  { apply tr_ok_id. intros e He. vm_compute in He. repeat (destruct He as [<-|He]; [reflexivity|]). destruct He. }
  split.
  { intros s i a args e [Hb Hq] [Hin|[]] He _. inversion Hin; subst i a; clear Hin.
    destruct He as [<-|[<-|[]]].
    - split; [exists []; reflexivity|]. split.
      + destruct (Hb []) as [b Eb]. exists b. cbn. rewrite Eb. reflexivity.
      + destruct (Hq []) as [w [Ew Hw]]. exists (VObj w). split; [cbn; rewrite Ew; reflexivity|].
        cbn. exists w. split; [reflexivity|]. destruct Hw as [->| ->]; [left | right; left]; reflexivity.
    - split; [exists []; reflexivity|]. split; [exists true; reflexivity|]. exists (VBool true). split; [reflexivity|].
      cbn. exists true; reflexivity. }
  split.
  { apply one_value_single_target. intros i a [Hin|[]]. inversion Hin; subst i a; clear Hin. split.
    - intros e [<-|[<-|[]]]; reflexivity.
    - intros e1 e2 [<-|[<-|[]]] [<-|[<-|[]]] Ef _; try reflexivity; discriminate Ef. }
  split.
  { intros s aid a args t [Hb Hq] EL Es. unfold lookup_action in EL. cbn in EL. destruct (aid =? 0)%N; [|discriminate].
    inversion EL; subst a; clear EL.
    assert (K : forall f, (f = 2 \/ f = 3)%N -> forall x, t f x = s f x).
    { intros f Hf. apply (step_untouched UtfrWitness.Pn s UtfrWitness.an args t f Es).
      intros e [<-|[<-|[]]]; destruct Hf as [->| ->]; discriminate. }
    split; intros a; rewrite K; auto. }
  split; [repeat constructor; intros []|].
  split; [split; intros a; [exists true | exists 2%N; split; [|right]]; reflexivity|].
  split.
  { apply enc_rel. intros f t a Hf. unfold otype in Hf. cbn in Hf.
    destruct (f =? 0)%N eqn:E0; [apply N.eqb_eq in E0; subst f; inversion Hf; cbn; left; reflexivity|].
    destruct (f =? 3)%N eqn:E3; [|discriminate]. apply N.eqb_eq in E3; subst f; inversion Hf; cbn. right; left; reflexivity. }
  repeat split; vm_compute; reflexivity.
Qed.




Lemma simple_term_bind sc I v u x : simple_term v x = true -> eval sc x (bind_var I v u) = eval sc x I.
Proof.
  destruct x; try discriminate; try reflexivity. cbn [simple_term eval bind_var var]. intros H.
  apply negb_true_iff in H. rewrite H. reflexivity.
Qed.

Lemma simple_term_uclean ot v x : simple_term v x = true -> uclean ot x = true.
Proof. destruct x; try discriminate; reflexivity. Qed.

Lemma evals_l_simple_bind I v u l : forallb (simple_term v) l = true ->
  evals_l false (bind_var I v u) l = evals_l false I l.
Proof.
  induction l as [|x l IH]; intros H; [reflexivity|]. cbn [forallb] in H. apply andb_true_iff in H. destruct H as [H1 H2].
  cbn [evals_l]. rewrite (simple_term_bind false I v u x H1), (IH H2). reflexivity.
Qed.

Lemma existsb_pick (c w : N) l : In c l -> existsb (fun u => (u =? w)%N && (c =? u)%N) l = (c =? w)%N.
Proof.
  intros Hc. destruct (c =? w)%N eqn:E.
  - apply N.eqb_eq in E. subst w. apply existsb_exists. exists c. split; [exact Hc|]. rewrite N.eqb_refl. reflexivity.
  - apply not_true_iff_false. intros H. apply existsb_exists in H. destruct H as [u [_ H]].
    apply andb_true_iff in H. destruct H as [H1 H2]. apply N.eqb_eq in H1, H2. subst. rewrite N.eqb_refl in E. discriminate.
Qed.

Section UtrExact.
  Variable ot : N -> option N.
  Variable fv : N -> N.

  (* one flat read: Exists v. And(Equals(v, t) / Equals(t, v), o(a, v)) has the value and the definedness of
     Equals(o(a), t) / Equals(t, o(a)) *)
  Lemma flat_read_exact I I' f ty a t (swap : bool) :
    urel_interp ot I I' -> ot f = Some ty -> objs I ty <> [] ->
    forallb (simple_term (fv f)) a = true -> simple_term (fv f) t = true ->
    eval false (EExists [(fv f, ty)]
                  (EAnd [if swap then EEquals t (EVar (fv f) ty) else EEquals (EVar (fv f) ty) t;
                         EFluent f (a ++ [EVar (fv f) ty])])) I' =
    eval false (if swap then EEquals t (EFluent f a) else EEquals (EFluent f a) t) I.
  Proof.
    intros HR Hf Hne Ha Ht. pose proof HR as (_ & _ & _ & Ho & _ & Hob).
    set (v := fv f) in *.
    assert (Ea : evals_l false I' a = evals_l false I a).
    { apply (evals_l_uclean ot I I' a HR). apply forallb_forall. intros x Hx. rewrite forallb_forall in Ha.
      apply (simple_term_uclean ot v), Ha, Hx. }
    assert (Et : eval false t I' = eval false t I) by (apply (eval_uclean ot false t I I' HR), (simple_term_uclean ot v), Ht).
    assert (Inst : forall u,
      as_bool (eval false (EAnd [if swap then EEquals t (EVar v ty) else EEquals (EVar v ty) t;
                                 EFluent f (a ++ [EVar v ty])]) (bind_var I' v u)) =
      match eval false t I, (match evals_l false I a with Some vs => fl I' f (vs ++ [VObj u]) | None => None end) with
      | Some (VObj w), Some (VBool b2) => Some ((u =? w)%N && b2)
      | _, _ => None
      end).
    { intros u. rewrite eval_EAnd. cbn [ebools].
      assert (E1 : eval false (if swap then EEquals t (EVar v ty) else EEquals (EVar v ty) t) (bind_var I' v u) =
                   match eval false t I with Some (VObj w) => Some (VBool (u =? w)%N) | _ => None end).
      { destruct swap; rewrite eval_EEquals, (simple_term_bind false I' v u t Ht), Et; cbn [eval bind_var var];
          rewrite N.eqb_refl; destruct (eval false t I) as [[| |w]|]; try reflexivity. rewrite N.eqb_sym. reflexivity. }
      assert (E2 : eval false (EFluent f (a ++ [EVar v ty])) (bind_var I' v u) =
                   match evals_l false I a with Some vs => fl I' f (vs ++ [VObj u]) | None => None end).
      { rewrite eval_EFluent, <- evals_l_evals, evals_l_app, (evals_l_simple_bind I' v u a Ha), Ea.
        cbn [evals_l eval bind_var var]. rewrite N.eqb_refl. destruct (evals_l false I a); reflexivity. }
      rewrite E1, E2. destruct (eval false t I) as [[| |w]|]; try reflexivity.
      cbn [as_bool]. destruct (match evals_l false I a with Some vs => fl I' f (vs ++ [VObj u]) | None => None end)
        as [[b2| |]|]; try reflexivity. cbn [as_bool forallb]. rewrite andb_true_r. reflexivity. }
    assert (AllNone : (forall u, In u (objs I ty) ->
                match eval false t I, (match evals_l false I a with Some vs => fl I' f (vs ++ [VObj u]) | None => None end) with
                | Some (VObj w), Some (VBool b2) => Some ((u =? w)%N && b2)
                | _, _ => None
                end = None) ->
              eval false (EExists [(v, ty)]
                  (EAnd [if swap then EEquals t (EVar v ty) else EEquals (EVar v ty) t; EFluent f (a ++ [EVar v ty])])) I' = None).
    { intros H. rewrite eval_EExists, instances_one, map_map, Ho, (map_ext _ _ Inst), (q_fold_none_all _ _ _ _ Hne H). reflexivity. }
    destruct (evals_l false I a) as [vs|] eqn:Era.
    - specialize (Hob f ty vs Hf). destruct (fl I f vs) as [[| |c]|] eqn:Efl; try contradiction.
      + destruct Hob as [Hc Hob]. destruct (eval false t I) as [[| |w]|] eqn:Ert.
        * rewrite AllNone by (intros; reflexivity).
          destruct swap; rewrite eval_EEquals, eval_EFluent, <- evals_l_evals, Era, Efl, Ert; reflexivity.
        * rewrite AllNone by (intros; reflexivity).
          destruct swap; rewrite eval_EEquals, eval_EFluent, <- evals_l_evals, Era, Efl, Ert; reflexivity.
        * rewrite eval_EExists, instances_one, map_map, Ho, (map_ext _ _ Inst).
          rewrite (map_ext_in _ (fun u => Some ((u =? w)%N && (c =? u)%N))) by (intros u Hu; rewrite (Hob u Hu); reflexivity).
          rewrite q_fold_all_some, (existsb_pick c w _ Hc).
          destruct swap; rewrite eval_EEquals, eval_EFluent, <- evals_l_evals, Era, Efl, Ert; [rewrite N.eqb_sym|]; reflexivity.
        * rewrite AllNone by (intros; reflexivity).
          destruct swap; rewrite eval_EEquals, eval_EFluent, <- evals_l_evals, Era, Efl, Ert; reflexivity.
      + rewrite AllNone by (intros u Hu; rewrite (Hob u Hu); destruct (eval false t I) as [[| |?]|]; reflexivity).
        destruct swap; rewrite eval_EEquals, eval_EFluent, <- evals_l_evals, Era, Efl;
          destruct (eval false t I) as [[| |?]|]; reflexivity.
    - rewrite AllNone by (intros u Hu; destruct (eval false t I) as [[| |?]|]; reflexivity).
      destruct swap; rewrite eval_EEquals, eval_EFluent, <- evals_l_evals, Era;
        destruct (eval false t I) as [[| |?]|]; reflexivity.
  Qed.
End UtrExact.

Section UtrExact2.
  Variable ot : N -> option N.
  Variable fv : N -> N.
  Variable ob : N -> list N.
  (* the type of every object fluent has an object (otherwise Exists over the empty type is false where the original
     read is undefined) *)
  Hypothesis Hinh : forall f t, ot f = Some t -> ob t <> [].

  Definition urel_ob (J J' : interp) : Prop := urel_interp ot J J' /\ objs J = ob.

  Lemma urel_instances_ob vs I I' : urel_ob I I' -> Forall2 urel_ob (instances I vs) (instances I' vs).
  Proof.
    apply instances_Forall2.
    - intros J J' [(_ & _ & _ & H & _) _] t. symmetry. apply H.
    - intros J J' v o [HR HO]. split; [apply urel_bind; exact HR | exact HO].
  Qed.

  Lemma flat_equals_l I I' f args t : urel_ob I I' -> flat ot fv (EEquals (EFluent f args) t) = true ->
    eval false (utr ot fv (EEquals (EFluent f args) t)) I' = eval false (EEquals (EFluent f args) t) I.
  Proof.
    intros [HR Hob] Hfl. cbn [utr flat] in *. unfold flat_read. destruct (ot f) as [ty|] eqn:Ef.
    - rewrite Hfl. apply andb_true_iff in Hfl. destruct Hfl as [Ha Ht].
      apply (flat_read_exact ot fv I I' f ty args t false HR Ef); [rewrite Hob; apply (Hinh f ty Ef) | exact Ha | exact Ht].
    - exact (eval_uclean ot false _ I I' HR Hfl).
  Qed.

  (* an equality whose left side [t] is not a fluent expression: what [utr] and [flat] do with it *)
  Definition utr_r (t b : expr) : expr :=
    match b with
    | EFluent f a => match flat_read ot fv f a t true with Some x => x | None => EEquals t b end
    | _ => EEquals t b
    end.
  Definition flat_r (t b : expr) : bool :=
    match b with
    | EFluent f a => match ot f with
                     | Some _ => forallb (simple_term (fv f)) a && simple_term (fv f) t
                     | None => uclean ot (EEquals t b)
                     end
    | _ => uclean ot (EEquals t b)
    end.

  Lemma utr_r_exact I I' t b : urel_ob I I' -> flat_r t b = true ->
    eval false (utr_r t b) I' = eval false (EEquals t b) I.
  Proof.
    intros [HR Hob] Hfl. destruct b; try exact (eval_uclean ot false _ I I' HR Hfl).
    unfold utr_r, flat_r, flat_read in *. destruct (ot f) as [ty|] eqn:Ef.
    - rewrite Hfl. apply andb_true_iff in Hfl. destruct Hfl as [Ha Ht].
      apply (flat_read_exact ot fv I I' f ty args t true HR Ef); [rewrite Hob; apply (Hinh f ty Ef) | exact Ha | exact Ht].
    - exact (eval_uclean ot false _ I I' HR Hfl).
  Qed.

  Lemma ebools_utr I I' l :
    Forall (fun x => forall I I', urel_ob I I' -> flat ot fv x = true -> eval false (utr ot fv x) I' = eval false x I) l ->
    urel_ob I I' -> forallb (flat ot fv) l = true -> ebools false I' (map (utr ot fv) l) = ebools false I l.
  Proof.
    intros HF HR. induction HF as [|x l Hx _ IH]; intros Hfl; [reflexivity|]. cbn [forallb] in Hfl.
    apply andb_true_iff in Hfl. destruct Hfl as [H1 H2]. cbn [map ebools]. rewrite (Hx I I' HR H1), (IH H2). reflexivity.
  Qed.

  Theorem utr_exact e : forall I I', urel_ob I I' -> flat ot fv e = true ->
    eval false (utr ot fv e) I' = eval false e I.
  Proof.
    induction e using expr_ind'; intros I I' HR Hfl;
      try exact (eval_uclean ot false _ I I' (proj1 HR) Hfl).
    - cbn [utr flat] in *. rewrite !eval_EAnd, (ebools_utr I I' l H HR Hfl). reflexivity.
    - cbn [utr flat] in *. rewrite !eval_EOr, (ebools_utr I I' l H HR Hfl). reflexivity.
    - cbn [utr flat] in *. rewrite !eval_ENot, (IHe I I' HR Hfl). reflexivity.
    - cbn [utr flat] in *. apply andb_true_iff in Hfl. destruct Hfl as [F1 F2].
      rewrite !eval_EImplies, (IHe1 I I' HR F1), (IHe2 I I' HR F2). reflexivity.
    - cbn [utr flat] in *. apply andb_true_iff in Hfl. destruct Hfl as [F1 F2].
      rewrite !eval_EIff, (IHe1 I I' HR F1), (IHe2 I I' HR F2). reflexivity.
    - cbn [utr flat] in *. rewrite !eval_EExists. f_equal.
      rewrite (Forall2_map_eq urel_ob (fun J => as_bool (eval false e J)) (fun J => as_bool (eval false (utr ot fv e) J))
                 _ _ (urel_instances_ob vs I I' HR)); [reflexivity|].
      intros x y Hxy. rewrite (IHe x y Hxy Hfl). reflexivity.
    - cbn [utr flat] in *. rewrite !eval_EForall. f_equal.
      rewrite (Forall2_map_eq urel_ob (fun J => as_bool (eval false e J)) (fun J => as_bool (eval false (utr ot fv e) J))
                 _ _ (urel_instances_ob vs I I' HR)); [reflexivity|].
      intros x y Hxy. rewrite (IHe x y Hxy Hfl). reflexivity.
    - destruct e1; try exact (utr_r_exact I I' _ e2 HR Hfl). apply flat_equals_l; assumption.
  Qed.
End UtrExact2.

(* [utr] (followed by an exact simplifier) satisfies [tr_ok] *)
Lemma utr_tr_ok smp P fv : smp_exact smp -> conds_flat P fv = true -> types_inhabited P = true ->
  tr_ok (fun e => smp (utr (otype P) fv e)) P.
Proof.
  intros Hsmp Hfl Hin e He I I' HR Hob. rewrite Hsmp.
  apply (utr_exact (otype P) fv (objs_of P)).
  - intros f t Hf. unfold types_inhabited in Hin. rewrite forallb_forall in Hin.
    specialize (Hin (f, t) (lookupN_In _ _ _ Hf)). cbn [snd] in Hin. destruct (objs_of P t); [discriminate | discriminate].
  - split; assumption.
  - unfold conds_flat in Hfl. rewrite forallb_forall in Hfl. apply Hfl, He.
Qed.

(* non-vacuity with an object read: type 0 = {1, 2}; o(x : type 0) : type 0 (fluent 0), g Boolean (fluent 1);
   action 0 (parameter 7):  pre o(x) == 1;  eff o(x) := 2, g := true;  goals g and o(1) == 2 *)
Module UtfrRef.
  Definition px : expr := EParam 7%N.
  Definition ox : expr := EFluent 0%N [px].
  Definition oeffx : effect :=
    {| e_fl := 0%N; e_args := [px]; e_val := EObj 2%N; e_cond := EBool true; e_kind := KAssign; e_vars := [];
       e_isbool := false |}.
  Definition ar : action :=
    {| a_params := [7%N]; a_pre := [EEquals ox (EObj 1%N)]; a_effs := [oeffx; UtfrWitness.geff] |}.
  Definition Pr : problem :=
    {| p_objs := [(0%N, [1%N; 2%N])]; p_ifun := [];
       p_fluents := [{| fd_id := 0%N; fd_sig := [0%N]; fd_ty := FObj 0%N |}; {| fd_id := 1%N; fd_sig := []; fd_ty := FBool |}];
       p_actions := [(0%N, ar)];
       p_goals := [EFluent 1%N []; EEquals (EFluent 0%N [EObj 1%N]) (EObj 2%N)]; p_invs := [] |}.
  Definition sr : state := fun f a => match f with 0%N => Some (VObj 1%N) | _ => Some (VBool false) end.
  Definition fvr (f : N) : N := (100 + f)%N.
  Definition Gr (s : state) : Prop := True.
  Definition planr : list (N * list value) := [(0%N, [VObj 1%N])].
  Definition trr (e : expr) : expr := UtfrWitness.idf (utr (otype Pr) fvr e).
  Definition Pr' : problem := utfr_compile trr UtfrWitness.idf Pr.
End UtfrRef.

Lemma utfr_reference_nonvacuous :
  smp_exact UtfrWitness.idf /\ conds_flat UtfrRef.Pr UtfrRef.fvr = true /\ types_inhabited UtfrRef.Pr = true /\
  utfr_wf UtfrRef.trr UtfrWitness.idf UtfrRef.Pr = true /\
  effects_defined UtfrRef.Pr UtfrRef.Gr /\ one_value UtfrRef.Pr UtfrRef.Gr /\ closed UtfrRef.Pr UtfrRef.Gr /\
  unique_ids UtfrRef.Pr /\ UtfrRef.Gr UtfrRef.sr /\
  utfr_rel UtfrRef.Pr UtfrRef.sr (enc_state UtfrRef.Pr UtfrRef.sr) /\
  valid_plan false UtfrRef.Pr UtfrRef.sr UtfrRef.planr = true /\
  valid_plan false UtfrRef.Pr' (enc_state UtfrRef.Pr UtfrRef.sr) UtfrRef.planr = true /\
  valid_plan false UtfrRef.Pr' (enc_state UtfrRef.Pr UtfrRef.sr) [(0%N, [VObj 2%N]); (0%N, [VObj 1%N])] = true /\
  valid_plan false UtfrRef.Pr' (enc_state UtfrRef.Pr UtfrRef.sr) [(0%N, [VObj 1%N]); (0%N, [VObj 1%N])] = false /\
  map (fun ia => a_pre (snd ia)) (p_actions UtfrRef.Pr') =
    [[EExists [(100%N, 0%N)]
        (EAnd [EEquals (EVar 100%N 0%N) (EObj 1%N); EFluent 0%N [EParam 7%N; EVar 100%N 0%N]])]].
Proof.
  split; [intros e I; reflexivity|]. split; [vm_compute; reflexivity|]. split; [vm_compute; reflexivity|].
  split; [vm_compute; reflexivity|].
  split.
  { intros s i a args e _ [Hin|[]] He Hpre. inversion Hin; subst i a; clear Hin.
    set (I := mk_interp UtfrRef.Pr s (zip_params (a_params UtfrRef.ar) args)) in *.
    assert (Hp : exists p, par I 7%N = Some p).
    { unfold all_hold in Hpre. cbn [UtfrRef.ar a_pre forallb] in Hpre. unfold holds in Hpre.
      unfold UtfrRef.ox, UtfrRef.px in Hpre. rewrite eval_EEquals, eval_EFluent in Hpre. cbn [evals eval] in Hpre.
      destruct (par I 7%N) as [p|]; [exists p; reflexivity | discriminate]. }
    destruct Hp as [p Hp]. destruct He as [<-|[<-|[]]].
    - split; [exists [p]; cbn [UtfrRef.oeffx e_args UtfrRef.px evals_l eval]; rewrite Hp; reflexivity|].
      split; [exists true; reflexivity|]. exists (VObj 2%N). split; [reflexivity|].
      change (otype UtfrRef.Pr (e_fl UtfrRef.oeffx)) with (Some 0%N). exists 2%N. split; [reflexivity|].
      right; left; reflexivity.
    - split; [exists []; reflexivity|]. split; [exists true; reflexivity|]. exists (VBool true). split; [reflexivity|].
      cbn. exists true; reflexivity. }
  split.
  { apply one_value_single_target. intros i a [Hin|[]]. inversion Hin; subst i a; clear Hin. split.
    - intros e [<-|[<-|[]]]; reflexivity.
    - intros e1 e2 [<-|[<-|[]]] [<-|[<-|[]]] Ef _; try reflexivity; discriminate Ef. }
  split; [intros s aid a args t _ _ _; exact Logic.I|].
  split; [repeat constructor; intros []|]. split; [exact Logic.I|].
  split.
  { apply enc_rel. intros f t a Hf. unfold otype in Hf. cbn in Hf.
    destruct (f =? 0)%N eqn:E0; [|discriminate]. apply N.eqb_eq in E0; subst f; inversion Hf; cbn. left; reflexivity. }
  repeat split; vm_compute; reflexivity.
Qed.

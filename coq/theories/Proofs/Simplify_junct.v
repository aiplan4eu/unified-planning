(* Simplifier.walk_and / walk_or on the simplified arguments ([walk_junct k], k = true: And): the Boolean reading of the
   result, in either quantifier mode.  [jfold k] is the fold of the operator, [comb k] its binary form.  Used for the
   simplifier itself (Simplify_sound.v) and for the Dnf walker, which calls Simplifier.walk_and (NnfDnf_proofs.v). *)
From Coq Require Import List ZArith NArith QArith Qcanon Bool.
Import ListNotations.
Require Import UPV.Core.Expr UPV.Core.Eval UPV.Proofs.Eval_lemmas UPV.Walkers.Simplify UPV.Proofs.Simplify_base.
Local Open Scope nat_scope.

Lemma eval_walk_not sc I s b : as_bool (eval sc s I) = Some b -> as_bool (eval sc (walk_not s) I) = Some (negb b).
Proof.
  destruct s; cbn [walk_not]; intros H; try (rewrite eval_ENot, H; reflexivity).
  - simpl in *. inversion H. reflexivity.
  - rewrite eval_ENot in H. destruct (as_bool (eval sc s I)) as [c|]; [|discriminate].
    inversion H. rewrite negb_involutive. reflexivity.
Qed.

Definition jfold (k : bool) (bs : list bool) : bool := if k then forallb (fun b => b) bs else existsb (fun b => b) bs.
Definition comb (k x y : bool) : bool := if k then x && y else x || y.

Lemma jfold_nil k : jfold k [] = k. Proof. destruct k; reflexivity. Qed.
Lemma jfold_cons k b bs : jfold k (b :: bs) = comb k b (jfold k bs). Proof. destruct k; reflexivity. Qed.
Lemma jfold_app k a b : jfold k (a ++ b) = comb k (jfold k a) (jfold k b).
Proof.
  induction a as [|x a IH]; [rewrite jfold_nil; destruct k; reflexivity|].
  cbn [app]. rewrite !jfold_cons, IH. destruct k, x, (jfold _ a), (jfold _ b); reflexivity.
Qed.

Lemma eval_J sc I (k : bool) l :
  eval sc (if k then EAnd l else EOr l) I =
  match ebools sc I l with Some bs => Some (VBool (jfold k bs)) | None => None end.
Proof. destruct k; [apply eval_EAnd|apply eval_EOr]. Qed.

Lemma ebools_app sc I l1 l2 :
  ebools sc I (l1 ++ l2) =
  match ebools sc I l1, ebools sc I l2 with Some a, Some b => Some (a ++ b) | _, _ => None end.
Proof.
  induction l1 as [|x l1 IH]; cbn [app ebools]; [destruct (ebools sc I l2); reflexivity|].
  rewrite IH. destruct (as_bool (eval sc x I)), (ebools sc I l1), (ebools sc I l2); reflexivity.
Qed.

(* a value already among the keys is absorbed *)
Lemma jfold_absorb sc I k seen sb y c :
  ebools sc I seen = Some sb -> In y seen -> as_bool (eval sc y I) = Some c -> comb k (jfold k sb) c = jfold k sb.
Proof.
  revert sb. induction seen as [|x seen IH]; intros sb E Hin Hy; [destruct Hin|].
  cbn [ebools] in E. destruct (as_bool (eval sc x I)) as [bx|] eqn:Ex; [|discriminate].
  destruct (ebools sc I seen) as [sb'|] eqn:Es; [|discriminate]. inversion E; subst.
  rewrite jfold_cons. destruct Hin as [->|Hin].
  - rewrite Hy in Ex. inversion Ex; subst. destruct k, bx, (jfold _ sb'); reflexivity.
  - specialize (IH sb' eq_refl Hin Hy). destruct k, bx, (jfold _ sb'), c; simpl in *; congruence.
Qed.

Lemma junct_args_eval sc I k a ss b :
  junct_args k a = Some ss -> as_bool (eval sc a I) = Some b ->
  exists sb, ebools sc I ss = Some sb /\ b = jfold k sb.
Proof.
  destruct a; cbn [junct_args]; try discriminate; destruct k; try discriminate; intros E; inversion E; subst.
  - rewrite eval_EAnd. destruct (ebools sc I ss) as [sb|]; [|discriminate]. intros H; inversion H. eauto.
  - rewrite eval_EOr. destruct (ebools sc I ss) as [sb|]; [|discriminate]. intros H; inversion H. eauto.
Qed.

Lemma add_key_sem sc I k s seen sb b :
  ebools sc I seen = Some sb -> as_bool (eval sc s I) = Some b ->
  exists sb', ebools sc I (add_key s seen) = Some sb' /\ jfold k sb' = comb k (jfold k sb) b.
Proof.
  intros E Hs. unfold add_key. destruct (mem_expr s seen) eqn:M.
  - apply mem_expr_In in M. exists sb. split; [exact E|]. symmetry. eapply jfold_absorb; eauto.
  - exists (sb ++ [b]). split.
    + rewrite ebools_app, E. cbn [ebools]. rewrite Hs. reflexivity.
    + rewrite jfold_app, jfold_cons, jfold_nil. destruct k, (jfold _ sb), b; reflexivity.
Qed.

Lemma mem_not_sem sc I k s seen sb b :
  ebools sc I seen = Some sb -> as_bool (eval sc s I) = Some b -> mem_expr (walk_not s) seen = true ->
  comb k (jfold k sb) b = negb k.
Proof.
  intros E Hs M. apply mem_expr_In in M.
  assert (A := jfold_absorb sc I k seen sb _ _ E M (eval_walk_not sc I s b Hs)).
  destruct k, (jfold _ sb), b; simpl in *; congruence.
Qed.

Lemma j_inner_sem sc I k ss : forall seen sb ssb,
  ebools sc I seen = Some sb -> ebools sc I ss = Some ssb ->
  match j_inner ss seen with
  | None => comb k (jfold k sb) (jfold k ssb) = negb k
  | Some out => exists ob, ebools sc I out = Some ob /\ jfold k ob = comb k (jfold k sb) (jfold k ssb)
  end.
Proof.
  induction ss as [|s ss IH]; intros seen sb ssb E Es; cbn [j_inner].
  - inversion Es; subst. exists sb. split; [exact E|]. rewrite jfold_nil. destruct k, (jfold _ sb); reflexivity.
  - cbn [ebools] in Es. destruct (as_bool (eval sc s I)) as [b|] eqn:Hs; [|discriminate].
    destruct (ebools sc I ss) as [ssb'|] eqn:Es'; [|discriminate]. inversion Es; subst. rewrite jfold_cons.
    destruct (mem_expr (walk_not s) seen) eqn:M.
    + assert (A := mem_not_sem sc I k s seen sb b E Hs M). destruct k, (jfold _ sb), b, (jfold _ ssb'); simpl in *; congruence.
    + destruct (add_key_sem sc I k s seen sb b E Hs) as [sb' [E' F']].
      specialize (IH (add_key s seen) sb' ssb' E' eq_refl).
      destruct (j_inner ss (add_key s seen)) as [out|].
      * destruct IH as [ob [Eo Fo]]. exists ob. split; [exact Eo|]. rewrite Fo, F'.
        destruct k, (jfold _ sb), b, (jfold _ ssb'); reflexivity.
      * rewrite F' in IH. destruct k, (jfold _ sb), b, (jfold _ ssb'); simpl in *; congruence.
Qed.

Lemma is_unit_spec k a : is_unit k a = true -> a = EBool k.
Proof. destruct a; simpl; try discriminate. intros H. apply Bool.eqb_prop in H. subst. reflexivity. Qed.
Lemma is_zero_spec k a : is_zero k a = true -> a = EBool (negb k).
Proof. destruct a; simpl; try discriminate. intros H. apply Bool.eqb_prop in H. subst. reflexivity. Qed.

Lemma j_outer_sem sc I k args : forall seen sb ab,
  ebools sc I seen = Some sb -> ebools sc I args = Some ab ->
  match j_outer k args seen with
  | None => comb k (jfold k sb) (jfold k ab) = negb k
  | Some out => exists ob, ebools sc I out = Some ob /\ jfold k ob = comb k (jfold k sb) (jfold k ab)
  end.
Proof.
  induction args as [|a args IH]; intros seen sb ab E Ea; cbn [j_outer].
  - inversion Ea; subst. exists sb. split; [exact E|]. rewrite jfold_nil. destruct k, (jfold _ sb); reflexivity.
  - cbn [ebools] in Ea. destruct (as_bool (eval sc a I)) as [b|] eqn:Ha; [|discriminate].
    destruct (ebools sc I args) as [ab'|] eqn:Ea'; [|discriminate]. inversion Ea; subst. rewrite jfold_cons.
    destruct (is_unit k a) eqn:U.
    { apply is_unit_spec in U. subst a. simpl in Ha. injection Ha as <-.
      specialize (IH seen sb ab' E eq_refl). destruct (j_outer k args seen) as [out|].
      - destruct IH as [ob [Eo Fo]]. exists ob. split; [exact Eo|]. rewrite Fo. destruct k, (jfold _ sb), (jfold _ ab'); reflexivity.
      - destruct k, (jfold _ sb), (jfold _ ab'); simpl in *; congruence. }
    destruct (is_zero k a) eqn:Z.
    { apply is_zero_spec in Z. subst a. simpl in Ha. injection Ha as <-. destruct k, (jfold _ sb), (jfold _ ab'); reflexivity. }
    destruct (junct_args k a) as [ss|] eqn:J.
    + destruct (junct_args_eval sc I k a ss b J Ha) as [ssb [Es ->]].
      assert (HI := j_inner_sem sc I k ss seen sb ssb E Es).
      destruct (j_inner ss seen) as [seen'|].
      * destruct HI as [sb' [E' F']]. specialize (IH seen' sb' ab' E' eq_refl).
        destruct (j_outer k args seen') as [out|].
        -- destruct IH as [ob [Eo Fo]]. exists ob. split; [exact Eo|]. rewrite Fo, F'.
           destruct k, (jfold _ sb), (jfold _ ssb), (jfold _ ab'); reflexivity.
        -- rewrite F' in IH. destruct k, (jfold _ sb), (jfold _ ssb), (jfold _ ab'); simpl in *; congruence.
      * destruct k, (jfold _ sb), (jfold _ ssb), (jfold _ ab'); simpl in *; congruence.
    + destruct (mem_expr (walk_not a) seen) eqn:M.
      * assert (A := mem_not_sem sc I k a seen sb b E Ha M). destruct k, (jfold _ sb), b, (jfold _ ab'); simpl in *; congruence.
      * destruct (add_key_sem sc I k a seen sb b E Ha) as [sb' [E' F']].
        specialize (IH (add_key a seen) sb' ab' E' eq_refl).
        destruct (j_outer k args (add_key a seen)) as [out|].
        -- destruct IH as [ob [Eo Fo]]. exists ob. split; [exact Eo|]. rewrite Fo, F'.
           destruct k, (jfold _ sb), b, (jfold _ ab'); reflexivity.
        -- rewrite F' in IH. destruct k, (jfold _ sb), b, (jfold _ ab'); simpl in *; congruence.
Qed.

(* the normalising constructor reads like the plain one *)
Lemma as_bool_mkJ sc I (k : bool) l :
  as_bool (eval sc (mkJ k l) I) = as_bool (eval sc (if k then EAnd l else EOr l) I).
Proof.
  destruct l as [|a [|b l]]; try (destruct k; reflexivity).
  rewrite eval_J. cbn [ebools]. destruct k; cbn [mkJ mkAnd mkOr];
    destruct (as_bool (eval sc a I)) as [x|]; try reflexivity; cbn; rewrite ?andb_true_r, ?orb_false_r; reflexivity.
Qed.

Lemma walk_junct_gen_bool sc I (k : bool) l bs :
  ebools sc I l = Some bs -> as_bool (eval sc (walk_junct_gen k l) I) = Some (jfold k bs).
Proof.
  intros Ea. unfold walk_junct_gen. assert (S := j_outer_sem sc I k l [] [] bs eq_refl Ea). rewrite jfold_nil in S.
  destruct (j_outer k l []) as [keys|].
  - destruct S as [ob [Eo Fo]]. rewrite as_bool_mkJ, eval_J, Eo, Fo. destruct k, (jfold _ bs); reflexivity.
  - simpl. f_equal. destruct k, (jfold _ bs); simpl in *; congruence.
Qed.

Theorem walk_junct_bool sc I (k : bool) l bs :
  ebools sc I l = Some bs -> as_bool (eval sc (walk_junct k l) I) = Some (jfold k bs).
Proof.
  unfold walk_junct. destruct l as [|a [|b [|c r]]]; try apply walk_junct_gen_bool.
  destruct (expr_eqb a b) eqn:E; [|apply walk_junct_gen_bool]. apply expr_eqb_eq in E. subst b.
  cbn [ebools]. destruct (as_bool (eval sc a I)) as [x|]; [|discriminate].
  intros H; inversion H. destruct k, x; reflexivity.
Qed.

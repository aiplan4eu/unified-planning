(* Proofs about the statement layer of the ANML codec (Model/AnmlStmt.v): timings, intervals, conditions, effects. *)
From Coq Require Import List ZArith NArith QArith Qcanon Bool Lia.
Import ListNotations.
Require Import UPV.Core.Expr UPV.Core.Eval UPV.Proofs.Eval_lemmas UPV.Planning.Problem UPV.Planning.Temporal.
Require Import UPV.Model.AnmlExpr UPV.Proofs.AnmlExpr_proofs UPV.Model.AnmlStmt UPV.Proofs.ExprView.
Local Open Scope nat_scope.

Lemma Q2Qc_this (q : Qc) : Q2Qc (this q) = q.
Proof. apply Qc_is_canon. cbn. apply Qred_correct. Qed.

Definition tstop (r : list token) : bool :=
  match r with (TComma | TRsq | TRp) :: _ => true | _ => false end.

Lemma rat_rt q rest : (0 <=? Qnum (this q))%Z = true -> tstop rest = true ->
  parse_rat (pr_rat q ++ rest) = Some (q, rest).
Proof.
  intros Hn Hs. apply Z.leb_le in Hn. unfold pr_rat.
  assert (E : forall d, Qden (this q) = d -> mkq (Z.to_N (Qnum (this q))) d = q).
  { intros d Hd. unfold mkq. rewrite Z2N.id by exact Hn. rewrite <- Hd.
    rewrite <- (Q2Qc_this q) at 3. f_equal. destruct (this q); reflexivity. }
  destruct (Qden (this q)) eqn:D; cbn [app parse_rat].
  - rewrite (E _ eq_refl). reflexivity.
  - rewrite (E _ eq_refl). reflexivity.
  - destruct rest as [|[] rest]; cbn in Hs; try discriminate; rewrite (E _ eq_refl); reflexivity.
Qed.

Lemma this_opp (q : Qc) : this (Qcopp q) = Qopp (this q).
Proof. unfold Qcopp, Q2Qc. cbn [this]. rewrite Qred_opp. f_equal. destruct q as [x Hx]. exact Hx. Qed.

Lemma qc_zero_eq q : qc_pos q = false -> qc_neg q = false -> q = Q2Qc 0.
Proof.
  unfold qc_pos, qc_neg. intros H1 H2. apply Z.ltb_ge in H1. apply Z.ltb_ge in H2.
  apply Qc_is_canon. destruct q as [[n d] Hc]. cbn in *. unfold Qeq. cbn. lia.
Qed.

Theorem timing_rt tm rest : timing_ok tm = true -> tstop rest = true ->
  parse_timing (pr_timing tm ++ rest) = Some (tm, rest).
Proof.
  destruct tm as [an q]. unfold timing_ok, pr_timing. cbn [tm_anchor tm_delay]. intros Hok Hs.
  destruct (qc_pos q) eqn:P.
  - assert (Hn : (0 <=? Qnum (this q))%Z = true) by (unfold qc_pos in P; apply Z.ltb_lt in P; apply Z.leb_le; lia).
    destruct an; [|discriminate].
    cbn [app parse_timing]. rewrite (rat_rt q rest Hn Hs). reflexivity.
  - destruct (qc_neg q) eqn:Ng.
    + destruct an; [discriminate|].
      assert (Hn : (0 <=? Qnum (this (Qcopp q)))%Z = true).
      { rewrite this_opp. unfold qc_neg in Ng. apply Z.ltb_lt in Ng. apply Z.leb_le. destruct (this q). cbn in *. lia. }
      cbn [app parse_timing]. rewrite (rat_rt (Qcopp q) rest Hn Hs). rewrite Qcopp_involutive. reflexivity.
    + rewrite (qc_zero_eq q P Ng). cbn [app].
      destruct an; cbn [parse_timing]; destruct rest as [|[] rest]; cbn in Hs; try discriminate; reflexivity.
Qed.

Theorem interval_rt iv rest : interval_ok iv = true ->
  parse_interval (pr_interval iv ++ rest)
  = Some (if timing_eqb (ti_lo iv) (ti_hi iv) then PPoint (ti_lo iv) else PIv iv, rest).
Proof.
  destruct iv as [lo hi lop rop]. unfold interval_ok, pr_interval. cbn [ti_lo ti_hi ti_lopen ti_ropen].
  intros H. apply andb_prop in H. destruct H as [H Hp]. apply andb_prop in H. destruct H as [Hlo Hhi].
  destruct (timing_eqb lo hi) eqn:E.
  - apply andb_prop in Hp. destruct Hp as [Hl Hr]. apply negb_true_iff in Hl, Hr. subst.
    cbn [app]. rewrite <- app_assoc. cbn [app parse_interval].
    rewrite (timing_rt lo (TRsq :: rest) Hlo eq_refl). reflexivity.
  - assert (X : forall l b, tstop (b :: rest) = true ->
            parse_interval (l :: (pr_timing lo ++ TComma :: pr_timing hi) ++ [b] ++ rest)
            = match l with
              | TLsq | TLp =>
                  match b with
                  | TRsq | TRp => Some (PIv {| ti_lo := lo; ti_hi := hi; ti_lopen := match l with TLp => true | _ => false end;
                                               ti_ropen := match b with TRp => true | _ => false end |}, rest)
                  | _ => None
                  end
              | _ => None end).
    { intros l b Hb. rewrite <- app_assoc. cbn [app].
      destruct l; try reflexivity; cbn [parse_interval];
        rewrite (timing_rt lo (TComma :: pr_timing hi ++ b :: rest) Hlo eq_refl);
        rewrite (timing_rt hi (b :: rest) Hhi Hb); destruct b; cbn in Hb; try discriminate; reflexivity. }
    destruct lop, rop; cbn [app]; rewrite <- app_assoc; rewrite X by reflexivity; reflexivity.
Qed.

Definition cleant (t : token) : bool := negb (is_stmt_tok t || is_when t).
Definition clean (ts : list token) : bool := forallb cleant ts.

Lemma clean_no ts : clean ts = true -> existsb is_stmt_tok ts = false /\ existsb is_when ts = false.
Proof.
  induction ts as [|t ts IH]; [split; reflexivity|]. cbn [clean forallb existsb]. intros H.
  apply andb_prop in H. destruct H as [Ht Hts]. destruct (IH Hts) as [A B]. rewrite A, B.
  unfold cleant in Ht. apply negb_true_iff in Ht. apply orb_false_iff in Ht. destruct Ht as [-> ->]. split; reflexivity.
Qed.

Section S.
  Variable W : wnames.

  Lemma clean_join sep l : cleant sep = true -> Forall (fun x => clean (pr W x) = true) l ->
    clean (join sep (map (pr W) l)) = true.
  Proof.
    intros Hs HF. induction HF as [|x l Hx HF IH]; [reflexivity|].
    destruct l as [|y l]; [exact Hx|].
    change (join sep (map (pr W) (x :: y :: l))) with (pr W x ++ sep :: join sep (map (pr W) (y :: l))).
    unfold clean in *. rewrite forallb_app. cbn [forallb]. rewrite Hx, Hs, IH. reflexivity.
  Qed.
  Lemma clean_vars vs : clean (pr_vars W vs) = true.
  Proof.
    unfold pr_vars. induction vs as [|p vs IH]; [reflexivity|]. destruct vs as [|p' vs]; [reflexivity|].
    change (join TComma (map (fun p => [TName (nmT W (snd p)); TName (nmV W (fst p))]) (p :: p' :: vs)))
      with ([TName (nmT W (snd p)); TName (nmV W (fst p))] ++ TComma ::
            join TComma (map (fun p => [TName (nmT W (snd p)); TName (nmV W (fst p))]) (p' :: vs))).
    unfold clean in *. rewrite forallb_app. cbn [forallb]. rewrite IH. reflexivity.
  Qed.

  Lemma clean_cons t ts : clean (t :: ts) = cleant t && clean ts.
  Proof. reflexivity. Qed.
  Lemma clean_app a b : clean (a ++ b) = clean a && clean b.
  Proof. apply forallb_app. Qed.
  Lemma clean_int z : clean (pr_int z) = true.
  Proof. unfold pr_int. destruct (z <? 0)%Z; reflexivity. Qed.

  Lemma clean_pr : forall e, clean (pr W e) = true.
  Proof.
    apply expr_view_ind.
    - intros e L. destruct e; try discriminate L; try reflexivity; cbn [pr].
      + destruct b; reflexivity.
      + apply clean_int.
      + rewrite clean_cons, clean_app, clean_int. reflexivity.
    - intros o a IHe. destruct o; try reflexivity. cbn [E1 pr]. rewrite !clean_cons, clean_app, IHe. reflexivity.
    - intros o a b IHe1 IHe2. destruct (tok2 o) as [t|] eqn:T.
      + rewrite (pr_E2 W o t a b T), clean_cons, clean_app, clean_cons, clean_app, IHe1, IHe2.
        destruct o; try discriminate T; injection T as <-; reflexivity.
      + destruct o; try discriminate T; try reflexivity. cbn [E2 pr].
        rewrite !clean_cons, !clean_app, !clean_cons, !clean_app, !clean_cons, !clean_app, IHe1, IHe2. reflexivity.
    - intros o l H. destruct (tokn o) as [t|] eqn:T.
      + rewrite (pr_En W o t l T), clean_cons, clean_app, clean_join; [reflexivity| |exact H].
        destruct o; try discriminate T; injection T as <-; reflexivity.
      + destruct o; try discriminate T; try reflexivity. destruct l as [|x l]; [reflexivity|].
        change (pr W (En (NFluent f) (x :: l))) with (TName (nmF W f) :: TLp :: join TComma (map (pr W) (x :: l)) ++ [TRp]).
        rewrite !clean_cons, clean_app, clean_join; [reflexivity|reflexivity|exact H].
    - intros ex vs a IHe. destruct ex; cbn [EQ pr]; rewrite !clean_cons, !clean_app, clean_vars, IHe; reflexivity.
  Qed.

  Lemma clean_rat q : clean (pr_rat q) = true.
  Proof. unfold pr_rat. destruct (Qden (this q)); reflexivity. Qed.
  Lemma clean_timing tm : clean (pr_timing tm) = true.
  Proof.
    unfold pr_timing. destruct (qc_pos (tm_delay tm)); [|destruct (qc_neg (tm_delay tm))];
      unfold clean; cbn [forallb]; fold (clean (pr_rat (tm_delay tm))); fold (clean (pr_rat (- tm_delay tm)));
      rewrite ?clean_rat; destruct (tm_anchor tm); reflexivity.
  Qed.
  Lemma clean_interval iv : clean (pr_interval iv) = true.
  Proof.
    unfold pr_interval, clean. cbn [forallb]. rewrite forallb_app.
    pose proof (clean_timing (ti_lo iv)) as A. pose proof (clean_timing (ti_hi iv)) as B. unfold clean in A, B.
    destruct (timing_eqb (ti_lo iv) (ti_hi iv)); rewrite ?forallb_app; cbn [forallb]; rewrite ?A, ?B;
      destruct (ti_lopen iv), (ti_ropen iv); reflexivity.
  Qed.

  Variable R : rtables.
  Variable arity : N -> nat.
  Hypothesis HN : names_ok W R arity.

  (* the expression theorem as the inner step: an expression of the fragment followed by a token that is neither an
     operator nor "(" is read by the top level of the expression parser, which stops in front of that token *)
  Lemma expr_step e bs rest n :
    anml_ok R arity bs e = true -> nolp rest = true -> lv (hd rest) = 0 ->
    20 * length (pr W e) + 10 <= n ->
    go R n SImp (rscope W bs) (pr W e ++ rest) = Ok (norm e) (tier_of e) rest.
  Proof.
    intros Hok Hl Hv Hn.
    pose proof (main_all W R arity HN e bs Hok rest Hl) as P.
    exact (up_imp R _ _ _ _ _ _ (start_pr W R arity e bs rest Hok) P Hv n Hn).
  Qed.

  Lemma timing_eqb_eq a b : timing_eqb a b = true -> a = b.
  Proof.
    destruct a as [x p], b as [y q]. unfold timing_eqb. cbn. intros H. apply andb_prop in H. destruct H as [A B].
    apply qc_eqb_eq in B. subst. destruct x, y; cbn in A; try discriminate; reflexivity.
  Qed.

  Theorem cond_rt iv c : stmt_ok R arity (SCond iv c) = true ->
    parse_stmt R (pr_stmt W (SCond iv c)) = Some (PCond iv (norm c)).
  Proof.
    cbn [stmt_ok pr_stmt]. intros H. apply andb_prop in H. destruct H as [Hiv Hc].
    unfold parse_stmt.
    assert (Cl : clean (pr_interval iv ++ pr W c ++ [TSemi]) = true).
    { unfold clean. rewrite !forallb_app. fold (clean (pr_interval iv)). fold (clean (pr W c)).
      rewrite clean_interval, clean_pr. reflexivity. }
    destruct (clean_no _ Cl) as [-> ->].
    unfold parse_cond, opt_interval. rewrite (interval_rt iv _ Hiv).
    change (@nil (N * N)) with (rscope W []).
    rewrite (expr_step c [] [TSemi] _ Hc eq_refl eq_refl).
    - f_equal. f_equal. destruct (timing_eqb (ti_lo iv) (ti_hi iv)) eqn:E; [|reflexivity].
      unfold interval_ok in Hiv. rewrite E in Hiv. apply andb_prop in Hiv. destruct Hiv as [_ Hb].
      apply andb_prop in Hb. destruct Hb as [Hl Hr]. apply negb_true_iff in Hl, Hr.
      apply timing_eqb_eq in E. destruct iv as [lo hi lop rop]. cbn in *. subst. reflexivity.
    - unfold fuel_of. rewrite !app_length. lia.
  Qed.
End S.

Definition noiv (ts : list token) : bool :=
  match ts with
  | TLsq :: _ => false
  | TLp :: (TStart | TEnd) :: _ => false
  | _ => true
  end.
Lemma noiv_none ts : noiv ts = true -> opt_interval ts = (None, ts).
Proof.
  unfold opt_interval. intros H. destruct ts as [|t ts]; [reflexivity|].
  destruct t; try reflexivity; try discriminate.
  destruct ts as [|t' ts]; [reflexivity|]. destruct t'; try reflexivity; discriminate.
Qed.
Lemma noiv_start ts : start_ok ts = true -> noiv (TLp :: ts) = true.
Proof. destruct ts as [|[] ts]; cbn; congruence. Qed.

Section E.
  Variable W : wnames.
  Variable R : rtables.
  Variable arity : N -> nat.
  Hypothesis HN : names_ok W R arity.

  (* a parenthesised node starts "(" followed by its first operand, which never starts like a timing *)
  Lemma noiv_bin x bs r rest : anml_ok R arity bs x = true -> noiv ((TLp :: pr W x ++ r) ++ rest) = true.
  Proof. intros Hx. cbn [app]. rewrite <- app_assoc. apply noiv_start. eapply start_pr. exact Hx. Qed.
  Lemma noiv_nary sep l bs rest : forallb (anml_ok R arity bs) l = true ->
    noiv ((TLp :: join sep (map (pr W) l) ++ [TRp]) ++ rest) = true.
  Proof.
    intros Hok. destruct l as [|x l]; [reflexivity|]. cbn [forallb] in Hok. apply andb_prop in Hok.
    cbn [map]. rewrite join_cons, <- app_assoc. exact (noiv_bin x bs _ rest (proj1 Hok)).
  Qed.

  Lemma noiv_pr e bs rest : anml_ok R arity bs e = true -> noiv (pr W e ++ rest) = true.
  Proof.
    intros Hok. destruct (expr_view e) as [L|[(o & a & ->)|[(o & a & b & ->)|[(o & l & ->)|(ex & vs & a & ->)]]]].
    - destruct e; try discriminate L; cbn [pr]; unfold pr_int.
      + destruct b; reflexivity.
      + destruct (z <? 0)%Z; reflexivity.
      + destruct (Qnum (this q) <? 0)%Z; reflexivity.
      + reflexivity.
      + reflexivity.
      + reflexivity.
    - destruct o; try discriminate Hok. reflexivity.
    - destruct (tok2 o) as [t|] eqn:T.
      + rewrite (pr_E2 W o t a b T). exact (noiv_bin a bs _ rest (proj1 (ok_E2 R arity o a b bs Hok))).
      + (* Iff starts "((" *) destruct o; try discriminate T; try discriminate Hok. reflexivity.
    - destruct (tokn o) as [t|] eqn:T.
      + rewrite (pr_En W o t l T). exact (noiv_nary t l bs rest (ok_En R arity o l bs Hok)).
      + (* a fluent starts with its name *) destruct o; try discriminate T; try discriminate Hok. destruct l; reflexivity.
    - destruct ex; reflexivity.
  Qed.

  Lemma prF_head f args X : exists r, pr W (EFluent f args) ++ X = TName (nmF W f) :: r.
  Proof. destruct args; cbn [pr app]; eauto. Qed.

  Lemma tok_kind_kind k : tok_kind (kind_tok k) = Some k.
  Proof. destruct k; reflexivity. Qed.

  Lemma assign_rt bs f args k v rest n :
    anml_ok R arity bs (EFluent f args) = true -> anml_ok R arity bs v = true ->
    20 * length (pr W (EFluent f args)) + 10 <= n -> 20 * length (pr W v) + 10 <= n ->
    parse_assign R n (rscope W bs) (pr W (EFluent f args) ++ kind_tok k :: pr W v ++ TSemi :: rest)
    = Some (f, map norm args, k, norm v, rest).
  Proof.
    intros HF Hv L1 L2. unfold parse_assign.
    rewrite (expr_step W R arity HN (EFluent f args) bs (kind_tok k :: pr W v ++ TSemi :: rest) n HF
               ltac:(destruct k; reflexivity) ltac:(destruct k; reflexivity) L1).
    cbn [norm]. rewrite tok_kind_kind.
    rewrite (expr_step W R arity HN v bs (TSemi :: rest) n Hv eq_refl eq_refl L2). reflexivity.
  Qed.
End E.

Definition nofa (r : list token) : bool := match r with TForall :: _ => false | _ => true end.
Lemma not_forall_branch {X} (r : list token) (A : list token -> X) (B : X) :
  nofa r = true -> match r with TForall :: TLp :: r1 => A r1 | _ => B end = B.
Proof. destruct r as [|t r]; [reflexivity|]. destruct t; try reflexivity; discriminate. Qed.

Section F.
  Variable W : wnames.
  Variable R : rtables.
  Variable arity : N -> nat.
  Hypothesis HN : names_ok W R arity.

  Lemma timing_eqb_refl t : timing_eqb t t = true.
  Proof. destruct t as [a q]. unfold timing_eqb. cbn. rewrite qc_eqb_refl. destruct a; reflexivity. Qed.
  Lemma point_rt tm rest : timing_ok tm = true ->
    parse_interval (TLsq :: pr_timing tm ++ TRsq :: rest) = Some (PPoint tm, rest).
  Proof.
    intros H. pose proof (interval_rt (point_iv tm) rest) as X.
    unfold interval_ok, pr_interval, point_iv in X. cbn [ti_lo ti_hi ti_lopen ti_ropen] in X.
    rewrite timing_eqb_refl, H in X. cbn [app] in X. rewrite <- app_assoc in X. cbn [app] in X. apply X. reflexivity.
  Qed.

  Definition eff_nf (n : nat) (oiv : option piv) (r : list token) : option pstmt :=
    match parse_core R n [] [] r with
    | Some (civ, eiv, oc, (f, args, kd, v), []) =>
        match merge3 oiv civ eiv with
        | Some (Some (PIv _)) => None
        | Some fin =>
            let tm := match fin with Some (PPoint t) => t | _ => start_tm end in
            let c := match oc with Some c => c | None => EBool true end in
            Some (PEff tm (mk_effect R f args kd v c []))
        | None => None
        end
    | _ => None
    end.
  Definition eff_fa (n : nat) (oiv : option piv) (r1 : list token) : option pstmt :=
    match pvars r1 with
    | Some (decls, TLb :: r2) =>
        match decl_types R decls with
        | Some d =>
            let d' := dict_of d in
            let vs := map (fun p => (varOf R (fst p), snd p)) d' in
            match parse_core R n d' d' r2 with
            | Some (civ, eiv, oc, (f, args, kd, v), [TRb; TSemi]) =>
                match merge3 oiv civ eiv with
                | Some (Some (PIv _)) => None
                | Some fin =>
                    let tm := match fin with Some (PPoint t) => t | _ => start_tm end in
                    let c := match oc with Some c => EAnd [c; EBool true] | None => EBool true end in
                    Some (PEff tm (mk_effect R f args kd v c vs))
                | None => None
                end
            | _ => None
            end
        | None => None
        end
    | _ => None
    end.
  Lemma pe_unfold n ts :
    parse_effect R n ts =
    let (oiv, r) := opt_interval ts in
    match r with TForall :: TLp :: r1 => eff_fa n oiv r1 | _ => eff_nf n oiv r end.
  Proof. exact eq_refl. Qed.   (* conversion in the kernel; the unification of [reflexivity] is slow on the many branches *)

  Lemma parse_core_name n csc sc s r :
    parse_core R n csc sc (TName s :: r) =
    match parse_assign R n sc (TName s :: r) with
    | Some (f, args, kd, v, r') => Some (None, None, None, (f, args, kd, v), r')
    | None => None
    end.
  Proof. reflexivity. Qed.

  Definition F_of (e : effect) : expr := EFluent (e_fl e) (e_args e).

  (* "fluent := value ;" in front of [rest], and the core of an effect as the parser meets it: the assignment alone, or
     "when cond { assignment } ;" *)
  Definition pr_assign (e : effect) (rest : list token) : list token :=
    pr W (F_of e) ++ kind_tok (e_kind e) :: pr W (e_val e) ++ TSemi :: rest.

  Lemma core_app e rest : pr_effect_core W e ++ rest =
    if is_cond e then TWhen :: pr W (e_cond e) ++ TLb :: pr_assign e (TRb :: TSemi :: rest) else pr_assign e rest.
  Proof.
    unfold pr_effect_core, pr_assign, F_of.
    destruct (is_cond e); cbn [app]; repeat (rewrite <- app_assoc; cbn [app]); reflexivity.
  Qed.
  Lemma core_length e : length (pr_effect_core W e) =
    (if is_cond e then length (pr W (e_cond e)) + 4 else 0) + length (pr W (F_of e)) + length (pr W (e_val e)) + 2.
  Proof.
    rewrite <- (app_nil_r (pr_effect_core W e)), core_app. unfold pr_assign.
    destruct (is_cond e); cbn [length]; repeat (rewrite app_length; cbn [length]); lia.
  Qed.
  Lemma assign_head e rest : exists r, pr_assign e rest = TName (nmF W (e_fl e)) :: r.
  Proof. apply prF_head. Qed.

  Lemma assign_has_kind e rest : existsb is_stmt_tok (pr_assign e rest) = true.
  Proof.
    unfold pr_assign. rewrite existsb_app. cbn [existsb].
    replace (is_stmt_tok (kind_tok (e_kind e))) with true by (destruct (e_kind e); reflexivity).
    apply orb_true_r.
  Qed.
  Lemma core_has_kind e : existsb is_stmt_tok (pr_effect_core W e) = true.
  Proof.
    rewrite <- (app_nil_r (pr_effect_core W e)), core_app. destruct (is_cond e); [|apply assign_has_kind].
    cbn [existsb]. rewrite existsb_app. cbn [existsb]. rewrite assign_has_kind. apply orb_true_r.
  Qed.
  Lemma nofa_core e : nofa (pr_effect_core W e) = true.
  Proof.
    rewrite <- (app_nil_r (pr_effect_core W e)), core_app. destruct (is_cond e); [reflexivity|].
    destruct (assign_head e []) as [r ->]. reflexivity.
  Qed.

  Lemma core_rt bs e rest n :
    anml_ok R arity bs (F_of e) = true -> anml_ok R arity bs (e_val e) = true ->
    (is_cond e = true -> anml_ok R arity bs (e_cond e) = true) ->
    20 * length (pr_effect_core W e) + 10 <= n ->
    parse_core R n (rscope W bs) (rscope W bs) (pr_effect_core W e ++ rest)
    = Some (None, None, (if is_cond e then Some (norm (e_cond e)) else None),
            (e_fl e, map norm (e_args e), e_kind e, norm (e_val e)), rest).
  Proof.
    intros HF Hv Hc L. rewrite core_length in L. unfold F_of in L. rewrite core_app.
    pose proof (fun r => assign_rt W R arity HN bs (e_fl e) (e_args e) (e_kind e) (e_val e) r n HF Hv) as A.
    destruct (is_cond e).
    - specialize (Hc eq_refl). cbn [parse_core]. rewrite (noiv_none _ (noiv_pr W R arity (e_cond e) bs _ Hc)).
      rewrite (expr_step W R arity HN (e_cond e) bs (TLb :: pr_assign e (TRb :: TSemi :: rest)) n Hc eq_refl eq_refl ltac:(lia)).
      (* the assignment starts with the fluent's name, not like an interval *)
      destruct (assign_head e (TRb :: TSemi :: rest)) as [r0 E]. rewrite E, (noiv_none (TName _ :: r0) eq_refl), <- E.
      unfold pr_assign, F_of. rewrite A by lia. reflexivity.
    - destruct (assign_head e rest) as [r0 E]. rewrite E, parse_core_name, <- E.
      unfold pr_assign, F_of. rewrite A by lia. reflexivity.
  Qed.
End F.

Section G.
  Variable W : wnames.
  Variable R : rtables.
  Variable arity : N -> nat.
  Hypothesis HN : names_ok W R arity.

  Lemma stmt_core tm e : exists a b, pr_stmt W (SEff tm e) = a ++ pr_effect_core W e ++ b.
  Proof.
    cbn [pr_stmt]. destruct (is_forall e).
    - exists (TLsq :: pr_timing tm ++ TRsq :: TForall :: TLp :: pr_vars W (e_vars e) ++ [TRp; TLb]), [TRb; TSemi].
      cbn [app]. repeat (rewrite <- app_assoc; cbn [app]). reflexivity.
    - exists (TLsq :: pr_timing tm ++ [TRsq]), []. cbn [app]. rewrite <- app_assoc, app_nil_r. reflexivity.
  Qed.

  Theorem effect_rt tm e : stmt_ok R arity (SEff tm e) = true ->
    parse_stmt R (pr_stmt W (SEff tm e)) = Some (PEff tm (norm_effect e)).
  Proof.
    cbn [stmt_ok]. unfold effect_ok. intros H.
    apply andb_prop in H. destruct H as [Htm H]. apply andb_prop in H. destruct H as [H Hib].
    apply andb_prop in H. destruct H as [H Hnd]. apply andb_prop in H. destruct H as [H Hc].
    apply andb_prop in H. destruct H as [HF Hv]. apply Bool.eqb_prop in Hib.
    assert (Hc' : is_cond e = true -> anml_ok R arity (e_vars e) (e_cond e) = true)
      by (intros E; rewrite E in Hc; exact Hc).
    unfold parse_stmt.
    destruct (stmt_core tm e) as (a & b & E).
    assert (Ex : existsb is_stmt_tok (pr_stmt W (SEff tm e)) = true).
    { rewrite E, !existsb_app, (core_has_kind W). apply orb_true_r. }
    rewrite Ex. rewrite pe_unfold. unfold opt_interval.
    set (n := fuel_of (pr_stmt W (SEff tm e))).
    assert (Ln : 20 * length (pr_effect_core W e) + 10 <= n).
    { unfold n, fuel_of. rewrite E, !app_length. lia. }
    cbn [pr_stmt]. rewrite (point_rt tm _ Htm).
    unfold is_forall in *. destruct (e_vars e) as [|p vs0] eqn:EV.
    - (* not quantified *)
      rewrite (not_forall_branch _ (eff_fa R n (Some (PPoint tm))) _ (nofa_core W e)).
      unfold eff_nf. change (@nil (N * N)) with (rscope W []).
      rewrite <- (app_nil_r (pr_effect_core W e)).
      rewrite (core_rt W R arity HN [] e [] n HF Hv Hc' Ln).
      cbn [merge3 merge2]. unfold norm_effect, mk_effect, is_forall. rewrite EV.
      rewrite Hib. destruct (is_cond e); reflexivity.
    - (* forall *)
      assert (Hvs : e_vars e <> []) by (rewrite EV; discriminate). rewrite <- EV in *. clear EV p vs0.
      cbv iota. unfold eff_fa.
      rewrite (pvars_pr W (e_vars e) _ Hvs), (decl_types_of W R arity HN), (dict_of_rscope W R arity HN _ Hnd).
      rewrite (core_rt W R arity HN (e_vars e) e [TRb; TSemi] n HF Hv Hc' Ln).
      cbn [merge3 merge2]. rewrite (quant_vars W R arity HN).
      unfold norm_effect, mk_effect, is_forall.
      rewrite Hib. destruct (e_vars e); [congruence|]. destruct (is_cond e); reflexivity.
  Qed.
End G.

(* C06 / C07, Layer A — compiler pipelines: proofs (plans, map backs, no-op deletion and stages proved by simulation:
   Proofs/LayerA_sim.v).  Two stages compose; pipelines of any length; the stages QuantifiersRemover,
   ConditionalEffectsRemover, Grounder, NegativeConditionsRemover, BoundedTypesRemover, StateInvariantsRemover,
   UndefinedInitialNumericRemover, UsertypeFluentsRemover (the fake-goal stage: Proofs/LayerA_DcrGoalPlan_proofs.v), and
   what the closed pipelines quantifiers + conditional effects, grounder + conditional effects, quantifiers + negative
   conditions, bounded types + conditional effects, grounder + negative conditions need of [pipeline_sound_at] /
   [pipeline_complete_at]. *)
From Coq Require Import List ZArith NArith QArith Qcanon Bool Lia.
Import ListNotations.
Require Import UPV.Core.Expr UPV.Core.Eval UPV.Core.Interp UPV.Planning.Problem UPV.Planning.Sem.
Require Import UPV.Proofs.Eval_lemmas UPV.Proofs.Sem_proofs UPV.Proofs.Step_proofs UPV.Proofs.Subst_proofs.
Require Import UPV.Compilers.Variants UPV.Proofs.Variants_proofs.
Require Import UPV.Compilers.LayerA_Defs UPV.Compilers.LayerA_Quant UPV.Compilers.LayerA_Variants.
Require Import UPV.Proofs.LayerA_base UPV.Proofs.LayerA_Quant_proofs UPV.Proofs.LayerA_Variants_proofs.
Require Import UPV.Planning.Ground UPV.Compilers.LayerA_Ground UPV.Proofs.LayerA_Ground_proofs.
Require Import UPV.Compilers.LayerA_Inv UPV.Compilers.LayerA_Neg UPV.Proofs.LayerA_Inv_proofs UPV.Proofs.LayerA_Neg_proofs.
Require Import UPV.Compilers.LayerA_Pipe.
Require Export UPV.Proofs.LayerA_sim.
Local Open Scope nat_scope.

Lemma pback_length f pi : length (pback f pi) <= length pi.
Proof.
  induction pi as [|x pi IH]; [apply le_n|]. rewrite pback_cons, app_length. unfold ostep.
  destruct (f x); cbn [length]; lia.
Qed.

Lemma sne_length P s pi rho : sub_noop_eq P s pi rho -> length rho <= length pi.
Proof. induction 1; cbn [length]; lia. Qed.

Section Compose.
  Variables a b : stage.
  Hypothesis Hlink : st_dst a = st_src b.

  Lemma okD_compose pi' : Forall (st_okD (compose a b)) pi' ->
    Forall (st_okD b) pi' /\ Forall (st_okD a) (pback (st_back b) pi').
  Proof.
    intros H. split.
    - eapply Forall_impl; [|exact H]. intros x [Hx _]. exact Hx.
    - apply pback_Forall. eapply Forall_impl; [|exact H]. intros x [_ Hx]. exact Hx.
  Qed.

  Lemma compose_okD pi' : Forall (st_okD b) pi' -> Forall (st_okD a) (pback (st_back b) pi') ->
    Forall (st_okD (compose a b)) pi'.
  Proof.
    intros H1 H2. apply Forall_pback in H2. rewrite Forall_forall in *. intros x Hx. split; [apply H1 | apply H2]; exact Hx.
  Qed.

  Lemma compose_back pi' : pback (st_back (compose a b)) pi' = pback (st_back a) (pback (st_back b) pi').
  Proof. apply pback_compose. Qed.

  (* soundness composes, with no condition linking the stages *)
  Theorem compose_sound : stage_sound a -> stage_sound b -> stage_sound (compose a b).
  Proof.
    intros Ha Hb s0 s2 pi' [s1 [R1 R2]] Hok Hv. rewrite compose_back.
    destruct (okD_compose pi' Hok) as [Hokb Hoka].
    apply (Ha s0 s1 _ R1 Hoka). rewrite Hlink. exact (Hb s1 s2 pi' R2 Hokb Hv).
  Qed.

  Theorem compose_noop : stage_sound b -> stage_noop a -> stage_noop b -> stage_noop (compose a b).
  Proof.
    intros Sb Ha Hb s0 s2 pi' rho' [s1 [R1 R2]] Hok Hv Hsub. rewrite !compose_back.
    destruct (okD_compose pi' Hok) as [Hokb Hoka].
    apply (Ha s0 s1 _ _ R1 Hoka); rewrite Hlink; [exact (Sb s1 s2 pi' R2 Hokb Hv) | exact (Hb s1 s2 pi' rho' R2 Hokb Hv Hsub)].
  Qed.

  (* completeness composes, the bounds add; what stage a guarantees of its compiled plan must be what stage b asks
     of its source plan *)
  Theorem compose_complete :
    (forall x, st_okD a x -> st_okS b x) ->
    stage_complete a -> stage_noop a -> stage_complete b -> stage_complete (compose a b).
  Proof.
    intros Hok Ha Hna Hb s0 s2 pi [s1 [R1 R2]] HS Hv.
    destruct (Ha s0 s1 pi R1 HS Hv) as (pi1 & L1 & V1 & D1 & N1).
    rewrite Hlink in V1.
    assert (S1 : Forall (st_okS b) pi1) by (eapply Forall_impl; [exact Hok | exact D1]).
    destruct (Hb s1 s2 pi1 R2 S1 V1) as (pi2 & L2 & V2 & D2 & N2).
    exists pi2. split; [change (st_aux (compose a b)) with (st_aux a + st_aux b); unfold pplan, pstep in *; lia|]. split; [exact V2|].
    rewrite <- Hlink in N2.
    split.
    - apply compose_okD; [exact D2|]. exact (sne_Forall _ _ _ _ _ N2 D1).
    - rewrite compose_back. eapply sne_trans; [exact N1|]. rewrite <- Hlink in V1. exact (Hna s0 s1 pi1 _ R1 D1 V1 N2).
  Qed.

  Theorem compose_certified :
    (forall x, st_okD a x -> st_okS b x) -> certified a -> certified b -> certified (compose a b).
  Proof.
    intros Hok [Sa Ca Na] [Sb Cb Nb]. constructor;
      [apply compose_sound | apply compose_complete | apply compose_noop]; assumption.
  Qed.
End Compose.

Lemma id_certified Q : certified (id_stage Q).
Proof.
  constructor.
  - intros s s' pi' HR _ Hv. cbn in HR. subst s'. cbn [id_stage st_back st_src]. rewrite pback_Some. exact Hv.
  - intros s s' pi HR _ Hv. cbn in HR. subst s'. exists pi. cbn [id_stage st_back st_src st_dst st_aux st_okD].
    split; [change (st_aux (id_stage Q)) with 0; unfold pplan, pstep in *; lia|]. split; [exact Hv|]. split; [apply Forall_forall; intros; exact I|].
    rewrite pback_Some. apply sne_valid_refl. exact Hv.
  - intros s s' pi' rho' HR _ _ Hsub. cbn in HR. subst s'. cbn [id_stage st_back st_src]. rewrite !pback_Some. exact Hsub.
Qed.

Lemma compose_all_dst l Q : st_dst (compose_all l Q) = Q.
Proof. induction l as [|a l IH]; [reflexivity|]. exact IH. Qed.

Lemma compose_all_src l Q : st_src (compose_all l Q) = match l with [] => Q | a :: _ => st_src a end.
Proof. destruct l; reflexivity. Qed.

Lemma compose_all_aux l Q : st_aux (compose_all l Q) = fold_right (fun a n => st_aux a + n) 0 l.
Proof. induction l as [|a l IH]; [reflexivity|]. cbn [compose_all fold_right compose st_aux]. f_equal. exact IH. Qed.

(* soundness of the pipeline: every stage sound, consecutive problems fit *)
Theorem pipeline_sound l Q : Forall stage_sound l -> linked l Q -> stage_sound (compose_all l Q).
Proof.
  induction l as [|a l IH]; intros Hs Hl; [apply id_certified|].
  inversion Hs; subst. destruct Hl as (Hd & _ & Hl). cbn [compose_all fold_right].
  apply compose_sound; [exact Hd | assumption | apply IH; assumption].
Qed.

Theorem pipeline_certified l Q : Forall certified l -> linked l Q -> certified (compose_all l Q).
Proof.
  induction l as [|a l IH]; intros Hs Hl; [apply id_certified|].
  inversion Hs; subst. destruct Hl as (Hd & Hok & Hl). cbn [compose_all fold_right].
  apply compose_certified; [exact Hd | exact Hok | assumption | apply IH; assumption].
Qed.

(* the map back of the composed stage is the one CompilersPipeline builds: the stages' functions in REVERSE order *)
Theorem pipeline_back_spec l Q x : st_back (compose_all l Q) x = pipeline_back l x.
Proof.
  unfold pipeline_back. revert x. induction l as [|a l IH]; intros x; [reflexivity|].
  cbn [compose_all fold_right compose st_back map rev]. rewrite mb_chain_app.
  change (fold_right compose (id_stage Q) l) with (compose_all l Q). rewrite IH.
  destruct (mb_chain (rev (map st_back l)) x) as [y|]; [|reflexivity].
  cbn [mb_chain]. destruct (st_back a y); reflexivity.
Qed.

(* ... and on plans: map back through the last stage first *)
Theorem pipeline_pback l (Q : problem) pi' :
  pback (pipeline_back l) pi' = fold_right (fun a rho => pback (st_back a) rho) pi' l.
Proof.
  rewrite <- (pback_ext _ _ pi' (pipeline_back_spec l Q)).
  induction l as [|a l IH]; [apply pback_Some|].
  cbn [compose_all fold_right]. rewrite compose_back. f_equal. exact IH.
Qed.

(* the two pipeline theorems at given initial states, with the map back CompilersPipeline builds *)
Lemma pipeline_sound_at l Q s s' pi' : Forall stage_sound l -> linked l Q -> st_rel (compose_all l Q) s s' ->
  Forall (st_okD (compose_all l Q)) pi' -> valid_plan false (st_dst (compose_all l Q)) s' pi' = true ->
  valid_plan false (st_src (compose_all l Q)) s (pback (pipeline_back l) pi') = true.
Proof.
  intros Hs Hl HR Hok Hv. rewrite <- (pback_ext _ _ pi' (pipeline_back_spec l Q)).
  exact (pipeline_sound l Q Hs Hl s s' pi' HR Hok Hv).
Qed.

Lemma pipeline_complete_at l Q s s' pi : Forall certified l -> linked l Q -> st_rel (compose_all l Q) s s' ->
  Forall (st_okS (compose_all l Q)) pi -> valid_plan false (st_src (compose_all l Q)) s pi = true ->
  exists pi', length pi' <= length pi + st_aux (compose_all l Q) /\
              valid_plan false (st_dst (compose_all l Q)) s' pi' = true /\
              sub_noop_eq (st_src (compose_all l Q)) s pi (pback (pipeline_back l) pi').
Proof.
  intros Hc Hl HR Hok Hv.
  destruct (cs_complete _ (pipeline_certified l Q Hc Hl) s s' pi HR Hok Hv) as (pi' & L & V & _ & S).
  exists pi'. split; [exact L|]. split; [exact V|]. rewrite <- (pback_ext _ _ pi' (pipeline_back_spec l Q)). exact S.
Qed.

Lemma Forall_targets P pi : Forall (step_targets_total P) pi <-> plan_targets_total P pi.
Proof.
  unfold plan_targets_total, step_targets_total. rewrite Forall_forall. split.
  - intros H aid args a Hin EL. exact (H (aid, args) Hin a EL).
  - intros H [aid args] Hin a EL. exact (H aid args a Hin EL).
Qed.

Lemma map_actions_NoDup q l : NoDup (map fst l) -> NoDup (map fst (map_actions q l)).
Proof.
  induction l as [|[i a] l IH]; intros H; [constructor|]. cbn [map fst] in H. inversion H as [|? ? Hn Hr]; subst.
  unfold map_actions. cbn [flat_map fst snd]. destruct (q a) as [a'|]; cbn [app map fst]; [|apply IH; exact Hr].
  constructor; [|apply IH; exact Hr]. intros Hin. apply Hn. eapply map_actions_ids. exact Hin.
Qed.

Lemma quant_unique_ids smp P : unique_ids P -> unique_ids (quant_compile smp P).
Proof. unfold unique_ids. cbn [quant_compile p_actions]. apply map_actions_NoDup. Qed.

Section QuantStage.
  Variable smp : expr -> expr.
  Hypothesis Hsmp : smp_exact smp.
  Variable P : problem.
  Variable tau : N -> N.
  Hypothesis Hu : unique_ids P.
  Hypothesis Hwf : problem_wf P tau = true.

  Lemma quant_stage_sound : stage_sound (quant_stage smp P).
  Proof.
    intros s s' pi' [<- Hb] Hok Hv. cbn [quant_stage st_back st_src st_dst] in *. rewrite pback_Some.
    apply (quant_sound smp Hsmp P tau Hu Hwf s pi' Hb); [apply Forall_targets; exact Hok | exact Hv].
  Qed.

  Lemma quant_stage_noop : stage_noop (quant_stage smp P).
  Proof.
    apply sim_noop.
    - intros s s' x' t' [<- Hb] Hok ER. cbn [quant_stage st_back st_src st_dst st_okD] in *.
      assert (Ht : plan_targets_total P [x']) by (apply Forall_targets; constructor; [exact Hok | constructor]).
      destruct (quant_run_sound smp Hsmp P tau Hu Hwf [x'] s t' Hb Ht ER) as [E Hb'].
      exists t'. split; [exact E | split; [reflexivity | exact Hb']].
    - intros s s' x' t t' [<- _] [<- _] H _. exact H.
  Qed.

  Lemma quant_stage_complete : no_action_dropped smp P -> stage_complete (quant_stage smp P).
  Proof.
    intros Hnd s s' pi [<- Hb] Hok Hv. cbn [quant_stage st_back st_src st_dst st_okD st_okS st_aux] in *.
    exists pi. split; [plia|].
    split; [apply (quant_complete smp Hsmp P tau Hu Hwf s pi Hnd Hb); [apply Forall_targets; exact Hok | exact Hv]|].
    split; [exact Hok|]. rewrite pback_Some. apply sne_valid_refl. exact Hv.
  Qed.

  Lemma quant_stage_certified : no_action_dropped smp P -> certified (quant_stage smp P).
  Proof.
    intros Hnd. constructor; [exact quant_stage_sound | exact (quant_stage_complete Hnd) | exact quant_stage_noop].
  Qed.
End QuantStage.

Section CerStage.
  Variable simp_pre : list expr -> option (list expr).
  Hypothesis Hsimp : simp_pre_ok simp_pre.
  Variable nm : N -> nat -> N.
  Variable P : problem.
  Hypothesis Hu : unique_ids P.
  Hypothesis Hu' : unique_ids (cer_compile simp_pre nm P).
  Variable G : state -> Prop.
  Hypothesis Gstep : forall s aid a args t, G s -> lookup_action P aid = Some a -> spec_step false P s a args = Some t -> G t.
  Hypothesis Hcond : forall s args i a, G s -> In (i, a) (p_actions P) ->
    Forall (cond_ok P s a args) (cond_effs (a_effs a)).

  Lemma cer_pback pi' : pback (cer_back simp_pre nm P) pi' = vt_map_back (cer_table simp_pre nm P) pi'.
  Proof. symmetry. apply vt_map_back_pback. Qed.

  Lemma cer_stage_sound : stage_sound (cer_stage simp_pre nm G P).
  Proof.
    intros s s' pi' [Hs HG] _ Hv. cbn [cer_stage st_back st_src st_dst] in *. rewrite cer_pback.
    apply (cer_sound simp_pre Hsimp nm P Hu Hu' G Gstep Hcond s pi' HG).
    rewrite (valid_plan_ext _ s s' pi' Hs). exact Hv.
  Qed.

  Lemma cer_stage_noop : stage_noop (cer_stage simp_pre nm G P).
  Proof.
    apply sim_noop.
    - intros s s' x' t' [Hs HG] _ ER. cbn [cer_stage st_back st_src st_dst] in *.
      destruct (lift_run_sound P (cer_compile simp_pre nm P) (cer_table simp_pre nm P) eq_refl eq_refl eq_refl eq_refl
                  eq_refl Hu' G Gstep (cer_Hsound simp_pre Hsimp nm P Hu G Hcond) [x'] s s' t' HG Hs ER)
        as (t & Et & Ht & HGt).
      exists t. split; [exact Et | split; assumption].
    - intros s s' x' t t' [Hs _] [Ht _] H _ f x. cbn in Hs, Ht. rewrite Hs, Ht. apply H.
  Qed.

  Lemma cer_stage_complete :
    (forall s args i a, G s -> In (i, a) (p_actions P) ->
       add_effs_ok [] [] (a_effs (ce_variant a (the_sel P s a args))) = false -> applicable P s a args = false) ->
    stage_complete (cer_stage simp_pre nm G P).
  Proof.
    intros Hconf s s' pi [Hs HG] _ Hv. cbn [cer_stage st_back st_src st_dst st_okD st_aux] in *.
    destruct (cer_complete simp_pre Hsimp nm P Hu' G Gstep Hcond Hconf s pi HG Hv) as (pi' & V & L & S).
    exists pi'. split; [plia|]. split; [rewrite <- (valid_plan_ext _ s s' pi' Hs); exact V|].
    split; [apply Forall_forall; intros; exact I|]. rewrite cer_pback. exact S.
  Qed.

  Lemma cer_stage_certified :
    (forall s args i a, G s -> In (i, a) (p_actions P) ->
       add_effs_ok [] [] (a_effs (ce_variant a (the_sel P s a args))) = false -> applicable P s a args = false) ->
    certified (cer_stage simp_pre nm G P).
  Proof.
    intros Hconf. constructor; [exact cer_stage_sound | exact (cer_stage_complete Hconf) | exact cer_stage_noop].
  Qed.
End CerStage.

Section QuantCer.
  Variable smp : expr -> expr.
  Variable simp_pre : list expr -> option (list expr).
  Variable nm : N -> nat -> N.
  Variable P : problem.
  Variable G : state -> Prop.
  Let P1 := qc_mid smp P.
  Let P2 := qc_dst smp simp_pre nm P.
  Let l := qc_stages smp simp_pre nm G P.

  Lemma qc_linked : linked l P2.
  Proof. cbn. repeat split; auto. Qed.

  (* the pipeline's map back: only the second stage renames *)
  Lemma qc_pback pi' : pback (pipeline_back l) pi' = vt_map_back (cer_table simp_pre nm P1) pi'.
  Proof.
    rewrite (pipeline_pback l P2). unfold l, qc_stages. cbn [fold_right quant_stage cer_stage st_back].
    rewrite pback_Some. symmetry. apply vt_map_back_pback.
  Qed.

  Lemma qc_okD pi' : plan_targets_total P (vt_map_back (cer_table simp_pre nm P1) pi') ->
    Forall (st_okD (compose_all l P2)) pi'.
  Proof.
    intros H. apply Forall_targets in H. rewrite vt_map_back_pback in H. apply Forall_pback in H.
    eapply Forall_impl; [|exact H]. intros x Hx. cbn. repeat split; auto.
  Qed.

  Lemma qc_rel s0 : bool_state P s0 -> G s0 -> st_rel (compose_all l P2) s0 s0.
  Proof.
    intros Hb HG. exists s0. split; [split; [reflexivity | exact Hb]|].
    exists s0. split; [split; [intros f x; reflexivity | exact HG] | reflexivity].
  Qed.
End QuantCer.

Section GroundStage.
  Variable smp : expr -> expr.
  Variable tuples : N -> list (list value).
  Variable nm : N -> nat -> N.
  Variable P : problem.
  Variable G : state -> Prop.
  Hypothesis Hsmp : smp_exact_on P G smp.
  Hypothesis Hu : unique_ids P.
  Hypothesis Hu' : unique_ids (ground_compile smp tuples nm P).
  Hypothesis Gstep : forall s aid a args t, G s -> lookup_action P aid = Some a -> spec_step false P s a args = Some t -> G t.
  Hypothesis Hinst : instances_ok smp tuples P.

  Lemma ground_pback pi' : pback (ground_back smp tuples nm P) pi' = gt_map_back (ground_table smp tuples nm P) pi'.
  Proof. induction pi' as [|x pi' IH]; [reflexivity|]. rewrite pback_cons, IH. reflexivity. Qed.

  Lemma ground_stage_sound : stage_sound (ground_stage smp tuples nm G P).
  Proof.
    intros s s' pi' [<- HG] _ Hv. cbn [ground_stage st_back st_src st_dst] in *. rewrite ground_pback.
    exact (ground_sound smp tuples nm P G Hsmp Hu Hu' Gstep Hinst s pi' HG Hv).
  Qed.

  Lemma ground_stage_noop : stage_noop (ground_stage smp tuples nm G P).
  Proof.
    apply sim_noop; [exact (ground_sim_step smp tuples nm P G Hsmp Hu Hu' Gstep Hinst)|].
    intros s s' x' t t' [<- _] [<- _] H _. exact H.
  Qed.

  Lemma ground_stage_complete :
    (forall s i a args, G s -> In (i, a) (p_actions P) -> In args (tuples i) ->
       add_effs_ok [] [] (g_effects smp (zip_params (a_params a) args) (a_effs a)) = false ->
       spec_step false P s a args = None) ->
    stage_complete (ground_stage smp tuples nm G P).
  Proof.
    intros Hconf s s' pi [<- HG] Hok Hv. cbn [ground_stage st_back st_src st_dst st_okD st_okS st_aux] in *.
    assert (Hin : plan_in_tuples tuples pi).
    { intros i args H. rewrite Forall_forall in Hok. exact (Hok (i, args) H). }
    destruct (ground_complete smp tuples nm P G Hsmp Hu' Gstep Hinst Hconf s pi HG Hin Hv) as (pi' & V & E).
    exists pi'. split; [rewrite <- E; unfold gt_map_back; rewrite map_length; plia|]. split; [exact V|].
    split; [apply Forall_forall; intros; exact I|]. rewrite ground_pback, E. apply sne_valid_refl. exact Hv.
  Qed.

  Lemma ground_stage_certified :
    (forall s i a args, G s -> In (i, a) (p_actions P) -> In args (tuples i) ->
       add_effs_ok [] [] (g_effects smp (zip_params (a_params a) args) (a_effs a)) = false ->
       spec_step false P s a args = None) ->
    certified (ground_stage smp tuples nm G P).
  Proof.
    intros Hconf. constructor; [exact ground_stage_sound | exact (ground_stage_complete Hconf) | exact ground_stage_noop].
  Qed.
End GroundStage.

Section GroundCer.
  Variable smp : expr -> expr.
  Variable tuples : N -> list (list value).
  Variable gnm : N -> nat -> N.
  Variable P : problem.
  Variable G1 : state -> Prop.
  Let P1 := ground_compile smp tuples gnm P.
  Variable simp_pre : list expr -> option (list expr).
  Variable nm : N -> nat -> N.
  Let P2 := cer_compile simp_pre nm P1.
  Variable G2 : state -> Prop.
  Let l := gc_stages smp tuples gnm G1 simp_pre nm G2 P.

  Lemma gc_linked : linked l P2.
  Proof. cbn. repeat split; auto. Qed.

  Lemma gc_pback pi' : pback (pipeline_back l) pi' =
    gt_map_back (ground_table smp tuples gnm P) (vt_map_back (cer_table simp_pre nm P1) pi').
  Proof.
    rewrite (pipeline_pback l P2). unfold l, gc_stages. cbn [fold_right ground_stage cer_stage st_back].
    rewrite ground_pback, cer_pback. reflexivity.
  Qed.

  Lemma gc_okD pi' : Forall (st_okD (compose_all l P2)) pi'.
  Proof. apply Forall_forall. intros x _. cbn. repeat split; auto. Qed.

  Lemma gc_rel s0 : G1 s0 -> G2 s0 -> st_rel (compose_all l P2) s0 s0.
  Proof.
    intros H1 H2. exists s0. split; [split; [reflexivity | exact H1]|].
    exists s0. split; [split; [intros f x; reflexivity | exact H2] | reflexivity].
  Qed.
End GroundCer.

Section NcrStage.
  Variable nmap : list (N * N).
  Variables rw smp : expr -> expr.
  Variable P : problem.
  Hypothesis H1 : nmap_ok nmap P = true.
  Hypothesis H2 : problem_clean nmap P = true.
  Hypothesis H3 : ncr_safe nmap P = true.
  Hypothesis H4 : rw_ok nmap rw P.
  Hypothesis H5 : smp_exact smp.

  Lemma ncr_stage_sound : stage_sound (ncr_stage nmap rw smp P).
  Proof.
    intros s s' pi' HR _ Hv. cbn [ncr_stage st_back st_src st_dst st_rel] in *. rewrite pback_Some.
    rewrite <- (neg_valid_plan_safe nmap rw smp P H1 H2 H3 H4 H5 s s' pi' HR). exact Hv.
  Qed.

  Lemma ncr_stage_complete : stage_complete (ncr_stage nmap rw smp P).
  Proof.
    intros s s' pi HR _ Hv. cbn [ncr_stage st_back st_src st_dst st_rel st_aux st_okD] in *. exists pi.
    split; [plia|]. split; [rewrite (neg_valid_plan_safe nmap rw smp P H1 H2 H3 H4 H5 s s' pi HR); exact Hv|].
    split; [apply Forall_forall; intros; exact I|]. rewrite pback_Some. apply sne_valid_refl. exact Hv.
  Qed.

  Lemma clean_targets aid a g : lookup_action P aid = Some a -> is_negb nmap g = true ->
    forall e, In e (a_effs a) -> e_fl e <> g.
  Proof.
    intros EL Hg e He Heq. subst g. apply lookupN_In in EL.
    unfold problem_clean in H2. nfsplit.
    match goal with Hq : forallb _ (p_actions P) = true |- _ => rewrite forallb_forall in Hq; specialize (Hq _ EL); cbn [snd] in Hq end.
    nfsplit. match goal with Hq : forallb (effect_clean nmap) _ = true |- _ => rewrite forallb_forall in Hq; specialize (Hq e He) end.
    unfold effect_clean in *. nfsplit.
    match goal with Hn : negb (is_negb nmap (e_fl e)) = true |- _ => rewrite Hg in Hn; discriminate end.
  Qed.

  Lemma ncr_stage_noop : stage_noop (ncr_stage nmap rw smp P).
  Proof.
    apply sim_noop.
    - intros s s' x' t' HR _ ER. cbn [ncr_stage st_back st_src st_dst st_rel] in *.
      pose proof (neg_run_safe nmap rw smp P H1 H2 H3 H4 H5 [x'] s s' HR) as Hx. rewrite ER in Hx.
      unfold ostep. destruct (run P (spec_step false P) s [x']) as [t|]; [|destruct Hx].
      exists t. split; [reflexivity | exact Hx].
    - intros s s' [aid args] t t' HR HRt Hs' ER g x. cbn [ncr_stage st_back st_src st_dst st_rel] in *.
      unfold ostep in ER. rewrite run_single in ER.
      destruct (lookup_action P aid) as [a|] eqn:EL; [|discriminate].
      destruct (is_negb nmap g) eqn:Eg.
      + symmetry. apply (step_untouched P s a args t g ER (clean_targets aid a g EL Eg)).
      + destruct HR as [Ra _], HRt as [Rb _]. rewrite <- (Ra g x Eg), <- (Rb g x Eg). apply Hs'.
  Qed.

  Lemma ncr_stage_certified : certified (ncr_stage nmap rw smp P).
  Proof. constructor; [exact ncr_stage_sound | exact ncr_stage_complete | exact ncr_stage_noop]. Qed.
End NcrStage.

Section QuantNcr.
  Variable smp : expr -> expr.
  Variable P : problem.
  Let P1 := quant_compile smp P.
  Variable nmap : list (N * N).
  Variables rw smp2 : expr -> expr.
  Let P2 := neg_compile nmap rw smp2 P1.
  Let l := qn_stages smp nmap rw smp2 P.

  Lemma qn_linked : linked l P2.
  Proof. cbn. repeat split; auto. Qed.

  Lemma qn_pback pi' : pback (pipeline_back l) pi' = pi'.
  Proof.
    rewrite (pipeline_pback l P2). unfold l, qn_stages. cbn [fold_right quant_stage ncr_stage st_back].
    rewrite !pback_Some. reflexivity.
  Qed.

  Lemma qn_okD pi' : plan_targets_total P pi' -> Forall (st_okD (compose_all l P2)) pi'.
  Proof.
    intros H. apply Forall_targets in H. eapply Forall_impl; [|exact H]. intros x Hx. cbn. repeat split; auto.
  Qed.

  Lemma qn_rel s0 s0' : bool_state P s0 -> neg_rel nmap s0 s0' -> st_rel (compose_all l P2) s0 s0'.
  Proof.
    intros Hb HR. exists s0. split; [split; [reflexivity | exact Hb]|]. exists s0'. split; [exact HR | reflexivity].
  Qed.
End QuantNcr.

(* ---- the compilers that move constraints into preconditions and goals (BoundedTypesRemover, StateInvariantsRemover):
   they do NOT simulate the source problem step by step (the constraints are checked before a step instead of after
   it), but along a VALID compiled plan every state satisfies the moved constraints, which is what stage_noop asks *)
Section InvNoop.
  Variable smp : expr -> expr.
  Hypothesis Hsmp : smp_holds smp.
  Variables P P' : problem.
  Variable cond : expr.
  Variable M : list expr.
  Hypothesis Hobj : p_objs P' = p_objs P.
  Hypothesis Hif : p_ifun P' = p_ifun P.
  Hypothesis Hbf : forall f, is_bool_fluent P' f = is_bool_fluent P f.
  Hypothesis Hact : p_actions P' = map_actions (inv_action smp cond) (p_actions P).
  Hypothesis Hgoal : p_goals P' = inv_goals smp cond (p_goals P).
  Hypothesis Hinv : forall s, invariants_ok false P s = invariants_ok false P' s && moved_ok P M s.
  Hypothesis Hcond : forall s pars, holds false (mk_interp P s pars) cond = moved_ok P M s.
  Hypothesis Hu : unique_ids P.

  Lemma moved_ok_ext s t : state_eq s t -> moved_ok P M s = moved_ok P M t.
  Proof. intros H. unfold moved_ok. apply all_hold_ext, mk_interp_ext, H. Qed.

  Lemma inv_step s s' a a' args t' : state_eq s s' -> inv_action smp cond a = Some a' ->
    spec_step false P' s' a' args = Some t' -> moved_ok P M t' = true ->
    exists t, spec_step false P s a args = Some t /\ state_eq t t'.
  Proof.
    intros Hs EA ES Hm. destruct (inv_action_shape smp cond a a' EA) as [Ep Ee].
    rewrite spec_step_eq in ES. rewrite spec_step_eq. rewrite Ep, Ee in ES.
    set (pars := zip_params (a_params a) args) in *.
    rewrite (all_hold_ext false _ _ _ (interp_same P P' Hobj Hif s s' pars Hs)),
            (fired_ext false _ _ _ (interp_same P P' Hobj Hif s s' pars Hs)) in ES.
    rewrite (inv_action_pre smp Hsmp P cond M Hcond s pars a a' EA) in ES.
    destruct (all_hold false (mk_interp P s pars) (a_pre a)); cbn [andb negb] in *; [|discriminate].
    destruct (moved_ok P M s); cbn [negb] in ES; [|discriminate].
    destruct (fired false (mk_interp P s pars) (a_effs a)) as [acts|]; [|discriminate].
    rewrite (effects_ok_same P P' Hbf s s' acts Hs) in ES.
    destruct (spec_effects_ok P s acts); cbn [negb] in *; [|discriminate].
    pose proof (succ_same P P' Hbf s s' acts Hs) as Hss.
    rewrite (invok_same P' _ _ Hss) in ES.
    destruct (invariants_ok false P' (spec_succ P s acts)) eqn:EI; [|discriminate]. inversion ES; subst t'.
    rewrite (Hinv (spec_succ P s acts)), EI, (moved_ok_ext _ _ Hss), Hm. cbn.
    exists (spec_succ P s acts). split; [reflexivity | exact Hss].
  Qed.

  Lemma inv_noop : forall s' pi rho, sub_noop_eq P' s' pi rho ->
    forall s, state_eq s s' -> valid_plan false P' s' pi = true -> sub_noop_eq P s pi rho.
  Proof.
    pose proof (inv_valid_plan smp Hsmp P P' cond M Hobj Hif Hbf Hact Hgoal Hinv Hcond Hu) as VP.
    induction 1 as [s' | s' aid args a' t' pi rho EL ES _ IH | s' aid args a' t' pi rho EL ES Hno _ IH];
      intros s Hs Hv; [constructor| |].
    (* in both cases: the rest of the plan is valid from t', so the moved constraints hold in t' and the source steps too *)
    all: assert (Hv' : valid_plan false P' t' pi = true)
           by (unfold valid_plan in Hv |- *; cbn [run] in Hv; rewrite EL, ES in Hv; exact Hv).
    all: assert (Hm : moved_ok P M t' = true)
           by (rewrite (VP pi t' t' (state_eq_refl t')) in Hv'; apply andb_true_iff in Hv'; tauto).
    all: unfold lookup_action in EL; rewrite Hact, (lookup_map_actions _ _ _ Hu) in EL; fold (lookup_action P aid) in EL.
    all: destruct (lookup_action P aid) as [a|] eqn:ELo; [|discriminate].
    all: destruct (inv_step s s' a a' args t' Hs EL ES Hm) as [t [Et Ht]].
    - eapply sne_keep; [exact ELo | exact Et | apply IH; assumption].
    - eapply sne_drop; [exact ELo | exact Et | | apply IH; assumption].
      intros f x. rewrite (Ht f x), (Hno f x). symmetry. apply Hs.
  Qed.
End InvNoop.

Section BtrStage.
  Variable smp : expr -> expr.
  Hypothesis Hsmp : smp_holds smp.
  Variable P : problem.
  Hypothesis Hu : unique_ids P.

  Lemma btr_stage_sound : stage_sound (btr_stage smp P).
  Proof.
    intros s s' pi' [<- _] _ Hv. cbn [btr_stage st_back st_src st_dst] in *. rewrite pback_Some.
    exact (btr_sound smp Hsmp P Hu s pi' Hv).
  Qed.

  Lemma btr_stage_complete : stage_complete (btr_stage smp P).
  Proof.
    intros s s' pi [<- Hb] _ Hv. cbn [btr_stage st_back st_src st_dst st_aux st_okD] in *. exists pi.
    split; [plia|]. split; [exact (btr_complete smp Hsmp P Hu s pi Hb Hv)|].
    split; [apply Forall_forall; intros; exact I|]. rewrite pback_Some. apply sne_valid_refl. exact Hv.
  Qed.

  Lemma btr_stage_noop : stage_noop (btr_stage smp P).
  Proof.
    intros s s' pi' rho' [<- _] _ Hv Hsub. cbn [btr_stage st_back st_src st_dst] in *. rewrite !pback_Some.
    apply (inv_noop smp Hsmp P (btr_compile smp P) (btr_cond P) (bound_invs P)) with (s' := s); try reflexivity; try assumption.
    - intros f. unfold is_bool_fluent. apply is_bool_fluent_unbound.
    - exact (btr_inv smp P).
    - exact (btr_cond_ok P).
    - apply state_eq_refl.
  Qed.

  Lemma btr_stage_certified : certified (btr_stage smp P).
  Proof. constructor; [exact btr_stage_sound | exact btr_stage_complete | exact btr_stage_noop]. Qed.
End BtrStage.

Section SirStage.
  Variable smp : expr -> expr.
  Hypothesis Hsmp : smp_holds smp.
  Variable P : problem.
  Hypothesis Hu : unique_ids P.
  Hypothesis Hclosed : Forall (closed_cond P) (p_invs P).

  Lemma sir_stage_sound : stage_sound (sir_stage smp P).
  Proof.
    intros s s' pi' [<- _] _ Hv. cbn [sir_stage st_back st_src st_dst] in *. rewrite pback_Some.
    exact (sir_sound smp Hsmp P Hu Hclosed s pi' Hv).
  Qed.

  Lemma sir_stage_complete : stage_complete (sir_stage smp P).
  Proof.
    intros s s' pi [<- Hb] _ Hv. cbn [sir_stage st_back st_src st_dst st_aux st_okD] in *. exists pi.
    split; [plia|]. split; [exact (sir_complete smp Hsmp P Hu Hclosed s pi Hb Hv)|].
    split; [apply Forall_forall; intros; exact I|]. rewrite pback_Some. apply sne_valid_refl. exact Hv.
  Qed.

  Lemma sir_stage_noop : stage_noop (sir_stage smp P).
  Proof.
    intros s s' pi' rho' [<- _] _ Hv Hsub. cbn [sir_stage st_back st_src st_dst] in *. rewrite !pback_Some.
    apply (inv_noop smp Hsmp P (sir_compile smp P) (sir_cond smp P) (p_invs P)) with (s' := s); try reflexivity; try assumption.
    - exact (sir_inv smp P).
    - exact (sir_cond_ok smp Hsmp P Hclosed).
    - apply state_eq_refl.
  Qed.

  Lemma sir_stage_certified : certified (sir_stage smp P).
  Proof. constructor; [exact sir_stage_sound | exact sir_stage_complete | exact sir_stage_noop]. Qed.
End SirStage.

Section BtrCer.
  Variable smp : expr -> expr.
  Variable P : problem.
  Let P1 := btr_compile smp P.
  Variable simp_pre : list expr -> option (list expr).
  Variable nm : N -> nat -> N.
  Let P2 := cer_compile simp_pre nm P1.
  Variable G : state -> Prop.
  Let l := bc_stages smp simp_pre nm G P.

  Lemma bc_linked : linked l P2.
  Proof. cbn. repeat split; auto. Qed.

  Lemma bc_pback pi' : pback (pipeline_back l) pi' = vt_map_back (cer_table simp_pre nm P1) pi'.
  Proof.
    rewrite (pipeline_pback l P2). unfold l, bc_stages. cbn [fold_right btr_stage cer_stage st_back].
    rewrite pback_Some. symmetry. apply vt_map_back_pback.
  Qed.

  Lemma bc_okD pi' : Forall (st_okD (compose_all l P2)) pi'.
  Proof. apply Forall_forall. intros x _. cbn. repeat split; auto. Qed.

  Lemma bc_rel s0 : all_hold false (mk_interp P s0 []) (bound_invs P) = true -> G s0 -> st_rel (compose_all l P2) s0 s0.
  Proof.
    intros Hb HG. exists s0. split; [split; [reflexivity | exact Hb]|].
    exists s0. split; [split; [intros f x; reflexivity | exact HG] | reflexivity].
  Qed.
End BtrCer.

Require Import UPV.Compilers.LayerA_Uinr UPV.Compilers.LayerA_Utfr UPV.Compilers.LayerA_DcrGoal.
Require Import UPV.Proofs.LayerA_Uinr_proofs UPV.Proofs.LayerA_Utfr_proofs.

Section GroundNcr.
  Variable smp : expr -> expr.
  Variable tuples : N -> list (list value).
  Variable gnm : N -> nat -> N.
  Variable P : problem.
  Variable G1 : state -> Prop.
  Let P1 := ground_compile smp tuples gnm P.
  Variable nmap : list (N * N).
  Variables rw smp2 : expr -> expr.
  Let P2 := neg_compile nmap rw smp2 P1.
  Let l := gn_stages smp tuples gnm G1 nmap rw smp2 P.

  Lemma gn_linked : linked l P2.
  Proof. cbn. repeat split; auto. Qed.

  Lemma gn_pback pi' : pback (pipeline_back l) pi' = gt_map_back (ground_table smp tuples gnm P) pi'.
  Proof.
    rewrite (pipeline_pback l P2). unfold l, gn_stages. cbn [fold_right ground_stage ncr_stage st_back].
    rewrite pback_Some, ground_pback. reflexivity.
  Qed.

  Lemma gn_okD pi' : Forall (st_okD (compose_all l P2)) pi'.
  Proof. apply Forall_forall. intros x _. cbn. repeat split; auto. Qed.

  Lemma gn_rel s0 s0' : G1 s0 -> neg_rel nmap s0 s0' -> st_rel (compose_all l P2) s0 s0'.
  Proof.
    intros HG HR. exists s0. split; [split; [reflexivity | exact HG]|]. exists s0'. split; [exact HR | reflexivity].
  Qed.
End GroundNcr.

Section UinrStage.
  Variable umap : list (N * N).
  Variable P : problem.
  Hypothesis Hok : uinr_ok umap P = true.
  Hypothesis Hnc : orig_no_comp umap P = true.

  Lemma uinr_stage_sound : stage_sound (uinr_stage umap P).
  Proof.
    intros s s' pi' HR _ Hv. cbn [uinr_stage st_back st_src st_dst st_rel] in *. rewrite pback_Some.
    rewrite <- (uinr_valid_plan umap P Hok s s' pi' HR). exact Hv.
  Qed.

  Lemma uinr_stage_complete : stage_complete (uinr_stage umap P).
  Proof.
    intros s s' pi HR _ Hv. cbn [uinr_stage st_back st_src st_dst st_rel st_aux st_okD] in *. exists pi.
    split; [plia|]. split; [rewrite (uinr_valid_plan umap P Hok s s' pi HR); exact Hv|].
    split; [apply Forall_forall; intros; exact I|]. rewrite pback_Some. apply sne_valid_refl. exact Hv.
  Qed.

  Lemma uinr_stage_noop : stage_noop (uinr_stage umap P).
  Proof.
    apply sim_noop.
    - intros s s' x' t' HR _ ER. cbn [uinr_stage st_back st_src st_dst st_rel] in *.
      pose proof (uinr_run umap P Hok [x'] s s' HR) as Hx. unfold orel in Hx. rewrite ER in Hx.
      unfold ostep. destruct (run P (spec_step false P) s [x']) as [t|]; [|destruct Hx].
      exists t. split; [reflexivity | exact Hx].
    - intros s s' [aid args] t t' [Ra Rb] [Ta Tb] Hs' ER g x. cbn [uinr_stage st_back st_src st_dst st_rel] in *.
      unfold ostep in ER. rewrite run_single in ER.
      destruct (lookup_action P aid) as [a|] eqn:EL; [|discriminate].
      destruct (is_ucomp umap g) eqn:Eg.
      + symmetry. apply (step_untouched P s a args t g ER).
        intros e He Heq. subst g. apply lookupN_In in EL. unfold orig_no_comp in Hnc. rewrite forallb_forall in Hnc.
        specialize (Hnc _ EL). cbn [snd] in Hnc. rewrite forallb_forall in Hnc. specialize (Hnc e He).
        rewrite Eg in Hnc. discriminate.
      + destruct (ucomp umap g) as [d|] eqn:Ec.
        * specialize (Rb g d x Ec). specialize (Tb g d x Ec).
          destruct (s g x) as [v|], (t g x) as [w|].
          -- destruct Rb as [R1 _], Tb as [T1 _]. rewrite <- R1, <- T1. apply Hs'.
          -- destruct Rb as [_ R2]. rewrite (Hs' d x), Tb in R2. discriminate.
          -- destruct Tb as [_ T2]. rewrite <- (Hs' d x), Rb in T2. discriminate.
          -- reflexivity.
        * rewrite <- (Ra g x Ec Eg), <- (Ta g x Ec Eg). apply Hs'.
  Qed.

  Lemma uinr_stage_certified : certified (uinr_stage umap P).
  Proof. constructor; [exact uinr_stage_sound | exact uinr_stage_complete | exact uinr_stage_noop]. Qed.
End UinrStage.

Section UtfrStage.
  Variables tr smp : expr -> expr.
  Variable P : problem.
  Variable G : state -> Prop.
  Variable Q : pstep -> Prop.
  Hypothesis H1 : smp_exact smp.
  Hypothesis H2 : utfr_wf tr smp P = true.
  Hypothesis H3 : tr_ok tr P.
  Hypothesis H4 : effects_defined P G.
  Hypothesis H5 : one_value P G.
  Hypothesis H6 : closed P G.
  Hypothesis Hu : unique_ids P.

  Lemma utfr_stage_sound : stage_sound (utfr_stage tr smp G Q P).
  Proof.
    intros s s' pi' [HR HG] _ Hv. cbn [utfr_stage st_back st_src st_dst st_rel] in *. rewrite pback_Some.
    rewrite <- (u_valid_plan tr smp P G H1 H2 H3 H4 H5 H6 Hu s s' pi' HG HR). exact Hv.
  Qed.

  Lemma utfr_stage_complete : stage_complete (utfr_stage tr smp G Q P).
  Proof.
    intros s s' pi [HR HG] HQ Hv. cbn [utfr_stage st_back st_src st_dst st_rel st_aux st_okD st_okS] in *. exists pi.
    split; [plia|]. split; [rewrite (u_valid_plan tr smp P G H1 H2 H3 H4 H5 H6 Hu s s' pi HG HR); exact Hv|].
    split; [exact HQ|]. rewrite pback_Some. apply sne_valid_refl. exact Hv.
  Qed.

  (* the Boolean encoding determines the object-valued state *)
  Lemma utfr_rel_unique s s' t t' : utfr_rel P s s' -> utfr_rel P t t' -> state_eq s' t' -> state_eq s t.
  Proof.
    intros [Ra Rb] [Ta Tb] Hs' g x. destruct (otype P g) as [ty|] eqn:Eo.
    - specialize (Rb g ty x Eo). specialize (Tb g ty x Eo).
      destruct (s g x) as [[b|q|c]|]; try contradiction; destruct (t g x) as [[b2|q2|c2]|]; try contradiction.
      + destruct Rb as [Rin Rv], Tb as [Tin Tv]. pose proof (Rv c Rin) as E1. pose proof (Tv c Rin) as E2.
        rewrite (Hs' g (x ++ [VObj c])), E2 in E1. inversion E1 as [E]. rewrite N.eqb_refl in E.
        apply N.eqb_eq in E. subst. reflexivity.
      + destruct Rb as [Rin Rv]. pose proof (Rv c Rin) as E1. rewrite (Hs' g (x ++ [VObj c])), (Tb c Rin) in E1. discriminate.
      + destruct Tb as [Tin Tv]. pose proof (Tv c2 Tin) as E1. rewrite <- (Hs' g (x ++ [VObj c2])), (Rb c2 Tin) in E1. discriminate.
      + reflexivity.
    - rewrite <- (Ra g x Eo), <- (Ta g x Eo). apply Hs'.
  Qed.

  Lemma utfr_stage_noop : stage_noop (utfr_stage tr smp G Q P).
  Proof.
    apply sim_noop.
    - intros s s' x' t' [HR HG] _ ER. cbn [utfr_stage st_back st_src st_dst st_rel] in *.
      pose proof (u_run tr smp P G H1 H2 H3 H4 H5 H6 Hu [x'] s s' HG HR) as Hx. rewrite ER in Hx.
      unfold ostep. destruct (run P (spec_step false P) s [x']) as [t|] eqn:Et; [|destruct Hx].
      exists t. split; [reflexivity|]. split; [exact Hx | exact (run_closed P G H6 [x'] s t HG Et)].
    - intros s s' x' t t' [HR _] [HT _] Hs' _. cbn [utfr_stage st_rel] in *. eapply utfr_rel_unique; eassumption.
  Qed.

  Lemma utfr_stage_certified : certified (utfr_stage tr smp G Q P).
  Proof. constructor; [exact utfr_stage_sound | exact utfr_stage_complete | exact utfr_stage_noop]. Qed.
End UtfrStage.

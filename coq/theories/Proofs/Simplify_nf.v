(* Idempotence: the output of the simplifier is in a normal form [nf] on which every node function is the identity. *)
From Coq Require Import List ZArith NArith QArith Qcanon Bool Lia.
Import ListNotations.
Require Import UPV.Core.Expr UPV.Core.Eval UPV.Proofs.ListFacts UPV.Proofs.Eval_lemmas UPV.Proofs.ExprView UPV.Walkers.Simplify UPV.Proofs.Simplify_base
  UPV.Proofs.Simplify_fv UPV.Proofs.Simplify_sound.
Local Open Scope nat_scope.

Definition is_flat (t : bool) (x : expr) : bool :=
  match x with EPlus _ => negb t | ETimes _ => t | _ => false end.
Definition lit_j (k : bool) (x : expr) : bool :=
  negb (is_boolc x) && match junct_args k x with None => true | Some _ => false end.
(* what a second pass of walk_and / walk_or checks, element by element *)
Fixpoint jcheck (k : bool) (l seen : list expr) : bool :=
  match l with
  | [] => true
  | x :: r => lit_j k x && negb (mem_expr (walk_not x) seen) && negb (mem_expr x seen) && jcheck k r (seen ++ [x])
  end.
Definition jnf (k : bool) (l : list expr) : bool := (2 <=? length l) && jcheck k l [].

Definition lit_a (t : bool) (x : expr) : bool := negb (is_num x) && negb (is_flat t x).
Definition last_ok (t : bool) (c : expr) : bool :=
  match num_of c with Some n => negb (num_is_unit t n) && negb (t && num_is0 n) | None => false end.
Fixpoint acheck (t : bool) (l : list expr) : bool :=
  match l with
  | [] => true
  | [c] => lit_a t c || last_ok t c
  | x :: r => lit_a t x && acheck t r
  end.
Definition anf (t : bool) (l : list expr) : bool := (2 <=? length l) && acheck t l.

Definition is_nil {A} (l : list A) : bool := match l with [] => true | _ => false end.
Definition is_none {A} (o : option A) : bool := match o with None => true | _ => false end.

Fixpoint nf (G : cfg) (e : expr) {struct e} : bool :=
  match e with
  | EBool _ | EInt _ | EReal _ | EObj _ | EParam _ | EVar _ _ => true
  | EFluent f l => forallb (nf G) l && expr_eqb (walk_fluent G f l) e
  | EIFun f l => forallb (nf G) l && expr_eqb (walk_ifun G f l) e
  | EAnd l => forallb (nf G) l && jnf true l
  | EOr l => forallb (nf G) l && jnf false l
  | ENot a => nf G a && expr_eqb (walk_not a) e
  | EImplies a b => nf G a && nf G b && expr_eqb (walk_implies a b) e
  | EIff a b => nf G a && nf G b && expr_eqb (walk_iff a b) e
  | EExists vs a => nf G a && negb (is_nil vs) && vars_eqb (prune G vs a) vs && is_none (elim_step G vs a)
  | EForall vs a => nf G a && negb (is_nil vs) && vars_eqb (prune G vs a) vs
  | EPlus l => forallb (nf G) l && anf false l
  | ETimes l => forallb (nf G) l && anf true l
  | EMinus a b => nf G a && nf G b && expr_eqb (walk_minus a b) e
  | EDiv a b => nf G a && nf G b && expr_eqb (walk_div a b) e
  | ELe a b => nf G a && nf G b && expr_eqb (walk_le a b) e
  | ELt a b => nf G a && nf G b && expr_eqb (walk_lt a b) e
  | EEquals a b => nf G a && nf G b && expr_eqb (walk_equals G a b) e
  | EAlways a => nf G a && expr_eqb (walk_always a) e
  | ESometime a => nf G a && expr_eqb (walk_sometime a) e
  | ESometimeBefore a b => nf G a && nf G b && expr_eqb (walk_sometime_before a b) e
  | ESometimeAfter a b => nf G a && nf G b && expr_eqb (walk_sometime_after a b) e
  | EAtMostOnce a => nf G a && expr_eqb (walk_at_most_once a) e
  end.

Section NF.
  Variable G : cfg.
  Hypothesis HG : cfg_consts G.
  Notation nfG := (nf G).

  Lemma nf_const c : is_const c = true -> nfG c = true.
  Proof. destruct c; simpl; congruence. Qed.
  Lemma nf_num n : nfG (num_expr n) = true. Proof. destruct n; reflexivity. Qed.

  (* walk_and / walk_or: second pass *)
  Lemma lit_j_spec k x : lit_j k x = true -> is_unit k x = false /\ is_zero k x = false /\ junct_args k x = None.
  Proof.
    unfold lit_j. rewrite andb_true_iff, negb_true_iff. intros [A B].
    destruct (junct_args k x); [discriminate|]. destruct x; simpl in *; try discriminate; auto.
  Qed.

  Lemma jcheck_stable k l : forall seen, jcheck k l seen = true -> j_outer k l seen = Some (seen ++ l).
  Proof.
    induction l as [|x r IH]; intros seen H; cbn [jcheck j_outer] in *.
    - rewrite app_nil_r. reflexivity.
    - rewrite !andb_true_iff, !negb_true_iff in H. destruct H as [[[L M1] M2] C].
      destruct (lit_j_spec _ _ L) as (U & Z & J). rewrite U, Z, J, M1.
      unfold add_key. rewrite M2. rewrite (IH _ C), <- app_assoc. reflexivity.
  Qed.

  Lemma jcheck_snoc k l : forall seen s,
    jcheck k (l ++ [s]) seen =
    jcheck k l seen && (lit_j k s && negb (mem_expr (walk_not s) (seen ++ l)) && negb (mem_expr s (seen ++ l))).
  Proof.
    induction l as [|x r IH]; intros seen s; cbn [app jcheck].
    - rewrite app_nil_r, andb_true_r. reflexivity.
    - rewrite IH, <- app_assoc. cbn [app]. rewrite !andb_assoc. reflexivity.
  Qed.

  Lemma jcheck_lit k l : forall seen, jcheck k l seen = true -> Forall (fun x => lit_j k x = true) l.
  Proof.
    induction l as [|x r IH]; intros seen H; [constructor|]. cbn [jcheck] in H.
    rewrite !andb_true_iff in H. destruct H as [[[L _] _] C]. constructor; [exact L|eapply IH; eauto].
  Qed.

  Lemma jnf_stable k l : jnf k l = true -> walk_junct k l = (if k then EAnd l else EOr l).
  Proof.
    unfold jnf. rewrite andb_true_iff. intros [Hlen C].
    assert (Gen : walk_junct_gen k l = (if k then EAnd l else EOr l)).
    { unfold walk_junct_gen. rewrite (jcheck_stable _ _ _ C). cbn [app].
      destruct l as [|a [|b r]]; try discriminate. destruct k; reflexivity. }
    unfold walk_junct. destruct l as [|a [|b [|c r]]]; try exact Gen.
    destruct (expr_eqb a b) eqn:E; [|exact Gen]. apply expr_eqb_eq in E. subst b.
    cbn [jcheck app] in C. rewrite !andb_true_iff, !negb_true_iff in C. destruct C as [_ [[[_ _] M] _]].
    simpl in M. rewrite expr_eqb_refl in M. discriminate.
  Qed.

  (* walk_and / walk_or: first pass *)
  Lemma add_step k s seen :
    jcheck k seen [] = true -> lit_j k s = true -> mem_expr (walk_not s) seen = false -> jcheck k (add_key s seen) [] = true.
  Proof.
    intros C L M. unfold add_key. destruct (mem_expr s seen) eqn:M2; [exact C|].
    rewrite jcheck_snoc. cbn [app]. rewrite C, L, M, M2. reflexivity.
  Qed.

  Lemma j_inner_nf k ss : forall seen out,
    jcheck k seen [] = true -> Forall (fun x => lit_j k x = true) ss -> j_inner ss seen = Some out -> jcheck k out [] = true.
  Proof.
    induction ss as [|s ss IH]; intros seen out C L H; cbn [j_inner] in H.
    - inversion H; subst. exact C.
    - inversion L; subst. destruct (mem_expr (walk_not s) seen) eqn:M; [discriminate|].
      eapply IH; [|eassumption|exact H]. apply add_step; assumption.
  Qed.

  Lemma nf_junct_child k a ss : junct_args k a = Some ss -> nfG a = true -> forallb nfG ss = true /\ jcheck k ss [] = true.
  Proof.
    destruct a; simpl; try discriminate; destruct k; try discriminate; intros E; inversion E; subst;
      rewrite andb_true_iff; unfold jnf; rewrite andb_true_iff; tauto.
  Qed.

  Lemma j_outer_nf k args : forall seen out,
    jcheck k seen [] = true -> forallb nfG args = true -> j_outer k args seen = Some out -> jcheck k out [] = true.
  Proof.
    induction args as [|a args IH]; intros seen out C N H; cbn [j_outer] in H.
    - inversion H; subst. exact C.
    - cbn [forallb] in N. apply andb_true_iff in N. destruct N as [Na Nr].
      destruct (is_unit k a) eqn:U; [eapply IH; eauto|].
      destruct (is_zero k a) eqn:Z; [discriminate|].
      destruct (junct_args k a) as [ss|] eqn:J.
      + destruct (j_inner ss seen) as [seen'|] eqn:I; [|discriminate].
        destruct (nf_junct_child _ _ _ J Na) as [_ Cs].
        eapply IH; [|exact Nr|exact H]. eapply j_inner_nf; [exact C| |exact I]. eapply jcheck_lit; eauto.
      + destruct (mem_expr (walk_not a) seen) eqn:M; [discriminate|].
        eapply IH; [|exact Nr|exact H]. apply add_step; [exact C| |exact M].
        unfold lit_j. rewrite J, andb_true_r. destruct a; simpl in *; try reflexivity.
        destruct b, k; simpl in *; congruence.
  Qed.

  Lemma nf_jitems k args : forallb nfG args = true -> forallb nfG (jitems k args) = true.
  Proof.
    induction args as [|a l IH]; intros H; [reflexivity|]. cbn [forallb] in H. apply andb_true_iff in H. destruct H as [Ha Hl].
    cbn [jitems flat_map]. fold (jitems k l). rewrite forallb_app, (IH Hl), andb_true_r.
    destruct (junct_args k a) as [ss|] eqn:J; [apply (nf_junct_child _ _ _ J Ha)|]. cbn. rewrite Ha. reflexivity.
  Qed.

  Lemma nf_mkJ k l : forallb nfG l = true -> jcheck k l [] = true -> nfG (mkJ k l) = true.
  Proof.
    intros N C. destruct l as [|a [|b r]].
    - destruct k; reflexivity.
    - cbn in N. rewrite andb_true_r in N. destruct k; exact N.
    - assert (J : jnf k (a :: b :: r) = true) by (unfold jnf; rewrite C; reflexivity).
      destruct k; cbn [mkJ mkAnd mkOr nf]; rewrite N, J; reflexivity.
  Qed.

  Lemma nf_walk_junct k args : forallb nfG args = true -> nfG (walk_junct k args) = true.
  Proof.
    intros N.
    assert (Gen : nfG (walk_junct_gen k args) = true).
    { unfold walk_junct_gen. destruct (j_outer k args []) as [keys|] eqn:J; [|reflexivity].
      apply nf_mkJ.
      - eapply forallb_incl; [apply (j_outer_sub _ _ _ _ J)|]. cbn [app]. apply nf_jitems. exact N.
      - exact (j_outer_nf k args [] keys eq_refl N J). }
    unfold walk_junct. destruct args as [|a [|b [|c r]]]; try exact Gen.
    destruct (expr_eqb a b); [|exact Gen]. cbn in N. apply andb_true_iff in N. tauto.
  Qed.

  (* walk_plus / walk_times: second pass *)
  Lemma flat1_id t l : Forall (fun x => is_flat t x = false) l -> flat1 t l = l.
  Proof.
    induction 1 as [|x l Hx _ IH]; [reflexivity|]. cbn [flat1 flat_map]. fold (flat1 t l). rewrite IH.
    destruct x; try reflexivity; destruct t; simpl in Hx; try discriminate; reflexivity.
  Qed.

  Lemma last_ok_num t c : last_ok t c = true -> exists n, c = num_expr n /\ num_is_unit t n = false /\ (t && num_is0 n = false).
  Proof.
    unfold last_ok. destruct (num_of c) as [n|] eqn:E; [|discriminate].
    rewrite andb_true_iff, !negb_true_iff. intros [A B]. exists n. split; [apply num_of_expr; exact E|auto].
  Qed.

  Lemma lit_a_spec t x : lit_a t x = true -> is_num x = false /\ is_flat t x = false.
  Proof. unfold lit_a. rewrite andb_true_iff, !negb_true_iff. auto. Qed.

  Lemma acheck_shape t l : acheck t l = true ->
    (Forall (fun x => lit_a t x = true) l) \/
    (exists ncs n, l = ncs ++ [num_expr n] /\ Forall (fun x => lit_a t x = true) ncs /\
                   num_is_unit t n = false /\ (t && num_is0 n = false)).
  Proof.
    induction l as [|x r IH]; intros H; [left; constructor|].
    destruct r as [|y r'].
    - cbn [acheck] in H. apply orb_true_iff in H. destruct H as [H|H].
      + left. constructor; [exact H|constructor].
      + right. destruct (last_ok_num _ _ H) as [n [-> [A B]]]. exists [], n. split; [reflexivity|]. split; [constructor|auto].
    - change (acheck t (x :: y :: r')) with (lit_a t x && acheck t (y :: r')) in H.
      apply andb_true_iff in H. destruct H as [Hx Hr]. destruct (IH Hr) as [F|[ncs [n [E [F [A B]]]]]].
      + left. constructor; assumption.
      + right. exists (x :: ncs), n. split; [cbn [app]; rewrite E; reflexivity|]. split; [constructor; assumption|auto].
  Qed.

  Lemma consts_lit t l : Forall (fun x => lit_a t x = true) l -> consts_of l = [] /\ nonconsts_of l = l.
  Proof.
    induction 1 as [|x l Hx _ [IH1 IH2]]; [split; reflexivity|]. destruct (lit_a_spec _ _ Hx) as [A _].
    cbn [consts_of nonconsts_of flat_map filter]. fold (consts_of l). fold (nonconsts_of l).
    apply num_of_none in A as A'. rewrite A', A, IH1, IH2. split; reflexivity.
  Qed.

  Lemma consts_app l1 l2 : consts_of (l1 ++ l2) = consts_of l1 ++ consts_of l2.
  Proof. unfold consts_of. apply flat_map_app. Qed.
  Lemma nonconsts_app l1 l2 : nonconsts_of (l1 ++ l2) = nonconsts_of l1 ++ nonconsts_of l2.
  Proof. unfold nonconsts_of. apply filter_app. Qed.

  Lemma num_op_unit_l t n : num_op t (num_unit t) n = n.
  Proof.
    destruct t, n; unfold num_op, num_unit, num_mul, num_add; cbn [nval].
    - rewrite Z.mul_1_l. reflexivity.
    - f_equal. change (zq 1) with 1%Qc. ring.
    - reflexivity.
    - f_equal. change (zq 0) with 0%Qc. ring.
  Qed.

  Lemma num_is_unit_unit t : num_is_unit t (num_unit t) = true.
  Proof. destruct t; reflexivity. Qed.

  Lemma anf_stable t l : anf t l = true -> walk_arith t l = (if t then ETimes l else EPlus l).
  Proof.
    unfold anf. rewrite andb_true_iff. intros [Hlen C].
    assert (Hm : mkA t l = (if t then ETimes l else EPlus l)).
    { destruct l as [|a [|b r]]; try discriminate. destruct t; reflexivity. }
    unfold walk_arith. cbv zeta. destruct (acheck_shape _ _ C) as [F|[ncs [n [E [F [A B]]]]]].
    - rewrite flat1_id by (eapply Forall_impl; [|exact F]; intros x Hx; apply (lit_a_spec _ _ Hx)).
      destruct (consts_lit _ _ F) as [E1 E2]. rewrite E1, E2. cbn [existsb fold_left]. rewrite andb_false_r, num_is_unit_unit. exact Hm.
    - assert (Fl : Forall (fun x => is_flat t x = false) l).
      { rewrite E. apply Forall_app. split.
        - eapply Forall_impl; [|exact F]. intros x Hx. apply (lit_a_spec _ _ Hx).
        - constructor; [|constructor]. destruct n, t; reflexivity. }
      rewrite (flat1_id _ _ Fl). destruct (consts_lit _ _ F) as [E1 E2].
      assert (In' : is_num (num_expr n) = true) by (destruct n; reflexivity).
      assert (Ec : consts_of l = [n]).
      { rewrite E, consts_app, E1. cbn [consts_of flat_map app]. rewrite num_of_num_expr. reflexivity. }
      assert (En : nonconsts_of l = ncs).
      { rewrite E, nonconsts_app, E2. cbn [nonconsts_of filter]. rewrite In'. cbn [negb]. apply app_nil_r. }
      rewrite Ec, En. cbn [existsb fold_left]. rewrite orb_false_r, B, num_op_unit_l, A, <- E. exact Hm.
  Qed.

  (* walk_plus / walk_times: first pass *)
  Lemma acheck_all_lit t l : Forall (fun x => lit_a t x = true) l -> acheck t l = true.
  Proof.
    induction 1 as [|x l Hx _ IH]; [reflexivity|]. destruct l as [|y r].
    - cbn [acheck]. rewrite Hx. reflexivity.
    - change (acheck t (x :: y :: r)) with (lit_a t x && acheck t (y :: r)). rewrite Hx, IH. reflexivity.
  Qed.

  Lemma acheck_snoc t l c : Forall (fun x => lit_a t x = true) l -> last_ok t c = true -> acheck t (l ++ [c]) = true.
  Proof.
    induction 1 as [|x l Hx _ IH]; intros Hc.
    - cbn [app acheck]. rewrite Hc. apply orb_true_r.
    - cbn [app]. destruct (l ++ [c]) as [|y r] eqn:E; [destruct l; discriminate|].
      change (acheck t (x :: y :: r)) with (lit_a t x && acheck t (y :: r)). rewrite Hx. cbn [andb]. apply IH. exact Hc.
  Qed.

  Lemma acheck_nonflat t l : acheck t l = true -> Forall (fun x => is_flat t x = false) l.
  Proof.
    intros C. destruct (acheck_shape _ _ C) as [F|[ncs [n [E [F [A B]]]]]].
    - eapply Forall_impl; [|exact F]. intros x Hx. apply (lit_a_spec _ _ Hx).
    - rewrite E. apply Forall_app. split.
      + eapply Forall_impl; [|exact F]. intros x Hx. apply (lit_a_spec _ _ Hx).
      + constructor; [|constructor]. destruct n, t; reflexivity.
  Qed.

  Lemma flat1_nf t args : forallb nfG args = true ->
    forallb nfG (flat1 t args) = true /\ Forall (fun x => is_flat t x = false) (flat1 t args).
  Proof.
    induction args as [|a l IH]; intros H; [split; [reflexivity|constructor]|].
    cbn [forallb] in H. apply andb_true_iff in H. destruct H as [Ha Hl]. destruct (IH Hl) as [I1 I2].
    cbn [flat1 flat_map]. fold (flat1 t l). rewrite forallb_app, I1, andb_true_r.
    assert (D : is_flat t a = false -> forallb nfG [a] = true /\ Forall (fun x => is_flat t x = false) ([a] ++ flat1 t l)).
    { intros Hf. split; [cbn; rewrite Ha; reflexivity|]. constructor; assumption. }
    destruct a; try (apply D; reflexivity); destruct t; try (apply D; reflexivity).
    - cbn [nf] in Ha. apply andb_true_iff in Ha. destruct Ha as [N A]. unfold anf in A. apply andb_true_iff in A.
      split; [exact N|]. apply Forall_app. split; [apply acheck_nonflat; tauto|exact I2].
    - cbn [nf] in Ha. apply andb_true_iff in Ha. destruct Ha as [N A]. unfold anf in A. apply andb_true_iff in A.
      split; [exact N|]. apply Forall_app. split; [apply acheck_nonflat; tauto|exact I2].
  Qed.

  Lemma nf_mkA t l : forallb nfG l = true -> acheck t l = true -> nfG (mkA t l) = true.
  Proof.
    intros N C. destruct l as [|a [|b r]].
    - destruct t; reflexivity.
    - cbn in N. rewrite andb_true_r in N. destruct t; exact N.
    - assert (J : anf t (a :: b :: r) = true) by (unfold anf; rewrite C; reflexivity).
      destruct t; cbn [mkA mkTimes mkPlus nf]; rewrite N, J; reflexivity.
  Qed.

  Lemma num_is0_mul a b : num_is0 (num_mul a b) = num_is0 a || num_is0 b.
  Proof.
    apply eq_true_iff_eq. rewrite orb_true_iff, !num_is0_spec, nval_mul. change (zq 0) with 0%Qc. split.
    - apply Qcmult_integral.
    - intros [-> | ->]; ring.
  Qed.

  Lemma fold_mul_nonzero cs : forall a, num_is0 a = false -> existsb num_is0 cs = false ->
    num_is0 (fold_left num_mul cs a) = false.
  Proof.
    induction cs as [|c cs IH]; intros a Ha H; [exact Ha|]. cbn [existsb fold_left] in *.
    apply orb_false_iff in H. destruct H as [Hc Hr]. apply IH; [|exact Hr]. rewrite num_is0_mul, Ha, Hc. reflexivity.
  Qed.

  Lemma nf_walk_arith t args : forallb nfG args = true -> nfG (walk_arith t args) = true.
  Proof.
    intros N. destruct (flat1_nf t args N) as [N1 F1]. unfold walk_arith.
    destruct (t && existsb num_is0 (consts_of (flat1 t args))) eqn:Z; [reflexivity|].
    assert (Nn : forallb nfG (nonconsts_of (flat1 t args)) = true).
    { eapply forallb_incl; [apply incl_filter|exact N1]. }
    assert (Ln : Forall (fun x => lit_a t x = true) (nonconsts_of (flat1 t args))).
    { apply Forall_forall. intros x Hx. apply filter_In in Hx. destruct Hx as [Hx Hn].
      rewrite Forall_forall in F1. unfold lit_a. rewrite Hn, (F1 x Hx). reflexivity. }
    destruct (num_is_unit t (fold_left (num_op t) (consts_of (flat1 t args)) (num_unit t))) eqn:U.
    - apply nf_mkA; [exact Nn|apply acheck_all_lit; exact Ln].
    - apply nf_mkA.
      + rewrite forallb_app, Nn. cbn. rewrite nf_num. reflexivity.
      + apply acheck_snoc; [exact Ln|]. unfold last_ok. rewrite num_of_num_expr, U. simpl.
        destruct t; [|reflexivity]. simpl in Z. simpl. rewrite fold_mul_nonzero; [reflexivity|reflexivity|exact Z].
  Qed.

  Lemma nf_E1 o a : nfG (E1 o a) = nfG a && expr_eqb (walk1 o a) (E1 o a).
  Proof. destruct o; reflexivity. Qed.
  Lemma nf_E2 o a b : nfG (E2 o a b) = nfG a && nfG b && expr_eqb (walk2 G o a b) (E2 o a b).
  Proof. destruct o; reflexivity. Qed.

  (* a node that its own node function leaves alone is normal when its children are *)
  Lemma nf_E1_intro o a : nfG a = true -> walk1 o a = E1 o a -> nfG (E1 o a) = true.
  Proof. intros Ha E. rewrite nf_E1, Ha, E. apply expr_eqb_refl. Qed.
  Lemma nf_E2_intro o a b : nfG a = true -> nfG b = true -> walk2 G o a b = E2 o a b -> nfG (E2 o a b) = true.
  Proof. intros Ha Hb E. rewrite nf_E2, Ha, Hb, E. apply expr_eqb_refl. Qed.

  Lemma nf_ENot_inv a : nfG (ENot a) = true -> nfG a = true.
  Proof. cbn [nf]. rewrite andb_true_iff. tauto. Qed.

  Lemma nf_mkNot a : nfG a = true -> as_boolc a = None -> nfG (mkNot a) = true.
  Proof.
    intros N B. destruct a; cbn [mkNot]; try discriminate; try (apply (nf_E1_intro UNot); [exact N|reflexivity]).
    apply nf_ENot_inv. exact N.
  Qed.

  Lemma nf_walk1 o a : nfG a = true -> nfG (walk1 o a) = true.
  Proof.
    intros Na. remember (walk1 o a) as r eqn:E. pose proof (walk1_result o a) as K. rewrite <- E in K.
    destruct K as [|c C|x Ea].
    - apply nf_E1_intro; [exact Na|symmetry; exact E].
    - apply nf_const, C.
    - apply nf_ENot_inv. rewrite <- Ea. exact Na.
  Qed.

  Lemma nf_walk2 o a b : nfG a = true -> nfG b = true -> nfG (walk2 G o a b) = true.
  Proof.
    intros Na Nb. remember (walk2 G o a b) as r eqn:E. pose proof (walk2_result G o a b) as K. rewrite <- E in K.
    destruct K as [|c C| | |A|B|n].
    - apply nf_E2_intro; [exact Na|exact Nb|symmetry; exact E].
    - apply nf_const, C.
    - exact Na.
    - exact Nb.
    - apply nf_mkNot; assumption.
    - apply nf_mkNot; assumption.
    - apply nf_walk_arith. cbn. rewrite Na, nf_num. reflexivity.
  Qed.

  Lemma nf_walkn_app o l : is_app o = true -> forallb nfG l = true -> nfG (walkn G o l) = true.
  Proof.
    intros A N. destruct (walkn_app_result G o l HG A) as [E|C]; [|apply nf_const, C].
    rewrite E. destruct o; try discriminate A; cbn [En nf]; cbn [walkn En] in E; rewrite N, E; apply expr_eqb_refl.
  Qed.

  Lemma prune_idem vs b : prune G (prune G vs b) b = prune G vs b.
  Proof.
    unfold prune. induction vs as [|p r IH]; [reflexivity|]. cbn [filter].
    destruct (memN (fst p) (free_vars b) || empty_ty G (snd p)) eqn:M; [cbn [filter]; rewrite M, IH; reflexivity|exact IH].
  Qed.

  Lemma vars_eqb_refl vs : vars_eqb vs vs = true.
  Proof. apply vars_eqb_eq. reflexivity. Qed.

  Lemma nf_walk_forall vs b : nfG b = true -> nfG (walk_forall G vs b) = true.
  Proof.
    intros N. unfold walk_forall. destruct (prune G vs b) as [|p r] eqn:P; [exact N|].
    cbn [mkForall nf]. rewrite N, <- P, prune_idem, vars_eqb_refl, P. reflexivity.
  Qed.

  Lemma nf_walk_exists_noelim vs b :
    nfG b = true -> elim_step G (prune G vs b) b = None -> nfG (mkExists (prune G vs b) b) = true.
  Proof.
    intros N E. destruct (prune G vs b) as [|p r] eqn:P; [exact N|].
    cbn [mkExists nf]. rewrite N, E, <- P, prune_idem, vars_eqb_refl, P. reflexivity.
  Qed.

  Lemma map_id_Forall (f : expr -> expr) l : Forall (fun x => f x = x) l -> map f l = l.
  Proof. induction 1 as [|x l Hx _ IH]; [reflexivity|]. cbn. rewrite Hx, IH. reflexivity. Qed.

  Lemma nf_fix_list m l :
    Forall (fun e => nfG e = true -> simp G m e = e /\ simp_ok G m e = true) l -> forallb nfG l = true ->
    map (simp G m) l = l /\ forallb (simp_ok G m) l = true.
  Proof.
    induction 1 as [|x l Hx _ IH]; intros N; [split; reflexivity|]. cbn [forallb] in N. apply andb_true_iff in N.
    destruct N as [Nx Nl]. destruct (Hx Nx) as [E1 O1]. destruct (IH Nl) as [E2 O2]. cbn [map forallb].
    rewrite E1, E2, O1, O2. split; reflexivity.
  Qed.

  (* on a normal list node the node function is the identity: the second-pass lemmas *)
  Lemma nf_En_stable o l : nfG (En o l) = true -> forallb nfG l = true /\ walkn G o l = En o l.
  Proof.
    destruct o; cbn [En nf walkn]; rewrite andb_true_iff; intros [Nl Ns]; (split; [exact Nl|]).
    - apply expr_eqb_eq, Ns.
    - apply expr_eqb_eq, Ns.
    - apply (jnf_stable true), Ns.
    - apply (jnf_stable false), Ns.
    - apply (anf_stable false), Ns.
    - apply (anf_stable true), Ns.
  Qed.

  Lemma nf_fix m : forall e, nfG e = true -> simp G m e = e /\ simp_ok G m e = true.
  Proof.
    induction e using expr_view_ind; intros N.
    - rewrite simp_leaf, ok_leaf by assumption. split; reflexivity.
    - rewrite nf_E1, andb_true_iff in N. destruct N as [Na Ns]. destruct (IHe Na) as [E O].
      rewrite simp_E1, ok_E1, E, O. split; [apply expr_eqb_eq, Ns|reflexivity].
    - rewrite nf_E2, !andb_true_iff in N. destruct N as [[Na Nb] Ns].
      destruct (IHe1 Na) as [E1 O1]. destruct (IHe2 Nb) as [E2 O2].
      rewrite simp_E2, ok_E2, E1, E2, O1, O2. split; [apply expr_eqb_eq, Ns|reflexivity].
    - destruct (nf_En_stable _ _ N) as [Nl Ns]. destruct (nf_fix_list m _ H Nl) as [El Ok].
      rewrite simp_En, ok_En, El, Ok. split; [exact Ns|reflexivity].
    - destruct ex; cbn [EQ] in *; cbn [nf] in N; rewrite !andb_true_iff in N.
      + destruct N as [[[Na Nn] Np] Ne]. destruct (IHe Na) as [E1 O1]. rewrite simp_EExists, ok_EExists, E1, O1.
        apply vars_eqb_eq in Np. destruct (elim_step G vs e) eqn:ES; [discriminate|].
        cbv zeta. unfold walk_exists. rewrite Np, ES. split; [|reflexivity]. destruct vs; [discriminate|reflexivity].
      + destruct N as [[Na Nn] Np]. destruct (IHe Na) as [E1 O1]. rewrite simp_EForall, ok_EForall, E1, O1.
        apply vars_eqb_eq in Np. split; [|reflexivity].
        unfold walk_forall. rewrite Np. destruct vs; [discriminate|reflexivity].
  Qed.

  Lemma forallb_nf_map n l :
    Forall (fun e => simp_ok G n e = true -> nfG (simp G n e) = true) l -> forallb (simp_ok G n) l = true ->
    forallb nfG (map (simp G n) l) = true.
  Proof.
    induction 1 as [|x l Hx _ IH]; intros O; [reflexivity|]. cbn [forallb] in O. apply andb_true_iff in O.
    cbn [map forallb]. rewrite (Hx (proj1 O)), (IH (proj2 O)). reflexivity.
  Qed.

  Lemma nf_walkn o l : forallb nfG l = true -> nfG (walkn G o l) = true.
  Proof.
    destruct o; [exact (nf_walkn_app (NFluent f) l eq_refl)|exact (nf_walkn_app (NIFun f) l eq_refl)
                |apply nf_walk_junct|apply nf_walk_junct|apply nf_walk_arith|apply nf_walk_arith].
  Qed.

  Lemma simp_nf_gen n :
    (forall x, (match n with O => false | S n' => simp_ok G n' x end) = true -> nfG (resimp G n x) = true) ->
    forall e, simp_ok G n e = true -> nfG (simp G n e) = true.
  Proof.
    intros Hrs. induction e using expr_view_ind; intros O.
    - rewrite simp_leaf by assumption. destruct e; try discriminate; reflexivity.
    - rewrite ok_E1 in O. rewrite simp_E1. apply nf_walk1, IHe, O.
    - rewrite ok_E2, andb_true_iff in O. rewrite simp_E2. apply nf_walk2; [apply IHe1|apply IHe2]; apply O.
    - rewrite ok_En in O. rewrite simp_En. apply nf_walkn, forallb_nf_map; assumption.
    - destruct ex; cbn [EQ] in *.
      + rewrite ok_EExists, andb_true_iff in O. destruct O as [Oa Oe]. specialize (IHe Oa). cbv zeta in Oe.
        rewrite simp_EExists. unfold walk_exists.
        destruct (elim_step G (prune G vs (simp G n e)) (simp G n e)) as [p|] eqn:ES.
        * destruct (elim_loop G (length (prune G vs (simp G n e))) (prune G vs (simp G n e)) (simp G n e)) as [vs1 b1] eqn:L.
          apply Hrs. destruct n; [discriminate|exact Oe].
        * apply nf_walk_exists_noelim; assumption.
      + rewrite ok_EForall in O. rewrite simp_EForall. apply nf_walk_forall, IHe, O.
  Qed.

  Theorem simp_nf n : forall e, simp_ok G n e = true -> nfG (simp G n e) = true.
  Proof.
    induction n as [|n IHn]; apply simp_nf_gen.
    - intros x H. discriminate.
    - intros x H. apply IHn. exact H.
  Qed.

  Theorem simplify_idem e e' : simplify G e = Some e' -> simplify G e' = Some e'.
  Proof.
    unfold simplify. destruct (simp_ok G (size e) e) eqn:O; [|discriminate]. intros H; inversion H; subst.
    assert (N := simp_nf _ _ O). destruct (nf_fix (size (simp G (size e) e)) _ N) as [E1 O1].
    rewrite O1, E1. reflexivity.
  Qed.
End NF.

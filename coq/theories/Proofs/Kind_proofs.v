(* Proofs about Model/Kind.v (C33; the order laws are reused by C09). *)
From Coq Require Import List NArith ZArith Bool Lia.
Import ListNotations.
Require Import UPV.Model.Kind.

Lemma subset_spec a b :
  subset a b = true <-> forall i, N.testbit a i = true -> N.testbit b i = true.
Proof.
  unfold subset. rewrite N.eqb_eq. split.
  - intros H i Hi. rewrite <- H in Hi. rewrite N.land_spec in Hi. apply andb_true_iff in Hi. tauto.
  - intros H. apply N.bits_inj. intro i. rewrite N.land_spec.
    destruct (N.testbit a i) eqn:E; simpl; auto.
Qed.

Lemma subset_refl a : subset a a = true.
Proof. apply subset_spec; auto. Qed.

Lemma subset_trans a b c : subset a b = true -> subset b c = true -> subset a c = true.
Proof. rewrite !subset_spec; auto. Qed.

Lemma subset_antisym a b : subset a b = true -> subset b a = true -> a = b.
Proof.
  rewrite !subset_spec. intros H1 H2. apply N.bits_inj. intro i.
  destruct (N.testbit a i) eqn:Ea, (N.testbit b i) eqn:Eb; auto.
  - apply H1 in Ea. congruence.
  - apply H2 in Eb. congruence.
Qed.

Lemma subset_of_eq a b : a = b -> subset a b = true.
Proof. intros ->. apply subset_refl. Qed.

Lemma land_mono a b m : subset a b = true -> subset (N.land a m) (N.land b m) = true.
Proof.
  rewrite !subset_spec. intros H i. rewrite !N.land_spec, !andb_true_iff. intros [? ?]; auto.
Qed.

Lemma lor_upper_l a b m : subset (N.land a m) (N.land (N.lor a b) m) = true.
Proof. apply land_mono. apply subset_spec. intros i Hi. rewrite N.lor_spec, Hi. reflexivity. Qed.
Lemma lor_upper_r a b m : subset (N.land b m) (N.land (N.lor a b) m) = true.
Proof. apply land_mono. apply subset_spec. intros i Hi. rewrite N.lor_spec, Hi. apply orb_true_r. Qed.
Lemma lor_least a b m x :
  subset (N.land a m) x = true -> subset (N.land b m) x = true -> subset (N.land (N.lor a b) m) x = true.
Proof.
  rewrite !subset_spec. intros H1 H2 i. specialize (H1 i). specialize (H2 i).
  rewrite !N.land_spec, ?N.lor_spec in *. destruct (N.testbit a i), (N.testbit b i), (N.testbit m i); simpl in *; auto.
Qed.
Lemma land_lower_l a b m : subset (N.land (N.land a b) m) (N.land a m) = true.
Proof. apply land_mono. apply subset_spec. intros i. rewrite N.land_spec, andb_true_iff. tauto. Qed.
Lemma land_lower_r a b m : subset (N.land (N.land a b) m) (N.land b m) = true.
Proof. apply land_mono. apply subset_spec. intros i. rewrite N.land_spec, andb_true_iff. tauto. Qed.
Lemma land_greatest a b m x :
  subset x (N.land a m) = true -> subset x (N.land b m) = true -> subset x (N.land (N.land a b) m) = true.
Proof.
  rewrite !subset_spec. intros H1 H2 i Hi. specialize (H1 i Hi). specialize (H2 i Hi).
  rewrite !N.land_spec in *. destruct (N.testbit a i), (N.testbit b i), (N.testbit m i); simpl in *; auto.
Qed.

Lemma mask_of_spec l i : N.testbit (mask_of l) i = true <-> In i l.
Proof.
  induction l as [|x l IH]; cbn [mask_of fold_right In].
  - rewrite N.bits_0. split; [discriminate|tauto].
  - fold (mask_of l). rewrite N.setbit_iff, IH. tauto.
Qed.

Lemma pos_testbit_xI_succ p j : Pos.testbit p~1 (N.succ j) = Pos.testbit p j.
Proof. destruct j; simpl; auto. now rewrite Pos.pred_N_succ. Qed.
Lemma pos_testbit_xO_succ p j : Pos.testbit p~0 (N.succ j) = Pos.testbit p j.
Proof. destruct j; simpl; auto. now rewrite Pos.pred_N_succ. Qed.

Lemma pos_elements_spec p : forall k x,
  In x (pos_elements p k) <-> exists j, x = (k + j)%N /\ Pos.testbit p j = true.
Proof.
  induction p as [p IH|p IH|]; intros k x; cbn [pos_elements In].
  - rewrite IH. split.
    + intros [<-|[j [-> Hj]]].
      * exists 0%N. split; [lia|reflexivity].
      * exists (N.succ j). split; [lia|]. now rewrite pos_testbit_xI_succ.
    + intros [j [-> Hj]]. destruct (N.eq_dec j 0) as [->|Hn].
      * left; lia.
      * right. exists (N.pred j). split; [lia|].
        rewrite <- (N.succ_pred j Hn) in Hj. now rewrite pos_testbit_xI_succ in Hj.
  - rewrite IH. split.
    + intros [j [-> Hj]]. exists (N.succ j). split; [lia|]. now rewrite pos_testbit_xO_succ.
    + intros [j [-> Hj]]. destruct (N.eq_dec j 0) as [->|Hn].
      * discriminate.
      * exists (N.pred j). split; [lia|].
        rewrite <- (N.succ_pred j Hn) in Hj. now rewrite pos_testbit_xO_succ in Hj.
  - split.
    + intros [<-|[]]. exists 0%N. split; [lia|reflexivity].
    + intros [j [-> Hj]]. destruct j; [left; lia|discriminate].
Qed.

Lemma elements_spec s i : In i (elements s) <-> N.testbit s i = true.
Proof.
  destruct s as [|p]; simpl.
  - split; [tauto|discriminate].
  - rewrite pos_elements_spec. split.
    + intros [j [-> Hj]]. now rewrite N.add_0_l.
    + intros H. exists i. split; [lia|exact H].
Qed.

Definition fires (s : fset) (r : urule) : bool := forallb (fun g => mem g s) (u_guard r).

Lemma fold_rules_spec s rules : forall acc i,
  N.testbit (fold_left (fun acc r => if forallb (fun g => mem g s) (u_guard r) then N.lor acc (mask_of (u_adds r)) else acc)
                       rules acc) i
  = N.testbit acc i || existsb (fun r => fires s r && N.testbit (mask_of (u_adds r)) i) rules.
Proof.
  induction rules as [|r rules IH]; intros acc i; simpl.
  - now rewrite orb_false_r.
  - rewrite IH. unfold fires. destruct (forallb (fun g => mem g s) (u_guard r)); simpl.
    + rewrite N.lor_spec. now rewrite orb_assoc.
    + reflexivity.
Qed.

Lemma apply_upgrade_spec u s i :
  N.testbit (apply_upgrade u s) i
  = (N.testbit s i || existsb (fun r => fires s r && N.testbit (mask_of (u_adds r)) i) (u_rules u))
    && negb (N.testbit (mask_of (u_removed u)) i).
Proof. unfold apply_upgrade. now rewrite N.ldiff_spec, fold_rules_spec. Qed.

Section Generic.
  Variable T : tables.
  Notation version := (version T).
  Notation valid := (valid T).
  Notation canon := (canon T).
  Notation le := (le T).
  Notation keq := (keq T).
  Notation wf := (wf T).
  Notation added := (added T).
  Notation deprecated := (deprecated T).

  Lemma valid_spec v f : N.testbit (valid v) f = true <-> In f (t_all T) /\ is_valid T v f = true.
  Proof. unfold Kind.valid. rewrite mask_of_spec, filter_In. tauto. Qed.

  Lemma fold_max_ge_1 l : (1 <= fold_right (fun f acc => N.max acc (added f)) 1 l)%N.
  Proof. induction l; simpl; lia. Qed.
  Lemma fold_max_upper l f : In f l -> (added f <= fold_right (fun f acc => N.max acc (added f)) 1 l)%N.
  Proof. induction l as [|x l IH]; simpl; [tauto|]. intros [->|H]; [lia|]. apply IH in H. lia. Qed.
  Lemma fold_max_attained l :
    fold_right (fun f acc => N.max acc (added f)) 1%N l = 1%N
    \/ exists f, In f l /\ added f = fold_right (fun f acc => N.max acc (added f)) 1%N l.
  Proof.
    induction l as [|x l IH]; simpl; [now left|].
    destruct (N.max_spec (fold_right (fun f acc => N.max acc (added f)) 1%N l) (added x)) as [[_ E]|[_ E]]; rewrite E.
    - right. exists x. auto.
    - destruct IH as [IH|[f [Hf Ef]]]; [now left|]. right. exists f. auto.
  Qed.

  Lemma cv_ge_1 s : (1 <= computed_version T s)%N.
  Proof. apply fold_max_ge_1. Qed.
  Lemma cv_upper s f : N.testbit s f = true -> (added f <= computed_version T s)%N.
  Proof. intros H. apply fold_max_upper. now apply elements_spec. Qed.
  Lemma cv_attained s :
    computed_version T s = 1%N \/ exists f, N.testbit s f = true /\ added f = computed_version T s.
  Proof.
    destruct (fold_max_attained (elements s)) as [H|[f [Hf E]]]; [now left|].
    right. exists f. split; [now apply elements_spec|exact E].
  Qed.

  Lemma wf_all k f : wf k = true -> N.testbit (k_feats k) f = true -> In f (t_all T).
  Proof.
    unfold Kind.wf, ctor_ok. rewrite andb_true_iff. intros [H _] Hf.
    rewrite subset_spec in H. apply H in Hf. now apply mask_of_spec.
  Qed.
  Lemma wf_added_le k f : wf k = true -> N.testbit (k_feats k) f = true -> (added f <= version k)%N.
  Proof.
    unfold Kind.wf, ctor_ok, Kind.version. rewrite andb_true_iff. intros [_ H] Hf.
    destruct (k_ver k) as [v|].
    - rewrite andb_true_iff in H. destruct H as [_ H]. rewrite forallb_forall in H.
      apply N.leb_le. apply H. now apply elements_spec.
    - now apply cv_upper.
  Qed.
  Lemma wf_version_pos k : wf k = true -> (0 < version k)%N.
  Proof.
    unfold Kind.wf, ctor_ok, Kind.version. rewrite andb_true_iff. intros [_ H].
    destruct (k_ver k) as [v|].
    - rewrite andb_true_iff in H. destruct H as [H _]. now apply N.ltb_lt.
    - pose proof (cv_ge_1 (k_feats k)). lia.
  Qed.

  Lemma upgrade_to_same s v : upgrade_to T s v v = Some s.
  Proof. unfold upgrade_to. now rewrite N.sub_diag. Qed.
  Lemma upgrade_to_ge s v w : (w <= v)%N -> upgrade_to T s v w = Some s.
  Proof. intros H. unfold upgrade_to. replace (w - v)%N with 0%N by lia. reflexivity. Qed.

  Lemma equalize_same f1 f2 v : equalize T f1 f2 v v = Some (f1, f2, v).
  Proof. unfold equalize. now rewrite !upgrade_to_same, N.max_id. Qed.

  Lemma le_same a b : version a = version b -> le a b = Ok (subset (canon a) (canon b)).
  Proof. intros E. unfold Kind.le, Kind.canon. rewrite <- E, equalize_same. reflexivity. Qed.

  Lemma keq_spec a b : keq a b = true <-> version a = version b /\ canon a = canon b.
  Proof.
    unfold Kind.keq, Kind.canon.
    destruct (N.eqb_spec (version a) (version b)) as [E|E]; simpl.
    - rewrite <- E.
      assert (G : match k_ver a, k_ver b with None, _ => true | _, None => true | Some x, Some y => (x =? y)%N end = true).
      { unfold Kind.version in E. destruct (k_ver a), (k_ver b); auto. now apply N.eqb_eq. }
      rewrite G, N.eqb_eq. tauto.
    - destruct (match k_ver a, k_ver b with None, _ => true | _, None => true | Some x, Some y => (x =? y)%N end);
        split; try discriminate; intros [? _]; contradiction.
  Qed.

  Lemma le_refl a : le a a = Ok true.
  Proof. rewrite le_same by reflexivity. now rewrite subset_refl. Qed.

  Lemma le_trans a b c : version a = version b -> version b = version c ->
    le a b = Ok true -> le b c = Ok true -> le a c = Ok true.
  Proof.
    intros E1 E2. rewrite !le_same by congruence. intros H1 H2. injection H1 as H1. injection H2 as H2.
    f_equal. eapply subset_trans; eauto.
  Qed.

  Lemma le_antisym a b : version a = version b -> le a b = Ok true -> le b a = Ok true -> keq a b = true.
  Proof.
    intros E. rewrite !le_same by congruence. intros H1 H2. injection H1 as H1. injection H2 as H2.
    apply keq_spec. split; [exact E|]. now apply subset_antisym.
  Qed.

  Lemma keq_le a b : keq a b = true -> le a b = Ok true /\ le b a = Ok true.
  Proof.
    rewrite keq_spec. intros [E C]. rewrite !le_same by congruence. rewrite C. now rewrite subset_refl.
  Qed.

  Lemma keq_hash (h : N -> Z) a b : keq a b = true -> khash T h a = khash T h b.
  Proof. rewrite keq_spec. intros [_ C]. unfold khash. now rewrite C. Qed.

  Lemma ctor_ok_lor a b v : wf a = true -> wf b = true -> version a = v -> version b = v ->
    ctor_ok T (N.lor (k_feats a) (k_feats b)) (Some v) = true.
  Proof.
    intros Wa Wb Ea Eb. unfold ctor_ok. rewrite !andb_true_iff. repeat split.
    - apply subset_spec. intros i. rewrite N.lor_spec, orb_true_iff, mask_of_spec.
      intros [H|H]; eauto using wf_all.
    - apply N.ltb_lt. rewrite <- Ea. now apply wf_version_pos.
    - apply forallb_forall. intros f Hf. apply elements_spec in Hf. rewrite N.lor_spec, orb_true_iff in Hf.
      apply N.leb_le. destruct Hf as [H|H].
      + rewrite <- Ea. now apply wf_added_le.
      + rewrite <- Eb. now apply wf_added_le.
  Qed.

  Lemma ctor_ok_land a b v : wf a = true -> version a = v ->
    ctor_ok T (N.land (k_feats a) (k_feats b)) (Some v) = true.
  Proof.
    intros Wa Ea. unfold ctor_ok. rewrite !andb_true_iff. repeat split.
    - apply subset_spec. intros i. rewrite N.land_spec, andb_true_iff, mask_of_spec.
      intros [H _]; eauto using wf_all.
    - apply N.ltb_lt. rewrite <- Ea. now apply wf_version_pos.
    - apply forallb_forall. intros f Hf. apply elements_spec in Hf. rewrite N.land_spec, andb_true_iff in Hf.
      apply N.leb_le. destruct Hf as [H _]. rewrite <- Ea. now apply wf_added_le.
  Qed.

  Lemma version_explicit s v : version {| k_feats := s; k_ver := Some v |} = v.
  Proof. reflexivity. Qed.

  Lemma union_lub a b : wf a = true -> wf b = true -> version a = version b ->
    exists u, union T a b = Ok u /\ version u = version a /\ wf u = true
      /\ le a u = Ok true /\ le b u = Ok true
      /\ forall c, version c = version a -> le a c = Ok true -> le b c = Ok true -> le u c = Ok true.
  Proof.
    intros Wa Wb E.
    set (u := {| k_feats := N.lor (k_feats a) (k_feats b); k_ver := Some (version a) |}).
    assert (Vu : version u = version a) by reflexivity.
    assert (Cu : canon u = N.land (N.lor (k_feats a) (k_feats b)) (valid (version a))) by reflexivity.
    assert (Ca : canon a = N.land (k_feats a) (valid (version a))) by reflexivity.
    assert (Cb : canon b = N.land (k_feats b) (valid (version a))) by (unfold Kind.canon; now rewrite E).
    exists u.
    assert (C : ctor_ok T (N.lor (k_feats a) (k_feats b)) (Some (version a)) = true)
      by (apply ctor_ok_lor; auto).
    split; [|split; [reflexivity|split; [exact C|]]].
    - unfold union, construct. rewrite <- E, equalize_same, C. reflexivity.
    - split; [|split].
      + rewrite le_same by congruence. rewrite Cu, Ca. f_equal. apply lor_upper_l.
      + rewrite le_same by congruence. rewrite Cu, Cb. f_equal. apply lor_upper_r.
      + intros c Ec. rewrite !le_same by congruence. rewrite Cu, Ca, Cb. intros H1 H2.
        injection H1 as H1. injection H2 as H2. f_equal. now apply lor_least.
  Qed.

  Lemma inter_glb a b : wf a = true -> wf b = true -> version a = version b ->
    exists m, inter T a b = Ok m /\ version m = version a /\ wf m = true
      /\ le m a = Ok true /\ le m b = Ok true
      /\ forall c, version c = version a -> le c a = Ok true -> le c b = Ok true -> le c m = Ok true.
  Proof.
    intros Wa Wb E.
    set (u := {| k_feats := N.land (k_feats a) (k_feats b); k_ver := Some (version a) |}).
    assert (Vu : version u = version a) by reflexivity.
    assert (Cu : canon u = N.land (N.land (k_feats a) (k_feats b)) (valid (version a))) by reflexivity.
    assert (Ca : canon a = N.land (k_feats a) (valid (version a))) by reflexivity.
    assert (Cb : canon b = N.land (k_feats b) (valid (version a))) by (unfold Kind.canon; now rewrite E).
    exists u.
    assert (C : ctor_ok T (N.land (k_feats a) (k_feats b)) (Some (version a)) = true)
      by (apply ctor_ok_land; auto).
    split; [|split; [reflexivity|split; [exact C|]]].
    - unfold inter, construct. rewrite <- E, equalize_same, C. reflexivity.
    - split; [|split].
      + rewrite le_same by congruence. rewrite Cu, Ca. f_equal. apply land_lower_l.
      + rewrite le_same by congruence. rewrite Cu, Cb. f_equal. apply land_lower_r.
      + intros c Ec. rewrite !le_same by congruence. rewrite Cu, Ca, Cb. intros H1 H2.
        injection H1 as H1. injection H2 as H2. f_equal. now apply land_greatest.
  Qed.

  (* le, union and inter look at their operands only through [equalize], and [equalize] does not change when the
     older operand is upgraded first *)
  Lemma equalize_upgraded_l a b a' : (version a <= version b)%N -> upgraded T a (version b) = Some a' ->
    equalize T (k_feats a) (k_feats b) (version a) (version b)
    = equalize T (k_feats a') (k_feats b) (version a') (version b).
  Proof.
    unfold upgraded. intros Hle. destruct (upgrade_to T (k_feats a) (version a) (version b)) as [s|] eqn:U; [|discriminate].
    intros H; inversion H; subst a'; clear H. cbn [k_feats]. rewrite version_explicit, equalize_same.
    unfold equalize. rewrite U, (upgrade_to_ge _ _ _ Hle).
    replace (N.max (version a) (version b)) with (version b) by lia. reflexivity.
  Qed.

  Lemma equalize_upgraded_r a b b' : (version b <= version a)%N -> upgraded T b (version a) = Some b' ->
    equalize T (k_feats a) (k_feats b) (version a) (version b)
    = equalize T (k_feats a) (k_feats b') (version a) (version b').
  Proof.
    unfold upgraded. intros Hle. destruct (upgrade_to T (k_feats b) (version b) (version a)) as [s|] eqn:U; [|discriminate].
    intros H; inversion H; subst b'; clear H. cbn [k_feats]. rewrite version_explicit, equalize_same.
    unfold equalize. rewrite U, (upgrade_to_ge _ _ _ Hle).
    replace (N.max (version a) (version b)) with (version a) by lia. reflexivity.
  Qed.

  Lemma le_cross_version_l a b a' : (version a <= version b)%N ->
    upgraded T a (version b) = Some a' -> le a b = le a' b.
  Proof. intros Hle U. unfold Kind.le. rewrite (equalize_upgraded_l a b a' Hle U). reflexivity. Qed.

  Lemma le_cross_version_r a b b' : (version b <= version a)%N ->
    upgraded T b (version a) = Some b' -> le a b = le a b'.
  Proof. intros Hle U. unfold Kind.le. rewrite (equalize_upgraded_r a b b' Hle U). reflexivity. Qed.

  Lemma union_cross_version_l a b a' : (version a <= version b)%N ->
    upgraded T a (version b) = Some a' -> union T a b = union T a' b.
  Proof. intros Hle U. unfold union. rewrite (equalize_upgraded_l a b a' Hle U). reflexivity. Qed.

  Lemma inter_cross_version_l a b a' : (version a <= version b)%N ->
    upgraded T a (version b) = Some a' -> inter T a b = inter T a' b.
  Proof. intros Hle U. unfold inter. rewrite (equalize_upgraded_l a b a' Hle U). reflexivity. Qed.

  (* invariant kept by the constructor and by every upgrade step: the features exist and are not from the future *)
  Definition inv (s : fset) (v : N) : Prop :=
    forall f, N.testbit s f = true -> In f (t_all T) /\ (added f <= v)%N.

  Hypothesis TOK : tables_ok T = true.

  Lemma range_from_In v n x : In x (range_from v n) <-> (v <= x < v + N.of_nat n)%N.
  Proof.
    revert v. induction n as [|n IH]; intros v; simpl.
    - lia.
    - rewrite IH. lia.
  Qed.

  Lemma tables_ok_step v : (1 <= v < t_latest T)%N ->
    exists u, lookup_upgrade v (t_upgrades T) = Some u /\ forallb (rule_ok T v) (u_rules u) = true.
  Proof.
    intros Hv. unfold tables_ok in TOK. rewrite !andb_true_iff in TOK. destruct TOK as [_ H].
    rewrite forallb_forall in H. specialize (H v).
    destruct (lookup_upgrade v (t_upgrades T)) as [u|].
    - exists u. split; [reflexivity|]. apply H. apply range_from_In. lia.
    - assert (false = true); [|discriminate]. apply H. apply range_from_In. lia.
  Qed.

  Lemma tables_ok_feature f : In f (t_all T) ->
    (1 <= added f <= t_latest T)%N /\ (forall d, deprecated f = Some d -> (added f < d)%N).
  Proof.
    intros Hf. unfold tables_ok in TOK. rewrite !andb_true_iff in TOK. destruct TOK as [[_ H] _].
    rewrite forallb_forall in H. specialize (H f Hf). rewrite !andb_true_iff in H. destruct H as [[H1 H2] H3].
    apply N.leb_le in H1, H2. split; [lia|]. intros d Hd. rewrite Hd in H3. now apply N.ltb_lt.
  Qed.

  Lemma is_valid_succ v f : (added f <= v)%N -> is_valid T (N.succ v) f = true -> is_valid T v f = true.
  Proof.
    unfold is_valid. intros Ha. rewrite !andb_true_iff. intros [_ H]. split; [now apply N.leb_le|].
    destruct (deprecated f) as [d|]; auto.
    rewrite negb_true_iff in *. apply N.leb_gt in H. apply N.leb_gt. lia.
  Qed.

  Lemma fires_mono v u sa sb r : inv sa v ->
    forallb (rule_ok T v) (u_rules u) = true -> In r (u_rules u) ->
    subset (N.land sa (valid v)) (N.land sb (valid v)) = true ->
    fires sa r = true -> fires sb r = true.
  Proof.
    intros Ia RO Hr Sub. unfold fires. rewrite !forallb_forall. intros F g Hg.
    rewrite forallb_forall in RO. specialize (RO r Hr). unfold rule_ok in RO. rewrite andb_true_iff in RO.
    destruct RO as [G _]. rewrite forallb_forall in G. specialize (G g Hg). specialize (F g Hg). unfold mem in *.
    rewrite subset_spec in Sub. specialize (Sub g). rewrite !N.land_spec, F in Sub. simpl in Sub.
    assert (V : N.testbit (valid v) g = true) by (apply valid_spec; split; [apply (Ia g F)|exact G]).
    specialize (Sub V). apply andb_true_iff in Sub. tauto.
  Qed.

  Lemma step_inv v u s : (1 <= v)%N -> inv s v -> forallb (rule_ok T v) (u_rules u) = true ->
    inv (apply_upgrade u s) (N.succ v).
  Proof.
    intros Hv I RO f. rewrite apply_upgrade_spec, andb_true_iff, orb_true_iff. intros [[H|H] _].
    - destruct (I f H). split; [assumption|lia].
    - apply existsb_exists in H. destruct H as [r [Hr H]]. rewrite andb_true_iff, mask_of_spec in H. destruct H as [_ H].
      rewrite forallb_forall in RO. specialize (RO r Hr). unfold rule_ok in RO. rewrite andb_true_iff in RO.
      destruct RO as [_ A]. rewrite forallb_forall in A. specialize (A f H). rewrite andb_true_iff in A.
      destruct A as [A1 A2]. apply N.leb_le in A1. split; [|assumption].
      apply existsb_exists in A2. destruct A2 as [x [Hx E]]. apply N.eqb_eq in E. now subst x.
  Qed.

  Lemma step_mono v u sa sb : inv sa v -> inv sb v ->
    forallb (rule_ok T v) (u_rules u) = true ->
    subset (N.land sa (valid v)) (N.land sb (valid v)) = true ->
    subset (N.land (apply_upgrade u sa) (valid (N.succ v))) (N.land (apply_upgrade u sb) (valid (N.succ v))) = true.
  Proof.
    intros Ia Ib RO Sub. apply subset_spec. intros f.
    rewrite !N.land_spec, !apply_upgrade_spec, !andb_true_iff, !orb_true_iff.
    intros [[[H|H] NR] V]; (split; [split; [|exact NR]|exact V]).
    - left. destruct (Ia f H) as [Hall Hadd].
      apply valid_spec in V. destruct V as [_ V]. apply (is_valid_succ _ _ Hadd) in V.
      pose proof Sub as Sub'. rewrite subset_spec in Sub'. specialize (Sub' f). rewrite !N.land_spec, H in Sub'. simpl in Sub'.
      assert (V' : N.testbit (valid v) f = true) by (apply valid_spec; auto).
      specialize (Sub' V'). apply andb_true_iff in Sub'. tauto.
    - right. apply existsb_exists in H. destruct H as [r [Hr H]]. apply andb_true_iff in H. destruct H as [F A].
      apply existsb_exists. exists r. split; [exact Hr|]. rewrite A, andb_true_r.
      exact (fires_mono v u sa sb r Ia RO Hr Sub F).
  Qed.

  Lemma loop_mono n : forall v sa sb sa', (1 <= v)%N -> (v + N.of_nat n <= t_latest T)%N ->
    inv sa v -> inv sb v ->
    subset (N.land sa (valid v)) (N.land sb (valid v)) = true ->
    upgrade_loop T n sa v = Some sa' ->
    exists sb', upgrade_loop T n sb v = Some sb' /\ inv sa' (v + N.of_nat n) /\ inv sb' (v + N.of_nat n)
      /\ subset (N.land sa' (valid (v + N.of_nat n))) (N.land sb' (valid (v + N.of_nat n))) = true.
  Proof.
    induction n as [|n IH]; intros v sa sb sa' Hv Hl Ia Ib Sub L.
    - simpl in L. inversion L; subst sa'. exists sb. rewrite N.add_0_r. auto.
    - cbn [upgrade_loop] in *. unfold upgrade_step in *.
      destruct (tables_ok_step v) as [u [Lu RO]]; [lia|]. rewrite Lu in *.
      replace (v + N.of_nat (S n))%N with (N.succ v + N.of_nat n)%N by lia.
      apply (IH (N.succ v) (apply_upgrade u sa) (apply_upgrade u sb) sa'); try lia; auto using step_inv, step_mono.
  Qed.

  Lemma loop_defined n : forall v s, (1 <= v)%N -> (v + N.of_nat n <= t_latest T)%N ->
    exists s', upgrade_loop T n s v = Some s'.
  Proof.
    induction n as [|n IH]; intros v s Hv Hl; simpl; [eauto|].
    unfold upgrade_step. destruct (tables_ok_step v) as [u [Lu _]]; [lia|]. rewrite Lu.
    apply IH; lia.
  Qed.

  Lemma wf_inv k : wf k = true -> inv (k_feats k) (version k).
  Proof. intros W f Hf. split; [eapply wf_all; eauto|now apply wf_added_le]. Qed.

  Lemma inv_ctor_ok s v : (0 < v)%N -> inv s v -> ctor_ok T s (Some v) = true.
  Proof.
    intros Hv I. unfold ctor_ok. rewrite !andb_true_iff. repeat split.
    - apply subset_spec. intros i Hi. apply mask_of_spec. apply (I i Hi).
    - now apply N.ltb_lt.
    - apply forallb_forall. intros f Hf. apply elements_spec in Hf. apply N.leb_le. apply (I f Hf).
  Qed.

  (* upgrading two comparable kinds of one version to a later version keeps them comparable *)
  Lemma upgrade_monotone a b w a' : wf a = true -> wf b = true -> version a = version b ->
    (version a <= w <= t_latest T)%N ->
    le a b = Ok true -> upgraded T a w = Some a' ->
    exists b', upgraded T b w = Some b' /\ wf a' = true /\ wf b' = true /\ le a' b' = Ok true.
  Proof.
    intros Wa Wb E Hw L U. rewrite le_same in L by exact E. injection L as L'.
    unfold upgraded, upgrade_to in *. rewrite <- E.
    destruct (upgrade_loop T (N.to_nat (w - version a)) (k_feats a) (version a)) as [sa'|] eqn:La; [|discriminate].
    inversion U; subst a'; clear U.
    pose proof (wf_version_pos _ Wa) as Hp.
    assert (Ew : (version a + N.of_nat (N.to_nat (w - version a)) = w)%N) by lia.
    destruct (loop_mono (N.to_nat (w - version a)) (version a) (k_feats a) (k_feats b) sa') as [sb' [Lb [Ia [Ib S]]]];
      try lia; auto using wf_inv.
    - rewrite E at 1. now apply wf_inv.
    - unfold Kind.canon in L'. rewrite <- E in L'. exact L'.
    - rewrite Ew in *. rewrite Lb. eexists. split; [reflexivity|].
      split; [apply inv_ctor_ok; [lia|exact Ia]|]. split; [apply inv_ctor_ok; [lia|exact Ib]|].
      rewrite le_same by reflexivity. f_equal. exact S.
  Qed.

  (* no KeyError / AssertionError between well-formed kinds of versions <= LATEST *)
  Lemma upgraded_defined a w : wf a = true -> (version a <= w <= t_latest T)%N ->
    exists a', upgraded T a w = Some a' /\ wf a' = true /\ version a' = w.
  Proof.
    intros Wa Hw. pose proof (wf_version_pos _ Wa) as Hp. unfold upgraded, upgrade_to.
    destruct (loop_defined (N.to_nat (w - version a)) (version a) (k_feats a)) as [s' L]; try lia.
    rewrite L. eexists. split; [reflexivity|]. split; [|reflexivity].
    destruct (loop_mono (N.to_nat (w - version a)) (version a) (k_feats a) (k_feats a) s') as [sb' [_ [Ia _]]];
      try lia; auto using wf_inv, subset_refl.
    replace (version a + N.of_nat (N.to_nat (w - version a)))%N with w in Ia by lia.
    apply inv_ctor_ok; [lia|exact Ia].
  Qed.

  Lemma version_le_latest k : wf k = true -> k_ver k = None -> (version k <= t_latest T)%N.
  Proof.
    intros W E. unfold Kind.version. rewrite E.
    destruct (cv_attained (k_feats k)) as [H|[f [Hf Hv]]].
    - rewrite H. unfold tables_ok in TOK. rewrite !andb_true_iff in TOK. destruct TOK as [[G _] _]. now apply N.leb_le.
    - rewrite <- Hv. apply tables_ok_feature. eapply wf_all; eauto.
  Qed.

End Generic.

Section Generic2.
  Variable T : tables.
  Hypothesis TOK : tables_ok T = true.

  (* comparisons between well-formed kinds of versions <= LATEST never raise *)
  Lemma le_defined a b : wf T a = true -> wf T b = true ->
    (version T a <= t_latest T)%N -> (version T b <= t_latest T)%N -> exists r, le T a b = Ok r.
  Proof.
    intros Wa Wb Ha Hb. unfold le, equalize.
    destruct (N.le_ge_cases (version T a) (version T b)) as [H|H].
    - destruct (upgraded_defined T TOK a (version T b) Wa) as [a' [U _]]; [lia|].
      unfold upgraded in U. destruct (upgrade_to T (k_feats a) (version T a) (version T b)); [|discriminate].
      rewrite (upgrade_to_ge T _ _ _ H). eauto.
    - destruct (upgraded_defined T TOK b (version T a) Wb) as [b' [U _]]; [lia|].
      unfold upgraded in U. destruct (upgrade_to T (k_feats b) (version T b) (version T a)); [|discriminate].
      rewrite (upgrade_to_ge T _ _ _ H). eauto.
  Qed.

  (* stripping the invalid features (what __le__ does in place) changes neither the version nor the canonical set *)
  Lemma strip_cv k : wf T k = true -> k_ver k = None ->
    computed_version T (canon T k) = version T k.
  Proof.
    intros W EV.
    assert (VK : version T k = computed_version T (k_feats k)) by (unfold version; now rewrite EV).
    apply N.le_antisymm.
    - rewrite VK. destruct (cv_attained T (canon T k)) as [H|[f [Hf Hv]]].
      + rewrite H. apply cv_ge_1.
      + rewrite <- Hv. apply cv_upper. unfold canon in Hf. rewrite N.land_spec in Hf. apply andb_true_iff in Hf. tauto.
    - destruct (cv_attained T (k_feats k)) as [H|[f [Hf Hv]]].
      + rewrite VK, H. apply cv_ge_1.
      + rewrite VK, <- Hv. apply cv_upper. unfold canon. rewrite N.land_spec, Hf. simpl.
        apply valid_spec. pose proof (wf_all T k f W Hf) as Hall. split; [exact Hall|].
        unfold is_valid. apply andb_true_iff. split.
        * apply N.leb_le. now apply wf_added_le.
        * destruct (tables_ok_feature T TOK f Hall) as [_ D].
          destruct (deprecated T f) as [d|] eqn:ED; [|reflexivity].
          specialize (D d eq_refl). apply negb_true_iff. apply N.leb_gt.
          rewrite VK, <- Hv. exact D.
  Qed.

  Lemma strip_version k : wf T k = true ->
    version T {| k_feats := canon T k; k_ver := k_ver k |} = version T k.
  Proof.
    intros W. unfold version at 1. cbn [k_ver k_feats]. destruct (k_ver k) as [v|] eqn:EV.
    - unfold version. now rewrite EV.
    - now apply strip_cv.
  Qed.

  Lemma strip_canon k : wf T k = true ->
    canon T {| k_feats := canon T k; k_ver := k_ver k |} = canon T k.
  Proof.
    intros W. unfold canon at 1. rewrite (strip_version k W). cbn [k_feats]. unfold canon.
    rewrite <- N.land_assoc, N.land_diag. reflexivity.
  Qed.

  Lemma le_mut_harmless a b r fa' fb' : wf T a = true -> wf T b = true ->
    le_mut T a b = Ok (r, fa', fb') ->
    le T a b = Ok r
    /\ keq T {| k_feats := fa'; k_ver := k_ver a |} a = true
    /\ keq T {| k_feats := fb'; k_ver := k_ver b |} b = true
    /\ forall h, khash T h {| k_feats := fa'; k_ver := k_ver a |} = khash T h a
              /\ khash T h {| k_feats := fb'; k_ver := k_ver b |} = khash T h b.
  Proof.
    intros Wa Wb. unfold le_mut, le, equalize.
    destruct (upgrade_to T (k_feats a) (version T a) (version T b)) as [sa|] eqn:Ua; [|discriminate].
    destruct (upgrade_to T (k_feats b) (version T b) (version T a)) as [sb|] eqn:Ub; [|discriminate].
    intros H. injection H as Hr Ha Hb.
    assert (KA : keq T {| k_feats := fa'; k_ver := k_ver a |} a = true).
    { destruct (N.ltb_spec (version T a) (version T b)) as [L|L].
      - subst fa'. destruct a; apply keq_spec; auto.
      - rewrite (upgrade_to_ge T _ _ _ L) in Ua. injection Ua as <-.
        replace (N.max (version T a) (version T b)) with (version T a) in Ha by lia.
        subst fa'. apply keq_spec. split; [apply (strip_version a Wa)|apply (strip_canon a Wa)]. }
    assert (KB : keq T {| k_feats := fb'; k_ver := k_ver b |} b = true).
    { destruct (N.ltb_spec (version T b) (version T a)) as [L|L].
      - subst fb'. destruct b; apply keq_spec; auto.
      - rewrite (upgrade_to_ge T _ _ _ L) in Ub. injection Ub as <-.
        replace (N.max (version T a) (version T b)) with (version T b) in Hb by lia.
        subst fb'. apply keq_spec. split; [apply (strip_version b Wb)|apply (strip_canon b Wb)]. }
    split; [now rewrite Hr|]. split; [exact KA|]. split; [exact KB|].
    intros h. split; now apply keq_hash.
  Qed.
End Generic2.


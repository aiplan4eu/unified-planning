(* C27: proofs about deordering.  Evaluation and a step depend only on the read set, a step changes only the write set;
   hence adjacent independent steps commute, a permutation that keeps the order of conflicting instances is reached by
   such swaps, and the graph built by the loop keeps that order. *)
From Coq Require Import List ZArith NArith QArith Qcanon Bool Lia Relations Permutation.
Import ListNotations.
Require Import UPV.Core.Expr UPV.Core.Eval UPV.Core.Interp UPV.Planning.Problem UPV.Planning.Sem UPV.Planning.Deorder.
Require Import UPV.Proofs.ListFacts UPV.Proofs.ExprView UPV.Proofs.Eval_lemmas UPV.Proofs.Sem_proofs UPV.Proofs.Step_proofs.

Lemma instances_set_fl s vs : forall I, instances (set_fl I s) vs = map (fun J => set_fl J s) (instances I vs).
Proof.
  induction vs as [|[v t] vs IH]; intros I; simpl; [reflexivity|].
  induction (objs I t) as [|o os IHo]; simpl; [reflexivity|].
  rewrite map_app, <- IHo. f_equal. apply (IH (bind_var I v o)).
Qed.

Lemma flat_map_map {A B C} (f : B -> list C) (g : A -> B) l : flat_map f (map g l) = flat_map (fun x => f (g x)) l.
Proof. apply ListFacts.flat_map_map. Qed.

(* the walkers of Planning/Deorder.v on the five shapes of an expression *)
Lemma has_fluent_E1 o a I : has_fluent (E1 o a) I = has_fluent a I. Proof. destruct o; reflexivity. Qed.
Lemma has_fluent_E2 o a b I : has_fluent (E2 o a b) I = has_fluent a I || has_fluent b I. Proof. destruct o; reflexivity. Qed.
Lemma has_fluent_En o l I :
  has_fluent (En o l) I = match o with NFluent _ => true | _ => existsb (fun x => has_fluent x I) l end.
Proof. destruct o; reflexivity. Qed.
Lemma has_fluent_EQ ex vs a I : has_fluent (EQ ex vs a) I = existsb (fun J => has_fluent a J) (instances I vs).
Proof. destruct ex; reflexivity. Qed.

Lemma nf_E1 o a I : nf (E1 o a) I = nf a I. Proof. destruct o; reflexivity. Qed.
Lemma nf_E2 o a b I : nf (E2 o a b) I = nf a I && nf b I. Proof. destruct o; reflexivity. Qed.
Lemma nf_En o l I :
  nf (En o l) I = match o with NFluent _ => forallb (fun a => negb (has_fluent a I)) l | _ => forallb (fun x => nf x I) l end.
Proof. destruct o; reflexivity. Qed.
Lemma nf_EQ ex vs a I : nf (EQ ex vs a) I = forallb (fun J => nf a J) (instances I vs).
Proof. destruct ex; reflexivity. Qed.

(* has_fluent and nf never look at the state *)
Lemma has_fluent_set_fl s e : forall I, has_fluent e (set_fl I s) = has_fluent e I.
Proof.
  induction e using expr_view_ind; intros I.
  - destruct e; try discriminate; reflexivity.
  - rewrite !has_fluent_E1. apply IHe.
  - rewrite !has_fluent_E2, IHe1, IHe2. reflexivity.
  - rewrite !has_fluent_En. rewrite Forall_forall in H.
    assert (E : existsb (fun x => has_fluent x (set_fl I s)) l = existsb (fun x => has_fluent x I) l)
      by (apply existsb_ext_in; intros x Hx; apply (H x Hx)).
    destruct o; [reflexivity | exact E..].
  - rewrite !has_fluent_EQ, instances_set_fl, existsb_map. apply existsb_ext_in. intros J _. apply IHe.
Qed.

Lemma nf_set_fl s e : forall I, nf e (set_fl I s) = nf e I.
Proof.
  induction e using expr_view_ind; intros I.
  - destruct e; try discriminate; reflexivity.
  - rewrite !nf_E1. apply IHe.
  - rewrite !nf_E2, IHe1, IHe2. reflexivity.
  - rewrite !nf_En. rewrite Forall_forall in H.
    assert (E : forallb (fun x => nf x (set_fl I s)) l = forallb (fun x => nf x I) l)
      by (apply forallb_ext_in; intros x Hx; apply (H x Hx)).
    destruct o; [|exact E..]. apply forallb_ext_in. intros x _. rewrite has_fluent_set_fl. reflexivity.
  - rewrite !nf_EQ, instances_set_fl, forallb_map. apply forallb_ext_in. intros J _. apply IHe.
Qed.

Section Frame.
  Variable sc : bool.

  Lemma reads_E1 o a I : reads sc (E1 o a) I = reads sc a I. Proof. destruct o; reflexivity. Qed.
  Lemma reads_E2 o a b I : reads sc (E2 o a b) I = reads sc a I ++ reads sc b I. Proof. destruct o; reflexivity. Qed.
  Lemma reads_En o l I :
    reads sc (En o l) I =
    match o with NFluent f => match evals sc I l with Some vs => [(f, vs)] | None => [] end | _ => [] end
    ++ flat_map (fun a => reads sc a I) l.
  Proof. destruct o; reflexivity. Qed.
  Lemma reads_EQ ex vs a I : reads sc (EQ ex vs a) I = flat_map (fun J => reads sc a J) (instances I vs).
  Proof. destruct ex; reflexivity. Qed.

  (* an expression without fluent occurrences evaluates independently of the state *)
  Lemma eval_no_fluent s s' e : forall I, has_fluent e I = false -> eval sc e (set_fl I s) = eval sc e (set_fl I s').
  Proof.
    induction e using expr_view_ind; intros I HF.
    - apply eval_leaf_ext; [exact H | reflexivity | reflexivity].
    - rewrite has_fluent_E1 in HF. apply eval_E1_ext, IHe, HF.
    - rewrite has_fluent_E2 in HF. apply orb_false_iff in HF. destruct HF as [H1 H2].
      apply eval_E2_ext; [apply IHe1, H1 | apply IHe2, H2].
    - rewrite has_fluent_En in HF. apply eval_En_ext.
      + assert (HE : existsb (fun x => has_fluent x I) l = false) by (destruct o; [discriminate | exact HF..]).
        rewrite Forall_forall in *. intros x Hx. apply (H x Hx), (existsb_false_in _ _ HE x Hx).
      + intros f vs -> _. discriminate HF.
      + reflexivity.
    - rewrite has_fluent_EQ in HF. apply eval_EQ_ext. rewrite !instances_set_fl, !map_map. apply map_ext_in.
      intros J HJ. rewrite (IHe J (existsb_false_in _ _ HF J HJ)). reflexivity.
  Qed.
End Frame.

Definition agree_on (l : list gfl) (s s' : state) : Prop := forall f vs, In (f, vs) l -> s f vs = s' f vs.

Lemma agree_on_app l1 l2 s s' : agree_on (l1 ++ l2) s s' <-> agree_on l1 s s' /\ agree_on l2 s s'.
Proof.
  split.
  - intros H; split; intros f vs Hi; apply H, in_or_app; auto.
  - intros [H1 H2] f vs Hi. apply in_app_or in Hi. destruct Hi; auto.
Qed.
Lemma agree_on_incl l1 l2 s s' : incl l1 l2 -> agree_on l2 s s' -> agree_on l1 s s'.
Proof. intros Hi H f vs Hx. apply H, Hi, Hx. Qed.
Lemma agree_on_flat_map {A} (g : A -> list gfl) l s s' x : agree_on (flat_map g l) s s' -> In x l -> agree_on (g x) s s'.
Proof. intros H Hx f vs Hi. apply H, in_flat_map. eauto. Qed.
Lemma agree_on_sym l s s' : agree_on l s s' -> agree_on l s' s.
Proof. intros H f vs Hi. symmetry. apply H, Hi. Qed.

Lemma set_fl_id I : set_fl I (fl I) = I.
Proof. destruct I; reflexivity. Qed.

Section Frame2.
  Variable sc : bool.

  Lemma evals_no_fluent s I args :
    forallb (fun a => negb (has_fluent a I)) args = true -> evals sc (set_fl I s) args = evals sc I args.
  Proof.
    intros H. rewrite <- (set_fl_id I) at 2. apply evals_ext, Forall_forall. intros x Hx.
    apply eval_no_fluent. rewrite forallb_forall in H. specialize (H x Hx). destruct (has_fluent x I); [discriminate|reflexivity].
  Qed.

  (* frame lemma: evaluation depends only on the ground fluents in the read set *)
  Lemma eval_frame s s' e : forall I, nf e I = true -> agree_on (reads sc e I) s s' ->
    eval sc e (set_fl I s) = eval sc e (set_fl I s').
  Proof.
    induction e using expr_view_ind; intros I HN HA.
    - apply eval_leaf_ext; [exact H | reflexivity | reflexivity].
    - rewrite nf_E1 in HN. rewrite reads_E1 in HA. apply eval_E1_ext, (IHe I HN HA).
    - rewrite nf_E2 in HN. rewrite reads_E2 in HA. apply andb_true_iff in HN. destruct HN as [N1 N2].
      apply agree_on_app in HA. destruct HA as [A1 A2]. apply eval_E2_ext; [exact (IHe1 I N1 A1) | exact (IHe2 I N2 A2)].
    - rewrite nf_En in HN. rewrite reads_En in HA. apply agree_on_app in HA. destruct HA as [A1 A2]. apply eval_En_ext.
      + rewrite Forall_forall in *. intros x Hx. destruct o as [f|f| | | |];
          [ apply eval_no_fluent, negb_true_iff, (proj1 (forallb_forall _ _) HN x Hx)
          | exact (H x Hx I (proj1 (forallb_forall _ _) HN x Hx) (agree_on_flat_map (fun y => reads sc y I) _ _ _ x A2 Hx)).. ].
      + (* a fluent whose arguments contain no fluent: the ground fluent read is in the read set *)
        intros f vs -> E. rewrite (evals_no_fluent _ I l HN) in E. rewrite E in A1. apply A1. left. reflexivity.
      + reflexivity.
    - rewrite nf_EQ in HN. rewrite reads_EQ in HA. apply eval_EQ_ext. rewrite !instances_set_fl, !map_map. apply map_ext_in.
      intros J HJ. rewrite (IHe J (proj1 (forallb_forall _ _) HN J HJ) (agree_on_flat_map (fun K => reads sc e K) _ _ _ J HA HJ)).
      reflexivity.
  Qed.
End Frame2.

Section StepFrame.
  Variable sc : bool.
  Variable P : problem.

  Definition step_core (s : state) (a : action) (args : list value) : option (list aeff) :=
    let I := mk_interp P s (zip_params (a_params a) args) in
    if negb (all_hold sc I (a_pre a)) then None
    else match fired sc I (a_effs a) with
         | None => None
         | Some acts => if negb (spec_effects_ok P s acts) then None else Some acts
         end.

  Lemma spec_step_core s a args :
    spec_step sc P s a args =
    match step_core s a args with
    | Some acts => let s' := spec_succ P s acts in if invariants_ok sc P s' then Some s' else None
    | None => None
    end.
  Proof.
    unfold spec_step, step_core.
    destruct (negb (all_hold sc (mk_interp P s (zip_params (a_params a) args)) (a_pre a))); [reflexivity|].
    destruct (fired sc (mk_interp P s (zip_params (a_params a) args)) (a_effs a)) as [acts|]; [|reflexivity].
    destruct (negb (spec_effects_ok P s acts)); reflexivity.
  Qed.

  Lemma spec_step_core_inv s a args s1 : spec_step sc P s a args = Some s1 ->
    exists acts, step_core s a args = Some acts /\ s1 = spec_succ P s acts /\ invariants_ok sc P s1 = true.
  Proof.
    rewrite spec_step_core. destruct (step_core s a args) as [acts|]; [|discriminate]. cbv zeta.
    destruct (invariants_ok sc P (spec_succ P s acts)) eqn:IO; [|discriminate]. intros H. inversion H; subst s1.
    exists acts. split; [reflexivity|]. split; [reflexivity | exact IO].
  Qed.

  Lemma spec_step_core_intro s a args acts : step_core s a args = Some acts ->
    invariants_ok sc P (spec_succ P s acts) = true -> spec_step sc P s a args = Some (spec_succ P s acts).
  Proof. intros C IO. rewrite spec_step_core, C. cbv zeta. rewrite IO. reflexivity. Qed.

  Lemma mk_interp_set_fl s a args : mk_interp P s (zip_params (a_params a) args) = set_fl (inst_interp P a args) s.
  Proof. reflexivity. Qed.

  Lemma all_hold_frame s s' I0 cs :
    forallb (fun c => nf c I0) cs = true -> agree_on (flat_map (fun c => reads sc c I0) cs) s s' ->
    all_hold sc (set_fl I0 s) cs = all_hold sc (set_fl I0 s') cs.
  Proof.
    intros HN HA. unfold all_hold. apply forallb_ext_in. intros c Hc. unfold holds.
    rewrite (eval_frame sc s s' c I0); [reflexivity | apply (proj1 (forallb_forall _ _) HN c Hc) |].
    apply (agree_on_flat_map (fun c => reads sc c I0) _ _ _ c HA Hc).
  Qed.

  Lemma eff_args_no_fluent e J : eff_nf e J = true -> forallb (fun a => negb (has_fluent a J)) (e_args e) = true.
  Proof. unfold eff_nf. rewrite !andb_true_iff. intros [[_ H] _]. exact H. Qed.

  Lemma eval_effect_frame s s' e J : eff_nf e J = true -> agree_on (eff_reads sc e J) s s' ->
    eval_effect sc (set_fl J s) e = eval_effect sc (set_fl J s') e.
  Proof.
    intros HN HA. pose proof (eff_args_no_fluent e J HN) as HF.
    unfold eff_nf in HN. rewrite !andb_true_iff in HN. destruct HN as [[N1 N2] N3].
    unfold eff_reads in HA. apply agree_on_app in HA. destruct HA as [A1 HA]. apply agree_on_app in HA. destruct HA as [A2 A3].
    unfold eval_effect. rewrite !evals_l_evals, !(evals_no_fluent sc _ J _ HF).
    rewrite (eval_frame sc s s' (e_cond e) J N1 A1), (eval_frame sc s s' (e_val e) J N3 A3). reflexivity.
  Qed.

  Definition effs_nf (I0 : interp) (effs : list effect) : bool :=
    forallb (fun e => forallb (eff_nf e) (instances I0 (e_vars e))) effs.
  Definition effs_reads (I0 : interp) (effs : list effect) : list gfl :=
    flat_map (fun e => flat_map (eff_reads sc e) (instances I0 (e_vars e))) effs.
  Definition effs_writes (I0 : interp) (effs : list effect) : list gfl :=
    flat_map (fun e => flat_map (eff_writes sc e) (instances I0 (e_vars e))) effs.

  Lemma fired_frame s s' I0 effs : effs_nf I0 effs = true -> agree_on (effs_reads I0 effs) s s' ->
    fired sc (set_fl I0 s) effs = fired sc (set_fl I0 s') effs.
  Proof.
    intros HN HA. unfold fired. f_equal. apply flat_map_ext_in. intros e He.
    rewrite !instances_set_fl, !map_map. apply map_ext_in. intros J HJ.
    apply eval_effect_frame.
    - apply (proj1 (forallb_forall _ _) (proj1 (forallb_forall _ _) HN e He) J HJ).
    - apply (agree_on_flat_map (eff_reads sc e) _ _ _ J (agree_on_flat_map _ _ _ _ e HA He) HJ).
  Qed.

  Lemma fired_keys s I0 effs acts : effs_nf I0 effs = true -> fired sc (set_fl I0 s) effs = Some acts ->
    forall a, In a acts -> In (ae_key a) (effs_writes I0 effs).
  Proof.
    intros HN HF a Ha. unfold fired in HF. pose proof (collect_res_In _ _ _ HF Ha) as Hi.
    apply in_flat_map in Hi. destruct Hi as [e [He Hi]]. rewrite instances_set_fl, map_map in Hi.
    apply in_map_iff in Hi. destruct Hi as [J [EJ HJ]].
    pose proof (proj1 (forallb_forall _ _) (proj1 (forallb_forall _ _) HN e He) J HJ) as NJ.
    pose proof (eff_args_no_fluent e J NJ) as HFl.
    unfold eval_effect in EJ. rewrite evals_l_evals, (evals_no_fluent sc _ J _ HFl) in EJ.
    destruct (evals sc J (e_args e)) as [vs|] eqn:EV; [|discriminate].
    assert (K : ae_key a = (e_fl e, vs)).
    { destruct (eval sc (e_cond e) (set_fl J s)) as [[[|]| |]|]; try discriminate.
      destruct (eval sc (e_val e) (set_fl J s)); [|discriminate]. inversion EJ; subst; reflexivity. }
    rewrite K. apply in_flat_map. exists e. split; [exact He|]. apply in_flat_map. exists J. split; [exact HJ|].
    unfold eff_writes. rewrite evals_l_evals, EV. left. reflexivity.
  Qed.

  Lemma eff_writes_incl e J : incl (eff_writes sc e J) (eff_reads sc e J).
  Proof.
    intros k Hk. unfold eff_reads, eff_target. cbn [reads]. apply in_or_app. right. apply in_or_app. left.
    apply in_or_app. left. exact Hk.
  Qed.

  Lemma effs_writes_incl I0 effs : incl (effs_writes I0 effs) (effs_reads I0 effs).
  Proof.
    intros k Hk. apply in_flat_map in Hk. destruct Hk as [e [He Hk]]. apply in_flat_map in Hk. destruct Hk as [J [HJ Hk]].
    apply in_flat_map. exists e. split; [exact He|]. apply in_flat_map. exists J. split; [exact HJ|].
    apply eff_writes_incl, Hk.
  Qed.

  Lemma act_writes_incl a args : incl (act_writes sc P a args) (act_reads sc P a args).
  Proof. intros k Hk. unfold act_reads. apply in_or_app. right. apply effs_writes_incl, Hk. Qed.

  Lemma inst_writes_incl x : incl (inst_writes sc P x) (inst_reads sc P x).
  Proof.
    unfold inst_writes, inst_reads. destruct (lookup_action P (fst x)); [apply act_writes_incl | intros k []].
  Qed.

  Lemma spec_succ_notin s acts f vs : (forall a, In a acts -> ae_key a <> (f, vs)) -> spec_succ P s acts f vs = s f vs.
  Proof.
    intros H. unfold spec_succ, spec_fluent, avals, deltas.
    rewrite !filter_nil; [reflexivity | |]; intros a Ha;
      (destruct (gfl_eqb (ae_key a) (f, vs)) eqn:E; [apply gfl_eqb_eq in E; exfalso; exact (H a Ha E) | reflexivity]).
  Qed.

  Lemma act_nf_split a args : act_nf P a args = true ->
    forallb (fun c => nf c (inst_interp P a args)) (a_pre a) = true /\ effs_nf (inst_interp P a args) (a_effs a) = true.
  Proof. unfold act_nf. rewrite andb_true_iff. auto. Qed.

  (* a step reads only its read set ... *)
  Lemma step_core_frame s s' a args : act_nf P a args = true -> agree_on (act_reads sc P a args) s s' ->
    step_core s a args = step_core s' a args.
  Proof.
    intros HN HA. destruct (act_nf_split a args HN) as [N1 N2].
    unfold act_reads in HA. apply agree_on_app in HA. destruct HA as [A1 A2].
    unfold step_core. rewrite !mk_interp_set_fl.
    rewrite (all_hold_frame s s' _ _ N1 A1), (fired_frame s s' _ _ N2 A2).
    destruct (negb (all_hold sc (set_fl (inst_interp P a args) s') (a_pre a))); [reflexivity|].
    destruct (fired sc (set_fl (inst_interp P a args) s') (a_effs a)) as [acts|] eqn:EF; [|reflexivity].
    rewrite (spec_effects_ok_congr P s s' acts); [reflexivity|].
    intros x Hx. pose proof (fired_keys s' _ _ _ N2 EF x Hx) as Hk.
    apply effs_writes_incl in Hk. destruct (ae_key x) as [f vs]. apply A2, Hk.
  Qed.

  (* ... and modifies only its write set *)
  Lemma step_core_keys s a args acts : act_nf P a args = true -> step_core s a args = Some acts ->
    forall x, In x acts -> In (ae_key x) (act_writes sc P a args).
  Proof.
    intros HN HS x Hx. destruct (act_nf_split a args HN) as [_ N2]. unfold step_core in HS.
    destruct (negb (all_hold sc (mk_interp P s (zip_params (a_params a) args)) (a_pre a))); [discriminate|].
    rewrite mk_interp_set_fl in HS.
    destruct (fired sc (set_fl (inst_interp P a args) s) (a_effs a)) as [acts'|] eqn:EF; [|discriminate].
    destruct (negb (spec_effects_ok P s acts')); [discriminate|]. inversion HS; subst.
    apply (fired_keys s _ _ _ N2 EF x Hx).
  Qed.

  Lemma spec_succ_outside s a args acts : act_nf P a args = true -> step_core s a args = Some acts ->
    forall f vs, ~ In (f, vs) (act_writes sc P a args) -> spec_succ P s acts f vs = s f vs.
  Proof.
    intros HN HS f vs Hni. apply spec_succ_notin. intros x Hx E. apply Hni. rewrite <- E.
    apply (step_core_keys s a args acts HN HS x Hx).
  Qed.

  (* a step that writes nothing another step reads leaves the core of the other as it was *)
  Lemma step_core_after s a argsA actsA b argsB : act_nf P a argsA = true -> act_nf P b argsB = true ->
    step_core s a argsA = Some actsA -> (forall k, In k (act_writes sc P a argsA) -> ~ In k (act_reads sc P b argsB)) ->
    step_core (spec_succ P s actsA) b argsB = step_core s b argsB.
  Proof.
    intros NA NB CA D. symmetry. apply (step_core_frame s _ b argsB NB). intros f vs Hi. symmetry.
    apply (spec_succ_outside s a argsA actsA NA CA). intros Hw. exact (D _ Hw Hi).
  Qed.
End StepFrame.

Definition disjoint (a b : list gfl) : Prop := forall k, In k a -> ~ In k b.

Lemma gmem_In k l : gmem k l = true <-> In k l.
Proof. exact (existsb_eqb_In gfl_eqb gfl_eqb_eq k l). Qed.

Lemma intersects_false a b : intersects a b = false -> disjoint a b.
Proof.
  intros H k Ha Hb. unfold intersects in H.
  assert (existsb (fun k0 => gmem k0 b) a = true) by (apply existsb_exists; exists k; split; [exact Ha | apply gmem_In, Hb]).
  congruence.
Qed.

Lemma intersects_true a b : intersects a b = true -> exists k, In k a /\ In k b.
Proof.
  unfold intersects. rewrite existsb_exists. intros [k [Ha Hb]]. exists k. split; [exact Ha | apply gmem_In, Hb].
Qed.

Section Commute.
  Variable sc : bool.
  Variable P : problem.

  Let Iinv := mk_interp P empty_state [].

  Lemma single_key_all k r : single_key (k :: r) = true -> forall k', In k' (k :: r) -> k' = k.
  Proof.
    simpl. intros H k' [<-|Hi]; [reflexivity|]. rewrite forallb_forall in H. specialize (H k' Hi).
    apply gfl_eqb_eq in H. congruence.
  Qed.

  Lemma single_key_agree l (s t u : state) : single_key l = true ->
    (forall f vs, u f vs = s f vs \/ u f vs = t f vs) -> agree_on l u s \/ agree_on l u t.
  Proof.
    intros HK HP. destruct l as [|[f vs] r]; [left; intros ? ? []|].
    assert (K : forall s', u f vs = s' f vs -> agree_on ((f, vs) :: r) u s').
    { intros s' E f' vs' Hi. pose proof (single_key_all _ _ HK _ Hi) as EQ. inversion EQ; subst. exact E. }
    destruct (HP f vs) as [E|E]; [left | right]; exact (K _ E).
  Qed.

  (* with single-fluent invariants: a state that coincides, fluent by fluent, with one of two invariant-satisfying
     states satisfies the invariants *)
  Lemma inv_ok_pointwise s t u :
    inv_local sc P = true ->
    (forall f vs, u f vs = s f vs \/ u f vs = t f vs) ->
    invariants_ok sc P s = true -> invariants_ok sc P t = true -> invariants_ok sc P u = true.
  Proof.
    intros HL HP Hs Ht. unfold invariants_ok, all_hold in *. apply forallb_forall. intros e He.
    unfold inv_local in HL. rewrite forallb_forall in HL. specialize (HL e He). fold Iinv in HL.
    apply andb_true_iff in HL. destruct HL as [HN HK].
    rewrite forallb_forall in Hs, Ht. specialize (Hs e He). specialize (Ht e He).
    change (mk_interp P u []) with (set_fl Iinv u).
    change (mk_interp P s []) with (set_fl Iinv s) in Hs. change (mk_interp P t []) with (set_fl Iinv t) in Ht.
    unfold holds in *.
    destruct (single_key_agree _ s t u HK HP) as [A|A].
    - rewrite (eval_frame sc u s e Iinv HN A). exact Hs.
    - rewrite (eval_frame sc u t e Iinv HN A). exact Ht.
  Qed.

  Definition key_in (k : gfl) (acts : list aeff) : bool := existsb (fun x => gfl_eqb (ae_key x) k) acts.

  Lemma key_in_true k acts : key_in k acts = true -> exists x, In x acts /\ ae_key x = k.
  Proof. unfold key_in. rewrite existsb_exists. intros [x [Hx E]]. apply gfl_eqb_eq in E. eauto. Qed.
  Lemma key_in_false k acts : key_in k acts = false -> forall x, In x acts -> ae_key x <> k.
  Proof.
    intros H x Hx E. assert (key_in k acts = true); [|congruence].
    unfold key_in. apply existsb_exists. exists x. split; [exact Hx | rewrite E; apply gfl_eqb_refl].
  Qed.

  (* effect instances on disjoint sets of ground fluents can be applied in either order *)
  Lemma spec_succ_comm s A B : (forall x y, In x A -> In y B -> ae_key x <> ae_key y) ->
    state_eq (spec_succ P (spec_succ P s B) A) (spec_succ P (spec_succ P s A) B).
  Proof.
    intros D f vs. destruct (key_in (f, vs) A) eqn:EK.
    - destruct (key_in_true _ _ EK) as [x [Hx Ex]].
      assert (HnB : forall y, In y B -> ae_key y <> (f, vs)) by (intros y Hy Ey; apply (D x y Hx Hy); congruence).
      rewrite (spec_succ_congr P (spec_succ P s B) s A f vs (spec_succ_notin P s B f vs HnB)).
      rewrite (spec_succ_notin P (spec_succ P s A) B f vs HnB). reflexivity.
    - pose proof (key_in_false _ _ EK) as HnA.
      rewrite (spec_succ_notin P (spec_succ P s B) A f vs HnA).
      rewrite (spec_succ_congr P (spec_succ P s A) s B f vs (spec_succ_notin P s A f vs HnA)). reflexivity.
  Qed.

  Lemma commute_steps s s1 s2 a argsA b argsB :
    act_nf P a argsA = true -> act_nf P b argsB = true ->
    disjoint (act_writes sc P a argsA) (act_reads sc P b argsB) ->
    disjoint (act_writes sc P b argsB) (act_reads sc P a argsA) ->
    inv_local sc P = true -> invariants_ok sc P s = true ->
    spec_step sc P s a argsA = Some s1 -> spec_step sc P s1 b argsB = Some s2 ->
    exists s1' s2', spec_step sc P s b argsB = Some s1' /\ spec_step sc P s1' a argsA = Some s2' /\ state_eq s2' s2.
  Proof.
    intros NA NB D1 D2 HL HI SA SB.
    destruct (spec_step_core_inv sc P s a argsA s1 SA) as (actsA & CA & -> & I1).
    destruct (spec_step_core_inv sc P _ b argsB s2 SB) as (actsB & CB & -> & I2).
    rewrite (step_core_after sc P s a argsA actsA b argsB NA NB CA D1) in CB.
    pose proof CA as CA'. rewrite <- (step_core_after sc P s b argsB actsB a argsA NB NA CB D2) in CA'.
    set (s1 := spec_succ P s actsA) in *. set (s1' := spec_succ P s actsB) in *.
    pose proof (spec_succ_outside sc P s a argsA actsA NA CA) as OA.
    assert (KA : forall x, In x actsA -> In (ae_key x) (act_writes sc P a argsA)) by (apply (step_core_keys sc P s a argsA actsA NA CA)).
    assert (KB : forall x, In x actsB -> In (ae_key x) (act_writes sc P b argsB)) by (apply (step_core_keys sc P s b argsB actsB NB CB)).
    assert (WAB : forall k, In k (act_writes sc P a argsA) -> ~ In k (act_writes sc P b argsB)).
    { intros k Ha Hb. apply (D1 k Ha). apply act_writes_incl, Hb. }
    assert (FIN : state_eq (spec_succ P s1' actsA) (spec_succ P s1 actsB)).
    { apply spec_succ_comm. intros x y Hx Hy E. apply (WAB _ (KA x Hx)). rewrite E. exact (KB y Hy). }
    (* invariants in the intermediate state *)
    assert (I1' : invariants_ok sc P s1' = true).
    { apply (inv_ok_pointwise s (spec_succ P s1 actsB) s1' HL); [|exact HI|exact I2].
      intros f vs. destruct (key_in (f, vs) actsB) eqn:EK.
      - right. destruct (key_in_true _ _ EK) as [x [Hx Ex]]. pose proof (KB x Hx) as Hw. rewrite Ex in Hw.
        assert (HnA : ~ In (f, vs) (act_writes sc P a argsA)) by (intros Ha; exact (WAB _ Ha Hw)).
        unfold s1'. symmetry. apply spec_succ_congr. apply OA, HnA.
      - left. apply (spec_succ_notin P s actsB f vs (key_in_false _ _ EK)). }
    exists s1', (spec_succ P s1' actsA). split; [|split].
    - exact (spec_step_core_intro sc P s b argsB actsB CB I1').
    - apply spec_step_core_intro; [exact CA'|]. rewrite (invariants_ok_ext sc P _ _ FIN). exact I2.
    - exact FIN.
  Qed.
End Commute.

Lemma before_cons w r x z : before r x z -> before (w :: r) x z.
Proof. intros (a & b & c & ->). exists (w :: a), b, c. reflexivity. Qed.
Lemma before_head x r z : In z r -> before (x :: r) x z.
Proof. intros H. apply in_split in H. destruct H as (b & c & ->). exists [], b, c. reflexivity. Qed.
Lemma before_inv w r x z : before (w :: r) x z -> (w = x /\ In z r) \/ before r x z.
Proof.
  intros (a & b & c & E). destruct a as [|w' a]; simpl in E; inversion E; subst.
  - left. split; [reflexivity|]. apply in_or_app. right. left. reflexivity.
  - right. exists a, b, c. reflexivity.
Qed.
Lemma before_in l x z : before l x z -> In x l /\ In z l.
Proof.
  intros (a & b & c & ->). split; apply in_or_app; right; [left; reflexivity|].
  right. apply in_or_app. right. left. reflexivity.
Qed.
Lemma before_nil x z : ~ before [] x z.
Proof. intros (a & b & c & E). destruct a; discriminate. Qed.

Lemma before_head_absurd y r x : NoDup (y :: r) -> before (y :: r) x y -> False.
Proof.
  intros ND H. inversion ND as [|? ? Hn ND']; subst. apply before_inv in H. destruct H as [[_ Hi]|H]; [exact (Hn Hi)|].
  apply before_in in H. exact (Hn (proj2 H)).
Qed.
Lemma before_tail w r x z : before (w :: r) x z -> x <> w -> before r x z.
Proof. intros H Hn. apply before_inv in H. destruct H as [[E _]|H]; [congruence | exact H]. Qed.
Lemma before_insert l1 y l2 x z : before (l1 ++ l2) x z -> before (l1 ++ y :: l2) x z.
Proof.
  induction l1 as [|w l1 IH]; simpl; intros H; [apply before_cons, H|].
  apply before_inv in H. destruct H as [[-> Hi]|H].
  - apply before_head. apply in_or_app. apply in_app_or in Hi. destruct Hi; [left; assumption | right; right; assumption].
  - apply before_cons, IH, H.
Qed.
Lemma before_split l1 y l2 x : In x l1 -> before (l1 ++ y :: l2) x y.
Proof. intros H. apply in_split in H. destruct H as (a & b & ->). exists a, b, l2. rewrite <- app_assoc. reflexivity. Qed.

Lemma before_trans l x y z : NoDup l -> before l x y -> before l y z -> before l x z.
Proof.
  induction l as [|w r IH]; intros ND H1 H2; [destruct (before_nil _ _ H1)|].
  inversion ND as [|? ? Hn ND']; subst.
  apply before_inv in H1. apply before_inv in H2.
  destruct H1 as [[-> Hy]|H1], H2 as [[E Hz]|H2].
  - subst. contradiction.
  - apply before_head. exact (proj2 (before_in _ _ _ H2)).
  - subst. exfalso. exact (Hn (proj2 (before_in _ _ _ H1))).
  - apply before_cons, IH; assumption.
Qed.

Lemma reach_sub G G' : (forall x y, In (x, y) G -> reach G' x y) -> forall x y, reach G x y -> reach G' x y.
Proof.
  intros H x y R. induction R as [x y E | x y z _ IH1 _ IH2]; [apply H, E | eapply t_trans; eauto].
Qed.

Lemma topo_respects_reach G pl' : NoDup pl' -> (forall x y, In (x, y) G -> before pl' x y) ->
  forall x y, reach G x y -> before pl' x y.
Proof.
  intros ND H x y R. induction R as [x y E | x y z _ IH1 _ IH2]; [apply H, E | eapply before_trans; eauto].
Qed.

Section Runs.
  Variable sc : bool.
  Variable P : problem.

  Definition runp (s : state) (pl : list inst) : option state := run P (spec_step sc P) s pl.

  Lemma runp_ext_some (pl : list inst) s t fin : state_eq s t -> runp t pl = Some fin -> exists fin', runp s pl = Some fin' /\ state_eq fin' fin.
  Proof.
    intros H R. pose proof (run_ext sc P pl s t H) as E. fold (runp s pl) (runp t pl) in E. rewrite R in E.
    destruct (runp s pl) as [fin'|]; simpl in E; [|contradiction]. eauto.
  Qed.

  Lemma runp_cons (x : inst) (pl : list inst) s fin : runp s (x :: pl) = Some fin ->
    exists a s1, lookup_action P (fst x) = Some a /\ spec_step sc P s a (snd x) = Some s1 /\ runp s1 pl = Some fin.
  Proof.
    destruct x as [aid args]. unfold runp. simpl. destruct (lookup_action P aid) as [a|]; [|discriminate].
    destruct (spec_step sc P s a args) as [s1|] eqn:E; [|discriminate]. intros H. exists a, s1. auto.
  Qed.

  Lemma runp_cons_intro (x : inst) (pl : list inst) s a s1 : lookup_action P (fst x) = Some a -> spec_step sc P s a (snd x) = Some s1 ->
    runp s (x :: pl) = runp s1 pl.
  Proof. destruct x as [aid args]. unfold runp. simpl. intros -> ->. reflexivity. Qed.

  Lemma conflict_false_disjoint x y a b : conflict sc P x y = false ->
    lookup_action P (fst x) = Some a -> lookup_action P (fst y) = Some b ->
    disjoint (act_writes sc P a (snd x)) (act_reads sc P b (snd y)) /\
    disjoint (act_writes sc P b (snd y)) (act_reads sc P a (snd x)).
  Proof.
    intros H La Lb. unfold conflict, inst_writes, inst_reads in H. rewrite La, Lb in H.
    apply orb_false_iff in H. destruct H as [H1 H2].
    apply intersects_false in H1. apply intersects_false in H2.
    split; intros k Hw Hr; [apply (H1 k Hw) | apply (H2 k Hw)]; apply in_or_app; left; exact Hr.
  Qed.

  (* two adjacent non-conflicting instances can be swapped *)
  Lemma swap_adjacent x y s fin :
    inst_nf P x = true -> inst_nf P y = true -> conflict sc P x y = false ->
    inv_local sc P = true -> invariants_ok sc P s = true ->
    runp s [x; y] = Some fin -> exists fin', runp s [y; x] = Some fin' /\ state_eq fin' fin.
  Proof.
    intros Nx Ny HC HL HI R.
    apply runp_cons in R. destruct R as (a & s1 & La & Sa & R).
    apply runp_cons in R. destruct R as (b & s2 & Lb & Sb & R). unfold runp in R. simpl in R. inversion R; subst s2; clear R.
    unfold inst_nf in Nx, Ny. rewrite La in Nx. rewrite Lb in Ny.
    destruct (conflict_false_disjoint x y a b HC La Lb) as [D1 D2].
    destruct (commute_steps sc P s s1 fin a (snd x) b (snd y) Nx Ny D1 D2 HL HI Sa Sb) as (s1' & s2' & S1 & S2 & E).
    exists s2'. split; [|exact E].
    destruct x as [ax vx], y as [ay vy]. unfold runp. simpl in *. rewrite Lb, S1, La, S2. reflexivity.
  Qed.

  (* an instance that conflicts with none of its predecessors can be moved to the front *)
  Lemma move_front y l2 : forall l1 s fin,
    (forall x, In x l1 -> conflict sc P x y = false) ->
    (forall x, In x (l1 ++ y :: l2) -> inst_nf P x = true) ->
    inv_local sc P = true -> invariants_ok sc P s = true ->
    runp s (l1 ++ y :: l2) = Some fin -> exists fin', runp s (y :: l1 ++ l2) = Some fin' /\ state_eq fin' fin.
  Proof.
    induction l1 as [|x l1 IH]; intros s fin HC HN HL HI R.
    - exists fin. split; [exact R | intros f vs; reflexivity].
    - simpl in R. pose proof R as R0. apply runp_cons in R. destruct R as (a & sx & La & Sa & R).
      destruct (spec_step_core_inv sc P _ _ _ _ Sa) as (_ & _ & _ & Ix).
      destruct (IH sx fin) as (fin1 & R1 & E1); auto.
      { intros z Hz. apply HC. right. exact Hz. }
      { intros z Hz. apply HN. right. exact Hz. }
      (* now x ; y ; (l1 ++ l2) from s ends in fin1: swap x and y *)
      pose proof R1 as R1'. apply runp_cons in R1'. destruct R1' as (b & sxy & Lb & Sb & R2).
      assert (Rxy : runp s [x; y] = Some sxy).
      { rewrite (runp_cons_intro x [y] s a sx La Sa), (runp_cons_intro y [] sx b sxy Lb Sb). reflexivity. }
      destruct (swap_adjacent x y s sxy) as (syx & Ryx & Eyx); auto.
      { apply HN. left. reflexivity. }
      { apply HN. right. apply in_or_app. right. left. reflexivity. }
      { apply HC. left. reflexivity. }
      destruct (runp_ext_some (l1 ++ l2) syx sxy fin1 Eyx R2) as (fin' & Rf & Ef).
      exists fin'. split; [|eapply state_eq_trans; eauto].
      change (y :: (x :: l1) ++ l2) with ([y; x] ++ (l1 ++ l2)). unfold runp. rewrite run_app. fold (runp s [y; x]). rewrite Ryx. exact Rf.
  Qed.

  (* any permutation that keeps the relative order of conflicting instances is executable and ends in the same state *)
  Lemma perm_run : forall pl' pl s fin,
    Permutation pl pl' -> NoDup pl -> (forall x, In x pl -> inst_nf P x = true) ->
    (forall x y, before pl x y -> conflict sc P x y = true -> before pl' x y) ->
    inv_local sc P = true -> invariants_ok sc P s = true ->
    runp s pl = Some fin -> exists fin', runp s pl' = Some fin' /\ state_eq fin' fin.
  Proof.
    induction pl' as [|y r IH]; intros pl s fin HP ND HN HO HL HI R.
    - apply Permutation_sym, Permutation_nil in HP. subst. exists fin. split; [exact R | intros f vs; reflexivity].
    - assert (Hy : In y pl) by (apply (Permutation_in y (Permutation_sym HP)); left; reflexivity).
      apply in_split in Hy. destruct Hy as (l1 & l2 & ->).
      assert (ND' : NoDup (y :: r)) by (eapply Permutation_NoDup; eauto).
      assert (HC : forall x, In x l1 -> conflict sc P x y = false).
      { intros x Hx. destruct (conflict sc P x y) eqn:E; [|reflexivity]. exfalso.
        apply (before_head_absurd y r x ND'). apply HO; [apply before_split, Hx | exact E]. }
      destruct (move_front y l2 l1 s fin HC HN HL HI R) as (fin1 & R1 & E1).
      pose proof R1 as R1'. apply runp_cons in R1'. destruct R1' as (b & sy & Lb & Sb & R2).
      destruct (spec_step_core_inv sc P _ _ _ _ Sb) as (_ & _ & _ & Iy).
      destruct (IH (l1 ++ l2) sy fin1) as (fin' & Rf & Ef); auto.
      + apply Permutation_cons_inv with (a := y). eapply Permutation_trans; [|exact HP].
        apply Permutation_middle.
      + eapply NoDup_remove_1; eauto.
      + intros x Hx. apply HN. apply in_or_app. apply in_app_or in Hx. destruct Hx; [left; assumption | right; right; assumption].
      + intros x z Hb Hc.
        assert (Hxy : x <> y).
        { intros ->. apply (NoDup_remove_2 _ _ _ ND). exact (proj1 (before_in _ _ _ Hb)). }
        apply before_tail with (w := y); [|exact Hxy]. apply HO; [apply before_insert, Hb | exact Hc].
      + exists fin'. split; [|eapply state_eq_trans; eauto].
        rewrite (runp_cons_intro y r s b sy Lb Sb). exact Rf.
  Qed.
End Runs.

Section Graph.
  Variable sc : bool.
  Variable P : problem.

  Lemma lm_get_new f (x : inst) l lm :
    lm_get f (map (fun g => (g, x)) l ++ lm) = if gmem f l then Some x else lm_get f lm.
  Proof.
    induction l as [|g l IH]; [reflexivity|]. unfold lm_get in *. simpl.
    destruct (gfl_eqb f g); [reflexivity | exact IH].
  Qed.

  Lemma gmem_rev f l : gmem f (rev l) = gmem f l.
  Proof.
    destruct (gmem f l) eqn:E.
    - apply gmem_In. apply -> in_rev. apply gmem_In, E.
    - destruct (gmem f (rev l)) eqn:E'; [|reflexivity]. apply gmem_In in E'. apply in_rev in E'.
      apply gmem_In in E'. congruence.
  Qed.

  Lemma gdedup_In k l : In k (gdedup l) <-> In k l.
  Proof.
    induction l as [|g l IH]; simpl; [tauto|]. destruct (gmem g l) eqn:E.
    - rewrite IH. split; [auto|]. intros [<-|H]; [apply gmem_In, E | exact H].
    - simpl. rewrite IH. tauto.
  Qed.

  (* the loop's two accumulators after instance [z]: the last modifier of [f], and [z] recorded as a reader *)
  Lemma last_modifier_next f z lm :
    lm_get f (map (fun g => (g, z)) (rev (inst_writes sc P z)) ++ lm) =
    if gmem f (inst_writes sc P z) then Some z else lm_get f lm.
  Proof. rewrite lm_get_new, gmem_rev. reflexivity. Qed.

  Lemma reader_recorded ar z f :
    In f (inst_reads sc P z) -> In (f, z) (ar ++ map (fun g => (g, z)) (gdedup (inst_reads sc P z))).
  Proof. intros H. apply in_or_app. right. apply in_map_iff. exists f. split; [reflexivity | apply gdedup_In, H]. Qed.

  Lemma inst_neq_eqb (x y : inst) : x <> y -> inst_eqb x y = false.
  Proof. intros H. destruct (inst_eqb x y) eqn:E; [|reflexivity]. apply gfl_eqb_eq in E. contradiction. Qed.

  Lemma go_sub_reach lm ar z rest x y :
    reach (deorder_go sc P (map (fun f => (f, z)) (rev (inst_writes sc P z)) ++ lm)
                           (ar ++ map (fun f => (f, z)) (gdedup (inst_reads sc P z))) rest) x y ->
    reach (deorder_go sc P lm ar (z :: rest)) x y.
  Proof.
    apply reach_sub. intros a b H. apply t_step. unfold edge. cbn [deorder_go].
    apply in_or_app. right. apply in_or_app. right. exact H.
  Qed.

  Lemma go_edge_reader : forall pl lm ar (x y : inst) f,
    In (f, x) ar -> In y pl -> In f (inst_writes sc P y) -> x <> y -> In (x, y) (deorder_go sc P lm ar pl).
  Proof.
    induction pl as [|z rest IH]; intros lm ar x y f Har Hy Hw Hn; [destruct Hy|].
    cbn [deorder_go]. destruct Hy as [->|Hy].
    - apply in_or_app. right. apply in_or_app. left.
      apply in_flat_map. exists f. split; [exact Hw|].
      apply in_flat_map. exists (f, x). split; [apply in_or_app; left; exact Har|].
      simpl. rewrite gfl_eqb_refl, (inst_neq_eqb x y Hn). left. reflexivity.
    - apply in_or_app. right. apply in_or_app. right.
      apply (IH _ _ x y f); auto. apply in_or_app. left. exact Har.
  Qed.

  (* an earlier reader (or writer, since writes are reads) of a fluent gets a direct edge to a later writer *)
  Lemma go_reader_writer : forall pl lm ar (x y : inst) f, before pl x y -> NoDup pl ->
    In f (inst_reads sc P x) -> In f (inst_writes sc P y) -> In (x, y) (deorder_go sc P lm ar pl).
  Proof.
    induction pl as [|z rest IH]; intros lm ar x y f Hb ND Hr Hw; [destruct (before_nil _ _ Hb)|].
    inversion ND as [|? ? Hn ND']; subst. cbn [deorder_go]. apply in_or_app. right. apply in_or_app. right.
    apply before_inv in Hb. destruct Hb as [[-> Hy]|Hb].
    - apply (go_edge_reader rest _ _ x y f); auto.
      + apply reader_recorded, Hr.
      + intros ->. contradiction.
    - apply (IH _ _ x y f); auto.
  Qed.

  Lemma go_last_modifier : forall pl lm ar (m y : inst) f,
    lm_get f lm = Some m -> In (f, m) ar -> ~ In m pl -> NoDup pl -> In y pl -> In f (inst_reads sc P y) ->
    reach (deorder_go sc P lm ar pl) m y.
  Proof.
    induction pl as [|z rest IH]; intros lm ar m y f Hl Har Hm ND Hy Hr; [destruct Hy|].
    inversion ND as [|? ? Hn ND']; subst.
    destruct Hy as [->|Hy].
    - apply t_step. unfold edge. cbn [deorder_go]. apply in_or_app. left.
      apply in_flat_map. exists f. split; [apply gdedup_In, Hr|]. rewrite Hl. left. reflexivity.
    - assert (Hmz : m <> z) by (intros ->; apply Hm; left; reflexivity).
      assert (Hmr : ~ In m rest) by (intros H; apply Hm; right; exact H).
      destruct (gmem f (inst_writes sc P z)) eqn:EW.
      + apply t_trans with (y := z).
        * apply t_step. unfold edge. apply gmem_In in EW.
          apply (go_edge_reader (z :: rest) lm ar m z f Har (or_introl eq_refl) EW Hmz).
        * apply go_sub_reach. apply (IH _ _ z y f); auto.
          -- rewrite last_modifier_next, EW. reflexivity.
          -- apply reader_recorded, inst_writes_incl. apply gmem_In, EW.
      + apply go_sub_reach. apply (IH _ _ m y f); auto.
        * rewrite last_modifier_next, EW. exact Hl.
        * apply in_or_app. left. exact Har.
  Qed.

  (* an earlier writer reaches every later reader (through the chain of intermediate writers) *)
  Lemma go_writer_reader : forall pl lm ar (x y : inst) f, before pl x y -> NoDup pl ->
    In f (inst_writes sc P x) -> In f (inst_reads sc P y) -> reach (deorder_go sc P lm ar pl) x y.
  Proof.
    induction pl as [|z rest IH]; intros lm ar x y f Hb ND Hw Hr; [destruct (before_nil _ _ Hb)|].
    inversion ND as [|? ? Hn ND']; subst. apply go_sub_reach.
    apply before_inv in Hb. destruct Hb as [[-> Hy]|Hb].
    - apply (go_last_modifier rest _ _ x y f); auto.
      + rewrite last_modifier_next, (proj2 (gmem_In f _) Hw). reflexivity.
      + apply reader_recorded, inst_writes_incl, Hw.
    - apply (IH _ _ x y f); auto.
  Qed.

  Theorem go_keeps_conflicting_order pl (x y : inst) : NoDup pl -> before pl x y -> conflict sc P x y = true ->
    reach (deorder_go sc P [] [] pl) x y.
  Proof.
    intros ND Hb HC. unfold conflict in HC. apply orb_true_iff in HC. destruct HC as [HC|HC];
      apply intersects_true in HC; destruct HC as [k [Hw Hrw]].
    - apply (go_writer_reader pl [] [] x y k Hb ND Hw).
      apply in_app_or in Hrw. destruct Hrw as [H|H]; [exact H | apply inst_writes_incl, H].
    - apply t_step. apply (go_reader_writer pl [] [] x y k Hb ND); [|exact Hw].
      apply in_app_or in Hrw. destruct Hrw as [H|H]; [exact H | apply inst_writes_incl, H].
  Qed.

  (* every edge goes forward in the original plan (the graph is a DAG compatible with the sequential plan) *)
  Lemma lm_get_in f lm (m : inst) : lm_get f lm = Some m -> In (f, m) lm.
  Proof.
    unfold lm_get. destruct (find (fun p => gfl_eqb f (fst p)) lm) as [[g m']|] eqn:E; [|discriminate].
    intros H; inversion H; subst. apply find_some in E. destruct E as [Hi E]. simpl in E. apply gfl_eqb_eq in E. subst. exact Hi.
  Qed.

  Lemma go_edges_forward : forall pl lm ar (x y : inst), In (x, y) (deorder_go sc P lm ar pl) ->
    In y pl /\ (before pl x y \/ (exists f, In (f, x) lm) \/ (exists f, In (f, x) ar)).
  Proof.
    induction pl as [|z rest IH]; intros lm ar x y H; [destruct H|].
    cbn [deorder_go] in H. apply in_app_or in H. destruct H as [H|H]; [|apply in_app_or in H; destruct H as [H|H]].
    - apply in_flat_map in H. destruct H as [f [_ H]]. destruct (lm_get f lm) as [m|] eqn:E; [|destruct H].
      destruct H as [H|[]]. inversion H; subst. split; [left; reflexivity|]. right. left. exists f. apply lm_get_in, E.
    - apply in_flat_map in H. destruct H as [f [_ H]]. apply in_flat_map in H. destruct H as [[g d] [Hp H]]. simpl in H.
      destruct (gfl_eqb g f && negb (inst_eqb d z)) eqn:E; [|destruct H]. destruct H as [H|[]]. inversion H; subst.
      split; [left; reflexivity|]. apply in_app_or in Hp. destruct Hp as [Hp|Hp]; [right; right; eauto|].
      apply in_map_iff in Hp. destruct Hp as [f' [E' _]]. inversion E'; subst.
      apply andb_true_iff in E. destruct E as [_ E]. unfold inst_eqb in E. rewrite gfl_eqb_refl in E. discriminate.
    - apply IH in H. destruct H as [Hy H]. split; [right; exact Hy|].
      destruct H as [H|[[f H]|[f H]]].
      + left. apply before_cons, H.
      + apply in_app_or in H. destruct H as [H|H]; [|right; left; eauto].
        apply in_map_iff in H. destruct H as [f' [E' _]]. inversion E'; subst. left. apply before_head, Hy.
      + apply in_app_or in H. destruct H as [H|H]; [right; right; eauto|].
        apply in_map_iff in H. destruct H as [f' [E' _]]. inversion E'; subst. left. apply before_head, Hy.
  Qed.

  Lemma go_edges_before pl (x y : inst) : In (x, y) (deorder_go sc P [] [] pl) -> before pl x y.
  Proof. intros H. apply go_edges_forward in H. destruct H as [_ [H|[[f []]|[f []]]]]. exact H. Qed.
End Graph.

Section Main.
  Variable sc : bool.
  Variable P : problem.

  Theorem deorder_keeps_conflicting_order_proof pl G :
    NoDup pl -> deorder sc P pl = Some G ->
    forall x y, before pl x y -> conflict sc P x y = true -> reach G x y.
  Proof.
    intros ND HD x y Hb HC. unfold deorder in HD. destruct (forallb (inst_nf P) pl); [|discriminate].
    inversion HD; subst. apply go_keeps_conflicting_order; assumption.
  Qed.

  (* the sequential plan itself is one of the linearisations *)
  Theorem deorder_original_topological pl G : deorder sc P pl = Some G -> topological G pl pl.
  Proof.
    intros HD. unfold deorder in HD. destruct (forallb (inst_nf P) pl); [|discriminate]. inversion HD; subst.
    split; [apply Permutation_refl | intros x y H; apply (go_edges_before sc P pl x y H)].
  Qed.

  Theorem deorder_all_linearizations_gen s0 pl G :
    valid_plan sc P s0 pl = true -> NoDup pl ->
    inv_local sc P = true -> invariants_ok sc P s0 = true ->
    deorder sc P pl = Some G ->
    forall G' pl', (forall x y, In (x, y) G -> reach G' x y) -> topological G' pl pl' ->
      valid_plan sc P s0 pl' = true /\
      exists fin fin', run P (spec_step sc P) s0 pl = Some fin /\ run P (spec_step sc P) s0 pl' = Some fin' /\
                       state_eq fin' fin.
  Proof.
    intros HV ND HL HI HD G' pl' HG [HP HT].
    unfold valid_plan in HV. destruct (run P (spec_step sc P) s0 pl) as [fin|] eqn:R; [|discriminate].
    assert (ND' : NoDup pl') by (eapply Permutation_NoDup; eauto).
    assert (HN : forall x, In x pl -> inst_nf P x = true).
    { unfold deorder in HD. destruct (forallb (inst_nf P) pl) eqn:E; [|discriminate]. apply forallb_forall, E. }
    destruct (perm_run sc P pl' pl s0 fin HP ND HN) as (fin' & R' & E); auto.
    { intros x y Hb HC. apply (topo_respects_reach G' pl' ND' HT).
      apply (reach_sub G G' HG). apply (deorder_keeps_conflicting_order_proof pl G ND HD x y Hb HC). }
    unfold runp in R'. split.
    - unfold valid_plan. rewrite R'. rewrite (goals_hold_ext sc P fin' fin E). exact HV.
    - exists fin, fin'. auto.
  Qed.

  Lemma no_invariants_local : no_invariants P = true -> inv_local sc P = true /\ forall s, invariants_ok sc P s = true.
  Proof.
    unfold no_invariants, inv_local, invariants_ok, inv_exprs. destruct (p_invs P ++ bound_invs P); [|discriminate].
    intros _. split; [reflexivity | intros s; reflexivity].
  Qed.
End Main.

(* the executable order test agrees with [before] on duplicate-free lists *)
Lemma before_b_correct l : NoDup l -> forall x y, before_b l x y = true <-> before l x y.
Proof.
  induction l as [|z r IH]; intros ND x y; simpl.
  - split; [discriminate | intros H; destruct (before_nil _ _ H)].
  - inversion ND as [|? ? Hn ND']; subst. destruct (inst_eqb z x) eqn:E.
    + apply gfl_eqb_eq in E. subst. rewrite existsb_exists. split.
      * intros [w [Hw Ew]]. apply gfl_eqb_eq in Ew. subst. apply before_head, Hw.
      * intros H. apply before_inv in H. destruct H as [[_ Hy]|H].
        -- exists y. split; [exact Hy | apply gfl_eqb_refl].
        -- exfalso. exact (Hn (proj1 (before_in _ _ _ H))).
    + rewrite (IH ND' x y). split; [apply before_cons|].
      intros H. apply before_inv in H. destruct H as [[-> _]|H]; [|exact H].
      unfold inst_eqb in E. rewrite gfl_eqb_refl in E. discriminate.
Qed.

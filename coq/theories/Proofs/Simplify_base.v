(* Basic facts about the definitions of Walkers/Simplify.v: unfolding equations of [simp], what the unary and binary
   node functions can return, free variables of lists, list helpers.  Used by the other Simplify_*.v proof files. *)
From Coq Require Import List ZArith NArith QArith Qcanon Bool.
Import ListNotations.
Require Import UPV.Core.Expr UPV.Core.Eval UPV.Proofs.Eval_lemmas UPV.Proofs.ListFacts UPV.Proofs.ExprView UPV.Walkers.Simplify.
Local Open Scope nat_scope.

Definition resimp (G : cfg) (n : nat) : expr -> expr :=
  match n with O => (fun x => x) | S n' => simp G n' end.

Section Unfold.
  Variable G : cfg.
  Variable n : nat.
  Lemma simp_EBool b : simp G n (EBool b) = EBool b. Proof. destruct n; reflexivity. Qed.
  Lemma simp_EInt z : simp G n (EInt z) = EInt z. Proof. destruct n; reflexivity. Qed.
  Lemma simp_EReal q : simp G n (EReal q) = EReal q. Proof. destruct n; reflexivity. Qed.
  Lemma simp_EObj o : simp G n (EObj o) = EObj o. Proof. destruct n; reflexivity. Qed.
  Lemma simp_EParam p : simp G n (EParam p) = EParam p. Proof. destruct n; reflexivity. Qed.
  Lemma simp_EVar v t : simp G n (EVar v t) = EVar v t. Proof. destruct n; reflexivity. Qed.
  Lemma simp_EFluent f l : simp G n (EFluent f l) = walk_fluent G f (map (simp G n) l). Proof. destruct n; reflexivity. Qed.
  Lemma simp_EIFun f l : simp G n (EIFun f l) = walk_ifun G f (map (simp G n) l). Proof. destruct n; reflexivity. Qed.
  Lemma simp_EAnd l : simp G n (EAnd l) = walk_junct true (map (simp G n) l). Proof. destruct n; reflexivity. Qed.
  Lemma simp_EOr l : simp G n (EOr l) = walk_junct false (map (simp G n) l). Proof. destruct n; reflexivity. Qed.
  Lemma simp_ENot a : simp G n (ENot a) = walk_not (simp G n a). Proof. destruct n; reflexivity. Qed.
  Lemma simp_EImplies a b : simp G n (EImplies a b) = walk_implies (simp G n a) (simp G n b). Proof. destruct n; reflexivity. Qed.
  Lemma simp_EIff a b : simp G n (EIff a b) = walk_iff (simp G n a) (simp G n b). Proof. destruct n; reflexivity. Qed.
  Lemma simp_EExists vs a : simp G n (EExists vs a) = walk_exists G (resimp G n) vs (simp G n a). Proof. destruct n; reflexivity. Qed.
  Lemma simp_EForall vs a : simp G n (EForall vs a) = walk_forall G vs (simp G n a). Proof. destruct n; reflexivity. Qed.
  Lemma simp_EPlus l : simp G n (EPlus l) = walk_arith false (map (simp G n) l). Proof. destruct n; reflexivity. Qed.
  Lemma simp_EMinus a b : simp G n (EMinus a b) = walk_minus (simp G n a) (simp G n b). Proof. destruct n; reflexivity. Qed.
  Lemma simp_ETimes l : simp G n (ETimes l) = walk_arith true (map (simp G n) l). Proof. destruct n; reflexivity. Qed.
  Lemma simp_EDiv a b : simp G n (EDiv a b) = walk_div (simp G n a) (simp G n b). Proof. destruct n; reflexivity. Qed.
  Lemma simp_ELe a b : simp G n (ELe a b) = walk_le (simp G n a) (simp G n b). Proof. destruct n; reflexivity. Qed.
  Lemma simp_ELt a b : simp G n (ELt a b) = walk_lt (simp G n a) (simp G n b). Proof. destruct n; reflexivity. Qed.
  Lemma simp_EEquals a b : simp G n (EEquals a b) = walk_equals G (simp G n a) (simp G n b). Proof. destruct n; reflexivity. Qed.
  Lemma simp_EAlways a : simp G n (EAlways a) = walk_always (simp G n a). Proof. destruct n; reflexivity. Qed.
  Lemma simp_ESometime a : simp G n (ESometime a) = walk_sometime (simp G n a). Proof. destruct n; reflexivity. Qed.
  Lemma simp_ESometimeBefore a b : simp G n (ESometimeBefore a b) = walk_sometime_before (simp G n a) (simp G n b).
  Proof. destruct n; reflexivity. Qed.
  Lemma simp_ESometimeAfter a b : simp G n (ESometimeAfter a b) = walk_sometime_after (simp G n a) (simp G n b).
  Proof. destruct n; reflexivity. Qed.
  Lemma simp_EAtMostOnce a : simp G n (EAtMostOnce a) = walk_at_most_once (simp G n a). Proof. destruct n; reflexivity. Qed.
End Unfold.


Section UnfoldOk.
  Variable G : cfg.
  Variable n : nat.
  Lemma ok_EBool b : simp_ok G n (EBool b) = true. Proof. destruct n; reflexivity. Qed.
  Lemma ok_EInt z : simp_ok G n (EInt z) = true. Proof. destruct n; reflexivity. Qed.
  Lemma ok_EReal q : simp_ok G n (EReal q) = true. Proof. destruct n; reflexivity. Qed.
  Lemma ok_EObj o : simp_ok G n (EObj o) = true. Proof. destruct n; reflexivity. Qed.
  Lemma ok_EParam p : simp_ok G n (EParam p) = true. Proof. destruct n; reflexivity. Qed.
  Lemma ok_EVar v t : simp_ok G n (EVar v t) = true. Proof. destruct n; reflexivity. Qed.
  Lemma ok_EFluent f l : simp_ok G n (EFluent f l) = forallb (simp_ok G n) l. Proof. destruct n; reflexivity. Qed.
  Lemma ok_EIFun f l : simp_ok G n (EIFun f l) = forallb (simp_ok G n) l. Proof. destruct n; reflexivity. Qed.
  Lemma ok_EAnd l : simp_ok G n (EAnd l) = forallb (simp_ok G n) l. Proof. destruct n; reflexivity. Qed.
  Lemma ok_EOr l : simp_ok G n (EOr l) = forallb (simp_ok G n) l. Proof. destruct n; reflexivity. Qed.
  Lemma ok_EPlus l : simp_ok G n (EPlus l) = forallb (simp_ok G n) l. Proof. destruct n; reflexivity. Qed.
  Lemma ok_ETimes l : simp_ok G n (ETimes l) = forallb (simp_ok G n) l. Proof. destruct n; reflexivity. Qed.
  Lemma ok_ENot a : simp_ok G n (ENot a) = simp_ok G n a. Proof. destruct n; reflexivity. Qed.
  Lemma ok_EAlways a : simp_ok G n (EAlways a) = simp_ok G n a. Proof. destruct n; reflexivity. Qed.
  Lemma ok_ESometime a : simp_ok G n (ESometime a) = simp_ok G n a. Proof. destruct n; reflexivity. Qed.
  Lemma ok_EAtMostOnce a : simp_ok G n (EAtMostOnce a) = simp_ok G n a. Proof. destruct n; reflexivity. Qed.
  Lemma ok_EForall vs a : simp_ok G n (EForall vs a) = simp_ok G n a. Proof. destruct n; reflexivity. Qed.
  Lemma ok_EImplies a b : simp_ok G n (EImplies a b) = simp_ok G n a && simp_ok G n b. Proof. destruct n; reflexivity. Qed.
  Lemma ok_EIff a b : simp_ok G n (EIff a b) = simp_ok G n a && simp_ok G n b. Proof. destruct n; reflexivity. Qed.
  Lemma ok_EMinus a b : simp_ok G n (EMinus a b) = simp_ok G n a && simp_ok G n b. Proof. destruct n; reflexivity. Qed.
  Lemma ok_EDiv a b : simp_ok G n (EDiv a b) = simp_ok G n a && simp_ok G n b. Proof. destruct n; reflexivity. Qed.
  Lemma ok_ELe a b : simp_ok G n (ELe a b) = simp_ok G n a && simp_ok G n b. Proof. destruct n; reflexivity. Qed.
  Lemma ok_ELt a b : simp_ok G n (ELt a b) = simp_ok G n a && simp_ok G n b. Proof. destruct n; reflexivity. Qed.
  Lemma ok_EEquals a b : simp_ok G n (EEquals a b) = simp_ok G n a && simp_ok G n b. Proof. destruct n; reflexivity. Qed.
  Lemma ok_ESometimeBefore a b : simp_ok G n (ESometimeBefore a b) = simp_ok G n a && simp_ok G n b. Proof. destruct n; reflexivity. Qed.
  Lemma ok_ESometimeAfter a b : simp_ok G n (ESometimeAfter a b) = simp_ok G n a && simp_ok G n b. Proof. destruct n; reflexivity. Qed.
  Lemma ok_EExists vs a :
    simp_ok G n (EExists vs a) =
    simp_ok G n a &&
    (let body := simp G n a in
     let vs0 := prune G vs body in
     match elim_step G vs0 body with
     | None => true
     | Some _ =>
         match n with
         | O => false
         | S n' => let '(vs1, b1) := elim_loop G (length vs0) vs0 body in simp_ok G n' (mkExists vs1 b1)
         end
     end).
  Proof. destruct n; reflexivity. Qed.
End UnfoldOk.


Definition walk1 (o : op1) : expr -> expr :=
  match o with
  | UNot => walk_not | UAlways => walk_always | USometime => walk_sometime | UAtMostOnce => walk_at_most_once
  end.
Definition walk2 (G : cfg) (o : op2) : expr -> expr -> expr :=
  match o with
  | BImplies => walk_implies | BIff => walk_iff | BMinus => walk_minus | BDiv => walk_div | BLe => walk_le
  | BLt => walk_lt | BEquals => walk_equals G | BSometimeBefore => walk_sometime_before
  | BSometimeAfter => walk_sometime_after
  end.
Definition walkn (G : cfg) (o : opn) : list expr -> expr :=
  match o with
  | NFluent f => walk_fluent G f | NIFun f => walk_ifun G f | NAnd => walk_junct true | NOr => walk_junct false
  | NPlus => walk_arith false | NTimes => walk_arith true
  end.
Definition is_app (o : opn) : bool := match o with NFluent _ | NIFun _ => true | _ => false end.
Definition walkq (G : cfg) (rs : expr -> expr) (ex : bool) : list (N * N) -> expr -> expr :=
  if ex then walk_exists G rs else walk_forall G.

(* what a unary or binary node function can return: the node it was given, a constant, a child (for Not, the child of
   a child), the negation of a child that is not a Boolean constant, or (Minus) the sum with the negated constant *)
Inductive result1 (o : op1) (a : expr) : expr -> Prop :=
| r1_node : result1 o a (E1 o a)
| r1_const c : is_const c = true -> result1 o a c
| r1_inner x : a = ENot x -> result1 o a x.

Inductive result2 (o : op2) (a b : expr) : expr -> Prop :=
| r2_node : result2 o a b (E2 o a b)
| r2_const c : is_const c = true -> result2 o a b c
| r2_left : result2 o a b a
| r2_right : result2 o a b b
| r2_notl : as_boolc a = None -> result2 o a b (mkNot a)
| r2_notr : as_boolc b = None -> result2 o a b (mkNot b)
| r2_sum n : result2 o a b (walk_arith false [a; num_expr n]).

Lemma walk1_result o a : result1 o a (walk1 o a).
Proof.
  destruct o; cbn [walk1].
  - destruct a; try apply (r1_node UNot); [apply r1_const; reflexivity|apply r1_inner; reflexivity].
  - unfold walk_always. destruct (is_true a); [apply r1_const; reflexivity|].
    destruct (is_false a); [apply r1_const; reflexivity|apply (r1_node UAlways)].
  - unfold walk_sometime. destruct (is_true a); [apply r1_const; reflexivity|].
    destruct (is_false a); [apply r1_const; reflexivity|apply (r1_node USometime)].
  - unfold walk_at_most_once. destruct (is_true a || is_false a); [apply r1_const; reflexivity|apply (r1_node UAtMostOnce)].
Qed.

Lemma walk2_result G o a b : result2 o a b (walk2 G o a b).
Proof.
  destruct o; cbn [walk2].
  - unfold walk_implies. destruct (as_boolc a) as [[|]|] eqn:A; [apply r2_right|apply r2_const; reflexivity|].
    destruct (as_boolc b) as [[|]|]; [apply r2_const; reflexivity|apply r2_notl, A|].
    destruct (expr_eqb a b); [apply r2_const; reflexivity|apply (r2_node BImplies)].
  - unfold walk_iff. destruct (as_boolc a) as [[|]|] eqn:A, (as_boolc b) as [[|]|] eqn:B;
      try (apply r2_const; reflexivity); [apply r2_right|apply r2_notr, B|apply r2_left|apply r2_notl, A|].
    destruct (expr_eqb a b); [apply r2_const; reflexivity|apply (r2_node BIff)].
  - unfold walk_minus. destruct (num_of a) as [x|], (num_of b) as [y|]; try apply (r2_node BMinus).
    + apply r2_const. destruct (num_sub x y); reflexivity.
    + destruct (num_isneg y); [apply r2_sum|apply (r2_node BMinus)].
  - unfold walk_div. destruct (num_of a) as [[x|x]|], (num_of b) as [[y|y]|]; try apply (r2_node BDiv).
    + destruct (y =? 0)%Z; [apply (r2_node BDiv)|]. destruct (x mod y =? 0)%Z; apply r2_const; reflexivity.
    + destruct (num_is0 (NR y)); [apply (r2_node BDiv)|apply r2_const; reflexivity].
    + destruct (num_is0 (NI y)); [apply (r2_node BDiv)|apply r2_const; reflexivity].
    + destruct (num_is0 (NR y)); [apply (r2_node BDiv)|apply r2_const; reflexivity].
  - unfold walk_le. destruct (num_of a), (num_of b); try apply (r2_node BLe). apply r2_const. reflexivity.
  - unfold walk_lt. destruct (num_of a), (num_of b); try apply (r2_node BLt). apply r2_const. reflexivity.
  - unfold walk_equals. destruct (is_const a && is_const b); [apply r2_const; reflexivity|].
    destruct (expr_eqb a b); [apply r2_const; reflexivity|].
    destruct (user_type_of G a), (user_type_of G b); try apply (r2_node BEquals).
    destruct (negb _ && negb _); [apply r2_const; reflexivity|apply (r2_node BEquals)].
  - unfold walk_sometime_before. destruct (is_false a); [apply r2_const; reflexivity|].
    destruct (is_true a); [apply r2_const; reflexivity|apply (r2_node BSometimeBefore)].
  - unfold walk_sometime_after. destruct (is_false a); [apply r2_const; reflexivity|].
    destruct (is_true a && is_true b); [apply r2_const; reflexivity|].
    destruct (is_true a && is_false b); [apply r2_const; reflexivity|apply (r2_node BSometimeAfter)].
Qed.

Lemma junct_args_En k a ss : junct_args k a = Some ss -> a = En (if k then NAnd else NOr) ss.
Proof. destruct a, k; try discriminate; intros H; inversion H; reflexivity. Qed.

Section ByShape.
  Variable G : cfg.
  Variable n : nat.
  Lemma simp_leaf e : is_leaf e = true -> simp G n e = e.
  Proof. destruct e; try discriminate; destruct n; reflexivity. Qed.
  Lemma simp_E1 o a : simp G n (E1 o a) = walk1 o (simp G n a).
  Proof. destruct o; [apply simp_ENot|apply simp_EAlways|apply simp_ESometime|apply simp_EAtMostOnce]. Qed.
  Lemma simp_E2 o a b : simp G n (E2 o a b) = walk2 G o (simp G n a) (simp G n b).
  Proof. destruct o; [apply simp_EImplies|apply simp_EIff|apply simp_EMinus|apply simp_EDiv|apply simp_ELe|apply simp_ELt|apply simp_EEquals|apply simp_ESometimeBefore|apply simp_ESometimeAfter]. Qed.
  Lemma simp_En o l : simp G n (En o l) = walkn G o (map (simp G n) l).
  Proof. destruct o; [apply simp_EFluent|apply simp_EIFun|apply simp_EAnd|apply simp_EOr|apply simp_EPlus|apply simp_ETimes]. Qed.
  Lemma simp_EQ ex vs a : simp G n (EQ ex vs a) = walkq G (resimp G n) ex vs (simp G n a).
  Proof. destruct ex; [apply simp_EExists|apply simp_EForall]. Qed.

  Lemma ok_leaf e : is_leaf e = true -> simp_ok G n e = true.
  Proof. destruct e; try discriminate; destruct n; reflexivity. Qed.
  Lemma ok_E1 o a : simp_ok G n (E1 o a) = simp_ok G n a.
  Proof. destruct o; [apply ok_ENot|apply ok_EAlways|apply ok_ESometime|apply ok_EAtMostOnce]. Qed.
  Lemma ok_E2 o a b : simp_ok G n (E2 o a b) = simp_ok G n a && simp_ok G n b.
  Proof. destruct o; [apply ok_EImplies|apply ok_EIff|apply ok_EMinus|apply ok_EDiv|apply ok_ELe|apply ok_ELt|apply ok_EEquals|apply ok_ESometimeBefore|apply ok_ESometimeAfter]. Qed.
  Lemma ok_En o l : simp_ok G n (En o l) = forallb (simp_ok G n) l.
  Proof. destruct o; [apply ok_EFluent|apply ok_EIFun|apply ok_EAnd|apply ok_EOr|apply ok_EPlus|apply ok_ETimes]. Qed.
End ByShape.

Section SubstByShape.
  Variables (x : N) (t : expr).
  Lemma subst_E1 o a : subst x t (E1 o a) = mk1 o (subst x t a). Proof. destruct o; reflexivity. Qed.
  Lemma subst_E2 o a b : subst x t (E2 o a b) = E2 o (subst x t a) (subst x t b). Proof. destruct o; reflexivity. Qed.
  Lemma subst_En o l : subst x t (En o l) = mkn o (map (subst x t) l). Proof. destruct o; reflexivity. Qed.
  Lemma subst_EQ ex vs a :
    subst x t (EQ ex vs a) = if memN x (map fst vs) then EQ ex vs a else EQ ex vs (subst x t a).
  Proof. destruct ex; cbn [EQ subst]; destruct (memN x (map fst vs)); reflexivity. Qed.
End SubstByShape.

Definition fvl (l : list expr) : list N := flat_map free_vars l.

Lemma fvl_En o l : free_vars (En o l) = fvl l. Proof. apply fv_En. Qed.

Lemma fvl_app a b : fvl (a ++ b) = fvl a ++ fvl b.
Proof. unfold fvl. apply flat_map_app. Qed.

Lemma fvl_cons a l : fvl (a :: l) = free_vars a ++ fvl l. Proof. reflexivity. Qed.

Lemma in_fvl w l : In w (fvl l) <-> exists x, In x l /\ In w (free_vars x).
Proof. unfold fvl. rewrite in_flat_map. tauto. Qed.

Lemma fvl_incl_in x l : In x l -> incl (free_vars x) (fvl l).
Proof. intros H w Hw. apply in_fvl. eauto. Qed.

Lemma mem_expr_In x l : mem_expr x l = true <-> In x l.
Proof. exact (existsb_eqb_In expr_eqb expr_eqb_eq x l). Qed.

Lemma mem_expr_false x l : mem_expr x l = false <-> ~ In x l.
Proof. exact (existsb_eqb_not_In expr_eqb expr_eqb_eq x l). Qed.

Lemma bound_in_In x vs : bound_in x vs = true <-> In x (map fst vs).
Proof. apply memN_In. Qed.

Lemma fv_mkExists vs b : free_vars (mkExists vs b) = free_vars (EExists vs b).
Proof. destruct vs; [|reflexivity]. symmetry. apply filter_true, forallb_forall. reflexivity. Qed.
Lemma fv_mkForall vs b : free_vars (mkForall vs b) = free_vars (EForall vs b).
Proof. destruct vs; [|reflexivity]. symmetry. apply filter_true, forallb_forall. reflexivity. Qed.

Lemma in_fv_quant w (vs : list (N * N)) a :
  In w (filter (fun v => negb (memN v (map fst vs))) (free_vars a)) <-> In w (free_vars a) /\ ~ In w (map fst vs).
Proof. rewrite filter_In, negb_true_iff, memN_false. tauto. Qed.

Lemma num_of_is_num e n : num_of e = Some n -> is_num e = true.
Proof. destruct e; simpl; congruence. Qed.
Lemma num_of_none e : num_of e = None <-> is_num e = false.
Proof. destruct e; simpl; split; congruence. Qed.
Lemma num_of_expr e n : num_of e = Some n -> e = num_expr n.
Proof. destruct e; simpl; intros H; inversion H; reflexivity. Qed.
Lemma num_of_num_expr n : num_of (num_expr n) = Some n.
Proof. destruct n; reflexivity. Qed.
Lemma is_const_closed c : is_const c = true -> free_vars c = [].
Proof. destruct c; simpl; congruence. Qed.

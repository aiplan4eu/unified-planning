(* Extensionality of evaluation, strict-vs-short-circuit refinement, and the step-level theorems for C01/C02. *)
From Coq Require Import List ZArith NArith Bool.
Import ListNotations.
Require Import UPV.Core.Expr UPV.Core.Eval UPV.Planning.Problem UPV.Planning.Sem.
Require Import UPV.Proofs.ListFacts UPV.Proofs.Eval_lemmas UPV.Proofs.Sem_proofs.

Definition interp_eq (I J : interp) : Prop :=
  (forall f a, fl I f a = fl J f a) /\ (forall p, par I p = par J p) /\ (forall v, var I v = var J v) /\
  (forall f a, ifun I f a = ifun J f a) /\ (forall t, objs I t = objs J t).

Lemma interp_eq_bind I J v o : interp_eq I J -> interp_eq (bind_var I v o) (bind_var J v o).
Proof.
  intros (H1 & H2 & H3 & H4 & H5). repeat split; simpl; auto.
  intros w. destruct (w =? v)%N; auto.
Qed.

Lemma instances_ext vs : forall I J, interp_eq I J -> Forall2 interp_eq (instances I vs) (instances J vs).
Proof.
  apply instances_Forall2; [intros I J (_ & _ & _ & _ & H5); exact H5 | intros I J v o; apply interp_eq_bind].
Qed.

Lemma eval_ext sc e : forall I J, interp_eq I J -> eval sc e I = eval sc e J.
Proof.
  intros I J (H1 & H2 & H3 & H4 & H5). apply (eval_depends sc (fun _ => True)); [intros; exact Logic.I|].
  repeat split; auto.
Qed.

Lemma q_fold_refines stop rs b : q_fold false stop rs = Some b -> q_fold true stop rs = Some b.
Proof.
  revert b; induction rs as [|[r|] rs IH]; intros b; simpl; auto; try discriminate.
  destruct (Bool.eqb r stop).
  - destruct (q_fold false stop rs); [auto | discriminate].
  - apply IH.
Qed.

Definition sc_refines (I : interp) (e : expr) : Prop := forall v, eval false e I = Some v -> eval true e I = Some v.

Lemma as_bool_refines I e b : sc_refines I e -> as_bool (eval false e I) = Some b -> as_bool (eval true e I) = Some b.
Proof. intros R H. apply as_bool_some in H. rewrite (R _ H). reflexivity. Qed.
Lemma as_num_refines I e q : sc_refines I e -> as_num (eval false e I) = Some q -> as_num (eval true e I) = Some q.
Proof. intros R H. apply as_num_some in H. rewrite (R _ H). reflexivity. Qed.

Lemma evals_refines I l : Forall (sc_refines I) l -> forall vs, evals false I l = Some vs -> evals true I l = Some vs.
Proof.
  induction 1 as [|x l Hx _ IH]; intros vs; cbn [evals]; [auto|].
  destruct (eval false x I) as [vx|] eqn:Ex; [|discriminate]. rewrite (Hx vx Ex).
  destruct (evals false I l) as [vl|]; [|discriminate]. rewrite (IH vl eq_refl). auto.
Qed.
Lemma ebools_refines I l : Forall (sc_refines I) l -> forall vs, ebools false I l = Some vs -> ebools true I l = Some vs.
Proof.
  induction 1 as [|x l Hx _ IH]; intros vs; cbn [ebools]; [auto|].
  destruct (as_bool (eval false x I)) as [vx|] eqn:Ex; [|discriminate]. rewrite (as_bool_refines I x vx Hx Ex).
  destruct (ebools false I l) as [vl|]; [|discriminate]. rewrite (IH vl eq_refl). auto.
Qed.
Lemma enums_refines I l : Forall (sc_refines I) l -> forall vs, enums false I l = Some vs -> enums true I l = Some vs.
Proof.
  induction 1 as [|x l Hx _ IH]; intros vs; cbn [enums]; [auto|].
  destruct (as_num (eval false x I)) as [vx|] eqn:Ex; [|discriminate]. rewrite (as_num_refines I x vx Hx Ex).
  destruct (enums false I l) as [vl|]; [|discriminate]. rewrite (IH vl eq_refl). auto.
Qed.

Lemma q_fold_map_refines stop e Js b : (forall J, sc_refines J e) ->
  q_fold false stop (map (fun J => as_bool (eval false e J)) Js) = Some b ->
  q_fold true stop (map (fun J => as_bool (eval true e J)) Js) = Some b.
Proof.
  intros R H. apply q_fold_refines. revert b H. induction Js as [|J Js IH]; intros b; simpl; [auto|].
  destruct (as_bool (eval false e J)) as [r|] eqn:Er; [|discriminate]. rewrite (as_bool_refines J e r (R J) Er).
  destruct (Bool.eqb r stop); [|apply IH].
  destruct (q_fold false stop (map (fun J0 => as_bool (eval false e J0)) Js)); [|discriminate].
  rewrite (IH _ eq_refl). auto.
Qed.

Lemma Forall_sc_refines l I : Forall (fun e => forall I, sc_refines I e) l -> Forall (sc_refines I) l.
Proof. apply Forall_impl. intros x Hx. exact (Hx I). Qed.

(* whenever the strict reading gives a value, Python's short-circuit evaluation gives the same value *)
Lemma eval_sc_refines e : forall I v, eval false e I = Some v -> eval true e I = Some v.
Proof.
  induction e using expr_ind'; intros I val; try (simpl; auto; fail);
    try (pose proof (Forall_sc_refines _ I H) as HL);
    try (pose proof (IHe1 I : sc_refines I e1) as R1; pose proof (IHe2 I : sc_refines I e2) as R2).
  - rewrite !eval_EFluent. destruct (evals false I args) as [vs|] eqn:E; [|discriminate].
    rewrite (evals_refines I args HL vs E). auto.
  - rewrite !eval_EIFun. destruct (evals false I args) as [vs|] eqn:E; [|discriminate].
    rewrite (evals_refines I args HL vs E). auto.
  - rewrite !eval_EAnd. destruct (ebools false I l) as [vs|] eqn:E; [|discriminate].
    rewrite (ebools_refines I l HL vs E). auto.
  - rewrite !eval_EOr. destruct (ebools false I l) as [vs|] eqn:E; [|discriminate].
    rewrite (ebools_refines I l HL vs E). auto.
  - rewrite !eval_ENot. destruct (as_bool (eval false e I)) eqn:E; [|discriminate].
    rewrite (as_bool_refines I e _ (IHe I) E). auto.
  - rewrite !eval_EImplies.
    destruct (as_bool (eval false e1 I)) eqn:E1; [|discriminate]. destruct (as_bool (eval false e2 I)) eqn:E2; [|discriminate].
    rewrite (as_bool_refines I e1 _ R1 E1), (as_bool_refines I e2 _ R2 E2). auto.
  - rewrite !eval_EIff.
    destruct (as_bool (eval false e1 I)) eqn:E1; [|discriminate]. destruct (as_bool (eval false e2 I)) eqn:E2; [|discriminate].
    rewrite (as_bool_refines I e1 _ R1 E1), (as_bool_refines I e2 _ R2 E2). auto.
  - rewrite !eval_EExists.
    destruct (q_fold false true (map (fun J => as_bool (eval false e J)) (instances I vs))) as [b|] eqn:EQ; [|discriminate].
    rewrite (q_fold_map_refines true e _ b IHe EQ). auto.
  - rewrite !eval_EForall.
    destruct (q_fold false false (map (fun J => as_bool (eval false e J)) (instances I vs))) as [b|] eqn:EQ; [|discriminate].
    rewrite (q_fold_map_refines false e _ b IHe EQ). auto.
  - rewrite !eval_EPlus. destruct (enums false I l) as [vs|] eqn:E; [|discriminate].
    rewrite (enums_refines I l HL vs E). auto.
  - rewrite !eval_EMinus.
    destruct (as_num (eval false e1 I)) eqn:E1; [|discriminate]. destruct (as_num (eval false e2 I)) eqn:E2; [|discriminate].
    rewrite (as_num_refines I e1 _ R1 E1), (as_num_refines I e2 _ R2 E2). auto.
  - rewrite !eval_ETimes. destruct (enums false I l) as [vs|] eqn:E; [|discriminate].
    rewrite (enums_refines I l HL vs E). auto.
  - rewrite !eval_EDiv.
    destruct (as_num (eval false e1 I)) eqn:E1; [|discriminate]. destruct (as_num (eval false e2 I)) eqn:E2; [|discriminate].
    rewrite (as_num_refines I e1 _ R1 E1), (as_num_refines I e2 _ R2 E2). auto.
  - rewrite !eval_ELe.
    destruct (as_num (eval false e1 I)) eqn:E1; [|discriminate]. destruct (as_num (eval false e2 I)) eqn:E2; [|discriminate].
    rewrite (as_num_refines I e1 _ R1 E1), (as_num_refines I e2 _ R2 E2). auto.
  - rewrite !eval_ELt.
    destruct (as_num (eval false e1 I)) eqn:E1; [|discriminate]. destruct (as_num (eval false e2 I)) eqn:E2; [|discriminate].
    rewrite (as_num_refines I e1 _ R1 E1), (as_num_refines I e2 _ R2 E2). auto.
  - rewrite !eval_EEquals.
    destruct (eval false e1 I) as [v1|] eqn:E1; [|discriminate]. rewrite (R1 _ E1).
    destruct (eval false e2 I) as [v2|] eqn:E2; [|destruct v1; discriminate]. rewrite (R2 _ E2). auto.
Qed.

Definition state_eq (s t : state) : Prop := forall f a, s f a = t f a.
Definition ostate_eq (a b : option state) : Prop :=
  match a, b with Some s, Some t => state_eq s t | None, None => True | _, _ => False end.

Lemma state_eq_refl s : state_eq s s.
Proof. intros f a; reflexivity. Qed.
Lemma state_eq_sym s t : state_eq s t -> state_eq t s.
Proof. intros H f a; symmetry; apply H. Qed.
Lemma state_eq_trans s t u : state_eq s t -> state_eq t u -> state_eq s u.
Proof. intros H1 H2 f a; rewrite H1; apply H2. Qed.

Lemma ostate_eq_refl o : ostate_eq o o.
Proof. destruct o; simpl; [apply state_eq_refl | exact I]. Qed.
Lemma ostate_eq_sym a b : ostate_eq a b -> ostate_eq b a.
Proof. destruct a, b; simpl; auto. apply state_eq_sym. Qed.
Lemma ostate_eq_trans a b c : ostate_eq a b -> ostate_eq b c -> ostate_eq a c.
Proof. destruct a, b, c; simpl; try tauto. apply state_eq_trans. Qed.

Lemma mk_interp_ext P s t pars : state_eq s t -> interp_eq (mk_interp P s pars) (mk_interp P t pars).
Proof. intros H. repeat split; simpl; auto. Qed.

Lemma holds_ext sc I J e : interp_eq I J -> holds sc I e = holds sc J e.
Proof. intros H. unfold holds. rewrite (eval_ext sc e I J H). reflexivity. Qed.

Lemma all_hold_ext sc I J cs : interp_eq I J -> all_hold sc I cs = all_hold sc J cs.
Proof.
  intros H. unfold all_hold. induction cs as [|c cs IH]; simpl; [reflexivity|].
  rewrite (holds_ext sc I J c H), IH. reflexivity.
Qed.

Lemma invariants_ok_ext sc P s t : state_eq s t -> invariants_ok sc P s = invariants_ok sc P t.
Proof. intros H. unfold invariants_ok. apply all_hold_ext, mk_interp_ext, H. Qed.

Lemma evals_l_ext sc l I J : interp_eq I J -> evals_l sc I l = evals_l sc J l.
Proof.
  intros H. induction l as [|x l IH]; simpl; [reflexivity|]. rewrite (eval_ext sc x I J H), IH. reflexivity.
Qed.

Lemma eval_effect_ext sc e I J : interp_eq I J -> eval_effect sc I e = eval_effect sc J e.
Proof.
  intros H. unfold eval_effect.
  rewrite (evals_l_ext sc _ I J H), (eval_ext sc (e_cond e) I J H), (eval_ext sc (e_val e) I J H). reflexivity.
Qed.

Lemma fired_ext sc effs I J : interp_eq I J -> fired sc I effs = fired sc J effs.
Proof.
  intros H. unfold fired. f_equal.
  induction effs as [|e effs IH]; simpl; [reflexivity|]. rewrite IH. f_equal.
  apply (Forall2_map_eq interp_eq _ _ _ _ (instances_ext (e_vars e) I J H)).
  intros x y Hxy. apply eval_effect_ext, Hxy.
Qed.

Lemma sim_step_ext P s t st a : state_eq s t -> sim_step P s st a = sim_step P t st a.
Proof. intros H. unfold sim_step. destruct st as [upd asg]. rewrite (H (fst (ae_key a)) (snd (ae_key a))). reflexivity. Qed.

Lemma sim_loop_ext P s t l : state_eq s t -> forall st, sim_loop P s st l = sim_loop P t st l.
Proof.
  intros H. induction l as [|a l IH]; intros st; simpl; [reflexivity|].
  rewrite (sim_step_ext P s t st a H). destruct (sim_step P t st a); [apply IH | reflexivity].
Qed.

Lemma apply_upd_ext s t u : state_eq s t -> state_eq (apply_upd s u) (apply_upd t u).
Proof. intros H f a. unfold apply_upd. destruct (alookup (f, a) u); [reflexivity | apply H]. Qed.

Lemma sim_apply_ext sc P s t a args : state_eq s t -> ostate_eq (sim_apply sc P s a args) (sim_apply sc P t a args).
Proof.
  intros H. unfold sim_apply.
  pose proof (mk_interp_ext P s t (zip_params (a_params a) args) H) as HI.
  rewrite (all_hold_ext sc _ _ (a_pre a) HI), (fired_ext sc (a_effs a) _ _ HI).
  destruct (negb (all_hold sc (mk_interp P t (zip_params (a_params a) args)) (a_pre a))); [exact I|].
  destruct (fired sc (mk_interp P t (zip_params (a_params a) args)) (a_effs a)) as [acts|]; [|exact I].
  rewrite (sim_loop_ext P s t acts H).
  destruct (sim_loop P t ([], []) acts) as [[upd asg]|]; [|exact I].
  rewrite (invariants_ok_ext sc P _ _ (apply_upd_ext s t upd H)).
  destruct (invariants_ok sc P (apply_upd t upd)); [|exact I].
  apply apply_upd_ext, H.
Qed.

Definition effects_typed (sc : bool) (P : problem) (s : state) (a : action) (args : list value) : Prop :=
  forall acts, fired sc (mk_interp P s (zip_params (a_params a) args)) (a_effs a) = Some acts ->
               forallb (wt_aeff P) acts = true.

Theorem sim_apply_refines_spec sc P s a args :
  effects_typed sc P s a args ->
  ostate_eq (sim_apply sc P s a args) (spec_step sc P s a args).
Proof.
  intros WT. unfold sim_apply, spec_step.
  destruct (negb (all_hold sc (mk_interp P s (zip_params (a_params a) args)) (a_pre a))); [exact I|].
  destruct (fired sc (mk_interp P s (zip_params (a_params a) args)) (a_effs a)) as [acts|] eqn:EF; [|exact I].
  pose proof (sim_loop_spec P s acts (WT acts EF)) as L.
  destruct (sim_loop P s ([], []) acts) as [[upd asg]|].
  - destruct L as [L1 L2]. rewrite L1. simpl.
    assert (SE : state_eq (apply_upd s upd) (spec_succ P s acts)) by (intros f x; apply L2).
    rewrite (invariants_ok_ext sc P _ _ SE).
    destruct (invariants_ok sc P (spec_succ P s acts)); [exact SE | exact I].
  - rewrite L. simpl. exact I.
Qed.

Theorem is_applicable_iff_apply sc P s a args :
  sim_is_applicable sc P s a args = match sim_apply sc P s a args with Some _ => true | None => false end.
Proof.
  unfold sim_is_applicable, sim_apply.
  destruct (all_hold sc (mk_interp P s (zip_params (a_params a) args)) (a_pre a)); simpl; [|reflexivity].
  destruct (fired sc (mk_interp P s (zip_params (a_params a) args)) (a_effs a)) as [acts|]; [|reflexivity].
  destruct (sim_loop P s ([], []) acts) as [[upd asg]|]; [|reflexivity].
  destruct (invariants_ok sc P (apply_upd s upd)); reflexivity.
Qed.

Theorem is_goal_iff_no_unsat sc P s :
  sim_is_goal sc P s = match sim_unsat_goals sc P s with [] => true | _ :: _ => false end.
Proof.
  unfold sim_is_goal, goals_hold, sim_unsat_goals, all_hold.
  induction (p_goals P) as [|g gs IH]; simpl; [reflexivity|].
  destruct (holds sc (mk_interp P s []) g); simpl; [exact IH | reflexivity].
Qed.

(* a condition whose strict evaluation is undefined (it reads a fluent with no value) is never satisfied *)
Theorem undefined_never_satisfied I c : eval false c I = None -> holds false I c = false.
Proof. intros H. unfold holds. rewrite H. reflexivity. Qed.

Lemma run_cons P step s x pl :
  run P step s (x :: pl) =
  match lookup_action P (fst x) with
  | Some a => match step s a (snd x) with Some s' => run P step s' pl | None => None end
  | None => None
  end.
Proof. destruct x; reflexivity. Qed.

Lemma run_app P step l1 : forall s l2,
  run P step s (l1 ++ l2) = match run P step s l1 with Some t => run P step t l2 | None => None end.
Proof.
  induction l1 as [|x l1 IH]; intros s l2; [reflexivity|]. cbn [app]. rewrite !run_cons.
  destruct (lookup_action P (fst x)) as [a|]; [|reflexivity]. destruct (step s a (snd x)); [apply IH | reflexivity].
Qed.

Lemma run_respects P (step1 step2 : state -> action -> list value -> option state) :
  (forall s t x a, lookup_action P (fst x) = Some a -> state_eq s t -> ostate_eq (step1 s a (snd x)) (step2 t a (snd x))) ->
  forall plan s t, state_eq s t -> ostate_eq (run P step1 s plan) (run P step2 t plan).
Proof.
  intros H. induction plan as [|x plan IH]; intros s t E; [exact E|]. rewrite !run_cons.
  destruct (lookup_action P (fst x)) as [a|] eqn:EA; [|exact I]. pose proof (H s t x a EA E) as E1.
  destruct (step1 s a (snd x)), (step2 t a (snd x)); simpl in E1; try contradiction; [apply IH, E1 | exact I].
Qed.

Definition plan_typed (sc : bool) (P : problem) : Prop :=
  forall s aid a args, lookup_action P aid = Some a -> effects_typed sc P s a args.

Theorem sim_run_refines_spec sc P plan : plan_typed sc P -> forall s t, state_eq s t ->
  ostate_eq (run P (sim_apply sc P) s plan) (run P (spec_step sc P) t plan).
Proof.
  intros WT. apply run_respects. intros s t x a EA E.
  exact (ostate_eq_trans _ _ _ (sim_apply_ext sc P s t a (snd x) E) (sim_apply_refines_spec sc P t a (snd x) (WT t _ a _ EA))).
Qed.

(* a condition that holds under the strict reading holds under the code's short-circuit evaluation *)
Theorem holds_sc_of_strict I c : holds false I c = true -> holds true I c = true.
Proof.
  unfold holds. destruct (eval false c I) as [[[|]| |]|] eqn:E; try discriminate.
  intros _. rewrite (eval_sc_refines c I _ E). reflexivity.
Qed.

Definition sim_applicable_actions (sc : bool) (P : problem) (s : state) (insts : list (N * list value)) : list (N * list value) :=
  filter (fun ai => match lookup_action P (fst ai) with
                    | Some a => sim_is_applicable sc P s a (snd ai)
                    | None => false end) insts.

Theorem applicable_actions_exact sc P s insts ai :
  In ai (sim_applicable_actions sc P s insts) <->
  In ai insts /\ exists a, lookup_action P (fst ai) = Some a /\ exists t, sim_apply sc P s a (snd ai) = Some t.
Proof.
  unfold sim_applicable_actions. rewrite filter_In. split.
  - intros [H1 H2]. split; [exact H1|].
    destruct (lookup_action P (fst ai)) as [a|]; [|discriminate]. exists a. split; [reflexivity|].
    rewrite is_applicable_iff_apply in H2. destruct (sim_apply sc P s a (snd ai)) as [t|]; [eauto | discriminate].
  - intros [H1 [a [Ha [t Ht]]]]. split; [exact H1|]. rewrite Ha, is_applicable_iff_apply, Ht. reflexivity.
Qed.

(* a simulator query is a function of (problem, state, query) only: any interleaving of queries gives each query the
   answer it would get alone, and the state passed in is not an output of any query *)
Inductive query := QApplicable (aid : N) (args : list value) | QApply (aid : N) (args : list value) | QGoal | QUnsatGoals.
Inductive answer := ABool (b : bool) | AState (o : option (list (option value))) | ANat (n : nat).

Definition answer_of (sc : bool) (P : problem) (keys : list (N * list value)) (s : state) (q : query) : answer :=
  match q with
  | QApplicable aid args =>
      ABool (match lookup_action P aid with Some a => sim_is_applicable sc P s a args | None => false end)
  | QApply aid args =>
      AState (match lookup_action P aid with
              | Some a => option_map (fun t => map (fun k => t (fst k) (snd k)) keys) (sim_apply sc P s a args)
              | None => None end)
  | QGoal => ABool (sim_is_goal sc P s)
  | QUnsatGoals => ANat (length (sim_unsat_goals sc P s))
  end.

Definition run_queries (sc : bool) (P : problem) (keys : list (N * list value)) (qs : list (state * query)) : list answer :=
  map (fun sq => answer_of sc P keys (fst sq) (snd sq)) qs.

Theorem queries_pure sc P keys qs1 sq qs2 :
  nth_error (run_queries sc P keys (qs1 ++ sq :: qs2)) (length qs1) = Some (answer_of sc P keys (fst sq) (snd sq)).
Proof.
  unfold run_queries. rewrite map_app. simpl.
  rewrite nth_error_app2 by (rewrite map_length; apply le_n).
  rewrite map_length, Nat.sub_diag. reflexivity.
Qed.

Lemma spec_effects_ok_ext P s t acts : state_eq s t -> spec_effects_ok P s acts = spec_effects_ok P t acts.
Proof. intros H. apply spec_effects_ok_congr. intros a _. apply H. Qed.

Lemma spec_succ_ext P s t acts : state_eq s t -> state_eq (spec_succ P s acts) (spec_succ P t acts).
Proof. intros H f a. apply spec_succ_congr, H. Qed.

Lemma spec_step_eq sc P s a args :
  spec_step sc P s a args =
  if negb (all_hold sc (mk_interp P s (zip_params (a_params a) args)) (a_pre a)) then None
  else match fired sc (mk_interp P s (zip_params (a_params a) args)) (a_effs a) with
       | None => None
       | Some acts =>
           if negb (spec_effects_ok P s acts) then None
           else if invariants_ok sc P (spec_succ P s acts) then Some (spec_succ P s acts) else None
       end.
Proof. reflexivity. Qed.

Lemma spec_step_inv sc P s a args s' :
  spec_step sc P s a args = Some s' ->
  all_hold sc (mk_interp P s (zip_params (a_params a) args)) (a_pre a) = true /\
  exists acts, fired sc (mk_interp P s (zip_params (a_params a) args)) (a_effs a) = Some acts /\
               spec_effects_ok P s acts = true /\ s' = spec_succ P s acts /\ invariants_ok sc P s' = true.
Proof.
  rewrite spec_step_eq. destruct (all_hold sc _ (a_pre a)); cbn [negb]; [|discriminate].
  destruct (fired sc _ (a_effs a)) as [acts|]; [|discriminate].
  destruct (spec_effects_ok P s acts) eqn:EO; cbn [negb]; [|discriminate].
  destruct (invariants_ok sc P (spec_succ P s acts)) eqn:EI; [|discriminate].
  intros H. inversion H; subst s'. split; [reflexivity|]. exists acts. repeat split; assumption.
Qed.

Lemma spec_step_ext sc P s t a args :
  state_eq s t -> ostate_eq (spec_step sc P s a args) (spec_step sc P t a args).
Proof.
  intros H. rewrite !spec_step_eq.
  pose proof (mk_interp_ext P s t (zip_params (a_params a) args) H) as HI.
  rewrite (all_hold_ext sc _ _ (a_pre a) HI), (fired_ext sc (a_effs a) _ _ HI).
  destruct (negb (all_hold sc (mk_interp P t (zip_params (a_params a) args)) (a_pre a))); [exact I|].
  destruct (fired sc (mk_interp P t (zip_params (a_params a) args)) (a_effs a)) as [acts|]; [|exact I].
  rewrite (spec_effects_ok_ext P s t acts H).
  destruct (negb (spec_effects_ok P t acts)); [exact I|].
  rewrite (invariants_ok_ext sc P _ _ (spec_succ_ext P s t acts H)).
  destruct (invariants_ok sc P (spec_succ P t acts)); [|exact I].
  apply spec_succ_ext, H.
Qed.

Lemma goals_hold_ext sc P s t : state_eq s t -> goals_hold sc P s = goals_hold sc P t.
Proof. intros H. unfold goals_hold. apply all_hold_ext, mk_interp_ext, H. Qed.

Lemma run_ext sc P pi : forall s t, state_eq s t ->
  ostate_eq (run P (spec_step sc P) s pi) (run P (spec_step sc P) t pi).
Proof. apply run_respects. intros s t x a _. apply spec_step_ext. Qed.

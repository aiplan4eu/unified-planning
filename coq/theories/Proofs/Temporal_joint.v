(* Joint application of all the effects of one instant (C05, third core lemma): the loop of _apply_effects
   ([tt_loop]) is the sequential simulator's loop ([sim_loop], C01) plus the ownership test `assigned[f] == ai`;
   with Sem_proofs.sim_loop_spec it computes the declarative [joint_ok] / [joint_succ].  Also: the declarative joint
   application does not depend on the order of the events of the instant, and respects extensional state equality. *)
From Coq Require Import List ZArith NArith QArith Qcanon Bool Lia Permutation.
Import ListNotations.
Require Import UPV.Core.Expr UPV.Core.Eval UPV.Core.Interp UPV.Planning.Problem UPV.Planning.Sem.
Require Import UPV.Planning.Temporal UPV.Planning.TTValidate.
Require Import UPV.Proofs.ListFacts UPV.Proofs.Eval_lemmas UPV.Proofs.Sem_proofs UPV.Proofs.Step_proofs UPV.Proofs.Sem_perm.

Lemma src_eqb_eq a b : src_eqb a b = true <-> a = b.
Proof.
  destruct a as [x|], b as [y|]; cbn; try (split; [discriminate | intros H; discriminate H]); [|tauto].
  rewrite Nat.eqb_eq. split; [intros ->; reflexivity | intros H; inversion H; reflexivity].
Qed.
Lemma src_eqb_refl a : src_eqb a a = true.
Proof. apply src_eqb_eq; reflexivity. Qed.

Fixpoint src_ok (asg : own_map) (l : list tagged) : bool :=
  match l with
  | [] => true
  | (ai, a) :: l' =>
      if is_assign a
      then match owner (ae_key a) asg with
           | Some ow => src_eqb ow ai && src_ok asg l'
           | None => src_ok ((ae_key a, ai) :: asg) l'
           end
      else src_ok asg l'
  end.

Definition consistent (o : option src) (srcs : list src) : bool :=
  match o with Some ow => forallb (src_eqb ow) srcs | None => one_source srcs end.

Lemma assigners_cons k x l :
  assigners k (x :: l) = if gfl_eqb (ae_key (snd x)) k && is_assign (snd x) then fst x :: assigners k l else assigners k l.
Proof. unfold assigners. cbn. destruct (gfl_eqb (ae_key (snd x)) k && is_assign (snd x)); reflexivity. Qed.

Lemma src_ok_spec l : forall asg,
  src_ok asg l = true <-> forall k, consistent (owner k asg) (assigners k l) = true.
Proof.
  induction l as [|[ai a] l IH]; intros asg.
  - cbn. split; [|reflexivity]. intros _ k. destruct (owner k asg); reflexivity.
  - cbn [src_ok]. destruct (is_assign a) eqn:EA.
    + destruct (owner (ae_key a) asg) as [ow|] eqn:EO.
      * rewrite andb_true_iff, IH. split.
        -- intros [H1 H2] k. rewrite assigners_cons. cbn [fst snd]. rewrite EA, andb_true_r.
           destruct (gfl_eqb (ae_key a) k) eqn:E; [|apply H2].
           apply gfl_eqb_eq in E. subst k. rewrite EO. cbn. rewrite H1. specialize (H2 (ae_key a)). rewrite EO in H2. exact H2.
        -- intros H. split.
           ++ specialize (H (ae_key a)). rewrite assigners_cons in H. cbn [fst snd] in H.
              rewrite EA, gfl_eqb_refl, EO in H. cbn in H. apply andb_true_iff in H. apply H.
           ++ intros k. specialize (H k). rewrite assigners_cons in H. cbn [fst snd] in H. rewrite EA, andb_true_r in H.
              destruct (gfl_eqb (ae_key a) k) eqn:E; [|exact H].
              destruct (owner k asg) eqn:EO2; [cbn in H; apply andb_true_iff in H; apply H|].
              apply gfl_eqb_eq in E. subst k. congruence.
      * rewrite IH. split.
        -- intros H k. specialize (H k). rewrite assigners_cons. cbn [fst snd]. rewrite EA, andb_true_r.
           cbn [owner] in H. rewrite gfl_eqb_sym in H. destruct (gfl_eqb (ae_key a) k) eqn:E; [|exact H].
           apply gfl_eqb_eq in E. subst k. rewrite EO. cbn in *. exact H.
        -- intros H k. specialize (H k). rewrite assigners_cons in H. cbn [fst snd] in H. rewrite EA, andb_true_r in H.
           cbn [owner]. rewrite gfl_eqb_sym. destruct (gfl_eqb (ae_key a) k) eqn:E; [|exact H].
           apply gfl_eqb_eq in E. subst k. rewrite EO in H. cbn in *. exact H.
    + rewrite IH. split; intros H k; specialize (H k); rewrite assigners_cons in *; cbn [fst snd] in *;
        rewrite EA, andb_false_r in *; exact H.
Qed.

Corollary src_ok_nil l : src_ok [] l = true <-> forall k, one_source (assigners k l) = true.
Proof. rewrite src_ok_spec. cbn. tauto. Qed.

Definition rel (P : problem) (st : upd_map * own_map) (ss : upd_map * list gfl) : Prop :=
  (forall k, alookup k (fst st) = alookup k (fst ss)) /\
  (forall k, amem k (snd ss) = match owner k (snd st) with Some _ => true | None => false end) /\
  (forall k, alookup k (fst st) = None -> owner k (snd st) = None) /\
  (forall k old, is_bool_fluent P (fst k) = true -> alookup k (fst st) = Some old ->
                 is_vbool old = true /\ owner k (snd st) <> None).

Definition conflict (asg : own_map) (x : tagged) : bool :=
  is_assign (snd x) && match owner (ae_key (snd x)) asg with Some ow => negb (src_eqb ow (fst x)) | None => false end.

Definition next_asg (asg : own_map) (x : tagged) : own_map :=
  if is_assign (snd x) then match owner (ae_key (snd x)) asg with Some _ => asg | None => (ae_key (snd x), fst x) :: asg end
  else asg.

Lemma rel_cons_upd P upd asg upd' asg' k v :
  rel P (upd, asg) (upd', asg') -> alookup k upd <> None \/ owner k asg = None ->
  (is_bool_fluent P (fst k) = true -> is_vbool v = true /\ owner k asg <> None) ->
  rel P ((k, v) :: upd, asg) ((k, v) :: upd', asg').
Proof.
  intros (R1 & R2 & R3 & R4) H HB. split; [|split; [|split]]; cbn [fst snd] in *.
  - intros k0. cbn [alookup]. destruct (gfl_eqb k0 k); [reflexivity | apply R1].
  - apply R2.
  - intros k0. cbn [alookup]. destruct (gfl_eqb k0 k) eqn:E; [discriminate | apply R3].
  - intros k0 old Hb. cbn [alookup]. destruct (gfl_eqb k0 k) eqn:E; [|apply R4; exact Hb].
    apply gfl_eqb_eq in E. subst k0. intros HH; inversion HH; subst. apply HB, Hb.
Qed.

Lemma tt_step_sim P s st ss x :
  rel P st ss -> wt_aeff P (snd x) = true ->
  match sim_step P s ss (snd x) with
  | None => tt_step P s st x = None
  | Some ss' =>
      if conflict (snd st) x then tt_step P s st x = None
      else exists st', tt_step P s st x = Some st' /\ rel P st' ss' /\ snd st' = next_asg (snd st) x
  end.
Proof.
  destruct st as [upd asg], ss as [upd' asg'], x as [ai a]. intros R WT. pose proof R as (R1 & R2 & R3 & R4). cbn [fst snd] in *.
  unfold sim_step, tt_step, conflict, next_asg, is_assign. cbn [fst snd].
  unfold wt_aeff, is_assign in WT.
  rewrite <- (R1 (ae_key a)). rewrite (R2 (ae_key a)).
  destruct (ae_kind a) eqn:EK.
  - destruct (alookup (ae_key a) upd) as [old|] eqn:EL.
    + destruct (owner (ae_key a) asg) as [ow|] eqn:EO; cbn [negb andb].
      * destruct (value_eqb (ae_val a) old) eqn:EV; cbn [negb].
        -- destruct (src_eqb ow ai) eqn:ES; cbn [negb]; [|reflexivity].
           eexists. split; [reflexivity|]. split; [|reflexivity].
           apply value_eqb_eq in EV.
           split; [|split; [|split]]; cbn [fst snd].
           ++ intros k. cbn [alookup]. destruct (gfl_eqb k (ae_key a)) eqn:E; [|apply R1].
              apply gfl_eqb_eq in E. subst k. rewrite EL. congruence.
           ++ intros k. cbn [amem existsb]. fold (amem k asg'). rewrite R2.
              destruct (gfl_eqb k (ae_key a)) eqn:E; [|reflexivity]. apply gfl_eqb_eq in E. subst k. rewrite EO. reflexivity.
           ++ apply R3.
           ++ apply R4.
        -- destruct (is_bool_fluent P (fst (ae_key a))) eqn:EB; [|destruct (src_eqb ow ai); reflexivity].
           cbn in WT. destruct (ae_val a) as [bv| |] eqn:EVal; try discriminate.
           pose proof (proj1 (R4 _ _ EB EL)) as OB. destruct old as [ob| |]; try discriminate.
           destruct (src_eqb ow ai) eqn:ES; cbn [negb]; [|destruct ob; reflexivity].
           destruct ob, bv; cbn [is_vtrue]; cbn in EV; try discriminate;
             (eexists; split; [reflexivity|]; split; [|reflexivity]); try exact R.
           apply rel_cons_upd; [exact R | left; congruence | intros _; split; [reflexivity | congruence]].
      * destruct (negb (value_eqb (ae_val a) old)).
        -- destruct (is_bool_fluent P (fst (ae_key a))) eqn:EB; [|reflexivity].
           exfalso. apply (proj2 (R4 _ _ EB EL)). exact EO.
        -- reflexivity.
    + rewrite (R3 _ EL). cbn [andb].
      eexists. split; [reflexivity|]. split; [|reflexivity].
      split; [|split; [|split]]; cbn [fst snd].
      * intros k. cbn [alookup]. destruct (gfl_eqb k (ae_key a)); [reflexivity | apply R1].
      * intros k. cbn [amem existsb owner]. fold (amem k asg'). rewrite R2. destruct (gfl_eqb k (ae_key a)); reflexivity.
      * intros k. cbn [alookup owner]. destruct (gfl_eqb k (ae_key a)); [discriminate | apply R3].
      * intros k old Hb. cbn [alookup owner]. destruct (gfl_eqb k (ae_key a)) eqn:E; [|apply R4; exact Hb].
        apply gfl_eqb_eq in E. subst k. rewrite Hb in WT. cbn in WT. intros HH; inversion HH; subst.
        split; [exact WT | discriminate].
  - cbn [andb].
    assert (NB : is_bool_fluent P (fst (ae_key a)) = false).
    { destruct (is_bool_fluent P (fst (ae_key a))); [discriminate WT | reflexivity]. }
    destruct (owner (ae_key a) asg) as [ow|] eqn:EO.
    + destruct (s (fst (ae_key a)) (snd (ae_key a))) as [cur0|]; [|reflexivity].
      destruct (match alookup (ae_key a) upd with Some u => u | None => cur0 end) as [|c|]; try reflexivity.
      destruct (delta_of a); reflexivity.
    + destruct (s (fst (ae_key a)) (snd (ae_key a))) as [cur0|]; [|reflexivity].
      destruct (match alookup (ae_key a) upd with Some u => u | None => cur0 end) as [|c|]; try reflexivity.
      destruct (delta_of a) as [d|]; [|reflexivity].
      eexists. split; [reflexivity|]. split; [|reflexivity].
      apply rel_cons_upd; [exact R | right; exact EO | intros Hb; congruence].
  - cbn [andb].
    assert (NB : is_bool_fluent P (fst (ae_key a)) = false).
    { destruct (is_bool_fluent P (fst (ae_key a))); [discriminate WT | reflexivity]. }
    destruct (owner (ae_key a) asg) as [ow|] eqn:EO.
    + destruct (s (fst (ae_key a)) (snd (ae_key a))) as [cur0|]; [|reflexivity].
      destruct (match alookup (ae_key a) upd with Some u => u | None => cur0 end) as [|c|]; try reflexivity.
      destruct (delta_of a); reflexivity.
    + destruct (s (fst (ae_key a)) (snd (ae_key a))) as [cur0|]; [|reflexivity].
      destruct (match alookup (ae_key a) upd with Some u => u | None => cur0 end) as [|c|]; try reflexivity.
      destruct (delta_of a) as [d|]; [|reflexivity].
      eexists. split; [reflexivity|]. split; [|reflexivity].
      apply rel_cons_upd; [exact R | right; exact EO | intros Hb; congruence].
Qed.

Lemma rel_init P : rel P ([], []) ([], []).
Proof. split; [|split; [|split]]; cbn; intros; try reflexivity; discriminate. Qed.

Lemma tt_loop_sim P s l : forallb (wt_aeff P) (map snd l) = true -> forall st ss, rel P st ss ->
  match sim_loop P s ss (map snd l) with
  | None => tt_loop P s st l = None
  | Some ss' => if src_ok (snd st) l then exists st', tt_loop P s st l = Some st' /\ rel P st' ss'
                else tt_loop P s st l = None
  end.
Proof.
  induction l as [|x l IH]; intros WT st ss R.
  - cbn. exists st. split; [reflexivity | exact R].
  - cbn [map forallb] in WT. apply andb_true_iff in WT. destruct WT as [WT1 WT2].
    cbn [map sim_loop tt_loop]. pose proof (tt_step_sim P s st ss x R WT1) as ST.
    destruct (sim_step P s ss (snd x)) as [ss1|]; [|rewrite ST; reflexivity].
    unfold conflict in ST. destruct x as [ai a]. cbn [fst snd] in *. cbn [src_ok].
    destruct (is_assign a) eqn:EA; cbn [andb] in ST.
    + destruct (owner (ae_key a) (snd st)) as [ow|] eqn:EO.
      * destruct (src_eqb ow ai) eqn:ES; cbn [negb andb] in *.
        -- destruct ST as [st1 [E1 [R1 N1]]]. rewrite E1. unfold next_asg in N1. cbn [fst snd] in N1. rewrite EA, EO in N1.
           specialize (IH WT2 st1 ss1 R1). rewrite N1 in IH. exact IH.
        -- rewrite ST. destruct (sim_loop P s ss1 (map snd l)); reflexivity.
      * destruct ST as [st1 [E1 [R1 N1]]]. rewrite E1. unfold next_asg in N1. cbn [fst snd] in N1. rewrite EA, EO in N1.
        specialize (IH WT2 st1 ss1 R1). rewrite N1 in IH. exact IH.
    + destruct ST as [st1 [E1 [R1 N1]]]. rewrite E1. unfold next_asg in N1. cbn [fst snd] in N1. rewrite EA in N1.
      specialize (IH WT2 st1 ss1 R1). rewrite N1 in IH. exact IH.
Qed.

Lemma assigners_nonempty k l : assigners k l <> [] -> exists x, In x l /\ ae_key (snd x) = k.
Proof.
  unfold assigners. induction l as [|x l IH]; cbn; [intros H; contradiction|].
  destruct (gfl_eqb (ae_key (snd x)) k && is_assign (snd x)) eqn:E.
  - intros _. exists x. split; [left; reflexivity|]. apply andb_true_iff in E. apply gfl_eqb_eq, E.
  - intros H. destruct (IH H) as [y [Hy Ey]]. exists y. split; [right; exact Hy | exact Ey].
Qed.

(* the joint application has no conflict iff no fluent is assigned by two sources and the effects, read as those of one
   action, do not conflict *)
Lemma joint_ok_split P s l : joint_ok P s l = src_ok [] l && spec_effects_ok P s (map snd l).
Proof.
  apply eq_true_iff_eq. rewrite andb_true_iff, src_ok_nil. unfold joint_ok, spec_effects_ok, joint_fluent.
  rewrite forallb_map, !forallb_forall. split.
  - intros H. split.
    + intros k. destruct (assigners k l) as [|a0 r] eqn:EA; [reflexivity|].
      destruct (assigners_nonempty k l) as [x [Hx <-]]; [rewrite EA; discriminate|]. rewrite <- EA.
      specialize (H x Hx). destruct (one_source (assigners (ae_key (snd x)) l)); [reflexivity | discriminate].
    + intros x Hx. specialize (H x Hx). destruct (one_source (assigners (ae_key (snd x)) l)); [exact H | discriminate].
  - intros [H1 H2] x Hx. rewrite H1. apply H2, Hx.
Qed.

(* third core lemma: the loop of _apply_effects succeeds exactly when the joint application of the instant's effects
   has no conflict, and then make_child(updates) is the jointly specified successor, fluent by fluent *)
Theorem apply_effects_joint P s l : forallb (wt_aeff P) (map snd l) = true ->
  match tt_loop P s ([], []) l with
  | Some (upd, _) => joint_ok P s l = true /\ forall f args, apply_upd s upd f args = joint_succ P s l f args
  | None => joint_ok P s l = false
  end.
Proof.
  intros WT. pose proof (tt_loop_sim P s l WT ([], []) ([], []) (rel_init P)) as L.
  pose proof (sim_loop_spec P s (map snd l) WT) as SP. rewrite joint_ok_split.
  destruct (sim_loop P s ([], []) (map snd l)) as [[upd_s asg_s]|]; [|rewrite L, SP; apply andb_false_r].
  destruct SP as [SP1 SP2]. rewrite SP1, andb_true_r. cbn [snd] in L.
  destruct (src_ok [] l) eqn:SO; [|rewrite L; reflexivity].
  destruct L as [[upd asg] [E [R _]]]. rewrite E. split; [reflexivity|]. intros f args.
  transitivity (spec_succ P s (map snd l) f args).
  - rewrite <- (SP2 f args). unfold apply_upd. cbn [fst] in R. rewrite (R (f, args)). reflexivity.
  - unfold joint_succ, joint_fluent, spec_succ. rewrite (proj1 (src_ok_nil l) SO). reflexivity.
Qed.

Lemma all_eq_spec (a : value) rest : forallb (value_eqb a) rest = true <-> forall y, In y rest -> y = a.
Proof.
  rewrite forallb_forall. split; intros H y Hy.
  - symmetry. apply value_eqb_eq, H, Hy.
  - apply value_eqb_eq. symmetry. apply H, Hy.
Qed.

Lemma all_same_spec (a : value) rest :
  forallb (value_eqb a) rest = true <-> (forall x y, In x (a :: rest) -> In y (a :: rest) -> x = y).
Proof.
  rewrite all_eq_spec. split.
  - intros H x y Hx Hy. assert (E : forall z, In z (a :: rest) -> z = a) by (intros z [<-|Hz]; [reflexivity | apply H, Hz]).
    rewrite (E x Hx), (E y Hy). reflexivity.
  - intros H y Hy. apply H; [right; exact Hy | left; reflexivity].
Qed.

Lemma one_source_spec srcs : one_source srcs = true <-> forall x y, In x srcs -> In y srcs -> x = y.
Proof.
  destruct srcs as [|a r]; cbn [one_source]; [split; [intros _ x y [] | reflexivity]|].
  rewrite forallb_forall. split.
  - intros H x y Hx Hy.
    assert (E : forall z, In z (a :: r) -> z = a).
    { intros z [<-|Hz]; [reflexivity | symmetry; apply src_eqb_eq, H, Hz]. }
    rewrite (E x Hx), (E y Hy). reflexivity.
  - intros H x Hx. apply src_eqb_eq. apply H; [left; reflexivity | right; exact Hx].
Qed.

Lemma one_source_perm a b : Permutation a b -> one_source a = one_source b.
Proof.
  intros PM. apply eq_true_iff_eq. rewrite !one_source_spec. split; intros H x y Hx Hy.
  - apply H; apply (Permutation_in _ (Permutation_sym PM)); assumption.
  - apply H; apply (Permutation_in _ PM); assumption.
Qed.

Lemma joint_fluent_perm P s l l' k : Permutation l l' -> joint_fluent P s l k = joint_fluent P s l' k.
Proof.
  intros PM. unfold joint_fluent, assigners, spec_fluent, avals, deltas.
  rewrite (one_source_perm _ _ (Permutation_map fst (Permutation_filter _ _ _ PM))).
  destruct (one_source _); [|reflexivity].
  apply combine_perm; apply Permutation_map, Permutation_filter, Permutation_map, PM.
Qed.

Lemma joint_ok_perm P s l l' : Permutation l l' -> joint_ok P s l = joint_ok P s l'.
Proof.
  intros PM. unfold joint_ok. rewrite (Permutation_forallb _ _ _ PM).
  apply forallb_ext. intros x. rewrite (joint_fluent_perm P s l l' _ PM). reflexivity.
Qed.

Lemma joint_succ_perm P s l l' : Permutation l l' -> forall f a, joint_succ P s l f a = joint_succ P s l' f a.
Proof. intros PM f a. unfold joint_succ. rewrite (joint_fluent_perm P s l l' _ PM). reflexivity. Qed.

Lemma fire_events_perm sc P s evs evs' : Permutation evs evs' ->
  match fire_events sc P s evs, fire_events sc P s evs' with
  | Some l, Some l' => Permutation l l'
  | None, None => True
  | _, _ => False
  end.
Proof.
  induction 1 as [|x l l' _ IH|x y l|l l' l'' _ IH1 _ IH2]; cbn [fire_events].
  - constructor.
  - destruct (fired sc (mk_interp P s (ev_bind x)) (ev_effs x)) as [fx|];
      destruct (fire_events sc P s l), (fire_events sc P s l'); try contradiction; try exact I.
    apply Permutation_app_head, IH.
  - destruct (fired sc (mk_interp P s (ev_bind x)) (ev_effs x)) as [fx|],
             (fired sc (mk_interp P s (ev_bind y)) (ev_effs y)) as [fy|],
             (fire_events sc P s l) as [r|]; try exact I.
    rewrite !app_assoc. apply Permutation_app_tail, Permutation_app_comm.
  - destruct (fire_events sc P s l), (fire_events sc P s l'), (fire_events sc P s l''); try contradiction; try exact I.
    eapply Permutation_trans; eassumption.
Qed.

Lemma ref_apply_perm sc P s evs evs' : Permutation evs evs' ->
  ostate_eq (ref_apply sc P s evs) (ref_apply sc P s evs').
Proof.
  intros PM. unfold ref_apply. pose proof (fire_events_perm sc P s evs evs' PM) as F.
  destruct (fire_events sc P s evs) as [l|], (fire_events sc P s evs') as [l'|]; try contradiction; [|exact I].
  rewrite (joint_ok_perm P s l l' F). destruct (joint_ok P s l'); [|exact I].
  intros f a. apply joint_succ_perm, F.
Qed.

Lemma fire_events_ext sc P s t evs : state_eq s t -> fire_events sc P s evs = fire_events sc P t evs.
Proof.
  intros H. induction evs as [|e evs IH]; [reflexivity|]. cbn [fire_events].
  rewrite (fired_ext sc (ev_effs e) _ _ (mk_interp_ext P s t (ev_bind e) H)), IH. reflexivity.
Qed.

Lemma joint_fluent_ext P s t l k : state_eq s t -> joint_fluent P s l k = joint_fluent P t l k.
Proof. intros H. unfold joint_fluent, spec_fluent. rewrite (H (fst k) (snd k)). reflexivity. Qed.

Lemma ref_apply_ext sc P s t evs : state_eq s t -> ostate_eq (ref_apply sc P s evs) (ref_apply sc P t evs).
Proof.
  intros H. unfold ref_apply. rewrite (fire_events_ext sc P s t evs H).
  destruct (fire_events sc P t evs) as [l|]; [|exact I].
  assert (E : joint_ok P s l = joint_ok P t l).
  { unfold joint_ok. apply forallb_ext. intros x. rewrite (joint_fluent_ext P s t l _ H). reflexivity. }
  rewrite E. destruct (joint_ok P t l); [|exact I].
  intros f a. unfold joint_succ. rewrite (joint_fluent_ext P s t l _ H), (H f a). reflexivity.
Qed.

Lemma tt_step_ext P s t st x : state_eq s t -> tt_step P s st x = tt_step P t st x.
Proof.
  intros H. unfold tt_step. destruct st as [upd asg], x as [ai a].
  rewrite (H (fst (ae_key a)) (snd (ae_key a))). reflexivity.
Qed.

Lemma tt_loop_ext P s t l : state_eq s t -> forall st, tt_loop P s st l = tt_loop P t st l.
Proof.
  intros H. induction l as [|x l IH]; intros st; [reflexivity|]. cbn [tt_loop].
  rewrite (tt_step_ext P s t st x H). destruct (tt_step P t st x); [apply IH | reflexivity].
Qed.

Lemma tt_apply_effects_ext sc P s t g : state_eq s t ->
  ostate_eq (tt_apply_effects sc P s g) (tt_apply_effects sc P t g).
Proof.
  intros H. unfold tt_apply_effects. rewrite (fire_events_ext sc P s t g H).
  destruct (fire_events sc P t g) as [l|]; [|exact I].
  rewrite (tt_loop_ext P s t l H). destruct (tt_loop P t ([], []) l) as [[upd asg]|]; [|exact I].
  apply apply_upd_ext, H.
Qed.

Definition event_typed (sc : bool) (P : problem) (e : event) : Prop :=
  forall s acts, fired sc (mk_interp P s (ev_bind e)) (ev_effs e) = Some acts -> forallb (wt_aeff P) acts = true.

Lemma fire_events_typed sc P s evs l :
  (forall e, In e evs -> event_typed sc P e) -> fire_events sc P s evs = Some l ->
  forallb (wt_aeff P) (map snd l) = true.
Proof.
  revert l. induction evs as [|e evs IH]; intros l HT E.
  - inversion E; reflexivity.
  - cbn [fire_events] in E.
    destruct (fired sc (mk_interp P s (ev_bind e)) (ev_effs e)) as [fe|] eqn:EF; [|discriminate].
    destruct (fire_events sc P s evs) as [r|]; [|discriminate]. inversion E; subst.
    rewrite map_app, forallb_app, map_map. cbn [snd]. rewrite map_id.
    rewrite (HT e (or_introl eq_refl) s fe EF). apply IH; [|reflexivity]. intros e' He'. apply HT. right. exact He'.
Qed.

(* the model's application of a group of simultaneous effects is the reference joint application *)
Theorem tt_apply_effects_ref sc P s g :
  (forall e, In e g -> event_typed sc P e) ->
  ostate_eq (tt_apply_effects sc P s g) (ref_apply sc P s g).
Proof.
  intros HT. unfold tt_apply_effects, ref_apply.
  destruct (fire_events sc P s g) as [l|] eqn:EF; [|exact I].
  pose proof (apply_effects_joint P s l (fire_events_typed sc P s g l HT EF)) as J.
  destruct (tt_loop P s ([], []) l) as [[upd asg]|].
  - destruct J as [J1 J2]. rewrite J1. intros f a. apply J2.
  - rewrite J. exact I.
Qed.

(* what a conflict at one instant is, per ground fluent *)
Definition base_num (old : option value) (D : list (option Qc)) : Prop :=
  match old with Some (VNum c) => sum_deltas c D <> None | _ => False end.

Lemma combine_fail_iff isb old A D :
  combine isb old A D = CFail <->
  (A <> [] /\ D <> []) \/
  (isb = false /\ D = [] /\ exists a b, In a A /\ In b A /\ a <> b) \/
  (A = [] /\ D <> [] /\ ~ base_num old D).
Proof.
  destruct A as [|a rest], D as [|d D0]; cbn [combine].
  - split; [discriminate|]. intros [[H _]|[[_ [_ [x [y [[] _]]]]]|[_ [H _]]]]; contradiction.
  - split.
    + intros H. right; right. split; [reflexivity|]. split; [discriminate|]. unfold base_num.
      destruct old as [[b|c|o]|]; try tauto. destruct (sum_deltas c (d :: D0)); [discriminate | tauto].
    + intros [[H _]|[[_ [H _]]|[_ [_ H]]]]; [contradiction | discriminate|]. unfold base_num in H.
      destruct old as [[b|c|o]|]; try reflexivity. destruct (sum_deltas c (d :: D0)); [|reflexivity].
      exfalso. apply H. discriminate.
  - destruct isb.
    + split; [discriminate|]. intros [[_ H]|[[H _]|[H _]]]; [contradiction | discriminate | discriminate].
    + destruct (forallb (value_eqb a) rest) eqn:E.
      * split; [discriminate|]. intros [[_ H]|[[_ [_ [x [y [Hx [Hy N]]]]]]|[H _]]]; [contradiction| |discriminate].
        exfalso. apply N. apply (proj1 (all_same_spec a rest) E); assumption.
      * split; [|reflexivity]. intros _. right; left. split; [reflexivity|]. split; [reflexivity|].
        destruct (forallb_false_ex _ _ E) as [y [Hy Ny]]. exists a, y. split; [left; reflexivity|]. split; [right; exact Hy|].
        intros EQ. rewrite <- EQ, value_eqb_refl in Ny. discriminate.
  - split; [|reflexivity]. intros _. left. split; discriminate.
Qed.

(* conflicts of the joint application: two different sources assign the fluent, or Sem.v's combination fails
   (assignment together with increase/decrease, two different values of a non-Boolean fluent, or an increase /
   decrease that has no numeric value to work on) *)
Theorem joint_conflict_iff P s l k :
  joint_fluent P s l k = CFail <->
  (exists x y, In x (assigners k l) /\ In y (assigners k l) /\ x <> y) \/
  (avals k (map snd l) <> [] /\ deltas k (map snd l) <> []) \/
  (is_bool_fluent P (fst k) = false /\ deltas k (map snd l) = [] /\
     exists a b, In a (avals k (map snd l)) /\ In b (avals k (map snd l)) /\ a <> b) \/
  (avals k (map snd l) = [] /\ deltas k (map snd l) <> [] /\ ~ base_num (s (fst k) (snd k)) (deltas k (map snd l))).
Proof.
  unfold joint_fluent. destruct (one_source (assigners k l)) eqn:E.
  - unfold spec_fluent. rewrite combine_fail_iff. split.
    + intros H. right. exact H.
    + intros [[x [y [Hx [Hy N]]]]|H]; [|exact H]. exfalso. apply N. apply (proj1 (one_source_spec _) E); assumption.
  - split; [|reflexivity]. intros _. left.
    destruct (assigners k l) as [|a r]; [discriminate|]. cbn in E.
    destruct (forallb_false_ex _ _ E) as [y [Hy Ny]]. exists a, y. split; [left; reflexivity|]. split; [right; exact Hy|].
    intros EQ. rewrite <- EQ, src_eqb_refl in Ny. discriminate.
Qed.

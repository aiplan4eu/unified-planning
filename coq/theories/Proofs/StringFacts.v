(* Facts about [string] and [ascii] that the text codecs share: append, and deciding a property of all 256 characters
   by evaluation. *)
From Coq Require Import List String Ascii Bool.
Import ListNotations.
Local Open Scope string_scope.

Lemma str_app_nil_r (s : string) : s ++ "" = s.
Proof. induction s as [|c s IH]; cbn [append]; [reflexivity|]. rewrite IH. reflexivity. Qed.

Lemma str_app_assoc (a b c : string) : (a ++ b) ++ c = a ++ (b ++ c).
Proof. induction a as [|x a IH]; cbn [append]; [reflexivity|]. rewrite IH. reflexivity. Qed.

Lemma str_app_inj_l (p a b : string) : p ++ a = p ++ b -> a = b.
Proof. induction p as [|c p IH]; cbn [append]; intro H; [exact H|]. injection H as H. exact (IH H). Qed.

Lemma str_length_app (a b : string) : String.length (a ++ b) = String.length a + String.length b.
Proof. induction a as [|c a IH]; cbn [append String.length]; [reflexivity|]. rewrite IH. reflexivity. Qed.

Definition both (f : bool -> bool) : bool := f true && f false.
Definition all_chars (p : ascii -> bool) : bool :=
  both (fun b0 => both (fun b1 => both (fun b2 => both (fun b3 => both (fun b4 => both (fun b5 => both (fun b6 =>
  both (fun b7 => p (Ascii b0 b1 b2 b3 b4 b5 b6 b7))))))))).

Lemma both_spec (f : bool -> bool) : both f = true -> forall b, f b = true.
Proof. unfold both. intros H b. apply andb_true_iff in H. destruct b; tauto. Qed.

Lemma all_chars_spec (p : ascii -> bool) : all_chars p = true -> forall c, p c = true.
Proof.
  intros H [b0 b1 b2 b3 b4 b5 b6 b7].
  exact (both_spec _ (both_spec _ (both_spec _ (both_spec _ (both_spec _ (both_spec _ (both_spec _ (both_spec _ H b0) b1) b2)
           b3) b4) b5) b6) b7).
Qed.

Lemma chars_impl (p q : ascii -> bool) : all_chars (fun c => implb (p c) (q c)) = true -> forall c, p c = true -> q c = true.
Proof. intros H c Hp. pose proof (all_chars_spec _ H c) as Hc. cbn beta in Hc. rewrite Hp in Hc. exact Hc. Qed.

Lemma chars_excl (p q : ascii -> bool) :
  all_chars (fun c => implb (p c) (negb (q c))) = true -> forall c, p c = true -> q c = false.
Proof. intros H c Hp. apply negb_true_iff. exact (chars_impl p (fun c => negb (q c)) H c Hp). Qed.

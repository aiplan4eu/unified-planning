(* The five shapes of an expression: a leaf, a unary operator [E1 o a], a binary operator [E2 o a b], an operator on a
   list [En o l] (the two applications carry their symbol), a quantifier [EQ ex vs a].  The fixpoints of the model treat
   the members of one shape alike (they are written with or-patterns over exactly these groups), so a lemma about such a
   fixpoint states one equation per shape, each proved by [destruct o; reflexivity], and then runs [expr_view_ind]. *)
From Coq Require Import List NArith.
Import ListNotations.
Require Import UPV.Core.Expr UPV.Proofs.ExprKids.

Inductive op1 := UNot | UAlways | USometime | UAtMostOnce.
Inductive op2 := BImplies | BIff | BMinus | BDiv | BLe | BLt | BEquals | BSometimeBefore | BSometimeAfter.
Inductive opn := NFluent (f : N) | NIFun (f : N) | NAnd | NOr | NPlus | NTimes.

Definition E1 (o : op1) : expr -> expr :=
  match o with UNot => ENot | UAlways => EAlways | USometime => ESometime | UAtMostOnce => EAtMostOnce end.

Definition E2 (o : op2) : expr -> expr -> expr :=
  match o with
  | BImplies => EImplies | BIff => EIff | BMinus => EMinus | BDiv => EDiv | BLe => ELe | BLt => ELt
  | BEquals => EEquals | BSometimeBefore => ESometimeBefore | BSometimeAfter => ESometimeAfter
  end.

Definition En (o : opn) : list expr -> expr :=
  match o with
  | NFluent f => EFluent f | NIFun f => EIFun f | NAnd => EAnd | NOr => EOr | NPlus => EPlus | NTimes => ETimes
  end.

Definition EQ (ex : bool) : list (N * N) -> expr -> expr := if ex then EExists else EForall.

Definition is_leaf (e : expr) : bool :=
  match e with EBool _ | EInt _ | EReal _ | EObj _ | EParam _ | EVar _ _ => true | _ => false end.

Lemma expr_view_ind (P : expr -> Prop) :
  (forall e, is_leaf e = true -> P e) ->
  (forall o a, P a -> P (E1 o a)) ->
  (forall o a b, P a -> P b -> P (E2 o a b)) ->
  (forall o l, Forall P l -> P (En o l)) ->
  (forall ex vs a, P a -> P (EQ ex vs a)) ->
  forall e, P e.
Proof.
  intros HL H1 H2 Hn HQ. induction e using expr_ind'; try (apply HL; reflexivity).
  - exact (Hn (NFluent f) _ H).
  - exact (Hn (NIFun f) _ H).
  - exact (Hn NAnd _ H).
  - exact (Hn NOr _ H).
  - exact (H1 UNot _ IHe).
  - exact (H2 BImplies _ _ IHe1 IHe2).
  - exact (H2 BIff _ _ IHe1 IHe2).
  - exact (HQ true _ _ IHe).
  - exact (HQ false _ _ IHe).
  - exact (Hn NPlus _ H).
  - exact (H2 BMinus _ _ IHe1 IHe2).
  - exact (Hn NTimes _ H).
  - exact (H2 BDiv _ _ IHe1 IHe2).
  - exact (H2 BLe _ _ IHe1 IHe2).
  - exact (H2 BLt _ _ IHe1 IHe2).
  - exact (H2 BEquals _ _ IHe1 IHe2).
  - exact (H1 UAlways _ IHe).
  - exact (H1 USometime _ IHe).
  - exact (H2 BSometimeBefore _ _ IHe1 IHe2).
  - exact (H2 BSometimeAfter _ _ IHe1 IHe2).
  - exact (H1 UAtMostOnce _ IHe).
Qed.

Lemma expr_view (e : expr) :
  is_leaf e = true \/ (exists o a, e = E1 o a) \/ (exists o a b, e = E2 o a b) \/ (exists o l, e = En o l) \/
  (exists ex vs a, e = EQ ex vs a).
Proof.
  induction e using expr_view_ind; [left; assumption|right..].
  - left. eauto.
  - right. left. eauto.
  - right. right. left. eauto.
  - right. right. right. eauto.
Qed.

Lemma kids_E1 o a : kids (E1 o a) = [a]. Proof. destruct o; reflexivity. Qed.
Lemma kids_E2 o a b : kids (E2 o a b) = [a; b]. Proof. destruct o; reflexivity. Qed.
Lemma kids_En o l : kids (En o l) = l. Proof. destruct o; reflexivity. Qed.
Lemma kids_EQ ex vs a : kids (EQ ex vs a) = [a]. Proof. destruct ex; reflexivity. Qed.

Lemma fv_list_fix l :
  (fix lf (l : list expr) : list N := match l with [] => [] | x :: l' => free_vars x ++ lf l' end) l
  = flat_map free_vars l.
Proof. induction l as [|x l IH]; [reflexivity|]. cbn [flat_map]. rewrite IH. reflexivity. Qed.

Lemma fv_E1 o a : free_vars (E1 o a) = free_vars a. Proof. destruct o; reflexivity. Qed.
Lemma fv_E2 o a b : free_vars (E2 o a b) = free_vars a ++ free_vars b. Proof. destruct o; reflexivity. Qed.
Lemma fv_En o l : free_vars (En o l) = flat_map free_vars l. Proof. destruct o; apply fv_list_fix. Qed.
Lemma fv_EQ ex vs a :
  free_vars (EQ ex vs a) = filter (fun v => negb (memN v (map fst vs))) (free_vars a).
Proof. destruct ex; reflexivity. Qed.

(* ---- rebuilding a node through the ExpressionManager: Not, And, Or, Plus, Times normalise (mkNot .. mkTimes), every
   other operator is the plain constructor ---- *)
Definition mk1 (o : op1) : expr -> expr := match o with UNot => mkNot | _ => E1 o end.
Definition mkn (o : opn) : list expr -> expr :=
  match o with NAnd => mkAnd | NOr => mkOr | NPlus => mkPlus | NTimes => mkTimes | _ => En o end.

(* what a normalising constructor returns: a constant for no argument, the argument itself for one, the node otherwise *)
Lemma mkn_cases o l :
  mkn o l = En o l \/ (exists x, l = [x] /\ mkn o l = x) \/ (l = [] /\ is_leaf (mkn o l) = true).
Proof.
  destruct o as [f|f| | | |].
  1, 2: left; reflexivity.
  all: destruct l as [|x [|y l]];
    [right; right; split; reflexivity | right; left; exists x; split; reflexivity | left; reflexivity].
Qed.

Lemma mk1_cases o a : mk1 o a = E1 o a \/ (exists x, o = UNot /\ a = ENot x /\ mk1 o a = x).
Proof. destruct o; try (left; reflexivity). destruct a; try (left; reflexivity). right. eauto. Qed.

Lemma fv_mk1 o a : free_vars (mk1 o a) = free_vars a.
Proof. destruct o; try reflexivity. destruct a; reflexivity. Qed.

Lemma fv_mkn o l : free_vars (mkn o l) = flat_map free_vars l.
Proof.
  destruct (mkn_cases o l) as [E|[[x [-> E]]|[-> _]]].
  - rewrite E. apply fv_En.
  - rewrite E. cbn [flat_map]. rewrite app_nil_r. reflexivity.
  - destruct o; reflexivity.
Qed.

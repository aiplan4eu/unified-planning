(* The main loop of TimeTriggeredPlanValidator._validate (start list + heap of scheduled effects) applies the groups of
   simultaneous scheduled entries in increasing time: [tt_main] = push every entry, then [run_groups] over [groups].
   For a time-sorted heap that is a permutation of all the events of a plan, applying its groups of simultaneous
   entries ([run_groups], the model) is the reference run over the happening times in increasing order ([run_times]). *)
From Coq Require Import List ZArith NArith QArith Qcanon Bool Lia Lqa Permutation.
Import ListNotations.
Require Import UPV.Core.Expr UPV.Core.Eval UPV.Core.Interp UPV.Planning.Problem UPV.Planning.Sem.
Require Import UPV.Planning.Temporal UPV.Planning.TTValidate.
Require Import UPV.Proofs.ListFacts UPV.Proofs.InsertBy UPV.Proofs.Eval_lemmas UPV.Proofs.Sem_proofs UPV.Proofs.Step_proofs.
Require Import UPV.Proofs.Temporal_base UPV.Proofs.Temporal_dense UPV.Proofs.Temporal_joint.
Local Open Scope Qc_scope.

Definition sortedT : list event -> Prop := sorted_by (fun e x => ev_time e <= ev_time x).

(* [hpush e h] is [insert_by] with the test "strictly earlier"; [sortedT] is [sorted_by] for "not later" *)
Lemma hpush_In e h x : In x (hpush e h) <-> x = e \/ In x h.
Proof. exact (insert_by_In (fun e x => qc_ltb (ev_time e) (ev_time x)) e h x). Qed.

Lemma hpush_sorted e h : sortedT h -> sortedT (hpush e h).
Proof.
  apply (insert_by_sorted (fun e x => qc_ltb (ev_time e) (ev_time x)) (fun e x => ev_time e <= ev_time x)).
  - intros x y H. qb. qco.
  - intros x y H. qb. exact H.
  - intros x y z H1 H2. qco.
Qed.

Lemma hpush_perm e h : Permutation (hpush e h) (e :: h).
Proof. exact (insert_by_perm (fun e x => qc_ltb (ev_time e) (ev_time x)) e h). Qed.

Lemma hpush_prefix e pre post :
  (forall x, In x pre -> ev_time x <= ev_time e) -> hpush e (pre ++ post) = pre ++ hpush e post.
Proof.
  induction pre as [|y pre IH]; intros H; [reflexivity|]. cbn.
  assert (E : qc_ltb (ev_time e) (ev_time y) = false) by (apply qc_ltb_false, H; left; reflexivity).
  rewrite E. f_equal. apply IH. intros x Hx. apply H. right. exact Hx.
Qed.

Lemma hpush_all_In evs : forall h x, In x (hpush_all evs h) <-> In x evs \/ In x h.
Proof.
  induction evs as [|e evs IH]; intros h x; cbn; [intuition|].
  unfold hpush_all in *. cbn. rewrite IH, hpush_In. intuition.
Qed.

Lemma hpush_all_sorted evs : forall h, sortedT h -> sortedT (hpush_all evs h).
Proof.
  induction evs as [|e evs IH]; intros h S; [exact S|]. unfold hpush_all in *. cbn. apply IH, hpush_sorted, S.
Qed.

Lemma hpush_all_perm evs : forall h, Permutation (hpush_all evs h) (evs ++ h).
Proof.
  induction evs as [|e evs IH]; intros h; [apply Permutation_refl|]. unfold hpush_all in *. cbn.
  eapply Permutation_trans; [apply IH|].
  eapply Permutation_trans; [apply Permutation_app_head, hpush_perm|].
  apply Permutation_sym, Permutation_middle.
Qed.

Lemma hpush_all_prefix evs : forall pre post,
  (forall x e, In x pre -> In e evs -> ev_time x <= ev_time e) ->
  hpush_all evs (pre ++ post) = pre ++ hpush_all evs post.
Proof.
  induction evs as [|e evs IH]; intros pre post H; [reflexivity|]. unfold hpush_all in *. cbn.
  rewrite hpush_prefix by (intros x Hx; apply (H x e Hx); left; reflexivity).
  apply IH. intros x e' Hx He'. apply (H x e' Hx). right. exact He'.
Qed.

Fixpoint groups (h : list event) : list (Qc * list event) :=
  match h with
  | [] => []
  | e :: r =>
      match groups r with
      | (t, g) :: gs => if qc_eqb (ev_time e) t then (t, e :: g) :: gs else (ev_time e, [e]) :: (t, g) :: gs
      | [] => [(ev_time e, [e])]
      end
  end.

Lemma groups_cons e r :
  groups (e :: r) =
  match groups r with
  | (t, g) :: gs => if qc_eqb (ev_time e) t then (t, e :: g) :: gs else (ev_time e, [e]) :: (t, g) :: gs
  | [] => [(ev_time e, [e])]
  end.
Proof. reflexivity. Qed.

Lemma groups_head e r : exists g gs, groups (e :: r) = (ev_time e, e :: g) :: gs.
Proof.
  cbn. destruct (groups r) as [|[t g] gs]; [exists [], []; reflexivity|].
  destruct (qc_eqb (ev_time e) t) eqn:E; [|exists [], ((t, g) :: gs); reflexivity].
  apply qc_eqb_eq in E. subst t. exists g, gs. reflexivity.
Qed.

Lemma span_groups r : forall e,
  let '(g, r') := span_time (ev_time e) r in
  groups (e :: r) = (ev_time e, e :: g) :: groups r' /\ (length r' <= length r)%nat /\ r = g ++ r' /\
  (forall x, In x g -> ev_time x = ev_time e) /\
  (match r' with [] => True | y :: _ => ev_time y <> ev_time e end).
Proof.
  induction r as [|x r IH]; intros e.
  - cbn. repeat split; auto. intros x [].
  - cbn [span_time]. destruct (qc_eqb (ev_time x) (ev_time e)) eqn:E.
    + apply qc_eqb_eq in E. specialize (IH x). rewrite E in IH.
      destruct (span_time (ev_time e) r) as [g r'] eqn:ES.
      destruct IH as (I1 & I2 & I3 & I4 & I5).
      split; [|split; [|split; [|split]]].
      * rewrite (groups_cons e (x :: r)), I1, qc_eqb_refl. reflexivity.
      * cbn [length]. lia.
      * cbn. f_equal. exact I3.
      * intros y [<-|Hy]; [exact E | apply I4, Hy].
      * exact I5.
    + split; [|split; [|split; [|split]]].
      * destruct (groups_head x r) as [g [gs EG]].
        rewrite (groups_cons e (x :: r)), EG. assert (E' : qc_eqb (ev_time e) (ev_time x) = false).
        { apply qc_eqb_false. apply qc_eqb_false in E. congruence. }
        rewrite E'. reflexivity.
      * lia.
      * reflexivity.
      * intros y [].
      * apply qc_eqb_false in E. exact E.
Qed.

Lemma groups_app pre post :
  (forall x y, In x pre -> In y post -> ev_time x <> ev_time y) -> groups (pre ++ post) = groups pre ++ groups post.
Proof.
  induction pre as [|e pre IH]; intros H; [reflexivity|].
  cbn [app groups]. rewrite IH by (intros x y Hx Hy; apply H; [right; exact Hx | exact Hy]).
  destruct (groups pre) as [|[t g] gs] eqn:EG; [|cbn [app]; destruct (qc_eqb (ev_time e) t); reflexivity].
  cbn [app]. destruct pre; [|destruct (groups_head e0 pre) as [g' [gs' E']]; rewrite E' in EG; discriminate].
  cbn [app]. destruct post as [|y post]; [reflexivity|].
  destruct (groups_head y post) as [g [gs EGy]]. rewrite EGy.
  assert (E : qc_eqb (ev_time e) (ev_time y) = false).
  { apply qc_eqb_false. apply H; left; reflexivity. }
  rewrite E. reflexivity.
Qed.

Lemma sorted_span e r :
  sortedT (e :: r) ->
  let '(g, r') := span_time (ev_time e) r in sortedT r' /\ forall y, In y r' -> ev_time e < ev_time y.
Proof.
  intros S. pose proof (span_groups r e) as SG. destruct (span_time (ev_time e) r) as [g r'].
  destruct SG as (_ & _ & E & _ & NE). destruct S as [S1 S2]. subst r.
  pose proof (sorted_by_app_r _ g r' S2) as S3. split; [exact S3|].
  intros y Hy. destruct r' as [|y0 r0]; [destruct Hy|].
  assert (L0 : ev_time e < ev_time y0).
  { assert (ev_time e <= ev_time y0) by (apply S1, in_or_app; right; left; reflexivity).
    destruct (Qcle_lt_or_eq _ _ H) as [L|L]; [exact L | congruence]. }
  destruct Hy as [<-|Hy]; [exact L0|]. destruct S3 as [S3 _]. specialize (S3 y Hy). qco.
Qed.

Lemma groups_same e g : (forall x, In x g -> ev_time x = ev_time e) -> groups (e :: g) = [(ev_time e, e :: g)].
Proof.
  revert e; induction g as [|x g IH]; intros e H; [reflexivity|].
  rewrite (groups_cons e (x :: g)), IH.
  - rewrite (H x (or_introl eq_refl)), qc_eqb_refl. reflexivity.
  - intros y Hy. rewrite (H y (or_intror Hy)), (H x (or_introl eq_refl)). reflexivity.
Qed.

Fixpoint span_lt (t : Qc) (h : list event) : list event * list event :=
  match h with
  | [] => ([], [])
  | e :: r => if qc_ltb (ev_time e) t then let '(a, b) := span_lt t r in (e :: a, b) else ([], h)
  end.

Lemma span_lt_app t a b : (forall x, In x a -> ev_time x < t) ->
  span_lt t (a ++ b) = let '(p, q) := span_lt t b in (a ++ p, q).
Proof.
  induction a as [|x a IH]; intros H; [cbn; destruct (span_lt t b); reflexivity|].
  cbn. assert (E : qc_ltb (ev_time x) t = true) by (apply qc_ltb_lt, H; left; reflexivity). rewrite E.
  rewrite IH by (intros y Hy; apply H; right; exact Hy). destruct (span_lt t b); reflexivity.
Qed.

Lemma span_lt_spec t h : sortedT h ->
  let '(p, q) := span_lt t h in h = p ++ q /\ (forall x, In x p -> ev_time x < t) /\ (forall x, In x q -> t <= ev_time x).
Proof.
  induction h as [|e r IH]; intros S; [cbn; repeat split; intros x []|].
  cbn. destruct S as [S1 S2]. destruct (qc_ltb (ev_time e) t) eqn:E; qb.
  - specialize (IH S2). destruct (span_lt t r) as [p q]. destruct IH as (I1 & I2 & I3).
    split; [cbn; f_equal; exact I1|]. split; [|exact I3]. intros x [<-|Hx]; [exact E | apply I2, Hx].
  - split; [reflexivity|]. split; [intros x []|]. intros x [<-|Hx]; [exact E | specialize (S1 x Hx); qco].
Qed.

Section Loop.
  Variable sc : bool.
  Variable TP : tproblem.
  Let P := tp_base TP.

  (* the groups of simultaneous effects applied in turn: one `elif scheduled_effects:` iteration per group *)
  Fixpoint run_groups (gs : list (Qc * list event)) (m : mstate) : option mstate :=
    match gs with
    | [] => Some m
    | (t, g) :: gs' =>
        match tt_apply_effects sc P (fst m) g with
        | None => None
        | Some s' => run_groups gs' (s', trace_set (snd m) t s')
        end
    end.

  Lemma run_groups_app gs1 gs2 m :
    run_groups (gs1 ++ gs2) m = match run_groups gs1 m with Some m' => run_groups gs2 m' | None => None end.
  Proof.
    revert m; induction gs1 as [|[t g] gs1 IH]; intros m; [reflexivity|]. cbn.
    destruct (tt_apply_effects sc P (fst m) g); [apply IH | reflexivity].
  Qed.

  Definition dres_of (o : option mstate) (h : list event) : dres :=
    match o with Some m' => DOk h m' | None => DFail end.

  Lemma drain_none fuel : forall h m, (length h <= fuel)%nat ->
    drain sc TP fuel None h m = dres_of (run_groups (groups h) m) [].
  Proof.
    induction fuel as [|fuel IH]; intros h m L.
    - destruct h; [reflexivity | cbn in L; lia].
    - destruct h as [|e r]; [reflexivity|].
      cbn [drain span_time]. rewrite qc_eqb_refl.
      pose proof (span_groups r e) as SG. destruct (span_time (ev_time e) r) as [g r'].
      destruct SG as (G1 & G2 & _). rewrite G1. cbn [run_groups]. fold P.
      destruct (tt_apply_effects sc P (fst m) (e :: g)) as [s'|]; [|reflexivity].
      apply IH. cbn in L. lia.
  Qed.

  Lemma drain_some t fuel : forall h m, (length h <= fuel)%nat -> sortedT h ->
    drain sc TP fuel (Some t) h m = let '(pre, post) := span_lt t h in dres_of (run_groups (groups pre) m) post.
  Proof.
    induction fuel as [|fuel IH]; intros h m L S.
    - destruct h; [reflexivity | cbn in L; lia].
    - destruct h as [|e r]; [reflexivity|].
      cbn [drain]. destruct (qc_leb t (ev_time e)) eqn:E.
      + cbn [span_lt]. assert (E' : qc_ltb (ev_time e) t = false) by (qb; apply qc_ltb_false; exact E).
        rewrite E'. reflexivity.
      + cbn [span_time]. rewrite qc_eqb_refl.
        pose proof (span_groups r e) as SG. pose proof (sorted_span e r S) as SS.
        destruct (span_time (ev_time e) r) as [g r'].
        destruct SG as (G1 & G2 & G3 & G4 & _). destruct SS as [SS1 SS2].
        assert (Elt : ev_time e < t) by (qb; exact E).
        subst r. change (e :: g ++ r') with ((e :: g) ++ r').
        rewrite span_lt_app by (intros x [<-|Hx]; [exact Elt | rewrite (G4 x Hx); exact Elt]).
        pose proof (span_lt_spec t r' SS1) as SP.
        specialize (IH r' (match tt_apply_effects sc P (fst m) (e :: g) with Some s' => (s', trace_set (snd m) (ev_time e) s') | None => m end)).
        destruct (span_lt t r') as [p q]. destruct SP as (P1 & P2 & P3).
        rewrite groups_app.
        * rewrite (groups_same e g G4). cbn [app run_groups]. fold P.
          destruct (tt_apply_effects sc P (fst m) (e :: g)) as [s'|]; [|reflexivity].
          apply IH; [|exact SS1]. rewrite app_length in G2. cbn in L. rewrite app_length in L. lia.
        * intros x y Hx Hy. assert (ev_time x = ev_time e) by (destruct Hx as [<-|Hx]; [reflexivity | apply G4, Hx]).
          assert (ev_time e < ev_time y) by (apply SS2; rewrite P1; apply in_or_app; left; exact Hy).
          rewrite H. intros EE. rewrite EE in H0. qco.
  Qed.
End Loop.

Definition starts_asc : list (nat * pstep) -> Prop := sorted_by (fun x y => ps_start (snd x) <= ps_start (snd y)).
Definition starts_desc : list (nat * pstep) -> Prop := sorted_by (fun x y => ps_start (snd y) <= ps_start (snd x)).

Lemma ins_desc_insert_by x l :
  ins_desc x l = insert_by (fun x y => negb (qc_ltb (ps_start (snd x)) (ps_start (snd y)))) x l.
Proof.
  induction l as [|z l IH]; [reflexivity|]. cbn [ins_desc insert_by].
  destruct (qc_ltb (ps_start (snd x)) (ps_start (snd z))); cbn [negb]; [rewrite IH|]; reflexivity.
Qed.

Lemma ins_desc_sorted x l : starts_desc l -> starts_desc (ins_desc x l).
Proof.
  rewrite ins_desc_insert_by.
  apply (insert_by_sorted _ (fun x y : nat * pstep => ps_start (snd y) <= ps_start (snd x))).
  - intros a b H. apply negb_true_iff in H. qb. exact H.
  - intros a b H. apply negb_false_iff in H. qb. qco.
  - intros a b c H1 H2. qco.
Qed.

Lemma ins_desc_perm x l : Permutation (ins_desc x l) (x :: l).
Proof. rewrite ins_desc_insert_by. apply insert_by_perm. Qed.

Lemma sort_desc_spec l : starts_desc (fold_right ins_desc [] l) /\ Permutation (fold_right ins_desc [] l) l.
Proof.
  induction l as [|x l [IH1 IH2]]; cbn; [split; [exact I | constructor]|].
  split; [apply ins_desc_sorted, IH1|]. eapply Permutation_trans; [apply ins_desc_perm | apply perm_skip, IH2].
Qed.

Lemma starts_desc_rev l : starts_desc l -> starts_asc (rev l).
Proof. exact (sorted_by_rev _ l). Qed.

Lemma starts_order_spec pi : starts_asc (starts_order pi) /\ Permutation (starts_order pi) (indexed pi).
Proof.
  unfold starts_order. destruct (sort_desc_spec (indexed pi)) as [S P]. split.
  - apply starts_desc_rev, S.
  - eapply Permutation_trans; [apply Permutation_sym, Permutation_rev | exact P].
Qed.

Section Main.
  Variable sc : bool.
  Variable TP : tproblem.
  Let P := tp_base TP.

  Definition evs_of (ist : nat * pstep) : list event := step_events TP (fst ist) (snd ist).

  (* every effect of a step is scheduled at or after the step's start *)
  Definition starts_ok (l : list (nat * pstep)) : Prop :=
    forall ist e, In ist l -> In e (evs_of ist) -> ps_start (snd ist) <= ev_time e.

  Lemma hpush_all_app a b h : hpush_all (a ++ b) h = hpush_all b (hpush_all a h).
  Proof. unfold hpush_all. apply fold_left_app. Qed.

  (* the whole loop = push every entry, then apply the groups of simultaneous entries in increasing time *)
  Theorem tt_main_groups starts : forall h m,
    sortedT h -> starts_asc starts -> starts_ok starts ->
    tt_main sc TP starts h m = dres_of (run_groups sc TP (groups (hpush_all (flat_map evs_of starts) h)) m) [].
  Proof.
    induction starts as [|[i st] rest IH]; intros h m S A OK.
    - cbn [tt_main flat_map]. apply drain_none. apply le_n.
    - cbn [tt_main]. rewrite (drain_some sc TP (ps_start st) (length h) h m (le_n _) S).
      pose proof (span_lt_spec (ps_start st) h S) as SP.
      destruct (span_lt (ps_start st) h) as [pre post]. destruct SP as (E & P1 & P2).
      destruct A as [A1 A2].
      assert (GE : forall e, In e (flat_map evs_of ((i, st) :: rest)) -> ps_start st <= ev_time e).
      { intros e He. apply in_flat_map in He. destruct He as [ist [Hi He]].
        pose proof (OK ist e Hi He) as L. destruct Hi as [<-|Hi]; [exact L|]. specialize (A1 ist Hi). cbn [snd] in A1. qco. }
      assert (R : groups (hpush_all (flat_map evs_of ((i, st) :: rest)) h) =
                  groups pre ++ groups (hpush_all (flat_map evs_of rest) (hpush_all (evs_of (i, st)) post))).
      { rewrite E. rewrite hpush_all_prefix.
        - rewrite groups_app.
          + cbn [flat_map]. rewrite hpush_all_app. reflexivity.
          + intros x y Hx Hy. apply hpush_all_In in Hy. specialize (P1 x Hx).
            assert (ps_start st <= ev_time y) by (destruct Hy as [Hy|Hy]; [apply GE, Hy | apply P2, Hy]).
            intros EE. rewrite EE in P1. qco.
        - intros x e Hx He. specialize (P1 x Hx). specialize (GE e He). qco. }
      rewrite R, run_groups_app.
      destruct (run_groups sc TP (groups pre) m) as [m'|]; [|reflexivity]. cbn [dres_of].
      apply IH.
      + apply hpush_all_sorted. rewrite E in S. apply (sorted_by_app_r _ pre post S).
      + exact A2.
      + intros ist e Hi He. apply (OK ist e); [right; exact Hi | exact He].
  Qed.
End Main.

Definition asc (l : list Qc) : Prop := match l with [] => True | x :: r => asc_from x r end.

Lemma asc_tail x r : asc (x :: r) -> asc r.
Proof. destruct r as [|y r]; [auto|]. intros [_ H]. exact H. Qed.

Lemma asc_unique l : forall l', asc l -> asc l' -> (forall x, In x l <-> In x l') -> l = l'.
Proof.
  induction l as [|a l IH]; intros l' A A' H.
  - destruct l' as [|b l']; [reflexivity|]. exfalso. apply (H b). left; reflexivity.
  - destruct l' as [|b l']; [exfalso; apply (H a); left; reflexivity|].
    assert (a = b).
    { assert (Ha : In a (b :: l')) by (apply H; left; reflexivity).
      assert (Hb : In b (a :: l)) by (apply H; left; reflexivity).
      destruct Ha as [Ha|Ha]; [symmetry; exact Ha|]. destruct Hb as [Hb|Hb]; [exact Hb|].
      pose proof (asc_from_gt a l A b Hb). pose proof (asc_from_gt b l' A' a Ha). qco. }
    subst b. f_equal. apply IH; [apply (asc_tail a), A | apply (asc_tail a), A' |].
    intros x. split; intros Hx.
    + assert (Hx' : In x (a :: l')) by (apply H; right; exact Hx). destruct Hx' as [<-|Hx']; [|exact Hx'].
      pose proof (asc_from_gt a l A a Hx). qco.
    + assert (Hx' : In x (a :: l)) by (apply H; right; exact Hx). destruct Hx' as [<-|Hx']; [|exact Hx'].
      pose proof (asc_from_gt a l' A' a Hx). qco.
Qed.

Lemma tinsert_In t l x : In x (tinsert t l) <-> x = t \/ In x l.
Proof.
  induction l as [|a l IH]; cbn [tinsert].
  - cbn. split; intros [H|[]]; left; symmetry; exact H.
  - destruct (qc_ltb t a); [cbn; split; (intros [H|H]; [left; symmetry; exact H | right; exact H])|].
    destruct (qc_eqb t a) eqn:E.
    + apply qc_eqb_eq in E. subst a. cbn. split; [intros H; right; exact H | intros [->|H]; [left; reflexivity | exact H]].
    + cbn [In]. rewrite IH. tauto.
Qed.

Lemma tinsert_asc t l : asc l -> asc (tinsert t l).
Proof.
  induction l as [|a l IH]; intros A; [exact I|].
  cbn [tinsert]. destruct (qc_ltb t a) eqn:E1; qb; [cbn; split; [exact E1 | exact A]|].
  destruct (qc_eqb t a) eqn:E2; qb; [exact A|].
  assert (Lt : a < t) by (destruct (Qcle_lt_or_eq _ _ E1) as [L|L]; [exact L | congruence]).
  pose proof (IH (asc_tail a l A)) as I1.
  destruct (tinsert t l) as [|b r] eqn:ET; [exact I|]. cbn. split; [|exact I1].
  assert (Hb : In b (tinsert t l)) by (rewrite ET; left; reflexivity).
  apply tinsert_In in Hb. destruct Hb as [->|Hb]; [exact Lt | apply (asc_from_gt a l A b Hb)].
Qed.

Lemma times_of_spec E : asc (times_of E) /\ forall x, In x (times_of E) <-> In x (map ev_time E).
Proof.
  unfold times_of. induction (map ev_time E) as [|t l [I1 I2]]; cbn [fold_right]; [split; [exact I | tauto]|].
  split; [apply tinsert_asc, I1|]. intros x. rewrite tinsert_In, I2. cbn. split; (intros [H|H]; [left; symmetry; exact H | right; exact H]).
Qed.

Lemma events_at_none t h : (forall x, In x h -> ev_time x <> t) -> events_at t h = [].
Proof.
  induction h as [|e h IH]; intros H; [reflexivity|]. cbn.
  assert (E : qc_eqb (ev_time e) t = false) by (apply qc_eqb_false, H; left; reflexivity).
  rewrite E. apply IH. intros x Hx. apply H. right. exact Hx.
Qed.

Lemma events_at_cons t e h :
  events_at t (e :: h) = if qc_eqb (ev_time e) t then e :: events_at t h else events_at t h.
Proof. reflexivity. Qed.

Lemma groups_sorted h : sortedT h ->
  asc (map fst (groups h)) /\ (forall x, In x (map fst (groups h)) <-> In x (map ev_time h)) /\
  (forall t g, In (t, g) (groups h) -> g = events_at t h).
Proof.
  induction h as [|e r IH]; intros S; [cbn; repeat split; tauto|].
  destruct S as [S1 S2]. destruct (IH S2) as (I1 & I2 & I3). cbn [groups].
  destruct r as [|y r0].
  - cbn. split; [exact I|]. split; [tauto|]. intros t g [H|[]]. inversion H; subst. rewrite qc_eqb_refl. reflexivity.
  - destruct (groups_head y r0) as [g0 [gs EG]]. rewrite EG in *.
    assert (Ley : ev_time e <= ev_time y) by (apply S1; left; reflexivity).
    destruct (qc_eqb (ev_time e) (ev_time y)) eqn:E; qb.
    + (* e joins the first group *)
      split; [exact I1|]. split.
      * intros x. cbn [map In fst]. cbn [map In fst] in I2. rewrite <- E. specialize (I2 x). rewrite <- E in I2. tauto.
      * intros t g [H|H].
        -- inversion H; subst. rewrite events_at_cons. rewrite E, qc_eqb_refl. f_equal.
           apply (I3 (ev_time y) (y :: g0)). left; reflexivity.
        -- assert (Lt : ev_time y < t).
           { cbn in I1. apply (asc_from_gt _ _ I1 t). change t with (fst (t, g)). apply in_map, H. }
           rewrite events_at_cons. assert (E' : qc_eqb (ev_time e) t = false) by (apply qc_eqb_false; intros EE; rewrite <- EE, E in Lt; qco).
           rewrite E'. apply I3. right. exact H.
    + assert (Lt : ev_time e < ev_time y) by (destruct (Qcle_lt_or_eq _ _ Ley) as [L|L]; [exact L | congruence]).
      split; [cbn; split; [exact Lt | exact I1]|]. split.
      * intros x. cbn [map In fst]. cbn [map In fst] in I2. rewrite (I2 x). tauto.
      * intros t g [H|H].
        -- inversion H; subst. rewrite events_at_cons. rewrite qc_eqb_refl. f_equal. symmetry. apply events_at_none.
           intros x Hx. specialize (S1 x Hx).
           assert (ev_time y <= ev_time x) by (destruct Hx as [<-|Hx]; [apply Qcle_refl | destruct S2 as [S2 _]; apply S2, Hx]).
           intros EE. rewrite EE in *. qco.
        -- assert (Lt2 : ev_time y <= t).
           { destruct H as [H|H]; [inversion H; subst; apply Qcle_refl|].
             cbn in I1. apply Qclt_le_weak, (asc_from_gt _ _ I1 t). change t with (fst (t, g)). apply in_map, H. }
           rewrite events_at_cons. assert (E' : qc_eqb (ev_time e) t = false) by (apply qc_eqb_false; intros EE; rewrite EE in Lt; qco).
           rewrite E'. apply I3. exact H.
Qed.

Lemma groups_as_map h : sortedT h -> groups h = map (fun t => (t, events_at t h)) (map fst (groups h)).
Proof.
  intros S. destruct (groups_sorted h S) as (_ & _ & G).
  assert (forall l : list (Qc * list event), (forall t g, In (t, g) l -> g = events_at t h) ->
                     l = map (fun t => (t, events_at t h)) (map fst l)).
  { induction l as [|[t g] l IH]; intros H; [reflexivity|]. cbn. f_equal.
    - f_equal. apply H. left; reflexivity.
    - apply IH. intros t' g' H'. apply H. right. exact H'. }
  apply H, G.
Qed.

Lemma groups_times h E : sortedT h -> Permutation h E -> map fst (groups h) = times_of E.
Proof.
  intros S PM. destruct (groups_sorted h S) as (G1 & G2 & _). destruct (times_of_spec E) as [T1 T2].
  apply asc_unique; [exact G1 | exact T1|]. intros x. rewrite G2, T2.
  split; apply Permutation_in; [apply Permutation_map, PM | apply Permutation_map, Permutation_sym, PM].
Qed.

Definition trace_eq (a b : trace) : Prop := Forall2 (fun x y => fst x = fst y /\ state_eq (snd x) (snd y)) a b.

Lemma trace_set_fresh tr x s : (forall y, In y (keys tr) -> y <> x) -> trace_set tr x s = tr ++ [(x, s)].
Proof.
  induction tr as [|[y t] tr IH]; intros H; [reflexivity|]. cbn.
  assert (E : qc_eqb x y = false) by (apply qc_eqb_false; intros EE; apply (H y); [left; reflexivity | congruence]).
  rewrite E. f_equal. apply IH. intros z Hz. apply H. right. exact Hz.
Qed.

Section Compare.
  Variable sc : bool.
  Variable TP : tproblem.
  Let P := tp_base TP.
  Variable H E : list event.
  Hypothesis PM : Permutation H E.
  Hypothesis TY : forall e, In e E -> event_typed sc P e.

  Lemma group_step s t (u : state) : state_eq u s ->
    ostate_eq (tt_apply_effects sc P u (events_at t H)) (ref_apply sc P s (events_at t E)).
  Proof.
    intros SE.
    eapply ostate_eq_trans; [apply (tt_apply_effects_ext sc P u s _ SE)|].
    eapply ostate_eq_trans; [apply tt_apply_effects_ref|].
    - intros e He. apply TY. apply (Permutation_in e PM). apply filter_In in He. apply He.
    - apply ref_apply_perm. apply ListFacts.Permutation_filter, PM.
  Qed.

  Lemma run_compare ts : forall p (m : mstate) s,
    asc_from p ts -> (forall y, In y (keys (snd m)) -> y <= p) -> state_eq (fst m) s ->
    match run_groups sc TP (map (fun t => (t, events_at t H)) ts) m with
    | Some (last, trm) =>
        exists new trr, trm = snd m ++ new /\ run_times (ref_apply sc P) E s ts = Some trr /\
                        trace_eq new trr /\ state_eq last (final_state s trr) /\ map fst new = ts
    | None => run_times (ref_apply sc P) E s ts = None
    end.
  Proof.
    induction ts as [|t ts IH]; intros p m s A K SE.
    - cbn. destruct m as [last trm]. exists [], []. cbn. rewrite app_nil_r. repeat split; auto. constructor.
    - destruct A as [A1 A2]. cbn [map run_groups run_times]. fold P.
      pose proof (group_step s t (fst m) SE) as G.
      destruct (tt_apply_effects sc P (fst m) (events_at t H)) as [s1|],
               (ref_apply sc P s (events_at t E)) as [s1'|]; cbn in G; try contradiction; [|reflexivity].
      rewrite trace_set_fresh by (intros y Hy EE; specialize (K y Hy); subst y; qco).
      specialize (IH t (s1, snd m ++ [(t, s1)]) s1' A2).
      cbn [fst snd] in IH.
      assert (K' : forall y, In y (keys (snd m ++ [(t, s1)])) -> y <= t).
      { intros y Hy. unfold keys in Hy. rewrite map_app in Hy. apply in_app_iff in Hy.
        destruct Hy as [Hy|[<-|[]]]; [specialize (K y Hy); qco | apply Qcle_refl]. }
      specialize (IH K' G).
      match type of IH with match ?X with _ => _ end =>
        match goal with |- match ?Y with _ => _ end => change Y with X; destruct X as [[last trm]|] end end.
      + destruct IH as [new [trr [E1 [E2 [E3 [E4 E5]]]]]]. exists ((t, s1) :: new), ((t, s1') :: trr).
        rewrite E2. split; [rewrite E1, <- app_assoc; reflexivity|]. split; [reflexivity|].
        split; [constructor; [split; [reflexivity | exact G] | exact E3]|]. split; [exact E4|]. cbn. f_equal. exact E5.
      + rewrite IH. reflexivity.
  Qed.
End Compare.

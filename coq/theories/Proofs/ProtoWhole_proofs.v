(* Proofs about the whole-message protobuf codecs (C20): actions, problem core, plans.
   Each decoder (= reader + the add_* methods it calls) inverts its encoder on well-formed objects. *)
From Coq Require Import List ZArith NArith QArith Qreduction Bool Lia.
Import ListNotations.
Require Import UPV.Model.ProtoCodec.
Require Import UPV.Proofs.ProtoCodec_proofs.
Require Import UPV.Corr.Corr_C20.
Require Import UPV.Model.ProtoWhole.
Open Scope list_scope.

(* split a conjunction of booleans syntactically (no unfolding of definitions) *)
Ltac split_and H :=
  repeat match type of H with
         | (_ && _ = true) => let H' := fresh H in apply andb_true_iff in H; destruct H as [H H']
         end.

Lemma Qeqb_strict_refl q : Qeqb_strict q q = true.
Proof. unfold Qeqb_strict. rewrite Z.eqb_refl, Pos.eqb_refl. reflexivity. Qed.

Lemma timepoint_eqb_refl t : timepoint_eqb t t = true.
Proof.
  unfold timepoint_eqb, tpkind_eqb. rewrite N.eqb_refl. destruct (tp_container t); simpl; [apply N.eqb_refl|reflexivity].
Qed.

Lemma timing_eqb_refl t : timing_eqb t t = true.
Proof. unfold timing_eqb. rewrite Qeqb_strict_refl, timepoint_eqb_refl. reflexivity. Qed.

Lemma tinterval_eqb_refl i : tinterval_eqb i i = true.
Proof. unfold tinterval_eqb. rewrite !timing_eqb_refl, !eqb_reflx. reflexivity. Qed.

Lemma seq_opt_app {A B} (f : A -> option B) a b x y :
  seq_opt f a = Some x -> seq_opt f b = Some y -> seq_opt f (a ++ b) = Some (x ++ y).
Proof.
  revert x. induction a as [|e a IH]; intros x Ha Hb.
  - cbn in Ha. inversion Ha. exact Hb.
  - cbn [app]. rewrite seq_opt_cons in *. destruct (f e); [|discriminate].
    destruct (seq_opt f a) as [ys|]; [|discriminate]. inversion Ha. rewrite (IH ys eq_refl Hb). reflexivity.
Qed.

Lemma forallb_In {A} (p : A -> bool) l x : forallb p l = true -> In x l -> p x = true.
Proof. intros H. exact (proj1 (forallb_forall p l) H x). Qed.

Lemma in_flatten {K V} (d : list (K * list V)) k v :
  In (k, v) (flatten d) -> exists vs, In (k, vs) d /\ In v vs.
Proof.
  unfold flatten. rewrite in_flat_map. intros [[k' vs] [Hin Hm]]. simpl in Hm. rewrite in_map_iff in Hm.
  destruct Hm as [v' [E Hv]]. inversion E; subst. exists vs. split; assumption.
Qed.

Lemma flatten_wf {K V} (pk : K -> bool) (pv : V -> bool) (d : list (K * list V)) k v :
  forallb (fun kvs => pk (fst kvs) && forallb pv (snd kvs)) d = true -> In (k, v) (flatten d) ->
  pk k = true /\ pv v = true.
Proof.
  intros H Hin. apply in_flatten in Hin as [vs [Hd Hv]]. pose proof (forallb_In _ _ _ H Hd) as W. cbn [fst snd] in W.
  apply andb_true_iff in W as [W1 W2]. split; [exact W1|exact (forallb_In _ _ _ W2 Hv)].
Qed.

Lemma adds_fold {V} (add : list V -> V -> list V) (add_ok : list V -> V -> bool) :
  (forall pre v, add_ok pre v = true -> add pre v = pre ++ [v]) ->
  forall vs pre, adds_ok add_ok pre vs = true -> fold_left add vs pre = pre ++ vs.
Proof.
  intros Hadd. induction vs as [|v vs IH]; intros pre H; cbn in *.
  - rewrite app_nil_r. reflexivity.
  - apply andb_true_iff in H. destruct H as [H1 H2]. rewrite (Hadd _ _ H1), (IH _ H2), <- app_assoc. reflexivity.
Qed.

Lemma keys_ok_app {K} (keq : K -> K -> bool) a : forall seen b,
  keys_ok keq seen (a ++ b) = true -> keys_ok keq seen a = true /\ keys_ok keq (seen ++ a) b = true.
Proof.
  induction a as [|k a IH]; intros seen b H; cbn in *.
  - rewrite app_nil_r. auto.
  - apply andb_true_iff in H. destruct H as [H1 H2]. destruct (IH _ _ H2) as [H3 H4].
    rewrite H1, H3. rewrite <- app_assoc in H4. auto.
Qed.

Section Assoc.
  Context {K V : Type} (keq : K -> K -> bool).

  Lemma assoc_set_miss (acc : list (K * V)) k v :
    existsb (fun k' => keq k' k) (map fst acc) = false -> assoc_set keq acc k v = acc ++ [(k, v)].
  Proof.
    induction acc as [|[k' v'] acc IH]; cbn; intros H; [reflexivity|].
    apply orb_false_iff in H. destruct H as [H1 H2]. rewrite H1, (IH H2). reflexivity.
  Qed.

  Lemma assoc_fold (l : list (K * V)) : forall acc,
    keys_ok keq (map fst acc) (map fst l) = true ->
    fold_left (fun d kv => assoc_set keq d (fst kv) (snd kv)) l acc = acc ++ l.
  Proof.
    induction l as [|[k v] l IH]; intros acc H; cbn in *.
    - rewrite app_nil_r. reflexivity.
    - apply andb_true_iff in H. destruct H as [H1 H2]. apply negb_true_iff in H1.
      rewrite (assoc_set_miss _ _ _ H1), IH.
      + rewrite <- app_assoc. reflexivity.
      + rewrite map_app. exact H2.
  Qed.
End Assoc.

Section Dict.
  Context {K V : Type} (keq : K -> K -> bool).
  Hypothesis keq_refl : forall k, keq k k = true.
  Variable add : list V -> V -> list V.
  Variable add_ok : list V -> V -> bool.
  Hypothesis Hadd : forall pre v, add_ok pre v = true -> add pre v = pre ++ [v].

  Lemma dict_upd_miss f (acc : list (K * list V)) k :
    existsb (fun k' => keq k' k) (map fst acc) = false -> dict_upd keq f acc k = acc ++ [(k, f [])].
  Proof.
    induction acc as [|[k' vs] acc IH]; cbn; intros H; [reflexivity|].
    apply orb_false_iff in H. destruct H as [H1 H2]. rewrite H1, (IH H2). reflexivity.
  Qed.

  Lemma dict_upd_last f (acc : list (K * list V)) k pre :
    existsb (fun k' => keq k' k) (map fst acc) = false ->
    dict_upd keq f (acc ++ [(k, pre)]) k = acc ++ [(k, f pre)].
  Proof.
    induction acc as [|[k' vs] acc IH]; cbn; intros H.
    - rewrite keq_refl. reflexivity.
    - apply orb_false_iff in H. destruct H as [H1 H2]. rewrite H1, (IH H2). reflexivity.
  Qed.

  Lemma regroup_inner k : forall vs pre acc,
    existsb (fun k' => keq k' k) (map fst acc) = false -> adds_ok add_ok pre vs = true ->
    regroup_from keq add (map (fun v => (k, v)) vs) (acc ++ [(k, pre)]) = acc ++ [(k, pre ++ vs)].
  Proof.
    induction vs as [|v vs IH]; intros pre acc Hk H; cbn in *.
    - rewrite app_nil_r. reflexivity.
    - apply andb_true_iff in H. destruct H as [H1 H2].
      rewrite (dict_upd_last _ _ _ _ Hk), (Hadd _ _ H1).
      unfold regroup_from in IH. rewrite (IH _ _ Hk H2), <- app_assoc. reflexivity.
  Qed.

  Lemma regroup_acc : forall d acc,
    keys_ok keq (map fst acc) (map fst d) = true ->
    forallb (fun kvs => match snd kvs with [] => false | _ => adds_ok add_ok [] (snd kvs) end) d = true ->
    regroup_from keq add (flatten d) acc = acc ++ d.
  Proof.
    induction d as [|[k vs] d IH]; intros acc Hk Hv.
    - cbn. rewrite app_nil_r. reflexivity.
    - cbn [map fst keys_ok] in Hk. apply andb_true_iff in Hk. destruct Hk as [Hk1 Hk2]. apply negb_true_iff in Hk1.
      cbn [forallb snd] in Hv. apply andb_true_iff in Hv. destruct Hv as [Hv1 Hv2].
      destruct vs as [|v vs]; [discriminate|].
      cbn [adds_ok app] in Hv1. apply andb_true_iff in Hv1. destruct Hv1 as [Hv1 Hv3].
      unfold flatten. cbn [flat_map fst snd map app]. fold (flatten d).
      unfold regroup_from. cbn [fold_left fst snd]. rewrite fold_left_app.
      rewrite (dict_upd_miss _ _ _ Hk1), (Hadd _ _ Hv1). cbn [app].
      pose proof (regroup_inner k vs [v] acc Hk1 Hv3) as E. unfold regroup_from in E. rewrite E. cbn [app].
      specialize (IH (acc ++ [(k, v :: vs)])). unfold regroup_from in IH. rewrite IH.
      + rewrite <- app_assoc. reflexivity.
      + rewrite map_app. exact Hk2.
      + exact Hv2.
  Qed.

  Theorem regroup_flatten d : dict_ok keq add_ok d = true -> regroup keq add (flatten d) = d.
  Proof.
    unfold dict_ok. intros H. apply andb_true_iff in H. destruct H as [H1 H2].
    unfold regroup. rewrite (regroup_acc d [] H1 H2). reflexivity.
  Qed.
End Dict.

Lemma add_new_ok {V} (veq : V -> V -> bool) pre v : new_ok veq pre v = true -> add_new veq pre v = pre ++ [v].
Proof. unfold new_ok, add_new. intros H. apply negb_true_iff in H. rewrite H. reflexivity. Qed.

Lemma add_app_ok {V} (pre : list V) v : app_ok pre v = true -> add_app pre v = pre ++ [v].
Proof. reflexivity. Qed.

Lemma add_pre_ok pre c : pre_ok pre c = true -> add_pre pre c = pre ++ [c].
Proof.
  unfold pre_ok, add_pre. intros H. apply andb_true_iff in H. destruct H as [H1 H2].
  apply negb_true_iff in H1. rewrite H1. apply add_new_ok. exact H2.
Qed.

Lemma add_goal_ok pre g : goal_ok pre g = true -> add_goal pre g = pre ++ [g].
Proof. unfold goal_ok, add_goal. intros H. apply negb_true_iff in H. rewrite H. reflexivity. Qed.

Section Action.
  Variable ut : name -> bool.
  Variable ot : name -> option ty.
  Variable ft : name -> option ty.

  Lemma param_codec p : wf_tyb ut (snd p) = true -> dec_param ut (enc_param p) = Some p.
  Proof. destruct p as [n t]. unfold dec_param, enc_param; cbn. intros H. rewrite (type_codec ut t H). reflexivity. Qed.

  Lemma params_codec ps : forallb (fun p => wf_tyb ut (snd p)) ps = true ->
    seq_opt (dec_param ut) (map enc_param ps) = Some ps.
  Proof. intros H. apply seq_opt_map. intros p Hp. apply param_codec. exact (forallb_In _ _ _ H Hp). Qed.

  Lemma build_params_id ps : keys_ok N.eqb [] (map fst ps) = true -> build_params ps = ps.
  Proof. intros H. unfold build_params. rewrite (assoc_fold N.eqb ps [] H). reflexivity. Qed.

  Lemma need_key_some {K V} (l : list (K * V)) :
    seq_opt need_key (map (fun kv => (Some (fst kv), snd kv)) l) = Some l.
  Proof. apply seq_opt_map. intros [k v] _. reflexivity. Qed.

  Theorem action_codec a : wf_actionb ut ot ft a = true -> dec_action ut ot ft (enc_action a) = Some a.
  Proof.
    destruct a as [n ps pre effs | n ps dur conds effs]; cbn [wf_actionb]; intros H.
    - split_and H.
      unfold wf_paramsb in H. apply andb_true_iff in H. destruct H as [Hk Hp].
      unfold dec_action, enc_action. cbn [am_params am_duration am_conds am_effects am_name dec_optional].
      rewrite (params_codec ps Hp).
      rewrite (seq_opt_map2 (enc_condition None) (dec_condition ut ot ft) (fun c => (None, c)) pre).
      2:{ intros c Hc. apply condition_codec; [exact (forallb_In _ _ _ H2 Hc) | reflexivity]. }
      rewrite (seq_opt_map2 (enc_timed_effect None) (dec_timed_effect ut ot ft) (fun e => (None, e)) effs).
      2:{ intros e He. apply timed_effect_codec; [exact (forallb_In _ _ _ H0 He) | reflexivity]. }
      rewrite !map_map. cbn [snd]. rewrite !map_id.
      rewrite (adds_fold add_pre pre_ok add_pre_ok pre [] H1). rewrite (build_params_id ps Hk). reflexivity.
    - split_and H.
      unfold wf_paramsb in H. apply andb_true_iff in H. destruct H as [Hk Hp].
      unfold dec_action, enc_action. cbn [am_params am_duration am_conds am_effects am_name dec_optional].
      rewrite (params_codec ps Hp), (dinterval_codec ut ot ft dur H4).
      rewrite (seq_opt_map2 (fun sc => enc_condition (Some (fst sc)) (snd sc)) (dec_condition ut ot ft)
                 (fun sc => (Some (fst sc), snd sc)) (flatten conds)).
      2:{ intros [i c] Hc. destruct (flatten_wf _ _ _ _ _ H2 Hc) as [W1 W2]. apply condition_codec; [exact W2 | exact W1]. }
      rewrite (seq_opt_map2 (fun te => enc_timed_effect (Some (fst te)) (snd te)) (dec_timed_effect ut ot ft)
                 (fun te => (Some (fst te), snd te)) (flatten effs)).
      2:{ intros [t e] He. destruct (flatten_wf _ _ _ _ _ H0 He) as [W1 W2]. apply timed_effect_codec; [exact W2 | exact W1]. }
      rewrite !need_key_some.
      rewrite (regroup_flatten tinterval_eqb tinterval_eqb_refl (add_new expr_eqb) (new_ok expr_eqb)
                 (add_new_ok expr_eqb) conds H3).
      rewrite (regroup_flatten timing_eqb timing_eqb_refl add_app app_ok add_app_ok effs H1).
      rewrite (build_params_id ps Hk). reflexivity.
  Qed.
End Action.

Lemma mem_app l1 l2 n : mem (l1 ++ l2) n = mem l1 n || mem l2 n.
Proof. unfold mem. apply existsb_app. Qed.

Lemma named_phase {A M} (enc : A -> M) (dec : M -> option A) (nm : A -> name) used l : forall acc,
  (forall x, In x l -> dec (enc x) = Some x) ->
  keys_ok N.eqb (used ++ map nm acc) (map nm l) = true ->
  fold_opt (add_named dec nm used) (map enc l) acc = Some (acc ++ l).
Proof.
  induction l as [|x l IH]; intros acc Hd Hk.
  - cbn. rewrite app_nil_r. reflexivity.
  - cbn [map fold_opt]. cbn [map keys_ok] in Hk. apply andb_true_iff in Hk. destruct Hk as [Hk1 Hk2].
    apply negb_true_iff in Hk1. unfold add_named at 1. rewrite (Hd x (or_introl eq_refl)).
    unfold mem. rewrite Hk1. rewrite IH.
    + rewrite <- app_assoc. reflexivity.
    + intros y Hy. apply Hd. right; exact Hy.
    + rewrite map_app. cbn [map]. rewrite app_assoc. exact Hk2.
Qed.

Lemma existsb_type_absent (acc : list (name * option name)) n father :
  mem (map fst acc) n = false ->
  existsb (fun e => (fst e =? n)%N && opt_eqb N.eqb (snd e) father) acc = false.
Proof.
  induction acc as [|[m f] acc IH]; cbn; intros H; [reflexivity|].
  apply orb_false_iff in H. destruct H as [H1 H2]. rewrite H1, (IH H2). reflexivity.
Qed.

Lemma types_phase l : forall acc, types_ok (map fst acc) l = true ->
  fold_opt add_type_decl (map enc_user_type l) acc = Some (acc ++ l).
Proof.
  induction l as [|[n f] l IH]; intros acc H.
  - cbn. rewrite app_nil_r. reflexivity.
  - cbn [types_ok] in H. apply andb_true_iff in H. destruct H as [H H3]. apply andb_true_iff in H. destruct H as [H1 H2].
    apply negb_true_iff in H1. cbn [map fold_opt]. unfold add_type_decl at 1. unfold enc_user_type at 1. cbn [fst snd].
    rewrite (type_decl_codec (ut_of acc) (TyUser n) f eq_refl).
    2:{ unfold wf_fatherb, ut_of. destruct f as [p|]; [exact H2 | reflexivity]. }
    rewrite (existsb_type_absent acc n f H1). unfold ut_of at 1. rewrite H1. rewrite IH.
    + rewrite <- app_assoc. reflexivity.
    + rewrite map_app. exact H3.
Qed.

Section Problem.
  Variable simp : expr -> expr.

  Lemma object_codec ut o : wf_tyb ut (snd o) = true -> dec_object ut (enc_object o) = Some o.
  Proof. destruct o as [n t]. unfold dec_object, enc_object; cbn. intros H. rewrite (type_codec ut t H). reflexivity. Qed.

  Lemma fluent_codec ut ot d : wf_fluentb ut ot d = true -> dec_fluent ut ot (enc_fluent d) = Some d.
  Proof.
    unfold wf_fluentb. intros H. apply andb_true_iff in H. destruct H as [H H3]. apply andb_true_iff in H. destruct H as [H1 H2].
    unfold dec_fluent, enc_fluent. cbn [fm_type fm_params fm_default fm_name].
    rewrite (type_codec ut _ H1), (params_codec ut _ H2).
    destruct d as [n t sg [e|]]; cbn [fd_default option_map dec_optional wf_opt] in *.
    - apply andb_true_iff in H3. destruct H3 as [Hc He]. rewrite (expr_codec _ _ _ _ He), Hc. reflexivity.
    - reflexivity.
  Qed.

  Definition goal_step (s : list expr * list (tinterval * list expr)) (ig : option tinterval * expr) :=
    match fst ig with
    | None => (add_goal (fst s) (snd ig), snd s)
    | Some i => (fst s, dict_upd tinterval_eqb (fun vs => add_new expr_eqb vs (snd ig)) (snd s) i)
    end.

  Lemma goal_fold_untimed gs : forall a t,
    fold_left goal_step (map (fun g => (None, g)) gs) (a, t) = (fold_left add_goal gs a, t).
  Proof. induction gs as [|g gs IH]; intros a t; cbn; [reflexivity|]. rewrite IH. reflexivity. Qed.

  Lemma goal_fold_timed l : forall a t,
    fold_left goal_step (map (fun ig => (Some (fst ig), snd ig)) l) (a, t)
    = (a, regroup_from tinterval_eqb (add_new expr_eqb) l t).
  Proof. induction l as [|[i g] l IH]; intros a t; cbn; [reflexivity|]. rewrite IH. reflexivity. Qed.

  Theorem problem_codec p :
    wf_problemb p = true -> Forall (fun e => simp e = e) (p_traj p) ->
    dec_problem simp (enc_problem p) = Some p.
  Proof.
    intros H Hs. unfold wf_problemb in H. cbv zeta in H.
    split_and H.
    rename H into Hname, H15 into Htypes, H14 into Hnames, H13 into Hobjs, H12 into Hfls, H11 into Hacts,
           H10 into Hinitk, H9 into Hinit, H8 into Htek, H7 into Hte, H6 into Hgoals, H5 into Hgoalsok,
           H4 into Htgk, H3 into Htg, H2 into Hmet, H1 into Htraj, H0 into Heps.
    apply keys_ok_app in Hnames. destruct Hnames as [_ Hnames]. cbn [app] in Hnames.
    apply keys_ok_app in Hnames. destruct Hnames as [HnO Hnames].
    apply keys_ok_app in Hnames. destruct Hnames as [HnF HnA].
    unfold dec_problem, enc_problem.
    cbn [prm_name prm_types prm_fluents prm_objects prm_actions prm_init prm_timed_effects prm_goals prm_metrics
         prm_traj prm_discrete prm_self_overlapping prm_epsilon].
    rewrite (types_phase (p_types p) [] Htypes). cbn [app].
    rewrite (named_phase enc_object (dec_object (ut_of (p_types p))) fst (map fst (p_types p)) (p_objects p) []).
    2:{ intros o Ho. apply object_codec. exact (forallb_In _ _ _ Hobjs Ho). }
    2:{ cbn [map]. rewrite app_nil_r. exact HnO. }
    cbn [app].
    rewrite (named_phase enc_fluent (dec_fluent (ut_of (p_types p)) (ot_of (p_objects p))) fd_name
               (map fst (p_types p) ++ map fst (p_objects p)) (p_fluents p) []).
    2:{ intros d Hd. apply fluent_codec. exact (forallb_In _ _ _ Hfls Hd). }
    2:{ cbn [map]. rewrite app_nil_r. exact HnF. }
    cbn [app].
    rewrite (named_phase enc_action
               (dec_action (ut_of (p_types p)) (ot_of (p_objects p)) (ft_of (p_fluents p))) action_name
               (map fst (p_types p) ++ map fst (p_objects p) ++ map fd_name (p_fluents p)) (p_actions p) []).
    2:{ intros a Ha. apply action_codec. exact (forallb_In _ _ _ Hacts Ha). }
    2:{ cbn [map]. rewrite app_nil_r. rewrite !app_assoc in *. exact HnA. }
    cbn [app].
    set (ut := ut_of (p_types p)) in *. set (ot := ot_of (p_objects p)) in *. set (ft := ft_of (p_fluents p)) in *.
    rewrite (seq_opt_map (fun te => enc_timed_effect (Some (fst te)) (snd te)) _ (flatten (p_timed_effects p))).
    2:{ intros [t e] He. destruct (flatten_wf _ _ _ _ _ Hte He) as [W1 W2].
        unfold enc_timed_effect. cbn [te_effect te_time fst snd option_map].
        rewrite (effect_codec ut ot ft e W2), (timing_codec t W1). reflexivity. }
    rewrite (seq_opt_map (fun xv => (enc_expr (fst xv), enc_expr (snd xv))) _ (p_init p)).
    2:{ intros [x v] Hx. pose proof (forallb_In _ _ _ Hinit Hx) as W. cbn [fst snd] in W.
        apply andb_true_iff in W. destruct W as [W1 W2]. cbn [fst snd].
        rewrite (expr_codec _ _ _ _ W1), (expr_codec _ _ _ _ W2). reflexivity. }
    rewrite (seq_opt_app _ _ _ (map (fun g => (None, g)) (p_goals p))
               (map (fun ig => (Some (fst ig), snd ig)) (flatten (p_timed_goals p)))).
    2:{ apply seq_opt_map2. intros g Hg. cbn [gm_goal gm_timing dec_optional].
        rewrite (expr_codec _ _ _ _ (forallb_In _ _ _ Hgoals Hg)). reflexivity. }
    2:{ apply seq_opt_map2. intros [i g] Hg. destruct (flatten_wf _ _ _ _ _ Htg Hg) as [W1 W2].
        cbn [gm_goal gm_timing dec_optional fst snd].
        rewrite (expr_codec _ _ _ _ W2), (tinterval_codec i W1). reflexivity. }
    rewrite (seq_opt_map enc_expr (dec_expr ut ot ft) (p_traj p)).
    2:{ intros e He. apply expr_codec. exact (forallb_In _ _ _ Htraj He). }
    rewrite (seq_opt_map enc_metric (dec_metric ut ot ft (act_of (p_actions p))) (p_metrics p)).
    2:{ intros m Hm. apply metric_codec. exact (forallb_In _ _ _ Hmet Hm). }
    assert (Eeps : dec_optional dec_real (option_map enc_real (p_epsilon p)) = Some (p_epsilon p)).
    { destruct (p_epsilon p) as [q|]; [|reflexivity]. cbn [option_map dec_optional wf_opt] in *. rewrite (real_codec q (canonQb_true q Heps)). reflexivity. }
    rewrite Eeps.
    fold goal_step. rewrite fold_left_app, goal_fold_untimed, goal_fold_timed. cbn [fst snd].
    rewrite (adds_fold add_goal goal_ok add_goal_ok (p_goals p) [] Hgoalsok). cbn [app].
    fold (regroup tinterval_eqb (add_new expr_eqb) (flatten (p_timed_goals p))).
    rewrite (regroup_flatten tinterval_eqb tinterval_eqb_refl (add_new expr_eqb) (new_ok expr_eqb)
               (add_new_ok expr_eqb) (p_timed_goals p) Htgk).
    rewrite (regroup_flatten timing_eqb timing_eqb_refl add_app app_ok add_app_ok (p_timed_effects p) Htek).
    rewrite (assoc_fold expr_eqb (p_init p) [] Hinitk). cbn [app].
    assert (Etraj : map simp (p_traj p) = p_traj p).
    { clear -Hs. induction Hs as [|e l He _ IH]; cbn; [reflexivity|]. rewrite He, IH. reflexivity. }
    rewrite Etraj.
    clear -Hname. destruct p as [nm tys fls objs acts ini tes gs tgs ms tr dt so eps]. cbn in *.
    destruct nm as [n|]; [|reflexivity]. apply negb_true_iff in Hname. rewrite Hname. reflexivity.
  Qed.
End Problem.

Lemma Qred_canon q : canonQ (Qred q).
Proof. unfold canonQ. apply Qred_complete. apply Qred_correct. Qed.

Section Plan.
  Variable ot : name -> option ty.
  Variable asig : name -> option (nat * bool).

  Lemma param_atom_codec e :
    is_const e && wf_exprb (fun _ => false) ot (fun _ => None) e = true ->
    dec_param_atom ot (enc_param_atom e) = Some e.
  Proof.
    intros H. apply andb_true_iff in H. destruct H as [Hc Hw].
    destruct e; cbn [is_const] in Hc; try discriminate.
    - reflexivity.
    - reflexivity.
    - cbn [wf_exprb] in Hw. apply canonQb_true in Hw. unfold enc_param_atom. cbn [enc_expr enc_real_expr].
      unfold dec_param_atom. rewrite (py_fraction_num_den q Hw). reflexivity.
    - cbn [wf_exprb] in Hw. unfold enc_param_atom. cbn [enc_expr sym_atom]. unfold dec_param_atom.
      destruct (ot n) as [t'|]; [|discriminate]. apply ty_eqb_eq in Hw. subst. reflexivity.
  Qed.

  Lemma ainst_params_codec ps :
    forallb (fun e => is_const e && wf_exprb (fun _ => false) ot (fun _ => None) e) ps = true ->
    seq_opt (dec_param_atom ot) (map enc_param_atom ps) = Some ps.
  Proof. intros H. apply seq_opt_map. intros e He. apply param_atom_codec. exact (forallb_In _ _ _ H He). Qed.

  Lemma ainst_codec_untimed a : wf_ainstb ot asig a = true ->
    dec_ainst ot asig (enc_ainst None None a) = Some (a, None).
  Proof.
    unfold wf_ainstb, dec_ainst, enc_ainst. cbn [aim_params aim_action aim_start aim_end].
    destruct (asig (fst a)) as [[ar du]|]; [|discriminate]. intros H. apply andb_true_iff in H. destruct H as [Hl Hp].
    rewrite (ainst_params_codec _ Hp), Hl. destruct a; reflexivity.
  Qed.

  Lemma duration_back s d : canonQ d -> Qred (Qminus (Qred (Qplus s d)) s) = d.
  Proof.
    intros Hd. unfold canonQ in Hd. transitivity (Qred d); [|exact Hd]. apply Qred_complete. rewrite Qred_correct. ring.
  Qed.

  Lemma ainst_codec_timed s a od : wf_tt_entryb ot asig (s, a, od) = true ->
    dec_ainst ot asig (enc_ainst (Some (enc_real s))
                         (Some (enc_real (Qred (Qplus s (match od with Some d => d | None => Qmake 0 1 end))))) a)
    = Some (a, Some (s, od)).
  Proof.
    unfold wf_tt_entryb, wf_ainstb. cbn [fst snd]. intros H.
    apply andb_true_iff in H. destruct H as [H Hd]. apply andb_true_iff in H. destruct H as [Hs Ha].
    apply canonQb_true in Hs.
    unfold dec_ainst, enc_ainst. cbn [aim_params aim_action aim_start aim_end].
    destruct (asig (fst a)) as [[ar du]|]; [|discriminate]. apply andb_true_iff in Ha. destruct Ha as [Hl Hp].
    rewrite (ainst_params_codec _ Hp), Hl. cbn [negb].
    rewrite (real_codec s Hs), (real_codec _ (Qred_canon _)).
    destruct od as [d|].
    - apply andb_true_iff in Hd. destruct Hd as [Hc Hz]. apply canonQb_true in Hc.
      rewrite (duration_back s d Hc).
      destruct du; cbn [negb andb orb] in *.
      + rewrite andb_false_r. destruct a; reflexivity.
      + apply negb_true_iff in Hz. rewrite Hz. destruct a; reflexivity.
    - assert (Hc : canonQ (Qmake 0 1)) by reflexivity.
      rewrite (duration_back s (Qmake 0 1) Hc). cbn [Qnum Z.eqb andb]. rewrite Hd. destruct a; reflexivity.
  Qed.

  Theorem seq_plan_codec l : wf_seq_planb ot asig l = true ->
    dec_plan ot asig (enc_plan (PSeq l)) = Some (PSeq l).
  Proof.
    unfold wf_seq_planb, dec_plan, enc_plan. intros H.
    assert (Hl : forallb (wf_ainstb ot asig) l = true) by (destruct l; [discriminate | exact H]).
    rewrite (seq_opt_map2 (enc_ainst None None) (dec_ainst ot asig) (fun a => (a, None)) l).
    2:{ intros a Ha. apply ainst_codec_untimed. exact (forallb_In _ _ _ Hl Ha). }
    destruct l as [|a l]; [discriminate|]. cbn [map forallb snd andb].
    rewrite map_map. cbn [fst]. rewrite map_id. reflexivity.
  Qed.

  Theorem tt_plan_codec l : wf_tt_planb ot asig l = true ->
    dec_plan ot asig (enc_plan (PTT l)) = Some (PTT l).
  Proof.
    unfold wf_tt_planb, dec_plan, enc_plan. intros H.
    rewrite (seq_opt_map2 _ (dec_ainst ot asig) (fun sad => (snd (fst sad), Some (fst (fst sad), snd sad))) l).
    2:{ intros [[s a] od] Hin. cbn [fst snd]. apply ainst_codec_timed. exact (forallb_In _ _ _ H Hin). }
    assert (E1 : forallb (fun a : ainst * option (Q * option Q) => match snd a with Some _ => true | None => false end)
                   (map (fun sad : Q * ainst * option Q => (snd (fst sad), Some (fst (fst sad), snd sad))) l) = true).
    { clear. induction l as [|x l IH]; cbn; [reflexivity | exact IH]. }
    rewrite E1. f_equal. f_equal. clear. induction l as [|[[s a] od] l IH]; cbn; [reflexivity|]. rewrite IH. reflexivity.
  Qed.

  (* finding C20-F2: the empty sequential plan is read back as the empty time-triggered plan *)
  Lemma empty_seq_plan_lost : dec_plan ot asig (enc_plan (PSeq [])) = Some (PTT []).
  Proof. reflexivity. Qed.
End Plan.

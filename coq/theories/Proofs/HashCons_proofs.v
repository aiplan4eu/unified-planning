(* Proofs about the ExpressionManager model (C16): invariants of the hash-consing table over arbitrary histories of
   constructor calls (failing ones included), stability of a constructor call under any later history, and the
   documented normalisations.  Everything in Section Generic holds for EVERY type-check verdict function [tc]. *)
From Coq Require Import List ZArith NArith QArith Qcanon Bool Lia Sorted.
Import ListNotations.
Require Import UPV.Model.HashCons UPV.Proofs.ListFacts.
Open Scope N_scope.

Lemma op_code_inj a b : op_code a = op_code b -> a = b.
Proof. destruct a, b; simpl; intros H; try reflexivity; discriminate. Qed.

Lemma op_eqb_eq a b : op_eqb a b = true <-> a = b.
Proof. unfold op_eqb. rewrite N.eqb_eq. split; [apply op_code_inj | intros ->; reflexivity]. Qed.

Lemma ids_eqb_eq a : forall b, ids_eqb a b = true <-> a = b.
Proof.
  induction a as [|x a IH]; intros [|y b]; simpl; try (split; [discriminate | intros H; inversion H]); [tauto|].
  rewrite andb_true_iff, N.eqb_eq, IH. split; [intros [-> ->]; reflexivity | intros H; inversion H; auto].
Qed.

Lemma payload_eqb_eq a b : payload_eqb a b = true <-> a = b.
Proof.
  destruct a, b; simpl; try (split; [discriminate | intros H; inversion H]); try tauto.
  - rewrite eqb_true_iff. split; [intros ->; reflexivity | intros H; inversion H; auto].
  - rewrite Z.eqb_eq. split; [intros ->; reflexivity | intros H; inversion H; auto].
  - rewrite andb_true_iff, Z.eqb_eq, Pos.eqb_eq. split; [intros [-> ->]; reflexivity | intros H; inversion H; auto].
  - rewrite N.eqb_eq. split; [intros ->; reflexivity | intros H; inversion H; auto].
Qed.

Lemma content_eqb_eq (a b : content) : content_eqb a b = true <-> a = b.
Proof.
  destruct a as [[o l] p], b as [[o' l'] p']; simpl.
  rewrite !andb_true_iff, op_eqb_eq, ids_eqb_eq, payload_eqb_eq.
  split; [intros [[-> ->] ->]; reflexivity | intros H; inversion H; auto].
Qed.

Arguments content_eqb : simpl never.

Lemma content_eqb_refl c : content_eqb c c = true.
Proof. apply content_eqb_eq; reflexivity. Qed.

Definition ids (t : list node) : list N := map n_id t.
Definition contents (t : list node) : list content := map content_of t.

Lemma find_content_find c t : find_content c t = find (fun m => content_eqb (content_of m) c) t.
Proof. induction t as [|m t IH]; simpl; [|rewrite IH]; reflexivity. Qed.
Lemma find_id_find i t : find_id i t = find (fun m => n_id m =? i) t.
Proof. induction t as [|m t IH]; simpl; [|rewrite IH]; reflexivity. Qed.

Lemma find_content_some c t n : find_content c t = Some n -> In n t /\ content_of n = c.
Proof.
  rewrite find_content_find. intros H. destruct (find_some _ _ H) as [Hi E].
  split; [exact Hi|apply content_eqb_eq, E].
Qed.

Lemma find_content_none c t : find_content c t = None -> forall n, In n t -> content_of n <> c.
Proof.
  rewrite find_content_find. intros H n Hn E. apply content_eqb_eq in E.
  rewrite (find_none _ _ H n Hn) in E. discriminate.
Qed.

Lemma NoDup_map_inj_in {A B} (f : A -> B) l : NoDup (map f l) ->
  forall a b, In a l -> In b l -> f a = f b -> a = b.
Proof.
  induction l as [|x l IH]; simpl; intros ND a b Ha Hb E; [tauto|].
  inversion ND as [|? ? Hx ND']; subst.
  destruct Ha as [<-|Ha], Hb as [<-|Hb]; auto.
  - exfalso. apply Hx. rewrite E. apply in_map; assumption.
  - exfalso. apply Hx. rewrite <- E. apply in_map; assumption.
Qed.

Lemma in_find_content t n : NoDup (contents t) -> In n t -> find_content (content_of n) t = Some n.
Proof.
  intros ND HI. destruct (find_content (content_of n) t) as [m|] eqn:E.
  - apply find_content_some in E. destruct E as [Hm Em].
    f_equal. apply (NoDup_map_inj_in content_of t ND); assumption.
  - exfalso. exact (find_content_none _ _ E n HI eq_refl).
Qed.

Lemma find_id_some i t n : find_id i t = Some n -> In n t /\ n_id n = i.
Proof.
  rewrite find_id_find. intros H. destruct (find_some _ _ H) as [Hi E]. split; [exact Hi|apply N.eqb_eq, E].
Qed.

Lemma find_id_none i t : find_id i t = None -> forall n, In n t -> n_id n <> i.
Proof. rewrite find_id_find. intros H n Hn. apply N.eqb_neq. exact (find_none _ _ H n Hn). Qed.

Lemma in_find_id t n : NoDup (ids t) -> In n t -> find_id (n_id n) t = Some n.
Proof.
  intros ND HI. destruct (find_id (n_id n) t) as [m|] eqn:E.
  - apply find_id_some in E. destruct E as [Hm Em].
    f_equal. apply (NoDup_map_inj_in n_id t ND); assumption.
  - exfalso. exact (find_id_none _ _ E n HI eq_refl).
Qed.

Lemma SS_snoc (l : list N) x : StronglySorted N.lt l -> (forall y, In y l -> y < x) -> StronglySorted N.lt (l ++ [x]).
Proof.
  induction 1 as [|a l SS IH Fa]; intros H; simpl; [repeat constructor|].
  constructor.
  - apply IH. intros y Hy. apply H. right; exact Hy.
  - apply Forall_app. split; [exact Fa | constructor; [apply H; left; reflexivity | constructor]].
Qed.

Lemma SS_lt_NoDup (l : list N) : StronglySorted N.lt l -> NoDup l.
Proof.
  induction 1 as [|a l SS IH Fa]; constructor; [|exact IH].
  intros HI. rewrite Forall_forall in Fa. specialize (Fa a HI). lia.
Qed.

Lemma remove_content_snoc c t n :
  find_content c t = None -> content_of n = c -> remove_content c (t ++ [n]) = t.
Proof.
  intros HN E. unfold remove_content. rewrite filter_app. simpl.
  rewrite E, content_eqb_refl. simpl. rewrite app_nil_r.
  pose proof (find_content_none _ _ HN) as H. clear HN.
  induction t as [|m t IH]; simpl; [reflexivity|].
  destruct (content_eqb (content_of m) c) eqn:E2.
  - apply content_eqb_eq in E2. exfalso. exact (H m (or_introl eq_refl) E2).
  - simpl. f_equal. apply IH. intros k Hk. apply H. right; exact Hk.
Qed.

Definition mk (i : N) (c : content) (t : option ty) : node :=
  {| n_id := i; n_op := fst (fst c); n_args := snd (fst c); n_pay := snd c; n_ty := t |}.

Lemma content_of_mk i c t : content_of (mk i c t) = c.
Proof. destruct c as [[o l] p]; reflexivity. Qed.

Definition has_id (st : state) (i : N) : Prop := exists n, In n (tbl st) /\ n_id n = i.

(* ids strictly increase along the table and stay below next_id; no two entries share a content *)
Definition wf (st : state) : Prop :=
  StronglySorted N.lt (ids (tbl st)) /\ (forall n, In n (tbl st) -> n_id n < next_id st) /\ NoDup (contents (tbl st)).

(* TRUE and FALSE exist; the children of every node exist *)
Definition closed (st : state) : Prop :=
  has_id st true_id /\ has_id st false_id /\
  forall n, In n (tbl st) -> forall j, In j (n_args n) -> has_id st j.

Definition Inv (st : state) : Prop := wf st /\ closed st.

(* the table only grows: every node of [a] is, unchanged, a node of [b] *)
Definition ext (a b : state) : Prop := incl (tbl a) (tbl b) /\ next_id a <= next_id b.

Lemma ext_refl a : ext a a.
Proof. split; [apply incl_refl | lia]. Qed.
Lemma ext_trans a b c : ext a b -> ext b c -> ext a c.
Proof. intros [H1 H2] [H3 H4]. split; [eapply incl_tran; eauto | lia]. Qed.
Lemma has_id_ext a b i : ext a b -> has_id a i -> has_id b i.
Proof. intros [H _] [n [Hn E]]. exists n. split; [apply H; exact Hn | exact E]. Qed.

Lemma wf_ids_nodup st : wf st -> NoDup (ids (tbl st)).
Proof. intros [H _]. apply SS_lt_NoDup; exact H. Qed.

Lemma has_id_find st i : wf st -> has_id st i -> exists n, find_id i (tbl st) = Some n /\ In n (tbl st) /\ n_id n = i.
Proof.
  intros W [n [Hn E]]. exists n. subst i. split; [apply in_find_id; [apply wf_ids_nodup; exact W | exact Hn] | auto].
Qed.

Section Generic.
  Variable tc : list node -> content -> tcres.
  Variable ar : N -> option nat.

  Notation create_node := (create_node tc).
  Notation promote := (promote tc ar).
  Notation promote_list := (promote_list tc ar).
  Notation step := (step tc ar).
  Notation run := (run tc ar).
  Notation exec := (exec tc).

  (* the three things create_node can do *)
  Lemma create_node_cases st c :
    (exists n, find_content c (tbl st) = Some n /\ create_node st c = (st, Ok (n_id n))) \/
    (find_content c (tbl st) = None /\ exists t, tc (tbl st) c = TOk t /\
       create_node st c = ({| tbl := tbl st ++ [mk (next_id st) c (Some t)]; next_id := N.succ (next_id st) |},
                           Ok (next_id st))) \/
    (find_content c (tbl st) = None /\ exists e, tc (tbl st) c = TErr e /\
       create_node st c = ({| tbl := tbl st; next_id := N.succ (next_id st) |}, Err e)).
  Proof.
    unfold HashCons.create_node. destruct (find_content c (tbl st)) as [n|] eqn:E.
    - left. exists n. auto.
    - right. destruct (tc (tbl st) c) as [t|e] eqn:T.
      + left. split; [reflexivity|]. exists t. split; reflexivity.
      + right. split; [reflexivity|]. exists e. split; [reflexivity|].
        fold (mk (next_id st) c None). rewrite (remove_content_snoc c (tbl st)); [reflexivity | exact E | apply content_of_mk].
  Qed.

  Lemma create_node_ext st c : ext st (fst (create_node st c)).
  Proof.
    destruct (create_node_cases st c) as [[n [_ ->]] | [[_ [t [_ ->]]] | [_ [e [_ ->]]]]]; simpl.
    - apply ext_refl.
    - split; simpl; [apply incl_appl, incl_refl | lia].
    - split; simpl; [apply incl_refl | lia].
  Qed.

  Lemma create_node_wf st c : wf st -> wf (fst (create_node st c)).
  Proof.
    intros W. destruct (create_node_cases st c) as [[n [_ ->]] | [[HN [t [_ ->]]] | [_ [e [_ ->]]]]]; simpl; [exact W| |].
    - destruct W as [S [L D]]. unfold wf, ids, contents; simpl. rewrite !map_app; simpl. split; [|split].
      + apply SS_snoc; [exact S|]. intros y Hy. apply in_map_iff in Hy. destruct Hy as [m [<- Hm]]. apply L; exact Hm.
      + intros n Hn. apply in_app_iff in Hn. destruct Hn as [Hn|[<-|[]]]; [specialize (L n Hn); lia | simpl; lia].
      + apply NoDup_snoc; [exact D|]. rewrite content_of_mk. intros HI. apply in_map_iff in HI.
        destruct HI as [m [Em Hm]]. exact (find_content_none _ _ HN m Hm Em).
    - destruct W as [S [L D]]. split; [exact S | split; [|exact D]]. simpl. intros n Hn. specialize (L n Hn). lia.
  Qed.

  (* a successful create_node returns the id of a table node with exactly that content *)
  Lemma create_node_ok st c st1 i : create_node st c = (st1, Ok i) ->
    exists n, In n (tbl st1) /\ n_id n = i /\ content_of n = c.
  Proof.
    destruct (create_node_cases st c) as [[n [F ->]] | [[_ [t [_ ->]]] | [_ [e [_ ->]]]]]; intros H; inversion H; subst.
    - apply find_content_some in F. exists n. tauto.
    - exists (mk (next_id st) c (Some t)). simpl. split; [apply in_or_app; right; left; reflexivity|].
      split; [reflexivity | apply content_of_mk].
  Qed.

  (* same content => same node: constructing a content the table already holds returns that very node and changes nothing *)
  Lemma create_node_found st n : wf st -> In n (tbl st) -> create_node st (content_of n) = (st, Ok (n_id n)).
  Proof.
    intros [_ [_ D]] HI. unfold HashCons.create_node. rewrite (in_find_content _ _ D HI). reflexivity.
  Qed.

  Lemma create_node_closed st c : wf st -> closed st -> (forall j, In j (snd (fst c)) -> has_id st j) ->
    closed (fst (create_node st c)).
  Proof.
    intros W [HT [HF HC]] HA. pose proof (create_node_ext st c) as X.
    split; [eapply has_id_ext; eauto | split; [eapply has_id_ext; eauto|]].
    destruct (create_node_cases st c) as [[n [_ E]] | [[_ [t [_ E]]] | [_ [e [_ E]]]]]; rewrite E in *; simpl in *.
    - exact HC.
    - intros n Hn j Hj. apply in_app_iff in Hn. destruct Hn as [Hn|[<-|[]]].
      + eapply has_id_ext; [exact X | eapply HC; eauto].
      + eapply has_id_ext; [exact X | apply HA; exact Hj].
    - intros n Hn j Hj. eapply has_id_ext; [exact X | eapply HC; eauto].
  Qed.

  Lemma exec_ext st p : ext st (fst (exec st p)).
  Proof. destruct p; simpl; [apply ext_refl | apply create_node_ext | apply ext_refl]. Qed.
  Lemma exec_wf st p : wf st -> wf (fst (exec st p)).
  Proof. destruct p; simpl; auto. apply create_node_wf. Qed.

  Lemma exec_stable st p st1 i st' :
    wf st' -> exec st p = (st1, Ok i) -> ext st1 st' -> exec st' p = (st', Ok i).
  Proof.
    intros W' H X. destruct p as [j|c|e]; simpl in *.
    - inversion H; reflexivity.
    - apply create_node_ok in H. destruct H as [n [Hn [<- <-]]]. apply create_node_found; [exact W' | apply X; exact Hn].
    - discriminate.
  Qed.

  (* promote written as a plan, so that one stability lemma serves arguments and constructors *)
  Definition pplan (t : list node) (a : arg) : plan :=
    match a with
    | ANode i => match find_id i t with Some _ => PRet i | None => PErr EBadRef end
    | ABool b => PRet (if b then true_id else false_id)
    | AInt z => PCreate (int_content z)
    | ANum q => match uniform q with inl z => PCreate (int_content z) | inr r => PCreate (real_content r) end
    | AFluent f => match ar f with
                   | Some O => PCreate (OFluent, [], PSym f)
                   | Some (S _) => PErr EArity
                   | None => PErr EBadRef
                   end
    | AObject o => PCreate (OObj, [], PSym o)
    | AParam p => PCreate (OParam, [], PSym p)
    end.

  Lemma promote_exec st a : promote st a = exec st (pplan (tbl st) a).
  Proof.
    destruct a; simpl; try reflexivity.
    - destruct (find_id i (tbl st)); reflexivity.
    - destruct (uniform q); reflexivity.
    - destruct (ar f) as [[|k]|]; reflexivity.
  Qed.

  Lemma pplan_args t a c : pplan t a = PCreate c -> snd (fst c) = [].
  Proof.
    destruct a; simpl; try discriminate; try (intros H; inversion H; reflexivity).
    - destruct (find_id i t); discriminate.
    - destruct (uniform q); intros H; inversion H; reflexivity.
    - destruct (ar f) as [[|k]|]; try discriminate. intros H; inversion H; reflexivity.
  Qed.

  Lemma promote_ext st a : ext st (fst (promote st a)).
  Proof. rewrite promote_exec. apply exec_ext. Qed.
  Lemma promote_wf st a : wf st -> wf (fst (promote st a)).
  Proof. rewrite promote_exec. apply exec_wf. Qed.

  Lemma exec_closed st p : wf st -> closed st ->
    (forall c, p = PCreate c -> forall j, In j (snd (fst c)) -> has_id st j) -> closed (fst (exec st p)).
  Proof.
    intros W C H. destruct p as [j|c|e]; simpl; [exact C | | exact C].
    apply create_node_closed; [exact W | exact C | exact (H c eq_refl)].
  Qed.

  Lemma promote_closed st a : wf st -> closed st -> closed (fst (promote st a)).
  Proof.
    intros W C. rewrite promote_exec. apply exec_closed; auto.
    intros c E j Hj. rewrite (pplan_args _ _ _ E) in Hj. destruct Hj.
  Qed.

  Lemma promote_inv st a sa r : Inv st -> promote st a = (sa, r) -> Inv sa.
  Proof.
    intros [W C] E. pose proof (promote_wf st a W) as W1. pose proof (promote_closed st a W C) as C1.
    rewrite E in *. split; assumption.
  Qed.

  Lemma exec_ok st p st1 i : wf st -> exec st p = (st1, Ok i) ->
    (forall j, p = PRet j -> has_id st j) -> has_id st1 i.
  Proof.
    intros W H R. destruct p as [j|c|e]; simpl in *.
    - inversion H; subst. apply R; reflexivity.
    - apply create_node_ok in H. destruct H as [n [Hn [E _]]]. exists n; auto.
    - discriminate.
  Qed.

  Lemma promote_ok st a st1 i : Inv st -> promote st a = (st1, Ok i) -> has_id st1 i.
  Proof.
    intros [W [HT [HF _]]]. rewrite promote_exec. intros H. eapply exec_ok; eauto.
    intros j E. destruct a; simpl in E; try discriminate.
    - destruct (find_id i0 (tbl st)) as [n|] eqn:F; [|discriminate]. inversion E; subst.
      apply find_id_some in F. exists n; tauto.
    - inversion E. destruct b; assumption.
    - destruct (uniform q); discriminate.
    - destruct (ar f) as [[|k]|]; discriminate.
  Qed.

  Lemma pplan_stable st a st1 i st' : wf st' ->
    exec st (pplan (tbl st) a) = (st1, Ok i) -> ext st1 st' -> pplan (tbl st') a = pplan (tbl st) a.
  Proof.
    intros W' H X. destruct a; simpl in *; try reflexivity.
    destruct (find_id i0 (tbl st)) as [n|] eqn:F; simpl in H; [|discriminate].
    inversion H; subst. apply find_id_some in F. destruct F as [Hn <-].
    rewrite (in_find_id (tbl st') n); [reflexivity | apply wf_ids_nodup; exact W' | apply X; exact Hn].
  Qed.

  (* an argument that was promoted once is promoted to the same node, without any change, in every later state *)
  Lemma promote_stable st a st1 i st' :
    wf st' -> promote st a = (st1, Ok i) -> ext st1 st' -> promote st' a = (st', Ok i).
  Proof.
    intros W' H X. rewrite promote_exec in *. rewrite (pplan_stable st a st1 i st' W' H X).
    eapply exec_stable; eauto.
  Qed.

  Lemma promote_list_ext l : forall st, ext st (fst (promote_list st l)).
  Proof.
    induction l as [|a l IH]; intros st; simpl; [apply ext_refl|].
    pose proof (promote_ext st a) as Xa. destruct (promote st a) as [sa [ia|e]]; simpl in *; [|exact Xa].
    pose proof (IH sa) as Xl. destruct (promote_list sa l) as [s2 [is|e]]; simpl in *; eapply ext_trans; eauto.
  Qed.

  Lemma promote_list_ok l : forall st st1 is, Inv st -> promote_list st l = (st1, inl is) ->
    Forall (has_id st1) is.
  Proof.
    induction l as [|a l IH]; intros st st1 is I H; simpl in H.
    - inversion H; constructor.
    - destruct (promote st a) as [sa [ia|e]] eqn:Pa; [|discriminate].
      pose proof (promote_inv _ _ _ _ I Pa) as Ia.
      pose proof (promote_list_ext l sa) as Xl.
      destruct (promote_list sa l) as [s2 [is'|e]] eqn:Pl; [|discriminate].
      inversion H; subst. simpl in Xl. constructor.
      + apply (has_id_ext sa st1 ia Xl). exact (promote_ok st a sa ia I Pa).
      + exact (IH sa st1 is' Ia Pl).
  Qed.

  Lemma promote_list_stable l : forall st st1 is st', Inv st -> wf st' ->
    promote_list st l = (st1, inl is) -> ext st1 st' -> promote_list st' l = (st', inl is).
  Proof.
    induction l as [|a l IH]; intros st st1 is st' I W' H X; simpl in *.
    - inversion H; reflexivity.
    - destruct (promote st a) as [sa [ia|e]] eqn:Pa; [|discriminate].
      pose proof (promote_inv _ _ _ _ I Pa) as Ia.
      pose proof (promote_list_ext l sa) as Xl.
      destruct (promote_list sa l) as [s2 [is'|e]] eqn:Pl; [|discriminate].
      inversion H; subst. simpl in Xl.
      rewrite (promote_stable st a sa ia st' W' Pa (ext_trans _ _ _ Xl X)).
      rewrite (IH sa st1 is' st' Ia W' Pl X). reflexivity.
  Qed.

  Lemma plan_args t k is c : plan_of ar t k is = PCreate c -> incl (snd (fst c)) is.
  Proof.
    destruct k; simpl.
    - destruct is as [|i [|j r]]; [destruct o | |]; intros H; inversion H; subst; simpl;
        try apply incl_refl; intros x [].
    - destruct is as [|i [|j r]]; try discriminate.
      destruct (find_id i t) as [n|]; [|discriminate].
      destruct (n_op n); try (intros H; inversion H; apply incl_refl).
      destruct (n_args n); intros H; inversion H; apply incl_refl.
    - destruct is as [|x [|y [|z r]]]; try discriminate. intros H; inversion H; subst.
      destruct o; simpl; try apply incl_refl; intros v [<-|[<-|[]]]; simpl; auto.
    - intros H; inversion H; intros x [].
    - intros H; inversion H; intros x [].
    - discriminate.
    - destruct (ar f) as [n|]; [|discriminate]. destruct (Nat.eqb n (length is)); [|discriminate].
      intros H; inversion H; apply incl_refl.
    - intros H; inversion H; intros x [].
    - intros H; inversion H; intros x [].
  Qed.

  Lemma plan_ret st k is j : Inv st -> Forall (has_id st) is -> plan_of ar (tbl st) k is = PRet j -> has_id st j.
  Proof.
    intros [W [HT [HF HC]]] F. rewrite Forall_forall in F. destruct k; simpl.
    - destruct is as [|i [|i2 r]]; [destruct o | |]; intros H; inversion H; subst; auto. apply F; left; reflexivity.
    - destruct is as [|i [|i2 r]]; try discriminate.
      destruct (find_id i (tbl st)) as [n|] eqn:E; [|discriminate]. apply find_id_some in E. destruct E as [Hn _].
      destruct (n_op n); try discriminate. destruct (n_args n) as [|x r] eqn:A; intros H; inversion H; subst.
      apply (HC n Hn). rewrite A. left; reflexivity.
    - destruct is as [|x [|y [|z r]]]; discriminate.
    - discriminate.
    - discriminate.
    - intros H; inversion H. destruct b; assumption.
    - destruct (ar f) as [n|]; [|discriminate]. destruct (Nat.eqb n (length is)); discriminate.
    - discriminate.
    - discriminate.
  Qed.

  Lemma plan_stable st st' k is : wf st -> wf st' -> ext st st' -> Forall (has_id st) is ->
    plan_of ar (tbl st') k is = plan_of ar (tbl st) k is.
  Proof.
    intros W W' X F. destruct k; simpl; try reflexivity.
    destruct is as [|i [|i2 r]]; try reflexivity.
    inversion F as [|? ? Hi _]; subst. destruct (has_id_find st i W Hi) as [n [E [Hn En]]].
    rewrite E. subst i. rewrite (in_find_id (tbl st') n); [reflexivity | apply wf_ids_nodup; exact W' | apply X; exact Hn].
  Qed.

  (* an invariant at least as strong as [Inv] that create_node keeps when the children exist is kept by every
     constructor call: arguments are promoted through create_node on contents without children, and the node a
     constructor creates has the promoted arguments as children *)
  Section Kept.
    Variable Q : state -> Prop.
    Hypothesis Q_Inv : forall st, Q st -> Inv st.
    Hypothesis Q_create : forall st c,
      Q st -> (forall j, In j (snd (fst c)) -> has_id st j) -> Q (fst (create_node st c)).

    Lemma exec_keeps st p : Q st -> (forall c, p = PCreate c -> forall j, In j (snd (fst c)) -> has_id st j) ->
      Q (fst (exec st p)).
    Proof. intros H A. destruct p as [j|c|e]; simpl; [exact H| |exact H]. apply Q_create; [exact H|exact (A c eq_refl)]. Qed.

    Lemma promote_keeps st a : Q st -> Q (fst (promote st a)).
    Proof.
      intros H. rewrite promote_exec. apply exec_keeps; [exact H|].
      intros c E j Hj. rewrite (pplan_args _ _ _ E) in Hj. destruct Hj.
    Qed.

    Lemma promote_list_keeps l : forall st, Q st -> Q (fst (promote_list st l)).
    Proof.
      induction l as [|a l IH]; intros st H; simpl; [exact H|].
      pose proof (promote_keeps st a H) as Ha. destruct (promote st a) as [sa [ia|e]]; simpl in *; [|exact Ha].
      pose proof (IH sa Ha) as Hl. destruct (promote_list sa l) as [s2 [is|e]]; exact Hl.
    Qed.

    Lemma step_keeps st k : Q st -> Q (fst (step st k)).
    Proof.
      intros H. unfold HashCons.step. pose proof (promote_list_keeps (call_args k) st H) as H1.
      destruct (promote_list st (call_args k)) as [s1 [is|e]] eqn:P; simpl in *; [|exact H1].
      pose proof (promote_list_ok _ _ _ _ (Q_Inv _ H) P) as F. apply exec_keeps; [exact H1|].
      intros c E j Hj. rewrite Forall_forall in F. apply F. exact (plan_args _ _ _ _ E j Hj).
    Qed.

    Lemma run_keeps ks : forall st, Q st -> Q (run st ks).
    Proof. induction ks as [|k ks IH]; intros st H; simpl; [exact H | apply IH, step_keeps; exact H]. Qed.
  End Kept.

  Lemma create_node_inv st c : Inv st -> (forall j, In j (snd (fst c)) -> has_id st j) -> Inv (fst (create_node st c)).
  Proof. intros [W C] A. split; [apply create_node_wf; exact W|apply create_node_closed; assumption]. Qed.

  Lemma promote_list_inv l st : Inv st -> Inv (fst (promote_list st l)).
  Proof. exact (promote_list_keeps Inv create_node_inv l st). Qed.
  Lemma step_inv st k : Inv st -> Inv (fst (step st k)).
  Proof. exact (step_keeps Inv (fun _ H => H) create_node_inv st k). Qed.
  Lemma run_inv ks st : Inv st -> Inv (run st ks).
  Proof. exact (run_keeps Inv (fun _ H => H) create_node_inv ks st). Qed.

  Lemma step_ext st k : ext st (fst (step st k)).
  Proof.
    unfold HashCons.step. pose proof (promote_list_ext (call_args k) st) as X.
    destruct (promote_list st (call_args k)) as [s1 [is|e]]; simpl in *; [|exact X].
    eapply ext_trans; [exact X | apply exec_ext].
  Qed.

  (* the node a constructor returns is a node of the table *)
  Lemma step_ok st k st2 i : Inv st -> step st k = (st2, Ok i) -> has_id st2 i.
  Proof.
    intros I. unfold HashCons.step. pose proof (promote_list_inv (call_args k) st I) as I1.
    destruct (promote_list st (call_args k)) as [s1 [is|e]] eqn:P; simpl in *; [|discriminate].
    pose proof (promote_list_ok _ _ _ _ I P) as F. intros H.
    eapply exec_ok; [apply I1 | exact H |]. intros j E. eapply plan_ret; eauto.
  Qed.

  (* THE stability lemma: a constructor call that succeeded returns the identical node, and changes nothing, in every
     later state of the manager *)
  Lemma step_stable st k st2 i st' : Inv st -> wf st' ->
    step st k = (st2, Ok i) -> ext st2 st' -> step st' k = (st', Ok i).
  Proof.
    intros I W' H X. unfold HashCons.step in *.
    pose proof (promote_list_inv (call_args k) st I) as I1.
    destruct (promote_list st (call_args k)) as [s1 [is|e]] eqn:P; simpl in *; [|discriminate].
    pose proof (promote_list_ok _ _ _ _ I P) as F.
    pose proof (exec_ext s1 (plan_of ar (tbl s1) k is)) as X1. rewrite H in X1; simpl in X1.
    assert (X1' : ext s1 st') by (eapply ext_trans; eauto).
    rewrite (promote_list_stable _ _ _ _ _ I W' P X1').
    rewrite (plan_stable s1 st' k is (proj1 I1) W' X1' F).
    eapply exec_stable; eauto.
  Qed.

  Lemma run_ext ks : forall st, ext st (run st ks).
  Proof.
    induction ks as [|k ks IH]; intros st; simpl; [apply ext_refl|].
    eapply ext_trans; [apply step_ext | apply IH].
  Qed.

  Lemma run_app st ks ks' : run st (ks ++ ks') = run (run st ks) ks'.
  Proof. unfold HashCons.run. apply fold_left_app. Qed.

  Theorem ids_unique_and_increasing st ks : Inv st ->
    StronglySorted N.lt (ids (tbl (run st ks))) /\ NoDup (ids (tbl (run st ks))) /\
    (forall n, In n (tbl (run st ks)) -> n_id n < next_id (run st ks)) /\ next_id st <= next_id (run st ks).
  Proof.
    intros I. destruct (run_inv ks st I) as [W _]. split; [apply W|]. split; [apply wf_ids_nodup; exact W|].
    split; [apply W | apply run_ext].
  Qed.

  Theorem distinct_content_distinct_id st ks n1 n2 : Inv st ->
    In n1 (tbl (run st ks)) -> In n2 (tbl (run st ks)) ->
    (content_of n1 = content_of n2 <-> n_id n1 = n_id n2) /\ (n_id n1 = n_id n2 -> n1 = n2).
  Proof.
    intros I H1 H2. destruct (run_inv ks st I) as [W _].
    assert (A : n_id n1 = n_id n2 -> n1 = n2)
      by (apply (NoDup_map_inj_in n_id _ (wf_ids_nodup _ W)); assumption).
    split; [|exact A]. split.
    - intros E. f_equal. apply (NoDup_map_inj_in content_of _ (proj2 (proj2 W))); assumption.
    - intros E. rewrite (A E). reflexivity.
  Qed.

  (* existing nodes never change and never disappear, whatever is constructed later, failing calls included *)
  Theorem nodes_immutable st ks n : In n (tbl st) -> In n (tbl (run st ks)).
  Proof. intros H. apply (proj1 (run_ext ks st)). exact H. Qed.

  Theorem same_content_same_node st ks n c : Inv st -> In n (tbl (run st ks)) -> content_of n = c ->
    create_node (run st ks) c = (run st ks, Ok (n_id n)).
  Proof. intros I H <-. apply create_node_found; [apply (run_inv ks st I) | exact H]. Qed.

  Theorem same_call_same_node st ks k st1 i ks' : Inv st ->
    step (run st ks) k = (st1, Ok i) -> step (run st1 ks') k = (run st1 ks', Ok i).
  Proof.
    intros I H. pose proof (run_inv ks st I) as I0.
    pose proof (step_inv (run st ks) k I0) as I1. rewrite H in I1; simpl in I1.
    eapply step_stable; [exact I0 | apply (run_inv ks' st1 I1) | exact H | apply run_ext].
  Qed.

  Theorem result_in_table st ks k st1 i : Inv st -> step (run st ks) k = (st1, Ok i) ->
    exists n, In n (tbl st1) /\ n_id n = i.
  Proof. intros I H. eapply step_ok; [apply (run_inv ks st I) | exact H]. Qed.

  (* a failing call adds no node (only promoted arguments of the call, if any, and a consumed id) *)
  Theorem failed_create_leaves_table st c e st1 : create_node st c = (st1, Err e) -> tbl st1 = tbl st.
  Proof.
    destruct (create_node_cases st c) as [[n [_ ->]] | [[_ [t [_ ->]]] | [_ [e' [_ ->]]]]]; intros H; inversion H; reflexivity.
  Qed.

  Lemma and_nil st : step st (KNary NAnd []) = (st, Ok true_id).
  Proof. reflexivity. Qed.
  Lemma or_nil st : step st (KNary NOr []) = (st, Ok false_id).
  Proof. reflexivity. Qed.
  Lemma plus_nil st : step st (KNary NPlus []) = step st (KInt 0).
  Proof. reflexivity. Qed.
  Lemma times_nil st : step st (KNary NTimes []) = step st (KInt 1).
  Proof. reflexivity. Qed.

  (* And/Or/Plus/Times of one argument IS that argument (promoted), whatever its type *)
  Lemma nary_single st o a : step st (KNary o [a]) = promote st a.
  Proof.
    unfold HashCons.step; simpl. destruct (promote st a) as [s [i|e]]; reflexivity.
  Qed.

  Lemma not_not st j n i r : find_id j (tbl st) = Some n -> n_op n = ONot -> n_args n = i :: r ->
    step st (KNot (ANode j)) = (st, Ok i).
  Proof.
    intros F O A. unfold HashCons.step; simpl. rewrite F. simpl. rewrite F, O, A. reflexivity.
  Qed.

  Lemma not_not_roundtrip st i n st1 j : wf st -> find_id i (tbl st) = Some n -> n_op n <> ONot ->
    step st (KNot (ANode i)) = (st1, Ok j) -> step st1 (KNot (ANode j)) = (st1, Ok i).
  Proof.
    intros W F O. unfold HashCons.step at 1; simpl. rewrite F; simpl. rewrite F.
    assert (P : match n_op n, n_args n with ONot, x :: _ => PRet x | _, _ => PCreate (ONot, [i], PNone) end
                = PCreate (ONot, [i], PNone)) by (destruct (n_op n); try reflexivity; congruence).
    rewrite P; simpl. intros H.
    pose proof (create_node_wf st (ONot, [i], PNone) W) as W1. rewrite H in W1; simpl in W1.
    apply create_node_ok in H. destruct H as [m [Hm [Em Cm]]].
    pose proof (in_find_id (tbl st1) m (wf_ids_nodup _ W1) Hm) as Fm. rewrite Em in Fm.
    unfold content_of in Cm. inversion Cm as [[Co Ca Cp]].
    eapply not_not; eauto.
  Qed.

  (* GE/GT are LE/LT with the arguments swapped *)
  Lemma bin_swap_nodes st o o' i j : (forall x y, bin_content o x y = bin_content o' y x) ->
    step st (KBin o (ANode i) (ANode j)) = step st (KBin o' (ANode j) (ANode i)).
  Proof.
    intros S. unfold HashCons.step; simpl.
    destruct (find_id i (tbl st)) eqn:Fi, (find_id j (tbl st)) eqn:Fj; simpl; rewrite ?Fi, ?Fj; simpl;
      rewrite ?Fi, ?Fj; simpl; rewrite ?S; reflexivity.
  Qed.

  Lemma bin_swap st o o' a b st1 i : Inv st -> (forall x y, bin_content o x y = bin_content o' y x) ->
    step st (KBin o a b) = (st1, Ok i) -> step st1 (KBin o' b a) = (st1, Ok i).
  Proof.
    intros I S H. unfold HashCons.step in H; simpl in H.
    destruct (promote st a) as [sa [ia|e]] eqn:Pa; [|discriminate].
    pose proof (promote_inv _ _ _ _ I Pa) as Ia.
    destruct (promote sa b) as [sb [ib|e]] eqn:Pb; [|discriminate]. simpl in H.
    pose proof (promote_inv _ _ _ _ Ia Pb) as Ib.
    pose proof (promote_ext sa b) as Xab. rewrite Pb in Xab; simpl in Xab.
    pose proof (create_node_ext sb (bin_content o ia ib)) as Xb1. rewrite H in Xb1; simpl in Xb1.
    pose proof (create_node_wf sb (bin_content o ia ib) (proj1 Ib)) as W1. rewrite H in W1; simpl in W1.
    unfold HashCons.step; simpl.
    rewrite (promote_stable sa b sb ib st1 W1 Pb Xb1); simpl.
    rewrite (promote_stable st a sa ia st1 W1 Pa (ext_trans _ _ _ Xab Xb1)); simpl.
    rewrite <- S. apply create_node_ok in H. destruct H as [n [Hn [<- <-]]]. apply create_node_found; assumption.
  Qed.

  Lemma ge_is_le_swapped st a b st1 i : Inv st ->
    step st (KBin BGE a b) = (st1, Ok i) -> step st1 (KBin BLE b a) = (st1, Ok i).
  Proof. intros I. apply bin_swap; [exact I | reflexivity]. Qed.
  Lemma gt_is_lt_swapped st a b st1 i : Inv st ->
    step st (KBin BGT a b) = (st1, Ok i) -> step st1 (KBin BLT b a) = (st1, Ok i).
  Proof. intros I. apply bin_swap; [exact I | reflexivity]. Qed.
  Lemma ge_nodes st i j : step st (KBin BGE (ANode i) (ANode j)) = step st (KBin BLE (ANode j) (ANode i)).
  Proof. apply bin_swap_nodes; reflexivity. Qed.
  Lemma gt_nodes st i j : step st (KBin BGT (ANode i) (ANode j)) = step st (KBin BLT (ANode j) (ANode i)).
  Proof. apply bin_swap_nodes; reflexivity. Qed.

  (* the node GE returns is an LE node whose children are the promoted right and left arguments, in this order *)
  Lemma ge_content st a b st1 i : step st (KBin BGE a b) = (st1, Ok i) ->
    exists n ia ib, In n (tbl st1) /\ n_id n = i /\ content_of n = (OLE, [ib; ia], PNone).
  Proof.
    unfold HashCons.step; simpl.
    destruct (promote st a) as [sa [ia|e]]; [|discriminate].
    destruct (promote sa b) as [sb [ib|e]]; [|discriminate]. simpl. intros H.
    apply create_node_ok in H. destruct H as [n [Hn [E C]]]. exists n, ia, ib. auto.
  Qed.

  (* numeric literals: equal rationals are promoted identically; integral => the Int node, otherwise the reduced Real *)
  Lemma uniform_canonical q1 q2 : (q1 == q2)%Q -> uniform q1 = uniform q2.
  Proof. intros E. unfold uniform. rewrite (Qred_complete _ _ E). reflexivity. Qed.

  Lemma promote_num_canonical st q1 q2 : (q1 == q2)%Q -> promote st (ANum q1) = promote st (ANum q2).
  Proof. intros E. simpl. rewrite (uniform_canonical _ _ E). reflexivity. Qed.

  Lemma promote_num_integral st q : Qden (Qred q) = 1%positive ->
    promote st (ANum q) = step st (KInt (Qnum (Qred q))).
  Proof. intros E. simpl. unfold uniform. rewrite E. reflexivity. Qed.

  Lemma promote_num_fraction st q : Qden (Qred q) <> 1%positive ->
    promote st (ANum q) = create_node st (OReal, [], PReal (Qnum (Qred q)) (Qden (Qred q))).
  Proof.
    intros E. simpl. unfold uniform. apply Pos.eqb_neq in E. rewrite E.
    unfold real_content. rewrite Qred_involutive. reflexivity.
  Qed.

  Lemma promote_int_is_Int st z : promote st (AInt z) = step st (KInt z).
  Proof. reflexivity. Qed.
End Generic.

Lemma init_inv D : Inv (init (typecheck D)).
Proof.
  unfold init, create_node; simpl. unfold Inv, wf, closed, has_id, ids, contents; simpl.
  repeat split.
  - repeat constructor.
  - intros n [<-|[<-|[]]]; simpl; lia.
  - repeat constructor; simpl; intuition discriminate.
  - eexists; split; [left; reflexivity | reflexivity].
  - eexists; split; [right; left; reflexivity | reflexivity].
  - intros n [<-|[<-|[]]] j [].
Qed.

(* C14 / DESIGN #20: verdicts of create_node *)
(* A construction whose type check failed leaves nothing behind that changes a later verdict: the verdict of
   create_node on a content depends only on the (immutable) nodes of its children. *)
Section Verdict.
  Variable D : decls.
  Notation tc := (typecheck D).
  Notation ar := (arity D).

  Inductive verdict := VOk | VErr (e : err).
  Definition verdict_of (x : state * result) : verdict := match snd x with Ok _ => VOk | Err e => VErr e end.

  Definition args_exist (st : state) (c : content) : Prop := forall j, In j (snd (fst c)) -> has_id st j.

  Lemma child_types_stable st st' l : wf st' -> ext st st' -> (forall j, In j l -> has_id st j) ->
    child_types (tbl st') l = child_types (tbl st) l.
  Proof.
    intros W' X. induction l as [|i l IH]; intros H; simpl; [reflexivity|].
    destruct (H i (or_introl eq_refl)) as [n [Hn En]].
    destruct (find_id i (tbl st)) as [n0|] eqn:F; [|exfalso; exact (find_id_none _ _ F n Hn En)].
    apply find_id_some in F. destruct F as [Hn0 En0].
    pose proof (in_find_id (tbl st') n0 (wf_ids_nodup _ W') (proj1 X _ Hn0)) as F'. rewrite En0 in F'. rewrite F'.
    rewrite IH by (intros j Hj; apply H; right; exact Hj). reflexivity.
  Qed.

  Lemma typecheck_stable st st' c : wf st' -> ext st st' -> args_exist st c ->
    typecheck D (tbl st') c = typecheck D (tbl st) c.
  Proof.
    intros W' X A. destruct c as [[o l] p]. unfold typecheck.
    rewrite (child_types_stable st st' l W' X A). reflexivity.
  Qed.

  (* every node of the table passed its type check *)
  Definition typed (st : state) : Prop :=
    forall n, In n (tbl st) -> exists t, typecheck D (tbl st) (content_of n) = TOk t.

  Definition Inv2 (st : state) : Prop := Inv st /\ typed st.

  Lemma create_node_typed st c : Inv2 st -> args_exist st c -> typed (fst (create_node tc st c)).
  Proof.
    intros [[W C] T] A.
    pose proof (create_node_wf tc st c W) as W1. pose proof (create_node_ext tc st c) as X.
    destruct (create_node_cases tc st c) as [[n [_ E]] | [[_ [t [Tc E]]] | [_ [e [_ E]]]]]; rewrite E in *; simpl in *.
    - exact T.
    - intros n Hn. apply in_app_iff in Hn. destruct Hn as [Hn|[<-|[]]].
      + destruct (T n Hn) as [t0 Ht]. exists t0. rewrite <- Ht.
        apply (typecheck_stable st _ (content_of n) W1 X). intros j Hj. apply (proj2 (proj2 C) n Hn j Hj).
      + exists t. rewrite content_of_mk. rewrite <- Tc. apply (typecheck_stable st _ c W1 X A).
    - intros n Hn. destruct (T n Hn) as [t0 Ht]. exists t0. rewrite <- Ht.
      apply (typecheck_stable st _ (content_of n) W1 X). intros j Hj. apply (proj2 (proj2 C) n Hn j Hj).
  Qed.

  Lemma create_node_inv2 st c : Inv2 st -> args_exist st c -> Inv2 (fst (create_node tc st c)).
  Proof.
    intros I A. split; [apply create_node_inv; [exact (proj1 I) | exact A] | apply create_node_typed; assumption].
  Qed.

  Lemma run_inv2 ks st : Inv2 st -> Inv2 (run tc ar st ks).
  Proof. exact (run_keeps tc ar Inv2 (fun _ H => proj1 H) create_node_inv2 ks st). Qed.

  Lemma init_inv2 : Inv2 (init tc).
  Proof.
    split; [apply init_inv|]. unfold init, create_node; simpl.
    intros n [<-|[<-|[]]]; simpl; eexists; reflexivity.
  Qed.

  (* the verdict is that of the type check, unless the content is in the table already *)
  Lemma verdict_create st c : verdict_of (create_node tc st c) =
    match find_content c (tbl st) with
    | Some _ => VOk
    | None => match tc (tbl st) c with TOk _ => VOk | TErr e => VErr e end
    end.
  Proof.
    unfold HashCons.create_node. destruct (find_content c (tbl st)); [reflexivity|].
    destruct (tc (tbl st) c); reflexivity.
  Qed.

  Theorem create_node_history_independent st ks c : Inv2 st -> args_exist st c ->
    verdict_of (create_node tc (run tc ar st ks) c) = verdict_of (create_node tc st c).
  Proof.
    intros I A. pose proof (run_inv2 ks st I) as [[W' _] T']. pose proof (run_ext tc ar ks st) as X.
    pose proof (typecheck_stable st _ c W' X A) as TS. rewrite !verdict_create, TS.
    destruct (find_content c (tbl st)) as [n|] eqn:F.
    - apply find_content_some in F. destruct F as [Hn <-].
      rewrite (in_find_content _ _ (proj2 (proj2 W')) (proj1 X _ Hn)). reflexivity.
    - destruct (find_content c (tbl (run tc ar st ks))) as [n'|] eqn:F'; [|reflexivity].
      (* a node with this content was added later: then it passed the same type check *)
      apply find_content_some in F'. destruct F' as [Hn' Cn']. destruct (T' n' Hn') as [t0 Ht0].
      rewrite Cn', TS in Ht0. rewrite Ht0. reflexivity.
  Qed.
End Verdict.

(* Proofs about the model of the time-triggered <-> STN plan conversions (C26). *)
From Coq Require Import List ZArith NArith QArith Qabs Bool Lia Lqa.
Import ListNotations.
Require Import UPV.Model.Stn UPV.Proofs.Stn_proofs UPV.Proofs.Stn_termination UPV.Planning.StnPlan UPV.Proofs.ListFacts.
Local Open Scope Q_scope.
Arguments start_node : simpl never.
Arguments end_node : simpl never.
Arguments orig_time : simpl never.

Lemma qmax_l a b : a <= qmax a b.
Proof. unfold qmax. destruct (Qlt_bool a b) eqn:E; [apply Qlt_bool_iff in E; lra | lra]. Qed.
Lemma qmax_r a b : b <= qmax a b.
Proof. unfold qmax. destruct (Qlt_bool a b) eqn:E; [lra | apply Qlt_bool_false in E; lra]. Qed.
Lemma qmin_cases a b : qmin a b = a \/ qmin a b = b.
Proof. unfold qmin. destruct (Qle_bool a b); auto. Qed.
Lemma qmax_cases a b : qmax a b = a \/ qmax a b = b.
Proof. unfold qmax. destruct (Qlt_bool a b); auto. Qed.


Definition ev_rel (eps : Q) (a b : event) : Prop :=
  e_time a <= e_time b /\ (e_time a == e_time b \/ e_time a + eps <= e_time b).

Lemma ev_rel_trans eps a b c : ev_rel eps a b -> ev_rel eps b c -> ev_rel eps a c.
Proof.
  unfold ev_rel. intros [H1 H2] [H3 H4]. split; [lra|].
  destruct H2 as [H2|H2], H4 as [H4|H4]; [left; lra | right; lra | right; lra | right; lra].
Qed.

Lemma head_rel eps : forall r a, sorted_by_time (a :: r) = true -> gap_ok eps (a :: r) = true ->
  forall j b, nth_error r j = Some b -> ev_rel eps a b.
Proof.
  induction r as [|b0 r IH]; intros a Hs Hg j b Hj; [destruct j; discriminate|].
  simpl in Hs, Hg. apply andb_true_iff in Hs. destruct Hs as [Hs1 Hs2].
  apply andb_true_iff in Hg. destruct Hg as [Hg1 Hg2].
  assert (Hab : ev_rel eps a b0).
  { split; [apply Qle_bool_iff; exact Hs1|]. apply orb_true_iff in Hg1. destruct Hg1 as [H|H].
    - left. apply Qeq_bool_iff. exact H.
    - right. apply Qle_bool_iff. exact H. }
  destruct j as [|j]; simpl in Hj.
  - inversion Hj; subst. exact Hab.
  - eapply ev_rel_trans; [exact Hab|]. eapply IH; eauto.
Qed.

Lemma sorted_tail a r : sorted_by_time (a :: r) = true -> sorted_by_time r = true.
Proof. destruct r; [reflexivity|]. simpl. intros H. apply andb_true_iff in H. tauto. Qed.
Lemma gap_tail eps a r : gap_ok eps (a :: r) = true -> gap_ok eps r = true.
Proof. destruct r; [reflexivity|]. simpl. intros H. apply andb_true_iff in H. tauto. Qed.

Lemma chain_pairs eps : forall l, sorted_by_time l = true -> gap_ok eps l = true ->
  forall i j a b, (i < j)%nat -> nth_error l i = Some a -> nth_error l j = Some b -> ev_rel eps a b.
Proof.
  induction l as [|x l IH]; intros Hs Hg i j a b Hij Hi Hj; [destruct i; discriminate|].
  destruct j as [|j]; [lia|]. destruct i as [|i]; simpl in Hi, Hj.
  - inversion Hi; subst. eapply head_rel; eauto.
  - eapply (IH (sorted_tail _ _ Hs) (gap_tail _ _ _ Hg) i j); eauto. lia.
Qed.

Lemma insert_in e x : forall l, In e (insert_ev x l) -> e = x \/ In e l.
Proof.
  induction l as [|y l IH]; simpl; intros H.
  - destruct H as [H|[]]; auto.
  - destruct (Qlt_bool (e_time x) (e_time y)).
    + destruct H as [H|H]; auto.
    + destruct H as [H|H]; [right; left; exact H|]. destruct (IH H) as [->|H']; [left; reflexivity | right; right; exact H'].
Qed.

Lemma sort_in e l : In e (sort_events l) -> In e l.
Proof.
  revert e. unfold sort_events. apply (fold_left_inv (fun acc => forall e, In e acc -> In e l)); [intros e []|].
  intros acc x Hx Hacc e He. destruct (insert_in _ _ _ He) as [->|H]; [exact Hx | apply Hacc, H].
Qed.

Lemma insert_sorted x : forall l, sorted_by_time l = true -> sorted_by_time (insert_ev x l) = true.
Proof.
  induction l as [|y l IH]; intros Hs; [reflexivity|].
  simpl. destruct (Qlt_bool (e_time x) (e_time y)) eqn:E.
  - change (Qle_bool (e_time x) (e_time y) && sorted_by_time (y :: l) = true).
    apply andb_true_iff. split; [|exact Hs]. apply Qlt_bool_iff in E. apply Qle_bool_iff. lra.
  - apply Qlt_bool_false in E. specialize (IH (sorted_tail _ _ Hs)).
    destruct l as [|z l].
    + simpl. apply andb_true_iff. split; [apply Qle_bool_iff; exact E | reflexivity].
    + simpl in IH |- *. destruct (Qlt_bool (e_time x) (e_time z)) eqn:E2.
      * apply andb_true_iff. split; [apply Qle_bool_iff; exact E | exact IH].
      * simpl in Hs. apply andb_true_iff in Hs. destruct Hs as [H1 H2].
        apply andb_true_iff. split; [exact H1 | exact IH].
Qed.

Lemma sort_sorted l : sorted_by_time (sort_events l) = true.
Proof.
  unfold sort_events. apply (fold_left_inv (fun acc => sorted_by_time acc = true)); [reflexivity|].
  intros acc e _. apply insert_sorted.
Qed.

Definition ev_wf (chain : list step) (e : event) : Prop :=
  exists st, nth_error chain (e_gen e) = Some st /\ e_time e == st_start st + e_skew e.

Lemma step_events_wf eps g st e : In e (step_events eps g st) -> e_gen e = g /\ e_time e == st_start st + e_skew e.
Proof.
  unfold step_events. destruct (st_dur st).
  - intros H. apply in_map_iff in H. destruct H as (t & <- & _). simpl. split; [reflexivity | lra].
  - intros [<-|[]]. simpl. split; [reflexivity | lra].
Qed.

Lemma events_from_wf eps : forall chain g e, In e (events_from eps g chain) ->
  exists st, (g <= e_gen e)%nat /\ nth_error chain (e_gen e - g) = Some st /\ e_time e == st_start st + e_skew e.
Proof.
  induction chain as [|st chain IH]; intros g e H; [destruct H|].
  simpl in H. apply in_app_or in H. destruct H as [H|H].
  - destruct (step_events_wf _ _ _ _ H) as [Hg Ht]. exists st. rewrite Hg, Nat.sub_diag. auto.
  - destruct (IH _ _ H) as (st' & Hle & Hn & Ht). exists st'. split; [lia|]. split; [|exact Ht].
    replace (e_gen e - g)%nat with (S (e_gen e - S g)) by lia. exact Hn.
Qed.

Lemma plan_events_wf eps mock plan e : In e (plan_events eps mock plan) -> ev_wf (mock :: plan) e.
Proof.
  unfold plan_events, all_events. intros H. apply sort_in in H.
  destruct (events_from_wf _ _ _ _ H) as (st & _ & Hn & Ht). rewrite Nat.sub_0_r in Hn. exists st. auto.
Qed.

Lemma start_node_S_ne k : (start_node (S k) =? start_plan)%N = false /\ (start_node (S k) =? end_plan)%N = false.
Proof. unfold start_node, start_plan, end_plan. split; apply N.eqb_neq; lia. Qed.
Lemma end_node_S_ne k : (end_node (S k) =? start_plan)%N = false /\ (end_node (S k) =? end_plan)%N = false.
Proof. unfold end_node, start_plan, end_plan. split; apply N.eqb_neq; lia. Qed.

Lemma start_node_idx k : N.to_nat ((start_node (S k) - 2) / 2) = k /\ N.even (start_node (S k)) = true.
Proof.
  unfold start_node. split.
  - replace (2 + 2 * N.of_nat k - 2)%N with (N.of_nat k * 2)%N by lia.
    rewrite N.div_mul by discriminate. apply Nat2N.id.
  - rewrite N.even_add_mul_2. reflexivity.
Qed.
Lemma end_node_idx k : N.to_nat ((end_node (S k) - 2) / 2) = k /\ N.even (end_node (S k)) = false.
Proof.
  unfold end_node. split.
  - replace (3 + 2 * N.of_nat k - 2)%N with (1 + N.of_nat k * 2)%N by lia.
    rewrite N.div_add by discriminate. simpl. apply Nat2N.id.
  - rewrite N.even_add_mul_2. reflexivity.
Qed.

Lemma orig_start_plan plan : orig_time plan start_plan = 0.
Proof. reflexivity. Qed.
Lemma orig_end_plan plan : orig_time plan end_plan = makespan plan.
Proof. reflexivity. Qed.
Lemma orig_start_node plan k st : nth_error plan k = Some st -> orig_time plan (start_node (S k)) = st_start st.
Proof.
  intros H. unfold orig_time. destruct (start_node_S_ne k) as [-> ->]. destruct (start_node_idx k) as [-> ->].
  rewrite H. reflexivity.
Qed.
Lemma orig_end_node plan k st : nth_error plan k = Some st -> orig_time plan (end_node (S k)) = step_end st.
Proof.
  intros H. unfold orig_time. destruct (end_node_S_ne k) as [-> ->]. destruct (end_node_idx k) as [-> ->].
  rewrite H. reflexivity.
Qed.

(* start of the generator g of the chain mockup :: plan *)
Lemma orig_gen_start effs conds plan g st :
  nth_error (mock_step effs conds :: plan) g = Some st -> orig_time plan (start_node g) == st_start st.
Proof.
  destruct g as [|k]; intros H.
  - simpl in H. inversion H; subst. reflexivity.
  - change (nth_error plan k = Some st) in H. rewrite (orig_start_node _ _ _ H). reflexivity.
Qed.

Lemma makespan_nonneg plan : times_nonneg plan = true -> 0 <= makespan plan.
Proof.
  destruct plan as [|st r]; simpl; intros H; [lra|].
  apply andb_true_iff in H. destruct H as [H _]. apply andb_true_iff in H. destruct H as [H _].
  apply Qle_bool_iff in H. pose proof (qmax_l (st_start st) (step_end st)).
  pose proof (qmax_l (qmax (st_start st) (step_end st)) (makespan r)). lra.
Qed.

Lemma makespan_ge : forall plan k st, nth_error plan k = Some st ->
  st_start st <= makespan plan /\ step_end st <= makespan plan.
Proof.
  induction plan as [|x r IH]; intros k st H; [destruct k; discriminate|].
  simpl. pose proof (qmax_l (qmax (st_start x) (step_end x)) (makespan r)).
  pose proof (qmax_r (qmax (st_start x) (step_end x)) (makespan r)).
  destruct k as [|k]; simpl in H.
  - inversion H; subst. pose proof (qmax_l (st_start st) (step_end st)). pose proof (qmax_r (st_start st) (step_end st)).
    split; lra.
  - destruct (IH _ _ H). split; lra.
Qed.

Lemma step_nonneg plan k st : times_nonneg plan = true -> nth_error plan k = Some st ->
  0 <= st_start st /\ 0 <= step_end st.
Proof.
  intros H Hn. unfold times_nonneg in H. rewrite forallb_forall in H.
  specialize (H st (nth_error_In _ _ Hn)). apply andb_true_iff in H. destruct H as [H1 H2].
  apply Qle_bool_iff in H1. unfold step_end. destruct (st_dur st); [apply Qle_bool_iff in H2|]; split; lra.
Qed.

(* every node lies between GLOBAL_START and GLOBAL_END *)
Lemma orig_bounds plan n : times_nonneg plan = true ->
  orig_time plan start_plan <= orig_time plan n /\ orig_time plan n <= orig_time plan end_plan.
Proof.
  intros H. rewrite orig_start_plan, orig_end_plan. pose proof (makespan_nonneg _ H) as Hm.
  unfold orig_time. destruct (n =? start_plan)%N; [lra|]. destruct (n =? end_plan)%N; [lra|].
  destruct (nth_error plan (N.to_nat ((n - 2) / 2))) as [st|] eqn:E; [|lra].
  destruct (makespan_ge _ _ _ E). destruct (step_nonneg _ _ _ H E). destruct (N.even n); lra.
Qed.

Definition mk_pcon (k : N) (v : oq * oq * N) : pcon := (k, fst (fst v), snd (fst v), snd v).
(* v is in the list stored under k *)
Definition din (k : N) (v : oq * oq * N) (m : cdict) : Prop := exists l, In (k, l) m /\ In v l.
Definition no_empty (m : cdict) : Prop := forall k l, In (k, l) m -> l <> [].
Definition dict_sat (t : N -> Q) (m : cdict) : Prop := forall k v, din k v m -> sat_pcon t (mk_pcon k v).

Lemma din_cons k0 v0 k l m : din k0 v0 ((k, l) :: m) <-> (k0 = k /\ In v0 l) \/ din k0 v0 m.
Proof.
  unfold din. simpl. split.
  - intros (l0 & [E|H1] & H2); [inversion E; subst; auto | right; exists l0; auto].
  - intros [[-> H]|(l0 & H1 & H2)]; [exists l; auto | exists l0; auto].
Qed.

Lemma din_append k v k0 v0 : forall m, din k0 v0 (dict_append k v m) <-> (k0 = k /\ v0 = v) \/ din k0 v0 m.
Proof.
  induction m as [|[k' l'] m IH]; simpl.
  - rewrite din_cons. simpl. split.
    + intros [[-> [->|[]]]|H]; [left; auto | right; exact H].
    + intros [[-> ->]|H]; [left; auto | right; exact H].
  - destruct (N.eqb_spec k k') as [->|Hne]; rewrite !din_cons.
    + rewrite in_app_iff. simpl. split.
      * intros [[-> [H|[->|[]]]]|H]; auto.
      * intros [[-> ->]|[[-> H]|H]]; auto.
    + rewrite IH. split.
      * intros [H|[H|H]]; auto.
      * intros [H|[H|H]]; auto.
Qed.

Lemma dict_sat_nil t : dict_sat t [].
Proof. intros k v (l & [] & _). Qed.

Lemma dict_sat_append t k v m : dict_sat t m -> sat_pcon t (mk_pcon k v) -> dict_sat t (dict_append k v m).
Proof. intros Hm Hv k0 v0 Hd. apply din_append in Hd. destruct Hd as [[-> ->]|Hd]; [exact Hv | apply Hm, Hd]. Qed.

Lemma no_empty_append k v : forall m, no_empty m -> no_empty (dict_append k v m).
Proof.
  induction m as [|[k' l'] m IH]; intros Hm; simpl.
  - intros k0 l0 [H|[]]. inversion H; subst. discriminate.
  - destruct (N.eqb_spec k k').
    + intros k0 l0 [H|H]; [inversion H; subst; destruct l'; discriminate | eapply Hm; right; exact H].
    + intros k0 l0 [H|H]; [eapply Hm; left; exact H | eapply (IH (fun a b H1 => Hm a b (or_intror H1))); exact H].
Qed.

Lemma flatten_din m k v : din k v m -> In (mk_pcon k v) (flatten m).
Proof.
  intros (l & H1 & H2). unfold flatten. apply in_flat_map. exists (k, l). split; [exact H1|]. simpl.
  destruct l as [|v0 l]; [destruct H2|].
  change (In (mk_pcon k v) (map (mk_pcon k) (v0 :: l))). apply in_map. exact H2.
Qed.

(* a key with an empty list yields the unconstrained pair (k, k) *)
Lemma flatten_in m c : In c (flatten m) ->
  (exists k v, din k v m /\ c = mk_pcon k v) \/ exists k, In (k, []) m /\ c = (k, None, None, k).
Proof.
  unfold flatten. intros H. apply in_flat_map in H. destruct H as ([k l] & Hkl & Hc). simpl in Hc.
  destruct l as [|v0 l].
  - right. destruct Hc as [<-|[]]. exists k. auto.
  - left. change (In c (map (mk_pcon k) (v0 :: l))) in Hc. apply in_map_iff in Hc. destruct Hc as (v & <- & Hv).
    exists k, v. split; [exists (v0 :: l); auto | reflexivity].
Qed.

Lemma flatten_sat t m : dict_sat t m -> forall c, In c (flatten m) -> sat_pcon t c.
Proof.
  intros Hm c H. destruct (flatten_in m c H) as [(k & v & Hd & ->)|(k & _ & ->)]; [apply Hm, Hd | simpl; tauto].
Qed.

(* both loops of _convert_to_stn append at most one constraint per iteration *)
Definition centry := option (N * (oq * oq * N)).
Definition dict_add (e : centry) (m : cdict) : cdict := match e with Some (k, v) => dict_append k v m | None => m end.

Lemma din_dict_add e m k v : din k v (dict_add e m) <-> e = Some (k, v) \/ din k v m.
Proof.
  destruct e as [[k0 v0]|]; simpl.
  - rewrite din_append. split; intros [H|H]; auto; [destruct H; subst; auto | inversion H; auto].
  - split; [auto | intros [H|H]; [discriminate | exact H]].
Qed.

Lemma no_empty_dict_add e m : no_empty m -> no_empty (dict_add e m).
Proof. destruct e as [[k v]|]; [apply no_empty_append | auto]. Qed.

(* the loop over chain([mockup], timed_actions): 0 <= start of an instantaneous step, [d, d] between start and end of
   a durative step other than the mockup *)
Definition base_entry (g : nat) (st : step) : centry :=
  match st_dur st, g with
  | None, _ => Some (start_plan, (Some 0, None, start_node g))
  | Some d, S _ => Some (start_node g, (Some d, Some d, end_node g))
  | Some _, O => None
  end.

Lemma base_constraints_cons g st r m :
  base_constraints g (st :: r) m = base_constraints (S g) r (dict_add (base_entry g st) m).
Proof. unfold base_entry. simpl. destruct (st_dur st); [destruct g|]; reflexivity. Qed.

Lemma din_base k v : forall chain g m,
  din k v (base_constraints g chain m) <->
  din k v m \/ exists i st, nth_error chain i = Some st /\ base_entry (g + i) st = Some (k, v).
Proof.
  induction chain as [|st chain IH]; intros g m.
  - simpl. split; [auto | intros [H|([|i] & st & H & _)]; [exact H | discriminate | discriminate]].
  - rewrite base_constraints_cons, IH, din_dict_add. split.
    + intros [[H|H]|(i & st' & Hi & He)]; auto.
      * right. exists 0%nat, st. rewrite Nat.add_0_r. auto.
      * right. exists (S i), st'. rewrite Nat.add_succ_r. auto.
    + intros [H|([|i] & st' & Hi & He)]; auto.
      * simpl in Hi. inversion Hi; subst. rewrite Nat.add_0_r in He. auto.
      * right. exists i, st'. rewrite Nat.add_succ_r in He. auto.
Qed.

Lemma no_empty_base : forall chain g m, no_empty m -> no_empty (base_constraints g chain m).
Proof.
  induction chain as [|st chain IH]; intros g m H; [exact H|].
  rewrite base_constraints_cons. apply IH, no_empty_dict_add, H.
Qed.

Lemma base_entry_sat effs conds plan g st k v : times_nonneg plan = true ->
  nth_error (mock_step effs conds :: plan) g = Some st -> base_entry g st = Some (k, v) ->
  sat_pcon (orig_time plan) (mk_pcon k v).
Proof.
  intros Hnn H0 He. unfold base_entry in He. destruct (st_dur st) as [d|] eqn:Ed.
  - destruct g as [|j]; [discriminate|]. inversion He; subst. simpl in H0. unfold mk_pcon; cbn [fst snd].
    unfold sat_pcon. rewrite (orig_start_node _ _ _ H0), (orig_end_node _ _ _ H0). unfold step_end. rewrite Ed. split; lra.
  - inversion He; subst. unfold mk_pcon; cbn [fst snd]. unfold sat_pcon. rewrite orig_start_plan. split; [|exact I].
    destruct g as [|j]; [simpl in H0; inversion H0; subst; discriminate|].
    simpl in H0. rewrite (orig_start_node _ _ _ H0). destruct (step_nonneg _ _ _ Hnn H0). lra.
Qed.

Definition edge_entry (eps : Q) (evs : list event) (ij : nat * nat) : centry :=
  match nth_error evs (fst ij), nth_error evs (snd ij) with
  | Some a, Some b => edge_constraint eps a b
  | _, _ => None
  end.

Lemma add_edges_cons eps evs ij r m :
  add_edges eps evs (ij :: r) m = add_edges eps evs r (dict_add (edge_entry eps evs ij) m).
Proof.
  destruct ij as [i j]. unfold edge_entry. simpl. destruct (nth_error evs i); [|reflexivity].
  destruct (nth_error evs j); reflexivity.
Qed.

Lemma din_add_edges eps evs k v : forall edges m,
  din k v (add_edges eps evs edges m) <->
  din k v m \/ exists ij, In ij edges /\ edge_entry eps evs ij = Some (k, v).
Proof.
  induction edges as [|ij edges IH]; intros m.
  - simpl. split; [auto | intros [H|(ij & [] & _)]; exact H].
  - rewrite add_edges_cons, IH, din_dict_add. split.
    + intros [[H|H]|(ij' & Hi & He)].
      * right. exists ij. split; [left; reflexivity | exact H].
      * left. exact H.
      * right. exists ij'. split; [right; exact Hi | exact He].
    + intros [H|(ij' & [<-|Hi] & He)].
      * left. right. exact H.
      * left. left. exact He.
      * right. exists ij'. auto.
Qed.

Lemma no_empty_add_edges eps evs : forall edges m, no_empty m -> no_empty (add_edges eps evs edges m).
Proof.
  induction edges as [|ij edges IH]; intros m H; [exact H|].
  rewrite add_edges_cons. apply IH, no_empty_dict_add, H.
Qed.

Lemma edge_sat eps effs conds plan a b k v :
  ev_wf (mock_step effs conds :: plan) a -> ev_wf (mock_step effs conds :: plan) b -> ev_rel eps a b ->
  edge_constraint eps a b = Some (k, v) -> sat_pcon (orig_time plan) (mk_pcon k v).
Proof.
  intros (sa & Hna & Hta) (sb & Hnb & Htb) [Hle Hgap] H. unfold edge_constraint in H.
  destruct (Nat.eqb (e_gen a) (e_gen b)); [discriminate|].
  pose proof (orig_gen_start _ _ _ _ _ Hna) as Ea. pose proof (orig_gen_start _ _ _ _ _ Hnb) as Eb.
  destruct (Qeq_bool (e_time a) (e_time b)) eqn:E; inversion H; subst; unfold mk_pcon; cbn [fst snd]; unfold sat_pcon.
  - apply Qeq_bool_iff in E. split; lra.
  - split; [|exact I]. destruct Hgap as [Hg|Hg]; [apply Qeq_bool_iff in Hg; congruence|]. lra.
Qed.

(* the abstract conversion lemma: ANY list of events (each the start of its generator plus its skew) that is sorted
   by time, with epsilon at most the gap between different consecutive times, and ANY forward edge list *)
Lemma stn_of_events_satisfied eps effs conds plan evs edges :
  times_nonneg plan = true ->
  (forall e, In e evs -> ev_wf (mock_step effs conds :: plan) e) ->
  sorted_by_time evs = true -> gap_ok eps evs = true -> edges_forward (length evs) edges = true ->
  forall c, In c (flatten (add_edges eps evs edges (base_constraints 0 (mock_step effs conds :: plan) []))) ->
    sat_pcon (orig_time plan) c.
Proof.
  intros Hnn Hwf Hs Hg Hf. apply flatten_sat. intros k v Hd.
  apply din_add_edges in Hd. destruct Hd as [Hd|([i j] & Hij & He)].
  - apply din_base in Hd. destruct Hd as [(l & [] & _)|(i & st & Hi & He)].
    eapply base_entry_sat; eauto.
  - unfold edges_forward in Hf. rewrite forallb_forall in Hf. specialize (Hf _ Hij). cbn [fst snd] in Hf.
    apply andb_true_iff in Hf. destruct Hf as [Hlt _]. apply Nat.ltb_lt in Hlt.
    unfold edge_entry in He. cbn [fst snd] in He.
    destruct (nth_error evs i) as [a|] eqn:Ei; [|discriminate]. destruct (nth_error evs j) as [b|] eqn:Ej; [|discriminate].
    apply (edge_sat eps effs conds plan a b k v);
      [apply Hwf; exact (nth_error_In _ _ Ei) | apply Hwf; exact (nth_error_In _ _ Ej) | | exact He].
    exact (chain_pairs eps evs Hs Hg i j a b Hlt Ei Ej).
Qed.

(* the model of _convert_to_stn: its own event list is sorted and well formed *)
Lemma conv_constraints_satisfied eps effs conds plan edges :
  times_nonneg plan = true ->
  gap_ok eps (plan_events eps (mock_step effs conds) plan) = true ->
  edges_forward (length (plan_events eps (mock_step effs conds) plan)) edges = true ->
  forall c, In c (flatten (conv_constraints eps (mock_step effs conds) plan edges)) -> sat_pcon (orig_time plan) c.
Proof.
  intros Hnn Hg Hf. unfold conv_constraints. apply stn_of_events_satisfied; auto.
  - intros e He. eapply plan_events_wf; eauto.
  - apply sort_sorted.
Qed.

Definition node_ok (t : N -> Q) (n : N) : Prop := t start_plan <= t n /\ t n <= t end_plan.

Lemma node_adds_sol t n c : node_ok t n -> In c (node_adds n) -> satisfies t c.
Proof.
  intros [H1 H2] H. unfold node_adds in H. apply in_app_or in H.
  destruct H as [H|H].
  - destruct (n =? start_plan)%N; [destruct H|]. destruct H as [<-|[]]. simpl. lra.
  - destruct (n =? end_plan)%N; [destruct H|]. destruct H as [<-|[]]. simpl. lra.
Qed.

Lemma interval_adds_sat t a b lb ub :
  sat_pcon t (a, lb, ub, b) <-> forall c, In c (interval_adds a b lb ub) -> satisfies t c.
Proof.
  unfold interval_adds, sat_pcon. split.
  - intros [H1 H2] c H. apply in_app_or in H. destruct H as [H|H].
    + destruct lb; [|destruct H]. destruct H as [<-|[]]. simpl. lra.
    + destruct ub; [|destruct H]. destruct H as [<-|[]]. simpl. lra.
  - intros H. split.
    + destruct lb as [l|]; [|exact I].
      assert (S : satisfies t (a, b, - l)) by (apply H, in_or_app; left; left; reflexivity). simpl in S. lra.
    + destruct ub as [u|]; [|exact I].
      assert (S : satisfies t (b, a, u)) by (apply H, in_or_app; right; left; reflexivity). simpl in S. lra.
Qed.

Lemma init_adds_solution t cs :
  (forall n, node_ok t n) -> (forall c, In c cs -> sat_pcon t c) -> solution t (init_adds cs).
Proof.
  intros Hn Hc c [<-|H].
  - simpl. destruct (Hn end_plan). lra.
  - apply in_flat_map in H. destruct H as ([[[a lb] ub] b] & Hin & H). simpl in H.
    apply in_app_or in H. destruct H as [H|H]; [eapply node_adds_sol; eauto|].
    apply in_app_or in H. destruct H as [H|H]; [eapply node_adds_sol; eauto|].
    exact (proj1 (interval_adds_sat t a b lb ub) (Hc _ Hin) c H).
Qed.

Lemma init_adds_interval cs a lb ub b : In (a, lb, ub, b) cs -> incl (interval_adds a b lb ub) (init_adds cs).
Proof.
  intros Hin c H. right. apply in_flat_map. exists (a, lb, ub, b). split; [exact Hin|]. simpl.
  apply in_or_app. right. apply in_or_app. right. exact H.
Qed.

(* conversely a solution of the insertions satisfies the plan's constraints *)
Lemma init_adds_sat t cs : solution t (init_adds cs) -> forall c, In c cs -> sat_pcon t c.
Proof.
  intros Hs [[[a lb] ub] b] Hin. apply interval_adds_sat. intros c H. apply Hs, (init_adds_interval _ _ _ _ _ Hin), H.
Qed.

Lemma satisfies_implies_consistent fuel cs t s :
  solution t (init_adds cs) -> stn_plan_init fuel cs = Some s -> check_stn s = true.
Proof.
  intros Hs H. unfold stn_plan_init in H. apply (stn_sat_iff fuel 0 _ s (Qeq_refl 0) H). exists t. exact Hs.
Qed.

Lemma stn_plan_init_terminates cs : exists s, stn_plan_init (enough_fuel (init_adds cs)) cs = Some s.
Proof. unfold stn_plan_init. apply stn_terminates. reflexivity. Qed.

Lemma stn_plan_init_inv fuel cs s : stn_plan_init fuel cs = Some s -> inv s (init_adds cs).
Proof.
  exact (run_adds_empty_inv fuel 0 (init_adds cs) s (Qeq_refl 0)).
Qed.

Lemma dedupe_in bb dst : forall ns seen, In (bb, dst) (dedupe seen ns) -> In (dst, bb) ns.
Proof.
  induction ns as [|[d b0] ns IH]; intros seen H; [destruct H|].
  simpl in H. destruct (existsb (N.eqb d) seen).
  - right. eapply IH; eauto.
  - destruct H as [H|H]; [inversion H; subst; left; reflexivity | right; eapply IH; eauto].
Qed.

Lemma get_constraints_sat t s A x l bb dst :
  inv s A -> check_stn s = true -> solution t A ->
  In (x, l) (get_constraints s) -> In (bb, dst) l -> t x - t dst <= bb.
Proof.
  intros Hi Hs Ht Hx Hl. unfold get_constraints in Hx. apply in_map_iff in Hx. destruct Hx as ([x' q] & Heq & _). simpl in Heq.
  inversion Heq; subst. apply dedupe_in in Hl.
  exact (Ht _ (i_sub _ _ (inv_checked s A Hi Hs) x dst bb Hl)).
Qed.

Definition up_ok (t : N -> Q) (k : N * N) (u : Q) : Prop := t (snd k) - t (fst k) <= u.
Definition lo_ok (t : N -> Q) (k : N * N) (l : Q) : Prop := l <= t (snd k) - t (fst k).
Definition ball (P : N * N -> Q -> Prop) (m : bdict) : Prop := forall k v, In (k, v) m -> P k v.

Lemma key_eqb_eq a b : key_eqb a b = true -> a = b.
Proof.
  destruct a, b. unfold key_eqb. simpl. intros H. apply andb_true_iff in H. destruct H as [H1 H2].
  apply N.eqb_eq in H1. apply N.eqb_eq in H2. congruence.
Qed.

Lemma bfind_in k : forall m v, bfind k m = Some v -> In (k, v) m.
Proof.
  induction m as [|[k' w] m IH]; intros v H; [discriminate|]. simpl in H.
  destruct (key_eqb k k') eqn:E.
  - inversion H; subst. apply key_eqb_eq in E. subst. left; reflexivity.
  - right. apply IH. exact H.
Qed.

Lemma bupdate_ball (P : N * N -> Q -> Prop) f k v :
  (forall w, P k w -> P k (f w)) -> P k (f v) -> forall m, ball P m -> ball P (bupdate f k v m).
Proof.
  intros Hf Hv. induction m as [|[k' w] m IH]; intros Hm; simpl.
  - intros k0 v0 [H|[]]. inversion H; subst. exact Hv.
  - destruct (key_eqb k k') eqn:E.
    + apply key_eqb_eq in E. subst. intros k0 v0 [H|H].
      * inversion H; subst. apply Hf. apply Hm. left; reflexivity.
      * apply Hm. right; exact H.
    + intros k0 v0 [H|H]; [apply Hm; left; exact H|].
      apply (IH (fun a b H1 => Hm a b (or_intror H1))). exact H.
Qed.

Lemma bounds_step_ok t b_node st x :
  t b_node - t (snd x) <= fst x ->
  ball (up_ok t) (fst st) /\ ball (lo_ok t) (snd st) ->
  ball (up_ok t) (fst (bounds_step b_node st x)) /\ ball (lo_ok t) (snd (bounds_step b_node st x)).
Proof.
  destruct x as [ub a_node]. simpl. intros Hx [Hu Hl]. unfold bounds_step.
  destruct (Qlt_bool 0 ub); simpl; split; auto.
  - apply bupdate_ball; [| |exact Hu].
    + intros w Hw. destruct (qmin_cases ub w) as [-> | ->]; [unfold up_ok; simpl; exact Hx | exact Hw].
    + destruct (qmin_cases ub ub) as [-> | ->]; unfold up_ok; simpl; exact Hx.
  - apply bupdate_ball; [| |exact Hl].
    + intros w Hw. destruct (qmax_cases (- ub) w) as [-> | ->]; [unfold lo_ok; simpl; lra | exact Hw].
    + destruct (qmax_cases (- ub) (- ub)) as [-> | ->]; unfold lo_ok; simpl; lra.
Qed.

Lemma bounds_of_ok t g :
  (forall x l bb dst, In (x, l) g -> In (bb, dst) l -> t x - t dst <= bb) ->
  ball (up_ok t) (fst (bounds_of g)) /\ ball (lo_ok t) (snd (bounds_of g)).
Proof.
  intros Hg. unfold bounds_of.
  apply (fold_left_inv (fun st => ball (up_ok t) (fst st) /\ ball (lo_ok t) (snd st))); [split; intros k v []|].
  intros st [x l] Hx Hst. cbn [fst snd].
  apply (fold_left_inv (fun st => ball (up_ok t) (fst st) /\ ball (lo_ok t) (snd st))); [exact Hst|].
  intros st' [bb dst] Hb Hst'. apply bounds_step_ok; [exact (Hg _ _ _ _ Hx Hb) | exact Hst'].
Qed.

Lemma plan_constraints_of_sat t ul :
  ball (up_ok t) (fst ul) -> ball (lo_ok t) (snd ul) -> dict_sat t (plan_constraints_of ul).
Proof.
  destruct ul as [upper lower]. simpl. intros Hu Hl. unfold plan_constraints_of.
  apply (fold_left_inv (dict_sat t)).
  - apply (fold_left_inv (dict_sat t)); [apply dict_sat_nil|].
    intros m [k u] Hk Hm. apply dict_sat_append; [exact Hm|]. unfold mk_pcon; cbn [fst snd]. unfold sat_pcon. split.
    + destruct (bfind k lower) as [l|] eqn:E; [|exact I]. apply bfind_in in E. exact (Hl _ _ E).
    + exact (Hu _ _ Hk).
  - intros m [k l] Hk Hm. cbn [fst snd]. destruct (bfind k upper); [exact Hm|]. apply dict_sat_append; [exact Hm|].
    unfold mk_pcon; cbn [fst snd]. unfold sat_pcon. split; [|exact I]. exact (Hl _ _ Hk).
Qed.

Lemma reported_constraints_sat t s A :
  inv s A -> check_stn s = true -> solution t A ->
  forall c, In c (flatten (plan_constraints s)) -> sat_pcon t c.
Proof.
  intros Hi Hs Ht. apply flatten_sat. unfold plan_constraints.
  destruct (bounds_of_ok t (get_constraints s)) as [Hu Hl].
  - intros x l bb dst Hx Hb. eapply get_constraints_sat; eauto.
  - apply plan_constraints_of_sat; assumption.
Qed.

Lemma forward_conversion eps effs conds plan edges :
  times_nonneg plan = true ->
  gap_ok eps (plan_events eps (mock_step effs conds) plan) = true ->
  edges_forward (length (plan_events eps (mock_step effs conds) plan)) edges = true ->
  let cs := flatten (conv_constraints eps (mock_step effs conds) plan edges) in
  (forall c, In c cs -> sat_pcon (orig_time plan) c) /\
  solution (orig_time plan) (init_adds cs) /\
  (exists s, convert_to_stn (enough_fuel (init_adds cs)) eps (mock_step effs conds) plan edges = Some s) /\
  (forall fuel s, convert_to_stn fuel eps (mock_step effs conds) plan edges = Some s ->
     check_stn s = true /\ forall c, In c (flatten (plan_constraints s)) -> sat_pcon (orig_time plan) c).
Proof.
  intros Hnn Hg Hf cs.
  assert (Hc : forall c, In c cs -> sat_pcon (orig_time plan) c) by (apply conv_constraints_satisfied; assumption).
  assert (Hsol : solution (orig_time plan) (init_adds cs)).
  { apply init_adds_solution; [|exact Hc]. intros n. apply orig_bounds. exact Hnn. }
  split; [exact Hc|]. split; [exact Hsol|]. split.
  - apply stn_plan_init_terminates.
  - intros fuel s H. unfold convert_to_stn in H. fold cs in H.
    pose proof (satisfies_implies_consistent _ _ _ _ Hsol H) as Hs. split; [exact Hs|].
    exact (reported_constraints_sat _ _ _ (stn_plan_init_inv _ _ _ H) Hs Hsol).
Qed.

Lemma back_times_solve fuel cs s :
  stn_plan_init fuel cs = Some s -> check_stn s = true ->
  (forall c, In c cs -> sat_pcon (model_of s) c) /\ nonneg (model_of s) /\
  (forall t, nonneg t -> solution t (init_adds cs) -> forall x, model_of s x <= t x).
Proof.
  intros H Hs. unfold stn_plan_init in H.
  destruct (stn_model_least_nonneg fuel 0 _ s (Qeq_refl 0) H Hs) as (H1 & H2 & H3).
  split; [apply init_adds_sat; exact H1|]. split; assumption.
Qed.

(* everything of the round trip except the validity of the re-timed plan *)
Lemma roundtrip_partial eps effs conds plan edges fuel s :
  times_nonneg plan = true ->
  gap_ok eps (plan_events eps (mock_step effs conds) plan) = true ->
  edges_forward (length (plan_events eps (mock_step effs conds) plan)) edges = true ->
  convert_to_stn fuel eps (mock_step effs conds) plan edges = Some s ->
  check_stn s = true /\
  (forall c, In c (flatten (plan_constraints s)) -> sat_pcon (orig_time plan) c) /\
  (forall c, In c (flatten (conv_constraints eps (mock_step effs conds) plan edges)) -> sat_pcon (model_of s) c) /\
  nonneg (model_of s) /\
  (forall x, model_of s x <= orig_time plan x).
Proof.
  intros Hnn Hg Hf H.
  destruct (forward_conversion eps effs conds plan edges Hnn Hg Hf) as (_ & Hsol & _ & Hall).
  destruct (Hall fuel s H) as [Hs Hrep]. unfold convert_to_stn in H.
  destruct (back_times_solve _ _ _ H Hs) as (B1 & B2 & B3).
  split; [exact Hs|]. split; [exact Hrep|]. split; [exact B1|]. split; [exact B2|].
  intros x. apply B3; [|exact Hsol]. intros n. destruct (orig_bounds plan n Hnn) as [Hlo _].
  rewrite orig_start_plan in Hlo. exact Hlo.
Qed.

(* the epsilon chosen by _convert_to_stn when
   problem.epsilon is None (a tenth of the plan's extract_epsilon, at most 1/1000) always satisfies the gap hypothesis of
   the conversion theorem: every event time is a time of the set built by extract_epsilon, possibly shifted by
   +/- epsilon (open interval bounds); different members of that set are at least 10 epsilon apart. *)
(* membership up to Qeq *)
Definition Inq (x : Q) (l : list Q) : Prop := exists y, In y l /\ x == y.

Lemma Inq_cons x a l : Inq x (a :: l) <-> x == a \/ Inq x l.
Proof.
  split.
  - intros (y & [<-|H] & E); [left; exact E | right; exists y; auto].
  - intros [E|(y & H & E)]; [exists a; split; [left; reflexivity | exact E] | exists y; split; [right; exact H | exact E]].
Qed.
Lemma Inq_in x l : In x l -> Inq x l.
Proof. intros H. exists x. split; [exact H | reflexivity]. Qed.
Lemma Inq_app x l l' : Inq x (l ++ l') <-> Inq x l \/ Inq x l'.
Proof.
  split.
  - intros (y & H & E). apply in_app_or in H. destruct H; [left | right]; exists y; auto.
  - intros [(y & H & E)|(y & H & E)]; exists y; split; auto; apply in_or_app; auto.
Qed.
Lemma Inq_eq x x' l : x == x' -> Inq x' l -> Inq x l.
Proof. intros E (y & H & E'). exists y. split; [exact H | lra]. Qed.

Lemma qmem_spec x l : qmem x l = true -> Inq x l.
Proof.
  induction l as [|y l IH]; simpl; [discriminate|]. intros H. apply orb_true_iff in H. destruct H as [H|H].
  - apply Qeq_bool_iff in H. exists y. split; [left; reflexivity | exact H].
  - destruct (IH H) as (z & Hz & E). exists z. split; [right; exact Hz | exact E].
Qed.

Lemma qnodup_in t : forall l, In t (qnodup l) -> In t l.
Proof.
  induction l as [|y l IH]; simpl; [auto|]. destruct (qmem y l).
  - intros H. right. apply IH. exact H.
  - intros [H|H]; [left; exact H | right; apply IH; exact H].
Qed.

Lemma qnodup_Inq x : forall l, Inq x l -> Inq x (qnodup l).
Proof.
  induction l as [|y l IH]; intros H; [exact H|]. simpl. apply Inq_cons in H.
  destruct (qmem y l) eqn:E.
  - destruct H as [H|H]; [|apply IH; exact H]. apply IH. apply (Inq_eq x y); [exact H | apply qmem_spec; exact E].
  - apply Inq_cons. destruct H as [H|H]; [left; exact H | right; apply IH; exact H].
Qed.

(* strictly sorted lists *)
Fixpoint ssorted (l : list Q) : Prop :=
  match l with
  | a :: ((b :: _) as r) => a < b /\ ssorted r
  | _ => True
  end.

Lemma ssorted_tail a l : ssorted (a :: l) -> ssorted l.
Proof. destruct l; simpl; tauto. Qed.

Lemma ssorted_head_lt : forall l a, ssorted (a :: l) -> forall q, In q l -> a < q.
Proof.
  induction l as [|b l IH]; intros a Hs q Hq; [destruct Hq|].
  simpl in Hs. destruct Hs as [Hab Hs]. destruct Hq as [<-|Hq]; [exact Hab|].
  pose proof (IH b Hs q Hq). lra.
Qed.

Lemma qinsert_Inq x y : forall l, Inq y (x :: l) -> Inq y (qinsert x l).
Proof.
  induction l as [|z r IH]; intros H; [exact H|]. simpl.
  destruct (Qlt_bool x z); [exact H|]. destruct (Qeq_bool x z) eqn:E.
  - apply Qeq_bool_iff in E. apply Inq_cons in H. destruct H as [H|H]; [|exact H].
    apply Inq_cons. left. lra.
  - apply Inq_cons in H. apply Inq_cons. destruct H as [H|H].
    + right. apply IH. apply Inq_cons. left; exact H.
    + apply Inq_cons in H. destruct H as [H|H]; [left; exact H|]. right. apply IH. apply Inq_cons. right; exact H.
Qed.

Lemma qinsert_in q x : forall l, In q (qinsert x l) -> q = x \/ In q l.
Proof.
  induction l as [|a r IH]; simpl; [intros [<-|[]]; auto|].
  destruct (Qlt_bool x a); [intros [<-|H]; auto|]. destruct (Qeq_bool x a); [auto|].
  intros [<-|H]; [auto|]. destruct (IH H); auto.
Qed.

Lemma ssorted_cons a l : (forall q, In q l -> a < q) -> ssorted l -> ssorted (a :: l).
Proof. destruct l as [|b l]; [intros; exact I|]. intros H Hs. split; [apply H; left; reflexivity | exact Hs]. Qed.

Lemma qinsert_ssorted x : forall l, ssorted l -> ssorted (qinsert x l).
Proof.
  induction l as [|a r IH]; intros Hs; [exact I|]. simpl.
  destruct (Qlt_bool x a) eqn:E1.
  - apply Qlt_bool_iff in E1. split; [exact E1 | exact Hs].
  - destruct (Qeq_bool x a) eqn:E2; [exact Hs|].
    apply Qlt_bool_false in E1. apply Qeq_bool_neq in E2.
    assert (Hax : a < x) by (destruct (Q_dec a x) as [[H|H]|H]; [exact H | lra | exfalso; apply E2; lra]).
    apply ssorted_cons; [|exact (IH (ssorted_tail _ _ Hs))].
    intros q Hq. destruct (qinsert_in _ _ _ Hq) as [->|Hq']; [exact Hax | exact (ssorted_head_lt _ _ Hs q Hq')].
Qed.

Lemma qsorted_set_ssorted l : ssorted (qsorted_set l).
Proof. induction l as [|x l IH]; [exact I|]. simpl. apply qinsert_ssorted. exact IH. Qed.

Lemma qsorted_set_Inq y : forall l, Inq y l -> Inq y (qsorted_set l).
Proof.
  induction l as [|x l IH]; intros H; [exact H|]. simpl. apply qinsert_Inq. apply Inq_cons in H. apply Inq_cons.
  destruct H as [H|H]; [left; exact H | right; apply IH; exact H].
Qed.

Lemma qmin_le_l a b : qmin a b <= a.
Proof. unfold qmin. destruct (Qle_bool a b) eqn:E; [lra|]. destruct (Qlt_le_dec b a) as [H|H]; [lra|]. apply Qle_bool_iff in H. congruence. Qed.
Lemma qmin_le_r a b : qmin a b <= b.
Proof. unfold qmin. destruct (Qle_bool a b) eqn:E; [apply Qle_bool_iff in E; exact E | lra]. Qed.
Lemma qmin_pos a b : 0 < a -> 0 < b -> 0 < qmin a b.
Proof. unfold qmin. destruct (Qle_bool a b); auto. Qed.

Lemma min_gap_le_acc : forall l p eps, min_gap p eps l <= eps.
Proof.
  induction l as [|x l IH]; intros p eps; simpl; [lra|].
  pose proof (IH x (qmin eps (x - p))). pose proof (qmin_le_l eps (x - p)). lra.
Qed.

Fixpoint gaps_ge (G : Q) (l : list Q) : Prop :=
  match l with
  | a :: ((b :: _) as r) => a + G <= b /\ gaps_ge G r
  | _ => True
  end.

Lemma min_gap_gaps : forall l p eps, gaps_ge (min_gap p eps l) (p :: l).
Proof.
  induction l as [|x l IH]; intros p eps; [exact I|].
  change (p + min_gap p eps (x :: l) <= x /\ gaps_ge (min_gap p eps (x :: l)) (x :: l)). simpl min_gap. split.
  - pose proof (min_gap_le_acc l x (qmin eps (x - p))). pose proof (qmin_le_r eps (x - p)). lra.
  - apply IH.
Qed.

Lemma min_gap_pos : forall l p eps, 0 < eps -> ssorted (p :: l) -> 0 < min_gap p eps l.
Proof.
  induction l as [|x l IH]; intros p eps He Hs; simpl; [exact He|].
  simpl in Hs. destruct Hs as [Hpx Hs]. apply IH; [|exact Hs]. apply qmin_pos; lra.
Qed.

Lemma gaps_head G : forall l a, ssorted (a :: l) -> gaps_ge G (a :: l) -> forall q, In q l -> a + G <= q.
Proof.
  induction l as [|b l IH]; intros a Hs Hg q Hq; [destruct Hq|].
  simpl in Hs, Hg. destruct Hs as [Hab Hs]. destruct Hg as [Hg1 Hg]. destruct Hq as [<-|Hq]; [exact Hg1|].
  pose proof (IH b Hs Hg q Hq). lra.
Qed.

Lemma gaps_pairs G : forall L, ssorted L -> gaps_ge G L -> forall p q, In p L -> In q L -> p < q -> p + G <= q.
Proof.
  induction L as [|a l IH]; intros Hs Hg p q Hp Hq Hlt; [destruct Hp|].
  assert (Hg' : gaps_ge G l) by (destruct l; simpl in Hg |- *; tauto).
  destruct Hp as [<-|Hp], Hq as [<-|Hq].
  - lra.
  - eapply gaps_head; eauto.
  - pose proof (ssorted_head_lt _ _ Hs p Hp). lra.
  - apply (IH (ssorted_tail _ _ Hs) Hg'); assumption.
Qed.

Lemma ssorted_last_ge : forall r x, ssorted (x :: r) -> forall q, In q (x :: r) -> q <= last r x.
Proof.
  induction r as [|b r IH]; intros x Hs q Hq.
  - destruct Hq as [<-|[]]. simpl. lra.
  - rewrite last_cons. destruct Hs as [Hxb Hs]. destruct Hq as [<-|Hq].
    + pose proof (IH b Hs b (or_introl eq_refl)). lra.
    + apply IH; assumption.
Qed.

Definition shifted (eps t x : Q) : Prop := t == x \/ t == x + eps \/ t == x - eps.

Lemma action_timings_char eps st d t : In t (action_timings eps st d) ->
  (exists tm, In tm (base_timings st) /\ shifted eps t (abs_time (st_start st) d tm)) \/ (st_dyn st = true /\ t == st_start st).
Proof.
  unfold action_timings. intros H. apply qnodup_in in H. apply in_app_or in H. destruct H as [H|H].
  - left. apply in_map_iff in H. destruct H as (tm & <- & Htm). exists tm. split; [apply in_or_app; left; exact Htm | left; reflexivity].
  - apply in_app_or in H. destruct H as [H|H].
    + right. destruct (st_dyn st); [|destruct H]. destruct H as [<-|[]]. split; reflexivity.
    + left. apply in_flat_map in H. destruct H as (iv & Hiv & [<-|[<-|[]]]).
      * exists (iv_lo iv). split; [apply in_or_app; right; apply in_flat_map; exists iv; split; [exact Hiv | left; reflexivity]|].
        destruct (iv_lopen iv); [right; left; reflexivity | left; lra].
      * exists (iv_hi iv). split; [apply in_or_app; right; apply in_flat_map; exists iv; split; [exact Hiv | right; left; reflexivity]|].
        destruct (iv_ropen iv); [right; right; lra | left; lra].
Qed.

Lemma action_timings0_Inq st d tm : In tm (base_timings st) -> Inq (abs_time (st_start st) d tm) (action_timings 0 st d).
Proof.
  intros H. unfold action_timings. apply qnodup_Inq. unfold base_timings in H. apply in_app_or in H. destruct H as [H|H].
  - apply Inq_app. left. apply Inq_in. apply in_map. exact H.
  - apply Inq_app. right. apply Inq_app. right. apply in_flat_map in H. destruct H as (iv & Hiv & [<-|[<-|[]]]).
    + exists (abs_time (st_start st) d (iv_lo iv) + (if iv_lopen iv then 0 else 0)).
      split; [apply in_flat_map; exists iv; split; [exact Hiv | left; reflexivity] | destruct (iv_lopen iv); lra].
    + exists (abs_time (st_start st) d (iv_hi iv) + (if iv_ropen iv then - 0 else 0)).
      split; [apply in_flat_map; exists iv; split; [exact Hiv | right; left; reflexivity] | destruct (iv_ropen iv); lra].
Qed.

(* a plan step *)
Lemma step_event_char eps g st e : In e (step_events eps g st) ->
  exists x, Inq x (step_times st) /\ shifted eps (e_time e) x.
Proof.
  unfold step_events, step_times. destruct (st_dur st) as [d|].
  - intros H. apply in_map_iff in H. destruct H as (t & <- & Ht). apply filter_In in Ht. destruct Ht as [Ht _]. simpl.
    destruct (action_timings_char _ _ _ _ Ht) as [(tm & Htm & Hsh)|[_ Hs]].
    + exists (abs_time (st_start st) d tm). split; [|exact Hsh].
      apply Inq_cons. right. apply Inq_cons. right. apply action_timings0_Inq. exact Htm.
    + exists (st_start st). split; [apply Inq_cons; left; reflexivity | left; exact Hs].
  - intros [<-|[]]. simpl. exists (st_start st). split; [apply Inq_cons; left; reflexivity | left; reflexivity].
Qed.

Lemma plan_event_char eps : forall plan g e, In e (events_from eps g plan) ->
  exists x, Inq x (flat_map step_times plan) /\ shifted eps (e_time e) x.
Proof.
  induction plan as [|st plan IH]; intros g e H; [destruct H|]. simpl in H. apply in_app_or in H. destruct H as [H|H].
  - destruct (step_event_char _ _ _ _ H) as (x & Hx & Hs). exists x. split; [|exact Hs].
    change (flat_map step_times (st :: plan)) with (step_times st ++ flat_map step_times plan). apply Inq_app. left; exact Hx.
  - destruct (IH _ _ H) as (x & Hx & Hs). exists x. split; [|exact Hs].
    change (flat_map step_times (st :: plan)) with (step_times st ++ flat_map step_times plan). apply Inq_app. right; exact Hx.
Qed.

(* the mockup action: timings anchored at GLOBAL_END (its end is at -1) with a delay <= 0 give negative times, dropped *)
Lemma mock_delay_in effs conds tm : In tm (base_timings (mock_step effs conds)) -> In (tg_delay tm) (mock_delays (mock_step effs conds)).
Proof.
  unfold base_timings, mock_delays. simpl. intros H. apply in_app_or in H. apply in_or_app. destruct H as [H|H].
  - right. apply in_map. exact H.
  - left. apply in_flat_map in H. destruct H as (iv & Hiv & [<-|[<-|[]]]); apply in_flat_map; exists iv; split; auto; simpl; auto.
Qed.

Lemma mock_event_char eps effs conds e : 0 <= eps -> eps < 1 -> mock_end_ok (mock_step effs conds) = true ->
  In e (step_events eps 0 (mock_step effs conds)) ->
  exists x, Inq x (mock_delays (mock_step effs conds)) /\ shifted eps (e_time e) x.
Proof.
  intros He0 He Hok H. unfold step_events in H. simpl st_dur in H. apply in_map_iff in H. destruct H as (t & <- & Ht).
  apply filter_In in Ht. destruct Ht as [Ht Hnn]. simpl.
  apply negb_true_iff in Hnn. apply Qlt_bool_false in Hnn.
  destruct (action_timings_char _ _ _ _ Ht) as [(tm & Htm & Hsh)|[Hd _]]; [|discriminate].
  unfold mock_end_ok in Hok. rewrite forallb_forall in Hok. pose proof (Hok tm Htm) as Hk.
  unfold abs_time in Hsh. simpl st_start in Hsh. unfold from_start in Hk. destruct (tg_anchor tm).
  - exists (tg_delay tm). split; [apply Inq_in; apply mock_delay_in; exact Htm|].
    destruct Hsh as [Hs|[Hs|Hs]]; [left | right; left | right; right]; lra.
  - simpl in Hk. apply Qle_bool_iff in Hk. exfalso. destruct Hsh as [Hs|[Hs|Hs]]; lra.
Qed.

Lemma all_events_char eps effs conds plan e : 0 <= eps -> eps < 1 -> mock_end_ok (mock_step effs conds) = true ->
  In e (all_events eps (mock_step effs conds :: plan)) ->
  exists x, Inq x (0 :: mock_delays (mock_step effs conds) ++ flat_map step_times plan) /\ shifted eps (e_time e) x.
Proof.
  intros He0 He Hok H. unfold all_events in H. simpl in H. apply in_app_or in H. destruct H as [H|H].
  - destruct (mock_event_char _ _ _ _ He0 He Hok H) as (x & Hx & Hs). exists x. split; [|exact Hs].
    apply Inq_cons. right. apply Inq_app. left; exact Hx.
  - destruct (plan_event_char _ _ _ _ H) as (x & Hx & Hs). exists x. split; [|exact Hs].
    apply Inq_cons. right. apply Inq_app. right; exact Hx.
Qed.

Definition sep (eps u v : Q) : Prop := u == v \/ u + eps <= v \/ v + eps <= u.

Lemma shifted_sep eps G T u v x y :
  0 < eps -> 10 * eps <= G -> ssorted T -> gaps_ge G T ->
  Inq x T -> Inq y T -> shifted eps u x -> shifted eps v y -> sep eps u v.
Proof.
  intros He HG Hs Hg (x' & Hx' & Ex) (y' & Hy' & Ey) Hu Hv. unfold sep, shifted in *.
  destruct (Q_dec x' y') as [[Hlt|Hlt]|Heq].
  - pose proof (gaps_pairs G T Hs Hg x' y' Hx' Hy' Hlt). right. left.
    destruct Hu as [Hu|[Hu|Hu]], Hv as [Hv|[Hv|Hv]]; lra.
  - pose proof (gaps_pairs G T Hs Hg y' x' Hy' Hx' Hlt). right. right.
    destruct Hu as [Hu|[Hu|Hu]], Hv as [Hv|[Hv|Hv]]; lra.
  - destruct Hu as [Hu|[Hu|Hu]], Hv as [Hv|[Hv|Hv]];
      first [left; lra | right; left; lra | right; right; lra].
Qed.

Lemma sorted_sep_gap_ok eps : 0 < eps -> forall l, sorted_by_time l = true ->
  (forall a b, In a l -> In b l -> sep eps (e_time a) (e_time b)) -> gap_ok eps l = true.
Proof.
  intros He. induction l as [|a l IH]; intros Hs Hp; [reflexivity|]. destruct l as [|b l]; [reflexivity|].
  change (gap_ok eps (a :: b :: l)) with
    ((Qeq_bool (e_time a) (e_time b) || Qle_bool (e_time a + eps) (e_time b)) && gap_ok eps (b :: l)).
  apply andb_true_iff. split.
  - simpl in Hs. apply andb_true_iff in Hs. destruct Hs as [Hab _]. apply Qle_bool_iff in Hab.
    destruct (Hp a b (or_introl eq_refl) (or_intror (or_introl eq_refl))) as [H|[H|H]].
    + apply orb_true_iff. left. apply Qeq_bool_iff. exact H.
    + apply orb_true_iff. right. apply Qle_bool_iff. exact H.
    + lra.
  - apply IH; [exact (sorted_tail _ _ Hs)|]. intros x y Hx Hy. apply Hp; right; assumption.
Qed.

Lemma default_eps_facts xe : 0 < xe ->
  0 < choose_eps None (Some xe) /\ 10 * choose_eps None (Some xe) <= xe /\ choose_eps None (Some xe) < 1.
Proof.
  intros H. unfold choose_eps.
  pose proof (qmin_le_l (xe / 10) (1 # 1000)). pose proof (qmin_le_r (xe / 10) (1 # 1000)).
  assert (E : xe / 10 * 10 == xe) by (field).
  assert (Hp : 0 < xe / 10) by (apply Qlt_shift_div_l; lra).
  pose proof (qmin_pos (xe / 10) (1 # 1000) Hp eq_refl) as Hq.
  split; [exact Hq|]. split; [lra|]. assert (Hk : (1 # 1000) < 1) by reflexivity. lra.
Qed.

(* event times are members of a strictly sorted set T with gaps >= 10 epsilon, shifted by at most epsilon *)
Lemma gap_ok_of_set eps G T effs conds plan :
  0 < eps -> eps < 1 -> 10 * eps <= G -> ssorted T -> gaps_ge G T -> mock_end_ok (mock_step effs conds) = true ->
  (forall x, Inq x (0 :: mock_delays (mock_step effs conds) ++ flat_map step_times plan) -> Inq x T) ->
  gap_ok eps (plan_events eps (mock_step effs conds) plan) = true.
Proof.
  intros He0 He1 HG Hss Hg Hok Hsub. apply sorted_sep_gap_ok; [exact He0 | apply sort_sorted|].
  intros a b Ha Hb. unfold plan_events in Ha, Hb. apply sort_in in Ha. apply sort_in in Hb.
  assert (Hge0 : 0 <= eps) by lra.
  destruct (all_events_char _ _ _ _ _ Hge0 He1 Hok Ha) as (xa & Hxa & Hsa).
  destruct (all_events_char _ _ _ _ _ Hge0 He1 Hok Hb) as (xb & Hxb & Hsb).
  exact (shifted_sep eps G T _ _ xa xb He0 HG Hss Hg (Hsub _ Hxa) (Hsub _ Hxb) Hsa Hsb).
Qed.

Lemma default_eps_gap_ok effs conds plan xe :
  mock_end_ok (mock_step effs conds) = true ->
  extract_epsilon (mock_step effs conds) plan = Some xe ->
  gap_ok (choose_eps None (Some xe)) (plan_events (choose_eps None (Some xe)) (mock_step effs conds) plan) = true.
Proof.
  intros Hok Hx. unfold extract_epsilon in Hx.
  set (raw := 0 :: mock_delays (mock_step effs conds) ++ flat_map step_times plan) in *.
  pose proof (qsorted_set_ssorted raw) as Hss.
  assert (Hsub : forall q, Inq q raw -> Inq q (qsorted_set raw)) by (intros q Hq; apply qsorted_set_Inq, Hq).
  assert (H0 : Inq 0 (qsorted_set raw)) by (apply qsorted_set_Inq; apply Inq_cons; left; reflexivity).
  destruct (qsorted_set raw) as [|x r] eqn:ET; [discriminate|].
  destruct (Qeq_bool (last r x) 0) eqn:El; [discriminate|]. inversion Hx as [Hxe]. clear Hx.
  apply Qeq_bool_neq in El.
  assert (Hlast : 0 < last r x).
  { destruct H0 as (z & Hz & Ez). pose proof (ssorted_last_ge r x Hss z Hz) as Hzl.
    destruct (Q_dec 0 (last r x)) as [[Hd|Hd]|Hd]; [exact Hd | lra | exfalso; apply El; lra]. }
  assert (Hpos : 0 < xe) by (rewrite <- Hxe; apply min_gap_pos; assumption).
  assert (Hg : gaps_ge xe (x :: r)) by (rewrite <- Hxe; apply min_gap_gaps).
  destruct (default_eps_facts xe Hpos) as (He0 & He10 & He1). rewrite ?Hxe.
  apply (gap_ok_of_set _ xe (x :: r)); assumption.
Qed.

(* when every time of the plan is 0 (extract_epsilon = None) epsilon is 1/1000 and the events are at 0 or 1/1000 *)
Lemma default_eps_gap_ok_none effs conds plan :
  mock_end_ok (mock_step effs conds) = true ->
  extract_epsilon (mock_step effs conds) plan = None ->
  (forall q, In q (0 :: mock_delays (mock_step effs conds) ++ flat_map step_times plan) -> 0 <= q) ->
  gap_ok (choose_eps None None) (plan_events (choose_eps None None) (mock_step effs conds) plan) = true.
Proof.
  intros Hok Hx Hnn. unfold extract_epsilon in Hx.
  set (raw := 0 :: mock_delays (mock_step effs conds) ++ flat_map step_times plan) in *.
  pose proof (qsorted_set_ssorted raw) as Hss.
  assert (Hall : forall q, Inq q raw -> q == 0).
  { intros q Hq. pose proof (qsorted_set_Inq q raw Hq) as HqT.
    destruct (qsorted_set raw) as [|x r] eqn:ET; [destruct HqT as (z & [] & _)|].
    destruct (Qeq_bool (last r x) 0) eqn:El; [|discriminate]. apply Qeq_bool_iff in El.
    destruct HqT as (z & Hz & Ez). pose proof (ssorted_last_ge r x Hss z Hz).
    destruct Hq as (w & Hw & Ew). pose proof (Hnn w Hw). lra. }
  unfold choose_eps.
  apply (gap_ok_of_set _ (1 # 100) [0]); [reflexivity | reflexivity | unfold Qle; simpl; lia | exact I | exact I | exact Hok |].
  intros x Hx'. exists 0. split; [left; reflexivity | apply Hall, Hx'].
Qed.

(* the forward direction for the default epsilon: no gap hypothesis left *)
Lemma forward_conversion_default_eps effs conds plan edges xe :
  mock_end_ok (mock_step effs conds) = true ->
  extract_epsilon (mock_step effs conds) plan = Some xe ->
  times_nonneg plan = true ->
  let eps := choose_eps None (Some xe) in
  edges_forward (length (plan_events eps (mock_step effs conds) plan)) edges = true ->
  let cs := flatten (conv_constraints eps (mock_step effs conds) plan edges) in
  (forall c, In c cs -> sat_pcon (orig_time plan) c) /\
  solution (orig_time plan) (init_adds cs) /\
  (exists s, convert_to_stn (enough_fuel (init_adds cs)) eps (mock_step effs conds) plan edges = Some s) /\
  (forall fuel s, convert_to_stn fuel eps (mock_step effs conds) plan edges = Some s ->
     check_stn s = true /\ forall c, In c (flatten (plan_constraints s)) -> sat_pcon (orig_time plan) c).
Proof.
  intros Hok Hx Hnn eps Hf. apply forward_conversion; [exact Hnn | | exact Hf].
  apply default_eps_gap_ok; assumption.
Qed.

(* explicit epsilon: the library's conformance test is not enough *)
Definition wit_A : step :=
  {| st_start := 1; st_dur := Some 4;
     st_effs := [ {| tg_anchor := FromEnd; tg_delay := 0 |} ];
     st_conds := [ {| iv_lo := {| tg_anchor := FromStart; tg_delay := 0 |}; iv_hi := {| tg_anchor := FromEnd; tg_delay := 0 |};
                      iv_lopen := true; iv_ropen := false |} ];
     st_dyn := false |}.
Definition wit_inst (t : Q) : step := {| st_start := t; st_dur := None; st_effs := []; st_conds := []; st_dyn := false |}.
Definition wit_plan : list step := [wit_inst 0; wit_A; wit_inst (23 # 16)].
Definition wit_edges : list (nat * nat) := [(0, 1); (1, 2); (2, 3)]%nat.

Lemma conformant_epsilon_refuted :
  ~ (forall E xe effs conds plan edges,
       extract_epsilon (mock_step effs conds) plan = Some xe -> E <= xe -> 0 < E ->
       times_nonneg plan = true ->
       edges_forward (length (plan_events E (mock_step effs conds) plan)) edges = true ->
       forall c, In c (flatten (conv_constraints E (mock_step effs conds) plan edges)) -> sat_pcon (orig_time plan) c).
Proof.
  intros H.
  specialize (H (1 # 4) (7 # 16) [] [] wit_plan wit_edges).
  assert (E1 : extract_epsilon (mock_step [] []) wit_plan = Some (7 # 16)) by (vm_compute; reflexivity).
  assert (E2 : (1 # 4) <= (7 # 16)) by (unfold Qle; simpl; lia).
  assert (E3 : 0 < (1 # 4)) by reflexivity.
  specialize (H E1 E2 E3 eq_refl eq_refl ((4%N, Some (8 # 16), None, 6%N))).
  assert (Hin : In (4%N, Some (8 # 16), None, 6%N) (flatten (conv_constraints (1 # 4) (mock_step [] []) wit_plan wit_edges))).
  { vm_compute. right. right. right. left. reflexivity. }
  specialize (H Hin). destruct H as [H _]. vm_compute in H. apply H. reflexivity.
Qed.

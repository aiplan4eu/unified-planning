(* C08, Layer A — well-formedness preservation by the Layer A compiler models, for all problems.
   Definitions: Compilers/LayerA_Wf.v; statements: Props/C08_la.v.  First the facts about [wfx] under weakening,
   substitution of variables by objects, quantifier expansion and parameter substitution, then one theorem per compiler. *)
From Coq Require Import List ZArith NArith QArith Qcanon Bool Lia.
Import ListNotations.
Require Import UPV.Core.Expr UPV.Core.Eval UPV.Core.Interp UPV.Planning.Problem UPV.Planning.Sem UPV.Planning.Ground.
Require Import UPV.Proofs.ListFacts.
Require Import UPV.Walkers.Subst.
Require Import UPV.Proofs.Eval_lemmas UPV.Proofs.Simplify_base UPV.Proofs.ExprKids UPV.Proofs.ExprView UPV.Proofs.Psubst_view UPV.Proofs.LayerA_tables.
Require Import UPV.Compilers.Variants UPV.Compilers.LayerA_Defs UPV.Compilers.LayerA_Quant UPV.Compilers.LayerA_Inv
  UPV.Compilers.LayerA_Variants UPV.Compilers.LayerA_Ground UPV.Compilers.LayerA_Neg UPV.Compilers.LayerA_Wf.

(* walk and expand on the five shapes of an expression *)
Lemma walk_leaf s e : is_leaf e = true -> walk s e = replace_or_identity s e e.
Proof. destruct e; try discriminate; reflexivity. Qed.
Lemma walk_E1 s o a : walk s (E1 o a) = replace_or_identity s (E1 o a) (mk1 o (walk s a)).
Proof. destruct o; reflexivity. Qed.
Lemma walk_E2 s o a b : walk s (E2 o a b) = replace_or_identity s (E2 o a b) (E2 o (walk s a) (walk s b)).
Proof. destruct o; reflexivity. Qed.
Lemma walk_En s o l : walk s (En o l) = replace_or_identity s (En o l) (mkn o (map (walk s) l)).
Proof. destruct o; reflexivity. Qed.
Lemma walk_EQ s ex vs a : walk s (EQ ex vs a) =
  replace_or_identity s (EQ ex vs a) (EQ ex vs (match filter_map s vs with [] => a | s' => walk s' a end)).
Proof. destruct ex; reflexivity. Qed.

Lemma expand_leaf ob e : is_leaf e = true -> expand ob e = e.
Proof. destruct e; try discriminate; reflexivity. Qed.
Lemma expand_E1 ob o a : expand ob (E1 o a) = mk1 o (expand ob a).
Proof. destruct o; reflexivity. Qed.
Lemma expand_E2 ob o a b : expand ob (E2 o a b) = E2 o (expand ob a) (expand ob b).
Proof. destruct o; reflexivity. Qed.
Lemma expand_En ob o l : expand ob (En o l) = mkn o (map (expand ob) l).
Proof. destruct o; reflexivity. Qed.
Lemma expand_EQ ob ex vs a : expand ob (EQ ex vs a) =
  mkn (if ex then NOr else NAnd) (map (fun os => substitute (zip_subs vs os) (expand ob a)) (obj_tuples ob vs)).
Proof. destruct ex; reflexivity. Qed.

Lemma nodupN_iff l : nodupN l = true <-> NoDup l.
Proof.
  induction l as [|x l IH]; [split; [constructor|reflexivity]|]. cbn [nodupN]. rewrite andb_true_iff, negb_true_iff, IH.
  rewrite memN_false. split; [intros [H1 H2]; constructor; assumption | intros H; inversion H; auto].
Qed.

Definition dle (D D' : denv) : Prop :=
  (forall f n, d_fl D f n = true -> d_fl D' f n = true) /\ (forall o, d_obj D o = true -> d_obj D' o = true) /\
  (forall t, d_ty D t = true -> d_ty D' t = true).

Lemma dle_refl D : dle D D. Proof. repeat split; auto. Qed.

Lemma andb_imp (a b a' b' : bool) : (a = true -> a' = true) -> (b = true -> b' = true) -> a && b = true -> a' && b' = true.
Proof. intros Ha Hb H. apply andb_true_iff in H. destruct H as [H1 H2]. rewrite (Ha H1), (Hb H2). reflexivity. Qed.

Lemma forallb_map_imp {A B} (p : A -> bool) (q : B -> bool) (g : A -> B) l :
  Forall (fun x => p x = true -> q (g x) = true) l -> forallb p l = true -> forallb q (map g l) = true.
Proof. rewrite forallb_map, Forall_forall. intro H. apply forallb_impl. exact H. Qed.

(* wfx on the shapes; an application of a fluent also checks its arity *)
Definition head_ok (D : denv) (o : opn) (n : nat) : bool := match o with NFluent f => d_fl D f n | _ => true end.
Lemma wfx_E1 D ps B o a : wfx D ps B (E1 o a) = wfx D ps B a.
Proof. destruct o; reflexivity. Qed.
Lemma wfx_E2 D ps B o a b : wfx D ps B (E2 o a b) = wfx D ps B a && wfx D ps B b.
Proof. destruct o; reflexivity. Qed.
Lemma wfx_En D ps B o l : wfx D ps B (En o l) = head_ok D o (List.length l) && forallb (wfx D ps B) l.
Proof. destruct o; reflexivity. Qed.
Lemma wfx_EQ D ps B ex vs a :
  wfx D ps B (EQ ex vs a) = forallb (fun vt => d_ty D (snd vt)) vs && wfx D ps (vs ++ B) a.
Proof. destruct ex; reflexivity. Qed.

Lemma wfx_mk1 D ps B o a : wfx D ps B a = true -> wfx D ps B (mk1 o a) = true.
Proof. destruct (mk1_cases o a) as [E|(x & -> & -> & E)]; rewrite E; [rewrite wfx_E1|]; auto. Qed.
Lemma wfx_mkn D ps B o l : wfx D ps B (En o l) = true -> wfx D ps B (mkn o l) = true.
Proof.
  destruct (mkn_cases o l) as [E|[(x & -> & E)|(-> & L)]].
  - rewrite E. auto.
  - rewrite E, wfx_En. cbn [forallb]. rewrite andb_true_r. intro H. apply andb_true_iff in H. apply H.
  - intros _. destruct o; try discriminate L; reflexivity.
Qed.
Lemma wfx_mkAnd D ps B l : forallb (wfx D ps B) l = true -> wfx D ps B (mkAnd l) = true.
Proof. exact (wfx_mkn D ps B NAnd l). Qed.
Lemma wfx_mkNot D ps B e : wfx D ps B e = true -> wfx D ps B (mkNot e) = true.
Proof. exact (wfx_mk1 D ps B UNot e). Qed.
Lemma wfx_mkAnd_inv D ps B l : wfx D ps B (mkAnd l) = true -> forallb (wfx D ps B) l = true.
Proof. destruct l as [|x [|y l]]; cbn [mkAnd forallb wfx]; intros H; auto. rewrite H. reflexivity. Qed.

(* [B'] binds the variables [vs] as [B] does *)
Definition agree (vs : list N) (B B' : list (N * N)) : Prop :=
  forall v ty, In v vs -> lookupN v B = Some ty -> lookupN v B' = Some ty.

Lemma wfx_weaken D D' ps ps' : dle D D' -> (forall p, memN p ps = true -> memN p ps' = true) ->
  forall e B B', wfx D ps B e = true -> agree (free_vars e) B B' -> wfx D' ps' B' e = true.
Proof.
  intros [Hf [Ho Ht]] Hp.
  induction e as [e L|u a IHa|b a1 a2 IH1 IH2|n l IHl|ex vs a IHa] using expr_view_ind; intros B B' Hw Hv.
  - destruct e; try discriminate L; cbn [wfx] in Hw |- *; auto.
    apply andb_true_iff in Hw. destruct Hw as [H1 H2]. rewrite (Ht _ H1). cbn [andb].
    destruct (lookupN v B) eqn:E; [|discriminate]. rewrite (Hv v n (or_introl eq_refl) E). exact H2.
  - rewrite wfx_E1 in Hw |- *. rewrite fv_E1 in Hv. exact (IHa B B' Hw Hv).
  - rewrite wfx_E2 in Hw |- *. rewrite fv_E2 in Hv. revert Hw. apply andb_imp; intro Hw.
    + apply (IH1 B B' Hw). intros v ty Hin. apply Hv, in_or_app. left. exact Hin.
    + apply (IH2 B B' Hw). intros v ty Hin. apply Hv, in_or_app. right. exact Hin.
  - rewrite wfx_En in Hw |- *. rewrite fv_En in Hv. revert Hw. apply andb_imp; [destruct n; cbn [head_ok]; auto|].
    rewrite Forall_forall in IHl. apply forallb_impl. intros x Hx Hw. apply (IHl x Hx B B' Hw).
    intros v ty Hi. apply Hv. apply in_flat_map. eauto.
  - rewrite wfx_EQ in Hw |- *. rewrite fv_EQ in Hv. revert Hw. apply andb_imp.
    + apply forallb_impl. intros x _. apply Ht.
    + intro Hw. apply (IHa (vs ++ B) _ Hw). intros v ty Hi. rewrite !lookupN_app.
      destruct (lookupN v vs) eqn:E; [auto|]. apply Hv. apply filter_In. split; [exact Hi|].
      rewrite (proj1 (lookupN_none_mem _ _) E). reflexivity.
Qed.

Lemma wfx_mono D ps B B' e : wfx D ps B e = true ->
  (forall v ty, lookupN v B = Some ty -> lookupN v B' = Some ty) -> wfx D ps B' e = true.
Proof. intros H Hv. apply (wfx_weaken D D ps ps (dle_refl D) (fun p Hp => Hp) e B B' H). intros v ty _. apply Hv. Qed.

Lemma wfx_dle D D' ps B e : dle D D' -> wfx D ps B e = true -> wfx D' ps B e = true.
Proof. intros H Hw. apply (wfx_weaken D D' ps ps H (fun p Hp => Hp) e B B Hw). intros v ty _ E. exact E. Qed.

Definition omap_ok (D : denv) (s : smap) : Prop := forall k v, In (k, v) s -> exists o, v = EObj o /\ d_obj D o = true.

Definition covered (s : smap) (B B' : list (N * N)) : Prop :=
  forall v ty, lookupN v B = Some ty -> lookup s (EVar v ty) <> None \/ lookupN v B' = Some ty.

Lemma lookup_In s e v : lookup s e = Some v -> In (e, v) s.
Proof.
  induction s as [|[k w] s IH]; [discriminate|]. cbn [lookup]. destruct (expr_eqb k e) eqn:E.
  - intros H. inversion H; subst. apply expr_eqb_eq in E. subst. left; reflexivity.
  - intros H. right. auto.
Qed.

Lemma lookup_filter s e x (p : expr * expr -> bool) :
  lookup s e = Some x -> (forall v, p (e, v) = true) -> lookup (filter p s) e = Some x.
Proof.
  induction s as [|[k w] s IH]; [discriminate|]. cbn [lookup filter]. intros H Hp. destruct (expr_eqb k e) eqn:E.
  - apply expr_eqb_eq in E. subst. rewrite Hp. cbn [lookup]. rewrite expr_eqb_refl. exact H.
  - destruct (p (k, w)); [cbn [lookup]; rewrite E|]; auto.
Qed.

Lemma omap_filter D s vs : omap_ok D s -> omap_ok D (filter_map s vs).
Proof. intros H k v Hi. apply filter_In in Hi. apply (H k v). apply Hi. Qed.

Lemma covered_under s B B' vs : covered s B B' -> covered (filter_map s vs) (vs ++ B) (vs ++ B').
Proof.
  intros H v ty. rewrite !lookupN_app. destruct (lookupN v vs) eqn:E; [auto|]. intros HB.
  destruct (H v ty HB) as [Hl|Hr]; [left|right; exact Hr].
  destruct (lookup s (EVar v ty)) eqn:EL; [|congruence].
  unfold filter_map. erewrite lookup_filter; [discriminate|exact EL|].
  intros w. unfold key_kept. cbn [fst free_vars forallb]. rewrite (proj1 (lookupN_none_mem _ _) E). reflexivity.
Qed.

Lemma covered_nil B B' : covered [] B B' -> forall v ty, lookupN v B = Some ty -> lookupN v B' = Some ty.
Proof. intros H v ty Hv. destruct (H v ty Hv) as [Hl|Hr]; [exfalso; apply Hl; reflexivity|exact Hr]. Qed.

(* a key of the map is replaced by a declared object; otherwise the rebuilt node is what counts *)
Lemma wfx_replaced D ps s e r B : omap_ok D s -> (lookup s e = None -> wfx D ps B r = true) ->
  wfx D ps B (replace_or_identity s e r) = true.
Proof.
  intros Hs Hr. unfold replace_or_identity. destruct (lookup s e) eqn:EL; [|exact (Hr eq_refl)].
  apply lookup_In in EL. destruct (Hs _ _ EL) as [o [-> Ho]]. exact Ho.
Qed.

Lemma wfx_walk D ps e : forall s B B', omap_ok D s -> covered s B B' -> wfx D ps B e = true ->
  wfx D ps B' (walk s e) = true.
Proof.
  induction e as [e L|u a IHa|b a1 a2 IH1 IH2|n l IHl|ex vs a IHa] using expr_view_ind; intros s B B' Hs Hc Hw.
  - rewrite walk_leaf by exact L. apply wfx_replaced; [exact Hs|intro EL].
    destruct e; try discriminate L; cbn [wfx] in Hw |- *; try exact Hw.
    apply andb_true_iff in Hw. destruct Hw as [H1 H2]. rewrite H1. cbn [andb].
    destruct (lookupN v B) eqn:E; [|discriminate]. apply N.eqb_eq in H2. subst n.
    destruct (Hc v ty E) as [Hl|Hr]; [congruence|]. rewrite Hr. apply N.eqb_refl.
  - rewrite walk_E1. apply wfx_replaced; [exact Hs|intros _]. apply wfx_mk1. rewrite wfx_E1 in Hw. exact (IHa _ _ _ Hs Hc Hw).
  - rewrite walk_E2. apply wfx_replaced; [exact Hs|intros _]. rewrite wfx_E2 in Hw |- *. revert Hw.
    apply andb_imp; [exact (IH1 _ _ _ Hs Hc) | exact (IH2 _ _ _ Hs Hc)].
  - rewrite walk_En. apply wfx_replaced; [exact Hs|intros _]. apply wfx_mkn. rewrite wfx_En in Hw |- *. rewrite map_length.
    revert Hw. apply andb_imp; [auto|]. apply forallb_map_imp. revert IHl. apply Forall_impl. intros x Hx. exact (Hx s B B' Hs Hc).
  - rewrite walk_EQ. apply wfx_replaced; [exact Hs|intros _]. rewrite wfx_EQ in Hw |- *. revert Hw. apply andb_imp; [auto|intro Hw].
    pose proof (covered_under s B B' vs Hc) as Hc'. pose proof (omap_filter D s vs Hs) as Hs'.
    destruct (filter_map s vs) eqn:E.
    + eapply wfx_mono; [exact Hw|]. apply covered_nil. exact Hc'.
    + apply (IHa _ (vs ++ B)); assumption.
Qed.

Lemma wfx_substitute D ps s B B' e : omap_ok D s -> covered s B B' -> wfx D ps B e = true ->
  wfx D ps B' (substitute s e) = true.
Proof.
  intros Hs Hc H. destruct s as [|p s]; cbn [substitute].
  - eapply wfx_mono; [exact H|]. apply covered_nil. exact Hc.
  - apply wfx_walk with (B := B); assumption.
Qed.

Lemma obj_tuples_len ob vs : forall os, In os (obj_tuples ob vs) -> List.length os = List.length vs.
Proof.
  induction vs as [|[v t] vs IH]; cbn [obj_tuples]; intros os H.
  - destruct H as [<-|[]]. reflexivity.
  - apply in_flat_map in H. destruct H as [o [_ H]]. apply in_map_iff in H. destruct H as [os' [<- H]].
    cbn [List.length]. f_equal. auto.
Qed.

Lemma zip_subs_omap D ob vs : objs_declared D ob -> forall os, In os (obj_tuples ob vs) -> omap_ok D (zip_subs vs os).
Proof.
  intros Hob. induction vs as [|[v t] vs IH]; cbn [obj_tuples]; intros os H.
  - destruct H as [<-|[]]. intros k w [].
  - apply in_flat_map in H. destruct H as [o [Ho H]]. apply in_map_iff in H. destruct H as [os' [<- H]].
    cbn [zip_subs]. intros k w [E|Hi].
    + inversion E; subst. exists o. split; [reflexivity|]. eapply Hob; eauto.
    + eapply IH; eauto.
Qed.

Lemma zip_subs_covered vs : forall os B, List.length os = List.length vs -> covered (zip_subs vs os) (vs ++ B) B.
Proof.
  induction vs as [|[w t] vs IH]; intros [|o os] B Hl; try discriminate.
  - intros v ty H. right. exact H.
  - cbn [List.length] in Hl. injection Hl as Hl. intros v ty. cbn [app lookupN zip_subs lookup expr_eqb].
    rewrite (N.eqb_sym w v). destruct (v =? w)%N eqn:E.
    + intros H. inversion H; subst. rewrite N.eqb_refl. left. cbn. discriminate.
    + cbn [andb]. apply IH. exact Hl.
Qed.

Lemma wfx_expand D ps ob : objs_declared D ob -> forall e B, wfx D ps B e = true -> wfx D ps B (expand ob e) = true.
Proof.
  intros Hob. induction e as [e L|u a IHa|b a1 a2 IH1 IH2|n l IHl|ex vs a IHa] using expr_view_ind; intros B Hw.
  - rewrite expand_leaf by exact L. exact Hw.
  - rewrite expand_E1. apply wfx_mk1. rewrite wfx_E1 in Hw. exact (IHa _ Hw).
  - rewrite expand_E2. rewrite wfx_E2 in Hw |- *. revert Hw. apply andb_imp; [exact (IH1 _) | exact (IH2 _)].
  - rewrite expand_En. apply wfx_mkn. rewrite wfx_En in Hw |- *. rewrite map_length. revert Hw. apply andb_imp; [auto|].
    apply forallb_map_imp. revert IHl. apply Forall_impl. intros x Hx. exact (Hx B).
  - (* every instance of the body is well formed without the bound variables *)
    rewrite expand_EQ. apply wfx_mkn. rewrite wfx_EQ in Hw. apply andb_true_iff in Hw. destruct Hw as [_ Hw].
    rewrite wfx_En. replace (head_ok D (if ex then NOr else NAnd) _) with true by (destruct ex; reflexivity).
    rewrite forallb_map. apply forallb_forall. intros os Hos.
    apply wfx_substitute with (B := vs ++ B); [eapply zip_subs_omap; eauto | | exact (IHa _ Hw)].
    apply zip_subs_covered. eapply obj_tuples_len; eauto.
Qed.

(* no quantifier after the expansion, without any side condition *)
Lemma qf_E1 o a : qf (E1 o a) = qf a. Proof. destruct o; reflexivity. Qed.
Lemma qf_E2 o a b : qf (E2 o a b) = qf a && qf b. Proof. destruct o; reflexivity. Qed.
Lemma qf_En o l : qf (En o l) = forallb qf l. Proof. destruct o; reflexivity. Qed.
Lemma qf_mk1 o a : qf a = true -> qf (mk1 o a) = true.
Proof. destruct (mk1_cases o a) as [E|(x & -> & -> & E)]; rewrite E; [rewrite qf_E1|]; auto. Qed.
Lemma qf_mkn o l : forallb qf l = true -> qf (mkn o l) = true.
Proof.
  destruct (mkn_cases o l) as [E|[(x & -> & E)|(-> & L)]].
  - rewrite E, qf_En. auto.
  - rewrite E. cbn [forallb]. rewrite andb_true_r. auto.
  - intros _. destruct o; try discriminate L; reflexivity.
Qed.

Definition objvals (s : smap) : Prop := forall k v, In (k, v) s -> exists o, v = EObj o.

Lemma qf_replaced s e r : objvals s -> qf r = true -> qf (replace_or_identity s e r) = true.
Proof.
  intros Hs Hr. unfold replace_or_identity. destruct (lookup s e) eqn:EL; [|exact Hr].
  apply lookup_In in EL. destruct (Hs _ _ EL) as [o ->]. reflexivity.
Qed.

Lemma qf_walk e : forall s, objvals s -> qf e = true -> qf (walk s e) = true.
Proof.
  induction e as [e L|u a IHa|b a1 a2 IH1 IH2|n l IHl|ex vs a IHa] using expr_view_ind; intros s Hs Hw.
  - rewrite walk_leaf by exact L. apply qf_replaced; assumption.
  - rewrite walk_E1. apply qf_replaced; [exact Hs|]. apply qf_mk1. rewrite qf_E1 in Hw. exact (IHa s Hs Hw).
  - rewrite walk_E2. apply qf_replaced; [exact Hs|]. rewrite qf_E2 in Hw |- *. revert Hw. apply andb_imp; [exact (IH1 s Hs) | exact (IH2 s Hs)].
  - rewrite walk_En. apply qf_replaced; [exact Hs|]. apply qf_mkn. rewrite qf_En in Hw. revert Hw.
    apply forallb_map_imp. revert IHl. apply Forall_impl. intros x Hx. exact (Hx s Hs).
  - destruct ex; discriminate Hw.
Qed.

Lemma qf_substitute s e : objvals s -> qf e = true -> qf (substitute s e) = true.
Proof. intros Hs H. destruct s; [exact H|]. apply qf_walk; assumption. Qed.

Lemma zip_subs_objvals vs : forall os, objvals (zip_subs vs os).
Proof.
  induction vs as [|[v t] vs IH]; intros [|o os] k w H; cbn [zip_subs] in H; try (destruct H; fail).
  destruct H as [E|H]; [inversion E; eauto | eapply IH; eauto].
Qed.

Lemma qf_expand' ob : forall e, qf (expand ob e) = true.
Proof.
  induction e as [e L|u a IHa|b a1 a2 IH1 IH2|n l IHl|ex vs a IHa] using expr_view_ind.
  - rewrite expand_leaf by exact L. destruct e; try discriminate L; reflexivity.
  - rewrite expand_E1. apply qf_mk1. exact IHa.
  - rewrite expand_E2, qf_E2, IH1, IH2. reflexivity.
  - rewrite expand_En. apply qf_mkn. rewrite forallb_map. apply forallb_forall. apply Forall_forall. exact IHl.
  - rewrite expand_EQ. apply qf_mkn. rewrite forallb_map. apply forallb_forall. intros os _.
    apply qf_substitute; [apply zip_subs_objvals | exact IHa].
Qed.

Definition val_ok (D : denv) (v : value) : bool := match v with VObj o => d_obj D o | _ => true end.

Definition sg_ok (D : denv) (ps : list N) (sg : list (N * value)) : Prop :=
  forall p, memN p ps = true -> exists v, lookupN p sg = Some v /\ val_ok D v = true.

Lemma wfx_value_expr D ps B v : val_ok D v = true -> wfx D ps B (value_expr v) = true.
Proof. destruct v; cbn [value_expr val_ok wfx]; auto. unfold num_node. destruct (_ =? _)%Z; reflexivity. Qed.

Lemma wfx_psubst D ps sg : sg_ok D ps sg -> forall e B, wfx D ps B e = true -> wfx D [] B (psubst sg e) = true.
Proof.
  intros Hsg. induction e as [e L|u a IHa|b a1 a2 IH1 IH2|n l IHl|ex vs a IHa] using expr_view_ind; intros B Hw.
  - destruct e; try discriminate L; cbn [psubst wfx] in Hw |- *; try exact Hw.
    destruct (Hsg p Hw) as [v [-> Hv]]. apply wfx_value_expr. exact Hv.
  - rewrite psubst_E1. rewrite wfx_E1 in Hw |- *. exact (IHa _ Hw).
  - rewrite psubst_E2. rewrite wfx_E2 in Hw |- *. revert Hw. apply andb_imp; [exact (IH1 _) | exact (IH2 _)].
  - rewrite psubst_En. rewrite wfx_En in Hw |- *. rewrite map_length. revert Hw. apply andb_imp; [auto|].
    apply forallb_map_imp. revert IHl. apply Forall_impl. intros x Hx. exact (Hx B).
  - rewrite psubst_EQ. rewrite wfx_EQ in Hw |- *. revert Hw. apply andb_imp; [auto | exact (IHa _)].
Qed.

Lemma wf_effect_iff D ps e : wf_effect D ps e = true <->
  d_fl D (e_fl e) (List.length (e_args e)) = true /\ forallb (fun vt => d_ty D (snd vt)) (e_vars e) = true /\
  forallb (wfx D ps (e_vars e)) (e_args e) = true /\ wfx D ps (e_vars e) (e_val e) = true /\
  wfx D ps (e_vars e) (e_cond e) = true.
Proof. unfold wf_effect. rewrite !andb_true_iff. tauto. Qed.

Lemma wf_action_iff D a : wf_action D a = true <->
  nodupN (a_params a) = true /\ forallb (wfx D (a_params a) []) (a_pre a) = true /\
  forall e, In e (a_effs a) -> wf_effect D (a_params a) e = true.
Proof. unfold wf_action. rewrite !andb_true_iff, (forallb_forall (wf_effect _ _)). tauto. Qed.

Lemma wf_problem_spec P : wf_problem P = true <->
  (NoDup (map fst (p_actions P)) /\ NoDup (map fd_id (p_fluents P)) /\ NoDup (map fst (p_objs P))) /\
  (forall fd, In fd (p_fluents P) -> wf_fdecl (denv_of P) fd = true) /\
  (forall i a, In (i, a) (p_actions P) -> wf_action (denv_of P) a = true) /\
  forallb (wfx (denv_of P) [] []) (p_goals P) = true /\ forallb (wfx (denv_of P) [] []) (p_invs P) = true.
Proof.
  unfold wf_problem, wf_ids, wf_fluents, wf_actions, wf_top.
  rewrite !andb_true_iff, !nodupN_iff, (forallb_forall (wf_fdecl _)), (forallb_forall (fun ia => wf_action _ (snd ia))).
  split.
  - intros [[[[[N1 N2] N3] Hf] Ha] Ht]. repeat split; try tauto. intros i a Hi. exact (Ha (i, a) Hi).
  - intros [N [Hf [Ha Ht]]]. repeat split; try tauto. intros [i a] Hi. exact (Ha i a Hi).
Qed.

Lemma wf_same_decls P P' : wf_problem P = true -> p_fluents P' = p_fluents P -> p_objs P' = p_objs P ->
  NoDup (map fst (p_actions P')) -> (forall i a, In (i, a) (p_actions P') -> wf_action (denv_of P) a = true) ->
  forallb (wfx (denv_of P) [] []) (p_goals P') = true -> forallb (wfx (denv_of P) [] []) (p_invs P') = true ->
  wf_problem P' = true.
Proof.
  intros H Ef Eo N1 Ha Hg Hv. apply wf_problem_spec in H. destruct H as [[_ [N2 N3]] [Hf _]].
  assert (E : denv_of P' = denv_of P) by (unfold denv_of; rewrite Ef, Eo; reflexivity).
  apply wf_problem_spec. rewrite E, Ef, Eo. repeat split; assumption.
Qed.

Lemma wf_la_code_zero P : wf_la_code P = 0%N <-> wf_problem P = true.
Proof.
  unfold wf_la_code, wf_problem.
  destruct (wf_ids P), (wf_fluents P), (wf_actions P), (wf_top P); cbn; split; intros H; try reflexivity; discriminate.
Qed.

Lemma in_map_actions q l i a' : In (i, a') (map_actions q l) -> exists a, In (i, a) l /\ q a = Some a'.
Proof.
  unfold map_actions. rewrite in_flat_map. intros [[j a] [Hin H]]. cbn [fst snd] in H.
  destruct (q a) eqn:E; [|destruct H]. destruct H as [H|[]]. inversion H; subst. eauto.
Qed.

Lemma map_actions_nodup q l : NoDup (map fst l) -> NoDup (map fst (map_actions q l)).
Proof.
  induction l as [|[i a] l IH]; [constructor|]. cbn [map fst]. intros H. inversion H as [|? ? Hn Hd]; subst.
  unfold map_actions. cbn [flat_map fst snd]. fold (map_actions q l). destruct (q a); cbn [app map fst]; [|auto].
  constructor; [|auto]. intros Hi. apply Hn. apply in_map_iff in Hi. destruct Hi as [[j b] [E Hi]]. cbn [fst] in E. subst j.
  apply in_map_actions in Hi. destruct Hi as [a1 [Hi _]]. apply in_map_iff. exists (i, a1). auto.
Qed.

Lemma fold_add_pre_in l : forall acc x, In x (fold_left add_pre l acc) -> In x acc \/ In x l.
Proof.
  induction l as [|p l IH]; intros acc x H; cbn [fold_left] in H; [left; exact H|].
  apply IH in H. destruct H as [H|H]; [|right; right; exact H]. unfold add_pre in H.
  destruct (is_true p || existsb (expr_eqb p) acc); [left; exact H|]. apply in_app_or in H.
  destruct H as [H|[H|[]]]; [left; exact H|right; left; exact H].
Qed.

Lemma add_pres_in l x : In x (add_pres l) -> In x l.
Proof. intros H. apply fold_add_pre_in in H. destruct H as [[]|H]. exact H. Qed.

Lemma forallb_add_pres (q : expr -> bool) l : forallb q l = true -> forallb q (add_pres l) = true.
Proof. rewrite !forallb_forall. intros H x Hx. apply H. apply add_pres_in. exact Hx. Qed.

Lemma forallb_add_goals (q : expr -> bool) l : forallb q l = true -> forallb q (add_goals l) = true.
Proof. rewrite !forallb_forall. intros H x Hx. apply H. unfold add_goals in Hx. apply filter_In in Hx. apply Hx. Qed.

Lemma forallb_filter {A} (q p : A -> bool) l : forallb q l = true -> forallb q (filter p l) = true.
Proof. rewrite !forallb_forall. intros H x Hx. apply H. apply filter_In in Hx. apply Hx. Qed.

Lemma wfx_conj_parts D ps B c : wfx D ps B c = true -> forallb (wfx D ps B) (conj_parts c) = true.
Proof. destruct c; cbn [conj_parts forallb]; intros H; rewrite ?H; auto. Qed.

Lemma forallb_app_iff {A} (q : A -> bool) l1 l2 : forallb q (l1 ++ l2) = true <-> forallb q l1 = true /\ forallb q l2 = true.
Proof. rewrite forallb_app, andb_true_iff. tauto. Qed.

Lemma wfx_open D ps e : wfx D [] [] e = true -> wfx D ps [] e = true.
Proof. intros H. apply (wfx_weaken D D [] ps (dle_refl D)) with (B := []); [intros p Hp; discriminate | exact H | intros v ty _ E; exact E]. Qed.

(* the objects listed for a type are declared *)
Lemma objs_of_declared P : objs_declared (denv_of P) (objs_of P).
Proof.
  intros t o H. unfold objs_of in H. destruct (lookupN t (p_objs P)) eqn:E; [|destruct H].
  cbn [denv_of d_obj]. unfold decl_obj. apply existsb_exists. exists (t, l). split.
  - clear H. induction (p_objs P) as [|[k v] r IH]; [discriminate|]. cbn [lookupN] in E.
    destruct (t =? k)%N eqn:Ek; [apply N.eqb_eq in Ek; inversion E; subst; left; reflexivity | right; auto].
  - cbn [snd]. apply memN_In. exact H.
Qed.

Lemma decl_fl_in fls fd : In fd fls -> decl_fl fls (fd_id fd) (List.length (fd_sig fd)) = true.
Proof. intros H. unfold decl_fl. apply existsb_exists. exists fd. rewrite N.eqb_refl, Nat.eqb_refl. auto. Qed.

Lemma wf_effect_dle D D' ps e : dle D D' -> wf_effect D ps e = true -> wf_effect D' ps e = true.
Proof.
  intros Hd. pose proof Hd as [Hf [Ho Ht]]. rewrite !wf_effect_iff. intros (H1 & H2 & H3 & H4 & H5).
  repeat split.
  - auto.
  - revert H2. apply forallb_impl. intros x _. apply Ht.
  - revert H3. apply forallb_impl. intros x _. apply wfx_dle. exact Hd.
  - eapply wfx_dle; eauto.
  - eapply wfx_dle; eauto.
Qed.

Lemma wf_action_dle D D' a : dle D D' -> wf_action D a = true -> wf_action D' a = true.
Proof.
  intros Hd. rewrite !wf_action_iff. intros (H1 & H2 & H3). repeat split.
  - exact H1.
  - revert H2. apply forallb_impl. intros x _. apply wfx_dle. exact Hd.
  - intros e He. exact (wf_effect_dle D D' _ e Hd (H3 e He)).
Qed.

Section Inv.
  Variable smp : expr -> expr.
  Variable D : denv.
  Hypothesis Hsmp : keeps_wf D smp.

  Lemma inv_action_wf cond a a' : wfx D [] [] cond = true -> wf_action D a = true ->
    inv_action smp cond a = Some a' -> wf_action D a' = true.
  Proof.
    intros Hc Ha. unfold inv_action. destruct (is_false _); [discriminate|]. intros E. inversion E; subst; clear E.
    apply wf_action_iff in Ha. destruct Ha as (H1 & H2 & H3). apply wf_action_iff. cbn [a_params a_pre a_effs].
    split; [exact H1|]. split; [|exact H3].
    apply forallb_add_pres. apply wfx_conj_parts. apply Hsmp. apply wfx_mkAnd. apply forallb_app_iff. split; [exact H2|].
    cbn [forallb]. rewrite wfx_open by exact Hc. reflexivity.
  Qed.

  Lemma inv_goals_wf cond goals : wfx D [] [] cond = true -> forallb (wfx D [] []) goals = true ->
    forallb (wfx D [] []) (inv_goals smp cond goals) = true.
  Proof.
    intros Hc Hg. unfold inv_goals. apply forallb_add_goals. apply wfx_conj_parts. apply Hsmp. apply wfx_mkAnd.
    apply forallb_app_iff. split; [assumption|]. cbn [forallb]. rewrite Hc. reflexivity.
  Qed.

  Lemma inv_actions_wf cond l : wfx D [] [] cond = true -> (forall i a, In (i, a) l -> wf_action D a = true) ->
    forall i a', In (i, a') (map_actions (inv_action smp cond) l) -> wf_action D a' = true.
  Proof.
    intros Hc H i a' Hi. apply in_map_actions in Hi. destruct Hi as [a [Hi E]].
    exact (inv_action_wf cond a a' Hc (H i a Hi) E).
  Qed.
End Inv.

Theorem sir_wf smp P : keeps_wf (denv_of P) smp -> wf_problem P = true ->
  wf_problem (sir_compile smp P) = true /\ no_invariants (sir_compile smp P) = true.
Proof.
  intros Hs H. split; [|reflexivity]. pose proof (proj1 (wf_problem_spec P) H) as ((N1 & _) & _ & Ha & Hg & Hv).
  assert (Hc : wfx (denv_of P) [] [] (sir_cond smp P) = true) by (apply Hs; apply wfx_mkAnd; exact Hv).
  apply (wf_same_decls P); [exact H | reflexivity | reflexivity | | | | reflexivity].
  - apply map_actions_nodup. exact N1.
  - exact (inv_actions_wf smp _ Hs _ _ Hc Ha).
  - exact (inv_goals_wf smp _ Hs _ _ Hc Hg).
Qed.

Lemma arg_tuples_ok P sig : forall a, In a (arg_tuples P sig) ->
  List.length a = List.length sig /\ forallb (wfx (denv_of P) [] []) (map value_expr a) = true.
Proof.
  induction sig as [|t sig IH]; cbn [arg_tuples]; intros a H.
  - destruct H as [<-|[]]. split; reflexivity.
  - apply in_flat_map in H. destruct H as [o [Ho H]]. apply in_map_iff in H. destruct H as [tl [<- H]].
    destruct (IH tl H) as [Hl Hw]. split; [cbn [List.length]; congruence|]. cbn [map forallb value_expr wfx].
    rewrite (objs_of_declared P t o Ho). exact Hw.
Qed.

Lemma wfx_num_node D ps B q : wfx D ps B (num_node q) = true.
Proof. unfold num_node. destruct (_ =? _)%Z; reflexivity. Qed.

Lemma bound_invs_wf P : forallb (wfx (denv_of P) [] []) (bound_invs P) = true.
Proof.
  apply forallb_forall. intros x Hx. unfold bound_invs in Hx. apply in_flat_map in Hx. destruct Hx as [fd [Hfd Hx]].
  destruct (fd_ty fd) as [|lo hi|]; try destruct Hx. apply in_flat_map in Hx. destruct Hx as [a [Ha Hx]].
  destruct (arg_tuples_ok P _ a Ha) as [Hl Hw].
  assert (Hfe : wfx (denv_of P) [] [] (EFluent (fd_id fd) (map value_expr a)) = true).
  { cbn [wfx]. rewrite map_length, Hl. cbn [denv_of d_fl]. rewrite (decl_fl_in _ _ Hfd). exact Hw. }
  apply in_app_or in Hx. destruct Hx as [Hx|Hx]; [destruct lo|destruct hi]; try destruct Hx as [<-|[]]; try destruct Hx;
    cbn [wfx] in Hfe |- *; rewrite wfx_num_node; rewrite Hfe; reflexivity.
Qed.

Lemma decl_fl_unbound fls f n : decl_fl (map unbound fls) f n = decl_fl fls f n.
Proof. unfold decl_fl. induction fls as [|fd fls IH]; [reflexivity|]. cbn [map existsb]. rewrite IH. reflexivity. Qed.

Lemma btr_dle smp P : dle (denv_of P) (denv_of (btr_compile smp P)).
Proof. repeat split; auto. intros f n. cbn [denv_of d_fl btr_compile p_fluents]. rewrite decl_fl_unbound. auto. Qed.

Theorem btr_wf smp P : keeps_wf (denv_of P) smp -> wf_problem P = true ->
  wf_problem (btr_compile smp P) = true /\ no_bounded (btr_compile smp P) = true.
Proof.
  intros Hs H. split.
  2:{ unfold no_bounded. cbn [btr_compile p_fluents]. rewrite forallb_map. apply forallb_forall. intros fd _.
      unfold unbound. cbn [fd_ty]. destruct (fd_ty fd); reflexivity. }
  apply wf_problem_spec in H. destruct H as ((N1 & N2 & N3) & Hf & Ha & Hg & Hv). apply wf_problem_spec.
  pose proof (btr_dle smp P) as Hd. set (D' := denv_of (btr_compile smp P)) in *.
  assert (Hc : wfx (denv_of P) [] [] (btr_cond P) = true) by (apply wfx_mkAnd; apply bound_invs_wf).
  cbn [btr_compile p_actions p_fluents p_objs p_goals p_invs]. repeat split.
  - apply map_actions_nodup. exact N1.
  - rewrite map_map. exact N2.
  - exact N3.
  - intros fd' Hfd'. apply in_map_iff in Hfd'. destruct Hfd' as (fd & <- & Hfd). pose proof (Hf fd Hfd) as Hw.
    unfold wf_fdecl in Hw |- *. cbn [unbound fd_sig fd_ty]. destruct (fd_ty fd); exact Hw.
  - intros i a' Hi. apply (wf_action_dle _ D' a' Hd). exact (inv_actions_wf smp _ Hs _ _ Hc Ha i a' Hi).
  - pose proof (inv_goals_wf smp _ Hs _ _ Hc Hg) as H1. revert H1. apply forallb_impl. intros x _. apply wfx_dle. exact Hd.
  - revert Hv. apply forallb_impl. intros x _. apply wfx_dle. exact Hd.
Qed.

Section Quant.
  Variable smp : expr -> expr.
  Variable P : problem.
  Let D := denv_of P.
  Hypothesis Hsmp : keeps_wf D smp.

  Lemma expand_effect_wf ps e e' : wf_effect D ps e = true -> In e' (expand_effect P e) ->
    wf_effect D ps e' = true /\ e_vars e' = [].
  Proof.
    intros Hw Hi. unfold expand_effect in Hi. destruct (e_vars e) as [|vt vs0] eqn:Ev.
    - destruct Hi as [<-|[]]. auto.
    - rewrite <- Ev in Hi. apply in_map_iff in Hi. destruct Hi as [os [<- Hos]]. split; [|reflexivity].
      apply wf_effect_iff in Hw. destruct Hw as (H1 & _ & H3 & H4 & H5).
      assert (Hsub : forall x, wfx D ps (e_vars e) x = true -> wfx D ps [] (substitute (zip_subs (e_vars e) os) x) = true).
      { intros x Hx. apply wfx_substitute with (B := e_vars e ++ []).
        - eapply zip_subs_omap; [apply objs_of_declared|exact Hos].
        - apply zip_subs_covered. eapply obj_tuples_len; eauto.
        - rewrite app_nil_r. exact Hx. }
      apply wf_effect_iff. cbn [set_cv e_fl e_args e_val e_cond e_vars forallb]. rewrite map_length, forallb_map.
      repeat split; auto. revert H3. apply forallb_impl. intros x _. apply Hsub.
  Qed.

  Lemma q_effect1_wf ps e e' : wf_effect D ps e = true -> In e' (q_effect1 smp P e) ->
    wf_effect D ps e' = true /\ e_vars e' = e_vars e /\ (keeps qf smp -> qf (e_cond e') = true) /\ qf (e_val e') = true.
  Proof.
    intros Hw Hi. unfold q_effect1 in Hi.
    set (c := if is_uncond e then e_cond e else smp (expand (objs_of P) (e_cond e))) in *.
    destruct (is_false c); [destruct Hi|]. destruct Hi as [<-|[]].
    rewrite !wf_effect_iff in *. destruct Hw as (H1 & H2 & H3 & H4 & H5). cbn [set_cv e_fl e_args e_val e_cond e_vars].
    assert (Hc : wfx D ps (e_vars e) c = true).
    { subst c. destruct (is_uncond e); [exact H5|]. apply Hsmp. apply wfx_expand; [apply objs_of_declared|exact H5]. }
    repeat split; auto.
    - apply wfx_expand; [apply objs_of_declared|exact H4].
    - intros Hq. subst c. destruct (is_uncond e) eqn:Eu.
      + unfold is_uncond in Eu. apply is_true_eq in Eu. rewrite Eu. reflexivity.
      + apply Hq. apply qf_expand'.
    - apply qf_expand'.
  Qed.

  Lemma q_effects_wf ps effs e' : (forall e, In e effs -> wf_effect D ps e = true) -> In e' (q_effects smp P effs) ->
    wf_effect D ps e' = true /\ e_vars e' = [] /\ (keeps qf smp -> qf (e_cond e') = true) /\ qf (e_val e') = true.
  Proof.
    intros Hw Hi. unfold q_effects in Hi. apply in_flat_map in Hi. destruct Hi as [e [He Hi]].
    apply in_flat_map in Hi. destruct Hi as [e1 [He1 Hi]].
    destruct (expand_effect_wf ps e e1 (Hw e He) He1) as [Hw1 Hv1].
    destruct (q_effect1_wf ps e1 e' Hw1 Hi) as [Hw2 [Hv2 [Hc2 Hq2]]]. rewrite Hv1 in Hv2. auto.
  Qed.

  Lemma q_action_wf a a' : wf_action D a = true -> q_action smp P a = Some a' ->
    wf_action D a' = true /\ forallb qf (a_pre a') = true /\
    forallb (fun e => is_nil (e_vars e)) (a_effs a') = true /\
    (keeps qf smp -> forallb (fun e => qf (e_cond e) && qf (e_val e)) (a_effs a') = true).
  Proof.
    rewrite wf_action_iff. intros (H1 & H2 & H3). unfold q_action. destruct (add_effs_ok _ _ _); [|discriminate].
    intros E. inversion E; subst; clear E. rewrite wf_action_iff. cbn [a_params a_pre a_effs]. repeat split.
    - exact H1.
    - apply forallb_add_pres. rewrite forallb_map. revert H2. apply forallb_impl. intros x _.
      apply wfx_expand. apply objs_of_declared.
    - intros e He. eapply q_effects_wf; eauto.
    - apply forallb_add_pres. rewrite forallb_map. apply forallb_forall. intros x _. apply qf_expand'.
    - apply forallb_forall. intros e He. destruct (q_effects_wf _ _ _ H3 He) as [_ [Hv _]]. rewrite Hv. reflexivity.
    - intros Hq. apply forallb_forall. intros e He. destruct (q_effects_wf _ _ _ H3 He) as [_ [_ [Hc Hv]]].
      rewrite (Hc Hq), Hv. reflexivity.
  Qed.

  Theorem quant_wf : wf_problem P = true ->
    wf_problem (quant_compile smp P) = true /\ (keeps qf smp -> quantifier_free (quant_compile smp P) = true).
  Proof.
    intros H. pose proof (proj1 (wf_problem_spec P) H) as ((N1 & _) & _ & Ha & Hg & Hv). fold D in Ha, Hg, Hv.
    assert (HA : forall i a', In (i, a') (map_actions (q_action smp P) (p_actions P)) ->
                   exists a, wf_action D a = true /\ q_action smp P a = Some a').
    { intros i a' Hin. apply in_map_actions in Hin. destruct Hin as [a [Hin E]]. exists a. split; [exact (Ha i a Hin)|exact E]. }
    split.
    - apply (wf_same_decls P); [exact H | reflexivity | reflexivity | | | |]; cbn [quant_compile p_actions p_goals p_invs].
      + apply map_actions_nodup. exact N1.
      + intros i a' Hin. destruct (HA i a' Hin) as [a [Hw E]]. eapply q_action_wf; eauto.
      + apply forallb_add_goals. rewrite forallb_map. revert Hg. apply forallb_impl. intros x _.
        apply wfx_expand. apply objs_of_declared.
      + unfold q_invs. apply forallb_filter. rewrite forallb_map. revert Hv. apply forallb_impl. intros x _ Hx.
        apply Hsmp. apply wfx_expand; [apply objs_of_declared|exact Hx].
    - intros Hq. unfold quantifier_free, conds_all, no_forall_effects.
      cbn [quant_compile p_actions p_goals p_invs]. repeat (apply andb_true_iff; split).
      + apply forallb_forall. intros [i a'] Hin. destruct (HA i a' Hin) as [a [Hw E]]. cbn [snd].
        destruct (q_action_wf a a' Hw E) as [_ [Hp [_ Hc]]]. rewrite Hp, (Hc Hq). reflexivity.
      + apply forallb_add_goals. rewrite forallb_map. apply forallb_forall. intros x _. apply qf_expand'.
      + unfold q_invs. apply forallb_filter. rewrite forallb_map. apply forallb_forall. intros x _. apply Hq. apply qf_expand'.
      + apply forallb_forall. intros [i a'] Hin. destruct (HA i a' Hin) as [a [Hw E]]. cbn [snd].
        destruct (q_action_wf a a' Hw E) as [_ [_ [Hn _]]]. exact Hn.
  Qed.
End Quant.

Lemma nodup_flat_map_keys {A} (g : N * A -> list N) (l : list (N * A)) :
  NoDup (map fst l) -> (forall x, In x l -> NoDup (g x)) ->
  (forall x y n, In x l -> In y l -> In n (g x) -> In n (g y) -> fst x = fst y) ->
  NoDup (flat_map g l).
Proof.
  induction l as [|x l IH]; intros Hn Hg Hd; [constructor|]. cbn [flat_map]. cbn [map] in Hn. inversion Hn; subst.
  apply NoDup_app_iff. split; [|split].
  - apply Hg. left; reflexivity.
  - apply IH; auto. { intros y Hy. apply Hg. right; exact Hy. } intros y z n Hy Hz. apply Hd; right; assumption.
  - intros n Hx Hi. apply in_flat_map in Hi. destruct Hi as [y [Hy Hi]]. apply H1.
    rewrite (Hd x y n); [apply in_map; exact Hy|left; reflexivity|right; exact Hy|exact Hx|exact Hi].
Qed.

Lemma nodup_own_or_new {A} (g : N * A -> list N) (new : N * A -> N -> Prop) (l : list (N * A)) :
  NoDup (map fst l) -> (forall x, In x l -> NoDup (g x)) ->
  (forall x n, In x l -> In n (g x) -> n = fst x \/ new x n) ->
  (forall x n, new x n -> ~ In n (map fst l)) ->
  (forall x y n, new x n -> new y n -> fst x = fst y) ->
  NoDup (flat_map g l).
Proof.
  intros Hnd Hg Hc Hnew Hinj. apply nodup_flat_map_keys; [exact Hnd|exact Hg|].
  intros x y n Hx Hy H1 H2. destruct (Hc x n Hx H1) as [E1|N1], (Hc y n Hy H2) as [E2|N2].
  - congruence.
  - exfalso. apply (Hnew y n N2). rewrite E1. apply in_map. exact Hx.
  - exfalso. apply (Hnew x n N1). rewrite E2. apply in_map. exact Hy.
  - exact (Hinj x y n N1 N2).
Qed.

Lemma number_from_ge {A} (l : list A) : forall k kv, In kv (number_from k l) -> (k <= fst kv)%nat.
Proof.
  induction l as [|x l IH]; intros k kv H; [destruct H|]. cbn [number_from] in H. destruct H as [<-|H]; [cbn; lia|].
  apply IH in H. lia.
Qed.

(* fresh names: pairwise different, and different from every action id of the original problem
   (utils.get_fresh_name: C08_fresh_name_is_fresh / C08_fresh_names_nodup) *)
Definition nm_inj (nm : N -> nat -> N) : Prop := forall i k i' k', nm i k = nm i' k' -> i = i' /\ k = k'.
Definition nm_fresh (nm : N -> nat -> N) (P : problem) : Prop := forall i k, ~ In (nm i k) (map fst (p_actions P)).

Lemma nodup_numbered {B} (nm : N -> nat -> N) (i : N) (c : nat * B -> list N) : nm_inj nm ->
  (forall kt n, In n (c kt) -> n = nm i (fst kt)) -> (forall kt, NoDup (c kt)) ->
  forall ts k, NoDup (flat_map c (number_from k ts)).
Proof.
  intros Hinj Hc Hn. induction ts as [|t ts IH]; intros k; [constructor|]. cbn [number_from flat_map].
  apply NoDup_app_iff. split; [|split]; auto. intros n H1 H2. apply Hc in H1. cbn [fst] in H1. apply in_flat_map in H2.
  destruct H2 as [kt [Hkt H2]]. apply Hc in H2. apply number_from_ge in Hkt. subst n. apply Hinj in H2. lia.
Qed.

(* the generic shape of a table of named variants: an action either keeps its id or is replaced by numbered variants,
   some of which are left out *)
Lemma nodup_table {A B} (nm : N -> nat -> N) (P : problem) (l : list (N * A)) (keep : N * A -> bool)
      (vars : N * A -> list B) (sel : N * A -> nat * B -> bool) :
  map fst l = map fst (p_actions P) -> nm_inj nm -> nm_fresh nm P -> NoDup (map fst l) ->
  NoDup (flat_map (fun ia => if keep ia then [fst ia]
                             else flat_map (fun kt => if sel ia kt then [nm (fst ia) (fst kt)] else [])
                                           (number_from 0 (vars ia))) l).
Proof.
  intros Hids Hinj Hfr Hnd.
  apply (nodup_own_or_new _ (fun ia n => exists k, n = nm (fst ia) k)); [exact Hnd| | | |].
  - intros ia _. destruct (keep ia); [repeat constructor; intros []|]. apply nodup_numbered with (nm := nm) (i := fst ia); auto.
    + intros kt n H. destruct (sel ia kt); [|destruct H]. destruct H as [<-|[]]. reflexivity.
    + intros kt. destruct (sel ia kt); repeat constructor. intros [].
  - intros ia n _ H. destruct (keep ia); [left; destruct H as [<-|[]]; reflexivity|right].
    apply in_flat_map in H. destruct H as [kt [_ H]]. destruct (sel ia kt); [|destruct H]. destruct H as [<-|[]]. eauto.
  - intros ia n [k ->]. rewrite Hids. apply Hfr.
  - intros x y n [k ->] [k' E]. apply Hinj in E. apply E.
Qed.

(* the actions of a table (vt_actions, gt_actions) are its rows without the middle component *)
Lemma in_table_actions {B} (t : list (N * B * action)) i' v :
  In (i', v) (map (fun x => (fst (fst x), snd x)) t) -> exists b, In (i', b, v) t.
Proof. rewrite in_map_iff. intros [[[j b] w] [E H]]. inversion E; subst. exists b. exact H. Qed.

Lemma wf_effect_strip D ps e : wf_effect D ps e = true -> wf_effect D ps (strip_cond e) = true.
Proof.
  rewrite !wf_effect_iff. unfold strip_cond, set_cond. cbn [e_fl e_args e_val e_cond e_vars wfx]. tauto.
Qed.

Lemma sel_effs_in ces : forall sel e', In e' (sel_effs ces sel) -> exists e, In e ces /\ e' = strip_cond e.
Proof.
  induction ces as [|e ces IH]; intros [|b sel] e' H; cbn [sel_effs] in H; try destruct H.
  apply in_app_or in H. destruct H as [H|H].
  - destruct b; [|destruct H]. destruct H as [<-|[]]. exists e. split; [left|]; reflexivity.
  - apply IH in H. destruct H as [e0 [H1 H2]]. exists e0. split; [right|]; assumption.
Qed.

Lemma sel_pre_in ces : forall sel c, In c (sel_pre ces sel) -> exists e, In e ces /\ (c = e_cond e \/ c = mkNot (e_cond e)).
Proof.
  induction ces as [|e ces IH]; intros [|b sel] c H; cbn [sel_pre] in H; try destruct H.
  - exists e. split; [left; reflexivity|]. destruct b; subst; auto.
  - apply IH in H. destruct H as [e0 [H1 H2]]. exists e0. split; [right|]; assumption.
Qed.

(* the side condition of the ConditionalEffectsRemover: the condition of a conditional effect does not mention the
   effect's forall variables (it becomes a PRECONDITION of the variants).  Where it fails the real compiler raises
   UPUnboundedVariablesError (finding C08-cer-forall-condition). *)
Definition cer_side (P : problem) : bool :=
  forallb (fun ia => forallb (fun e => is_uncond e || wfx (denv_of P) (a_params (snd ia)) [] (e_cond e))
                             (a_effs (snd ia))) (p_actions P).

Definition simp_pre_wf (D : denv) (simp_pre : list expr -> option (list expr)) : Prop :=
  forall ps l l', forallb (wfx D ps []) l = true -> simp_pre l = Some l' -> forallb (wfx D ps []) l' = true.

Section Cer.
  Variable simp_pre : list expr -> option (list expr).
  Variable nm : N -> nat -> N.
  Variable P : problem.
  Let D := denv_of P.
  Hypothesis Hsp : simp_pre_wf D simp_pre.

  Lemma cer_variant_wf a sel pre' : wf_action D a = true ->
    forallb (fun e => is_uncond e || wfx D (a_params a) [] (e_cond e)) (a_effs a) = true ->
    simp_pre (a_pre (ce_variant a sel)) = Some pre' ->
    wf_action D (set_pre (ce_variant a sel) pre') = true /\ forallb is_uncond (a_effs (set_pre (ce_variant a sel) pre')) = true.
  Proof.
    rewrite !wf_action_iff. intros (H1 & H2 & H3) Hs Es. cbn [set_pre ce_variant a_params a_pre a_effs].
    rewrite forallb_forall in Hs. repeat split.
    - exact H1.
    - apply (Hsp (a_params a) (a_pre (ce_variant a sel)) pre'); [|exact Es]. cbn [ce_variant a_pre].
      apply forallb_app_iff. split; [exact H2|]. apply forallb_forall. intros c Hc. apply sel_pre_in in Hc.
      destruct Hc as [e [He Hc]]. unfold cond_effs in He. apply filter_In in He. destruct He as [He Hne].
      pose proof (Hs e He) as Hse. apply negb_true_iff in Hne. rewrite Hne in Hse. cbn [orb] in Hse.
      destruct Hc as [->| ->]; [exact Hse|apply wfx_mkNot; exact Hse].
    - intros e' He. apply in_app_or in He. destruct He as [He|He].
      + unfold uncond_effs in He. apply filter_In in He. apply H3. apply He.
      + apply sel_effs_in in He. destruct He as [e [He ->]]. apply wf_effect_strip.
        apply H3. unfold cond_effs in He. apply filter_In in He. apply He.
    - apply forallb_app_iff. split.
      + apply forallb_forall. intros e He. unfold uncond_effs in He. apply filter_In in He. apply He.
      + apply forallb_forall. intros e' He. apply sel_effs_in in He. destruct He as [e [He ->]]. reflexivity.
  Qed.

  Lemma cond_effs_nil effs : cond_effs effs = [] -> forallb is_uncond effs = true.
  Proof.
    induction effs as [|e effs IH]; [reflexivity|]. unfold cond_effs. cbn [filter forallb]. destruct (is_uncond e); cbn [negb andb].
    - exact IH. - discriminate.
  Qed.

  Theorem cer_wf : nm_inj nm -> nm_fresh nm P -> cer_side P = true -> wf_problem P = true ->
    wf_problem (cer_compile simp_pre nm P) = true /\ no_cond_effects (cer_compile simp_pre nm P) = true.
  Proof.
    intros Hinj Hfr Hside H. pose proof (proj1 (wf_problem_spec P) H) as ((N1 & _) & _ & Ha & Hg & Hv). fold D in Ha.
    unfold cer_side in Hside. fold D in Hside. rewrite forallb_forall in Hside.
    assert (HV : forall i' v, In (i', v) (vt_actions (cer_table simp_pre nm P)) ->
                   wf_action D v = true /\ forallb is_uncond (a_effs v) = true).
    { intros i' v Hiv. apply in_table_actions in Hiv. destruct Hiv as [i Hin]. apply cer_table_In in Hin.
      destruct Hin as (a & Hin & [(Hc & _ & ->)|(_ & sel & pre' & _ & Es & ->)]).
      - split; [exact (Ha i a Hin)|]. apply cond_effs_nil. unfold is_cond_action in Hc. apply negb_false_iff in Hc.
        destruct (cond_effs (a_effs a)); [reflexivity|discriminate].
      - exact (cer_variant_wf a sel pre' (Ha i a Hin) (Hside (i, a) Hin) Es). }
    split.
    - apply (wf_same_decls P); [exact H | reflexivity | reflexivity | | | exact Hg | exact Hv]; cbn [cer_compile p_actions].
      + unfold vt_actions, cer_table. rewrite map_map. cbn [fst]. rewrite map_flat_map.
        erewrite flat_map_ext_in; [apply (nodup_table nm P (p_actions P) (fun ia => negb (is_cond_action (snd ia)))
                                            (fun ia => cer_variants simp_pre (snd ia)) (fun _ _ => true)); auto|].
        intros [i a] _. cbn [fst snd]. destruct (is_cond_action a); cbn [negb]; [|reflexivity].
        rewrite map_map. cbn [fst]. rewrite flat_map_singleton. reflexivity.
      + intros i' v Hiv. apply (HV i' v Hiv).
    - unfold no_cond_effects. cbn [cer_compile p_actions]. apply forallb_forall. intros [i' v] Hiv. apply (HV i' v Hiv).
  Qed.
End Cer.

(* the DNF walker returns disjuncts / literals built from the condition's own atoms: nothing undeclared appears *)
Definition cdnf_wf (D : denv) (cdnf : expr -> list expr) : Prop :=
  forall ps B c d, wfx D ps B c = true -> In d (cdnf c) -> wfx D ps B d = true.
Definition pre_dnf_wf (D : denv) (pre_dnf : action -> list (list expr)) : Prop :=
  forall a d x, wf_action D a = true -> In d (pre_dnf a) -> In x d -> wfx D (a_params a) [] x = true.

Section Dcr.
  Variable cdnf : expr -> list expr.
  Variable pre_dnf : action -> list (list expr).
  Variable nm : N -> nat -> N.
  Variable P : problem.
  Let D := denv_of P.
  Hypothesis Hc : cdnf_wf D cdnf.
  Hypothesis Hp : pre_dnf_wf D pre_dnf.

  Lemma split_effect_wf ps e e' : wf_effect D ps e = true -> In e' (split_effect cdnf e) -> wf_effect D ps e' = true.
  Proof.
    intros Hw Hi. unfold split_effect in Hi. destruct (is_uncond e); [destruct Hi as [<-|[]]; exact Hw|].
    apply in_map_iff in Hi. destruct Hi as [d [<- Hd]]. rewrite !wf_effect_iff in *. cbn [set_cond e_fl e_args e_val e_cond e_vars].
    destruct Hw as (H1 & H2 & H3 & H4 & H5). repeat split; auto. eapply Hc; eauto.
  Qed.

  Lemma dnf_variant_wf a d : wf_action D a = true -> In d (pre_dnf a) -> wf_action D (dnf_variant cdnf a d) = true.
  Proof.
    intros Hw Hd. pose proof Hw as Hw'. rewrite wf_action_iff in Hw |- *. cbn [dnf_variant a_params a_pre a_effs].
    destruct Hw as (H1 & _ & H3). repeat split.
    - exact H1.
    - apply forallb_forall. intros x Hx. eapply Hp; eauto.
    - intros e' He. apply in_flat_map in He. destruct He as [e [He He']]. eapply split_effect_wf; eauto.
  Qed.

  Theorem dcr_wf goals' : nm_inj nm -> nm_fresh nm P -> forallb (wfx D [] []) goals' = true -> wf_problem P = true ->
    wf_problem (dcr_compile cdnf pre_dnf nm P goals') = true.
  Proof.
    intros Hinj Hfr Hg H. pose proof (proj1 (wf_problem_spec P) H) as ((N1 & _) & _ & Ha & _ & Hv).
    apply (wf_same_decls P); [exact H | reflexivity | reflexivity | | | exact Hg | exact Hv]; cbn [dcr_compile p_actions].
    - unfold vt_actions, dcr_table. rewrite map_map. cbn [fst]. rewrite map_flat_map.
      erewrite flat_map_ext_in; [apply (nodup_table nm P (p_actions P) (fun _ => false)
                                          (fun ia => dnf_variants cdnf (snd ia) (pre_dnf (snd ia))) (fun _ _ => true)); auto|].
      intros [i a] _. cbn [fst snd]. rewrite map_map. cbn [fst]. rewrite flat_map_singleton. reflexivity.
    - intros i' v Hiv. apply in_table_actions in Hiv. destruct Hiv as [i Hin]. apply dcr_table_In in Hin.
      destruct Hin as (a & d & Hin & Hd & -> & _). exact (dnf_variant_wf a d (Ha i a Hin) Hd).
  Qed.
End Dcr.

Lemma keep_vars_in fv : forall vs seen p, In p (keep_vars fv seen vs) -> In p vs.
Proof.
  induction vs as [|q vs IH]; intros seen p H; cbn [keep_vars] in H; [destruct H|].
  destruct (memN (fst q) fv && negb (memN (fst q) seen)); [destruct H as [<-|H]; [left; reflexivity|]|]; right; eauto.
Qed.

Lemma keep_vars_lookup fv v : memN v fv = true -> forall vs seen, memN v seen = false ->
  lookupN v (keep_vars fv seen vs) = lookupN v vs.
Proof.
  intros Hfv. induction vs as [|[w t] vs IH]; intros seen Hs; [reflexivity|]. cbn [keep_vars fst lookupN].
  destruct (v =? w)%N eqn:E.
  - apply N.eqb_eq in E. subst w. rewrite Hfv, Hs. cbn [andb negb lookupN]. rewrite N.eqb_refl. reflexivity.
  - destruct (memN w fv && negb (memN w seen)).
    + cbn [lookupN]. rewrite E. apply IH. unfold memN. cbn [existsb]. rewrite E. exact Hs.
    + apply IH. exact Hs.
Qed.

Lemma zip_params_sg_ok D : forall ps args, List.length args = List.length ps -> forallb (val_ok D) args = true ->
  sg_ok D ps (zip_params ps args).
Proof.
  induction ps as [|q ps IH]; intros [|v args] Hl Hv p Hp; try discriminate.
  cbn [List.length] in Hl. injection Hl as Hl. cbn [forallb] in Hv. apply andb_true_iff in Hv. destruct Hv as [Hv1 Hv2].
  cbn [zip_params lookupN]. unfold memN in Hp. cbn [existsb] in Hp. destruct (p =? q)%N eqn:E.
  - exists v. auto.
  - cbn [orb] in Hp. apply IH; auto.
Qed.

(* the enumerated parameter tuples have the action's arity and consist of declared objects / constants
   (GrounderHelper.get_possible_parameters: products of problem.objects(type) / domain items) *)
Definition tuples_ok (P : problem) (tuples : N -> list (list value)) : Prop :=
  forall i a args, In (i, a) (p_actions P) -> In args (tuples i) ->
    List.length args = List.length (a_params a) /\ forallb (val_ok (denv_of P)) args = true.

Section Ground.
  Variable smp : expr -> expr.
  Variable tuples : N -> list (list value).
  Variable nm : N -> nat -> N.
  Variable P : problem.
  Let D := denv_of P.
  Hypothesis Hsmp : keeps_wf D smp.

  Lemma g_effect_wf ps sg e ge : sg_ok D ps sg -> wf_effect D ps e = true -> g_effect smp sg e = Some ge ->
    wf_effect D [] ge = true.
  Proof.
    intros Hsg Hw. unfold g_effect. destruct (is_false _); [discriminate|]. intros E. inversion E; subst; clear E.
    rewrite wf_effect_iff in Hw |- *. destruct Hw as (H1 & H2 & H3 & H4 & H5). cbn [e_fl e_args e_val e_cond e_vars].
    set (args := map (fun x => smp (psubst sg x)) (e_args e)).
    set (v := smp (psubst sg (e_val e))). set (c := smp (psubst sg (e_cond e))).
    assert (Hx : forall x, wfx D ps (e_vars e) x = true -> wfx D [] (e_vars e) (smp (psubst sg x)) = true).
    { intros x Hx. apply Hsmp. eapply wfx_psubst; eauto. }
    assert (Hk : forall y, wfx D [] (e_vars e) y = true -> incl (free_vars y) (effect_free_vars args v c) ->
                   wfx D [] (keep_vars (effect_free_vars args v c) [] (e_vars e)) y = true).
    { intros y Hy Hin. apply (wfx_weaken D D [] [] (dle_refl D) (fun p H => H) y (e_vars e)); [exact Hy|]. intros w ty Hw Hl.
      rewrite keep_vars_lookup; [exact Hl| |reflexivity]. apply memN_In. apply Hin. exact Hw. }
    repeat split.
    - unfold args. rewrite map_length. exact H1.
    - apply forallb_forall. intros p Hp. apply keep_vars_in in Hp. rewrite forallb_forall in H2. auto.
    - apply forallb_forall. intros y Hy. apply Hk.
      + unfold args in Hy. apply in_map_iff in Hy. destruct Hy as [x [<- Hxin]]. apply Hx. rewrite forallb_forall in H3. auto.
      + intros w Hw. unfold effect_free_vars. apply in_or_app. left. apply in_flat_map. eauto.
    - apply Hk; [apply Hx; exact H4|]. intros w Hw. unfold effect_free_vars. apply in_or_app. right. apply in_or_app. left. exact Hw.
    - apply Hk; [apply Hx; exact H5|]. intros w Hw. unfold effect_free_vars. apply in_or_app. right. apply in_or_app. right. exact Hw.
  Qed.

  Lemma g_pre_wf ps sg pre pre' : sg_ok D ps sg -> forallb (wfx D ps []) pre = true -> g_pre smp sg pre = Some pre' ->
    forallb (wfx D [] []) pre' = true.
  Proof.
    intros Hsg Hw. unfold g_pre. destruct pre as [|p0 pre0]; [intros E; inversion E; reflexivity|].
    assert (Hx : wfx D [] [] (smp (mkAnd (map (psubst sg) (p0 :: pre0)))) = true).
    { apply Hsmp. apply wfx_mkAnd. rewrite forallb_map. revert Hw. apply forallb_impl. intros x _. apply wfx_psubst. exact Hsg. }
    destruct (smp (mkAnd (map (psubst sg) (p0 :: pre0)))) eqn:Es; try (intros E; inversion E; subst; cbn [forallb]; rewrite Hx; reflexivity).
    - destruct b; intros E; inversion E; reflexivity.
    - intros E. inversion E; subst. exact Hx.
  Qed.

  Lemma g_action_wf a args g : wf_action D a = true -> sg_ok D (a_params a) (zip_params (a_params a) args) ->
    g_action smp a args = Some g -> wf_action D g = true /\ a_params g = [].
  Proof.
    rewrite wf_action_iff. intros (H1 & H2 & H3) Hsg. unfold g_action. destruct (add_effs_ok _ _ _); [|discriminate].
    destruct (g_pre smp _ (a_pre a)) as [pre'|] eqn:Ep; [|discriminate]. intros E. inversion E; subst; clear E.
    rewrite wf_action_iff. cbn [a_params a_pre a_effs nodupN]. repeat split.
    - eapply g_pre_wf; eauto.
    - intros ge Hge. unfold g_effects in Hge. apply in_flat_map in Hge. destruct Hge as [e [He Hge]].
      destruct (g_effect smp _ e) eqn:Ee; [|destruct Hge]. destruct Hge as [<-|[]]. eapply g_effect_wf; eauto.
  Qed.

  Theorem ground_wf : nm_inj nm -> nm_fresh nm P -> tuples_ok P tuples -> wf_problem P = true ->
    wf_problem (ground_compile smp tuples nm P) = true /\ ground_problem (ground_compile smp tuples nm P) = true.
  Proof.
    intros Hinj Hfr Htu H. pose proof (proj1 (wf_problem_spec P) H) as ((N1 & _) & _ & Ha & Hg & Hv).
    assert (HV : forall i' g, In (i', g) (gt_actions (ground_table smp tuples nm P)) -> wf_action D g = true /\ a_params g = []).
    { intros i' g Hiv. apply in_table_actions in Hiv. destruct Hiv as [[i args] Hin]. apply ground_table_In in Hin.
      destruct Hin as (a & Hia & Hargs & Eg). destruct (Htu i a args Hia Hargs) as [Hl Hval].
      exact (g_action_wf a args g (Ha i a Hia) (zip_params_sg_ok D _ _ Hl Hval) Eg). }
    split.
    - apply (wf_same_decls P); [exact H | reflexivity | reflexivity | | | exact Hg | exact Hv]; cbn [ground_compile p_actions].
      + unfold gt_actions, ground_table. rewrite map_map. cbn [fst]. rewrite map_flat_map.
        erewrite flat_map_ext_in; [apply (nodup_table nm P (p_actions P) (fun _ => false)
                                            (fun ia => tuples (fst ia))
                                            (fun ia kt => match g_action smp (snd ia) (snd kt) with Some _ => true | None => false end)); auto|].
        intros [i a] _. cbn [fst snd]. rewrite map_flat_map. apply flat_map_ext_in. intros kt _.
        destruct (g_action smp a (snd kt)); reflexivity.
      + intros i' g Hiv. apply (HV i' g Hiv).
    - unfold ground_problem. cbn [ground_compile p_actions]. apply forallb_forall. intros [i' g] Hiv.
      destruct (HV i' g Hiv) as [_ E]. cbn [snd]. rewrite E. reflexivity.
  Qed.
End Ground.

(* a well-formed action without parameters mentions no parameter *)
Lemma wfx_param_free D B e : wfx D [] B e = true -> param_free e = true.
Proof.
  revert B. induction e as [e L|u a IHa|b a1 a2 IH1 IH2|n l IHl|ex vs a IHa] using expr_view_ind; intros B Hw.
  - destruct e; try discriminate L; try reflexivity. discriminate Hw.
  - rewrite wfx_E1 in Hw. destruct u; exact (IHa _ Hw).
  - rewrite wfx_E2 in Hw. apply andb_true_iff in Hw. destruct Hw as [H1 H2].
    destruct b; cbn [E2 param_free]; rewrite (IH1 _ H1), (IH2 _ H2); reflexivity.
  - rewrite wfx_En in Hw. apply andb_true_iff in Hw. destruct Hw as [_ Hw].
    assert (forallb param_free l = true); [|destruct n; assumption].
    rewrite Forall_forall in IHl. revert Hw. apply forallb_impl. intros x Hx. exact (IHl x Hx B).
  - rewrite wfx_EQ in Hw. apply andb_true_iff in Hw. destruct ex; exact (IHa _ (proj2 Hw)).
Qed.

Lemma nodup_snd_inj {A} (l : list (A * N)) a b n : NoDup (map snd l) -> In (a, n) l -> In (b, n) l -> a = b.
Proof.
  induction l as [|[x m] l IH]; intros Hn Ha Hb; [destruct Ha|]. cbn [map snd] in Hn. inversion Hn; subst.
  destruct Ha as [Ea|Ha], Hb as [Eb|Hb].
  - congruence.
  - inversion Ea; subst. exfalso. apply H1. apply in_map_iff. exists (b, n). auto.
  - inversion Eb; subst. exfalso. apply H1. apply in_map_iff. exists (a, n). auto.
  - auto.
Qed.

(* what the theorem needs of the table of negation fluents (part of LayerA_Neg.nmap_ok): the negation fluents are
   pairwise different and none of them is a fluent of the original problem (get_fresh_name, fix fe1c555) *)
Definition nmap_fresh (nmap : list (N * N)) (P : problem) : bool :=
  nodupN (map snd nmap) && forallb (fun fd => negb (is_negb nmap (fd_id fd))) (p_fluents P).

Section Neg.
  Variable nmap : list (N * N).
  Variable rw smp : expr -> expr.
  Variable P : problem.
  Let D := denv_of P.
  Let P' := neg_compile nmap rw smp P.
  Let D' := denv_of P'.
  (* the rewriting introduces only negation fluents that the compiler declares, with the arity of the original *)
  Hypothesis Hrw : forall ps B e, wfx D ps B e = true -> wfx D' ps B (rw e) = true.
  Hypothesis Hsmp : keeps_wf D' smp.

  Lemma decl_fl_n_fluents fls f n : decl_fl fls f n = true -> decl_fl (n_fluents nmap fls) f n = true.
  Proof.
    unfold decl_fl. rewrite !existsb_exists. intros [fd [Hin H]]. exists fd. split; [|exact H].
    unfold n_fluents. apply in_flat_map. exists fd. split; [exact Hin|left; reflexivity].
  Qed.

  Lemma decl_fl_neg fls f nf n : decl_fl fls f n = true -> ng nmap f = Some nf -> decl_fl (n_fluents nmap fls) nf n = true.
  Proof.
    unfold decl_fl. rewrite !existsb_exists. intros [fd [Hin H]] Hng. apply andb_true_iff in H. destruct H as [H1 H2].
    apply N.eqb_eq in H1. subst f. exists {| fd_id := nf; fd_sig := fd_sig fd; fd_ty := fd_ty fd |}. split.
    - unfold n_fluents. apply in_flat_map. exists fd. split; [exact Hin|]. rewrite Hng. right. left. reflexivity.
    - cbn [fd_id fd_sig]. rewrite N.eqb_refl, H2. reflexivity.
  Qed.

  Lemma neg_dle : dle D D'.
  Proof. repeat split; auto. intros f n. cbn [D D' denv_of d_fl P' neg_compile p_fluents]. apply decl_fl_n_fluents. Qed.

  Lemma n_effect_wf ps e : wf_effect D ps e = true -> wf_effect D' ps (n_effect rw e) = true.
  Proof.
    intros Hw. unfold n_effect. destruct (is_uncond e); [eapply wf_effect_dle; [apply neg_dle|exact Hw]|].
    pose proof (wf_effect_dle D D' ps e neg_dle Hw) as Hw'. rewrite wf_effect_iff in *.
    cbn [set_cond e_fl e_args e_val e_cond e_vars]. destruct Hw as (_ & _ & _ & _ & H5). destruct Hw' as (H1 & H2 & H3 & H4 & _).
    repeat split; auto.
  Qed.

  Lemma mirror_wf ps e0 m : wf_effect D ps e0 = true -> In m (mirror nmap smp (n_effect rw e0)) -> wf_effect D' ps m = true.
  Proof.
    intros Hw Hm. pose proof (n_effect_wf ps e0 Hw) as Hn. set (e := n_effect rw e0) in *.
    assert (Hfl : e_fl e = e_fl e0 /\ e_args e = e_args e0).
    { unfold e, n_effect. destruct (is_uncond e0); split; reflexivity. }
    unfold mirror in Hm. destruct (ng nmap (e_fl e)) as [nf|] eqn:Eng; [|destruct Hm]. destruct Hm as [<-|[]].
    rewrite wf_effect_iff in *. cbn [e_fl e_args e_val e_cond e_vars].
    destruct Hn as (H1 & H2 & H3 & H4 & H5). destruct Hw as (G1 & _). destruct Hfl as [F1 F2]. repeat split; auto.
    - rewrite F1 in Eng. rewrite F2. exact (decl_fl_neg (p_fluents P) (e_fl e0) nf _ G1 Eng).
    - apply Hsmp. apply wfx_mkNot. exact H4.
  Qed.

  Lemma n_action_wf a : wf_action D a = true -> wf_action D' (n_action nmap rw smp a) = true.
  Proof.
    rewrite !wf_action_iff. intros (H1 & H2 & H3). cbn [n_action a_params a_pre a_effs]. repeat split.
    - exact H1.
    - apply forallb_add_pres. rewrite forallb_map. revert H2. apply forallb_impl. intros x _. apply Hrw.
    - intros e' He'. unfold n_effects in He'. apply in_app_or in He'. destruct He' as [He'|Hm].
      + apply in_map_iff in He'. destruct He' as [e [<- He]]. apply n_effect_wf. auto.
      + apply in_flat_map in Hm. destruct Hm as [e [He Hm]]. apply in_map_iff in He.
        destruct He as [e0 [<- He0]]. eapply mirror_wf; eauto.
  Qed.

  Lemma n_fluents_ids fls : (forall fd, In fd fls -> is_negb nmap (fd_id fd) = false) -> NoDup (map snd nmap) ->
    NoDup (map fd_id fls) -> NoDup (map fd_id (n_fluents nmap fls)).
  Proof.
    intros Hneg Hnd Hids. unfold n_fluents. rewrite map_flat_map.
    set (g := fun x : N * fdecl => fst x :: match ng nmap (fst x) with Some nf => [nf] | None => [] end).
    rewrite (flat_map_ext_in _ (fun fd => g (fd_id fd, fd))).
    2:{ intros fd _. unfold g. cbn [fst map fd_id]. destruct (ng nmap (fd_id fd)); reflexivity. }
    rewrite <- (flat_map_map g (fun fd => (fd_id fd, fd))).
    assert (Hisneg : forall f nf, ng nmap f = Some nf -> is_negb nmap nf = true).
    { intros f nf H. apply lookupN_In in H. unfold is_negb. apply existsb_exists. exists (f, nf). split; [exact H|apply N.eqb_refl]. }
    assert (Hin : forall x, In x (map (fun fd => (fd_id fd, fd)) fls) -> is_negb nmap (fst x) = false).
    { intros x Hx. apply in_map_iff in Hx. destruct Hx as [fd [<- Hfd]]. cbn [fst]. auto. }
    apply (nodup_own_or_new g (fun x n => ng nmap (fst x) = Some n)).
    - rewrite map_map. cbn [fst]. exact Hids.
    - intros x Hx. unfold g. destruct (ng nmap (fst x)) as [nf|] eqn:E.
      + constructor; [|constructor; [intros []|constructor]].
        intros [Hq|[]]. apply Hisneg in E. rewrite Hq, (Hin x Hx) in E. discriminate.
      + constructor; [intros []|constructor].
    - intros x n _ H. unfold g in H. destruct H as [<-|H]; [left; reflexivity|right].
      destruct (ng nmap (fst x)); [|destruct H]. destruct H as [<-|[]]. reflexivity.
    - intros x n E Hi. apply Hisneg in E. apply in_map_iff in Hi. destruct Hi as [y [<- Hy]]. rewrite (Hin y Hy) in E. discriminate.
    - intros x y n Ex Ey. apply lookupN_In in Ex. apply lookupN_In in Ey. eapply nodup_snd_inj; eauto.
  Qed.

  Theorem neg_wf : nmap_fresh nmap P = true -> wf_problem P = true -> wf_problem P' = true.
  Proof.
    intros Hfr H. apply wf_problem_spec in H. destruct H as ((N1 & N2 & N3) & Hf & Ha & Hg & Hv). fold D in Hf, Ha, Hg, Hv.
    unfold nmap_fresh in Hfr. apply andb_true_iff in Hfr. destruct Hfr as [Hfr1 Hfr2].
    apply wf_problem_spec. fold D'. unfold P'. cbn [neg_compile p_actions p_fluents p_objs p_goals p_invs]. repeat split.
    - rewrite map_map. exact N1.
    - apply n_fluents_ids.
      + intros fd Hfd. rewrite forallb_forall in Hfr2. apply negb_true_iff. auto.
      + apply nodupN_iff. exact Hfr1.
      + exact N2.
    - exact N3.
    - intros fd' Hfd'. unfold n_fluents in Hfd'. apply in_flat_map in Hfd'. destruct Hfd' as [fd [Hfd Hin]].
      assert (Hw' : wf_fdecl D' fd = true) by exact (Hf fd Hfd).
      destruct Hin as [<-|Hin]; [exact Hw'|]. destruct (ng nmap (fd_id fd)); [|destruct Hin]. destruct Hin as [<-|[]]. exact Hw'.
    - intros i a' Hi. apply in_map_iff in Hi. destruct Hi as [[j a] [E Hi]]. inversion E; subst. exact (n_action_wf a (Ha i a Hi)).
    - apply forallb_add_goals. rewrite forallb_map. revert Hg. apply forallb_impl. intros x _. apply Hrw.
    - apply forallb_filter. rewrite forallb_map. revert Hv. apply forallb_impl. intros x _ Hx. apply Hsmp. apply Hrw. exact Hx.
  Qed.

  (* the promised shape, from what the rewriting promises *)
  Theorem neg_shape : (forall e, neg_free (rw e) = true) -> keeps neg_free smp -> negation_free P' = true.
  Proof.
    intros Hr Hs. unfold negation_free, P'. cbn [neg_compile p_actions p_goals p_invs]. repeat (apply andb_true_iff; split).
    - rewrite forallb_map. apply forallb_forall. intros [i a] _. cbn [snd n_action a_pre a_effs]. apply andb_true_iff. split.
      + apply forallb_add_pres. rewrite forallb_map. apply forallb_forall. intros x _. apply Hr.
      + assert (Hn : forall e, neg_free (e_cond (n_effect rw e)) = true).
        { intros e. unfold n_effect. destruct (is_uncond e) eqn:Eu; [|apply Hr]. unfold is_uncond in Eu.
          apply is_true_eq in Eu. rewrite Eu. reflexivity. }
        unfold n_effects. apply forallb_app_iff. split.
        * rewrite forallb_map. apply forallb_forall. intros e _. apply Hn.
        * apply forallb_forall. intros m Hm. apply in_flat_map in Hm. destruct Hm as [e [He Hm]]. apply in_map_iff in He.
          destruct He as [e0 [<- _]]. unfold mirror in Hm. destruct (ng nmap _); [|destruct Hm]. destruct Hm as [<-|[]].
          cbn [e_cond]. apply Hn.
    - apply forallb_add_goals. rewrite forallb_map. apply forallb_forall. intros x _. apply Hr.
    - apply forallb_filter. rewrite forallb_map. apply forallb_forall. intros x _. apply Hs. apply Hr.
  Qed.
End Neg.

(* _add_effect_instance raising UPConflictingEffectsException is caught by the compilers and the action / variant is
   left out: every action the models keep has a conflict-free effect list (so re-adding its effects cannot raise) *)
Lemma q_action_conflict_free smp P a a' : q_action smp P a = Some a' -> add_effs_ok [] [] (a_effs a') = true.
Proof. unfold q_action. destruct (add_effs_ok _ _ _) eqn:E; [|discriminate]. intros H. inversion H; subst. exact E. Qed.

Lemma g_action_conflict_free smp a args g : g_action smp a args = Some g -> add_effs_ok [] [] (a_effs g) = true.
Proof.
  unfold g_action. destruct (add_effs_ok _ _ _) eqn:E; [|discriminate]. destruct (g_pre _ _ _); [|discriminate].
  intros H. inversion H; subst. exact E.
Qed.

Lemma cer_variants_conflict_free simp_pre a v : In v (cer_variants simp_pre a) ->
  add_effs_ok [] [] (a_effs v) = true /\ a_effs v <> [].
Proof.
  unfold cer_variants. rewrite in_flat_map. intros [sel [Hs H]]. destruct (simp_pre _); [|destruct H]. destruct H as [<-|[]].
  unfold ce_kept_sels in Hs. apply filter_In in Hs. destruct Hs as [_ Hk]. unfold ce_kept in Hk. apply andb_true_iff in Hk.
  destruct Hk as [H1 H2]. cbn [set_pre a_effs]. split; [exact H1|]. destruct (a_effs (ce_variant a sel)); [discriminate|discriminate].
Qed.

Lemma dnf_variants_conflict_free cdnf a pd v : In v (dnf_variants cdnf a pd) ->
  add_effs_ok [] [] (a_effs v) = true /\ a_effs v <> [].
Proof.
  unfold dnf_variants. rewrite filter_In. intros [_ Hk]. unfold dnf_kept in Hk. apply andb_true_iff in Hk. destruct Hk as [H1 H2].
  split; [exact H1|]. destruct (a_effs v); discriminate.
Qed.

(* no precondition and no effect condition of the compiled actions is a disjunction, provided the DNF walker's
   disjuncts / literals are not (C12: a DNF's disjuncts are conjunctions of literals) *)
Definition dcr_shape (P : problem) : bool :=
  forallb (fun ia => forallb (fun x => negb (is_or x)) (a_pre (snd ia)) &&
                     forallb (fun e => negb (is_or (e_cond e))) (a_effs (snd ia))) (p_actions P) &&
  forallb (fun g => negb (is_or g)) (p_goals P).

Theorem dcr_shape_ok cdnf pre_dnf nm P goals' :
  (forall c d, In d (cdnf c) -> is_or d = false) ->
  (forall a d x, In d (pre_dnf a) -> In x d -> is_or x = false) ->
  forallb (fun g => negb (is_or g)) goals' = true ->
  dcr_shape (dcr_compile cdnf pre_dnf nm P goals') = true.
Proof.
  intros Hc Hp Hg. unfold dcr_shape. cbn [dcr_compile p_actions p_goals]. rewrite Hg, andb_true_r.
  apply forallb_forall. intros [i' v] Hiv. apply in_table_actions in Hiv. destruct Hiv as [i Hin].
  apply dcr_table_In in Hin. destruct Hin as (a & d & _ & Hd & -> & _). cbn [snd dnf_variant a_pre a_effs].
  apply andb_true_iff. split.
  - apply forallb_forall. intros x Hx. rewrite (Hp a d x Hd Hx). reflexivity.
  - apply forallb_forall. intros e' He. apply in_flat_map in He. destruct He as [e [_ He]]. unfold split_effect in He.
    destruct (is_uncond e) eqn:Eu.
    + destruct He as [<-|[]]. unfold is_uncond in Eu. apply is_true_eq in Eu. rewrite Eu. reflexivity.
    + apply in_map_iff in He. destruct He as [c [<- Hcin]]. cbn [set_cond e_cond]. rewrite (Hc _ _ Hcin). reflexivity.
Qed.

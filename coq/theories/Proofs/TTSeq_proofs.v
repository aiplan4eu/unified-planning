(* C04: on plans of instantaneous actions with pairwise distinct start times the model of the time-triggered validator
   and the model of the sequential validator give the same verdict. *)
From Coq Require Import List ZArith NArith QArith Qcanon Bool Lia Lqa Permutation.
Import ListNotations.
Require Import UPV.Core.Expr UPV.Core.Eval UPV.Core.Interp UPV.Planning.Problem UPV.Planning.Sem UPV.Planning.SeqValidate.
Require Import UPV.Planning.Temporal UPV.Planning.TTValidate UPV.Planning.TTSeq.
Require Import UPV.Proofs.ListFacts UPV.Proofs.InsertBy UPV.Proofs.Eval_lemmas UPV.Proofs.Sem_proofs UPV.Proofs.Step_proofs.
Require Import UPV.Proofs.Temporal_base UPV.Proofs.Temporal_dense UPV.Proofs.Temporal_joint
               UPV.Proofs.Temporal_run UPV.Proofs.Temporal_proofs.
Local Open Scope Qc_scope.

Lemma hpush_all_sorted_app L : forall h, sortedT (h ++ L) -> hpush_all L h = h ++ L.
Proof.
  induction L as [|e L IH]; intros h S; [rewrite app_nil_r; reflexivity|].
  unfold hpush_all in *. cbn [fold_left].
  assert (E : hpush e h = h ++ [e]).
  { rewrite <- (app_nil_r h) at 1. rewrite hpush_prefix; [reflexivity|].
    intros x Hx. apply (sorted_by_app_lr _ h (e :: L) x e S Hx). left; reflexivity. }
  rewrite E. rewrite IH; [rewrite <- app_assoc; reflexivity|]. rewrite <- app_assoc. exact S.
Qed.

Definition strictT : list event -> Prop := sorted_by (fun e x => ev_time e < ev_time x).

Lemma strictT_sorted h : strictT h -> sortedT h.
Proof. apply sorted_by_weaken. intros x y. apply Qclt_le_weak. Qed.

Lemma groups_strict h : strictT h -> groups h = map (fun e => (ev_time e, [e])) h.
Proof.
  induction h as [|e r IH]; intros S; [reflexivity|]. destruct S as [S1 S2]. cbn [groups map].
  rewrite (IH S2). destruct r as [|y r0]; [reflexivity|]. cbn [map].
  assert (E : qc_eqb (ev_time e) (ev_time y) = false).
  { apply qc_eqb_false. intros EE. specialize (S1 y (or_introl eq_refl)). rewrite EE in S1. qco. }
  rewrite E. reflexivity.
Qed.

(* state in force at a key of the trace: the state before that entry *)
Lemma state_at_key (pre : trace) : forall s0 t s post,
  asc_from minus1 (keys (pre ++ (t, s) :: post)) -> state_at s0 (pre ++ (t, s) :: post) t = final_state s0 pre.
Proof.
  induction pre as [|[x sx] pre IH]; intros s0 t s post A.
  - cbn. assert (E : qc_ltb t t = false) by (apply qc_ltb_false, Qcle_refl). rewrite E. reflexivity.
  - cbn [app state_at final_state]. cbn in A. destruct A as [A1 A2].
    assert (L : x < t).
    { apply (asc_from_gt x _ A2 t). unfold keys. rewrite map_app. apply in_or_app. right. left. reflexivity. }
    assert (E : qc_ltb x t = true) by (apply qc_ltb_lt, L). rewrite E.
    apply IH. apply (asc_from_weaken x minus1); [qco | exact A2].
Qed.

Lemma state_at_before (tr : trace) s0 u : (forall x, In x (keys tr) -> u <= x) -> state_at s0 tr u = s0.
Proof.
  destruct tr as [|[x s] tr]; intros H; [reflexivity|]. cbn.
  assert (E : qc_ltb x u = false) by (apply qc_ltb_false, H; left; reflexivity). rewrite E. reflexivity.
Qed.

(* a condition over "every instant from 0 on" holds iff it holds in the initial state and in every state of the trace *)
Lemma always_spec sc TP (s0 : state) (tr : trace) (c : expr) :
  asc_from minus1 (keys tr) -> (forall x, In x (keys tr) -> zq 0 <= x) ->
  (cond_ok sc TP s0 tr {| tc_iv := always_interval; tc_bind := []; tc_expr := c |} <->
   holds_in sc TP s0 [] c = true /\ forall x s, In (x, s) tr -> holds_in sc TP s [] c = true).
Proof.
  intros A K. unfold cond_ok. cbn [tc_iv tc_bind tc_expr]. split.
  - intros H. split.
    + rewrite <- (state_at_before tr s0 (zq 0) K). apply H. split; [apply Qcle_refl | exact I].
    + intros x s Hin.
      assert (Hk : In x (keys tr)) by (change x with (fst (x, s)); apply in_map, Hin).
      destruct (instant_after (keys ((minus1, s0) :: tr)) x None I) as [u [U1 [_ U3]]].
      assert (Hm : minus1 < u) by (pose proof minus1_lt0; specialize (K x Hk); qco).
      rewrite <- (state_at_of_in_force tr minus1 s0 u x s A Hm (or_intror Hin) (conj U1 U3)).
      apply H. split; [specialize (K x Hk); cbn; qco | exact I].
  - intros [H0 H1] u [U _]. cbn in U.
    assert (Hm : minus1 < u) by (pose proof minus1_lt0; qco).
    destruct (state_at_in_force tr minus1 s0 u A Hm) as [x [s [Hin [_ St]]]]. rewrite St.
    destruct Hin as [Hin|Hin]; [inversion Hin as [[Hx Hs]]; rewrite <- Hs; exact H0 | apply (H1 x s Hin)].
Qed.

Lemma src_ok_single (x : src) (l : list aeff) : forall asg,
  (forall k ow, owner k asg = Some ow -> ow = x) -> src_ok asg (map (fun a => (x, a)) l) = true.
Proof.
  induction l as [|a l IH]; intros asg H; [reflexivity|]. cbn [map src_ok].
  destruct (is_assign a); [|apply IH, H].
  destruct (owner (ae_key a) asg) as [ow|] eqn:E.
  - rewrite (H _ _ E), src_eqb_refl. cbn. apply IH, H.
  - apply IH. intros k ow. cbn [owner]. destruct (gfl_eqb k (ae_key a)); [intros HH; inversion HH; reflexivity | apply H].
Qed.

(* the effects of one event alone: the joint application is the sequential simulator's loop *)
Lemma single_event_step sc P (s s' : state) (e : event) :
  state_eq s s' ->
  (forall acts, fired sc (mk_interp P s' (ev_bind e)) (ev_effs e) = Some acts -> forallb (wt_aeff P) acts = true) ->
  ostate_eq (tt_apply_effects sc P s [e])
            match fired sc (mk_interp P s' (ev_bind e)) (ev_effs e) with
            | None => None
            | Some acts => match sim_loop P s' ([], []) acts with Some (upd, _) => Some (apply_upd s' upd) | None => None end
            end.
Proof.
  intros SE WT. unfold tt_apply_effects. cbn [fire_events].
  rewrite (fired_ext sc (ev_effs e) _ _ (mk_interp_ext P s s' (ev_bind e) SE)).
  destruct (fired sc (mk_interp P s' (ev_bind e)) (ev_effs e)) as [acts|] eqn:EF; [|exact I].
  rewrite app_nil_r. rewrite (tt_loop_ext P s s' _ SE).
  set (l := map (fun a => (ev_src e, a)) acts).
  assert (ML : map snd l = acts) by (unfold l; rewrite map_map; cbn; apply map_id).
  assert (WT' : forallb (wt_aeff P) (map snd l) = true) by (rewrite ML; apply WT; reflexivity).
  pose proof (tt_loop_sim P s' l WT' ([], []) ([], []) (rel_init P)) as L. rewrite ML in L.
  destruct (sim_loop P s' ([], []) acts) as [[upd asg]|]; [|rewrite L; exact I].
  cbn [snd] in L. unfold l in L at 1. rewrite (src_ok_single (ev_src e) acts []) in L by (intros k ow HH; discriminate).
  destruct L as [[upd' asg'] [E [R _]]]. rewrite E.
  intros f x. unfold apply_upd. cbn [fst] in R. rewrite (R (f, x)). destruct (alookup (f, x) upd); [reflexivity | apply SE].
Qed.

Section Agree.
  Variable sc : bool.
  Variable TP : tproblem.
  Let P := tp_base TP.
  Hypothesis INST : instantaneous TP.
  Hypothesis NOT : no_timed TP.
  Hypothesis TY : plan_typed sc P.

  Lemma lookup_tact_inst aid : lookup_tact TP aid = option_map TInst (lookup_action P aid).
  Proof.
    unfold lookup_tact, lookup_action. fold P. destruct (lookupN aid (p_actions P)); [reflexivity|].
    unfold instantaneous in INST. rewrite INST. reflexivity.
  Qed.

  Definition ev_of (ist : nat * pstep) (a : action) : event :=
    {| ev_time := ps_start (snd ist); ev_src := Some (fst ist);
       ev_bind := zip_params (a_params a) (ps_args (snd ist)); ev_effs := a_effs a |}.

  Lemma evs_of_inst ist a : lookup_action P (ps_act (snd ist)) = Some a -> evs_of TP ist = [ev_of ist a].
  Proof. intros H. unfold evs_of, step_events. rewrite lookup_tact_inst, H. reflexivity. Qed.

  Definition resolved (L : list (nat * pstep)) : Prop := forall ist, In ist L -> exists a, lookup_action P (ps_act (snd ist)) = Some a.

  Fixpoint mrun (s : state) (L : list (nat * pstep)) : option (list state) :=
    match L with
    | [] => Some []
    | ist :: L' =>
        match tt_apply_effects sc P s (evs_of TP ist) with
        | None => None
        | Some s1 => option_map (cons s1) (mrun s1 L')
        end
    end.

  Lemma mrun_length L : forall s ss, mrun s L = Some ss -> length ss = length L.
  Proof.
    induction L as [|ist L IH]; intros s ss H; cbn in H; [inversion H; reflexivity|].
    destruct (tt_apply_effects sc P s (evs_of TP ist)) as [s1|]; [|discriminate].
    destruct (mrun s1 L) as [ss'|] eqn:E; [|discriminate]. inversion H; subst. cbn. f_equal. apply (IH s1 ss' E).
  Qed.

  Definition starts_strict : list (nat * pstep) -> Prop := sorted_by (fun x y => ps_start (snd x) < ps_start (snd y)).

  Definition starts_of (L : list (nat * pstep)) : list Qc := map (fun ist => ps_start (snd ist)) L.

  Lemma run_groups_mrun L : forall (m : mstate),
    starts_strict L -> (forall y ist, In y (keys (snd m)) -> In ist L -> y < ps_start (snd ist)) ->
    run_groups sc TP (map (fun ist => (ps_start (snd ist), evs_of TP ist)) L) m =
    match mrun (fst m) L with
    | None => None
    | Some ss => Some (last ss (fst m), snd m ++ List.combine (starts_of L) ss)
    end.
  Proof.
    induction L as [|ist L IH]; intros m S K.
    - cbn. rewrite app_nil_r. destruct m; reflexivity.
    - destruct S as [S1 S2]. cbn [map run_groups mrun]. fold P.
      destruct (tt_apply_effects sc P (fst m) (evs_of TP ist)) as [s1|]; [|reflexivity].
      rewrite trace_set_fresh.
      + rewrite IH; [|exact S2|].
        * cbn [fst snd]. destruct (mrun s1 L) as [ss|]; [|reflexivity]. cbn [option_map].
          rewrite last_cons. cbn [starts_of map List.combine]. rewrite <- app_assoc. reflexivity.
        * cbn [snd]. intros y ist' Hy Hi. unfold keys in Hy. rewrite map_app in Hy. apply in_app_iff in Hy.
          destruct Hy as [Hy|[<-|[]]]; [apply (K y ist' Hy); right; exact Hi | apply S1, Hi].
      + intros y Hy EE. specialize (K y ist Hy (or_introl eq_refl)). subst y. qco.
  Qed.

  Lemma last_cons_default {A} (a : A) l d : last (a :: l) d = last l a.
  Proof. apply last_cons. Qed.

  Definition bind_of (ist : nat * pstep) : list (N * value) :=
    match lookup_action P (ps_act (snd ist)) with Some a => zip_params (a_params a) (ps_args (snd ist)) | None => [] end.
  Definition pre_of (ist : nat * pstep) : list expr :=
    match lookup_action P (ps_act (snd ist)) with Some a => a_pre a | None => [] end.

  (* the sequential reading of the steps [L]: the precondition of each step in the state before it, the invariants in
     the state after it, the goals at the end *)
  Fixpoint mcheck (s : state) (L : list (nat * pstep)) : bool :=
    match L with
    | [] => goals_hold sc P s
    | ist :: L' =>
        all_hold sc (mk_interp P s (bind_of ist)) (pre_of ist) &&
        match tt_apply_effects sc P s (evs_of TP ist) with
        | None => false
        | Some s1 => invariants_ok sc P s1 && mcheck s1 L'
        end
    end.

  Lemma seq_side L : resolved L -> forall s s' acc, state_eq s s' ->
    validate_from sc P MNone (sim_apply sc P) s' acc (seq_of (map snd L)) = if mcheck s L then Valid None else Invalid.
  Proof.
    induction L as [|ist L IH]; intros RS s s' acc SE.
    - cbn [map seq_of validate_from mcheck]. unfold P. rewrite (goals_hold_ext sc (tp_base TP) s s' SE).
      destruct (goals_hold sc (tp_base TP) s'); reflexivity.
    - destruct (RS ist (or_introl eq_refl)) as [a EA].
      assert (RS' : resolved L) by (intros x Hx; apply RS; right; exact Hx).
      pose proof (single_event_step sc P s s' (ev_of ist a) SE (TY s' _ a (ps_args (snd ist)) EA)) as ST.
      cbn [ev_of ev_bind ev_effs] in ST.
      cbn [map seq_of validate_from mcheck]. rewrite EA, (evs_of_inst ist a EA). unfold bind_of, pre_of. rewrite EA.
      unfold sim_apply. fold P. rewrite (all_hold_ext sc _ _ (a_pre a) (mk_interp_ext P s s' _ SE)).
      destruct (all_hold sc (mk_interp P s' (zip_params (a_params a) (ps_args (snd ist)))) (a_pre a)); cbn [negb andb]; [|reflexivity].
      (* both sides fail together; otherwise they reach equivalent states *)
      destruct (fired sc (mk_interp P s' (zip_params (a_params a) (ps_args (snd ist)))) (a_effs a)) as [acts|];
        [destruct (sim_loop P s' ([], []) acts) as [[upd asg]|]|];
        destruct (tt_apply_effects sc P s [ev_of ist a]) as [s1|]; cbn in ST; try contradiction; try reflexivity.
      rewrite <- (invariants_ok_ext sc P s1 (apply_upd s' upd) ST).
      destruct (invariants_ok sc P s1); [|reflexivity]. cbn [step_metric andb]. apply (IH RS' s1 (apply_upd s' upd) acc ST).
  Qed.

  Fixpoint pre_ok (s : state) (L : list (nat * pstep)) (ss : list state) : bool :=
    match L, ss with
    | ist :: L', s1 :: ss' => all_hold sc (mk_interp P s (bind_of ist)) (pre_of ist) && pre_ok s1 L' ss'
    | _, _ => true
    end.

  (* checking step by step is running all the steps and checking afterwards *)
  Lemma mcheck_mrun L : forall s,
    mcheck s L = match mrun s L with
                 | None => false
                 | Some ss => pre_ok s L ss && forallb (invariants_ok sc P) ss && goals_hold sc P (last ss s)
                 end.
  Proof.
    induction L as [|ist L IH]; intros s; cbn [mcheck mrun]; [reflexivity|].
    destruct (tt_apply_effects sc P s (evs_of TP ist)) as [s1|]; [|apply andb_false_r].
    rewrite IH. destruct (mrun s1 L) as [ss|]; cbn [option_map]; [|rewrite andb_false_r; apply andb_false_r].
    cbn [pre_ok forallb]. rewrite last_cons.
    destruct (all_hold sc (mk_interp P s (bind_of ist)) (pre_of ist)), (invariants_ok sc P s1), (pre_ok s1 L ss); reflexivity.
  Qed.

  Lemma flat_evs_strict L : resolved L -> starts_strict L ->
    strictT (flat_map (evs_of TP) L) /\
    map (fun e => (ev_time e, [e])) (flat_map (evs_of TP) L) = map (fun ist => (ps_start (snd ist), evs_of TP ist)) L /\
    (forall e, In e (flat_map (evs_of TP) L) -> exists ist, In ist L /\ ev_time e = ps_start (snd ist)).
  Proof.
    induction L as [|ist L IH]; intros RS S; [cbn; repeat split; auto; intros e []|].
    destruct S as [S1 S2]. destruct (RS ist (or_introl eq_refl)) as [a EA].
    assert (RS' : resolved L) by (intros x Hx; apply RS; right; exact Hx).
    destruct (IH RS' S2) as (I1 & I2 & I3). cbn [flat_map]. rewrite (evs_of_inst ist a EA). cbn [app map].
    split; [|split].
    - split; [|exact I1]. intros x Hx. destruct (I3 x Hx) as [ist' [Hi Et]]. cbn [ev_of ev_time]. rewrite Et. apply S1, Hi.
    - rewrite (evs_of_inst ist a EA). f_equal. exact I2.
    - intros e [<-|He]; [exists ist; split; [left; reflexivity | reflexivity]|].
      destruct (I3 e He) as [ist' [Hi Et]]. exists ist'. split; [right; exact Hi | exact Et].
  Qed.

  Lemma final_state_app s0 (a : trace) t s : final_state s0 (a ++ [(t, s)]) = s.
  Proof. revert s0; induction a as [|[x sx] a IH]; intros s0; [reflexivity | apply IH]. Qed.

  Lemma pre_spec (s0 : state) L : forall done ss,
    length ss = length L -> asc_from minus1 (keys (done ++ List.combine (starts_of L) ss)) ->
    ((forall ist c, In ist L -> In c (pre_of ist) ->
        holds_in sc TP (state_at s0 (done ++ List.combine (starts_of L) ss) (ps_start (snd ist))) (bind_of ist) c = true) <->
     pre_ok (final_state s0 done) L ss = true).
  Proof.
    induction L as [|ist L IH]; intros done ss LEN A.
    - cbn. split; [reflexivity | intros _ ist c []].
    - destruct ss as [|s1 ss]; [discriminate|]. cbn [starts_of map List.combine] in *. fold (starts_of L) in *.
      assert (EQ : done ++ (ps_start (snd ist), s1) :: List.combine (starts_of L) ss =
                   (done ++ [(ps_start (snd ist), s1)]) ++ List.combine (starts_of L) ss) by (rewrite <- app_assoc; reflexivity).
      specialize (IH (done ++ [(ps_start (snd ist), s1)]) ss).
      rewrite <- EQ, final_state_app in IH. cbn [pre_ok]. rewrite andb_true_iff.
      assert (LEN' : length ss = length L) by (cbn in LEN; lia).
      specialize (IH LEN' A).
      pose proof (state_at_key done s0 (ps_start (snd ist)) s1 (List.combine (starts_of L) ss) A) as SK.
      split.
      + intros H. split.
        * unfold all_hold. apply forallb_forall. intros c Hc. specialize (H ist c (or_introl eq_refl) Hc).
          rewrite SK in H. exact H.
        * apply IH. intros ist' c Hi Hc. apply H; [right; exact Hi | exact Hc].
      + intros [H1 H2] ist' c [<-|Hi] Hc.
        * rewrite SK. unfold all_hold in H1. rewrite forallb_forall in H1. apply H1, Hc.
        * apply (proj2 IH H2 ist' c Hi Hc).
  Qed.

  Lemma in_combine_states (ks : list Qc) (ss : list state) : length ss = length ks ->
    forall s, In s ss <-> exists x, In (x, s) (List.combine ks ss).
  Proof.
    revert ss; induction ks as [|k ks IH]; intros ss LEN s.
    - destruct ss; [|discriminate]. cbn. split; [intros [] | intros [x []]].
    - destruct ss as [|s1 ss]; [discriminate|]. cbn in LEN. cbn [List.combine In]. split.
      + intros [<-|H]; [exists k; left; reflexivity|]. apply (IH ss ltac:(lia)) in H. destruct H as [x Hx]. exists x. right. exact Hx.
      + intros [x [H|H]]; [inversion H; left; reflexivity|]. right. apply (IH ss ltac:(lia)). exists x. exact H.
  Qed.

  Lemma keys_combine (ks : list Qc) (ss : list state) : length ss = length ks -> keys (List.combine ks ss) = ks.
  Proof.
    revert ss; induction ks as [|k ks IH]; intros ss LEN; [reflexivity|].
    destruct ss as [|s1 ss]; [discriminate|]. cbn. f_equal. apply IH. cbn in LEN. lia.
  Qed.

  Lemma starts_asc_from L : starts_strict L -> (forall ist, In ist L -> zq 0 <= ps_start (snd ist)) ->
    asc_from minus1 (starts_of L).
  Proof.
    intros S N. apply asc_from_of_asc.
    - induction L as [|ist L IH]; [exact I|]. destruct S as [S1 S2]. cbn.
      assert (A : asc (starts_of L)) by (apply IH; [exact S2 | intros x Hx; apply N; right; exact Hx]).
      apply asc_from_of_asc; [exact A|]. intros x Hx. unfold starts_of in Hx. apply in_map_iff in Hx.
      destruct Hx as [y [<- Hy]]. apply S1, Hy.
    - intros x Hx. unfold starts_of in Hx. apply in_map_iff in Hx. destruct Hx as [y [<- Hy]].
      specialize (N y Hy). pose proof minus1_lt0. qco.
  Qed.

  Lemma resolved_order pi : plan_wf TP pi = true -> resolved (starts_order pi).
  Proof.
    intros WF [j st] Hi. apply (Permutation_in _ (proj2 (starts_order_spec pi))) in Hi.
    pose proof (indexed_from_In pi 0 j st Hi) as Hs.
    unfold plan_wf in WF. rewrite forallb_forall in WF. specialize (WF st Hs).
    unfold step_wf in WF. rewrite lookup_tact_inst in WF. cbn [snd].
    destruct (lookup_action P (ps_act st)) as [a|]; [exists a; reflexivity | discriminate].
  Qed.

  (* the validator's final check of the trace left by a run [ss] of the steps [L] *)
  Lemma final_check (s0 : state) L ss :
    resolved L -> starts_strict L -> (forall ist, In ist L -> zq 0 <= ps_start (snd ist)) -> length ss = length L ->
    forallb (check_cond sc TP ((minus1, s0) :: List.combine (starts_of L) ss))
            (global_conds TP ++ flat_map (fun ist => step_dur_cond TP (snd ist) ++ step_conds TP (snd ist)) L) =
    invariants_ok sc P s0 && forallb (invariants_ok sc P) ss && pre_ok s0 L ss.
  Proof.
    intros RS SS NNL LEN. set (new := List.combine (starts_of L) ss).
    assert (LEN2 : length ss = length (starts_of L)) by (unfold starts_of; rewrite map_length; exact LEN).
    assert (KN : keys new = starts_of L) by (apply keys_combine, LEN2).
    assert (A : asc_from minus1 (keys new)) by (rewrite KN; apply starts_asc_from; assumption).
    assert (K0 : forall x, In x (keys new) -> zq 0 <= x).
    { rewrite KN. intros x Hx. unfold starts_of in Hx. apply in_map_iff in Hx. destruct Hx as [y [<- Hy]]. apply NNL, Hy. }
    rewrite forallb_app. f_equal; apply eq_true_iff_eq.
    - (* the invariants, as conditions over [0, oo), hold in the initial state and in every state of the run *)
      unfold global_conds. destruct NOT as [_ N2]. rewrite N2. cbn [flat_map app]. fold P.
      rewrite forallb_map, andb_true_iff, !forallb_forall. unfold invariants_ok, all_hold. rewrite forallb_forall.
      assert (CC : forall c, check_cond sc TP ((minus1, s0) :: new) {| tc_iv := always_interval; tc_bind := []; tc_expr := c |} = true <->
                             holds_in sc TP s0 [] c = true /\ forall x s, In (x, s) new -> holds_in sc TP s [] c = true).
      { intros c. rewrite (check_cond_spec sc TP s0 new _ A); [apply always_spec; assumption | apply Qcle_refl | reflexivity]. }
      split.
      + intros H. split; [intros c Hc; apply (proj1 (CC c) (H c Hc))|].
        intros x Hx. apply forallb_forall. intros c Hc. apply (in_combine_states _ _ LEN2) in Hx. destruct Hx as [k Hk].
        apply (proj2 (proj1 (CC c) (H c Hc)) k x Hk).
      + intros [H0 H1] c Hc. apply CC. split; [apply H0, Hc|]. intros k s Hin.
        assert (Hs : In s ss) by (apply (in_combine_states _ _ LEN2); exists k; exact Hin).
        specialize (H1 s Hs). rewrite forallb_forall in H1. apply H1, Hc.
    - (* the conditions of a step are its preconditions, at its start: evaluated in the state before the step *)
      rewrite forallb_forall, <- (pre_spec s0 L [] ss LEN A). cbn [app]. fold new. split.
      + intros H ist c Hi Hc. destruct (RS ist Hi) as [a EA].
        rewrite <- (conditions_before_effects sc TP s0 new _ _ _ A (NNL ist Hi)).
        apply H. apply in_flat_map. exists ist. split; [exact Hi|]. apply in_or_app. right.
        unfold step_conds. rewrite lookup_tact_inst, EA. cbn [option_map]. unfold pre_of in Hc. rewrite EA in Hc.
        unfold bind_of. rewrite EA. apply in_map_iff. exists c. split; [reflexivity | exact Hc].
      + intros H c Hc. apply in_flat_map in Hc. destruct Hc as [ist [Hi Hc]]. destruct (RS ist Hi) as [a EA].
        unfold step_dur_cond, step_conds in Hc. rewrite lookup_tact_inst, EA in Hc. cbn [option_map app] in Hc.
        apply in_map_iff in Hc. destruct Hc as [c0 [<- Hc0]].
        rewrite (conditions_before_effects sc TP s0 new _ _ _ A (NNL ist Hi)).
        specialize (H ist c0 Hi). unfold pre_of, bind_of in H. rewrite EA in H. apply H, Hc0.
  Qed.

  (* the whole loop on such a plan: its steps one by one in start order, each at a time of its own *)
  Lemma tt_main_mrun (s0 : state) (pi : tplan) :
    resolved (starts_order pi) -> starts_strict (starts_order pi) -> (forall ist, In ist (starts_order pi) -> zq 0 <= ps_start (snd ist)) ->
    tt_main sc TP (starts_order pi) (init_heap TP) (s0, [(minus1, s0)]) =
    dres_of (match mrun s0 (starts_order pi) with
             | None => None
             | Some ss => Some (last ss s0, (minus1, s0) :: List.combine (starts_of (starts_order pi)) ss)
             end) [].
  Proof.
    intros RS SS NNL. set (L := starts_order pi) in *.
    destruct (flat_evs_strict L RS SS) as (F1 & F2 & _).
    assert (IH0 : init_heap TP = []).
    { unfold init_heap, timed_events. destruct NOT as [N1 _]. rewrite N1. reflexivity. }
    rewrite IH0.
    rewrite (tt_main_groups sc TP L [] (s0, [(minus1, s0)]) I (proj1 (starts_order_spec pi))).
    2:{ intros ist e Hi He. destruct (RS ist Hi) as [a EA]. rewrite (evs_of_inst ist a EA) in He.
        destruct He as [<-|[]]. apply Qcle_refl. }
    rewrite (hpush_all_sorted_app _ [] (strictT_sorted _ F1)). cbn [app].
    rewrite (groups_strict _ F1), F2.
    rewrite (run_groups_mrun L (s0, [(minus1, s0)]) SS); [reflexivity|].
    cbn [snd]. intros y ist [<-|[]] Hi. specialize (NNL ist Hi). pose proof minus1_lt0. qco.
  Qed.

  Theorem tt_side (s0 : state) (pi : tplan) :
    plan_wf TP pi = true -> starts_strict (starts_order pi) -> (forall st, In st pi -> zq 0 <= ps_start st) ->
    tt_validate sc TP s0 pi = if invariants_ok sc P s0 && mcheck s0 (starts_order pi) then VALID else INVALID.
  Proof.
    intros WF SS NN. pose proof (resolved_order pi WF) as RS.
    assert (NNL : forall ist, In ist (starts_order pi) -> zq 0 <= ps_start (snd ist)).
    { intros [j st] Hi. apply NN. apply (Permutation_in _ (proj2 (starts_order_spec pi))) in Hi. apply (indexed_from_In pi 0 j st Hi). }
    unfold tt_validate. rewrite WF, (tt_main_mrun s0 pi RS SS NNL), mcheck_mrun. cbn [negb].
    destruct (mrun s0 (starts_order pi)) as [ss|] eqn:EM; cbn [dres_of]; [|rewrite andb_false_r; reflexivity].
    unfold tt_conds. rewrite (final_check s0 _ ss RS SS NNL (mrun_length _ s0 ss EM)). fold P.
    destruct (invariants_ok sc P s0), (forallb (invariants_ok sc P) ss), (pre_ok s0 (starts_order pi) ss); reflexivity.
  Qed.


  Lemma map_snd_indexed_from {A} (l : list A) : forall i, map snd (indexed_from i l) = l.
  Proof. induction l as [|a l IH]; intros i; [reflexivity|]. cbn. f_equal. apply IH. Qed.

  Definition steps_strict : list pstep -> Prop := sorted_by (fun x y => ps_start x < ps_start y).
  Definition steps_asc : list pstep -> Prop := sorted_by (fun x y => ps_start x <= ps_start y).

  Lemma steps_asc_strict l : steps_asc l -> NoDup (map ps_start l) -> steps_strict l.
  Proof.
    induction l as [|x r IH]; intros A ND; [exact I|]. destruct A as [A1 A2]. inversion ND as [|? ? Hn ND']; subst.
    split; [|apply IH; assumption]. intros y Hy. specialize (A1 y Hy).
    destruct (Qcle_lt_or_eq _ _ A1) as [L|E]; [exact L|]. exfalso. apply Hn. rewrite E. apply in_map, Hy.
  Qed.

  (* [ins_time] is [insert_by] with the test "not later" *)
  Lemma ins_time_asc x l : steps_asc l -> steps_asc (ins_time x l).
  Proof.
    apply (insert_by_sorted (fun x y => qc_leb (ps_start x) (ps_start y)) (fun x y => ps_start x <= ps_start y)).
    - intros a b H. qb. exact H.
    - intros a b H. qb. qco.
    - intros a b c H1 H2. qco.
  Qed.

  Lemma ins_time_perm x l : Permutation (ins_time x l) (x :: l).
  Proof. exact (insert_by_perm (fun x y => qc_leb (ps_start x) (ps_start y)) x l). Qed.

  Lemma sort_steps_spec pi : steps_asc (sort_steps pi) /\ Permutation (sort_steps pi) pi.
  Proof.
    unfold sort_steps. induction pi as [|x pi [I1 I2]]; cbn; [split; [exact I | constructor]|].
    split; [apply ins_time_asc, I1|]. eapply Permutation_trans; [apply ins_time_perm | apply perm_skip, I2].
  Qed.

  Lemma order_agree pi : NoDup (map ps_start pi) ->
    map snd (starts_order pi) = sort_steps pi /\ starts_strict (starts_order pi).
  Proof.
    intros ND. destruct (starts_order_spec pi) as [A PM]. destruct (sort_steps_spec pi) as [A' PM'].
    assert (PM2 : Permutation (map snd (starts_order pi)) pi).
    { eapply Permutation_trans; [apply Permutation_map, PM|]. unfold indexed. rewrite map_snd_indexed_from. apply Permutation_refl. }
    assert (S1 : steps_strict (map snd (starts_order pi))).
    { apply steps_asc_strict; [apply (sorted_by_map snd (fun x y : pstep => ps_start x <= ps_start y)), A|].
      apply (Permutation_NoDup (Permutation_sym (Permutation_map ps_start PM2)) ND). }
    assert (S2 : steps_strict (sort_steps pi)).
    { apply steps_asc_strict; [exact A'|]. apply (Permutation_NoDup (Permutation_sym (Permutation_map ps_start PM')) ND). }
    split; [|apply (sorted_by_map snd (fun x y : pstep => ps_start x < ps_start y)), S1].
    apply (sorted_by_unique (fun x y : pstep => ps_start x < ps_start y)); [intros x y H1 H2; qco| |exact S1 | exact S2].
    eapply Permutation_trans; [exact PM2 | apply Permutation_sym, PM'].
  Qed.

  Lemma schedule_spec plan : forall times,
    (forall st, In st (schedule plan times) -> ps_dur st = None) /\
    (forall t, In t (map ps_start (schedule plan times)) -> In t times) /\
    (NoDup times -> NoDup (map ps_start (schedule plan times))).
  Proof.
    induction plan as [|[a args] plan IH]; intros times; [cbn; repeat split; try tauto; intros; constructor|].
    destruct times as [|t times]; [cbn; repeat split; try tauto; intros; constructor|].
    destruct (IH times) as (I1 & I2 & I3). cbn [schedule map]. split; [|split].
    - intros st [<-|H]; [reflexivity | apply I1, H].
    - intros x [<-|H]; [left; reflexivity | right; apply I2, H].
    - intros ND. inversion ND as [|? ? Hn ND']; subst. cbn [ps_start]. constructor; [|apply I3, ND'].
      intros H. apply Hn, I2, H.
  Qed.

  Lemma validate_from_unknown plan : forall s acc a args,
    In (a, args) plan -> lookup_action P a = None ->
    validate_from sc P MNone (sim_apply sc P) s acc plan = Invalid.
  Proof.
    induction plan as [|[b bargs] plan IH]; intros s acc a args Hin HL; [destruct Hin|].
    cbn [validate_from]. destruct Hin as [Hin|Hin].
    - inversion Hin; subst. rewrite HL. reflexivity.
    - destruct (lookup_action P b); [|reflexivity]. destruct (sim_apply sc P s a0 bargs); [|reflexivity].
      cbn [step_metric]. apply (IH _ _ a args Hin HL).
  Qed.

  (* any time-triggered plan of instantaneous steps with pairwise distinct, non-negative start times *)
  Theorem tt_seq_agree_steps (s0 : state) (pi : tplan) :
    init_ok sc TP s0 -> (forall st, In st pi -> ps_dur st = None) -> NoDup (map ps_start pi) ->
    (forall st, In st pi -> zq 0 <= ps_start st) ->
    tt_validate sc TP s0 pi = verdict_of (seq_validate sc P MNone s0 (seq_of (sort_steps pi))).
  Proof.
    intros IO D1 ND NNp. destruct (order_agree pi ND) as [OA SS]. unfold seq_validate. rewrite <- OA.
    destruct (plan_wf TP pi) eqn:WF.
    - rewrite (tt_side s0 pi WF SS NNp), (seq_side (starts_order pi) (resolved_order pi WF) s0 s0 (zq 0) (fun _ _ => eq_refl)).
      unfold init_ok in IO. fold P in IO. rewrite IO. destruct (mcheck s0 (starts_order pi)); reflexivity.
    - unfold tt_validate. rewrite WF. cbn [negb].
      destruct (forallb_false_ex _ _ WF) as [st [Hs Hw]]. unfold step_wf in Hw. rewrite lookup_tact_inst, (D1 st Hs) in Hw.
      destruct (lookup_action P (ps_act st)) as [a|] eqn:EL; [discriminate|].
      rewrite (validate_from_unknown _ s0 (zq 0) (ps_act st) (ps_args st)); [reflexivity| |exact EL].
      unfold seq_of. rewrite OA. apply in_map_iff. exists st. split; [reflexivity|].
      apply (Permutation_in st (Permutation_sym (proj2 (sort_steps_spec pi)))), Hs.
  Qed.

  Theorem tt_seq_agree (s0 : state) (plan : list (N * list value)) (times : list Qc) :
    init_ok sc TP s0 -> NoDup times -> (forall t, In t times -> zq 0 <= t) ->
    tt_validate sc TP s0 (schedule plan times) = verdict_of (seq_validate sc P MNone s0 (sort_by_time plan times)).
  Proof.
    intros IO ND NN. destruct (schedule_spec plan times) as (D1 & D2 & D3).
    apply tt_seq_agree_steps; [exact IO | exact D1 | exact (D3 ND) | intros st Hs; apply NN, D2, in_map, Hs].
  Qed.
End Agree.

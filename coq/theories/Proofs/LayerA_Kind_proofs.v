(* C09 part (ii) on the Layer A fragment — proofs.  Definitions: Model/KindBridge.v; statements: Props/C09_la.v.
   [bridge]: on the 13 covered features la_feats is KindOf's kind_model of the embedded problem, for every auxiliary
   typing information.  [exec_keeps]: a run of a declared-kind program keeps every feature its text does not unset.
   Per compiler: where the conditions / effects / fluents of the compiled problem come from, what the program of
   Gen_Engines.v unsets and which feature it adds, then "the removed feature is absent" ([*_removed]) and
   "every covered feature of the compiled problem is in the declared kind" ([*_kind], through [la_transfer]). *)
From Coq Require Import List ZArith NArith QArith Qcanon Bool Lia String.
Import ListNotations.
Require Import UPV.Core.Expr UPV.Model.Kind UPV.Model.Factory UPV.Gen.Gen_Kind UPV.Gen.Gen_Engines.
Require Import UPV.Model.KindOf UPV.Proofs.Eval_lemmas UPV.Proofs.ListFacts UPV.Proofs.ExprKids UPV.Proofs.ExprView UPV.Proofs.LayerA_tables UPV.Proofs.Psubst_view UPV.Proofs.LayerA_Wf_proofs.
Require Import UPV.Core.Eval UPV.Core.Interp UPV.Planning.Problem UPV.Model.KindBridge.
Require Import UPV.Walkers.Subst UPV.Compilers.Variants UPV.Compilers.LayerA_Defs UPV.Compilers.LayerA_Quant.
Require Import UPV.Compilers.LayerA_Variants UPV.Compilers.LayerA_Inv UPV.Compilers.LayerA_Neg.
Require Import UPV.Planning.Ground UPV.Compilers.LayerA_Ground.

Lemma ops_go l :
  (fix go (l : list expr) : list N := match l with [] => [] | x :: l' => ops_of x ++ go l' end) l = flat_map ops_of l.
Proof. induction l; simpl; congruence. Qed.

Lemma filter_clause p f b : filter p (clause f b) = if p f then clause f b else [].
Proof. destruct b; simpl; destruct (p f); reflexivity. Qed.


Lemma cov_type_feats t : filter covered (M.type_feats t) = [].
Proof. destruct t as [| | |u hf]; try reflexivity. destruct hf; reflexivity. Qed.

Lemma cov_param_feats t : filter covered (M.param_feats t) = [].
Proof. destruct t as [|lo hi|lo hi|u hf]; try reflexivity; [destruct lo, hi; reflexivity | destruct hf; reflexivity]. Qed.

Lemma cov_expr_feats c : filter covered (M.expr_feats c) = M.expr_feats c.
Proof.
  unfold M.expr_feats. rewrite !filter_app, !filter_clause. reflexivity.
Qed.

Lemma expr_feats_ce c : M.expr_feats c = cond_feats (ce c).
Proof. reflexivity. Qed.

Lemma cov_fl_feats P l a b : covered a = false -> covered b = false -> filter covered (M.fl_feats P l a b) = [].
Proof. intros Ha Hb. unfold M.fl_feats. rewrite filter_app, !filter_clause, Ha, Hb. reflexivity. Qed.

Lemma cov_effect_feats ax D tc e :
  filter covered (M.effect_feats D (eff_of ax tc e)) = eff_feats e.
Proof.
  unfold M.effect_feats, eff_feats. rewrite !filter_app.
  f_equal; [|f_equal].
  - unfold is_conditional. simpl. destruct (is_true (e_cond e)); simpl; [reflexivity|].
    rewrite filter_app, cov_expr_feats. reflexivity.
  - simpl ef_forall. destruct (e_vars e) as [|v vs]; [reflexivity|].
    cbn [map nonempty]. cbn [filter]. change (covered f_FORALL_EFFECTS) with true. cbv iota.
    f_equal. rewrite filter_flat_map. apply flat_map_nil. intros x _. apply cov_type_feats.
  - simpl ef_kind. simpl ef_val. simpl ef_vcls.
    destruct (e_kind e); simpl kind_of_ekind; cbv iota.
    + destruct (ax_vcls ax e); rewrite filter_app, filter_clause, cov_fl_feats; reflexivity.
    + cbn [filter]. change (covered f_INCREASE_EFFECTS) with true. cbv iota. f_equal.
      rewrite filter_app, filter_clause. change (covered f_INTERPRETED_FUNCTIONS_IN_NUMERIC_ASSIGNMENTS) with false. cbv iota.
      destruct (is_num_const (e_val e)); [reflexivity| apply cov_fl_feats; reflexivity].
    + cbn [filter]. change (covered f_DECREASE_EFFECTS) with true. cbv iota. f_equal.
      rewrite filter_app, filter_clause. change (covered f_INTERPRETED_FUNCTIONS_IN_NUMERIC_ASSIGNMENTS) with false. cbv iota.
      destruct (is_num_const (e_val e)); [reflexivity| apply cov_fl_feats; reflexivity].
Qed.

Lemma cov_action_feats ax D tc a :
  filter covered (M.action_feats D (act_of ax tc a)) = act_feats a.
Proof.
  unfold act_of, M.action_feats, M.iaction_feats, act_feats. simpl.
  rewrite !filter_app, !filter_flat_map. rewrite !flat_map_map.
  rewrite (flat_map_nil (fun x => filter covered (M.param_feats (ax_par ax x)))) by (intros; apply cov_param_feats).
  rewrite app_nil_r. simpl. f_equal.
  - apply flat_map_ext. intro x. rewrite cov_expr_feats. reflexivity.
  - apply flat_map_ext. intro x. apply cov_effect_feats.
Qed.

Lemma cov_fluent_feats ax D fd :
  filter covered (M.fluent_feats D (fd_of ax fd)) = fl_feats fd.
Proof.
  unfold M.fluent_feats, fl_feats. simpl KindOf.fd_ty. simpl KindOf.fd_sig. rewrite !filter_app.
  assert (S : filter covered
     (flat_map (fun pt => M.type_feats pt ++ match pt with TBool => [f_BOOL_FLUENT_PARAMETERS]
        | TInt _ _ => [f_BOUNDED_INT_FLUENT_PARAMETERS] | _ => [] end) (map (KindBridge.uty ax) (fd_sig fd))) = []).
  { rewrite filter_flat_map. apply flat_map_nil. intros x _. rewrite filter_app, cov_type_feats.
    destruct x; reflexivity. }
  rewrite S, app_nil_r.
  assert (T : forall (b : bool) t, filter covered (if b then M.type_feats t else []) = []).
  { intros b t. destruct b; [apply cov_type_feats | reflexivity]. }
  rewrite T. simpl app.
  destruct (fd_ty fd) as [|lo hi|u]; simpl ty_of.
  - reflexivity.
  - destruct (ax_isint ax (fd_id fd)); rewrite filter_app, filter_clause;
      change (covered f_BOUNDED_TYPES) with true; cbv iota;
      match goal with |- _ ++ filter covered (if ?b then _ else _) = _ => destruct b end; simpl; rewrite ?app_nil_r; reflexivity.
  - reflexivity.
Qed.

Lemma cov_initial_feats fd : filter covered (M.initial_feats fd) = [].
Proof.
  unfold M.initial_feats. destruct (KindOf.fd_default fd); [reflexivity|].
  destruct (negb _); [|reflexivity]. destruct (cnum _); reflexivity.
Qed.


Lemma cov_raw ax P : filter covered (M.raw (desc_of ax P)) = la_feats P.
Proof.
  unfold M.raw, la_feats.
  cbn [desc_of KindOf.p_fluents p_objtys KindOf.p_actions p_events p_processes p_teffs p_tgoals KindOf.p_goals p_traj p_metrics
       flat_map nonempty app clause].
  rewrite filter_cons_false by reflexivity.
  rewrite !filter_app. rewrite !filter_flat_map, !flat_map_map. simpl (filter covered []). rewrite !app_nil_r.
  rewrite (flat_map_nil (fun x => filter covered (M.type_feats x))) by (intros; apply cov_type_feats).
  rewrite (flat_map_nil (fun x => filter covered (M.initial_feats (fd_of ax x)))) by (intros; apply cov_initial_feats).
  rewrite app_nil_r. simpl app.
  f_equal; [|f_equal; [|f_equal]].
  - apply flat_map_ext. intro fd. apply cov_fluent_feats.
  - apply flat_map_ext. intro ia. apply cov_action_feats.
  - apply flat_map_ext. intro i. cbn [ce cexp_ax filter]. change (covered f_STATE_INVARIANTS) with true. cbv iota.
    rewrite cov_expr_feats. f_equal.
  - apply flat_map_ext. intro g. rewrite cov_expr_feats. reflexivity.
Qed.

(* finalize only adds / removes features outside the covered ones *)
Lemma cov_finalize D fs u : filter covered (M.finalize D fs u) = filter covered fs.
Proof.
  unfold M.finalize.
  set (k1 := if negb (memN f_REAL_FLUENTS fs) && negb (memN f_INT_FLUENTS fs) then fs
             else if u then f_GENERAL_NUMERIC_PLANNING :: fs else f_SIMPLE_NUMERIC_PLANNING :: fs).
  assert (K1 : filter covered k1 = filter covered fs).
  { unfold k1. destruct (negb _ && negb _); [reflexivity|]. destruct u; apply filter_cons_false; reflexivity. }
  set (k2 := if memN f_CONTINUOUS_TIME k1 && p_discrete D
             then f_DISCRETE_TIME :: filter (fun f => negb (f =? f_CONTINUOUS_TIME)%N) k1 else k1).
  assert (K2 : filter covered k2 = filter covered fs).
  { unfold k2. destruct (memN f_CONTINUOUS_TIME k1 && p_discrete D); [|exact K1].
    rewrite filter_cons_false by reflexivity. rewrite filter_filter_imp; [exact K1|].
    intros x Hx. destruct (x =? f_CONTINUOUS_TIME)%N eqn:E; [|reflexivity].
    apply N.eqb_eq in E. subst x. discriminate Hx. }
  destruct (p_selfoverlap D && _); [|exact K2].
  rewrite filter_cons_false by reflexivity. exact K2.
Qed.

Theorem bridge ax P : filter covered (la_kind ax P) = la_feats P.
Proof. unfold la_kind, kind_model, M.kind_model. rewrite cov_finalize. apply cov_raw. Qed.

Lemma covered_in f : covered f = true <-> In f la_covered.
Proof. apply memN_In. Qed.

Corollary bridge_in ax P f : In f la_covered -> (In f (la_kind ax P) <-> In f (la_feats P)).
Proof.
  intro C. rewrite <- (bridge ax P), filter_In. apply covered_in in C. tauto.
Qed.

Lemma in_clause_iff f g b : In f (clause g b) <-> f = g /\ b = true.
Proof. destruct b; simpl; split; intros; try tauto; try (destruct H as [H|[]]; auto); destruct H; [left; auto | discriminate]. Qed.

Lemma rel_cases o : rel o = true ->
  o = op_IFUN \/ o = op_OR \/ o = op_NOT \/ o = op_IMPLIES \/ o = op_EXISTS \/ o = op_FORALL \/ o = op_EQUALS.
Proof.
  unfold rel. rewrite memN_In. simpl. intuition.
Qed.

(* a condition sets feature f iff it contains a relevant operator whose feature is f *)
Lemma in_cond_feats f e : In f (cond_feats e) <-> exists o, rel o = true /\ op_feature o = f /\ In o (ops_of e).
Proof.
  unfold cond_feats, M.expr_feats. cbn [ce cexp]. rewrite !in_app_iff, !in_clause_iff, orb_true_iff, !memN_In.
  split.
  - intros [[-> H]|[[-> H]|[[-> [H|H]]|[[-> H]|[[-> H]|[-> H]]]]]]; eexists; (split; [|split; [|exact H]]); reflexivity.
  - intros (o & R & <- & H). apply rel_cases in R.
    destruct R as [->|[->|[->|[->|[->|[->| ->]]]]]]; cbn; tauto.
Qed.

Lemma cond_feats_true : cond_feats (EBool true) = [].
Proof. reflexivity. Qed.

Lemma in_la_conds P c :
  In c (la_conds P) <->
  (exists ia, In ia (p_actions P) /\ (In c (a_pre (snd ia)) \/ exists e, In e (a_effs (snd ia)) /\ c = e_cond e))
  \/ In c (p_invs P) \/ In c (p_goals P).
Proof.
  unfold la_conds. rewrite !in_app_iff, in_flat_map.
  split.
  - intros [(ia & Hia & H)|H]; [left; exists ia; split; [exact Hia|]| right; exact H].
    apply in_app_iff in H. destruct H as [H|H]; [left; exact H|right].
    apply in_map_iff in H. destruct H as (e & <- & He). exists e. auto.
  - intros [(ia & Hia & H)|H]; [left; exists ia; split; [exact Hia|]| right; exact H].
    apply in_app_iff. destruct H as [H|(e & He & ->)]; [left; exact H | right; apply in_map; exact He].
Qed.

Lemma in_la_effs P e : In e (la_effs P) <-> exists ia, In ia (p_actions P) /\ In e (a_effs (snd ia)).
Proof. unfold la_effs. apply in_flat_map. Qed.

Lemma la_conds_pre P ia c : In ia (p_actions P) -> In c (a_pre (snd ia)) -> In c (la_conds P).
Proof. intros Hia Hc. apply in_la_conds. left. exists ia. auto. Qed.

Lemma la_conds_eff P e : In e (la_effs P) -> In (e_cond e) (la_conds P).
Proof.
  intro He. apply in_la_effs in He. destruct He as (ia & Hia & He). apply in_la_conds. left. exists ia.
  split; [exact Hia|]. right. exists e. auto.
Qed.

(* what an effect contributes by itself, beside the features of its condition *)
Definition eff_own (e : effect) : list feature :=
  clause f_CONDITIONAL_EFFECTS (negb (is_true (e_cond e))) ++ clause f_FORALL_EFFECTS (nonempty (e_vars e))
  ++ match e_kind e with KInc => [f_INCREASE_EFFECTS] | KDec => [f_DECREASE_EFFECTS] | KAssign => [] end.

Lemma in_eff_feats f e : In f (eff_feats e) <-> In f (cond_feats (e_cond e)) \/ In f (eff_own e).
Proof.
  unfold eff_feats, eff_own, clause. destruct (is_true (e_cond e)) eqn:T.
  - apply is_true_eq in T. rewrite T. cbn [negb app]. change (cond_feats (EBool true)) with (@nil feature). cbn [In]. tauto.
  - cbn [negb]. rewrite !in_app_iff. cbn [In]. tauto.
Qed.

(* an effect with the kind of [e], quantified / conditional only if [e] is, contributes nothing new *)
Lemma eff_own_incl e' e : e_kind e' = e_kind e -> (nonempty (e_vars e') = true -> nonempty (e_vars e) = true) ->
  (is_true (e_cond e') = false -> is_true (e_cond e) = false) -> incl (eff_own e') (eff_own e).
Proof.
  intros K V T f. unfold eff_own. rewrite K, !in_app_iff, !in_clause_iff, !negb_true_iff. intuition.
Qed.

(* the characterisation used by every compiler proof *)
Lemma in_la_feats P f :
  In f (la_feats P) <->
  (exists fd, In fd (p_fluents P) /\ In f (fl_feats fd))
  \/ (exists c, In c (la_conds P) /\ In f (cond_feats c))
  \/ (exists e, In e (la_effs P) /\ In f (eff_own e))
  \/ (f = f_STATE_INVARIANTS /\ p_invs P <> []).
Proof.
  unfold la_feats. rewrite !in_app_iff, !in_flat_map. split.
  - intros [H|[(ia & Hia & H)|[(i & Hi & H)|(g & Hg & H)]]].
    + left. exact H.
    + unfold act_feats in H. rewrite in_app_iff, !in_flat_map in H.
      destruct H as [(c & Hc & H)|(e & He & H)].
      * right; left. exists c. split; [exact (la_conds_pre P ia c Hia Hc)|exact H].
      * apply in_eff_feats in H. destruct H as [H|H].
        -- right; left. exists (e_cond e). split; [|exact H]. apply la_conds_eff, in_la_effs. exists ia. auto.
        -- right; right; left. exists e. split; [apply in_la_effs; exists ia; auto|exact H].
    + destruct H as [<-|H].
      * right; right; right. split; [reflexivity|]. intro E. rewrite E in Hi. destruct Hi.
      * right; left. exists i. split; [|exact H]. apply in_la_conds. auto.
    + right; left. exists g. split; [|exact H]. apply in_la_conds. auto.
  - intros [H|[(c & Hc & H)|[(e & He & H)|(-> & NE)]]].
    + left. exact H.
    + apply in_la_conds in Hc. destruct Hc as [(ia & Hia & [Hc|(e & He & ->)])|[Hc|Hc]].
      * right; left. exists ia. split; [exact Hia|]. unfold act_feats. rewrite in_app_iff, !in_flat_map. left. exists c. auto.
      * right; left. exists ia. split; [exact Hia|]. unfold act_feats. rewrite in_app_iff, !in_flat_map. right. exists e.
        split; [exact He|]. apply in_eff_feats. left. exact H.
      * right; right; left. exists c. split; [exact Hc|]. right. exact H.
      * right; right; right. exists c. auto.
    + apply in_la_effs in He. destruct He as (ia & Hia & He). right; left. exists ia. split; [exact Hia|].
      unfold act_feats. rewrite in_app_iff, !in_flat_map. right. exists e. split; [exact He|]. apply in_eff_feats. auto.
    + destruct (p_invs P) as [|i l] eqn:E; [congruence|]. right; right; left. exists i. split; [left; reflexivity|]. left. reflexivity.
Qed.

Lemma ops_map {A} o (g : A -> expr) (l : list A) :
  In o (flat_map ops_of (map g l)) -> exists x, In x l /\ In o (ops_of (g x)).
Proof. rewrite flat_map_map, in_flat_map. auto. Qed.

Lemma ops_in_list o x l : In x l -> In o (ops_of x) -> In o (flat_map ops_of l).
Proof. intros. apply in_flat_map. eauto. Qed.

(* the operators of an expression, by shape *)
Lemma ops_leaf e : is_leaf e = true -> ops_of e = [tag e].
Proof. destruct e; try discriminate; reflexivity. Qed.
Lemma ops_E1 o a : ops_of (E1 o a) = tag (E1 o a) :: ops_of a.
Proof. destruct o; reflexivity. Qed.
Lemma ops_E2 o a b : ops_of (E2 o a b) = tag (E2 o a b) :: ops_of a ++ ops_of b.
Proof. destruct o; reflexivity. Qed.
Lemma ops_En o l : ops_of (En o l) = tag (En o l) :: flat_map ops_of l.
Proof. destruct o; cbn [En ops_of]; rewrite ops_go; reflexivity. Qed.
Lemma ops_EQ ex vs a : ops_of (EQ ex vs a) = tag (EQ ex vs a) :: ops_of a.
Proof. destruct ex; reflexivity. Qed.

(* a node rebuilt through the manager has the operator of the plain node or only those of its arguments *)
Lemma ops_mk1 o' o a a0 : In o' (ops_of (mk1 o a)) -> o' = tag (E1 o a0) \/ In o' (ops_of a).
Proof.
  destruct (mk1_cases o a) as [E|(x & -> & -> & E)]; rewrite E.
  - rewrite ops_E1. intros [<-|I]; [left; destruct o; reflexivity | auto].
  - intro I. right. right. exact I.
Qed.

Lemma ops_mkn o' o l l0 : rel o' = true -> In o' (ops_of (mkn o l)) -> o' = tag (En o l0) \/ In o' (flat_map ops_of l).
Proof.
  intro R. destruct (mkn_cases o l) as [E|[(x & -> & E)|(-> & L)]].
  - rewrite E, ops_En. intros [<-|I]; [left; destruct o; reflexivity | auto].
  - rewrite E. intro I. right. cbn [flat_map]. rewrite app_nil_r. exact I.
  - rewrite (ops_leaf _ L). intros [<-|[]]. destruct o; try discriminate L; discriminate R.
Qed.

Lemma ops_mkNot o e : In o (ops_of (mkNot e)) -> o = 10%N \/ In o (ops_of e).
Proof. exact (ops_mk1 o UNot e e). Qed.

Lemma lookup_objvals s e v : objvals s -> lookup s e = Some v -> exists ob, v = EObj ob.
Proof. intros Hs L. apply lookup_In in L. exact (Hs _ _ L). Qed.

Lemma filter_map_objvals s vs : objvals s -> objvals (filter_map s vs).
Proof. intros Hs k v H. apply filter_In in H. apply (Hs k v). tauto. Qed.

(* substitution of objects (Walkers/Subst.v: walk) introduces no relevant operator *)
Lemma walk_ops o : rel o = true -> forall e s, objvals s -> In o (ops_of (walk s e)) -> In o (ops_of e).
Proof.
  intro R.
  assert (K : forall s e r, objvals s -> (In o (ops_of r) -> In o (ops_of e)) ->
                In o (ops_of (replace_or_identity s e r)) -> In o (ops_of e)).
  { intros s e r Hs Hr. unfold replace_or_identity. destruct (lookup s e) eqn:L; [|exact Hr].
    destruct (lookup_objvals _ _ _ Hs L) as [ob ->]. intros [<-|[]]. discriminate R. }
  induction e as [e L|u a IHa|b a1 a2 IH1 IH2|n l IHl|ex vs a IHa] using expr_view_ind; intros s Hs.
  - rewrite walk_leaf by exact L. apply K; auto.
  - rewrite walk_E1. apply K; [exact Hs|]. intro I. apply (ops_mk1 _ _ _ a) in I. rewrite ops_E1.
    destruct I as [->|I]; [left; reflexivity | right; exact (IHa s Hs I)].
  - rewrite walk_E2. apply K; [exact Hs|]. rewrite !ops_E2. intros [<-|I]; [left; destruct b; reflexivity | right].
    apply in_app_iff in I. apply in_app_iff. destruct I as [I|I]; [left; exact (IH1 s Hs I) | right; exact (IH2 s Hs I)].
  - rewrite walk_En. apply K; [exact Hs|]. intro I. apply (ops_mkn _ _ _ l R) in I. rewrite ops_En.
    destruct I as [->|I]; [left; reflexivity | right]. apply ops_map in I. destruct I as (x & Hx & I).
    rewrite Forall_forall in IHl. exact (ops_in_list _ x _ Hx (IHl x Hx s Hs I)).
  - rewrite walk_EQ. apply K; [exact Hs|]. rewrite !ops_EQ. intros [<-|I]; [left; destruct ex; reflexivity | right].
    destruct (filter_map s vs) eqn:F; [exact I|]. rewrite <- F in I. exact (IHa _ (filter_map_objvals s vs Hs) I).
Qed.

Lemma substitute_ops o s e : rel o = true -> objvals s -> In o (ops_of (substitute s e)) -> In o (ops_of e).
Proof. intros R Hs. destruct s; [auto|]. apply walk_ops; assumption. Qed.

(* the keys are variables: the constant TRUE is not replaced *)
Lemma lookup_zip_true vs os : lookup (zip_subs vs os) (EBool true) = None.
Proof. revert os. induction vs as [|[v t] vs IH]; intros [|o os]; simpl; auto. Qed.
Lemma substitute_true vs os : substitute (zip_subs vs os) (EBool true) = EBool true.
Proof.
  unfold substitute. destruct (zip_subs vs os) eqn:Z; [reflexivity|]. rewrite <- Z.
  cbn [walk]. unfold replace_or_identity. rewrite lookup_zip_true. reflexivity.
Qed.

(* ExpressionQuantifiersRemover: no quantifier is left, the only relevant operator that may be new is Or, and only
   when an Exists is expanded *)
Definition qconc (o : N) (l : list N) : Prop :=
  o <> op_EXISTS /\ o <> op_FORALL /\ (In o l \/ (o = op_OR /\ In op_EXISTS l)).

Lemma qconc_mono o l l' : incl l l' -> qconc o l -> qconc o l'.
Proof.
  intros H (A & B & C). split; [exact A|split; [exact B|]].
  destruct C as [C|[C D]]; [left; auto | right; auto].
Qed.

Lemma qconc_here o l : o <> op_EXISTS -> o <> op_FORALL -> qconc o (o :: l).
Proof. intros A B. split; [exact A|split; [exact B|left; left; reflexivity]]. Qed.

Lemma qconc_tl o t l : qconc o l -> qconc o (t :: l).
Proof. apply qconc_mono. apply incl_tl, incl_refl. Qed.

Lemma expand_ops o ob : rel o = true -> forall e, In o (ops_of (expand ob e)) -> qconc o (ops_of e).
Proof.
  intro R. induction e as [e L|u a IHa|b a1 a2 IH1 IH2|n l IHl|ex vs a IHa] using expr_view_ind.
  - rewrite expand_leaf, (ops_leaf _ L) by exact L. intros [<-|[]]. apply qconc_here; destruct e; try discriminate L; discriminate.
  - rewrite expand_E1, ops_E1. intro I. apply (ops_mk1 _ _ _ a) in I.
    destruct I as [->|I]; [apply qconc_here; destruct u; discriminate | exact (qconc_tl _ _ _ (IHa I))].
  - rewrite expand_E2, !ops_E2. intros [<-|I].
    + replace (tag (E2 b (expand ob a1) (expand ob a2))) with (tag (E2 b a1 a2)) by (destruct b; reflexivity).
      apply qconc_here; destruct b; discriminate.
    + apply qconc_tl. apply in_app_iff in I. destruct I as [I|I].
      * exact (qconc_mono _ _ _ (incl_appl _ (incl_refl _)) (IH1 I)).
      * exact (qconc_mono _ _ _ (incl_appr _ (incl_refl _)) (IH2 I)).
  - rewrite expand_En, ops_En. intro I. apply (ops_mkn _ _ _ l R) in I.
    destruct I as [->|I]; [apply qconc_here; destruct n; discriminate | apply qconc_tl].
    apply ops_map in I. destruct I as (x & Hx & I). rewrite Forall_forall in IHl.
    refine (qconc_mono _ _ _ _ (IHl x Hx I)). intros p Hp. exact (ops_in_list _ x _ Hx Hp).
  - rewrite expand_EQ, ops_EQ. intro I. apply (ops_mkn _ _ _ [] R) in I. destruct I as [->|I].
    + destruct ex; [|discriminate R]. split; [discriminate|split; [discriminate|]]. right. split; [reflexivity|left; reflexivity].
    + apply qconc_tl. apply ops_map in I. destruct I as (os & _ & I).
      apply substitute_ops in I; [|exact R|apply zip_subs_objvals]. exact (IHa I).
Qed.

Lemma mem_setbit f g s : mem f (N.setbit s g) = (g =? f)%N || mem f s.
Proof. apply N.setbit_eqb. Qed.
Lemma mem_clearbit f g s : mem f (N.clearbit s g) = mem f s && negb (g =? f)%N.
Proof. apply N.clearbit_eqb. Qed.
Section InstrInd.
  Variable Q : instr -> Prop.
  Hypothesis HSet : forall f, Q (ISet f).
  Hypothesis HUnset : forall f, Q (IUnset f).
  Hypothesis HIf : forall c th el, Forall Q th -> Forall Q el -> Q (IIf c th el).

  Fixpoint instr_nested_ind (i : instr) : Q i :=
    let fix all (l : list instr) : Forall Q l :=
      match l with [] => Forall_nil Q | x :: l' => Forall_cons x (instr_nested_ind x) (all l') end in
    match i with
    | ISet f => HSet f
    | IUnset f => HUnset f
    | IIf c th el => HIf c th el (all th) (all el)
    end.
End InstrInd.

(* the features a program can unset, on whichever branch *)
Fixpoint unsets_i (i : instr) : list N :=
  match i with
  | ISet _ => []
  | IUnset f => [f]
  | IIf _ th el => flat_map unsets_i th ++ flat_map unsets_i el
  end.
Definition unsets (l : list instr) : list N := flat_map unsets_i l.

Section ExecKeeps.
  Variables (T : tables) (ver : option N) (old : fset) (f : N).

  Definition keeps_i (i : instr) : Prop := forall cur s,
    exec_i T ver old i cur = Ok s -> ~ In f (unsets_i i) -> mem f cur = true -> mem f s = true.

  Lemma exec_IIf c th el cur :
    exec_i T ver old (IIf c th el) cur = if eval_cond old cur c then exec T ver old th cur else exec T ver old el cur.
  Proof. reflexivity. Qed.

  Lemma exec_ISet g cur s : exec_i T ver old (ISet g) cur = Ok s -> s = N.setbit cur g.
  Proof.
    cbn [exec_i]. intro H. destruct ver as [v|]; [destruct (added T g <=? v)%N; [|discriminate H]|]; inversion H; reflexivity.
  Qed.

  Lemma exec_keeps_all l : Forall keeps_i l -> forall cur s,
    exec T ver old l cur = Ok s -> ~ In f (unsets l) -> mem f cur = true -> mem f s = true.
  Proof.
    induction 1 as [|x l Hx _ IH]; intros cur s H U M.
    - inversion H. subst s. exact M.
    - cbn [exec] in H. destruct (exec_i T ver old x cur) as [cur'| |] eqn:E; try discriminate H.
      unfold unsets in U. cbn [flat_map] in U. rewrite in_app_iff in U.
      apply (IH cur' s H); [tauto|]. apply (Hx cur cur' E); tauto.
  Qed.

  Lemma exec_i_keeps i : keeps_i i.
  Proof.
    induction i as [g|g|c th el IHth IHel] using instr_nested_ind; intros cur s H U M.
    - rewrite (exec_ISet g cur s H), mem_setbit, M. apply orb_true_r.
    - inversion H. rewrite mem_clearbit, M. cbn [unsets_i In] in U.
      destruct (g =? f)%N eqn:E; [apply N.eqb_eq in E; tauto | reflexivity].
    - rewrite exec_IIf in H. cbn [unsets_i] in U. rewrite in_app_iff in U.
      destruct (eval_cond old cur c); [apply (exec_keeps_all th IHth cur s H) | apply (exec_keeps_all el IHel cur s H)]; tauto.
  Qed.

  Theorem exec_keeps l cur s :
    exec T ver old l cur = Ok s -> ~ In f (unsets l) -> mem f cur = true -> mem f s = true.
  Proof. apply exec_keeps_all. apply Forall_forall. intros i _. apply exec_i_keeps. Qed.
End ExecKeeps.

(* resulting_problem_kind keeps every feature that its body never unsets *)
Corollary run_resulting_keeps T prog k d f :
  run_resulting T prog k = Ok d -> ~ In f (unsets prog) -> mem f (k_feats k) = true -> mem f (k_feats d) = true.
Proof.
  unfold run_resulting. destruct (exec T (k_ver k) (k_feats k) prog (k_feats k)) as [s| |] eqn:E; try discriminate.
  intro H. inversion H. cbn [k_feats]. exact (exec_keeps _ _ _ f _ _ _ E).
Qed.

Ltac prog_cases H :=
  repeat match type of H with
         | context [if ?b then _ else _] => destruct b eqn:?
         | context [match k_ver ?k with _ => _ end] => destruct (k_ver k)
         end; try discriminate H; inversion H; subst; clear H; cbn [k_feats].

Lemma qr_program k d :
  run_resulting gen_tables (e_resulting E_up_quantifiers_remover) k = Ok d ->
  (forall f, f <> f_EXISTENTIAL_CONDITIONS -> f <> f_UNIVERSAL_CONDITIONS -> f <> f_FORALL_EFFECTS ->
             mem f (k_feats k) = true -> mem f (k_feats d) = true)
  /\ (mem f_EXISTENTIAL_CONDITIONS (k_feats k) = true -> mem f_DISJUNCTIVE_CONDITIONS (k_feats d) = true).
Proof.
  intro H. split.
  - intros f A B C. apply (run_resulting_keeps _ _ _ _ f H). simpl. intuition.
  - revert H. unfold run_resulting. cbn [E_up_quantifiers_remover e_resulting exec exec_i eval_cond has_any existsb].
    intros H M. rewrite M in H. cbn [orb] in H. prog_cases H; rewrite mem_setbit, N.eqb_refl; reflexivity.
Qed.

Lemma in_map_actions_proj q l ia' :
  In ia' (map_actions q l) -> exists ia, In ia l /\ fst ia' = fst ia /\ q (snd ia) = Some (snd ia').
Proof.
  unfold map_actions. rewrite in_flat_map. intros (ia & Hia & H). exists ia. split; [exact Hia|].
  destruct (q (snd ia)); [|destruct H]. destruct H as [<-|[]]. auto.
Qed.

Lemma qconc_subst o s c : rel o = true -> objvals s -> qconc o (ops_of (substitute s c)) -> qconc o (ops_of c).
Proof.
  intros R Hs (A & B & C). split; [exact A|split; [exact B|]].
  destruct C as [C|[-> C]]; [left; exact (substitute_ops _ _ _ R Hs C) | right; split; [reflexivity|]].
  apply (substitute_ops _ s); [reflexivity|exact Hs|exact C].
Qed.

Section QR.
  Variable smp : expr -> expr.
  Variable P : problem.

  (* every compiled effect comes from an original effect of the same kind; it has no forall variables; it is
     conditional only if the original is; the relevant operators of its condition come from the original's *)
  Lemma qr_effect effs e' :
    In e' (q_effects smp P effs) ->
    exists e, In e effs /\ e_kind e' = e_kind e /\ e_vars e' = [] /\
      (is_true (e_cond e') = false -> is_true (e_cond e) = false) /\
      (forall o, rel o = true -> keeps_op smp o -> In o (ops_of (e_cond e')) -> qconc o (ops_of (e_cond e))).
  Proof.
    unfold q_effects. rewrite in_flat_map. intros (e & He & H). rewrite in_flat_map in H. destruct H as (e1 & H1 & H).
    exists e. split; [exact He|].
    assert (E1 : e_kind e1 = e_kind e /\ e_vars e1 = [] /\
                 (is_true (e_cond e) = true -> e_cond e1 = EBool true) /\
                 (forall o, rel o = true -> qconc o (ops_of (e_cond e1)) -> qconc o (ops_of (e_cond e)))).
    { unfold expand_effect in H1. destruct (e_vars e) as [|v vs] eqn:V.
      - destruct H1 as [<-|[]].
        split; [reflexivity|split; [exact V|split; [apply is_true_eq | intros o R Q; exact Q]]].
      - apply in_map_iff in H1. destruct H1 as (os & <- & _). cbn [set_cv e_kind e_vars e_cond].
        split; [reflexivity|split; [reflexivity|split]].
        + intro T. apply is_true_eq in T. rewrite T. apply substitute_true.
        + intros o R. apply qconc_subst; [exact R|apply zip_subs_objvals]. }
    destruct E1 as (K1 & V1 & T1 & O1).
    unfold q_effect1 in H.
    destruct (is_false _); [destruct H|]. destruct H as [<-|[]]. cbn [set_cv e_kind e_vars e_cond].
    split; [exact K1|split; [exact V1|split]].
    - intro F. destruct (is_true (e_cond e)) eqn:T; [|reflexivity]. exfalso.
      rewrite (T1 eq_refl) in F. unfold is_uncond in F. rewrite (T1 eq_refl) in F. simpl in F. discriminate F.
    - intros o R Kp I. apply O1; [exact R|]. unfold is_uncond in I.
      destruct (is_true (e_cond e1)) eqn:T.
      + apply is_true_eq in T. rewrite T in I. simpl in I. destruct I as [<-|[]]. discriminate R.
      + apply Kp in I. exact (expand_ops _ _ R _ I).
  Qed.

  Lemma qr_effs e' :
    In e' (la_effs (quant_compile smp P)) ->
    exists e, In e (la_effs P) /\ e_kind e' = e_kind e /\ e_vars e' = [] /\
      (is_true (e_cond e') = false -> is_true (e_cond e) = false).
  Proof.
    rewrite in_la_effs. intros (ia' & Hia' & He'). cbn [quant_compile p_actions] in Hia'.
    apply in_map_actions_proj in Hia'. destruct Hia' as (ia & Hia & _ & Q).
    unfold q_action in Q. destruct (add_effs_ok _ _ _); [|discriminate]. inversion Q as [Q']. rewrite <- Q' in He'.
    cbn [a_effs] in He'. apply qr_effect in He'. destruct He' as (e & He & A & B & C & _).
    exists e. split; [apply in_la_effs; exists ia; auto|auto].
  Qed.

  Lemma qr_conds c' o :
    In c' (la_conds (quant_compile smp P)) -> rel o = true -> keeps_op smp o -> In o (ops_of c') ->
    exists c, In c (la_conds P) /\ qconc o (ops_of c).
  Proof.
    intros Hc R Kp I. apply in_la_conds in Hc. cbn [quant_compile p_actions p_invs p_goals] in Hc.
    destruct Hc as [(ia' & Hia' & Hc)|[Hc|Hc]].
    - apply in_map_actions_proj in Hia'. destruct Hia' as (ia & Hia & _ & Q).
      unfold q_action in Q. destruct (add_effs_ok _ _ _); [|discriminate]. inversion Q as [Q']. rewrite <- Q' in Hc.
      cbn [a_pre a_effs] in Hc. destruct Hc as [Hc|(e' & He' & ->)].
      + apply add_pres_in in Hc. apply in_map_iff in Hc. destruct Hc as (c & <- & Hc).
        exists c. split; [apply (la_conds_pre _ ia); assumption|]. exact (expand_ops _ _ R _ I).
      + apply qr_effect in He'. destruct He' as (e & He & _ & _ & _ & O).
        exists (e_cond e). split; [apply la_conds_eff, in_la_effs; exists ia; auto|].
        exact (O o R Kp I).
    - unfold q_invs in Hc. apply filter_In in Hc. destruct Hc as [Hc _]. apply in_map_iff in Hc.
      destruct Hc as (c & <- & Hc). exists c. split; [apply in_la_conds; auto|]. apply Kp in I. exact (expand_ops _ _ R _ I).
    - unfold add_goals in Hc. apply filter_In in Hc. destruct Hc as [Hc _]. apply in_map_iff in Hc.
      destruct Hc as (c & <- & Hc). exists c. split; [apply in_la_conds; auto|]. exact (expand_ops _ _ R _ I).
  Qed.
End QR.

Lemma in_fl_feats f fd : In f (fl_feats fd) -> f = f_BOUNDED_TYPES \/ f = f_OBJECT_FLUENTS.
Proof.
  unfold fl_feats. destruct (fd_ty fd); simpl; [tauto| |intuition].
  intro H. apply in_clause_iff in H. left. tauto.
Qed.

Lemma within_fluent P k f fd : la_within P k -> In fd (p_fluents P) -> In f (fl_feats fd) -> mem f k = true.
Proof. intros W Hfd H. apply W. apply in_la_feats. left. exists fd. auto. Qed.

Lemma within_cond P k c o :
  la_within P k -> In c (la_conds P) -> rel o = true -> In o (ops_of c) -> mem (op_feature o) k = true.
Proof.
  intros W Hc R I. apply W. apply in_la_feats. right; left. exists c. split; [exact Hc|].
  apply in_cond_feats. exists o. auto.
Qed.

Lemma within_eff P k e f : la_within P k -> In e (la_effs P) -> In f (eff_own e) -> mem f k = true.
Proof. intros W He H. apply W. apply in_la_feats. do 2 right; left. eauto. Qed.
Lemma within_inv P k : la_within P k -> p_invs P <> [] -> mem f_STATE_INVARIANTS k = true.
Proof. intros W H. apply W. apply in_la_feats. do 3 right. auto. Qed.

Lemma eff_own_cases f e : In f (eff_own e) ->
  In f [f_CONDITIONAL_EFFECTS; f_FORALL_EFFECTS; f_INCREASE_EFFECTS; f_DECREASE_EFFECTS].
Proof.
  unfold eff_own. rewrite !in_app_iff, !in_clause_iff. destruct (e_kind e); simpl; intuition.
Qed.

Lemma cond_feats_cases f c : In f (cond_feats c) ->
  In f [f_NEGATIVE_CONDITIONS; f_DISJUNCTIVE_CONDITIONS; f_EQUALITIES; f_EXISTENTIAL_CONDITIONS; f_UNIVERSAL_CONDITIONS;
        f_INTERPRETED_FUNCTIONS_IN_CONDITIONS].
Proof.
  intro H. apply in_cond_feats in H. destruct H as (o & R & <- & _). apply rel_cases in R.
  destruct R as [->|[->|[->|[->|[->|[->| ->]]]]]]; simpl; tauto.
Qed.

(* the four sources of [la_feats] contribute disjoint sets of features: a feature tells where it comes from *)
Lemma la_feats_fl P f : f = f_BOUNDED_TYPES \/ f = f_OBJECT_FLUENTS -> In f (la_feats P) ->
  exists fd, In fd (p_fluents P) /\ In f (fl_feats fd).
Proof.
  intros C H. apply in_la_feats in H. destruct H as [H|[(c & _ & H)|[(e & _ & H)|(E & _)]]].
  - exact H.
  - apply cond_feats_cases in H. simpl in H. exfalso. intuition (subst; discriminate).
  - apply eff_own_cases in H. simpl in H. exfalso. intuition (subst; discriminate).
  - exfalso. intuition (subst; discriminate).
Qed.

Lemma la_feats_cond P f : In f [f_NEGATIVE_CONDITIONS; f_DISJUNCTIVE_CONDITIONS; f_EQUALITIES; f_EXISTENTIAL_CONDITIONS;
                                f_UNIVERSAL_CONDITIONS; f_INTERPRETED_FUNCTIONS_IN_CONDITIONS] ->
  In f (la_feats P) -> exists c, In c (la_conds P) /\ In f (cond_feats c).
Proof.
  intros C H. apply in_la_feats in H. destruct H as [(fd & _ & H)|[H|[(e & _ & H)|(E & _)]]].
  - apply in_fl_feats in H. simpl in C. exfalso. intuition (subst; discriminate).
  - exact H.
  - apply eff_own_cases in H. simpl in C, H. exfalso. intuition (subst; discriminate).
  - simpl in C. exfalso. intuition (subst; discriminate).
Qed.

Lemma la_feats_eff P f : In f [f_CONDITIONAL_EFFECTS; f_FORALL_EFFECTS; f_INCREASE_EFFECTS; f_DECREASE_EFFECTS] ->
  In f (la_feats P) -> exists e, In e (la_effs P) /\ In f (eff_own e).
Proof.
  intros C H. apply in_la_feats in H. destruct H as [(fd & _ & H)|[(c & _ & H)|[H|(E & _)]]].
  - apply in_fl_feats in H. simpl in C. exfalso. intuition (subst; discriminate).
  - apply cond_feats_cases in H. simpl in C, H. exfalso. intuition (subst; discriminate).
  - exact H.
  - simpl in C. exfalso. intuition (subst; discriminate).
Qed.

Lemma la_feats_inv P : In f_STATE_INVARIANTS (la_feats P) -> p_invs P <> [].
Proof.
  intro H. apply in_la_feats in H. destruct H as [(fd & _ & H)|[(c & _ & H)|[(e & _ & H)|(_ & NE)]]].
  - apply in_fl_feats in H. destruct H as [H|H]; discriminate H.
  - apply cond_feats_cases in H. simpl in H. intuition discriminate.
  - apply eff_own_cases in H. simpl in H. intuition discriminate.
  - exact NE.
Qed.

(* The compiled problem P' against the declared kind d of a compiler run on a kind k that contains the features of P:
   fluents, effects and invariants of P' contribute only what those of P do, so a feature of P' that the declared
   program keeps is in d; what remains to be shown for each compiler are the features of the conditions of P'. *)
Section Transfer.
  Variables (P P' : problem) (k d : fset).
  Hypothesis W : la_within P k.
  Hypothesis Hfl : forall fd' f, In fd' (p_fluents P') -> In f (fl_feats fd') ->
    exists fd, In fd (p_fluents P) /\ In f (fl_feats fd).
  Hypothesis Heff : forall e', In e' (la_effs P') -> exists e, In e (la_effs P) /\ incl (eff_own e') (eff_own e).
  Hypothesis Hinv : p_invs P' <> [] -> p_invs P <> [].

  Theorem la_transfer f : In f (la_feats P') -> (mem f k = true -> mem f d = true) ->
    (forall c', In c' (la_conds P') -> In f (cond_feats c') -> mem f d = true) -> mem f d = true.
  Proof.
    intros H Keep Hc. apply in_la_feats in H. destruct H as [(fd' & Hfd & H)|[(c' & Hc' & H)|[(e' & He' & H)|(-> & NE)]]].
    - destruct (Hfl fd' f Hfd H) as (fd & Hfd0 & H0). apply Keep. exact (within_fluent P k f fd W Hfd0 H0).
    - exact (Hc c' Hc' H).
    - destruct (Heff e' He') as (e & He & I). apply Keep. exact (within_eff P k e f W He (I f H)).
    - apply Keep. exact (within_inv P k W (Hinv NE)).
  Qed.
End Transfer.

Lemma rel_not_or o : rel o = true -> o = op_NOT \/ In o six_ops.
Proof. intro R. apply rel_cases in R. simpl. intuition. Qed.

Section QRk.
  Variable smp : expr -> expr.
  Variable P : problem.

  Theorem qr_removed :
    keeps_op smp op_EXISTS -> keeps_op smp op_FORALL ->
    forall f, In f [f_EXISTENTIAL_CONDITIONS; f_UNIVERSAL_CONDITIONS; f_FORALL_EFFECTS] ->
              ~ In f (la_feats (quant_compile smp P)).
  Proof.
    intros KE KF f Hf H. destruct Hf as [<-|[<-|[<-|[]]]].
    - apply la_feats_cond in H; [|simpl; tauto]. destruct H as (c' & Hc' & H).
      apply in_cond_feats in H. destruct H as (o & R & E & I).
      assert (O : o = op_EXISTS).
      { apply rel_cases in R. destruct R as [->|[->|[->|[->|[->|[->| ->]]]]]]; try discriminate E; reflexivity. }
      subst o. destruct (qr_conds smp P c' op_EXISTS Hc' R KE I) as (c & _ & A & _). apply A. reflexivity.
    - apply la_feats_cond in H; [|simpl; tauto]. destruct H as (c' & Hc' & H).
      apply in_cond_feats in H. destruct H as (o & R & E & I).
      assert (O : o = op_FORALL).
      { apply rel_cases in R. destruct R as [->|[->|[->|[->|[->|[->| ->]]]]]]; try discriminate E; reflexivity. }
      subst o. destruct (qr_conds smp P c' op_FORALL Hc' R KF I) as (c & _ & _ & B & _). apply B. reflexivity.
    - apply la_feats_eff in H; [|simpl; tauto]. destruct H as (e' & He' & H).
      apply qr_effs in He'. destruct He' as (e & _ & _ & V & _). unfold eff_own in H.
      rewrite V, !in_app_iff, !in_clause_iff in H. destruct (e_kind e'); simpl in H; intuition discriminate.
  Qed.

  Theorem qr_kind k d :
    smp_ok smp -> la_within P (k_feats k) ->
    run_resulting gen_tables (e_resulting E_up_quantifiers_remover) k = Ok d ->
    forall f, In f (la_feats (quant_compile smp P)) -> (f = f_NEGATIVE_CONDITIONS -> keeps_op smp op_NOT) ->
              mem f (k_feats d) = true.
  Proof.
    intros S W Run f H N. destruct (qr_program k d Run) as [Keep Disj].
    assert (NR : forall g, In g [f_EXISTENTIAL_CONDITIONS; f_UNIVERSAL_CONDITIONS; f_FORALL_EFFECTS] -> f <> g).
    { intros g Hg ->. refine (qr_removed _ _ g Hg H); apply S; simpl; tauto. }
    apply (la_transfer P (quant_compile smp P) (k_feats k) (k_feats d) W) with (f := f); [ | | | exact H | | ].
    - intros fd' g Hfd Hg. exists fd'. split; [exact Hfd|exact Hg].
    - intros e' He'. apply qr_effs in He'. destruct He' as (e & He & K & V & T). exists e. split; [exact He|].
      apply eff_own_incl; [exact K | rewrite V; discriminate | exact T].
    - cbn [quant_compile p_invs]. intros NE E. apply NE. rewrite E. reflexivity.
    - apply Keep; apply NR; simpl; tauto.
    - intros c' Hc' Hf. apply in_cond_feats in Hf. destruct Hf as (o & R & <- & I).
      assert (Kp : keeps_op smp o).
      { destruct (rel_not_or o R) as [->|Ho]; [apply N; reflexivity | apply S; exact Ho]. }
      destruct (qr_conds smp P c' o Hc' R Kp I) as (c & Hc & A & B & [C|[-> C]]).
      + apply Keep; try (apply NR; simpl; tauto). exact (within_cond P _ c o W Hc R C).
      + apply Disj. exact (within_cond P _ c op_EXISTS W Hc eq_refl C).
  Qed.
End QRk.

Lemma cer_program k d :
  run_resulting gen_tables (e_resulting E_up_conditional_effects_remover) k = Ok d ->
  (forall f, f <> f_CONDITIONAL_EFFECTS -> mem f (k_feats k) = true -> mem f (k_feats d) = true)
  /\ (mem f_CONDITIONAL_EFFECTS (k_feats k) = true -> mem f_NEGATIVE_CONDITIONS (k_feats d) = true).
Proof.
  intro H. split.
  - intros f A. apply (run_resulting_keeps _ _ _ _ f H). simpl. intuition.
  - revert H. unfold run_resulting. cbn [E_up_conditional_effects_remover e_resulting exec exec_i eval_cond has_any existsb].
    intros H M. rewrite M in H. cbn [orb] in H. prog_cases H; rewrite mem_setbit, N.eqb_refl; reflexivity.
Qed.

Lemma cond_effs_in effs e : In e (cond_effs effs) -> In e effs /\ is_true (e_cond e) = false.
Proof. unfold cond_effs. rewrite filter_In. unfold is_uncond. intros [A B]. split; [exact A|]. destruct (is_true _); [discriminate|reflexivity]. Qed.

Section CERk.
  Variable simp_pre : list expr -> option (list expr).
  Variable nm : N -> nat -> N.
  Variable P : problem.
  Let P' := cer_compile simp_pre nm P.

  Lemma cer_action ia' :
    In ia' (p_actions P') ->
    exists ia, In ia (p_actions P) /\
      ((is_cond_action (snd ia) = false /\ snd ia' = snd ia)
       \/ (is_cond_action (snd ia) = true /\ exists sel pre',
             simp_pre (a_pre (snd ia) ++ sel_pre (cond_effs (a_effs (snd ia))) sel) = Some pre' /\ a_pre (snd ia') = pre' /\
             a_effs (snd ia') = uncond_effs (a_effs (snd ia)) ++ sel_effs (cond_effs (a_effs (snd ia))) sel)).
  Proof.
    destruct ia' as [i' a']. unfold P'. cbn [cer_compile p_actions]. intro H. apply in_table_actions in H. destruct H as [i H].
    apply cer_table_In in H. destruct H as (a & Hia & [(C & _ & ->)|(C & sel & pre' & _ & S & ->)]); exists (i, a); (split; [exact Hia|]).
    - left. split; [exact C|reflexivity].
    - right. split; [exact C|]. exists sel, pre'. split; [exact S|]. split; reflexivity.
  Qed.

  (* every effect of the compiled problem is unconditional and has the kind / variables of an original effect *)
  Lemma cer_effs e' :
    In e' (la_effs P') ->
    is_true (e_cond e') = true /\ exists e, In e (la_effs P) /\ e_kind e' = e_kind e /\ e_vars e' = e_vars e.
  Proof.
    rewrite in_la_effs. intros (ia' & Hia' & He'). apply cer_action in Hia'.
    destruct Hia' as (ia & Hia & [[C E]|[C (sel & pre' & _ & _ & Effs)]]).
    - rewrite E in He'. split.
      + unfold is_cond_action in C. destruct (cond_effs (a_effs (snd ia))) eqn:CE; [|discriminate].
        exact (proj1 (forallb_forall _ _) (cond_effs_nil _ CE) e' He').
      + exists e'. split; [apply in_la_effs; exists ia; auto|auto].
    - rewrite Effs in He'.
      apply in_app_iff in He'. destruct He' as [He'|He'].
      + unfold uncond_effs in He'. apply filter_In in He'. destruct He' as [He' U]. split; [exact U|].
        exists e'. split; [apply in_la_effs; exists ia; auto|auto].
      + apply sel_effs_in in He'. destruct He' as (e & He & ->). split; [reflexivity|].
        apply cond_effs_in in He. exists e. split; [apply in_la_effs; exists ia; tauto|auto].
  Qed.

  Lemma cer_conds c' o :
    In c' (la_conds P') -> rel o = true -> In o (ops_of c') -> (o <> op_NOT -> simp_pre_keeps simp_pre o) ->
    (exists c, In c (la_conds P) /\ In o (ops_of c))
    \/ (o = op_NOT /\ exists e, In e (la_effs P) /\ is_true (e_cond e) = false).
  Proof.
    intros Hc R I Kp. apply in_la_conds in Hc. destruct Hc as [(ia' & Hia' & Hc)|[Hc|Hc]].
    - pose proof Hia' as Hact. apply cer_action in Hia'. destruct Hia' as (ia & Hia & [[C E]|[C (sel & pre' & S & Pre & _)]]).
      + left. rewrite E in Hc. exists c'. split; [|exact I]. apply in_la_conds. left. exists ia. auto.
      + destruct Hc as [Hc|(e' & He' & ->)].
        * rewrite Pre in Hc.
          assert (CE : exists e, In e (la_effs P) /\ is_true (e_cond e) = false).
          { unfold is_cond_action in C. destruct (cond_effs (a_effs (snd ia))) as [|e l] eqn:CE; [discriminate|].
            assert (He : In e (cond_effs (a_effs (snd ia)))) by (rewrite CE; left; reflexivity).
            apply cond_effs_in in He. exists e. split; [apply in_la_effs; exists ia; tauto|tauto]. }
          destruct (N.eq_dec o op_NOT) as [->|NN]; [right; auto|left].
          destruct (Kp NN _ _ _ S Hc I) as (c & Hc0 & I0). apply in_app_iff in Hc0. destruct Hc0 as [Hc0|Hc0].
          -- exists c. split; [apply (la_conds_pre _ ia); assumption|exact I0].
          -- apply sel_pre_in in Hc0. destruct Hc0 as (e & He & Hce). apply cond_effs_in in He.
             exists (e_cond e). split; [apply la_conds_eff, in_la_effs; exists ia; tauto|].
             destruct Hce as [->| ->]; [exact I0|]. apply ops_mkNot in I0. destruct I0 as [->|I0]; [exfalso; apply NN; reflexivity|exact I0].
        * exfalso. assert (He : In e' (la_effs P')) by (apply in_la_effs; exists ia'; auto).
          apply cer_effs in He. destruct He as [T _]. apply is_true_eq in T. rewrite T in I. simpl in I.
          destruct I as [<-|[]]. discriminate R.
    - left. exists c'. split; [apply in_la_conds; auto|exact I].
    - left. exists c'. split; [apply in_la_conds; auto|exact I].
  Qed.

  Theorem cer_removed : ~ In f_CONDITIONAL_EFFECTS (la_feats P').
  Proof.
    intro H. apply la_feats_eff in H; [|simpl; tauto]. destruct H as (e' & He' & H).
    apply cer_effs in He'. destruct He' as [T _]. unfold eff_own in H. rewrite T, !in_app_iff, !in_clause_iff in H.
    destruct (e_kind e'); simpl in H; intuition discriminate.
  Qed.

  Theorem cer_kind k d :
    (forall o, In o six_ops -> simp_pre_keeps simp_pre o) -> la_within P (k_feats k) ->
    run_resulting gen_tables (e_resulting E_up_conditional_effects_remover) k = Ok d ->
    forall f, In f (la_feats P') -> mem f (k_feats d) = true.
  Proof.
    intros S W Run f H. destruct (cer_program k d Run) as [Keep Neg].
    assert (NR : f <> f_CONDITIONAL_EFFECTS) by (intros ->; exact (cer_removed H)).
    apply (la_transfer P P' (k_feats k) (k_feats d) W) with (f := f); [ | | | exact H | | ].
    - intros fd' g Hfd Hg. exists fd'. split; assumption.
    - intros e' He'. apply cer_effs in He'. destruct He' as [T (e & He & K & V)]. exists e. split; [exact He|].
      apply eff_own_incl; [exact K | rewrite V; auto | rewrite T; discriminate].
    - intro NE. exact NE.
    - apply Keep. exact NR.
    - intros c' Hc' Hf. apply in_cond_feats in Hf. destruct Hf as (o & R & <- & I).
      assert (Kp : o <> op_NOT -> simp_pre_keeps simp_pre o).
      { intro NN. destruct (rel_not_or o R) as [->|Ho]; [congruence | apply S; exact Ho]. }
      destruct (cer_conds c' o Hc' R I Kp) as [(c & Hc & C)|[-> (e & He & T)]].
      + apply Keep; [exact NR|]. exact (within_cond P _ c o W Hc R C).
      + apply Neg. apply (within_eff P _ e _ W He). unfold eff_own. rewrite T. left. reflexivity.
  Qed.
End CERk.

Lemma sir_program k d :
  run_resulting gen_tables (e_resulting E_up_state_invariants_remover) k = Ok d ->
  forall f, f <> f_STATE_INVARIANTS -> mem f (k_feats k) = true -> mem f (k_feats d) = true.
Proof.
  intros H f A. apply (run_resulting_keeps _ _ _ _ f H). simpl. intuition.
Qed.
Lemma btr_program k d :
  run_resulting gen_tables (e_resulting E_up_bounded_types_remover) k = Ok d ->
  forall f, f <> f_BOUNDED_TYPES -> mem f (k_feats k) = true -> mem f (k_feats d) = true.
Proof.
  intros H f A. apply (run_resulting_keeps _ _ _ _ f H). simpl. intuition.
Qed.

Lemma conj_parts_ops c c' o : In c' (conj_parts c) -> In o (ops_of c') -> In o (ops_of c).
Proof.
  destruct c; simpl; try (intros [<-|[]] I; exact I).
  intros Hc I. rewrite ops_go. right. exact (ops_in_list _ _ _ Hc I).
Qed.

Lemma mkAnd_rel o l : rel o = true -> In o (ops_of (mkAnd l)) -> exists x, In x l /\ In o (ops_of x).
Proof.
  intros R I. apply (ops_mkn o NAnd l l R) in I. destruct I as [->|I]; [discriminate R|].
  apply in_flat_map in I. exact I.
Qed.

Section Invk.
  Variable smp : expr -> expr.
  Variable cond : expr.
  Variables P P' : problem.
  Hypothesis HA : p_actions P' = map_actions (inv_action smp cond) (p_actions P).
  Hypothesis HG : p_goals P' = inv_goals smp cond (p_goals P).
  Hypothesis HI : incl (p_invs P') (p_invs P).

  Lemma inv_effs e : In e (la_effs P') -> In e (la_effs P).
  Proof.
    rewrite !in_la_effs. intros (ia' & Hia' & He). rewrite HA in Hia'. apply in_map_actions_proj in Hia'.
    destruct Hia' as (ia & Hia & _ & Q). unfold inv_action in Q. destruct (is_false _); [discriminate|].
    inversion Q as [Q']. rewrite <- Q' in He. exists ia. auto.
  Qed.

  Lemma inv_conds c' o :
    In c' (la_conds P') -> rel o = true -> keeps_op smp o -> In o (ops_of c') ->
    (exists c, In c (la_conds P) /\ In o (ops_of c)) \/ In o (ops_of cond).
  Proof.
    intros Hc R Kp I. apply in_la_conds in Hc.
    assert (G : forall l, In o (ops_of (smp (mkAnd (l ++ [cond])))) -> (exists c, In c l /\ In o (ops_of c)) \/ In o (ops_of cond)).
    { intros l J. apply Kp in J. apply (mkAnd_rel _ _ R) in J. destruct J as (x & Hx & J).
      apply in_app_iff in Hx. destruct Hx as [Hx|[<-|[]]]; [left; eauto|right; exact J]. }
    destruct Hc as [(ia' & Hia' & Hc)|[Hc|Hc]].
    - rewrite HA in Hia'. apply in_map_actions_proj in Hia'. destruct Hia' as (ia & Hia & _ & Q).
      unfold inv_action in Q. destruct (is_false _); [discriminate|]. inversion Q as [Q']. rewrite <- Q' in Hc.
      cbn [a_pre a_effs] in Hc. destruct Hc as [Hc|(e & He & ->)].
      + apply add_pres_in in Hc. pose proof (conj_parts_ops _ _ _ Hc I) as J. apply G in J.
        destruct J as [(c & Hc0 & J)|J]; [left|right; exact J].
        exists c. split; [apply (la_conds_pre _ ia); assumption|exact J].
      + left. exists (e_cond e). split; [apply la_conds_eff, in_la_effs; exists ia; auto|exact I].
    - left. exists c'. split; [apply in_la_conds; right; left; apply HI; exact Hc|exact I].
    - rewrite HG in Hc. unfold inv_goals, add_goals in Hc. apply filter_In in Hc. destruct Hc as [Hc _].
      pose proof (conj_parts_ops _ _ _ Hc I) as J. apply G in J.
      destruct J as [(c & Hc0 & J)|J]; [left|right; exact J].
      exists c. split; [apply in_la_conds; auto|exact J].
  Qed.
End Invk.

Section SIRk.
  Variable smp : expr -> expr.
  Variable P : problem.
  Let P' := sir_compile smp P.

  Lemma sir_conds c' o :
    In c' (la_conds P') -> rel o = true -> keeps_op smp o -> In o (ops_of c') -> exists c, In c (la_conds P) /\ In o (ops_of c).
  Proof.
    intros Hc R Kp I.
    destruct (inv_conds smp (sir_cond smp P) P P' eq_refl eq_refl (fun x H => match H with end) c' o Hc R Kp I) as [H|J];
      [exact H|].
    unfold sir_cond in J. apply Kp in J. apply (mkAnd_rel _ _ R) in J. destruct J as (x & Hx & J).
    exists x. split; [apply in_la_conds; auto|exact J].
  Qed.

  Theorem sir_removed : ~ In f_STATE_INVARIANTS (la_feats P').
  Proof.
    intro H. apply la_feats_inv in H. apply H. reflexivity.
  Qed.

  Theorem sir_kind k d :
    smp_ok smp -> la_within P (k_feats k) ->
    run_resulting gen_tables (e_resulting E_up_state_invariants_remover) k = Ok d ->
    forall f, In f (la_feats P') -> (f = f_NEGATIVE_CONDITIONS -> keeps_op smp op_NOT) -> mem f (k_feats d) = true.
  Proof.
    intros S W Run f H N. pose proof (sir_program k d Run) as Keep.
    assert (NR : f <> f_STATE_INVARIANTS) by (intros ->; exact (sir_removed H)).
    apply (la_transfer P P' (k_feats k) (k_feats d) W) with (f := f); [ | | | exact H | | ].
    - intros fd' g Hfd Hg. exists fd'. split; assumption.
    - intros e' He'. exists e'. split; [|apply incl_refl]. apply (inv_effs smp (sir_cond smp P) P P'); [reflexivity|exact He'].
    - intro NE. exfalso. apply NE. reflexivity.
    - apply Keep. exact NR.
    - intros c' Hc' Hf. apply in_cond_feats in Hf. destruct Hf as (o & R & <- & I).
      assert (Kp : keeps_op smp o).
      { destruct (rel_not_or o R) as [->|Ho]; [apply N; reflexivity | apply S; exact Ho]. }
      destruct (sir_conds c' o Hc' R Kp I) as (c & Hc & C).
      apply Keep; [exact NR|]. exact (within_cond P _ c o W Hc R C).
  Qed.
End SIRk.

Lemma num_node_ops q o : In o (ops_of (num_node q)) -> rel o = false.
Proof. unfold num_node. destruct (_ =? _)%Z; simpl; intros [<-|[]]; reflexivity. Qed.
Lemma value_expr_ops v o : In o (ops_of (value_expr v)) -> rel o = false.
Proof. destruct v; simpl; [intros [<-|[]]; reflexivity | apply num_node_ops | intros [<-|[]]; reflexivity]. Qed.

Lemma bound_invs_ops P x o : In x (bound_invs P) -> In o (ops_of x) -> rel o = false.
Proof.
  unfold bound_invs. rewrite in_flat_map. intros (fd & _ & H).
  destruct (fd_ty fd) as [|lo hi|]; try destruct H.
  apply in_flat_map in H. destruct H as (a & _ & H). cbv zeta in H.
  assert (F : forall o, In o (ops_of (EFluent (fd_id fd) (map value_expr a))) -> rel o = false).
  { intros o0. simpl. rewrite ops_go. intros [<-|I]; [reflexivity|]. apply ops_map in I. destruct I as (v & _ & I).
    exact (value_expr_ops _ _ I). }
  apply in_app_iff in H. destruct H as [H|H].
  - destruct lo as [q|]; [|destruct H]. destruct H as [<-|[]]. intro I.
    change (In o (19%N :: ops_of (num_node q) ++ ops_of (EFluent (fd_id fd) (map value_expr a)))) in I.
    destruct I as [<-|I]; [reflexivity|].
    apply in_app_iff in I. destruct I as [I|I]; [exact (num_node_ops _ _ I)|exact (F _ I)].
  - destruct hi as [q|]; [|destruct H]. destruct H as [<-|[]]. intro I.
    change (In o (19%N :: ops_of (EFluent (fd_id fd) (map value_expr a)) ++ ops_of (num_node q))) in I.
    destruct I as [<-|I]; [reflexivity|].
    apply in_app_iff in I. destruct I as [I|I]; [exact (F _ I)|exact (num_node_ops _ _ I)].
Qed.

Lemma fl_feats_unbound fd f : In f (fl_feats (unbound fd)) -> f = f_OBJECT_FLUENTS /\ In f (fl_feats fd).
Proof.
  unfold fl_feats, unbound. cbn [fd_ty]. destruct (fd_ty fd); simpl; [tauto|tauto|]. intros [<-|[]]. auto.
Qed.

Section BTRk.
  Variable smp : expr -> expr.
  Variable P : problem.
  Let P' := btr_compile smp P.

  Lemma btr_conds c' o :
    In c' (la_conds P') -> rel o = true -> keeps_op smp o -> In o (ops_of c') -> exists c, In c (la_conds P) /\ In o (ops_of c).
  Proof.
    intros Hc R Kp I.
    destruct (inv_conds smp (btr_cond P) P P' eq_refl eq_refl (fun x H => H) c' o Hc R Kp I) as [H|J];
      [exact H|exfalso].
    unfold btr_cond in J. apply (mkAnd_rel _ _ R) in J. destruct J as (x & Hx & J).
    rewrite (bound_invs_ops _ _ _ Hx J) in R. discriminate R.
  Qed.

  Theorem btr_removed : ~ In f_BOUNDED_TYPES (la_feats P').
  Proof.
    intro H. apply la_feats_fl in H; [|left; reflexivity]. destruct H as (fd & Hfd & H).
    cbn [P' btr_compile p_fluents] in Hfd. apply in_map_iff in Hfd. destruct Hfd as (fd0 & <- & _).
    apply fl_feats_unbound in H. destruct H as [E _]. discriminate E.
  Qed.

  Theorem btr_kind k d :
    smp_ok smp -> la_within P (k_feats k) ->
    run_resulting gen_tables (e_resulting E_up_bounded_types_remover) k = Ok d ->
    forall f, In f (la_feats P') -> (f = f_NEGATIVE_CONDITIONS -> keeps_op smp op_NOT) -> mem f (k_feats d) = true.
  Proof.
    intros S W Run f H N. pose proof (btr_program k d Run) as Keep.
    assert (NR : f <> f_BOUNDED_TYPES) by (intros ->; exact (btr_removed H)).
    apply (la_transfer P P' (k_feats k) (k_feats d) W) with (f := f); [ | | | exact H | | ].
    - intros fd' g Hfd Hg. cbn [P' btr_compile p_fluents] in Hfd. apply in_map_iff in Hfd. destruct Hfd as (fd0 & <- & Hfd0).
      apply fl_feats_unbound in Hg. exists fd0. split; [exact Hfd0|apply Hg].
    - intros e' He'. exists e'. split; [|apply incl_refl]. apply (inv_effs smp (btr_cond P) P P'); [reflexivity|exact He'].
    - intro NE. exact NE.
    - apply Keep. exact NR.
    - intros c' Hc' Hf. apply in_cond_feats in Hf. destruct Hf as (o & R & <- & I).
      assert (Kp : keeps_op smp o).
      { destruct (rel_not_or o R) as [->|Ho]; [apply N; reflexivity | apply S; exact Ho]. }
      destruct (btr_conds c' o Hc' R Kp I) as (c & Hc & C).
      apply Keep; [exact NR|]. exact (within_cond P _ c o W Hc R C).
  Qed.
End BTRk.

Lemma dcr_program k d :
  run_resulting gen_tables (e_resulting E_up_disjunctive_conditions_remover) k = Ok d ->
  forall f, f <> f_DISJUNCTIVE_CONDITIONS -> mem f (k_feats k) = true -> mem f (k_feats d) = true.
Proof.
  intros H f A. apply (run_resulting_keeps _ _ _ _ f H). simpl. intuition.
Qed.

Section DCRk.
  Variable cdnf : expr -> list expr.
  Variable pre_dnf : action -> list (list expr).
  Variable nm : N -> nat -> N.
  Variable P : problem.
  Variable goals' : list expr.
  Let P' := dcr_compile cdnf pre_dnf nm P goals'.

  Lemma dcr_action ia' :
    In ia' (p_actions P') ->
    exists ia d, In ia (p_actions P) /\ In d (pre_dnf (snd ia)) /\ snd ia' = dnf_variant cdnf (snd ia) d.
  Proof.
    destruct ia' as [i' a']. unfold P'. cbn [dcr_compile p_actions]. intro H. apply in_table_actions in H. destruct H as [i H].
    apply dcr_table_In in H. destruct H as (a & d & Hia & Hd & E & _). exists (i, a), d. auto.
  Qed.

  (* an effect of the compiled problem: an original effect, possibly with one disjunct of its condition's DNF as
     condition; a conditional compiled effect comes from a conditional original effect *)
  Lemma dcr_effs e' :
    In e' (la_effs P') ->
    exists e, In e (la_effs P) /\ e_kind e' = e_kind e /\ e_vars e' = e_vars e /\
      (is_true (e_cond e') = false -> is_true (e_cond e) = false) /\
      (e_cond e' = e_cond e \/ In (e_cond e') (cdnf (e_cond e))).
  Proof.
    rewrite in_la_effs. intros (ia' & Hia' & He'). apply dcr_action in Hia'. destruct Hia' as (ia & d & Hia & _ & E).
    rewrite E in He'. cbn [dnf_variant a_effs] in He'. apply in_flat_map in He'. destruct He' as (e & He & H).
    exists e. split; [apply in_la_effs; exists ia; auto|].
    unfold split_effect in H. destruct (is_uncond e) eqn:U.
    - destruct H as [<-|[]]. repeat split; auto.
    - apply in_map_iff in H. destruct H as (c & <- & Hc). cbn [set_cond e_kind e_vars e_cond].
      unfold is_uncond in U. repeat split; auto.
  Qed.

  Lemma dcr_conds c' o :
    p_invs P = [] -> dnf_keeps cdnf pre_dnf goals' P o -> In c' (la_conds P') -> In o (ops_of c') ->
    exists c, In c (la_conds P) /\ In o (ops_of c).
  Proof.
    intros NI [Kc Kp Kg] Hc I. apply in_la_conds in Hc. destruct Hc as [(ia' & Hia' & Hc)|[Hc|Hc]].
    - pose proof Hia' as Hact. apply dcr_action in Hia'. destruct Hia' as (ia & d & Hia & Hd & E).
      destruct Hc as [Hc|(e' & He' & ->)].
      + rewrite E in Hc. cbn [dnf_variant a_pre] in Hc. destruct (Kp _ _ _ Hd Hc I) as (c & Hc0 & I0).
        exists c. split; [apply (la_conds_pre _ ia); assumption|exact I0].
      + assert (He : In e' (la_effs P')) by (apply in_la_effs; exists ia'; auto).
        apply dcr_effs in He. destruct He as (e & He & _ & _ & _ & [Ec|Ec]).
        * exists (e_cond e). split; [exact (la_conds_eff P e He)|]. rewrite <- Ec. exact I.
        * exists (e_cond e). split; [exact (la_conds_eff P e He)|]. exact (Kc _ _ Ec I).
    - unfold P' in Hc. cbn [dcr_compile p_invs] in Hc. rewrite NI in Hc. destruct Hc.
    - unfold P' in Hc. cbn [dcr_compile p_goals] in Hc. destruct (Kg _ Hc I) as (g & Hg & I0).
      exists g. split; [apply in_la_conds; auto|exact I0].
  Qed.

  Theorem dcr_kind k d :
    p_invs P = [] -> (forall o, In o dcr_ops -> dnf_keeps cdnf pre_dnf goals' P o) -> la_within P (k_feats k) ->
    run_resulting gen_tables (e_resulting E_up_disjunctive_conditions_remover) k = Ok d ->
    forall f, In f (la_feats P') -> f <> f_NEGATIVE_CONDITIONS -> f <> f_DISJUNCTIVE_CONDITIONS -> mem f (k_feats d) = true.
  Proof.
    intros NI S W Run f H NN ND. pose proof (dcr_program k d Run) as Keep.
    apply (la_transfer P P' (k_feats k) (k_feats d) W) with (f := f); [ | | | exact H | | ].
    - intros fd' g Hfd Hg. exists fd'. split; assumption.
    - intros e' He'. apply dcr_effs in He'. destruct He' as (e & He & K & V & T & _). exists e. split; [exact He|].
      apply eff_own_incl; [exact K | rewrite V; auto | exact T].
    - intro NE. exfalso. apply NE. unfold P'. cbn [dcr_compile p_invs]. exact NI.
    - apply Keep. exact ND.
    - intros c' Hc' Hf. apply in_cond_feats in Hf. destruct Hf as (o & R & <- & I).
      assert (Ho : In o dcr_ops).
      { apply rel_cases in R. unfold dcr_ops. simpl.
        destruct R as [->|[->|[->|[->|[->|[->| ->]]]]]]; auto; exfalso; (apply ND; reflexivity) || (apply NN; reflexivity). }
      destruct (dcr_conds c' o NI (S o Ho) Hc' I) as (c & Hc & C).
      apply Keep; [exact ND|]. exact (within_cond P _ c o W Hc R C).
  Qed.

  (* DISJUNCTIVE_CONDITIONS is absent when the literals of the DNFs contain no Or / Implies; effect conditions of
     unconditional effects are the constant TRUE *)
  Theorem dcr_removed :
    p_invs P = [] -> dnf_nodisj cdnf pre_dnf goals' P op_OR -> dnf_nodisj cdnf pre_dnf goals' P op_IMPLIES ->
    ~ In f_DISJUNCTIVE_CONDITIONS (la_feats P').
  Proof.
    intros NI [Oc Op Og] [Ic Ip Ig] H. apply la_feats_cond in H; [|simpl; tauto]. destruct H as (c' & Hc' & H).
    apply in_cond_feats in H. destruct H as (o & R & E & I).
    assert (Ho : (forall c d, In d (cdnf c) -> ~ In o (ops_of d)) /\
                 (forall a d l, In (fst a, snd a) (p_actions P) -> In d (pre_dnf (snd a)) -> In l d -> ~ In o (ops_of l)) /\
                 (forall g', In g' goals' -> ~ In o (ops_of g'))).
    { apply rel_cases in R. destruct R as [->|[->|[->|[->|[->|[->| ->]]]]]]; try discriminate E; auto. }
    destruct Ho as (Hc & Hp & Hg).
    apply in_la_conds in Hc'. destruct Hc' as [(ia' & Hia' & Hc')|[Hc'|Hc']].
    - pose proof Hia' as Hact. apply dcr_action in Hia'. destruct Hia' as (ia & d & Hia & Hd & Ev).
      destruct Hc' as [Hc'|(e' & He' & ->)].
      + rewrite Ev in Hc'. cbn [dnf_variant a_pre] in Hc'. apply (Hp ia d c'); auto. destruct ia; exact Hia.
      + rewrite Ev in He'. cbn [dnf_variant a_effs] in He'. apply in_flat_map in He'. destruct He' as (e & He & Hs).
        unfold split_effect in Hs. destruct (is_uncond e) eqn:U.
        * destruct Hs as [<-|[]]. unfold is_uncond in U. apply is_true_eq in U. rewrite U in I. simpl in I.
          destruct I as [<-|[]]. discriminate R.
        * apply in_map_iff in Hs. destruct Hs as (c & <- & Hc0). cbn [set_cond e_cond] in I. exact (Hc _ _ Hc0 I).
    - unfold P' in Hc'. cbn [dcr_compile p_invs] in Hc'. rewrite NI in Hc'. destruct Hc'.
    - unfold P' in Hc'. cbn [dcr_compile p_goals] in Hc'. exact (Hg _ Hc' I).
  Qed.
End DCRk.

Lemma ncr_program k d :
  run_resulting gen_tables (e_resulting E_up_negative_conditions_remover) k = Ok d ->
  (forall f, f <> f_NEGATIVE_CONDITIONS -> mem f (k_feats k) = true -> mem f (k_feats d) = true)
  /\ (mem f_NEGATIVE_CONDITIONS (k_feats k) = true -> mem f_EQUALITIES (k_feats k) = true ->
      mem f_DISJUNCTIVE_CONDITIONS (k_feats d) = true).
Proof.
  intro H. split.
  - intros f A. apply (run_resulting_keeps _ _ _ _ f H). simpl. intuition.
  - revert H. unfold run_resulting. cbn [E_up_negative_conditions_remover e_resulting exec exec_i eval_cond has_any existsb].
    intros H M E. rewrite M in H. cbn [orb] in H. rewrite mem_clearbit, E in H. cbn [andb negb orb] in H.
    change (f_NEGATIVE_CONDITIONS =? f_EQUALITIES)%N with false in H. cbn [negb orb andb] in H.
    prog_cases H; rewrite mem_setbit, N.eqb_refl; reflexivity.
Qed.

Section NCRk.
  Variable nmap : list (N * N).
  Variable rw smp : expr -> expr.
  Variable P : problem.
  Let P' := neg_compile nmap rw smp P.

  Hypothesis Hrw : forall c, In c (la_conds P) -> rw_feats_ok rw c.
  Hypothesis Hinv : forall i, In i (p_invs P) -> rw_feats_ok (fun e => smp (rw e)) i.

  Lemma ncr_effs e' :
    In e' (la_effs P') ->
    exists e, In e (la_effs P) /\ e_kind e' = e_kind e /\ e_vars e' = e_vars e /\
      ((e_cond e' = e_cond e /\ is_true (e_cond e) = true)
       \/ (e_cond e' = rw (e_cond e) /\ is_true (e_cond e) = false)).
  Proof.
    rewrite in_la_effs. intros (ia' & Hia' & He'). unfold P' in Hia'. cbn [neg_compile p_actions] in Hia'.
    apply in_map_iff in Hia'. destruct Hia' as (ia & <- & Hia). cbn [snd n_action a_effs] in He'.
    assert (NE : forall e, In e (a_effs (snd ia)) ->
              e_kind (n_effect rw e) = e_kind e /\ e_vars (n_effect rw e) = e_vars e /\
              ((e_cond (n_effect rw e) = e_cond e /\ is_true (e_cond e) = true)
               \/ (e_cond (n_effect rw e) = rw (e_cond e) /\ is_true (e_cond e) = false))).
    { intros e _. unfold n_effect, is_uncond. destruct (is_true (e_cond e)) eqn:T; cbn [set_cond e_kind e_vars e_cond]; auto. }
    unfold n_effects in He'. apply in_app_iff in He'. destruct He' as [He'|He'].
    - apply in_map_iff in He'. destruct He' as (e & <- & He). exists e.
      split; [apply in_la_effs; exists ia; auto|]. exact (NE e He).
    - apply in_flat_map in He'. destruct He' as (e1 & He1 & Hm). apply in_map_iff in He1. destruct He1 as (e & <- & He).
      exists e. split; [apply in_la_effs; exists ia; auto|].
      unfold mirror in Hm. destruct (ng nmap (e_fl (n_effect rw e))); [|destruct Hm]. destruct Hm as [<-|[]].
      cbn [e_kind e_vars e_cond]. exact (NE e He).
  Qed.

  Definition licensed (f : feature) : Prop :=
    f <> f_NEGATIVE_CONDITIONS /\
    exists c, In c (la_conds P) /\
      (In f (cond_feats c) \/
       (f = f_DISJUNCTIVE_CONDITIONS /\ In f_EQUALITIES (cond_feats c) /\ In f_NEGATIVE_CONDITIONS (cond_feats c))).

  (* every condition feature of the compiled problem is not NEGATIVE_CONDITIONS and is licensed by an original condition *)
  Lemma ncr_conds c' f : In c' (la_conds P') -> In f (cond_feats c') -> licensed f.
  Proof.
    intros Hc Hf. apply in_la_conds in Hc.
    assert (Lic : forall c, In c (la_conds P) -> In f (cond_feats (rw c)) -> licensed f).
    { intros c L H. destruct (Hrw c L f H) as [A B]. split; [exact A|]. exists c. auto. }
    destruct Hc as [(ia' & Hia' & Hc)|[Hc|Hc]].
    - pose proof Hia' as Hact. unfold P' in Hia'. cbn [neg_compile p_actions] in Hia'.
      apply in_map_iff in Hia'. destruct Hia' as (ia & E & Hia). rewrite <- E in Hc. cbn [snd n_action a_pre] in Hc.
      destruct Hc as [Hc|(e' & He' & ->)].
      + apply add_pres_in in Hc. apply in_map_iff in Hc. destruct Hc as (c & <- & Hc).
        apply (Lic c); [apply (la_conds_pre _ ia); assumption|exact Hf].
      + assert (He : In e' (la_effs P')) by (apply in_la_effs; exists ia'; split; [exact Hact|rewrite <- E; exact He']).
        apply ncr_effs in He. destruct He as (e & He & _ & _ & [[Ec T]|[Ec T]]).
        * exfalso. apply is_true_eq in T. rewrite Ec, T in Hf. destruct Hf.
        * rewrite Ec in Hf. exact (Lic (e_cond e) (la_conds_eff P e He) Hf).
    - unfold P' in Hc. cbn [neg_compile p_invs] in Hc. apply filter_In in Hc. destruct Hc as [Hc _].
      apply in_map_iff in Hc. destruct Hc as (i & <- & Hi). destruct (Hinv i Hi f Hf) as [A B].
      split; [exact A|]. exists i. split; [apply in_la_conds; auto|exact B].
    - unfold P' in Hc. cbn [neg_compile p_goals] in Hc. unfold add_goals in Hc. apply filter_In in Hc. destruct Hc as [Hc _].
      apply in_map_iff in Hc. destruct Hc as (g & <- & Hg). apply (Lic g); [apply in_la_conds; auto|exact Hf].
  Qed.

  Lemma ncr_fluents fd' : In fd' (p_fluents P') -> exists fd, In fd (p_fluents P) /\ fl_feats fd' = fl_feats fd.
  Proof.
    unfold P'. cbn [neg_compile p_fluents]. unfold n_fluents. rewrite in_flat_map. intros (fd & Hfd & H).
    exists fd. split; [exact Hfd|]. destruct H as [<-|H]; [reflexivity|].
    destruct (ng nmap (fd_id fd)); [|destruct H]. destruct H as [<-|[]]. reflexivity.
  Qed.

  Theorem ncr_removed : ~ In f_NEGATIVE_CONDITIONS (la_feats P').
  Proof.
    intro H. apply la_feats_cond in H; [|simpl; tauto]. destruct H as (c' & Hc' & H).
    destruct (ncr_conds c' _ Hc' H) as [A _]. apply A. reflexivity.
  Qed.

  Theorem ncr_kind k d :
    la_within P (k_feats k) ->
    run_resulting gen_tables (e_resulting E_up_negative_conditions_remover) k = Ok d ->
    forall f, In f (la_feats P') -> mem f (k_feats d) = true.
  Proof.
    intros W Run f H. destruct (ncr_program k d Run) as [Keep Disj].
    assert (WC : forall c g, In c (la_conds P) -> In g (cond_feats c) -> mem g (k_feats k) = true).
    { intros c g Hc Hg. apply W. apply in_la_feats. right; left. exists c. auto. }
    assert (NR : f <> f_NEGATIVE_CONDITIONS) by (intros ->; exact (ncr_removed H)).
    apply (la_transfer P P' (k_feats k) (k_feats d) W) with (f := f); [ | | | exact H | | ].
    - intros fd' g Hfd Hg. apply ncr_fluents in Hfd. destruct Hfd as (fd & Hfd & E). rewrite E in Hg. eauto.
    - intros e' He'. apply ncr_effs in He'. destruct He' as (e & He & K & V & C). exists e. split; [exact He|].
      apply eff_own_incl; [exact K | rewrite V; auto |]. destruct C as [[Ec T]|[_ T]]; [rewrite Ec; congruence | intros _; exact T].
    - unfold P'. cbn [neg_compile p_invs]. intros NE E. apply NE. rewrite E. reflexivity.
    - apply Keep. exact NR.
    - intros c' Hc' Hf. destruct (ncr_conds c' f Hc' Hf) as (A & c & Hc & [B|(-> & Be & Bn)]).
      + apply Keep; [exact A|]. exact (WC c f Hc B).
      + apply Disj; [exact (WC c _ Hc Bn)|exact (WC c _ Hc Be)].
  Qed.
End NCRk.

Lemma within_of_kind ax P k : (forall f, In f (la_kind ax P) -> mem f k = true) -> la_within P k.
Proof. intros H f Hf. apply H. rewrite <- (bridge ax P) in Hf. apply filter_In in Hf. tauto. Qed.

Lemma covered_feats ax P f : In f la_covered -> In f (la_kind ax P) -> In f (la_feats P).
Proof. intros C H. apply (bridge_in ax P f C). exact H. Qed.

Lemma removed_covered l : (forall f, In f l -> In f la_covered) ->
  forall ax P, (forall f, In f l -> ~ In f (la_feats P)) -> forall f, In f l -> ~ In f (la_kind ax P).
Proof. intros Hl ax P H f Hf I. apply (H f Hf). apply (covered_feats ax); auto. Qed.

Lemma id_smp_ok : smp_ok (fun e => e).
Proof. intros o _ e H. exact H. Qed.
Lemma id_keeps o : keeps_op (fun e => e) o.
Proof. intros e H. exact H. Qed.
Lemma some_simp_pre_keeps o : simp_pre_keeps (fun l => Some l) o.
Proof. intros l l' c' E Hc I. inversion E; subst. exists c'. auto. Qed.

(* the one rule of Simplifier.walk_implies that builds a Not: Implies(a, false) |-> Not(a) *)
Definition smp_implies_false (e : expr) : expr :=
  match e with EImplies a (EBool false) => mkNot a | _ => e end.

Lemma smp_implies_false_ok : smp_ok smp_implies_false.
Proof.
  intros o Ho e. unfold smp_implies_false.
  destruct e; try (intro H; exact H). destruct e2; try (intro H; exact H). destruct b; try (intro H; exact H).
  intro I. apply ops_mkNot in I. destruct I as [->|I].
  - exfalso. unfold six_ops in Ho. simpl in Ho. intuition discriminate.
  - simpl. right. apply in_or_app. left. exact I.
Qed.

(* parameter substitution introduces no relevant operator (a parameter becomes a constant) *)
Lemma psubst_ops o sg : rel o = true -> forall e, In o (ops_of (psubst sg e)) -> In o (ops_of e).
Proof.
  intro R. induction e as [e L|u a IHa|b a1 a2 IH1 IH2|n l IHl|ex vs a IHa] using expr_view_ind.
  - destruct e; try discriminate L; try (intro I; exact I). cbn [psubst].
    destruct (lookupN p sg); [|intro I; exact I]. intro I. apply value_expr_ops in I. congruence.
  - rewrite psubst_E1, !ops_E1. intros [<-|I]; [left; destruct u; reflexivity | right; exact (IHa I)].
  - rewrite psubst_E2, !ops_E2. intros [<-|I]; [left; destruct b; reflexivity | right].
    apply in_app_iff in I. apply in_app_iff. destruct I as [I|I]; [left; exact (IH1 I) | right; exact (IH2 I)].
  - rewrite psubst_En, !ops_En. intros [<-|I]; [left; destruct n; reflexivity | right].
    apply ops_map in I. destruct I as (x & Hx & I). rewrite Forall_forall in IHl. exact (ops_in_list _ x _ Hx (IHl x Hx I)).
  - rewrite psubst_EQ, !ops_EQ. intros [<-|I]; [left; destruct ex; reflexivity | right; exact (IHa I)].
Qed.

Lemma keep_vars_nil fv : forall seen, keep_vars fv seen [] = [].
Proof. reflexivity. Qed.

Lemma grd_program k d : run_resulting gen_tables (e_resulting E_up_grounder) k = Ok d -> k_feats d = k_feats k.
Proof. unfold run_resulting. cbn [E_up_grounder e_resulting exec]. intro H. inversion H. reflexivity. Qed.

Section GRDk.
  Variable smp : expr -> expr.
  Variable tuples : N -> list (list value).
  Variable nm : N -> nat -> N.
  Variable P : problem.
  Let P' := ground_compile smp tuples nm P.
  (* the Simplifier leaves the constant TRUE alone (the condition of an unconditional effect is simplified too) *)
  Hypothesis smp_true : smp (EBool true) = EBool true.

  Lemma grd_action ia' :
    In ia' (p_actions P') -> exists ia args, In ia (p_actions P) /\ g_action smp (snd ia) args = Some (snd ia').
  Proof.
    destruct ia' as [i' g]. unfold P'. cbn [ground_compile p_actions]. intro H. apply in_table_actions in H.
    destruct H as [[i args] H]. apply ground_table_In in H. destruct H as (a & Hia & _ & G). exists (i, a), args. auto.
  Qed.

  Lemma grd_effect sg effs e' :
    In e' (g_effects smp sg effs) ->
    exists e, In e effs /\ e_kind e' = e_kind e /\ (e_vars e' <> [] -> e_vars e <> []) /\
              e_cond e' = smp (psubst sg (e_cond e)).
  Proof.
    unfold g_effects. rewrite in_flat_map. intros (e & He & H). exists e. split; [exact He|].
    unfold g_effect in H. destruct (is_false _); [destruct H|]. destruct H as [<-|[]]. cbn [e_kind e_vars e_cond].
    split; [reflexivity|split; [|reflexivity]]. intros NE E. apply NE. rewrite E. reflexivity.
  Qed.

  Lemma grd_effs e' :
    In e' (la_effs P') ->
    exists e sg, In e (la_effs P) /\ e_kind e' = e_kind e /\ (e_vars e' <> [] -> e_vars e <> []) /\
                 e_cond e' = smp (psubst sg (e_cond e)).
  Proof.
    rewrite in_la_effs. intros (ia' & Hia' & He'). apply grd_action in Hia'. destruct Hia' as (ia & args & Hia & G).
    unfold g_action in G. destruct (add_effs_ok _ _ _); [|discriminate]. destruct (g_pre _ _ _); [|discriminate].
    inversion G as [G']. rewrite <- G' in He'. cbn [a_effs] in He'. apply grd_effect in He'.
    destruct He' as (e & He & A & B & C). exists e, (zip_params (a_params (snd ia)) args).
    split; [apply in_la_effs; exists ia; auto|auto].
  Qed.

  Lemma grd_conds c' o :
    In c' (la_conds P') -> rel o = true -> keeps_op smp o -> In o (ops_of c') -> exists c, In c (la_conds P) /\ In o (ops_of c).
  Proof.
    intros Hc R Kp I. apply in_la_conds in Hc. destruct Hc as [(ia' & Hia' & Hc)|[Hc|Hc]].
    - pose proof Hia' as Hact. apply grd_action in Hia'. destruct Hia' as (ia & args & Hia & G).
      destruct Hc as [Hc|(e' & He' & ->)].
      + unfold g_action in G. destruct (add_effs_ok _ _ _); [|discriminate].
        destruct (g_pre smp _ (a_pre (snd ia))) as [pre|] eqn:GP; [|discriminate]. inversion G as [G'].
        rewrite <- G' in Hc. cbn [a_pre] in Hc. unfold g_pre in GP.
        destruct (a_pre (snd ia)) as [|p0 ps] eqn:AP; [inversion GP; subst; destruct Hc|].
        set (sg := zip_params (a_params (snd ia)) args) in *.
        assert (J : In o (ops_of (smp (mkAnd (map (psubst sg) (p0 :: ps)))))).
        { destruct (smp (mkAnd (map (psubst sg) (p0 :: ps)))) eqn:S; try (inversion GP; subst; destruct Hc as [<-|[]]; exact I).
          - destruct b; [inversion GP; subst; destruct Hc | discriminate].
          - inversion GP; subst. simpl. rewrite ops_go. right. exact (ops_in_list _ _ _ Hc I). }
        apply Kp in J. apply (mkAnd_rel _ _ R) in J. destruct J as (x & Hx & J). apply in_map_iff in Hx.
        destruct Hx as (c & <- & Hc0). apply (psubst_ops _ _ R) in J.
        exists c. split; [apply (la_conds_pre _ ia); [exact Hia|rewrite AP; exact Hc0]|exact J].
      + assert (He : In e' (la_effs P')) by (apply in_la_effs; exists ia'; auto).
        apply grd_effs in He. destruct He as (e & sg & He & _ & _ & C). rewrite C in I. apply Kp in I.
        apply (psubst_ops _ _ R) in I. exists (e_cond e). split; [exact (la_conds_eff P e He)|exact I].
    - exists c'. split; [apply in_la_conds; auto|exact I].
    - exists c'. split; [apply in_la_conds; auto|exact I].
  Qed.

  Theorem grd_kind k d :
    smp_ok smp -> la_within P (k_feats k) ->
    run_resulting gen_tables (e_resulting E_up_grounder) k = Ok d ->
    forall f, In f (la_feats P') -> (f = f_NEGATIVE_CONDITIONS -> keeps_op smp op_NOT) -> mem f (k_feats d) = true.
  Proof.
    intros S W Run f H N. rewrite (grd_program k d Run).
    apply (la_transfer P P' (k_feats k) (k_feats k) W) with (f := f); [ | | | exact H | | ].
    - intros fd' g Hfd Hg. exists fd'. split; assumption.
    - intros e' He'. apply grd_effs in He'. destruct He' as (e & sg & He & K & B & C). exists e. split; [exact He|].
      apply eff_own_incl; [exact K | |].
      + intro X. destruct (e_vars e) eqn:E; [|reflexivity]. exfalso.
        apply B; [intro Z; rewrite Z in X; discriminate X | reflexivity].
      + intro U. destruct (is_true (e_cond e)) eqn:T; [|reflexivity]. apply is_true_eq in T. rewrite T in C. cbn [psubst] in C.
        rewrite smp_true in C. rewrite C in U. discriminate U.
    - intro NE. exact NE.
    - intro M. exact M.
    - intros c' Hc' Hf. apply in_cond_feats in Hf. destruct Hf as (o & R & <- & I).
      assert (Kp : keeps_op smp o).
      { destruct (rel_not_or o R) as [->|Ho]; [apply N; reflexivity | apply S; exact Ho]. }
      destruct (grd_conds c' o Hc' R Kp I) as (c & Hc & C). exact (within_cond P _ c o W Hc R C).
  Qed.
End GRDk.


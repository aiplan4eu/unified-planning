(* Proofs about Model/Factory.v (C32; the pipeline lemmas are reused by C09). *)
From Coq Require Import List NArith Bool String Lia.
Import ListNotations.
Require Import UPV.Model.Kind UPV.Model.Factory UPV.Proofs.ListFacts.

Section Sel.
  Variable T : tables.

  (* the engine supports the problem kind and every requested requirement, in the requested operation mode *)
  Definition honours (e : engine) (r : request) : Prop :=
    is_mode e (r_mode r) = true
    /\ supports T e (r_kind r) = Ok true
    /\ (forall c, r_compilation r = Some c -> inN c (e_compilations e) = true)
    /\ (forall p, r_plan r = Some p -> inN p (e_plans e) = true)
    /\ (forall g, r_optimality r = Some g -> inN g (e_optimality e) = true)
    /\ (forall g, r_anytime r = Some g -> inN g (e_anytime e) = true).

  Lemma honoured_iff req l : honoured req l = true <-> forall x, req = Some x -> inN x l = true.
  Proof.
    destruct req as [y|]; cbn [honoured]; split.
    - intros H x E. inversion E; subst. exact H.
    - intros H. exact (H y eq_refl).
    - intros _ x E. discriminate E.
    - reflexivity.
  Qed.

  Lemma is_none_true {A} (o : option A) : is_none o = true -> o = None.
  Proof. destruct o; [discriminate|reflexivity]. Qed.

  Ltac nones :=
    repeat match goal with
           | H : _ && _ = true |- _ => apply andb_true_iff in H; destruct H
           | H : is_none ?o = true |- _ => apply is_none_true in H; rewrite H
           end.

  (* an answer [Ok b] says whether the engine honours the request: once the mode fits and the requirements foreign to
     the mode are absent (the asserts), what is left of [honours] are the tests the procedure makes *)
  Lemma satisfies_spec e r b : satisfies_conditions T e r = Ok b -> (honours e r <-> b = true).
  Proof.
    unfold honours. rewrite <- !honoured_iff. unfold satisfies_conditions.
    destruct (is_mode e (r_mode r)); cbn [negb].
    2:{ intros E. inversion E. split; [intros [M _]; discriminate M | discriminate]. }
    destruct (r_mode r).
    (* the assert of the mode: the requirements foreign to it are None, hence honoured *)
    all: match goal with |- (if negb ?c then _ else _) = _ -> _ => destruct c eqn:A; cbn [negb]; [|discriminate] end.
    all: nones; cbn [honoured].
    (* the tests of the mode, one after the other: the first that fails answers Ok false, else [supports] answers *)
    all: repeat match goal with |- (if negb ?h then _ else _) = _ -> _ => destruct h; cbn [negb] end.
    all: intros E; split; [intros (_ & S & Hc & Hp & Ho & Ha); congruence | intros ->; try discriminate E].
    all: repeat split; try reflexivity; exact E.
  Qed.

  Lemma satisfies_true_honours e r : satisfies_conditions T e r = Ok true -> honours e r.
  Proof. intros S. exact (proj2 (satisfies_spec e r true S) eq_refl). Qed.

  Lemma satisfies_false_not_honours e r : satisfies_conditions T e r = Ok false -> ~ honours e r.
  Proof. intros S H. apply (satisfies_spec e r false S) in H. discriminate H. Qed.

  Lemma upgrade_loop_none_indep n : forall s s' v, upgrade_loop T n s v = None -> upgrade_loop T n s' v = None.
  Proof.
    induction n as [|n IH]; intros s s' v; simpl; [discriminate|].
    unfold upgrade_step. destruct (lookup_upgrade v (t_upgrades T)) as [u|]; [|reflexivity]. apply IH.
  Qed.

  Lemma equalize_none_indep f1 f2 g1 g2 v1 v2 : equalize T f1 f2 v1 v2 = None -> equalize T g1 g2 v1 v2 = None.
  Proof.
    unfold equalize, upgrade_to.
    destruct (upgrade_loop T (N.to_nat (v2 - v1)) f1 v1) eqn:A.
    - destruct (upgrade_loop T (N.to_nat (v1 - v2)) f2 v2) eqn:B; [discriminate|].
      intros _. rewrite (upgrade_loop_none_indep _ _ g2 _ B). now destruct (upgrade_loop T (N.to_nat (v2 - v1)) g1 v1).
    - intros _. now rewrite (upgrade_loop_none_indep _ _ g1 _ A).
  Qed.

  Lemma pos_elements_nonempty p i : pos_elements p i <> [].
  Proof. revert i. induction p; intros i; simpl; auto; discriminate. Qed.

  Lemma existsb_const {A} (b : bool) (l : list A) : existsb (fun _ => b) l = negb (match l with [] => true | _ => false end) && b.
  Proof. induction l as [|x l IH]; simpl; [reflexivity|]. rewrite IH. destruct b, l; reflexivity. Qed.

  Lemma report_raises_equiv e r : report_raises_spec T e r = report_raises T e r.
  Proof.
    unfold report_raises_spec, report_raises. rewrite <- andb_assoc. f_equal.
    set (P := match equalize T 0%N 0%N (version T (r_kind r)) (version T (e_supported e)) with None => true | Some _ => false end).
    assert (E : forall f, match supports T e {| k_feats := mask_of [f]; k_ver := Some (version T (r_kind r)) |} with
                          | Ok _ => false | _ => true end = P).
    { intros f. unfold supports, le, P. cbn [version k_ver k_feats].
      destruct (equalize T (mask_of [f]) (k_feats (e_supported e)) (version T (r_kind r)) (version T (e_supported e))) as [[[a b] v]|] eqn:Q.
      - destruct (equalize T 0%N 0%N (version T (r_kind r)) (version T (e_supported e))) eqn:Q'; [reflexivity|].
        rewrite (equalize_none_indep _ _ (mask_of [f]) (k_feats (e_supported e)) _ _ Q') in Q. discriminate.
      - now rewrite (equalize_none_indep _ _ 0%N 0%N _ _ Q). }
    rewrite (existsb_ext _ (fun _ => P)) by (intros; apply E). rewrite existsb_const. f_equal.
    destruct (k_feats (r_kind r)) as [|p]; simpl; [reflexivity|].
    destruct (pos_elements p 0) eqn:Z; [exfalso; eapply pos_elements_nonempty; eauto|reflexivity].
  Qed.

  Lemma first_found reg prefs r n e : first_satisfying T reg prefs r = Found n e ->
    exists pre post, prefs = pre ++ n :: post
      /\ lookup n reg = Some e /\ honours e r
      /\ forall m, In m pre -> exists e', lookup m reg = Some e' /\ ~ honours e' r.
  Proof.
    induction prefs as [|m prefs IH]; simpl; [discriminate|].
    destruct (lookup m reg) as [e'|] eqn:L; [|discriminate].
    destruct (satisfies_conditions T e' r) as [[|]| |] eqn:S; try discriminate;
      [|destruct (report_raises T e' r); [discriminate|]].
    - intros H; inversion H; subst. exists [], prefs. split; [reflexivity|]. split; [exact L|].
      split; [now apply satisfies_true_honours|]. intros ? [].
    - intros H. destruct (IH H) as [pre [post [-> [L' [Hh Hpre]]]]].
      exists (m :: pre), post. split; [reflexivity|]. split; [exact L'|]. split; [exact Hh|].
      intros m' [<-|Hm]; [|auto]. exists e'. split; [exact L|]. now apply satisfies_false_not_honours.
  Qed.

  Lemma first_none reg prefs r : first_satisfying T reg prefs r = NoSuitable ->
    forall m, In m prefs -> exists e', lookup m reg = Some e' /\ satisfies_conditions T e' r = Ok false /\ ~ honours e' r.
  Proof.
    induction prefs as [|m prefs IH]; simpl; [intros _ ? []|].
    destruct (lookup m reg) as [e'|] eqn:L; [|discriminate].
    destruct (satisfies_conditions T e' r) as [[|]| |] eqn:S; try discriminate.
    destruct (report_raises T e' r); [discriminate|].
    intros H m' [<-|Hm]; [|auto].
    exists e'. split; [exact L|]. split; [exact S|]. now apply satisfies_false_not_honours.
  Qed.

  (* when nothing raises, the loop answers Found or NoSuitable, and Found as soon as some listed engine qualifies *)
  Lemma first_total reg prefs r :
    (forall m, In m prefs -> exists e' b, lookup m reg = Some e' /\ satisfies_conditions T e' r = Ok b /\ report_raises T e' r = false) ->
    (exists n e, first_satisfying T reg prefs r = Found n e)
    \/ (first_satisfying T reg prefs r = NoSuitable).
  Proof.
    induction prefs as [|m prefs IH]; simpl; intros H; [now right|].
    destruct (H m (or_introl eq_refl)) as [e' [b [L [S R]]]]. rewrite L, S.
    destruct b; [left; eauto|]. rewrite R. apply IH. intros m' Hm'. apply H. now right.
  Qed.

  Lemma first_complete reg prefs r :
    (forall m, In m prefs -> exists e' b, lookup m reg = Some e' /\ satisfies_conditions T e' r = Ok b /\ report_raises T e' r = false) ->
    (exists m e', In m prefs /\ lookup m reg = Some e' /\ honours e' r) ->
    exists n e, first_satisfying T reg prefs r = Found n e.
  Proof.
    intros Hd [m [e' [Hm [L Hh]]]].
    destruct (first_total reg prefs r Hd) as [F|N]; [exact F|].
    destruct (first_none reg prefs r N m Hm) as [e'' [L' [_ Hn]]].
    rewrite L in L'. inversion L'; subst. contradiction.
  Qed.

  Lemma get_engine_class_found reg prefs r n e :
    get_engine_class T reg prefs None r = Found n e ->
    In n prefs /\ lookup n reg = Some e /\ honours e r
    /\ exists pre post, prefs = pre ++ n :: post /\ forall m, In m pre -> exists e', lookup m reg = Some e' /\ ~ honours e' r.
  Proof.
    unfold get_engine_class. destruct (negb (is_none (r_optimality r) || is_none (r_compilation r))); [discriminate|].
    intros H. destruct (first_found reg prefs r n e H) as [pre [post [E [L [Hh Hpre]]]]].
    split; [rewrite E; apply in_or_app; right; now left|]. split; [exact L|]. split; [exact Hh|]. eauto.
  Qed.

  Lemma get_engine_class_none reg prefs r :
    get_engine_class T reg prefs None r = NoSuitable ->
    forall m, In m prefs -> exists e', lookup m reg = Some e' /\ ~ honours e' r.
  Proof.
    unfold get_engine_class. destruct (negb (is_none (r_optimality r) || is_none (r_compilation r))); [discriminate|].
    intros H m Hm. destruct (first_none reg prefs r H m Hm) as [e' [L [_ Hn]]]. eauto.
  Qed.

  Lemma get_engine_class_by_name reg prefs r n s :
    get_engine_class T reg prefs (Some n) r = s ->
    match lookup n reg with Some e => s = Found n e | None => s = NoRequested end.
  Proof. unfold get_engine_class. destruct (lookup n reg); congruence. Qed.

  (* steps chosen for kinds k0, k1, ...: each compiler was chosen by the selection loop for the kind declared by its
     predecessors, honours that request, and declares the next kind *)
  Inductive chain (reg : registry) (prefs : list string) : kind -> list (string * engine * kind) -> list N -> kind -> Prop :=
  | chain_nil k : chain reg prefs k [] [] k
  | chain_cons k n e ck k' steps cks final :
      In n prefs -> lookup n reg = Some e ->
      honours e (comp_request k ck) ->
      run_resulting T (e_resulting e) k = Ok k' ->
      chain reg prefs k' steps cks final ->
      chain reg prefs k ((n, e, k) :: steps) (ck :: cks) final.

  Lemma pipeline_from_chain reg prefs cks : forall k acc out final,
    pipeline_from T reg prefs (map (fun ck => (None, ck)) cks) k acc = Pipe out final ->
    exists new, out = rev acc ++ new /\ chain reg prefs k new cks final.
  Proof.
    induction cks as [|ck cks IH]; intros k acc out final; cbn [pipeline_from map].
    - intros H; inversion H; subst. exists []. rewrite app_nil_r. split; [reflexivity|constructor].
    - destruct (get_engine_class T reg prefs None (comp_request k ck)) as [n e| | | |] eqn:G; try (intros; discriminate).
      destruct (negb (is_mode e COMPILER)); [intros; discriminate|].
      destruct (run_resulting T (e_resulting e) k) as [k'| |] eqn:R; try (intros; discriminate).
      intros H. destruct (IH _ _ _ _ H) as [new [E C]].
      exists ((n, e, k) :: new). split.
      + rewrite E. simpl. now rewrite <- app_assoc.
      + destruct (get_engine_class_found _ _ _ _ _ G) as [Hin [L [Hh _]]].
        econstructor; eauto.
  Qed.

  Lemma pipeline_chain reg prefs cks k0 steps final :
    pipeline T reg prefs None cks k0 = Pipe steps final -> chain reg prefs k0 steps cks final.
  Proof.
    unfold pipeline. intros H. destruct (pipeline_from_chain _ _ _ _ _ _ _ H) as [new [E C]].
    simpl in E. now subst.
  Qed.

  (* a pipeline request fails with the no-suitable-engine error only at a step for which no listed engine qualifies *)
  Lemma pipeline_from_no_suitable reg prefs cks : forall k acc,
    pipeline_from T reg prefs (map (fun ck => (None, ck)) cks) k acc = PipeFail NoSuitable ->
    exists cks1 ck cks2 done k', cks = cks1 ++ ck :: cks2 /\ chain reg prefs k done cks1 k'
      /\ forall m, In m prefs -> exists e', lookup m reg = Some e' /\ ~ honours e' (comp_request k' ck).
  Proof.
    induction cks as [|ck cks IH]; intros k acc; cbn [pipeline_from map]; [intros; discriminate|].
    destruct (get_engine_class T reg prefs None (comp_request k ck)) as [n e| | | |] eqn:G; try (intros; discriminate).
    - destruct (negb (is_mode e COMPILER)); [intros; discriminate|].
      destruct (run_resulting T (e_resulting e) k) as [k'| |] eqn:R; try (intros; discriminate).
      intros H. destruct (IH _ _ H) as [cks1 [ck' [cks2 [done [k'' [E [C N]]]]]]].
      exists (ck :: cks1), ck', cks2, ((n, e, k) :: done), k''. split; [now rewrite E|]. split; [|exact N].
      destruct (get_engine_class_found _ _ _ _ _ G) as [Hin [L [Hh _]]]. econstructor; eauto.
    - intros _. exists [], ck, cks, [], k. split; [reflexivity|]. split; [constructor|].
      now apply get_engine_class_none.
  Qed.

  Lemma chain_length reg prefs k steps cks final : chain reg prefs k steps cks final -> List.length steps = List.length cks.
  Proof. induction 1; simpl; auto. Qed.

  Lemma honours_unfolded e r : honours e r <->
    is_mode e (r_mode r) = true
    /\ le T (r_kind r) (e_supported e) = Ok true
    /\ (forall c, r_compilation r = Some c -> inN c (e_compilations e) = true)
    /\ (forall p, r_plan r = Some p -> inN p (e_plans e) = true)
    /\ (forall g, r_optimality r = Some g -> inN g (e_optimality e) = true)
    /\ (forall g, r_anytime r = Some g -> inN g (e_anytime e) = true).
  Proof. unfold honours, supports. tauto. Qed.

  Lemma chain_cons_inv reg prefs k n e kk steps ck cks final :
    chain reg prefs k ((n, e, kk) :: steps) (ck :: cks) final ->
    kk = k /\ In n prefs /\ lookup n reg = Some e
    /\ is_mode e COMPILER = true /\ le T k (e_supported e) = Ok true /\ inN ck (e_compilations e) = true
    /\ exists k', run_resulting T (e_resulting e) k = Ok k' /\ chain reg prefs k' steps cks final.
  Proof.
    intros H. inversion H; subst.
    match goal with Hh : honours _ _ |- _ => destruct Hh as [M [S [HC _]]] end.
    split; [reflexivity|]. split; [assumption|]. split; [assumption|]. split; [exact M|]. split; [exact S|].
    split; [apply HC; reflexivity|]. eauto.
  Qed.

  Lemma pipeline_no_suitable reg prefs cks k0 :
    pipeline T reg prefs None cks k0 = PipeFail NoSuitable ->
    exists cks1 ck cks2 done k', cks = cks1 ++ ck :: cks2 /\ chain reg prefs k0 done cks1 k'
      /\ forall m, In m prefs -> exists e', lookup m reg = Some e' /\ ~ honours e' (comp_request k' ck).
  Proof. unfold pipeline. apply pipeline_from_no_suitable. Qed.
End Sel.

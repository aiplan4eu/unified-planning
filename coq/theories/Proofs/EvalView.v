(* [eval] by shape (ExprView): the value of a node is a function of the values of its children ([sem1], [sem2]) or of
   the evaluated argument list ([semn]); that function is strict: a node has a value only if every child has one. *)
From Coq Require Import List ZArith NArith QArith Qcanon Bool.
Import ListNotations.
Require Import UPV.Core.Expr UPV.Core.Eval UPV.Proofs.Eval_lemmas UPV.Proofs.ExprView.

Definition sem1 (o : op1) (x : option value) : option value :=
  match o with
  | UNot => match as_bool x with Some b => Some (VBool (negb b)) | None => None end
  | _ => None
  end.

Definition sem2 (o : op2) (x y : option value) : option value :=
  match o with
  | BImplies => match as_bool x, as_bool y with Some a, Some b => Some (VBool (implb a b)) | _, _ => None end
  | BIff => match as_bool x, as_bool y with Some a, Some b => Some (VBool (Bool.eqb a b)) | _, _ => None end
  | BMinus => match as_num x, as_num y with Some a, Some b => Some (VNum (Qcminus a b)) | _, _ => None end
  | BDiv => match as_num x, as_num y with
            | Some a, Some b => if qc_is0 b then None else Some (VNum (Qcdiv a b)) | _, _ => None end
  | BLe => match as_num x, as_num y with Some a, Some b => Some (VBool (qc_leb a b)) | _, _ => None end
  | BLt => match as_num x, as_num y with Some a, Some b => Some (VBool (qc_ltb a b)) | _, _ => None end
  | BEquals => match x, y with
               | Some (VNum a), Some (VNum b) => Some (VBool (qc_eqb a b))
               | Some (VObj a), Some (VObj b) => Some (VBool (a =? b)%N)
               | _, _ => None
               end
  | BSometimeBefore | BSometimeAfter => None
  end.

Definition semn (sc : bool) (I : interp) (o : opn) (l : list expr) : option value :=
  match o with
  | NFluent f => match evals sc I l with Some vs => fl I f vs | None => None end
  | NIFun f => match evals sc I l with Some vs => ifun I f vs | None => None end
  | NAnd => match ebools sc I l with Some bs => Some (VBool (forallb (fun b => b) bs)) | None => None end
  | NOr => match ebools sc I l with Some bs => Some (VBool (existsb (fun b => b) bs)) | None => None end
  | NPlus => match enums sc I l with Some qs => Some (VNum (fold_right Qcplus (zq 0) qs)) | None => None end
  | NTimes => match enums sc I l with Some qs => Some (VNum (fold_right Qcmult (zq 1) qs)) | None => None end
  end.

Lemma eval_E1 sc o a I : eval sc (E1 o a) I = sem1 o (eval sc a I).
Proof. destruct o; reflexivity. Qed.
Lemma eval_E2 sc o a b I : eval sc (E2 o a b) I = sem2 o (eval sc a I) (eval sc b I).
Proof. destruct o; reflexivity. Qed.
Lemma eval_En sc o l I : eval sc (En o l) I = semn sc I o l.
Proof.
  destruct o; cbn [En semn];
    [apply eval_EFluent|apply eval_EIFun|apply eval_EAnd|apply eval_EOr|apply eval_EPlus|apply eval_ETimes].
Qed.
Lemma eval_EQ sc ex vs a I :
  eval sc (EQ ex vs a) I =
  match q_fold sc ex (map (fun J => as_bool (eval sc a J)) (instances I vs)) with
  | Some b => Some (VBool b) | None => None end.
Proof. destruct ex; reflexivity. Qed.

Lemma sem1_strict o x v : sem1 o x = Some v -> x <> None.
Proof. destruct o, x; simpl; congruence. Qed.

Lemma sem2_strict o x y v : sem2 o x y = Some v -> x <> None /\ y <> None.
Proof. destruct o, x as [[| |]|], y as [[| |]|]; simpl; intros H; try discriminate H; split; discriminate. Qed.

Lemma evals_some sc I l vs : evals sc I l = Some vs -> Forall (fun x => eval sc x I <> None) l.
Proof.
  revert vs. induction l as [|x l IH]; intros vs H; [constructor|]. cbn [evals] in H.
  destruct (eval sc x I) eqn:E; [|discriminate]. destruct (evals sc I l) eqn:El; [|discriminate].
  constructor; [congruence|eapply IH; reflexivity].
Qed.
Lemma ebools_some sc I l vs : ebools sc I l = Some vs -> Forall (fun x => eval sc x I <> None) l.
Proof.
  revert vs. induction l as [|x l IH]; intros vs H; [constructor|]. cbn [ebools] in H.
  destruct (eval sc x I) eqn:E; [|discriminate]. destruct (ebools sc I l) eqn:El; [|destruct (as_bool _); discriminate].
  constructor; [congruence|eapply IH; reflexivity].
Qed.
Lemma enums_some sc I l vs : enums sc I l = Some vs -> Forall (fun x => eval sc x I <> None) l.
Proof.
  revert vs. induction l as [|x l IH]; intros vs H; [constructor|]. cbn [enums] in H.
  destruct (eval sc x I) eqn:E; [|discriminate]. destruct (enums sc I l) eqn:El; [|destruct (as_num _); discriminate].
  constructor; [congruence|eapply IH; reflexivity].
Qed.

Lemma semn_strict sc I o l v : semn sc I o l = Some v -> Forall (fun x => eval sc x I <> None) l.
Proof.
  destruct o; cbn [semn]; intros H.
  1,2: destruct (evals sc I l) eqn:E; [eapply evals_some; exact E|discriminate].
  1,2: destruct (ebools sc I l) eqn:E; [eapply ebools_some; exact E|discriminate].
  1,2: destruct (enums sc I l) eqn:E; [eapply enums_some; exact E|discriminate].
Qed.

Lemma semn_ext sc sc' I J o l l' :
  Forall2 (fun x y => eval sc x I = eval sc' y J) l l' ->
  (forall f vs, o = NFluent f -> fl I f vs = fl J f vs) -> (forall f vs, o = NIFun f -> ifun I f vs = ifun J f vs) ->
  semn sc I o l = semn sc' J o l'.
Proof.
  intros H Hf Hi. destruct o; cbn [semn];
    rewrite ?(evals_ext2 _ _ _ _ _ _ H), ?(ebools_ext2 _ _ _ _ _ _ H), ?(enums_ext2 _ _ _ _ _ _ H); try reflexivity.
  - destruct (evals sc' J l'); [apply Hf|]; reflexivity.
  - destruct (evals sc' J l'); [apply Hi|]; reflexivity.
Qed.

Lemma eval_E1_none sc o a I : eval sc a I = None -> eval sc (E1 o a) I = None.
Proof. intros H. destruct (eval sc (E1 o a) I) eqn:E; [|reflexivity]. rewrite eval_E1 in E. elim (sem1_strict _ _ _ E H). Qed.

Lemma eval_E2_none sc o a b I : eval sc a I = None \/ eval sc b I = None -> eval sc (E2 o a b) I = None.
Proof.
  intros H. destruct (eval sc (E2 o a b) I) eqn:E; [|reflexivity]. rewrite eval_E2 in E.
  destruct (sem2_strict _ _ _ _ E) as [Da Db]. destruct H; contradiction.
Qed.

Lemma eval_En_none sc o l I x : In x l -> eval sc x I = None -> eval sc (En o l) I = None.
Proof.
  intros Hx H. destruct (eval sc (En o l) I) eqn:E; [|reflexivity]. rewrite eval_En in E.
  apply semn_strict in E. rewrite Forall_forall in E. elim (E x Hx H).
Qed.

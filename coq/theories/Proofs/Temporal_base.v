(* Dense-time facts used by the temporal proofs: order automation on Qc, midpoints, "the state in force at an
   instant", and the exactness of the model of _states_in_interval (C05, first core lemma). *)
From Coq Require Import List ZArith NArith QArith Qcanon Bool Lia Lqa.
Import ListNotations.
Require Import UPV.Core.Expr UPV.Core.Eval UPV.Core.Interp UPV.Planning.Problem UPV.Planning.Sem.
Require Import UPV.Planning.Temporal UPV.Planning.TTValidate.
Require Import UPV.Proofs.Eval_lemmas.
Local Open Scope Qc_scope.

Ltac qco := cbn [fst snd] in *; unfold Qclt, Qcle in *; lra.

Lemma qc_leb_false (a b : Qc) : qc_leb a b = false <-> b < a.
Proof.
  split; intros H.
  - apply Qcnot_le_lt. intros L. apply qc_leb_le in L. congruence.
  - destruct (qc_leb a b) eqn:E; [|reflexivity]. apply qc_leb_le in E. qco.
Qed.
Lemma qc_eqb_false (a b : Qc) : qc_eqb a b = false <-> a <> b.
Proof.
  split; intros H.
  - intros E. apply qc_eqb_eq in E. congruence.
  - destruct (qc_eqb a b) eqn:E; [|reflexivity]. apply qc_eqb_eq in E. contradiction.
Qed.

(* turn every boolean comparison in the context / goal into a proposition *)
Ltac qb :=
  repeat match goal with
  | H : qc_ltb _ _ = true |- _ => apply qc_ltb_lt in H
  | H : qc_ltb _ _ = false |- _ => apply qc_ltb_false in H
  | H : qc_leb _ _ = true |- _ => apply qc_leb_le in H
  | H : qc_leb _ _ = false |- _ => apply qc_leb_false in H
  | H : qc_eqb _ _ = true |- _ => apply qc_eqb_eq in H
  | H : qc_eqb _ _ = false |- _ => apply qc_eqb_false in H
  | H : _ && _ = true |- _ => apply andb_true_iff in H; destruct H
  | H : negb _ = true |- _ => apply negb_true_iff in H
  | H : negb _ = false |- _ => apply negb_false_iff in H
  end.

Lemma Qc_total (a b : Qc) : a < b \/ a = b \/ b < a.
Proof. destruct (Qc_dec a b) as [[H|H]|H]; auto. Qed.

Lemma mid_lt (a b : Qc) : a < b -> a < mid a b /\ mid a b < b.
Proof.
  intros H. unfold mid, two, Qcdiv, Qcmult, Qcplus, Qcinv, zq, Qclt in *. cbn [this Q2Qc].
  rewrite !Qred_correct.
  split; setoid_replace (/ inject_Z 2)%Q with (1#2)%Q by reflexivity; lra.
Qed.

Lemma plus1_lt (a : Qc) : a < a + zq 1.
Proof. unfold Qclt, Qcplus, zq. cbn [this Q2Qc]. rewrite !Qred_correct. change (inject_Z 1) with 1%Q. lra. Qed.

Lemma minus1_lt0 : minus1 < zq 0.
Proof. unfold minus1, zq, Qclt. cbn. lra. Qed.

(* either no key of the list lies after p, or there is a least one *)
Lemma next_key (ks : list Qc) (p : Qc) :
  (forall x, In x ks -> x <= p) \/ (exists m, In m ks /\ p < m /\ forall x, In x ks -> p < x -> m <= x).
Proof.
  induction ks as [|k ks IH]; [left; intros x []|].
  destruct IH as [IH|[m [Hm [Hpm Hmin]]]].
  - destruct (Qclt_le_dec p k) as [L|L].
    + right. exists k. split; [left; reflexivity|]. split; [exact L|].
      intros x [<-|Hx] Hpx; [apply Qcle_refl|]. specialize (IH x Hx). qco.
    + left. intros x [<-|Hx]; [exact L | apply IH, Hx].
  - right. destruct (Qclt_le_dec p k) as [L|L].
    + destruct (Qclt_le_dec k m) as [L2|L2].
      * exists k. split; [left; reflexivity|]. split; [exact L|].
        intros x [<-|Hx] Hpx; [apply Qcle_refl|]. specialize (Hmin x Hx Hpx). qco.
      * exists m. split; [right; exact Hm|]. split; [exact Hpm|].
        intros x [<-|Hx] Hpx; [exact L2 | apply Hmin; assumption].
    + exists m. split; [right; exact Hm|]. split; [exact Hpm|].
      intros x [<-|Hx] Hpx; [qco | apply Hmin; assumption].
Qed.

(* dense time: right after any point p and below any later bound there is an instant with no key in between *)
Lemma instant_after (ks : list Qc) (p : Qc) (h : option Qc) :
  match h with Some e => p < e | None => True end ->
  exists u, p < u /\ match h with Some e => u < e | None => True end /\ forall y, In y ks -> y < u -> y <= p.
Proof.
  intros Hh. destruct (next_key ks p) as [N|[m [Hm [Hpm Hmin]]]].
  - destruct h as [e|].
    + exists (mid p e). destruct (mid_lt p e Hh) as [A B]. split; [exact A|]. split; [exact B|].
      intros y Hy _. apply N, Hy.
    + exists (p + zq 1). split; [apply plus1_lt|]. split; [exact I|]. intros y Hy _. apply N, Hy.
  - destruct h as [e|].
    + destruct (Qclt_le_dec m e) as [L|L].
      * exists (mid p m). destruct (mid_lt p m Hpm) as [A B]. split; [exact A|]. split; [qco|].
        intros y Hy Hyu. destruct (Qclt_le_dec p y) as [L3|L3]; [|exact L3].
        specialize (Hmin y Hy L3). qco.
      * exists (mid p e). destruct (mid_lt p e Hh) as [A B]. split; [exact A|]. split; [exact B|].
        intros y Hy Hyu. destruct (Qclt_le_dec p y) as [L3|L3]; [|exact L3].
        specialize (Hmin y Hy L3). qco.
    + exists (mid p m). destruct (mid_lt p m Hpm) as [A B]. split; [exact A|]. split; [exact I|].
      intros y Hy Hyu. destruct (Qclt_le_dec p y) as [L3|L3]; [|exact L3].
      specialize (Hmin y Hy L3). qco.
Qed.

Definition keys (tr : trace) : list Qc := map fst tr.

(* the entry with key x is the one in force at instant u: x is the last key strictly before u *)
Definition in_force (tr : trace) (x u : Qc) : Prop :=
  x < u /\ forall y, In y (keys tr) -> y < u -> y <= x.

Section Scan.
  Variable start : Qc.
  Variable end_ : option Qc.

  Definition inside (x : Qc) : bool :=
    qc_ltb start x && match end_ with None => true | Some e => qc_ltb x e end.

  Lemma scan_spec (ks : list Qc) : forall bt et ins,
    let '(bt', et', ins') := fold_left (scan_step start end_) ks (bt, et, ins) in
    ins' = ins ++ filter inside ks /\
    (bt' = bt \/ In bt' ks /\ bt' < start) /\ bt <= bt' /\ (forall x, In x ks -> x < start -> x <= bt') /\
    (et' = et \/ In et' ks /\ et' <= start) /\ et <= et' /\ (forall x, In x ks -> x <= start -> x <= et').
  Proof.
    induction ks as [|k ks IH]; intros bt et ins.
    - cbn. rewrite app_nil_r. repeat split; auto; try apply Qcle_refl; intros x [].
    - cbn [fold_left]. unfold scan_step at 2. fold (inside k).
      set (bt1 := if qc_ltb k start && qc_ltb bt k then k else bt).
      set (et1 := if qc_leb k start && qc_ltb et k then k else et).
      set (ins1 := if inside k then ins ++ [k] else ins).
      specialize (IH bt1 et1 ins1).
      destruct (fold_left (scan_step start end_) ks (bt1, et1, ins1)) as [[bt' et'] ins'].
      destruct IH as (I1 & I2 & I3 & I4 & I5 & I6 & I7).
      assert (B1 : bt <= bt1 /\ (bt1 = bt \/ bt1 = k /\ k < start) /\ (k < start -> k <= bt1)).
      { unfold bt1. destruct (qc_ltb k start) eqn:E1, (qc_ltb bt k) eqn:E2; cbn; qb;
          (split; [try apply Qcle_refl; qco|]); (split; [auto|]); intros; try apply Qcle_refl; qco. }
      assert (E1' : et <= et1 /\ (et1 = et \/ et1 = k /\ k <= start) /\ (k <= start -> k <= et1)).
      { unfold et1. destruct (qc_leb k start) eqn:E1, (qc_ltb et k) eqn:E2; cbn; qb;
          (split; [try apply Qcle_refl; qco|]); (split; [auto|]); intros; try apply Qcle_refl; qco. }
      destruct B1 as (B1 & B2 & B3). destruct E1' as (F1 & F2 & F3).
      split; [|split; [|split; [|split; [|split; [|split]]]]].
      + rewrite I1. unfold ins1. cbn [filter]. destruct (inside k); [rewrite <- app_assoc|]; reflexivity.
      + destruct I2 as [->|[Hin Hlt]].
        * destruct B2 as [->|[-> Hk]]; [left; reflexivity | right; split; [left; reflexivity | exact Hk]].
        * right. split; [right; exact Hin | exact Hlt].
      + qco.
      + intros x [<-|Hx] Hlt; [specialize (B3 Hlt); qco | apply I4; assumption].
      + destruct I5 as [->|[Hin Hle]].
        * destruct F2 as [->|[-> Hk]]; [left; reflexivity | right; split; [left; reflexivity | exact Hk]].
        * right. split; [right; exact Hin | exact Hle].
      + qco.
      + intros x [<-|Hx] Hle; [specialize (F3 Hle); qco | apply I7; assumption].
  Qed.
End Scan.

Lemma tlookup_In (tr : trace) x s : NoDup (keys tr) -> In (x, s) tr -> tlookup x tr = Some s.
Proof.
  induction tr as [|[y t] tr IH]; intros ND H; [destruct H|].
  cbn in *. inversion ND as [|? ? Hn ND']; subst.
  destruct H as [H|H].
  - inversion H; subst. rewrite qc_eqb_refl. reflexivity.
  - destruct (qc_eqb x y) eqn:E.
    + apply qc_eqb_eq in E. subst. exfalso. apply Hn. change y with (fst (y, s)). apply in_map, H.
    + apply IH; assumption.
Qed.

Lemma tlookup_Some (tr : trace) x s : tlookup x tr = Some s -> In (x, s) tr.
Proof.
  induction tr as [|[y t] tr IH]; cbn; [discriminate|].
  destruct (qc_eqb x y) eqn:E.
  - apply qc_eqb_eq in E. subst. intros H; inversion H; subst. left; reflexivity.
  - intros H. right. apply IH, H.
Qed.

Lemma pick_In (tr : trace) (ND : NoDup (keys tr)) x y s :
  In (y, s) (pick tr x) <-> y = x /\ In (x, s) tr.
Proof.
  unfold pick. split.
  - destruct (tlookup x tr) as [t|] eqn:E; [|intros []].
    intros [H|[]]. inversion H; subst. split; [reflexivity | apply tlookup_Some, E].
  - intros [-> H]. rewrite (tlookup_In tr x s ND H). left; reflexivity.
Qed.

(* The model of _states_in_interval returns exactly the trace entries in force at some instant of the interval
   [start, end] / (start, end] (end = None: no upper bound), whatever the openness of the upper end: in dense time
   a right-open and a right-closed non-empty interval contain the same states.  [tr] is the validator's trace: it
   contains the entry of the initial state under key -1 and its keys are distinct. *)
Theorem states_in_interval_exact (tr : trace) (iv : ainterval) :
  NoDup (keys tr) -> In minus1 (keys tr) -> zq 0 <= ai_lo iv -> iv_nonempty iv = true ->
  forall x s,
    In (x, s) (states_in_interval tr (ai_lo iv) (ai_hi iv) (ai_lopen iv)) <->
    In (x, s) tr /\ exists u, in_iv iv u /\ in_force tr x u.
Proof.
  intros ND Hm1 Hlo0 NE x s.
  destruct iv as [lo hi lopen ropen]. cbn [ai_lo ai_hi ai_lopen ai_ropen] in *.
  unfold states_in_interval.
  pose proof (scan_spec lo hi (map fst tr) minus1 minus1 []) as SP.
  destruct (fold_left (scan_step lo hi) (map fst tr) (minus1, minus1, [])) as [[bt et] ins].
  destruct SP as (S1 & S2 & S3 & S4 & S5 & S6 & S7). cbn [app] in S1.
  fold (keys tr) in *.
  assert (M1 : minus1 < lo) by (pose proof minus1_lt0; qco).
  assert (Bin : In bt (keys tr) /\ bt < lo).
  { destruct S2 as [->|[A B]]; [split; [exact Hm1 | exact M1] | split; assumption]. }
  assert (Ein : In et (keys tr) /\ et <= lo).
  { destruct S5 as [->|[A B]]; [split; [exact Hm1 | qco] | split; assumption]. }
  destruct Bin as [Bin Blt]. destruct Ein as [Ein Ele].
  (* et = bt exactly when no key equals lo *)
  assert (EB : qc_eqb et bt = true <-> ~ In lo (keys tr)).
  { rewrite qc_eqb_eq. split.
    - intros -> Hin. specialize (S7 lo Hin (Qcle_refl _)). qco.
    - intros Hn. apply Qcle_antisym.
      + apply S4; [exact Ein|]. destruct (Qcle_lt_or_eq _ _ Ele) as [L|E]; [exact L | subst; contradiction].
      + apply S7; [exact Bin | qco]. }
  assert (EL : qc_eqb et bt = false -> et = lo).
  { intros E. destruct (Qcle_lt_or_eq _ _ Ele) as [L|E2]; [|exact E2].
    exfalso. apply qc_eqb_false in E. apply E. apply Qcle_antisym; [apply S4; assumption | apply S7; [exact Bin | qco]]. }
  assert (NEh : match hi with Some h => lo < h \/ (lo = h /\ lopen = false /\ ropen = false) | None => True end).
  { unfold iv_nonempty in NE. cbn in NE. destruct hi as [h|]; [|exact I].
    apply orb_true_iff in NE. destruct NE as [H|H]; qb; [left; exact H | right].
    destruct lopen, ropen; try discriminate; auto. }
  assert (INS : forall y, In y ins <-> In y (keys tr) /\ lo < y /\ match hi with Some h => y < h | None => True end).
  { intros y. rewrite S1, filter_In. unfold inside. split.
    - intros [A B]. split; [exact A|]. destruct hi as [h|]; qb; auto.
    - intros [A [B C]]. split; [exact A|]. apply andb_true_iff. split; [apply qc_ltb_lt, B|].
      destruct hi as [h|]; [apply qc_ltb_lt, C | reflexivity]. }
  unfold in_iv, in_force. cbn [ai_lo ai_hi ai_lopen ai_ropen].
  rewrite !in_app_iff. split.
  - (* every returned entry is in force at an instant of the interval *)
    intros [H|[H|H]].
    + (* the entry before the lower bound *)
      destruct (negb lopen || (qc_eqb et bt && negb (opt_qc_eqb hi lo))) eqn:C; [|destruct H].
      apply (pick_In tr ND) in H. destruct H as [-> H]. split; [exact H|].
      destruct lopen; cbn in C.
      * (* left-open, no key at lo, lo <> end: an instant right after lo *)
        apply andb_true_iff in C. destruct C as [C1 C2]. apply EB in C1.
        assert (Hlt : match hi with Some e => lo < e | None => True end).
        { destruct hi as [h|]; [|exact I]. destruct NEh as [L|[E _]]; [exact L|].
          subst. cbn in C2. rewrite qc_eqb_refl in C2. discriminate. }
        destruct (instant_after (keys tr) lo hi Hlt) as [u [U1 [U2 U3]]].
        exists u. split; [split; [exact U1 | destruct hi as [h|]; [destruct ropen; qco | exact I]]|].
        split; [qco|]. intros y Hy Hyu. specialize (U3 y Hy Hyu).
        apply S4; [exact Hy|]. destruct (Qcle_lt_or_eq _ _ U3) as [L|E]; [exact L | subst; contradiction].
      * (* left-closed: the instant lo itself *)
        exists lo. split; [split; [apply Qcle_refl|]|].
        -- destruct hi as [h|]; [|exact I]. destruct NEh as [L|[E [_ R]]]; [destruct ropen; qco | subst; apply Qcle_refl].
        -- split; [exact Blt|]. intros y Hy Hyl. apply S4; assumption.
    + (* the entry at the lower bound *)
      destruct (negb (qc_eqb et bt) && negb (opt_qc_eqb hi et)) eqn:C; [|destruct H].
      apply (pick_In tr ND) in H. destruct H as [-> H]. split; [exact H|].
      apply andb_true_iff in C. destruct C as [C1 C2]. apply negb_true_iff in C1. specialize (EL C1). subst et.
      assert (Hlt : match hi with Some e => lo < e | None => True end).
      { destruct hi as [h|]; [|exact I]. destruct NEh as [L|[E _]]; [exact L|].
        subst. cbn in C2. rewrite qc_eqb_refl in C2. discriminate. }
      destruct (instant_after (keys tr) lo hi Hlt) as [u [U1 [U2 U3]]].
      exists u. split; [split; [destruct lopen; qco | destruct hi as [h|]; [destruct ropen; qco | exact I]]|].
      split; [exact U1 | exact U3].
    + (* an entry strictly inside *)
      apply in_flat_map in H. destruct H as [y [Hy H]]. apply (pick_In tr ND) in H. destruct H as [-> H].
      split; [exact H|]. apply INS in Hy. destruct Hy as [Hk [Hly Hyh]].
      destruct (instant_after (keys tr) y hi Hyh) as [u [U1 [U2 U3]]].
      exists u. split; [split; [destruct lopen; qco | destruct hi as [h|]; [destruct ropen; qco | exact I]]|].
      split; [exact U1 | exact U3].
  - (* every entry in force at an instant of the interval is returned *)
    intros [Hin [u [[L U] [Xu F]]]].
    assert (Hk : In x (keys tr)) by (change x with (fst (x, s)); apply in_map, Hin).
    assert (Uh : match hi with Some h => u <= h | None => True end).
    { destruct hi as [h|]; [destruct ropen; qco | exact I]. }
    destruct (Qc_total x lo) as [Lx|[Ex|Gx]].
    + (* x < lo: x = bt *)
      assert (Lu : lo <= u) by (destruct lopen; qco).
      assert (Exb : x = bt).
      { apply Qcle_antisym; [apply S4; assumption | apply F; [exact Bin | qco]]. }
      subst x. left.
      assert (C : negb lopen || (qc_eqb et bt && negb (opt_qc_eqb hi lo)) = true).
      { destruct lopen; [|reflexivity]. cbn. apply andb_true_iff. split.
        - apply EB. intros Hlo. specialize (F lo Hlo L). qco.
        - destruct hi as [h|]; [|reflexivity]. cbn. apply negb_true_iff, qc_eqb_false. intros ->. qco. }
      rewrite C. apply (pick_In tr ND). split; [reflexivity | exact Hin].
    + (* x = lo: x = et, different from bt *)
      subst x. right; left.
      assert (Eet : et = lo) by (apply Qcle_antisym; [exact Ele | apply S7; [exact Hk | apply Qcle_refl]]).
      assert (C : negb (qc_eqb et bt) && negb (opt_qc_eqb hi et) = true).
      { apply andb_true_iff. split.
        - apply negb_true_iff, qc_eqb_false. subst et. intros E. rewrite <- E in Blt. qco.
        - destruct hi as [h|]; [|reflexivity]. cbn. apply negb_true_iff, qc_eqb_false. subst et. intros ->. qco. }
      rewrite C. apply (pick_In tr ND). split; [symmetry; exact Eet | rewrite Eet; exact Hin].
    + (* lo < x: strictly inside *)
      right; right. apply in_flat_map. exists x. split.
      * apply INS. split; [exact Hk|]. split; [exact Gx|]. destruct hi as [h|]; [qco | exact I].
      * apply (pick_In tr ND). split; [reflexivity | exact Hin].
Qed.

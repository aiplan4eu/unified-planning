(* Proofs about the durative-actions-to-processes plan conversions (C29). *)
From Coq Require Import List ZArith NArith QArith Bool Lia Lqa Permutation.
Import ListNotations.
Require Import UPV.Model.DA2P UPV.Proofs.InsertBy.
Open Scope Q_scope.

Lemma insert_t_insert_by {A} (x : Q * A * option Q) l :
  insert_t x l = insert_by (fun x y => Qle_bool (time_of x) (time_of y)) x l.
Proof.
  induction l as [|y l IH]; [reflexivity|]. cbn [insert_t insert_by].
  destruct (Qle_bool (time_of x) (time_of y)); [|rewrite IH]; reflexivity.
Qed.

Lemma insert_t_perm {A} (x : Q * A * option Q) l : Permutation (insert_t x l) (x :: l).
Proof. rewrite insert_t_insert_by. apply insert_by_perm. Qed.

Lemma sort_t_perm {A} (l : list (Q * A * option Q)) : Permutation (sort_t l) l.
Proof.
  induction l as [|x l IH]; simpl; [reflexivity|].
  rewrite insert_t_perm. constructor. exact IH.
Qed.

Lemma insert_t_map {A B} (f : Q * A * option Q -> Q * B * option Q) (Hf : forall x, time_of (f x) = time_of x) x l :
  insert_t (f x) (map f l) = map f (insert_t x l).
Proof.
  induction l as [|y l IH]; simpl; [reflexivity|].
  rewrite !Hf. destruct (Qle_bool (time_of x) (time_of y)); simpl; [reflexivity|].
  rewrite IH. reflexivity.
Qed.

Lemma sort_t_map {A B} (f : Q * A * option Q -> Q * B * option Q) (Hf : forall x, time_of (f x) = time_of x) l :
  sort_t (map f l) = map f (sort_t l).
Proof.
  induction l as [|x l IH]; simpl; [reflexivity|].
  rewrite IH. apply insert_t_map. exact Hf.
Qed.

(* the result of the sort is ordered by time (used for the description of the output order) *)
Fixpoint sorted_t {A} (l : list (Q * A * option Q)) : Prop :=
  match l with
  | [] => True
  | x :: l' => (forall y, In y l' -> time_of x <= time_of y) /\ sorted_t l'
  end.

Lemma sorted_t_sorted_by {A} (l : list (Q * A * option Q)) :
  sorted_t l <-> sorted_by (fun x y : Q * A * option Q => time_of x <= time_of y) l.
Proof. induction l as [|x l IH]; [reflexivity|]. cbn [sorted_t sorted_by]. rewrite IH. reflexivity. Qed.

Lemma insert_t_sorted {A} (x : Q * A * option Q) l : sorted_t l -> sorted_t (insert_t x l).
Proof.
  rewrite insert_t_insert_by, !sorted_t_sorted_by. apply insert_by_sorted.
  - intros a b H. apply Qle_bool_iff, H.
  - intros a b H. destruct (Qlt_le_dec (time_of b) (time_of a)) as [L|L]; [apply Qlt_le_weak, L|].
    apply Qle_bool_iff in L. congruence.
  - intros a b c. apply Qle_trans.
Qed.

Lemma sort_t_sorted {A} (l : list (Q * A * option Q)) : sorted_t (sort_t l).
Proof. induction l as [|x l IH]; simpl; [exact I| apply insert_t_sorted; exact IH]. Qed.

Lemma flatten_dict_append k e d : Permutation (flatten (dict_append k e d)) (flatten d ++ [e]).
Proof.
  unfold flatten. induction d as [|[k' l] d IH]; simpl; [reflexivity|].
  destruct (key_eqb k k'); simpl.
  - rewrite <- !app_assoc. apply Permutation_app_head. apply Permutation_app_comm.
  - rewrite IH. rewrite app_assoc. reflexivity.
Qed.

Lemma flatten_fold_append (l : list oentry) : forall d,
  Permutation (flatten (fold_left (fun d e => dict_append (key_of e) e d) l d)) (flatten d ++ l).
Proof.
  induction l as [|e l IH]; intros d; simpl.
  - rewrite app_nil_r. reflexivity.
  - rewrite IH. rewrite flatten_dict_append. rewrite <- app_assoc. reflexivity.
Qed.

Lemma regroup_perm l : Permutation (regroup l) l.
Proof. unfold regroup. rewrite flatten_fold_append. reflexivity. Qed.

Definition cstart (e : oentry) : centry := (fst (fst e), (CStart (fst (key_of e)), snd (key_of e)), None).

Lemma time_of_cstart e : time_of (cstart e) = time_of e.
Proof. reflexivity. Qed.

Lemma forward_fixed P pi : Forall (wf_fixed_entry P) pi -> forward P pi = Some (map cstart pi).
Proof.
  induction 1 as [|e pi He _ IH]; [reflexivity|].
  destruct e as [[t [a ps]] d]. unfold wf_fixed_entry, key_of in He; simpl in He. simpl.
  destruct (kind_of P a) as [[| ex | delta]|] eqn:K; try contradiction; rewrite IH; reflexivity.
Qed.

Lemma back_loop_fixed P l : Forall (wf_fixed_entry P) l -> forall d,
  back_loop P (map cstart l) d = Some (fold_left (fun d e => dict_append (key_of e) e d) l d).
Proof.
  induction 1 as [|e l He _ IH]; intros d; [reflexivity|].
  destruct e as [[t [a ps]] du]. unfold wf_fixed_entry, key_of in He; simpl in He.
  simpl. unfold key_of at 2; simpl.
  destruct (kind_of P a) as [[| ex | delta]|] eqn:K; try contradiction.
  - subst du. apply IH.
  - destruct He as [q [Hq ->]]. rewrite Hq. apply IH.
Qed.

Lemma wf_final_ok P e : wf_fixed_entry P e -> final_ok P e = true.
Proof.
  destruct e as [[t [a ps]] du]. unfold wf_fixed_entry, final_ok, key_of; simpl.
  destruct (kind_of P a) as [[| ex | delta]|]; try contradiction.
  - intros ->; reflexivity.
  - intros [q [_ ->]]; reflexivity.
Qed.

Theorem back_forward_fixed P pi :
  Forall (wf_fixed_entry P) pi ->
  exists pi', forward P pi = Some pi' /\ back P pi' = Some (regroup (sort_t pi)).
Proof.
  intros H. exists (map cstart pi). split; [apply forward_fixed; exact H|].
  unfold back. rewrite (sort_t_map cstart time_of_cstart).
  assert (Hs : Forall (wf_fixed_entry P) (sort_t pi)) by (apply (Permutation_Forall (Permutation_sym (sort_t_perm pi)) H)).
  rewrite (back_loop_fixed P _ Hs).
  fold (regroup (sort_t pi)).
  assert (Hr : Forall (wf_fixed_entry P) (regroup (sort_t pi))) by (apply (Permutation_Forall (Permutation_sym (regroup_perm (sort_t pi))) Hs)).
  replace (forallb (final_ok P) (regroup (sort_t pi))) with true; [reflexivity|].
  symmetry. apply forallb_forall. intros x Hx. apply wf_final_ok. eapply Forall_forall; [exact Hr| exact Hx].
Qed.

Theorem back_forward_fixed_perm P pi :
  Forall (wf_fixed_entry P) pi ->
  exists pi' pi'', forward P pi = Some pi' /\ back P pi' = Some pi'' /\ Permutation pi'' pi.
Proof.
  intros H. destruct (back_forward_fixed P pi H) as [pi' [Hf Hb]].
  exists pi', (regroup (sort_t pi)). split; [exact Hf|]. split; [exact Hb|].
  rewrite regroup_perm. apply sort_t_perm.
Qed.

(* when every (action, parameters) pair occurs once the dictionary has one singleton list per key and the answer is
   simply the plan sorted by start time *)
Lemma pval_eqb_refl v : pval_eqb v v = true.
Proof. destruct v; simpl; [apply N.eqb_refl | apply Z.eqb_refl]. Qed.
Lemma pvals_eqb_refl vs : pvals_eqb vs vs = true.
Proof. induction vs as [|v vs IH]; simpl; [reflexivity| rewrite pval_eqb_refl, IH; reflexivity]. Qed.
Lemma key_eqb_refl k : key_eqb k k = true.
Proof. unfold key_eqb. rewrite N.eqb_refl, pvals_eqb_refl. reflexivity. Qed.

Lemma pval_eqb_eq a b : pval_eqb a b = true -> a = b.
Proof.
  destruct a, b; simpl; try discriminate; intros H.
  - apply N.eqb_eq in H; congruence.
  - apply Z.eqb_eq in H; congruence.
Qed.
Lemma pvals_eqb_eq a : forall b, pvals_eqb a b = true -> a = b.
Proof.
  induction a as [|x a IH]; destruct b as [|y b]; simpl; try discriminate; [reflexivity|].
  intros H. apply andb_true_iff in H as [H1 H2]. apply pval_eqb_eq in H1. apply IH in H2. congruence.
Qed.
Lemma key_eqb_eq a b : key_eqb a b = true -> a = b.
Proof.
  destruct a as [a1 a2], b as [b1 b2]. unfold key_eqb; simpl. intros H.
  apply andb_true_iff in H as [H1 H2]. apply N.eqb_eq in H1. apply pvals_eqb_eq in H2. congruence.
Qed.

Lemma dict_append_fresh k e d :
  (forall kl, In kl d -> key_eqb k (fst kl) = false) -> dict_append k e d = d ++ [(k, [e])].
Proof.
  induction d as [|[k' l] d IH]; simpl; intros H; [reflexivity|].
  pose proof (H (k', l) (or_introl eq_refl)) as Hk. simpl in Hk. rewrite Hk. simpl. rewrite IH; [reflexivity|].
  intros kl Hkl. apply H. right; exact Hkl.
Qed.

Lemma regroup_distinct_keys l :
  NoDup (map key_of l) -> regroup l = l.
Proof.
  unfold regroup.
  assert (G : forall l (d : dict),
             NoDup (map key_of l) ->
             (forall e kl, In e l -> In kl d -> key_eqb (key_of e) (fst kl) = false) ->
             flatten (fold_left (fun d e => dict_append (key_of e) e d) l d) = flatten d ++ l).
  { clear l. induction l as [|e l IH]; intros d ND Hd; simpl.
    - rewrite app_nil_r; reflexivity.
    - inversion ND as [|? ? Hn ND']; subst.
      rewrite dict_append_fresh by (intros kl Hkl; apply Hd; [left; reflexivity| exact Hkl]).
      rewrite IH; [| exact ND' |].
      + unfold flatten. rewrite flat_map_app. simpl. rewrite <- app_assoc. reflexivity.
      + intros e' kl He' Hkl. apply in_app_or in Hkl as [Hkl|[<-|[]]].
        * apply Hd; [right; exact He'| exact Hkl].
        * simpl. destruct (key_eqb (key_of e') (key_of e)) eqn:E; [|reflexivity].
          apply key_eqb_eq in E. exfalso. apply Hn. rewrite <- E. apply in_map. exact He'. }
  intros ND. rewrite G; [reflexivity| exact ND | intros ? ? _ []].
Qed.

Lemma Qlt_bool_iff a b : Qlt_bool a b = true <-> a < b.
Proof.
  unfold Qlt_bool. rewrite negb_true_iff. split; intros H.
  - destruct (Qlt_le_dec a b) as [L|L]; [exact L|]. apply Qle_bool_iff in L. congruence.
  - destruct (Qle_bool b a) eqn:E; [|reflexivity]. apply Qle_bool_iff in E. exfalso. apply (Qlt_not_le _ _ H E).
Qed.

Lemma end_time_inside t dur delta :
  Qlt_bool 0 (Qred (dur + delta)) && Qle_bool (Qred (dur + delta)) dur = true ->
  let te := Qred (t + Qred (dur + delta)) in
  te == t + (dur + delta) /\ t < te /\ te <= t + dur.
Proof.
  intros H. apply andb_true_iff in H as [H1 H2].
  apply Qlt_bool_iff in H1. apply Qle_bool_iff in H2.
  rewrite Qred_correct in H1, H2. cbv zeta.
  rewrite !Qred_correct. split; [reflexivity|]. split; lra.
Qed.

(* one entry of the plan gives its start action, followed for a variable duration by its end action *)
Lemma forward_cons P t a ps d rest pi' : forward P ((t, (a, ps), d) :: rest) = Some pi' ->
  exists r, forward P rest = Some r /\
    ((forall delta, kind_of P a <> Some (KVar delta)) /\ pi' = (t, (CStart a, ps), None) :: r \/
     exists dur delta, d = Some dur /\ kind_of P a = Some (KVar delta) /\
       Qlt_bool 0 (Qred (dur + delta)) && Qle_bool (Qred (dur + delta)) dur = true /\
       pi' = (t, (CStart a, ps), None) :: (Qred (t + Qred (dur + delta)), (CFirstEnd a, ps), None) :: r).
Proof.
  cbn [forward]; cbv zeta. destruct (kind_of P a) as [[| ex | delta]|]; [| | |discriminate].
  - destruct (forward P rest) as [r|]; [|discriminate]. cbn [option_map]. intros H. inversion H.
    exists r. split; [reflexivity|]. left. split; [intros delta; discriminate | reflexivity].
  - destruct (forward P rest) as [r|]; [|discriminate]. cbn [option_map]. intros H. inversion H.
    exists r. split; [reflexivity|]. left. split; [intros delta; discriminate | reflexivity].
  - destruct d as [dur|]; [|discriminate].
    destruct (Qlt_bool 0 (Qred (dur + delta)) && Qle_bool (Qred (dur + delta)) dur) eqn:C; [|discriminate].
    destruct (forward P rest) as [r|]; [|discriminate]. cbn [option_map]. intros H. inversion H.
    exists r. split; [reflexivity|]. right. exists dur, delta. auto.
Qed.

Theorem forward_end_sound P : forall pi pi', forward P pi = Some pi' ->
  forall te a ps x, In (te, (CFirstEnd a, ps), x) pi' ->
  exists t dur delta, In (t, (a, ps), Some dur) pi /\ kind_of P a = Some (KVar delta)
                      /\ te == t + (dur + delta) /\ t < te /\ te <= t + dur.
Proof.
  induction pi as [|[[t [a ps]] d] pi IH]; intros pi' H te a' ps' x Hin.
  - inversion H; subst. destruct Hin.
  - apply forward_cons in H. destruct H as (r & F & [[_ ->] | (dur & delta & -> & K & C & ->)]).
    + destruct Hin as [Hin|Hin]; [discriminate|].
      destruct (IH r F te a' ps' x Hin) as (t0 & dur & delta & Hi & R). exists t0, dur, delta. split; [right; exact Hi | exact R].
    + destruct Hin as [Hin|[Hin|Hin]]; [discriminate | |].
      * inversion Hin; subst. exists t, dur, delta. split; [left; reflexivity|]. split; [exact K|].
        apply (end_time_inside t dur delta C).
      * destruct (IH r F te a' ps' x Hin) as (t0 & dur0 & delta0 & Hi & R). exists t0, dur0, delta0. split; [right; exact Hi | exact R].
Qed.

Theorem forward_end_complete P : forall pi pi', forward P pi = Some pi' ->
  forall t a ps dur delta, In (t, (a, ps), Some dur) pi -> kind_of P a = Some (KVar delta) ->
  exists te, In (te, (CFirstEnd a, ps), None) pi' /\ te == t + (dur + delta) /\ t < te /\ te <= t + dur.
Proof.
  induction pi as [|[[t0 [a0 ps0]] d0] pi IH]; intros pi' H t a ps dur delta Hin K; [destruct Hin|].
  apply forward_cons in H. destruct H as (r & F & H). destruct Hin as [Hin|Hin].
  - inversion Hin; subst. destruct H as [[NV _] | (dur0 & delta0 & E & K0 & C & ->)]; [destruct (NV delta K)|].
    inversion E; subst dur0. rewrite K in K0. inversion K0; subst delta0.
    exists (Qred (t + Qred (dur + delta))). split; [right; left; reflexivity | apply (end_time_inside t dur delta C)].
  - destruct (IH r F t a ps dur delta Hin K) as (te & Hi & R). exists te. split; [|exact R].
    destruct H as [[_ ->] | (dur0 & delta0 & _ & _ & _ & ->)]; [right; exact Hi | right; right; exact Hi].
Qed.

(* the start actions of the forward plan are the plan's instances, at the same times, in the same order *)
Definition is_start (c : centry) : bool := match fst (snd (fst c)) with CStart _ => true | CFirstEnd _ => false end.

Theorem forward_starts P : forall pi pi', forward P pi = Some pi' -> filter is_start pi' = map cstart pi.
Proof.
  induction pi as [|[[t [a ps]] d] pi IH]; intros pi' H; [inversion H; reflexivity|].
  apply forward_cons in H. destruct H as (r & F & [[_ ->] | (dur & delta & _ & _ & _ & ->)]);
    cbn [filter is_start fst snd map]; rewrite (IH r F); reflexivity.
Qed.

(* a plan of fixed-duration and instantaneous actions has no end action in its forward plan: the ends are events *)
Theorem forward_fixed_no_end_action P pi pi' :
  Forall (wf_fixed_entry P) pi -> forward P pi = Some pi' -> pi' = map cstart pi /\ forallb is_start pi' = true.
Proof.
  intros H F. rewrite (forward_fixed P pi H) in F. inversion F; subst. split; [reflexivity|].
  apply forallb_forall. intros x Hx. apply in_map_iff in Hx as [e [<- _]]. reflexivity.
Qed.

Lemma Qred_involutive q : Qred (Qred q) = Qred q.
Proof. apply Qred_complete. apply Qred_correct. Qed.

Theorem back_forward_single_var P t a ps dur delta :
  kind_of P a = Some (KVar delta) -> 0 < dur + delta -> delta <= 0 ->
  exists pi', forward P [(t, (a, ps), Some dur)] = Some pi' /\ back P pi' = Some [(t, (a, ps), Some (Qred dur))].
Proof.
  intros K Hpos Hneg.
  assert (C : Qlt_bool 0 (Qred (dur + delta)) && Qle_bool (Qred (dur + delta)) dur = true).
  { apply andb_true_iff. split; [apply Qlt_bool_iff | apply Qle_bool_iff]; rewrite Qred_correct; lra. }
  destruct (end_time_inside t dur delta C) as [E1 [E2 E3]]. cbv zeta in E1, E2, E3.
  eexists. split.
  - cbn [forward]. rewrite K. cbv zeta. rewrite C. cbn [option_map]. reflexivity.
  - assert (L : Qle_bool t (Qred (t + Qred (dur + delta))) = true) by (apply Qle_bool_iff; lra).
    unfold back. cbn [sort_t fold_right insert_t].
    change (time_of (t, (CStart a, ps), @None Q)) with t.
    change (time_of (Qred (t + Qred (dur + delta)), (CFirstEnd a, ps), @None Q)) with (Qred (t + Qred (dur + delta))).
    rewrite L. cbn [back_loop]. rewrite K. cbn [dict_append dict_pop]. rewrite key_eqb_refl.
    cbn [pop_last]. rewrite L. cbn [dict_append]. rewrite key_eqb_refl.
    cbn [app back_loop flatten flat_map snd forallb]. unfold final_ok. cbn [fst snd]. rewrite K. cbn [andb app].
    replace (Qred (Qred (t + Qred (dur + delta)) - t - delta)) with (Qred dur); [reflexivity|].
    apply Qred_complete. rewrite E1. ring.
Qed.

Lemma regroup_sorted_distinct pi : NoDup (map key_of pi) -> regroup (sort_t pi) = sort_t pi.
Proof.
  intros ND. apply regroup_distinct_keys.
  eapply Permutation_NoDup; [|exact ND]. apply Permutation_map. symmetry. apply sort_t_perm.
Qed.

Lemma sort_t_sorted_perm : forall pi : list oentry, sorted_t (sort_t pi) /\ Permutation (sort_t pi) pi.
Proof. intros pi. split; [apply sort_t_sorted | apply sort_t_perm]. Qed.

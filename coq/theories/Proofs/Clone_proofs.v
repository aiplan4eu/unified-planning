(* Proofs for C22 (Model/Clone.v): in-place mutation through addresses ([sync]) implements the pure semantics ([step]) on
   the problem it is applied to and is invisible to every problem whose containers are disjoint; [hclone] produces such
   a problem with the same content.  Hence: same outcomes, equal states, independence, for all operation sequences. *)
From Coq Require Import List NArith Bool Arith Lia Permutation.
Import ListNotations.
Require Import UPV.Model.Clone UPV.Proofs.ListFacts.

Ltac splits := repeat match goal with |- _ /\ _ => split end.

Lemma set_nth_length {A} i (x : A) l : length (set_nth i x l) = length l.
Proof. revert i; induction l as [|y l IH]; intros [|i]; simpl; auto. Qed.

Lemma upd_length h a c : length (upd h a c) = length h.
Proof. revert a; induction h as [|x h IH]; intros [|a]; simpl; auto. Qed.

Lemma rd_upd_same h a c : a < length h -> rd (upd h a c) a = c.
Proof.
  unfold rd. revert a; induction h as [|x h IH]; intros [|a]; simpl; intros H; try lia; auto.
  apply IH; lia.
Qed.

Lemma rd_upd_other h a b c : a <> b -> rd (upd h a c) b = rd h b.
Proof.
  unfold rd. revert a b; induction h as [|x h IH]; intros [|a] [|b]; simpl; intros H; try congruence; auto.
Qed.

Lemma rd_app_l h x a : a < length h -> rd (h ++ x) a = rd h a.
Proof. intros H. unfold rd. apply app_nth1; exact H. Qed.

Lemma rd_app_at h c x : rd (h ++ c :: x) (length h) = c.
Proof. unfold rd. rewrite app_nth2 by lia. rewrite Nat.sub_diag. reflexivity. Qed.

Lemma write_all_length addrs : forall h cs, length (write_all h addrs cs) = length h.
Proof.
  induction addrs as [|a ar IH]; intros h [|c cr]; simpl; auto. rewrite IH. apply upd_length.
Qed.

Lemma write_all_other addrs : forall h cs b, ~ In b addrs -> rd (write_all h addrs cs) b = rd h b.
Proof.
  induction addrs as [|a ar IH]; intros h [|c cr] b Hn; simpl; auto.
  rewrite IH by (intros Hi; apply Hn; right; exact Hi).
  apply rd_upd_other. intros E; apply Hn; left; exact E.
Qed.

Lemma write_all_read addrs : forall h cs,
  NoDup addrs -> Forall (fun a => a < length h) addrs -> length cs = length addrs ->
  map (rd (write_all h addrs cs)) addrs = cs.
Proof.
  induction addrs as [|a ar IH]; intros h [|c cr] Hd Hb Hl; simpl in *; try discriminate; auto.
  inversion Hd as [|? ? Hn Hd']; subst. inversion Hb as [|? ? Ha Hb']; subst. f_equal.
  - rewrite write_all_other by exact Hn. apply rd_upd_same; exact Ha.
  - apply IH; [exact Hd' | | lia]. rewrite upd_length. exact Hb'.
Qed.

(* h' extends h; the cells [new] owned afterwards are distinct and allocated, each is one of the cells [old] owned
   before or is fresh; every other cell of h is untouched *)
Record grows (h h' : heap) (old new : list nat) : Prop := {
  g_len : length h <= length h';
  g_nodup : NoDup new;
  g_bound : Forall (fun b => b < length h') new;
  g_from : forall b, In b new -> In b old \/ length h <= b;
  g_frame : forall b, b < length h -> ~ In b old -> rd h' b = rd h b
}.

(* one mutation after another, on disjoint sets of cells *)
Lemma grows_app h h1 h2 o1 n1 o2 n2 :
  grows h h1 o1 n1 -> grows h1 h2 o2 n2 ->
  Forall (fun b => b < length h) o2 -> (forall x, In x o1 -> ~ In x o2) ->
  grows h h2 (o1 ++ o2) (n1 ++ n2).
Proof.
  intros [L1 D1 B1 P1 F1] [L2 D2 B2 P2 F2] Ho2 Hdj. rewrite Forall_forall in B1, B2, Ho2. constructor.
  - lia.
  - apply NoDup_app_iff. split; [exact D1|]. split; [exact D2|]. intros x H1 H2.
    destruct (P2 x H2) as [H2'|H2']; [|specialize (B1 x H1); lia].
    destruct (P1 x H1) as [H1'|H1']; [exact (Hdj x H1' H2') | specialize (Ho2 x H2'); lia].
  - apply Forall_forall. intros x Hx. apply in_app_or in Hx.
    destruct Hx as [Hx|Hx]; [specialize (B1 x Hx); lia | exact (B2 x Hx)].
  - intros b Hb. apply in_app_or in Hb. destruct Hb as [Hb|Hb].
    + destruct (P1 b Hb) as [H|H]; [left; apply in_or_app; left; exact H | right; exact H].
    + destruct (P2 b Hb) as [H|H]; [left; apply in_or_app; right; exact H | right; lia].
  - intros b Hb Hn. rewrite F2; [apply F1; [exact Hb|] | lia |]; intros H; apply Hn; apply in_or_app; auto.
Qed.

Lemma grows_perm h h' old old' new new' :
  Permutation old old' -> Permutation new new' -> grows h h' old new -> grows h h' old' new'.
Proof.
  intros Po Pn [L D B P F]. constructor.
  - exact L.
  - eapply Permutation_NoDup; eauto.
  - eapply Permutation_Forall; eauto.
  - intros b Hb. apply (Permutation_in _ (Permutation_sym Pn)) in Hb.
    destruct (P b Hb) as [H|H]; [left; eapply Permutation_in; eauto | right; exact H].
  - intros b Hb Hn. apply F; [exact Hb|]. intros H. apply Hn. eapply Permutation_in; eauto.
Qed.

Lemma grows_upd h a c : a < length h -> grows h (upd h a c) [a] [a].
Proof.
  intros Ha. constructor.
  - rewrite upd_length. lia.
  - constructor; [intros [] | constructor].
  - rewrite upd_length. constructor; [exact Ha | constructor].
  - intros b Hb. left; exact Hb.
  - intros b _ Hn. apply rd_upd_other. intros ->. apply Hn. left; reflexivity.
Qed.

Lemma grows_refl h old : grows h h old [].
Proof. constructor; [lia | constructor | constructor | intros b [] | reflexivity]. Qed.

Lemma grows_alloc h cs : grows h (h ++ cs) [] (seq (length h) (length cs)).
Proof.
  constructor.
  - rewrite app_length. lia.
  - apply seq_NoDup.
  - rewrite app_length. apply Forall_forall. intros x Hx. apply in_seq in Hx. lia.
  - intros b Hb. apply in_seq in Hb. right. lia.
  - intros b Hb _. apply rd_app_l; exact Hb.
Qed.

Lemma take_perm k : forall old a old', take k old = Some (a, old') -> Permutation (map snd old) (a :: map snd old').
Proof.
  induction old as [|[k' b] t IH]; simpl; intros a old' H; [discriminate|].
  destruct (k =? k')%N.
  - inversion H; subst. apply Permutation_refl.
  - destruct (take k t) as [[a' t']|] eqn:E; [|discriminate]. inversion H; subst. simpl.
    eapply perm_trans; [apply perm_skip, (IH _ _ eq_refl) | apply perm_swap].
Qed.

Lemma sync_refs_spec : forall new h old h' r,
  NoDup (map snd old) -> Forall (fun a => a < length h) (map snd old) ->
  sync_refs h old new = (h', r) ->
  grows h h' (map snd old) (map snd r) /\ abs_refs h' r = new.
Proof.
  induction new as [|[k c] rest IH]; intros h old h' r Hd Hb H; simpl in H.
  - inversion H; subst. split; [apply grows_refl | reflexivity].
  - destruct (take k old) as [[a old']|] eqn:Et.
    + (* the key exists: its cell is overwritten in place *)
      destruct (sync_refs (upd h a c) old' rest) as [h1 r1] eqn:Es. inversion H; subst h1 r. clear H.
      pose proof (take_perm _ _ _ _ Et) as Hp.
      pose proof (Permutation_NoDup Hp Hd) as Hd2. inversion Hd2 as [|? ? Hna Hd']; subst.
      pose proof (Permutation_Forall Hp Hb) as Hb2. inversion Hb2 as [|? ? Ha Hb']; subst.
      destruct (IH (upd h a c) old' h' r1 Hd') as [G A]; [rewrite upd_length; exact Hb' | exact Es |].
      split.
      * apply (grows_perm _ _ (a :: map snd old') _ _ _ (Permutation_sym Hp) (Permutation_refl _)).
        apply (grows_app h (upd h a c) h' [a] [a]); [apply grows_upd, Ha | exact G | exact Hb' |].
        intros x [<-|[]]. exact Hna.
      * simpl. rewrite A. f_equal. f_equal.
        rewrite (g_frame _ _ _ _ G) by (rewrite ?upd_length; assumption). apply rd_upd_same; exact Ha.
    + (* a new key: a new cell *)
      destruct (sync_refs (h ++ [c]) old rest) as [h1 r1] eqn:Es. inversion H; subst h1 r. clear H.
      assert (Hb3 : Forall (fun x => x < length (h ++ [c])) (map snd old)).
      { rewrite app_length; simpl. eapply Forall_impl; [|exact Hb]. simpl; intros; lia. }
      destruct (IH (h ++ [c]) old h' r1 Hd Hb3 Es) as [G A]. split.
      * apply (grows_app h (h ++ [c]) h' [] [length h]); [apply (grows_alloc h [c]) | exact G | exact Hb | intros x []].
      * simpl. rewrite A. f_equal. f_equal.
        rewrite (g_frame _ _ _ _ G); [apply rd_app_at | rewrite app_length; simpl; lia |].
        intros Hi. rewrite Forall_forall in Hb. specialize (Hb _ Hi). lia.
Qed.

Lemma abs_refs_ext h h' r : (forall b, In b (map snd r) -> rd h' b = rd h b) -> abs_refs h' r = abs_refs h r.
Proof.
  intros H. unfold abs_refs. apply map_ext_in. intros [k a] Hi. simpl. f_equal. apply H.
  change a with (snd (k, a)). apply in_map; exact Hi.
Qed.

(* what a nested attribute looks like depends only on its own cell and the cells it refers to *)
Lemma nest_ext h h' a : (forall b, In b (a :: inner h a) -> rd h' b = rd h b) ->
  inner h' a = inner h a /\ abs_refs h' (refs (rd h' a)) = abs_refs h (refs (rd h a)).
Proof.
  intros H. unfold inner. rewrite (H a (or_introl eq_refl)). split; [reflexivity|].
  apply abs_refs_ext. intros b Hb. apply H. right; exact Hb.
Qed.

Lemma sync_nest_spec h a new :
  a < length h -> NoDup (a :: inner h a) -> Forall (fun b => b < length h) (inner h a) ->
  let h' := sync_nest h a new in
  grows h h' (a :: inner h a) (a :: inner h' a) /\ abs_refs h' (refs (rd h' a)) = new.
Proof.
  intros Ha Hd Hb. unfold sync_nest, inner in *. cbv zeta.
  destruct (sync_refs h (refs (rd h a)) new) as [h1 r] eqn:Es.
  inversion Hd as [|? ? Hna Hd']; subst.
  destruct (sync_refs_spec _ _ _ _ _ Hd' Hb Es) as [G A].
  assert (Ha1 : a < length h1) by (pose proof (g_len _ _ _ _ G); lia).
  assert (Hnr : ~ In a (map snd r)).
  { intros Hi. destruct (g_from _ _ _ _ G _ Hi) as [Hi'|Hi']; [tauto | lia]. }
  rewrite (rd_upd_same h1 a _ Ha1). simpl. split.
  - apply (grows_perm _ _ (map snd (refs (rd h a)) ++ [a]) _ (map snd r ++ [a]));
      try (apply Permutation_sym, Permutation_cons_append).
    apply (grows_app h h1); [exact G | apply grows_upd, Ha1 | constructor; [exact Ha | constructor] |].
    intros x Hx [<-|[]]. exact (Hna Hx).
  - rewrite <- A. apply abs_refs_ext. intros b Hbi. apply rd_upd_other. intros ->; tauto.
Qed.

Definition owned (h : heap) (addrs : list nat) : list nat := flat_map (fun a => a :: inner h a) addrs.

Lemma footprint_owned h p : Permutation (footprint h p) (o_flat p ++ owned h (o_nest p)).
Proof.
  unfold footprint, owned. apply Permutation_app_head.
  induction (o_nest p) as [|a l IH]; simpl; [constructor|].
  apply perm_skip. eapply perm_trans; [apply Permutation_app_swap_app|]. apply Permutation_app_head. exact IH.
Qed.

Lemma owned_ext h h' addrs : (forall a, In a addrs -> rd h' a = rd h a) -> owned h' addrs = owned h addrs.
Proof.
  intros H. unfold owned. induction addrs as [|a l IH]; simpl; [reflexivity|].
  unfold inner at 1. rewrite (H a) by (left; reflexivity). fold (inner h a). f_equal. f_equal.
  apply IH. intros b Hb. apply H. right; exact Hb.
Qed.

Lemma in_owned_self h addrs a : In a addrs -> In a (owned h addrs).
Proof. unfold owned. intros H. apply in_flat_map. exists a. split; [exact H | left; reflexivity]. Qed.

(* a mutation that leaves the cells owned through [addrs] alone leaves [owned .. addrs] as it is *)
Lemma owned_frame h h' old new addrs :
  grows h h' old new -> Forall (fun b => b < length h) (owned h addrs) -> (forall x, In x old -> ~ In x (owned h addrs)) ->
  owned h' addrs = owned h addrs.
Proof.
  intros G Hb Hdj. apply owned_ext. intros a Ha. pose proof (in_owned_self h addrs a Ha) as Hio.
  apply (g_frame _ _ _ _ G).
  - rewrite Forall_forall in Hb. apply Hb; exact Hio.
  - intros Hi. exact (Hdj a Hi Hio).
Qed.

Lemma sync_nests_spec : forall addrs news h,
  NoDup (owned h addrs) -> Forall (fun b => b < length h) (owned h addrs) -> length news = length addrs ->
  let h' := sync_nests h addrs news in
  grows h h' (owned h addrs) (owned h' addrs) /\ map (fun a => abs_refs h' (refs (rd h' a))) addrs = news.
Proof.
  induction addrs as [|a ar IH]; intros [|n nr] h Hd Hb Hl; simpl in Hl; try discriminate; cbv zeta.
  - simpl. split; [apply grows_refl | reflexivity].
  - simpl sync_nests.
    change (owned h (a :: ar)) with ((a :: inner h a) ++ owned h ar) in *.
    apply NoDup_app_iff in Hd. destruct Hd as (Hd1 & Hd2 & Hdj).
    apply Forall_app in Hb. destruct Hb as (Hb1 & Hb2).
    inversion Hb1 as [|? ? Ha Hb1']; subst.
    destruct (sync_nest_spec h a n Ha Hd1 Hb1') as [G1 A1].
    remember (sync_nest h a n) as h1 eqn:Eh1. clear Eh1.
    pose proof (owned_frame _ _ _ _ ar G1 Hb2 Hdj) as Eo.
    assert (Hb2' : Forall (fun b => b < length h1) (owned h1 ar)).
    { rewrite Eo. pose proof (g_len _ _ _ _ G1). eapply Forall_impl; [|exact Hb2]. simpl; intros; lia. }
    destruct (IH nr h1) as [G2 A2]; [rewrite Eo; exact Hd2 | exact Hb2' | lia |].
    remember (sync_nests h1 ar nr) as h' eqn:Eh'. clear Eh'.
    (* the second step touches neither a nor a's inner containers *)
    assert (Hsep : forall x, In x (a :: inner h1 a) -> ~ In x (owned h1 ar)).
    { intros x Hx Hi. rewrite Eo in Hi. destruct (g_from _ _ _ _ G1 x Hx) as [Hx'|Hx'].
      - exact (Hdj x Hx' Hi).
      - rewrite Forall_forall in Hb2. specialize (Hb2 _ Hi). lia. }
    assert (Rk : forall x, In x (a :: inner h1 a) -> rd h' x = rd h1 x).
    { intros x Hx. apply (g_frame _ _ _ _ G2); [|apply Hsep, Hx].
      pose proof (g_bound _ _ _ _ G1) as B1. rewrite Forall_forall in B1. apply B1, Hx. }
    destruct (nest_ext h1 h' a Rk) as [Ei Ea].
    change (owned h' (a :: ar)) with ((a :: inner h' a) ++ owned h' ar). rewrite Ei. split.
    + rewrite <- Eo. apply (grows_app h h1 h'); [exact G1 | exact G2 | rewrite Eo; exact Hb2 |].
      intros x Hx. rewrite Eo. exact (Hdj x Hx).
    + simpl. rewrite Ea, A1, A2. reflexivity.
Qed.

Definition wf' (h : heap) (p : pobj) : Prop :=
  NoDup (o_flat p ++ owned h (o_nest p)) /\ Forall (fun a => a < length h) (o_flat p ++ owned h (o_nest p)).

Lemma wf_wf' h p : wf h p <-> wf' h p.
Proof.
  unfold wf, wf'. pose proof (footprint_owned h p) as P. split; intros [H1 H2]; split.
  - eapply Permutation_NoDup; eauto.
  - eapply Permutation_Forall; eauto.
  - eapply Permutation_NoDup; [apply Permutation_sym|]; eauto.
  - eapply Permutation_Forall; [apply Permutation_sym|]; eauto.
Qed.

Lemma in_footprint_iff h p b : In b (footprint h p) <-> In b (o_flat p ++ owned h (o_nest p)).
Proof.
  pose proof (footprint_owned h p) as P. split; intros H.
  - eapply Permutation_in; eauto.
  - eapply Permutation_in; [apply Permutation_sym|]; eauto.
Qed.

(* what a problem looks like depends only on the cells it reaches *)
Lemma abs_ext h h' q :
  (forall b, In b (footprint h q) -> rd h' b = rd h b) -> abs h' q = abs h q /\ footprint h' q = footprint h q.
Proof.
  intros H.
  assert (Hn : forall a, In a (o_nest q) ->
            inner h' a = inner h a /\ abs_refs h' (refs (rd h' a)) = abs_refs h (refs (rd h a))).
  { intros a Ha. apply nest_ext. intros b Hb. apply H. unfold footprint. apply in_or_app; right.
    destruct Hb as [<-|Hb]; apply in_or_app; [left; exact Ha | right; apply in_flat_map; exists a; auto]. }
  split.
  - unfold abs. f_equal; apply map_ext_in; intros a Ha; [|apply Hn, Ha].
    apply H. unfold footprint. apply in_or_app; left; exact Ha.
  - unfold footprint. f_equal. f_equal. apply flat_map_ext_in. intros a Ha. apply Hn, Ha.
Qed.

Definition retag (p : pobj) (s : pstate) : pobj := {| o_scal := s_scal s; o_flat := o_flat p; o_nest := o_nest p |}.

Lemma write_all_grows h addrs cs :
  NoDup addrs -> Forall (fun a => a < length h) addrs -> grows h (write_all h addrs cs) addrs addrs.
Proof.
  intros Hd Hb. constructor.
  - rewrite write_all_length. lia.
  - exact Hd.
  - rewrite write_all_length. exact Hb.
  - intros b Hi. left; exact Hi.
  - intros b _ Hn. apply write_all_other, Hn.
Qed.

Lemma sync_spec h p s :
  wf h p -> length (s_flat s) = length (o_flat p) -> length (s_nest s) = length (o_nest p) ->
  let h' := sync h p s in
  abs h' (retag p s) = s /\
  grows h h' (o_flat p ++ owned h (o_nest p)) (o_flat p ++ owned h' (o_nest p)).
Proof.
  intros W Lf Ln. apply wf_wf' in W. destruct W as [Wd Wb]. cbv zeta. unfold sync.
  apply NoDup_app_iff in Wd. destruct Wd as (Df & Do & Dj).
  apply Forall_app in Wb. destruct Wb as (Bf & Bo).
  pose proof (write_all_grows h (o_flat p) (s_flat s) Df Bf) as G0.
  remember (write_all h (o_flat p) (s_flat s)) as h0 eqn:E0.
  assert (L0 : length h0 = length h) by (subst h0; apply write_all_length).
  pose proof (owned_frame _ _ _ _ (o_nest p) G0 Bo Dj) as Eo.
  destruct (sync_nests_spec (o_nest p) (s_nest s) h0) as [G A]; [rewrite Eo; exact Do | rewrite Eo, L0; exact Bo | exact Ln |].
  remember (sync_nests h0 (o_nest p) (s_nest s)) as h' eqn:E'. clear E'. rewrite Eo in G.
  split.
  - unfold abs, retag; simpl. rewrite A. replace (map (rd h') (o_flat p)) with (s_flat s); [destruct s; reflexivity|].
    rewrite <- (write_all_read (o_flat p) h (s_flat s) Df Bf Lf). rewrite <- E0.
    apply map_ext_in. intros a Ha. symmetry. apply (g_frame _ _ _ _ G).
    + rewrite L0. rewrite Forall_forall in Bf. apply Bf; exact Ha.
    + apply Dj; exact Ha.
  - apply (grows_app h h0 h'); [exact G0 | exact G | exact Bo | exact Dj].
Qed.

(* a mutation leaves every problem that shares no cell with what it touches as it was *)
Lemma grows_keeps h h' old new q : grows h h' old new -> wf h q -> disjoint old (footprint h q) ->
  abs h' q = abs h q /\ footprint h' q = footprint h q /\ wf h' q.
Proof.
  intros G [Wd Wb] Dj. rewrite Forall_forall in Wb.
  destruct (abs_ext h h' q) as [Ea Ef].
  { intros b Hb. apply (g_frame _ _ _ _ G); [apply Wb, Hb | intros Hi; exact (Dj b Hi Hb)]. }
  split; [exact Ea|]. split; [exact Ef|]. unfold wf. rewrite Ef. split; [exact Wd|].
  apply Forall_forall. intros b Hb. pose proof (g_len _ _ _ _ G). specialize (Wb b Hb). lia.
Qed.

Lemma sync_frame h p s q :
  wf h p -> wf h q -> disjoint (footprint h p) (footprint h q) ->
  length (s_flat s) = length (o_flat p) -> length (s_nest s) = length (o_nest p) ->
  let h' := sync h p s in
  abs h' (retag p s) = s /\ wf h' (retag p s) /\
  abs h' q = abs h q /\ wf h' q /\ disjoint (footprint h' (retag p s)) (footprint h' q).
Proof.
  intros Wp Wq Dj Lf Ln. cbv zeta.
  destruct (sync_spec h p s Wp Lf Ln) as (A & G).
  remember (sync h p s) as h' eqn:E'. clear E'.
  destruct (grows_keeps _ _ _ _ q G Wq) as (Ea & Ef & Wq').
  { intros b Hb. apply Dj, in_footprint_iff, Hb. }
  destruct G as [L D B P F]. split; [exact A|]. split; [|split; [exact Ea | split; [exact Wq'|]]].
  - apply wf_wf'. split; assumption.
  - rewrite Ef. intros b Hb Hq. apply in_footprint_iff in Hb. destruct (P _ Hb) as [Hx|Hx].
    + apply (Dj b); [apply in_footprint_iff; exact Hx | exact Hq].
    + destruct Wq as [_ Wqb]. rewrite Forall_forall in Wqb. specialize (Wqb _ Hq). lia.
Qed.

Lemma map_rd_seq cs : forall h ext, map (rd (h ++ cs ++ ext)) (seq (length h) (length cs)) = cs.
Proof.
  induction cs as [|c cs IH]; intros h ext; simpl; [reflexivity|]. f_equal.
  - apply rd_app_at.
  - replace (h ++ c :: cs ++ ext) with ((h ++ [c]) ++ cs ++ ext) by (rewrite <- app_assoc; reflexivity).
    replace (S (length h)) with (length (h ++ [c])) by (rewrite app_length; simpl; lia). apply IH.
Qed.

Lemma abs_refs_alloc l : forall h ext,
  abs_refs (h ++ map snd l ++ ext) (combine (map fst l) (seq (length h) (length l))) = l.
Proof.
  induction l as [|[k c] l IH]; intros h ext; simpl; [reflexivity|]. f_equal.
  - unfold abs_refs; simpl. rewrite rd_app_at. reflexivity.
  - replace (h ++ c :: map snd l ++ ext) with ((h ++ [c]) ++ map snd l ++ ext) by (rewrite <- app_assoc; reflexivity).
    replace (S (length h)) with (length (h ++ [c])) by (rewrite app_length; simpl; lia). apply IH.
Qed.

Lemma map_snd_combine {A B} (a : list A) (b : list B) : length a = length b -> map snd (combine a b) = b.
Proof. revert b; induction a as [|x a IH]; intros [|y b] H; simpl in *; try discriminate; auto. f_equal. apply IH; lia. Qed.

Lemma alloc_nest_spec h l h' a : alloc_nest h l = (h', a) ->
  grows h h' [] (a :: inner h' a) /\ abs_refs h' (refs (rd h' a)) = l.
Proof.
  unfold alloc_nest, alloc_refs. intros H. inversion H; subst h' a. clear H.
  set (r0 := combine (map fst l) (seq (length h) (length l))).
  assert (La : length (h ++ map snd l) = length h + length l) by (rewrite app_length, map_length; reflexivity).
  assert (Ra : rd ((h ++ map snd l) ++ [CRefs r0]) (length (h ++ map snd l)) = CRefs r0) by apply rd_app_at.
  assert (Ei : inner ((h ++ map snd l) ++ [CRefs r0]) (length (h ++ map snd l)) = seq (length h) (length l)).
  { unfold inner. rewrite Ra. apply map_snd_combine. rewrite map_length, seq_length. reflexivity. }
  rewrite Ei, Ra. split.
  - constructor.
    + rewrite !app_length. lia.
    + constructor; [intros Hi; apply in_seq in Hi; lia | apply seq_NoDup].
    + rewrite app_length, La. simpl. constructor; [lia|]. apply Forall_forall. intros x Hx. apply in_seq in Hx. lia.
    + intros b [<-|Hb]; [|apply in_seq in Hb]; right; lia.
    + intros b Hb _. rewrite rd_app_l by (rewrite La; lia). apply rd_app_l; exact Hb.
  - simpl. rewrite <- app_assoc. apply abs_refs_alloc.
Qed.

Lemma alloc_nests_spec : forall ls h h' ns, alloc_nests h ls = (h', ns) ->
  grows h h' [] (owned h' ns) /\ map (fun a => abs_refs h' (refs (rd h' a))) ns = ls.
Proof.
  induction ls as [|l r IH]; intros h h' ns H; cbn [alloc_nests] in H.
  - inversion H; subst. split; [apply grows_refl | reflexivity].
  - destruct (alloc_nest h l) as [h1 a] eqn:E1.
    destruct (alloc_nests h1 r) as [h2 ar] eqn:Ea. injection H as <- <-.
    destruct (alloc_nest_spec _ _ _ _ E1) as [G1 A1]. destruct (IH _ _ _ Ea) as [G2 A2].
    assert (Rk : forall x, In x (a :: inner h1 a) -> rd h2 x = rd h1 x).
    { intros x Hx. apply (g_frame _ _ _ _ G2); [|intros []].
      pose proof (g_bound _ _ _ _ G1) as B1. rewrite Forall_forall in B1. apply B1, Hx. }
    destruct (nest_ext h1 h2 a Rk) as [Ei Ev].
    change (owned h2 (a :: ar)) with ((a :: inner h2 a) ++ owned h2 ar). rewrite Ei. split.
    + apply (grows_app h h1 h2 [] _ [] _ G1 G2); [constructor | intros x []].
    + simpl. rewrite Ev, A1, A2. reflexivity.
Qed.

(* clone(): same content, brand-new containers *)
Lemma hclone_spec h p h' c : wf h p -> hclone h p = (h', c) ->
  abs h' c = abs h p /\ abs h' p = abs h p /\ wf h' p /\ wf h' c /\ disjoint (footprint h' p) (footprint h' c).
Proof.
  intros W H. unfold hclone, alloc_cells in H.
  set (cs := map (rd h) (o_flat p)) in *.
  destruct (alloc_nests (h ++ cs) (map (fun a => abs_refs h (refs (rd h a))) (o_nest p))) as [h2 ns] eqn:Ea.
  inversion H; subst h' c. clear H.
  destruct (alloc_nests_spec _ _ _ _ Ea) as [G2 A].
  pose proof (grows_app _ _ _ _ _ _ _ (grows_alloc h cs) G2 (Forall_nil _) (fun x (H : In x []) => match H with end)) as G.
  destruct (grows_keeps _ _ _ _ p G W (fun x (H : In x []) => match H with end)) as (Eabs & Efp & Wp).
  destruct G as [L D B P F]. simpl app in P.
  assert (Wc : wf h2 {| o_scal := o_scal p; o_flat := seq (length h) (length cs); o_nest := ns |}).
  { apply wf_wf'. split; assumption. }
  split; [|split; [exact Eabs | split; [exact Wp | split; [exact Wc|]]]].
  - unfold abs; simpl. f_equal; [|exact A].
    transitivity (map (rd (h ++ cs)) (seq (length h) (length cs))).
    + apply map_ext_in. intros b Hb. apply in_seq in Hb. apply (g_frame _ _ _ _ G2); [rewrite app_length; lia | intros []].
    + rewrite <- (app_nil_r cs) at 1. apply map_rd_seq.
  - intros b Hb Hc. destruct W as [_ Wb]. rewrite Efp in Hb. rewrite Forall_forall in Wb. specialize (Wb _ Hb).
    apply in_footprint_iff in Hc. simpl in Hc. destruct (P _ Hc) as [[]|Hge]. lia.
Qed.

Lemma nodupb_NoDup l : nodupb l = true -> NoDup l.
Proof.
  induction l as [|x l IH]; simpl; intros H; [constructor|].
  apply andb_true_iff in H. destruct H as [H1 H2]. constructor; [|apply IH; exact H2].
  intros Hi. apply negb_true_iff in H1. assert (existsb (Nat.eqb x) l = true); [|congruence].
  apply existsb_exists. exists x. split; [exact Hi | apply Nat.eqb_refl].
Qed.

Lemma wfb_wf h p : wfb h p = true -> wf h p.
Proof.
  unfold wfb, wf. intros H. apply andb_true_iff in H. destruct H as [H1 H2]. split; [apply nodupb_NoDup; exact H1|].
  apply Forall_forall. intros x Hx. rewrite forallb_forall in H2. specialize (H2 _ Hx). apply Nat.ltb_lt; exact H2.
Qed.

Definition same_shape (s t : pstate) : Prop :=
  length (s_flat t) = length (s_flat s) /\ length (s_nest t) = length (s_nest s).

Lemma shape_refl s : same_shape s s. Proof. split; reflexivity. Qed.
Lemma shape_trans s t u : same_shape s t -> same_shape t u -> same_shape s u.
Proof. intros [A B] [C D]; split; congruence. Qed.
Lemma shape_set_flat s i c : same_shape s (set_flat s i c).
Proof. split; simpl; [apply set_nth_length | reflexivity]. Qed.
Lemma shape_set_nest s i l : same_shape s (set_nest s i l).
Proof. split; simpl; [reflexivity | apply set_nth_length]. Qed.
Lemma shape_set_scal s i v : same_shape s (set_scal s i v).
Proof. split; reflexivity. Qed.

Lemma add_user_type_shape chain : forall s s', add_user_type s chain = Some s' -> same_shape s s'.
Proof.
  induction chain as [|t rest IH]; simpl; intros s s' H.
  - inversion H; subst. apply shape_refl.
  - destruct (existsb (val_eqb t) (lst (flat s F_TYPES))); [inversion H; subst; apply shape_refl|].
    destruct (has_name s (snd t)); [discriminate|].
    destruct (add_user_type s rest) as [s1|] eqn:E; [|discriminate]. inversion H; subst.
    eapply shape_trans; [apply (IH _ _ E) | apply shape_set_flat].
Qed.

Lemma add_types_shape chains : forall s, same_shape s (fst (add_types s chains)).
Proof.
  induction chains as [|c r IH]; simpl; intros s; [apply shape_refl|].
  destruct (add_user_type s c) as [s'|] eqn:E; simpl; [|apply shape_refl].
  eapply shape_trans; [apply (add_user_type_shape _ _ _ E) | apply IH].
Qed.

Lemma step_shape s o : same_shape s (fst (step s o)).
Proof.
  unfold step. destruct (o_pre o); simpl; [apply shape_refl|].
  destruct (o_body o); unfold step_body.
  - destruct (has_name s (snd f)); simpl; [apply shape_refl|].
    eapply shape_trans; [|apply add_types_shape].
    destruct default.
    + eapply shape_trans; apply shape_set_flat.
    + destruct (alookup ty _); [eapply shape_trans; apply shape_set_flat | apply shape_set_flat].
  - destruct (has_name s (snd o0)); simpl; [apply shape_refl|].
    eapply shape_trans; [apply shape_set_flat | apply add_types_shape].
  - destruct (has_name s name); simpl; [apply shape_refl|].
    eapply shape_trans; [apply shape_set_nest | apply add_types_shape].
  - destruct is_true; simpl; [apply shape_refl | apply shape_set_flat].
  - match goal with |- context [tstore_add ?a ?b ?c ?d] => destruct (tstore_add a b c d) as [[[effs asg] incdec] accepted] end. simpl.
    eapply shape_trans; [eapply shape_trans|]; apply shape_set_nest.
  - apply shape_set_nest.
  - apply shape_set_flat.
  - apply shape_set_flat.
  - apply shape_set_flat.
  - destruct (alookup name (nest s N_ACTIONS)); [|apply shape_refl].
    match goal with |- context [tstore_add ?a ?b ?c ?d] => destruct (tstore_add a b c d) as [[[effs asg] incdec] accepted] end. simpl. apply shape_set_nest.
  - destruct (alookup name (nest s N_ACTIONS)); [|apply shape_refl]. simpl. apply shape_set_nest.
  - apply shape_set_scal.
Qed.

Lemma abs_lengths h p : length (s_flat (abs h p)) = length (o_flat p) /\ length (s_nest (abs h p)) = length (o_nest p).
Proof. unfold abs; simpl. rewrite !map_length. split; reflexivity. Qed.

Lemma hstep_spec h p q o h' p' out :
  wf h p -> wf h q -> disjoint (footprint h p) (footprint h q) ->
  hstep h p o = (h', p', out) ->
  step (abs h p) o = (abs h' p', out) /\
  abs h' q = abs h q /\ wf h' p' /\ wf h' q /\ disjoint (footprint h' p') (footprint h' q).
Proof.
  intros Wp Wq Dj H. unfold hstep in H.
  pose proof (step_shape (abs h p) o) as [Sf Sn]. destruct (abs_lengths h p) as [Lf Ln]. rewrite Lf in Sf. rewrite Ln in Sn.
  destruct (step (abs h p) o) as [s' out'] eqn:Es. simpl in *. inversion H; subst h' p' out. clear H.
  destruct (sync_frame h p s' q Wp Wq Dj Sf Sn) as (A & W' & Aq & Wq' & Dj').
  unfold retag in *. rewrite A. splits; try assumption; reflexivity.
Qed.

Lemma disjoint_sym l1 l2 : disjoint l1 l2 -> disjoint l2 l1.
Proof. intros H a H2 H1. exact (H a H1 H2). Qed.

(* the problem on one side of a world, as its own attributes show it *)
Definition view (sd : side) (w : world) : pstate :=
  abs (w_heap w) match sd with SOrig => w_p w | SClone => w_c w end.

Definition Sep (w : world) : Prop :=
  wf (w_heap w) (w_p w) /\ wf (w_heap w) (w_c w) /\
  disjoint (footprint (w_heap w) (w_p w)) (footprint (w_heap w) (w_c w)).

Lemma wstep_spec w sd o w' out : Sep w -> wstep w (sd, o) = (w', out) ->
  Sep w' /\ step (view sd w) o = (view sd w', out) /\ forall sd', sd' <> sd -> view sd' w' = view sd' w.
Proof.
  intros (Wp & Wc & Dj) H. unfold wstep in H. simpl in H. destruct sd.
  - destruct (hstep (w_heap w) (w_p w) o) as [[h1 p1] out1] eqn:E. inversion H; subst w' out. clear H.
    destruct (hstep_spec _ _ _ _ _ _ _ Wp Wc Dj E) as (S1 & A2 & W1 & W2 & D1).
    split; [exact (conj W1 (conj W2 D1))|]. split; [exact S1|]. intros [] N; [congruence | exact A2].
  - destruct (hstep (w_heap w) (w_c w) o) as [[h1 c1] out1] eqn:E. inversion H; subst w' out. clear H.
    destruct (hstep_spec _ _ _ _ _ _ _ Wc Wp (disjoint_sym _ _ Dj) E) as (S1 & A2 & W1 & W2 & D1).
    split; [exact (conj W2 (conj W1 (disjoint_sym _ _ D1)))|]. split; [exact S1|]. intros [] N; [exact A2 | congruence].
Qed.

Lemma side_eqb_spec a b : reflect (a = b) (side_eqb a b).
Proof. destruct a, b; constructor; congruence. Qed.

(* any interleaving of calls on two separate problems: each side evolves as if it were alone *)
Theorem wrun_sim sd : forall tr w, Sep w ->
  Sep (fst (wrun w tr)) /\
  prun (view sd w) (proj sd tr) = (view sd (fst (wrun w tr)), proj_out sd tr (snd (wrun w tr))).
Proof.
  induction tr as [|[sd' o] r IH]; intros w S; simpl.
  - split; [exact S | reflexivity].
  - destruct (wstep w (sd', o)) as [w1 out] eqn:E.
    destruct (wstep_spec _ _ _ _ _ S E) as (S1 & St & Ot).
    destruct (IH w1 S1) as [S2 R]. destruct (wrun w1 r) as [w2 outs]. simpl in *. split; [exact S2|].
    unfold proj in *. simpl. destruct (side_eqb_spec sd' sd) as [->|N]; simpl.
    + rewrite St, R. reflexivity.
    + rewrite <- (Ot sd (not_eq_sym N)). exact R.
Qed.

Lemma clone_world_inv h p : wf h p ->
  Sep (clone_world h p) /\ forall sd, view sd (clone_world h p) = abs h p.
Proof.
  intros W. unfold clone_world. destruct (hclone h p) as [h' c] eqn:E.
  destruct (hclone_spec _ _ _ _ W E) as (A1 & A2 & W1 & W2 & D). split; [exact (conj W1 (conj W2 D))|].
  intros []; assumption.
Qed.

(* clone() returns a problem with the same content, leaves the original as it was, shares no container *)
Theorem clone_equal h p : wf h p ->
  let w := clone_world h p in
  abs (w_heap w) (w_c w) = abs h p /\ abs (w_heap w) (w_p w) = abs h p /\
  wf (w_heap w) (w_p w) /\ wf (w_heap w) (w_c w) /\
  disjoint (footprint (w_heap w) (w_p w)) (footprint (w_heap w) (w_c w)).
Proof.
  intros W. destruct (clone_world_inv h p W) as ((Wp & Wc & D) & V). cbv zeta.
  splits; try assumption; [exact (V SClone) | exact (V SOrig)].
Qed.

(* any interleaving of calls on the original and on the clone: each one evolves exactly as if it were alone *)
Theorem clone_simulation h p tr : wf h p ->
  let r := wrun (clone_world h p) tr in
  abs (w_heap (fst r)) (w_p (fst r)) = fst (prun (abs h p) (proj SOrig tr)) /\
  abs (w_heap (fst r)) (w_c (fst r)) = fst (prun (abs h p) (proj SClone tr)) /\
  proj_out SOrig tr (snd r) = snd (prun (abs h p) (proj SOrig tr)) /\
  proj_out SClone tr (snd r) = snd (prun (abs h p) (proj SClone tr)) /\
  wf (w_heap (fst r)) (w_p (fst r)) /\ wf (w_heap (fst r)) (w_c (fst r)).
Proof.
  intros W. cbv zeta. destruct (clone_world_inv h p W) as [S V].
  destruct (wrun_sim SOrig tr _ S) as [(Wp & Wc & _) R1]. destruct (wrun_sim SClone tr _ S) as [_ R2].
  rewrite V in R1, R2. rewrite R1, R2. splits; (reflexivity || assumption).
Qed.

Lemma proj_both sd ops : proj sd (both ops) = ops.
Proof. unfold proj, both. induction ops as [|o r IH]; simpl; [reflexivity|]. destruct sd; simpl; f_equal; exact IH. Qed.

(* the same calls on both: same outcome for every call, same content afterwards *)
Theorem clone_same_outcomes h p ops : wf h p ->
  let r := wrun (clone_world h p) (both ops) in
  proj_out SClone (both ops) (snd r) = proj_out SOrig (both ops) (snd r) /\
  proj_out SOrig (both ops) (snd r) = snd (prun (abs h p) ops) /\
  abs (w_heap (fst r)) (w_c (fst r)) = abs (w_heap (fst r)) (w_p (fst r)) /\
  abs (w_heap (fst r)) (w_p (fst r)) = fst (prun (abs h p) ops).
Proof.
  intros W. cbv zeta. destruct (clone_simulation h p (both ops) W) as (A1 & A2 & P1 & P2 & _). cbv zeta in *.
  rewrite !proj_both in *. splits; congruence.
Qed.

(* what happens to one problem does not depend on what is done to the other *)
Theorem clone_independent h p tr1 tr2 sd : wf h p -> proj sd tr1 = proj sd tr2 ->
  let r1 := wrun (clone_world h p) tr1 in
  let r2 := wrun (clone_world h p) tr2 in
  proj_out sd tr1 (snd r1) = proj_out sd tr2 (snd r2) /\
  match sd with
  | SOrig => abs (w_heap (fst r1)) (w_p (fst r1)) = abs (w_heap (fst r2)) (w_p (fst r2))
  | SClone => abs (w_heap (fst r1)) (w_c (fst r1)) = abs (w_heap (fst r2)) (w_c (fst r2))
  end.
Proof.
  intros W E. cbv zeta. destruct (clone_world_inv h p W) as [S _].
  destruct (wrun_sim sd tr1 _ S) as [_ R1]. destruct (wrun_sim sd tr2 _ S) as [_ R2].
  rewrite <- E, R1 in R2. split; [exact (f_equal snd R2) | destruct sd; exact (f_equal fst R2)].
Qed.

Lemma val_eqb_refl v : val_eqb v v = true.
Proof. unfold val_eqb. rewrite !N.eqb_refl. reflexivity. Qed.

Lemma forallb_existsb_refl {A} (r : A -> A -> bool) l :
  (forall x, r x x = true) -> forallb (fun x => existsb (r x) l) l = true.
Proof. intros R. apply forallb_forall. intros x Hx. apply existsb_exists. exists x. split; [exact Hx | apply R]. Qed.

Lemma set_eqb_refl l : set_eqb l l = true.
Proof. unfold set_eqb. rewrite andb_diag. apply forallb_existsb_refl, val_eqb_refl. Qed.

Lemma optN_eqb_refl o : optN_eqb o o = true.
Proof. destruct o; simpl; [apply N.eqb_refl | reflexivity]. Qed.

Lemma dict_eqb_refl d : dict_eqb d d = true.
Proof.
  unfold dict_eqb. rewrite Nat.eqb_refl. cbn [andb]. rewrite andb_diag.
  apply forallb_forall. intros x _. apply optN_eqb_refl.
Qed.

Lemma keyed_sets_eqb_refl {A} (f : A -> list val) l : keyed_sets_eqb f l l = true.
Proof.
  unfold keyed_sets_eqb. rewrite Nat.eqb_refl. cbn [andb]. rewrite andb_diag.
  apply forallb_forall. intros x _. destruct (alookup (fst x) l); [apply set_eqb_refl | reflexivity].
Qed.

Lemma acts_eqb_refl l : acts_eqb l l = true.
Proof.
  unfold acts_eqb. rewrite andb_diag.
  apply (forallb_existsb_refl (fun x y => act_eqb (act (snd x)) (act (snd y)))).
  intros x. unfold act_eqb. rewrite N.eqb_refl, !keyed_sets_eqb_refl. reflexivity.
Qed.

Theorem peq_refl kind iv s : peq kind iv s s = true.
Proof.
  unfold peq. rewrite !N.eqb_refl, !set_eqb_refl, dict_eqb_refl, acts_eqb_refl, !keyed_sets_eqb_refl. reflexivity.
Qed.

(* the two open findings, on the faithful model *)
(* a problem with one instantaneous action (name 20) and nothing else *)
Definition one_action_state : pstate :=
  {| s_scal := [1; 0; 0; 0]%N;
     s_flat := [CList []; CList []; CList [(7, 3)%N]; CDict []; CDict []; CDict []; CList []; CList [];
                CList []; CList []; CList []; CDict []];
     s_nest := [ [(20%N, CAct {| a_static := 30; a_sim := []; a_effs := [(0%N, [])]; a_asg := [(0%N, [])];
                                 a_incdec := [(0%N, [])]; a_ceffs := [] |})]; []; []; []; [] ] |}.
Definition an_effect : op :=
  {| o_pre := None; o_body := OActEffect 20 0 {| e_id := 41; e_fl := 7; e_val := 50; e_kind := EAssign; e_skip := false |} |}.

(* HTN: the problem above plus one method (name 70) whose single subtask (identifier 71) runs the action object.
   After c = p.clone(), add_effect on the ORIGINAL's action is visible through the CLONE's methods. *)
Lemma htn_methods_alias_original_actions :
  exists h hp o,
    wf h (h_prob hp) /\
    let (h1, hc) := hclone_htn h hp in
    let '(h2, _, out) := hstep h1 (h_prob hp) o in
    out = Ok /\ methods_view h2 (h_methods hc) <> methods_view h1 (h_methods hc).
Proof.
  pose (hp0 := load one_action_state).
  (* address of the action object: the only inner cell of the _actions list *)
  pose (act_addr := match inner (fst hp0) (nth N_ACTIONS (o_nest (snd hp0)) 0) with a :: _ => a | [] => 0 end).
  pose (h := fst hp0 ++ [CRefs [(71%N, act_addr)]; CRefs [(70%N, length (fst hp0))]]).
  exists h, {| h_prob := snd hp0; h_methods := S (length (fst hp0)) |}, an_effect.
  split; [apply wfb_wf; vm_compute; reflexivity|].
  vm_compute. split; [reflexivity | discriminate].
Qed.

(* an original with INTERNAL aliasing (one action object reachable from two action lists, as when the same Action is
   added to two agents of a MultiAgentProblem): clone() gives each list its own copy, and the same add_effect applied to
   both problems then leaves them different.  [wf] is exactly what excludes this. *)
Lemma aliased_original_diverges :
  exists h p ops,
    ~ NoDup (footprint h p) /\
    let r := wrun (clone_world h p) (both ops) in
    snd r = [Ok; Ok] /\
    abs (w_heap (fst r)) (w_c (fst r)) <> abs (w_heap (fst r)) (w_p (fst r)).
Proof.
  (* cells: 0 = the action; 1 = first list (agent r1's actions), 2 = second list (agent r2's), both holding address 0 *)
  exists [CAct {| a_static := 30; a_sim := []; a_effs := [(0%N, [])]; a_asg := [(0%N, [])]; a_incdec := [(0%N, [])]; a_ceffs := [] |};
          CRefs [(20%N, 0)]; CRefs [(20%N, 0)]],
         {| o_scal := [1; 0; 0; 0]%N; o_flat := []; o_nest := [1; 2] |}, [an_effect].
  split.
  - vm_compute. intros H. inversion H as [|? ? _ H1]; subst. inversion H1 as [|? ? _ H2]; subst.
    inversion H2 as [|? ? Hn _]; subst. apply Hn. left; reflexivity.
  - vm_compute. split; [reflexivity | discriminate].
Qed.

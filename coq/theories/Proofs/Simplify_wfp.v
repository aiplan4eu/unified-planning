(* Preservation of the side conditions ([qfree], [wfx]) by substitution and by the simplifier; the simplifier adds no
   free variable ([simp_fv]). *)
From Coq Require Import List ZArith NArith Bool.
Import ListNotations.
Require Import UPV.Core.Expr UPV.Core.Eval UPV.Proofs.Eval_lemmas UPV.Proofs.ListFacts UPV.Proofs.ExprView UPV.Walkers.Simplify UPV.Proofs.Simplify_base
  UPV.Proofs.Simplify_fv UPV.Proofs.Simplify_wf.
Local Open Scope nat_scope.

Record comp (P : expr -> bool) : Prop := {
  c_const : forall c, is_const c = true -> P c = true;
  c_E1 : forall o a, P (E1 o a) = P a;
  c_E2 : forall o a b, P (E2 o a b) = P a && P b;
  c_En : forall o l, is_app o = false -> P (En o l) = forallb P l
}.

Lemma comp_qfree : comp qfree.
Proof.
  constructor; [intros c; destruct c; simpl; congruence|exact qfree_E1|exact qfree_E2|intros o l _; apply qfree_En].
Qed.

Lemma comp_wfx tau QT S : comp (wfx tau QT S).
Proof.
  constructor; [intros c; destruct c; simpl; congruence|apply wf_E1|apply wf_E2|].
  intros o l A. rewrite wf_En, A. reflexivity.
Qed.

Section Comp.
  Variable P : expr -> bool.
  Hypothesis HP : comp P.

  Lemma P_bool b : P (EBool b) = true. Proof. apply (c_const _ HP). reflexivity. Qed.
  Lemma P_num n : P (num_expr n) = true. Proof. apply (c_const _ HP). destruct n; reflexivity. Qed.
  Lemma P_not a : P (ENot a) = P a. Proof. exact (c_E1 _ HP UNot a). Qed.

  Lemma P_mk1 o a : P a = true -> P (mk1 o a) = true.
  Proof.
    intros H. destruct (mk1_cases o a) as [E|[x [-> [-> E]]]]; rewrite E.
    - rewrite (c_E1 _ HP). exact H.
    - rewrite P_not in H. exact H.
  Qed.
  Lemma P_mkn o l : is_app o = false -> forallb P l = true -> P (mkn o l) = true.
  Proof.
    intros A H. destruct (mkn_cases o l) as [E|[[x [-> E]]|[-> _]]].
    - rewrite E, (c_En _ HP _ _ A). exact H.
    - rewrite E. cbn in H. rewrite andb_true_r in H. exact H.
    - destruct o; try discriminate A; apply (c_const _ HP); reflexivity.
  Qed.
  Lemma P_mkNot a : P a = true -> P (mkNot a) = true. Proof. exact (P_mk1 UNot a). Qed.
  Lemma P_mkJ k l : forallb P l = true -> P (mkJ k l) = true.
  Proof. destruct k; [exact (P_mkn NAnd l eq_refl)|exact (P_mkn NOr l eq_refl)]. Qed.
  Lemma P_mkA t l : forallb P l = true -> P (mkA t l) = true.
  Proof. destruct t; [exact (P_mkn NTimes l eq_refl)|exact (P_mkn NPlus l eq_refl)]. Qed.

  Lemma P_junct_args k a ss : junct_args k a = Some ss -> P a = true -> forallb P ss = true.
  Proof. intros J. rewrite (junct_args_En _ _ _ J), (c_En _ HP) by (destruct k; reflexivity). auto. Qed.

  Lemma P_jitems k l : forallb P l = true -> forallb P (jitems k l) = true.
  Proof.
    induction l as [|a l IH]; intros H; [reflexivity|]. cbn [forallb] in H. apply andb_true_iff in H. destruct H as [Ha Hl].
    cbn [jitems flat_map]. fold (jitems k l). rewrite forallb_app. rewrite (IH Hl), andb_true_r.
    destruct (junct_args k a) as [ss|] eqn:J; [eapply P_junct_args; eauto|]. cbn. rewrite Ha. reflexivity.
  Qed.


  Lemma P_walk_junct k l : forallb P l = true -> P (walk_junct k l) = true.
  Proof.
    intros H.
    assert (G : P (walk_junct_gen k l) = true).
    { unfold walk_junct_gen. destruct (j_outer k l []) as [keys|] eqn:J; [|apply P_bool].
      apply P_mkJ. eapply forallb_incl; [apply (j_outer_sub _ _ _ _ J)|]. cbn [app]. apply P_jitems. exact H. }
    unfold walk_junct. destruct l as [|a [|b [|c r]]]; try exact G.
    destruct (expr_eqb a b); [|exact G]. cbn in H. apply andb_true_iff in H. tauto.
  Qed.

  Lemma P_flat1 t l : forallb P l = true -> forallb P (flat1 t l) = true.
  Proof.
    induction l as [|a l IH]; intros H; [reflexivity|]. cbn [forallb] in H. apply andb_true_iff in H. destruct H as [Ha Hl].
    cbn [flat1 flat_map]. fold (flat1 t l). rewrite forallb_app, (IH Hl), andb_true_r.
    assert (D : forallb P [a] = true) by (cbn; rewrite Ha; reflexivity).
    destruct a; try exact D; destruct t; try exact D.
    - rewrite <- (c_En _ HP NPlus) by reflexivity. exact Ha.
    - rewrite <- (c_En _ HP NTimes) by reflexivity. exact Ha.
  Qed.

  Lemma P_walk_arith t l : forallb P l = true -> P (walk_arith t l) = true.
  Proof.
    intros H. unfold walk_arith.
    destruct (t && existsb num_is0 (consts_of (flat1 t l))); [apply (c_const _ HP); reflexivity|].
    assert (Hn : forallb P (nonconsts_of (flat1 t l)) = true).
    { eapply forallb_incl; [apply incl_filter|]. apply P_flat1. exact H. }
    destruct (num_is_unit t _); apply P_mkA; [exact Hn|].
    rewrite forallb_app, Hn. cbn. rewrite P_num. reflexivity.
  Qed.

  Lemma P_walk1 o a : P a = true -> P (walk1 o a) = true.
  Proof.
    intros Ha. destruct (walk1_result o a) as [|c C|x ->].
    - rewrite (c_E1 _ HP). exact Ha.
    - exact (c_const _ HP c C).
    - rewrite P_not in Ha. exact Ha.
  Qed.
  Lemma P_walk2 G o a b : P a = true -> P b = true -> P (walk2 G o a b) = true.
  Proof.
    intros Ha Hb. destruct (walk2_result G o a b) as [|c C| | |_|_|n].
    - rewrite (c_E2 _ HP), Ha, Hb. reflexivity.
    - exact (c_const _ HP c C).
    - exact Ha.
    - exact Hb.
    - apply P_mkNot, Ha.
    - apply P_mkNot, Hb.
    - apply P_walk_arith. cbn. rewrite Ha, P_num. reflexivity.
  Qed.
  Lemma P_walkn G o l : is_app o = false -> forallb P l = true -> P (walkn G o l) = true.
  Proof. destruct o; try discriminate; intros _; [apply P_walk_junct|apply P_walk_junct|apply P_walk_arith|apply P_walk_arith]. Qed.
  Lemma P_walkn_app G o l : cfg_consts G -> is_app o = true -> P (En o l) = true -> P (walkn G o l) = true.
  Proof.
    intros HG A H. destruct (walkn_app_result G o l HG A) as [E|C]; [rewrite E; exact H|exact (c_const _ HP _ C)].
  Qed.
End Comp.


Lemma qfree_subst x t e : qfree t = true -> qfree e = true -> qfree (subst x t e) = true.
Proof.
  intros Ht. pose proof comp_qfree as C. induction e using expr_view_ind.
  - destruct e; try discriminate; cbn [subst]; auto. destruct (v =? x)%N; auto.
  - rewrite subst_E1, qfree_E1. intros Q. apply (P_mk1 _ C), IHe, Q.
  - rewrite subst_E2, !qfree_E2, !andb_true_iff. intros [Q1 Q2]. auto.
  - rewrite subst_En, qfree_En. intros Q.
    assert (Qm : forallb qfree (map (subst x t) l) = true).
    { apply (forallb_map_in _ qfree qfree); [|exact Q]. rewrite Forall_forall in H. exact H. }
    destruct (is_app o) eqn:A; [|apply (P_mkn _ C _ _ A Qm)].
    destruct o; try discriminate A; cbn [mkn En qfree]; exact Qm.
  - rewrite qfree_EQ. discriminate.
Qed.

(* ---------------------------------------------------------------- the simplifier keeps what is computed node by node
   [P S]: a family of computed predicates indexed by a scope (the variables bound above).  What is asked of it beyond
   [comp]: at an application the arguments may be rewritten by a function that keeps [P S] and [qfree]; under a quantifier
   the body may be rewritten by a function that keeps [P] at every scope; the two quantifier node functions keep it. *)
Section SimpComp.
  Variable G : cfg.
  Hypothesis HG : cfg_consts G.
  Variable P : list N -> expr -> bool.
  Hypothesis HP : forall S, comp (P S).
  Hypothesis P_app : forall S o l g, is_app o = true ->
    (forall x, In x l -> P S x = true -> P S (g x) = true) ->
    (forall x, In x l -> qfree x = true -> qfree (g x) = true) ->
    P S (En o l) = true -> P S (En o (map g l)) = true.
  Hypothesis P_body : forall S ex vs a a',
    (forall S', P S' a = true -> P S' a' = true) -> P S (EQ ex vs a) = true -> P S (EQ ex vs a') = true.
  Hypothesis P_exists : forall S rs vs b,
    (forall x S', P S' x = true -> P S' (rs x) = true) -> P S (EExists vs b) = true -> P S (walk_exists G rs vs b) = true.
  Hypothesis P_forall : forall S vs b, P S (EForall vs b) = true -> P S (walk_forall G vs b) = true.

  Lemma simp_comp_gen n : (forall x S, P S x = true -> P S (resimp G n x) = true) ->
    forall e, (qfree e = true -> qfree (simp G n e) = true) /\ (forall S, P S e = true -> P S (simp G n e) = true).
  Proof.
    intros Hrs. pose proof comp_qfree as CQ. induction e using expr_view_ind.
    - rewrite simp_leaf by assumption. split; auto.
    - destruct IHe as [Q1 P1]. rewrite simp_E1, qfree_E1. split.
      + intros Q. apply (P_walk1 _ CQ), Q1, Q.
      + intros S. rewrite (c_E1 _ (HP S)). intros W. apply (P_walk1 _ (HP S)), P1, W.
    - destruct IHe1 as [Q1 P1]. destruct IHe2 as [Q2 P2]. rewrite simp_E2, qfree_E2. split.
      + rewrite andb_true_iff. intros [Qa Qb]. apply (P_walk2 _ CQ); auto.
      + intros S. rewrite (c_E2 _ (HP S)), andb_true_iff. intros [Wa Wb]. apply (P_walk2 _ (HP S)); auto.
    - rewrite Forall_forall in H. rewrite simp_En, qfree_En. destruct (is_app o) eqn:A; split.
      + intros Q. apply (P_walkn_app _ CQ _ _ _ HG A). rewrite qfree_En.
        apply (forallb_map_in _ qfree qfree); [|exact Q]. intros x Hx. apply (H x Hx).
      + intros S W. apply (P_walkn_app _ (HP S) _ _ _ HG A). apply (P_app S o l _ A); [| |exact W]; intros x Hx; apply (H x Hx).
      + intros Q. apply (P_walkn _ CQ _ _ _ A). apply (forallb_map_in _ qfree qfree); [|exact Q]. intros x Hx. apply (H x Hx).
      + intros S. rewrite (c_En _ (HP S) _ _ A). intros W. apply (P_walkn _ (HP S) _ _ _ A).
        apply (forallb_map_in _ (P S) (P S)); [|exact W]. intros x Hx. apply (H x Hx).
    - destruct IHe as [_ P1]. rewrite simp_EQ, qfree_EQ. split; [discriminate|]. intros S W.
      apply (P_body S ex vs e (simp G n e) P1) in W. destruct ex; cbn [walkq EQ] in *.
      + apply P_exists; [|exact W]. intros x S'. apply Hrs.
      + apply P_forall, W.
  Qed.

  Theorem simp_comp n e :
    (qfree e = true -> qfree (simp G n e) = true) /\ (forall S, P S e = true -> P S (simp G n e) = true).
  Proof.
    revert e. induction n as [|n IHn]; apply simp_comp_gen; [auto|]. intros x S. apply IHn.
  Qed.
End SimpComp.

Definition fv_in (S : list N) (e : expr) : bool := forallb (fun w => memN w S) (free_vars e).

Lemma fv_in_incl S e : fv_in S e = true <-> incl (free_vars e) S.
Proof.
  unfold fv_in. rewrite forallb_forall. split; intros H w Hw; [apply memN_In, H, Hw|apply memN_In, H, Hw].
Qed.


Lemma fv_in_En S o l : fv_in S (En o l) = forallb (fv_in S) l.
Proof. unfold fv_in. rewrite fvl_En. apply forallb_flat_map. Qed.

Lemma comp_fv_in S : comp (fv_in S).
Proof.
  constructor.
  - intros c Hc. unfold fv_in. rewrite (is_const_closed _ Hc). reflexivity.
  - intros o a. unfold fv_in. rewrite fv_E1. reflexivity.
  - intros o a b. unfold fv_in. rewrite fv_E2. apply forallb_app.
  - intros o l _. apply fv_in_En.
Qed.

Lemma fv_in_EQ S ex vs a : fv_in S (EQ ex vs a) = true <-> fv_in (map fst vs ++ S) a = true.
Proof.
  rewrite !fv_in_incl, fv_EQ. split; intros H w Hw.
  - apply in_or_app. destruct (in_dec N.eq_dec w (map fst vs)); [left; assumption|right]. apply H, in_fv_quant. tauto.
  - apply in_fv_quant in Hw. destruct Hw as [Hw Hn]. apply H, in_app_or in Hw. tauto.
Qed.

Theorem simp_qfree_fv G : cfg_consts G -> forall n e,
  (qfree e = true -> qfree (simp G n e) = true) /\ incl (free_vars (simp G n e)) (free_vars e).
Proof.
  intros HG n e. destruct (simp_comp G HG fv_in comp_fv_in) with (n := n) (e := e) as [Q F].
  - intros S o l g _ Hg _. rewrite !fv_in_En. apply forallb_map_in. exact Hg.
  - intros S ex vs a a' H. rewrite !fv_in_EQ. apply H.
  - intros S rs vs b Hrs. rewrite !fv_in_incl. intros H. refine (incl_tran (fv_walk_exists G rs vs b _) H).
    intros x. apply fv_in_incl, Hrs, fv_in_incl, incl_refl.
  - intros S vs b. rewrite !fv_in_incl. apply incl_tran, fv_walk_forall.
  - split; [exact Q|]. apply fv_in_incl, F, fv_in_incl, incl_refl.
Qed.

Theorem simp_qfree G : cfg_consts G -> forall n e, qfree e = true -> qfree (simp G n e) = true.
Proof. intros HG n e. apply (simp_qfree_fv G HG n e). Qed.

Theorem simp_fv G : cfg_consts G -> forall n e, incl (free_vars (simp G n e)) (free_vars e).
Proof. intros HG n e. apply (simp_qfree_fv G HG n e). Qed.

Section WFP.
  Variables (tau : N -> N) (QT : N -> bool).
  Notation wf := (wfx tau QT).

  Lemma wf_subst x t : qfree t = true -> forall e S S',
    wf S e = true -> wf S' t = true ->
    (forall w, In w S' -> In w S) -> (forall w, In w S -> w <> x -> In w S') ->
    wf S' (subst x t e) = true.
  Proof.
    intros Qt. induction e using expr_view_ind; intros S S' W Wt H1 H2.
    - destruct e; try discriminate; cbn [subst]; try reflexivity.
      destruct (v =? x)%N eqn:E; [exact Wt|]. cbn [wfx] in *. apply andb_true_iff in W. destruct W as [W1 W2].
      rewrite W1. apply memN_In. apply H2; [apply memN_In; exact W2|]. apply N.eqb_neq in E. exact E.
    - rewrite subst_E1. rewrite wf_E1 in W. apply (P_mk1 _ (comp_wfx tau QT S')). exact (IHe S S' W Wt H1 H2).
    - rewrite subst_E2, wf_E2. rewrite wf_E2 in W. apply andb_true_iff in W. destruct W as [W1 W2].
      rewrite (IHe1 S S' W1 Wt H1 H2), (IHe2 S S' W2 Wt H1 H2). reflexivity.
    - rewrite subst_En. rewrite wf_En in W. rewrite Forall_forall in H.
      assert (K : forallb (fun a => (negb (is_app o) || qfree a) && wf S' a) (map (subst x t) l) = true).
      { eapply forallb_map_in; [|exact W]. intros y Hy. cbv beta. rewrite !andb_true_iff. intros [Wq Ww].
        split; [|exact (H y Hy S S' Ww Wt H1 H2)].
        destruct (is_app o); [|reflexivity]. cbn [negb orb] in *. exact (qfree_subst _ _ _ Qt Wq). }
      destruct (is_app o) eqn:A.
      + destruct o; try discriminate A; cbn [mkn]; rewrite wf_En; exact K.
      + apply (P_mkn _ (comp_wfx tau QT S') _ _ A). cbn [negb orb] in K. exact K.
    - rewrite subst_EQ. destruct (memN x (map fst vs)) eqn:B.
      + apply memN_In in B. eapply (wf_rescope tau QT (EQ ex vs e) S S'); [exact W| |].
        * intros w Hw. apply H2; [eapply (wf_fv tau QT (EQ ex vs e)); eauto|].
          rewrite fv_EQ in Hw. apply in_fv_quant in Hw. intros ->. tauto.
        * intros w Hw Hs. apply (wf_bvars tau QT (EQ ex vs e) S W w Hw). apply H1. exact Hs.
      + apply memN_false in B. rewrite wf_EQ in *. apply andb_true_iff in W. destruct W as [W1 W2].
        apply andb_true_iff. split.
        * apply binders_ok_spec in W1. apply binders_ok_spec. destruct W1 as [A ND]. split; [|exact ND].
          intros p Hp. destruct (A p Hp) as (A1 & A2 & A3). repeat split; auto.
        * eapply IHe; [exact W2| | |].
          -- eapply wf_incl_qfree; [exact Qt|exact Wt|]. intros w Hw. apply in_or_app. right. exact Hw.
          -- intros w Hw. apply in_app_or in Hw. apply in_or_app. destruct Hw; auto.
          -- intros w Hw Hx. apply in_app_or in Hw. apply in_or_app. destruct Hw; auto.
  Qed.

  Lemma prune_incl G vs b : incl (prune G vs b) vs.
  Proof. apply incl_filter. Qed.


  Lemma wf_quant_prune G ex vs b S : wf S (EQ ex vs b) = true -> wf S (EQ ex (prune G vs b) b) = true.
  Proof.
    intros W. assert (W' : binders_ok tau QT S vs && wf (map fst vs ++ S) b = true) by (destruct ex; exact W).
    apply andb_true_iff in W'. destruct W' as [W1 W2].
    assert (Goal' : binders_ok tau QT S (prune G vs b) && wf (map fst (prune G vs b) ++ S) b = true); [|destruct ex; exact Goal'].
    apply andb_true_iff. split.
    - apply binders_ok_spec in W1. apply binders_ok_spec. destruct W1 as [A ND]. split.
      + intros p Hp. apply A. apply (prune_incl _ _ _ _ Hp).
      + apply NoDup_map_filter. exact ND.
    - eapply wf_rescope; [exact W2| |].
      + intros w Hw. assert (Hs := wf_fv _ _ _ _ W2 w Hw). apply in_app_or in Hs. apply in_or_app.
        destruct Hs as [Hs|Hs]; [left|right; exact Hs].
        apply in_map_iff in Hs. destruct Hs as [p [<- Hp]]. apply in_map. apply filter_In. split; [exact Hp|].
        apply orb_true_iff. left. apply memN_In. exact Hw.
      + intros w Hw Hs. apply (wf_bvars _ _ _ _ W2 w Hw). apply in_app_or in Hs. apply in_or_app.
        destruct Hs as [Hs|Hs]; [left|right; exact Hs].
        apply in_map_iff in Hs. destruct Hs as [p [<- Hp]]. apply in_map. apply (prune_incl _ _ _ _ Hp).
  Qed.

  Lemma wf_mkExists vs b S : wf S (EExists vs b) = true -> wf S (mkExists vs b) = true.
  Proof. destruct vs; [|auto]. cbn. auto. Qed.
  Lemma wf_mkForall vs b S : wf S (EForall vs b) = true -> wf S (mkForall vs b) = true.
  Proof. destruct vs; [|auto]. cbn. auto. Qed.

  Lemma NoDup_remove_var x vs : NoDup (map fst vs) -> NoDup (map fst (remove_var x vs)).
  Proof.
    induction vs as [|p r IH]; intros H; [constructor|]. inversion H; subst. cbn [remove_var].
    destruct (fst p =? x)%N; [exact H3|]. cbn [map]. constructor; [|auto].
    intros Hin. apply H2. eapply in_remove_var; eauto.
  Qed.

  Lemma remove_var_incl x vs : incl (remove_var x vs) vs.
  Proof.
    induction vs as [|p r IH]; [apply incl_refl|]. cbn [remove_var]. destruct (fst p =? x)%N.
    - apply incl_tl, incl_refl.
    - apply incl_cons; [left; reflexivity|apply incl_tl; exact IH].
  Qed.

  Lemma not_in_remove_var x vs : NoDup (map fst vs) -> ~ In x (map fst (remove_var x vs)).
  Proof.
    induction vs as [|p r IH]; intros H; [intros []|]. inversion H; subst. cbn [remove_var].
    destruct (fst p =? x)%N eqn:E.
    - apply N.eqb_eq in E. subst. exact H2.
    - cbn [map]. intros [Hin|Hin]; [apply N.eqb_neq in E; congruence|]. exact (IH H3 Hin).
  Qed.


  Lemma elim_cand_wf G vs c x t S :
    elim_cand G vs c = Some (x, t) -> cfg_consts G -> wf S c = true ->
    wf S t = true /\ qfree t = true /\ In x (map fst vs) /\ ~ In x (free_vars t).
  Proof.
    intros E HG W. destruct (elim_cand_spec _ _ _ _ _ E) as [ty [Hc [Hb [Ho [tv [Hu _]]]]]].
    apply bound_in_In in Hb. apply memN_false in Ho.
    assert (Wt : wf S t = true).
    { destruct Hc as [->| ->]; cbn [wfx] in W; apply andb_true_iff in W; tauto. }
    split; [exact Wt|]. split; [|tauto].
    destruct t; simpl in Hu; try discriminate; try reflexivity; cbn [wfx] in Wt; cbn [qfree];
      rewrite forallb_forall in *; intros y Hy; specialize (Wt y Hy); apply andb_true_iff in Wt; tauto.
  Qed.

  Lemma wf_elim_step G vs body vs' body' S :
    cfg_consts G -> elim_step G vs body = Some (vs', body') ->
    wf S (EExists vs body) = true -> wf S (EExists vs' body') = true.
  Proof.
    intros HG E W. destruct (elim_step_spec _ _ _ _ _ E) as [pre [c [post [x [t [-> [EC [-> ->]]]]]]]].
    cbn [wfx] in W. apply andb_true_iff in W. destruct W as [W1 W2].
    destruct (forallb_app_inv _ _ _ _ W2) as [Wr Wc].
    destruct (elim_cand_wf _ _ _ _ _ _ EC HG Wc) as (Wt & Qt & Hx & Ho).
    apply binders_ok_spec in W1. destruct W1 as [A ND].
    cbn [wfx]. apply andb_true_iff. split.
    - apply binders_ok_spec. split; [|apply NoDup_remove_var; exact ND].
      intros p Hp. apply A. apply (remove_var_incl _ _ _ Hp).
    - eapply (wf_subst x t Qt (mkAnd (pre ++ post)) (map fst vs ++ S)).
      + apply (P_mkn _ (comp_wfx tau QT _) NAnd _ eq_refl). exact Wr.
      + eapply wf_rescope; [exact Wt| |].
        * intros w Hw. assert (Hs := wf_fv _ _ _ _ Wt w Hw). apply in_app_or in Hs. apply in_or_app.
          destruct Hs as [Hs|Hs]; [left|right; exact Hs]. apply in_remove_var_neq; [exact Hs|]. intros ->. tauto.
        * rewrite (qfree_bvars _ Qt). intros w [].
      + intros w Hw. apply in_app_or in Hw. apply in_or_app. destruct Hw as [Hw|Hw]; [left|right; exact Hw].
        eapply in_remove_var; eauto.
      + intros w Hw Hn. apply in_app_or in Hw. apply in_or_app. destruct Hw as [Hw|Hw]; [left|right; exact Hw].
        apply in_remove_var_neq; assumption.
  Qed.

  Lemma wf_walk_exists G rs vs b S :
    cfg_consts G -> (forall x S', wf S' x = true -> wf S' (rs x) = true) ->
    wf S (EExists vs b) = true -> wf S (walk_exists G rs vs b) = true.
  Proof.
    intros HG Hrs W. apply (walk_exists_inv G (fun vs1 b1 => wf S (EExists vs1 b1) = true) (fun x => wf S x = true)).
    - exact (wf_quant_prune G true vs b S W).
    - intros v c v' c' E. exact (wf_elim_step G v c v' c' S HG E).
    - intros v c. apply wf_mkExists.
    - intros v c K. apply Hrs, wf_mkExists, K.
  Qed.

  Lemma wf_walk_forall G vs b S : wf S (EForall vs b) = true -> wf S (walk_forall G vs b) = true.
  Proof. intros W. unfold walk_forall. apply wf_mkForall. apply (wf_quant_prune G false vs b S W). Qed.

  Theorem simp_wf G : cfg_consts G -> forall n e S, wf S e = true -> wf S (simp G n e) = true.
  Proof.
    intros HG n e. apply (simp_comp G HG wf (comp_wfx tau QT)).
    - intros S o l g A Hg Hq. rewrite !wf_En, A. cbn [negb orb]. apply forallb_map_in. intros x Hx.
      rewrite !andb_true_iff. intros [Qx Wx]. split; [apply (Hq x Hx Qx)|apply (Hg x Hx Wx)].
    - intros S ex vs a a' H. rewrite !wf_EQ, !andb_true_iff. intros [W1 W2]. split; [exact W1|apply H, W2].
    - intros S rs vs b Hrs. apply (wf_walk_exists G rs vs b S HG Hrs).
    - intros S vs b. apply wf_walk_forall.
  Qed.
End WFP.

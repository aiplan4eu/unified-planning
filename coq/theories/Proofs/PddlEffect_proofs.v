(* Proofs about Model/PddlEffect.v. *)
From Coq Require Import List ZArith NArith QArith Qcanon Bool String Ascii Lia Permutation.
Import ListNotations.
Require Import UPV.Core.Expr UPV.Core.Eval UPV.Proofs.Eval_lemmas UPV.Planning.Problem UPV.Planning.Sem
  UPV.Model.PddlExpr UPV.Model.PddlLex UPV.Model.PddlEffect UPV.Proofs.StringFacts UPV.Proofs.ListFacts UPV.Proofs.PddlExpr_proofs UPV.Proofs.PddlLex_proofs UPV.Proofs.Sem_proofs UPV.Proofs.Sem_perm.

Section Sem.
  Variable simp : expr -> expr.
  Variable isb : N -> bool.
  Variable sc : bool.

  Lemma evals_l_norm J vs l : forallb (pddl_ok vs) l = true -> evals_l sc J (map norm l) = evals_l sc J l.
  Proof.
    induction l as [|x l IH]; cbn [forallb map evals_l]; [reflexivity|]. intro H. ands H.
    rewrite (norm_sem sc x vs J H), (IH H0). reflexivity.
  Qed.

  Lemma sfix_eq x : sfix simp x = true -> simp x = x.
  Proof. unfold sfix. intro H. apply expr_eqb_eq in H. exact H. Qed.

  Lemma oke_all e : pddl_eff_ok simp isb e = true ->
    simp (e_cond e) = e_cond e /\ simp (norm (e_cond e)) = norm (e_cond e) /\ simp (e_val e) = e_val e
    /\ simp (target e) = target e /\ e_isbool e = isb (Problem.e_fl e)
    /\ (if e_isbool e then (is_true (e_val e) || is_false (e_val e)) && match e_kind e with KAssign => true | _ => false end
        else negb (is_true (e_val e)) && negb (is_false (e_val e)) && pddl_ok (e_vars e) (e_val e)) = true
    /\ (is_true (e_cond e) || is_false (e_cond e) || (pddl_ok (e_vars e) (e_cond e) && negb (is_false (norm (e_cond e))))) = true
    /\ pddl_ok (e_vars e) (target e) = true
    /\ nodupN (map fst (e_vars e)) = true
    /\ forallb (fun v => memN v (map fst (e_vars e))) (eff_fv e) = true
    /\ forallb (fun p => memN (fst p) (eff_fv e)) (e_vars e) = true.
  Proof.
    unfold pddl_eff_ok. intro H. repeat (apply andb_true_iff in H; destruct H as [H ?]).
    repeat match goal with H : sfix simp _ = true |- _ => apply sfix_eq in H end.
    match goal with H : Bool.eqb _ _ = true |- _ => apply Bool.eqb_prop in H end.
    repeat split; assumption.
  Qed.

  (* the three values an effect of the fragment can have: TRUE or FALSE assigned to a Boolean fluent (written as a
     positive / negative literal), a printable term assigned to, added to or subtracted from another fluent *)
  Inductive val_form (e : effect) : Prop :=
  | VTrue : e_val e = EBool true -> e_kind e = KAssign -> e_isbool e = true -> val_form e
  | VFalse : e_val e = EBool false -> e_kind e = KAssign -> e_isbool e = true -> val_form e
  | VTerm : is_true (e_val e) = false -> is_false (e_val e) = false -> e_isbool e = false ->
            pddl_ok (e_vars e) (e_val e) = true -> val_form e.

  Lemma oke_val e : pddl_eff_ok simp isb e = true -> val_form e.
  Proof.
    intro H. destruct (oke_all e H) as (_ & _ & _ & _ & _ & Hv & _). destruct (e_isbool e) eqn:Hb.
    - apply andb_true_iff in Hv as [Hv Hk].
      assert (e_kind e = KAssign) as Ek by (destruct (e_kind e); [reflexivity|discriminate Hk..]).
      apply orb_true_iff in Hv as [Hv|Hv]; [apply is_true_eq in Hv; apply VTrue|apply is_false_eq in Hv; apply VFalse];
        auto.
    - apply andb_true_iff in Hv as [Hv Hp]. apply andb_true_iff in Hv as [Ht Hf].
      apply negb_true_iff in Ht. apply negb_true_iff in Hf. apply VTerm; auto.
  Qed.

  Lemma eval_effect_norm J e : pddl_eff_ok simp isb e = true -> eval_effect sc J (norm_eff e) = eval_effect sc J e.
  Proof.
    intro H. destruct (oke_all e H) as (_ & _ & _ & _ & _ & _ & Hc0 & Ht & _).
    unfold eval_effect, norm_eff. cbn [e_args e_cond e_val Problem.e_fl e_kind].
    cbn [pddl_ok target] in Ht. rewrite (evals_l_norm J _ _ Ht).
    assert (eval sc (norm (e_cond e)) J = eval sc (e_cond e) J) as Hc.
    { apply orb_true_iff in Hc0 as [H5|H5]; [apply orb_true_iff in H5 as [H5|H5]|].
      - apply is_true_eq in H5. rewrite H5. reflexivity.
      - apply is_false_eq in H5. rewrite H5. reflexivity.
      - apply andb_true_iff in H5 as [H5 _]. apply (norm_sem sc _ _ J H5). }
    assert (eval sc (norm (e_val e)) J = eval sc (e_val e) J) as Hv.
    { destruct (oke_val e H) as [Ev _ _|Ev _ _|_ _ _ Hp].
      - rewrite Ev. reflexivity.
      - rewrite Ev. reflexivity.
      - apply (norm_sem sc _ _ J Hp). }
    rewrite Hc, Hv. reflexivity.
  Qed.

  Lemma fired_map_norm I effs : Forall (fun e => pddl_eff_ok simp isb e = true) effs ->
    fired sc I (map norm_eff effs) = fired sc I effs.
  Proof.
    unfold fired. intro F. f_equal. induction F as [|e l He Hl IH]; [reflexivity|]. cbn [map flat_map]. rewrite IH.
    f_equal. cbn [norm_eff e_vars]. apply map_ext. intro J. apply eval_effect_norm. exact He.
  Qed.

  Lemma collect_app a b :
    collect_res (a ++ b) = match collect_res a, collect_res b with Some x, Some y => Some (x ++ y) | _, _ => None end.
  Proof.
    induction a as [|[| |x] a IH]; cbn [app collect_res].
    - destruct (collect_res b); reflexivity.
    - reflexivity.
    - exact IH.
    - rewrite IH. destruct (collect_res a), (collect_res b); reflexivity.
  Qed.

  Lemma collect_perm l l' : Permutation l l' -> forall a, collect_res l = Some a ->
    exists a', collect_res l' = Some a' /\ Permutation a a'.
  Proof.
    induction 1 as [|x l l' HP IH|x y l|l l' l'' HP1 IH1 HP2 IH2]; intros a Ha.
    - exists a. split; [exact Ha|apply Permutation_refl].
    - destruct x as [| |x]; cbn [collect_res] in *; [discriminate|apply IH; exact Ha|].
      destruct (collect_res l) as [b|]; [|discriminate]. inversion Ha. subst a.
      destruct (IH b eq_refl) as (b' & B1 & B2). rewrite B1. eexists; split; [reflexivity|]. apply perm_skip. exact B2.
    - destruct x as [| |x]; destruct y as [| |y]; cbn [collect_res] in *; try discriminate;
        try (exists a; split; [exact Ha|apply Permutation_refl]).
      destruct (collect_res l) as [b|]; [|discriminate]. inversion Ha. eexists; split; [reflexivity|]. apply perm_swap.
    - destruct (IH1 a Ha) as (b & B1 & B2). destruct (IH2 b B1) as (c & C1 & C2). exists c. split; [exact C1|].
      eapply Permutation_trans; eauto.
  Qed.

  Lemma depth_le2 e : depth e = 0%nat \/ depth e = 1%nat \/ depth e = 2%nat.
  Proof. unfold depth. destruct (is_true (e_cond e)); destruct (e_vars e); cbn; auto. Qed.

  Lemma bylevel_perm l : Permutation l (bylevel l).
  Proof.
    unfold bylevel. induction l as [|e l IH]; [apply Permutation_refl|]. cbn [filter].
    destruct (depth_le2 e) as [H|[H|H]]; rewrite H; cbn [Nat.eqb].
    - cbn [app]. apply perm_skip. exact IH.
    - eapply Permutation_trans; [apply perm_skip; exact IH|]. apply Permutation_middle.
    - eapply Permutation_trans; [apply perm_skip; exact IH|].
      rewrite app_assoc. eapply Permutation_trans; [apply Permutation_middle|]. rewrite <- app_assoc. apply Permutation_refl.
  Qed.

  Lemma row_false I e a : e_cond e = EBool false ->
    collect_res (map (fun J => eval_effect sc J e) (instances I (e_vars e))) = Some a -> a = [].
  Proof.
    intro Hc. revert a. induction (instances I (e_vars e)) as [|J l IH]; intros a H; cbn [map collect_res] in H.
    - congruence.
    - unfold eval_effect at 1 in H. rewrite Hc in H. destruct (evals_l sc J (e_args e)); [|discriminate].
      cbn [eval] in H. apply IH. exact H.
  Qed.

  Lemma fired_drop I effs : forall acts, fired sc I effs = Some acts ->
    fired sc I (filter (fun e => negb (is_false (e_cond e))) effs) = Some acts.
  Proof.
    unfold fired. induction effs as [|e l IH]; intros acts H; [exact H|]. cbn [flat_map] in H. rewrite collect_app in H.
    destruct (collect_res (map (fun J => eval_effect sc J e) (instances I (e_vars e)))) as [x|] eqn:Hx; [|discriminate].
    destruct (collect_res (flat_map (fun e0 => map (fun J => eval_effect sc J e0) (instances I (e_vars e0))) l)) as [y|] eqn:Hy;
      [|discriminate]. inversion H. subst acts. cbn [filter]. destruct (is_false (e_cond e)) eqn:Hf; cbn [negb].
    - apply is_false_eq in Hf. rewrite (row_false I e x Hf Hx). cbn [app]. apply IH. reflexivity.
    - cbn [flat_map]. rewrite collect_app, Hx. rewrite (IH y eq_refl). reflexivity.
  Qed.

  (* the re-read effect list fires exactly the assignments of the written one (as a multiset: the reader's breadth-first
     order moves conditional and universally quantified effects behind the plain ones) whenever the written one is
     defined *)
  Theorem norm_effs_fired I effs acts :
    Forall (fun e => pddl_eff_ok simp isb e = true) effs ->
    fired sc I effs = Some acts ->
    exists acts', fired sc I (norm_effs effs) = Some acts' /\ Permutation acts acts'.
  Proof.
    intros F H. unfold norm_effs. set (K := filter (fun e => negb (is_false (e_cond e))) effs).
    assert (Forall (fun e => pddl_eff_ok simp isb e = true) (bylevel K)) as FK.
    { apply Forall_forall. intros e He. rewrite Forall_forall in F. apply F.
      apply (Permutation_in _ (Permutation_sym (bylevel_perm K))) in He. apply filter_In in He. tauto. }
    rewrite (fired_map_norm I _ FK). apply fired_drop in H. fold K in H. unfold fired in *.
    eapply collect_perm; [|exact H]. apply Permutation_flat_map. apply bylevel_perm.
  Qed.
End Sem.

Local Open Scope string_scope.

Lemma effkw_parts h : is_eff_kw h = false ->
  (h =? "and") = false /\ (h =? "when") = false /\ (h =? "not") = false /\ (h =? "assign") = false
  /\ (h =? "increase") = false /\ (h =? "decrease") = false /\ (h =? "forall") = false.
Proof. unfold is_eff_kw. intro H. repeat (apply orb_false_iff in H; destruct H as [H ?]). repeat split; assumption. Qed.

Lemma Forall2_maps {A B C} (R : B -> C -> Prop) (f : A -> B) (g : A -> C) l :
  (forall x, In x l -> R (f x) (g x)) -> Forall2 R (map f l) (map g l).
Proof.
  induction l as [|x l IH]; intro H; [constructor|]. cbn [map]. constructor; [apply H; left; reflexivity|].
  apply IH. intros y Hy. apply H. right. exact Hy.
Qed.

Lemma concat_map_opt {A B} (p : A -> bool) (g : A -> B) l :
  List.concat (map (fun x => if p x then [] else [g x]) l) = map g (filter (fun x => negb (p x)) l).
Proof. induction l as [|x l IH]; [reflexivity|]. cbn [map List.concat filter]. rewrite IH. destruct (p x); reflexivity. Qed.

Lemma ssize_pos s : (1 <= ssize s)%nat.
Proof. destruct s; cbn [ssize]; lia. Qed.

Section Level.
  Variable simp : expr -> expr.
  Variable isb : N -> bool.
  Variable E : env.
  Notation PQ := (parse_q simp E isb).

  Definition StepOK (it : qitem) (o : effect + qitem) : Prop :=
    forall f q acc, PQ (S f) (it :: q) acc =
                    match o with inl x => PQ f q (x :: acc) | inr ch => PQ f (q ++ [ch]) acc end.
  Definition leafs (out : effect -> effect + qitem) (l : list effect) : list effect :=
    flat_map (fun e => match out e with inl x => [x] | inr _ => [] end) l.
  Definition childs (out : effect -> effect + qitem) (l : list effect) : list qitem :=
    flat_map (fun e => match out e with inl _ => [] | inr c => [c] end) l.

  Lemma level (ent : effect -> qitem) out l : (forall e, In e l -> StepOK (ent e) (out e)) ->
    forall f q2 acc, PQ (List.length l + f) (map ent l ++ q2) acc = PQ f (q2 ++ childs out l) (rev (leafs out l) ++ acc).
  Proof.
    induction l as [|a l IH]; intros Hs f q2 acc.
    - cbn. rewrite app_nil_r. reflexivity.
    - cbn [List.length map app plus]. rewrite (Hs a (or_introl eq_refl)).
      assert (forall e, In e l -> StepOK (ent e) (out e)) as Hs' by (intros; apply Hs; right; assumption).
      unfold leafs, childs. cbn [flat_map]. fold (leafs out l) (childs out l). destruct (out a) as [x|ch].
      + rewrite (IH Hs'). cbn [app rev]. rewrite <- app_assoc. reflexivity.
      + rewrite <- app_assoc. rewrite (IH Hs'). cbn [app]. rewrite <- app_assoc. reflexivity.
  Qed.

  Lemma leafs_if (p : effect -> bool) g h l :
    leafs (fun e => if p e then inl (g e) else inr (h e)) l = map g (filter p l)
    /\ childs (fun e => if p e then inl (g e) else inr (h e)) l = map h (filter (fun e => negb (p e)) l).
  Proof.
    unfold leafs, childs. induction l as [|e l [IH1 IH2]]; [split; reflexivity|]. cbn [flat_map filter].
    rewrite IH1, IH2. destruct (p e); split; reflexivity.
  Qed.

  Lemma level_if (ent : effect -> qitem) (p : effect -> bool) g h l :
    (forall e, In e l -> StepOK (ent e) (if p e then inl (g e) else inr (h e))) ->
    forall f q acc, PQ (List.length l + f) (map ent l ++ q) acc
                    = PQ f (q ++ map h (filter (fun e => negb (p e)) l)) (rev (map g (filter p l)) ++ acc).
  Proof. intros Hs f q acc. rewrite (level ent _ l Hs). destruct (leafs_if p g h l) as [-> ->]. reflexivity. Qed.

  Lemma level_all (ent : effect -> qitem) g l : (forall e, In e l -> StepOK (ent e) (inl (g e))) ->
    forall f q acc, PQ (List.length l + f) (map ent l ++ q) acc = PQ f q (rev (map g l) ++ acc).
  Proof.
    intros Hs f q acc. rewrite (level_if ent (fun _ => true) g ent l Hs). cbn [negb].
    rewrite (filter_nil _ l (fun _ _ => eq_refl)), (filter_true _ l) by (apply forallb_forall; reflexivity).
    rewrite app_nil_r. reflexivity.
  Qed.
End Level.

Section NoHash.
  Variable nm : naming.
  Hypothesis X_fl : forall f, (nm_fl nm f =? "#t") = false.
  Hypothesis X_obj : forall o, (nm_obj nm o =? "#t") = false.
  Hypothesis X_ty : forall t, (nm_ty nm t =? "#t") = false.

  Definition NH (s : sexp) : Prop := contains_tok "#t" s = false.

  Lemma num_not_hash t q : parse_number t = Some q -> (t =? "#t") = false.
  Proof. intro H. destruct (String.eqb_spec t "#t") as [->|]; [vm_compute in H; discriminate H|reflexivity]. Qed.

  Lemma nh_list l : Forall (fun e => forall s, print nm e = Some s -> NH s) l ->
    forall ss, sequence (map (print nm) l) = Some ss -> existsb (contains_tok "#t") ss = false.
  Proof.
    induction 1 as [|x l Hx Hl IH]; intros ss Hs; cbn [map sequence] in Hs.
    - inversion Hs. reflexivity.
    - destruct (print nm x) as [s|]; [|discriminate]. destruct (sequence (map (print nm) l)) as [ss'|]; [|discriminate].
      inversion Hs. cbn [existsb]. rewrite (Hx s eq_refl), (IH ss' eq_refl). reflexivity.
  Qed.

  Lemma nh_vars vs : existsb (contains_tok "#t") (print_vars nm vs) = false.
  Proof.
    induction vs as [|[v t] vs IH]; [reflexivity|]. cbn [print_vars flat_map app fst snd existsb contains_tok].
    fold (print_vars nm vs). rewrite X_ty, IH. reflexivity.
  Qed.

  Lemma nh_chain op : (op =? "#t") = false -> forall r a, NH a -> existsb (contains_tok "#t") r = false ->
    NH (fold_left (fun x y => SList [Atom op; y; x]) r a).
  Proof.
    intro Hop. induction r as [|y r IH]; intros a Ha Hr; [exact Ha|]. cbn [existsb] in Hr.
    apply orb_false_iff in Hr as [Hy Hr]. cbn [fold_left]. apply IH; [|exact Hr]. unfold NH.
    cbn [contains_tok existsb]. rewrite Hop, Hy, Ha. reflexivity.
  Qed.

  Lemma print_no_hash : forall e s, print nm e = Some s -> NH s.
  Proof.
    unfold NH.
    induction e using expr_ind'; intros s Hp; cbn [print] in Hp; try discriminate Hp;
      try (destruct (print nm e) as [x|]; [|discriminate Hp]; inversion Hp; cbn; rewrite ?nh_vars, (IHe x eq_refl); reflexivity);
      try (destruct (print nm e1) as [x|]; [|discriminate Hp]; destruct (print nm e2) as [y|]; [|discriminate Hp];
           inversion Hp; cbn; rewrite (IHe1 x eq_refl), (IHe2 y eq_refl); reflexivity).
    - inversion Hp. cbn [contains_tok]. eapply num_not_hash, parse_number_show_Z.
    - destruct (show_real q) as [t|] eqn:Hq; [|discriminate]. inversion Hp. cbn [contains_tok].
      eapply num_not_hash, parse_number_show_real, Hq.
    - inversion Hp. cbn [contains_tok]. apply X_obj.
    - inversion Hp. reflexivity.
    - inversion Hp. reflexivity.
    - destruct (sequence (map (print nm) args)) as [ss|] eqn:Q; [|discriminate]. inversion Hp.
      cbn [contains_tok existsb]. rewrite X_fl, (nh_list _ H ss Q). reflexivity.
    - destruct (sequence (map (print nm) l)) as [ss|] eqn:Q; [|discriminate]. unfold nary in Hp.
      destruct ss as [|a [|b r]]; try discriminate Hp. inversion Hp. pose proof (nh_list _ H _ Q) as N. cbn [contains_tok existsb] in *. rewrite N. reflexivity.
    - destruct (sequence (map (print nm) l)) as [ss|] eqn:Q; [|discriminate]. unfold nary in Hp.
      destruct ss as [|a [|b r]]; try discriminate Hp. inversion Hp. pose proof (nh_list _ H _ Q) as N. cbn [contains_tok existsb] in *. rewrite N. reflexivity.
    - destruct (sequence (map (print nm) l)) as [ss|] eqn:Q; [|discriminate]. unfold chain in Hp.
      destruct ss as [|a [|b r]]; try discriminate Hp. inversion Hp. pose proof (nh_list _ H _ Q) as N. cbn [existsb] in N.
      apply orb_false_iff in N as [Na N]. apply (nh_chain "+" eq_refl (b :: r) a Na N).
    - destruct (sequence (map (print nm) l)) as [ss|] eqn:Q; [|discriminate]. unfold chain in Hp.
      destruct ss as [|a [|b r]]; try discriminate Hp. inversion Hp. pose proof (nh_list _ H _ Q) as N. cbn [existsb] in N.
      apply orb_false_iff in N as [Na N]. apply (nh_chain "*" eq_refl (b :: r) a Na N).
  Qed.
End NoHash.

Lemma params_roundtrip (nm : naming) (E : env) :
  (forall p, e_par E (nm_par nm p) = Some p) -> (forall t, e_ty E (nm_ty nm t) = Some t) ->
  (forall t, starts_q (nm_ty nm t) = false) ->
  forall ps, forallb is_atom (print_pars nm ps) = true
             /\ exists nps, parse_vars E [] (print_pars nm ps) = Some nps
                            /\ sequence (map (fun p => option_map (fun i => (i, snd p)) (e_par E (fst p))) nps) = Some ps.
Proof.
  intros Hp Ht Hq ps.
  set (nm' := {| nm_fl := nm_fl nm; nm_obj := nm_obj nm; nm_par := nm_par nm; nm_var := nm_par nm; nm_ty := nm_ty nm |}).
  set (E' := {| PddlExpr.e_fl := PddlExpr.e_fl E; e_obj := e_obj E; e_par := e_par E; e_var := e_par E; e_ty := e_ty E |}).
  split; [exact (print_vars_atoms nm' ps)|]. exists (scope_names nm' ps). split.
  - exact (parse_print_vars nm' E Ht Hq ps).
  - exact (seq_scope nm' E' Hp ps).
Qed.

Section EffRoundTrip.
  Variable simp : expr -> expr.
  Variable isb : N -> bool.
  Variable nm : naming.
  Variable E : env.
  Hypothesis H_fl : forall f, PddlExpr.e_fl E (nm_fl nm f) = Some f.
  Hypothesis H_flkw : forall f, is_kw (nm_fl nm f) = false.
  Hypothesis H_obj : forall o, e_obj E (nm_obj nm o) = Some o.
  Hypothesis H_obj_fl : forall o, PddlExpr.e_fl E (nm_obj nm o) = None.
  Hypothesis H_obj_q : forall o, starts_q (nm_obj nm o) = false.
  Hypothesis H_par : forall p, e_par E (nm_par nm p) = Some p.
  Hypothesis H_var : forall v, e_var E (nm_var nm v) = Some v.
  Hypothesis H_par_var : forall p v, nm_par nm p <> nm_var nm v.
  Hypothesis H_ty : forall t, e_ty E (nm_ty nm t) = Some t.
  Hypothesis H_ty_q : forall t, starts_q (nm_ty nm t) = false.
  Hypothesis H_num : forall s q, parse_number s = Some q -> PddlExpr.e_fl E s = None /\ e_obj E s = None.
  Hypothesis H_effkw : forall f, is_eff_kw (nm_fl nm f) = false.       (* no fluent is named like an effect keyword *)
  (* no fluent, object or type is called "#t", so the token (continuous change) does not occur in a printed expression *)
  Hypothesis X_fl : forall f, (nm_fl nm f =? "#t") = false.
  Hypothesis X_obj : forall o, (nm_obj nm o =? "#t") = false.
  Hypothesis X_ty : forall t, (nm_ty nm t =? "#t") = false.
  Notation no_hash := (print_no_hash nm X_fl X_obj X_ty).

  Notation PQ := (parse_q simp E isb).
  Notation StepOK := (StepOK simp isb E).
  Notation level := (level simp isb E).
  Definition RTX := roundtrip_sc nm E H_fl H_flkw H_obj H_obj_fl H_obj_q H_par H_var H_par_var H_ty H_ty_q H_num.

  (* the printed form of an expression of the fragment (any default outside it) *)
  Definition psx (x : expr) : sexp := match print nm x with Some s => s | None => Atom "" end.

  Lemma psx_ok sc x : pddl_ok sc x = true ->
    print nm x = Some (psx x) /\ parse E (scope_names nm sc) (psx x) = Some (norm x).
  Proof. intro H. destruct (RTX x sc H) as (s & P1 & P2). unfold psx. rewrite P1. auto. Qed.

  Definition OKE (e : effect) : Prop := pddl_eff_ok simp isb e = true.

  (* add_effect on the re-read target, value and condition builds the normalised effect *)
  Lemma mk_effect_ok e : OKE e ->
    mk_effect E isb (norm (target e)) (norm (e_val e)) (norm (e_cond e)) (e_kind e) (scope_names nm (e_vars e))
    = Some (norm_eff e).
  Proof.
    intro H. destruct (oke_all simp isb e H) as (_ & _ & _ & _ & Hb & _ & _ & _ & _ & Hfv & Huse).
    unfold mk_effect. cbn [target norm]. rewrite (seq_scope nm E H_var). fold (target e).
    change (free_vars (EFluent (Problem.e_fl e) (map norm (e_args e)))) with (free_vars (norm (target e))).
    fold (eff_fv e). rewrite Hfv, (filter_true _ _ Huse), <- Hb. reflexivity.
  Qed.

  Definition ADD (t v : option expr) (c : expr) (k : ekind) (vars : list (string * N)) f q acc :=
    match t, v with
    | Some t', Some v' => match mk_effect E isb t' v' c k vars with Some e => PQ f q (e :: acc) | None => None end
    | _, _ => None
    end.

  Lemma step_and rest c vars f q acc :
    PQ (S f) ((SList (Atom "and" :: rest), c, vars) :: q) acc = PQ f (q ++ map (fun y => (y, c, vars)) rest) acc.
  Proof. reflexivity. Qed.
  Lemma step_when cs body r c vars f q acc :
    PQ (S f) ((SList (Atom "when" :: cs :: body :: r), c, vars) :: q) acc =
    match parse E vars cs with
    | Some c' => if is_false (simp c') then PQ f q acc else PQ f (q ++ [(body, simp c', vars)]) acc
    | None => None end.
  Proof. reflexivity. Qed.
  Lemma step_not y r c vars f q acc :
    PQ (S f) ((SList (Atom "not" :: y :: r), c, vars) :: q) acc = ADD (parse E vars y) (Some (EBool false)) c KAssign vars f q acc.
  Proof. reflexivity. Qed.
  Lemma step_assign y v r c vars f q acc :
    PQ (S f) ((SList (Atom "assign" :: y :: v :: r), c, vars) :: q) acc =
    ADD (parse E vars y) (parse E vars v) c KAssign vars f q acc.
  Proof. reflexivity. Qed.
  Lemma step_inc y v r c vars f q acc :
    PQ (S f) ((SList (Atom "increase" :: y :: v :: r), c, vars) :: q) acc =
    if contains_tok "#t" (SList (Atom "increase" :: y :: v :: r)) then None
    else ADD (parse E vars y) (parse E vars v) c KInc vars f q acc.
  Proof. reflexivity. Qed.
  Lemma step_dec y v r c vars f q acc :
    PQ (S f) ((SList (Atom "decrease" :: y :: v :: r), c, vars) :: q) acc =
    if contains_tok "#t" (SList (Atom "decrease" :: y :: v :: r)) then None
    else ADD (parse E vars y) (parse E vars v) c KDec vars f q acc.
  Proof. reflexivity. Qed.
  Lemma step_forall vl body r c f q acc :
    PQ (S f) ((SList (Atom "forall" :: SList vl :: body :: r), c, []) :: q) acc =
    if forallb is_atom vl then
      match parse_vars E [] vl with
      | Some nv => if nodup_s (map fst nv) then PQ f (q ++ [(body, c, nv)]) acc else None
      | None => None end
    else None.
  Proof. reflexivity. Qed.
  Lemma step_lit fn ss c vars f q acc : is_eff_kw fn = false ->
    PQ (S f) ((SList (Atom fn :: ss), c, vars) :: q) acc =
    ADD (parse E vars (SList (Atom fn :: ss))) (Some (EBool true)) c KAssign vars f q acc.
  Proof.
    intro H. destruct (effkw_parts _ H) as (A1 & A2 & A3 & A4 & A5 & A6 & A7). cbn [parse_q].
    rewrite A1, A2, A3, A4, A5, A6, A7. reflexivity.
  Qed.

  Definition fl_s (e : effect) : sexp := psx (target e).
  Definition leaf_s (e : effect) : sexp :=
    if is_true (e_val e) then fl_s e
    else if is_false (e_val e) then SList [Atom "not"; fl_s e]
    else SList [Atom (kind_kw (e_kind e)); fl_s e; psx (e_val e)].
  Definition sc_of (e : effect) : list (string * N) := scope_names nm (e_vars e).

  Lemma fl_shape e : OKE e ->
    print nm (target e) = Some (fl_s e) /\ parse E (sc_of e) (fl_s e) = Some (norm (target e))
    /\ exists ss, fl_s e = SList (Atom (nm_fl nm (Problem.e_fl e)) :: ss).
  Proof.
    intro H. destruct (oke_all simp isb e H) as (_ & _ & _ & _ & _ & _ & _ & Ht & _).
    destruct (psx_ok _ _ Ht) as [P1 P2]. fold (fl_s e) in P1, P2. split; [exact P1|]. split; [exact P2|].
    unfold target in P1. cbn [print] in P1. destruct (sequence (map (print nm) (e_args e))) as [ss|]; [|discriminate].
    exists ss. congruence.
  Qed.

  Lemma leaf_step e : OKE e -> forall f q acc,
    PQ (S f) ((leaf_s e, norm (e_cond e), sc_of e) :: q) acc = PQ f q (norm_eff e :: acc).
  Proof.
    intros H f q acc. pose proof (mk_effect_ok e H) as M. fold (sc_of e) in M.
    destruct (fl_shape e H) as (P1 & P2 & ss & Hs).
    unfold leaf_s. destruct (oke_val simp isb e H) as [Ev Ek _|Ev Ek _|Et Ef _ Hp].
    - rewrite Ev, Ek in *. cbn [norm is_true] in *.
      rewrite Hs in *. rewrite step_lit by apply H_effkw. rewrite P2. unfold ADD. rewrite M. reflexivity.
    - rewrite Ev, Ek in *. cbn [norm is_true is_false] in *.
      rewrite step_not, P2. unfold ADD. rewrite M. reflexivity.
    - rewrite Et, Ef.
      destruct (psx_ok _ _ Hp) as [V1 V2]. fold (sc_of e) in V2.
      assert (contains_tok "#t" (SList [Atom (kind_kw (e_kind e)); fl_s e; psx (e_val e)]) = false) as NH.
      { cbn [contains_tok existsb]. rewrite (no_hash _ _ P1), (no_hash _ _ V1). destruct (e_kind e); reflexivity. }
      destruct (e_kind e); cbn [kind_kw] in *.
      + rewrite step_assign, P2, V2. unfold ADD. rewrite M. reflexivity.
      + rewrite step_inc, NH, P2, V2. unfold ADD. rewrite M. reflexivity.
      + rewrite step_dec, NH, P2, V2. unfold ADD. rewrite M. reflexivity.
  Qed.

  Definition TT : expr := EBool true.
  Definition when_s (e : effect) : sexp := SList [Atom "when"; psx (e_cond e); leaf_s e].
  Definition body_s (e : effect) : sexp := if is_true (e_cond e) then leaf_s e else when_s e.
  Definition item0 (e : effect) : sexp := wrap_forall nm (e_vars e) (body_s e).
  Definition ent0 (e : effect) : qitem := (item0 e, TT, []).
  Definition child1 (e : effect) : qitem :=
    match e_vars e with [] => (leaf_s e, norm (e_cond e), []) | _ => (body_s e, TT, sc_of e) end.
  Definition child2 (e : effect) : qitem := (leaf_s e, norm (e_cond e), sc_of e).

  Definition LIVE (e : effect) : Prop := OKE e /\ is_false (e_cond e) = false.

  Lemma cond_parse e : LIVE e -> is_true (e_cond e) = false ->
    print nm (e_cond e) = Some (psx (e_cond e)) /\ parse E (sc_of e) (psx (e_cond e)) = Some (norm (e_cond e))
    /\ simp (norm (e_cond e)) = norm (e_cond e) /\ is_false (norm (e_cond e)) = false.
  Proof.
    intros [H Hf] Ht. destruct (oke_all simp isb e H) as (_ & Hs & _ & _ & _ & _ & Hc & _). rewrite Ht, Hf in Hc. cbn [orb] in Hc.
    apply andb_true_iff in Hc as [Hc1 Hc2]. apply negb_true_iff in Hc2. destruct (psx_ok _ _ Hc1) as [P1 P2]. auto.
  Qed.

  Lemma when_step e vars : LIVE e -> is_true (e_cond e) = false -> vars = sc_of e -> forall c0,
    StepOK (when_s e, c0, vars) (inr (leaf_s e, norm (e_cond e), vars)).
  Proof.
    intros HL Ht -> c0 f q acc. destruct (cond_parse e HL Ht) as (_ & P2 & P3 & P4). unfold when_s.
    rewrite step_when, P2, P3, P4. reflexivity.
  Qed.

  Lemma step0 e : LIVE e -> StepOK (ent0 e) (if Nat.eqb (depth e) 0 then inl (norm_eff e) else inr (child1 e)).
  Proof.
    intros HL. pose proof HL as [H Hf]. unfold ent0, item0, child1, depth, body_s.
    destruct (oke_all simp isb e H) as (_ & _ & _ & _ & _ & _ & _ & _ & Hnd & _).
    destruct (e_vars e) as [|p vs] eqn:Hv; cbn [wrap_forall].
    - destruct (is_true (e_cond e)) eqn:Ht; cbn [plus Nat.eqb].
      + intros f q acc. pose proof (leaf_step e H f q acc) as L. unfold sc_of in L. rewrite Hv in L. cbn [scope_names map] in L.
        apply is_true_eq in Ht. rewrite Ht in L. cbn [norm] in L. exact L.
      + apply (when_step e [] HL Ht). unfold sc_of. rewrite Hv. reflexivity.
    - replace (Nat.eqb ((if is_true (e_cond e) then 0 else 1) + 1) 0) with false by (destruct (is_true (e_cond e)); reflexivity).
      intros f q acc. rewrite step_forall, print_vars_atoms, (parse_print_vars nm E H_ty H_ty_q).
      rewrite (nodup_scope nm E H_var), Hnd. unfold sc_of. rewrite Hv. reflexivity.
  Qed.

  Lemma step1 e : LIVE e -> Nat.eqb (depth e) 0 = false ->
    StepOK (child1 e) (if Nat.eqb (depth e) 1 then inl (norm_eff e) else inr (child2 e)).
  Proof.
    intros HL. pose proof HL as [H Hf]. unfold child1, child2, depth, body_s.
    destruct (e_vars e) as [|p vs] eqn:Hv.
    - destruct (is_true (e_cond e)) eqn:Ht; cbn [plus Nat.eqb]; [discriminate|]. intros _ f q acc.
      pose proof (leaf_step e H f q acc) as L. unfold sc_of in *. rewrite Hv in *. exact L.
    - intros _. destruct (is_true (e_cond e)) eqn:Ht; cbn [plus Nat.eqb].
      + intros f q acc. pose proof (leaf_step e H f q acc) as L. apply is_true_eq in Ht. rewrite Ht in L. cbn [norm] in L. exact L.
      + apply (when_step e (sc_of e) HL Ht eq_refl).
  Qed.

  Lemma step2 e : LIVE e -> StepOK (child2 e) (inl (norm_eff e)).
  Proof. intros [H _] f q acc. apply leaf_step. exact H. Qed.

  Lemma val_const e : OKE e -> e_isbool e && negb (is_true (e_val e)) && negb (is_false (e_val e)) = false.
  Proof. intro H. destruct (oke_val simp isb e H) as [Ev _ Eb|Ev _ Eb|_ _ Eb _]; rewrite Eb, ?Ev; reflexivity. Qed.

  (* [pv] = the printed value, as an S-expression or as text; it is needed for a term only *)
  Lemma leaf_pick {A} e (pv : option A) (v f nf : A) (mk : A -> A) :
    OKE e -> (pddl_ok (e_vars e) (e_val e) = true -> pv = Some v) ->
    (if is_true (e_val e) then Some f else if is_false (e_val e) then Some nf else option_map mk pv)
    = Some (if is_true (e_val e) then f else if is_false (e_val e) then nf else mk v).
  Proof.
    intros H Hpv. destruct (oke_val simp isb e H) as [Ev _ _|Ev _ _|Et Ef _ Hp].
    - rewrite Ev. reflexivity.
    - rewrite Ev. reflexivity.
    - rewrite Et, Ef, (Hpv Hp). reflexivity.
  Qed.

  Lemma print_item rw e : OKE e ->
    print_effect simp nm rw e = Some (if is_false (e_cond e) then [] else [item0 e]).
  Proof.
    intro H. destruct (oke_all simp isb e H) as (S1 & _ & S3 & S4 & _).
    destruct (fl_shape e H) as (P1 & _ & _).
    unfold print_effect, convert. rewrite S1, !S3, S4, P1, (val_const e H).
    destruct (is_false (e_cond e)) eqn:Hf; [reflexivity|].
    unfold item0, body_s, when_s, leaf_s.
    pose proof (leaf_pick e (print nm (e_val e)) (psx (e_val e)) (fl_s e) (SList [Atom "not"; fl_s e])
                  (fun v => SList [Atom (kind_kw (e_kind e)); fl_s e; v]) H (fun Hp => proj1 (psx_ok _ _ Hp))) as LF.
    destruct (is_true (e_cond e)) eqn:Ht.
    - rewrite LF. reflexivity.
    - destruct (cond_parse e (conj H Hf) Ht) as (C1 & _). rewrite C1. cbn [option_map]. rewrite LF. reflexivity.
  Qed.

  Lemma print_all rw effs : Forall OKE effs ->
    print_effects simp nm rw effs =
    Some (SList (Atom "and" :: map item0 (filter (fun e => negb (is_false (e_cond e))) effs))).
  Proof.
    intro F. unfold print_effects.
    rewrite (sequence_map _ (fun e => if is_false (e_cond e) then [] else [item0 e]) effs)
      by (intros e He; apply print_item, (proj1 (Forall_forall _ _) F), He).
    rewrite concat_map_opt. reflexivity.
  Qed.

  Notation nd0 := (fun e : effect => negb (Nat.eqb (depth e) 0)).
  Notation nd1 := (fun e : effect => negb (Nat.eqb (depth e) 1)).

  Lemma filter_d1 l : filter (fun e => Nat.eqb (depth e) 1) (filter nd0 l) = filter (fun e => Nat.eqb (depth e) 1) l.
  Proof.
    induction l as [|e l IH]; [reflexivity|]. cbn [filter].
    destruct (depth_le2 e) as [D|[D|D]]; rewrite D; cbn [Nat.eqb negb filter]; rewrite ?D; cbn [Nat.eqb]; rewrite IH; reflexivity.
  Qed.
  Lemma filter_d2 l : filter nd1 (filter nd0 l) = filter (fun e => Nat.eqb (depth e) 2) l.
  Proof.
    induction l as [|e l IH]; [reflexivity|]. cbn [filter].
    destruct (depth_le2 e) as [D|[D|D]]; rewrite D; cbn [Nat.eqb negb filter]; rewrite ?D; cbn [Nat.eqb negb]; rewrite IH; reflexivity.
  Qed.

  (* the rounds take one step per item and wrapper, and a wrapper ("forall", "when") adds to the size of what is written *)
  Lemma count_levels l :
    (List.length l + (List.length (filter nd0 l) + List.length (filter nd1 (filter nd0 l))))%nat
    = fold_right (fun e n => (S (depth e) + n)%nat) 0%nat l.
  Proof.
    induction l as [|e l IH]; [reflexivity|]. cbn [filter fold_right List.length].
    destruct (depth_le2 e) as [D|[D|D]]; rewrite D; cbn [Nat.eqb negb filter List.length]; rewrite ?D;
      cbn [Nat.eqb negb List.length]; lia.
  Qed.

  Lemma item_weight e : (S (depth e) <= ssize (item0 e))%nat.
  Proof.
    unfold item0, depth, body_s, when_s. pose proof (ssize_pos (leaf_s e)) as L.
    destruct (e_vars e) as [|p vs]; destruct (is_true (e_cond e)); cbn [wrap_forall plus ssize fold_right]; lia.
  Qed.

  Lemma items_weight l : (fold_right (fun e n => (S (depth e) + n)%nat) 0%nat l
                          <= fold_right (fun x n => (ssize x + n)%nat) 0%nat (map item0 l))%nat.
  Proof. induction l as [|e l IH]; [reflexivity|]. cbn [map fold_right]. pose proof (item_weight e). lia. Qed.

  Lemma live_filter effs : Forall OKE effs ->
    forall e, In e (filter (fun e => negb (is_false (e_cond e))) effs) -> LIVE e.
  Proof.
    intros F e He. apply filter_In in He as [He1 He2]. split; [rewrite Forall_forall in F; apply F; exact He1|].
    apply negb_true_iff in He2. exact He2.
  Qed.

  Lemma all_OKE effs : forallb (pddl_eff_ok simp isb) effs = true -> Forall OKE effs.
  Proof. intro H. apply Forall_forall. intros e He. rewrite forallb_forall in H. exact (H e He). Qed.

  Theorem effects_roundtrip rw effs : forallb (pddl_eff_ok simp isb) effs = true ->
    exists s, print_effects simp nm rw effs = Some s /\ parse_effects simp E isb s = Some (norm_effs effs).
  Proof.
    intro F. apply all_OKE in F. rewrite (print_all rw effs F). eexists; split; [reflexivity|].
    set (K := filter (fun e => negb (is_false (e_cond e))) effs). pose proof (live_filter effs F) as HK. fold K in HK.
    set (L1 := filter nd0 K). set (L2 := filter nd1 L1).
    assert (exists r, ssize (SList (Atom "and" :: map item0 K))
                      = (List.length K + (List.length L1 + (List.length L2 + r)))%nat) as [r Hr].
    { pose proof (count_levels K) as C. pose proof (items_weight K) as W. fold L1 in C. fold L2 in C.
      cbn [ssize fold_right].
      exists (S (1 + fold_right (fun x n => (ssize x + n)%nat) 0%nat (map item0 K))
              - (List.length K + (List.length L1 + List.length L2)))%nat. lia. }
    unfold parse_effects. rewrite step_and, Hr. cbn [app]. rewrite map_map. fold TT.
    change (map (fun x => (item0 x, TT, @nil (string * N))) K) with (map ent0 K).
    rewrite <- (app_nil_r (map ent0 K)).
    rewrite (level_if simp isb E ent0 (fun e => Nat.eqb (depth e) 0) norm_eff child1 K) by (intros e He; apply step0, HK, He).
    fold L1. cbn [app]. rewrite <- (app_nil_r (map child1 L1)).
    rewrite (level_if simp isb E child1 (fun e => Nat.eqb (depth e) 1) norm_eff child2 L1).
    2:{ intros e He. apply filter_In in He as [He1 He2]. apply negb_true_iff in He2. apply step1; [apply HK, He1|exact He2]. }
    fold L2. cbn [app]. rewrite <- (app_nil_r (map child2 L2)).
    rewrite (level_all simp isb E child2 norm_eff L2).
    2:{ intros e He. apply filter_In in He as [He1 _]. apply filter_In in He1 as [He1 _]. apply step2, HK, He1. }
    replace (PQ r []) with (fun acc : list effect => Some (rev acc)) by (destruct r; reflexivity).
    f_equal. rewrite !app_nil_r, !rev_app_distr, !rev_involutive. unfold norm_effs, bylevel. fold K.
    rewrite !map_app. unfold L2, L1. rewrite filter_d1, filter_d2, <- app_assoc. reflexivity.
  Qed.

  (* the "(and c1 .. cn)" precondition group, for 0, 1 or n conjuncts *)
  Lemma pre_group cs : forallb (fun c => sfix simp c && pddl_ok [] c) cs = true ->
    exists ss, sequence (map (fun c => print nm (simp c)) cs) = Some ss
               /\ parse E [] (SList (Atom "and" :: ss)) = Some (mkAnd (map norm cs)).
  Proof.
    intro H.
    assert (forallb (pddl_ok []) cs = true /\ map (fun c => print nm (simp c)) cs = map (print nm) cs) as [Hok Hm].
    { induction cs as [|c cs IH]; [split; reflexivity|]. cbn [forallb map] in *. apply andb_true_iff in H as [Hc H].
      apply andb_true_iff in Hc as [Hs Hp]. destruct (IH H) as [I1 I2]. unfold sfix in Hs. apply expr_eqb_eq in Hs.
      rewrite Hp, I1, I2, Hs. split; reflexivity. }
    assert (Forall (RT nm E) cs) as F by (apply Forall_forall; intros c _; exact (RTX c)).
    destruct (rt_list nm E cs F [] Hok) as (ss & Q1 & Q2 & _). exists ss. rewrite Hm. split; [exact Q1|].
    rewrite (parse_op E "and" OAnd) by reflexivity. cbn [scope_names map] in Q2. rewrite Q2. reflexivity.
  Qed.

  Theorem action_roundtrip (rw ep : bool) (a : paction) : pddl_action_ok simp isb a = true ->
    exists x, print_action simp nm rw ep a = Some (Some x) /\ parse_action simp E isb x = Some (norm_action simp a).
  Proof.
    unfold pddl_action_ok. intro H. apply andb_true_iff in H as [H Hnd]. apply andb_true_iff in H as [H Heff].
    apply andb_true_iff in H as [Hnf Hpre]. apply negb_true_iff in Hnf.
    destruct (pre_group _ Hpre) as (ss & S1 & S2).
    destruct (effects_roundtrip rw (pa_effs a) Heff) as (es & E1 & E2).
    destruct (params_roundtrip nm E H_par H_ty H_ty_q (pa_params a)) as (PA & nps & P1 & P2).
    assert (parse_effects simp E isb (SList [Atom "and"]) = Some []) as Enil by reflexivity.
    destruct (pa_pre a) as [|p0 pre] eqn:Hp; destruct (pa_effs a) as [|e0 effs] eqn:He;
      unfold print_action, parse_action, norm_action; rewrite Hp, He, Hnf, ?S1, ?E1; cbn [option_map];
      try destruct ep; (eexists; split; [reflexivity|]); cbn [ax_params ax_pre ax_eff];
      rewrite PA, P1, P2, ?S2, ?E2; reflexivity.
  Qed.

  Hypothesis N_fl : forall f, name_ok (nm_fl nm f) = true.
  Hypothesis N_obj : forall o, name_ok (nm_obj nm o) = true.
  Hypothesis N_par : forall p, name_ok (nm_par nm p) = true.
  Hypothesis N_var : forall v, name_ok (nm_var nm v) = true.
  Hypothesis N_ty : forall t, name_ok (nm_ty nm t) = true.

  Definition ptx (x : expr) : string := match print_text nm x with Some t => t | None => "" end.

  Lemma ptx_ok x : print nm x = Some (psx x) -> print_text nm x = Some (ptx x) /\ PT (ptx x) (psx x).
  Proof.
    intro H. destruct (text_of_print nm N_fl N_obj N_par N_var N_ty x _ H) as (t & T1 & T2). unfold ptx. rewrite T1. auto.
  Qed.

  Definition fl_t (e : effect) : string := ptx (target e).
  Definition leaf_t (e : effect) : string :=
    if is_true (e_val e) then fl_t e
    else if is_false (e_val e) then tlist ["not"; fl_t e]
    else tlist [kind_kw (e_kind e); fl_t e; ptx (e_val e)].
  Definition body_t (e : effect) : string :=
    if is_true (e_cond e) then leaf_t e else tlist ["when"; ptx (e_cond e); leaf_t e].

  Lemma leaf_PT e : OKE e -> PT (leaf_t e) (leaf_s e).
  Proof.
    intro H. destruct (fl_shape e H) as (P1 & _ & _). destruct (ptx_ok _ P1) as [_ F]. fold (fl_t e) in F. fold (fl_s e) in F.
    unfold leaf_t, leaf_s. destruct (oke_val simp isb e H) as [Ev _ _|Ev _ _|Et Ef _ Hp].
    - rewrite Ev. exact F.
    - rewrite Ev. apply PT_tlist. f2; [apply PT_atom; reflexivity|exact F].
    - rewrite Et, Ef. destruct (ptx_ok _ (proj1 (psx_ok _ _ Hp))) as [_ V]. apply PT_tlist.
      f2; [apply PT_atom; destruct (e_kind e); reflexivity|exact F|exact V].
  Qed.

  Lemma body_PT e : LIVE e -> PT (body_t e) (body_s e).
  Proof.
    intros HL. pose proof HL as [H _]. unfold body_t, body_s, when_s. destruct (is_true (e_cond e)) eqn:Ht; [apply leaf_PT, H|].
    destruct (cond_parse e HL Ht) as (C1 & _). destruct (ptx_ok _ C1) as [_ C].
    apply PT_tlist. f2; [apply PT_atom; reflexivity|exact C|apply leaf_PT, H].
  Qed.

  Lemma print_item_text rw e : OKE e ->
    print_effect_text simp nm rw e = Some (if is_false (e_cond e) then [] else [item_text nm (e_vars e) (body_t e)]).
  Proof.
    intro H. destruct (oke_all simp isb e H) as (S1 & _ & S3 & S4 & _).
    destruct (fl_shape e H) as (P1 & _ & _). destruct (ptx_ok _ P1) as [F1 _]. fold (fl_t e) in F1.
    unfold print_effect_text, convert_text. rewrite S1, !S3, S4, F1, (val_const e H).
    destruct (is_false (e_cond e)) eqn:Hf; [reflexivity|].
    unfold body_t, leaf_t.
    pose proof (leaf_pick e (print_text nm (e_val e)) (ptx (e_val e)) (fl_t e) (tlist ["not"; fl_t e])
                  (fun v => tlist [kind_kw (e_kind e); fl_t e; v]) H
                  (fun Hp => proj1 (ptx_ok _ (proj1 (psx_ok _ _ Hp))))) as LF.
    destruct (is_true (e_cond e)) eqn:Ht.
    - rewrite LF. reflexivity.
    - destruct (cond_parse e (conj H Hf) Ht) as (C1 & _). destruct (ptx_ok _ C1) as [C2 _]. rewrite C2. cbn [option_map].
      rewrite LF. reflexivity.
  Qed.

  (* item = prefix ("" or one blank) + a parenthesised group read as item0 *)
  Definition pre_t (e : effect) : string := match e_vars e with [] => " " | _ => "" end.
  Definition unit_t (e : effect) : string :=
    match e_vars e with [] => body_t e | vs => tlist ["forall"; tlist (var_toks nm vs); body_t e] end.

  Lemma item_split e : item_text nm (e_vars e) (body_t e) = pre_t e ++ unit_t e.
  Proof. unfold item_text, pre_t, unit_t. destruct (e_vars e); reflexivity. Qed.

  Lemma unit_PT e : LIVE e -> PT (unit_t e) (item0 e).
  Proof.
    intro HL. unfold unit_t, item0. destruct (e_vars e) as [|p vs] eqn:Hv; cbn [wrap_forall]; [apply body_PT, HL|].
    apply PT_tlist. f2; [apply PT_atom; reflexivity| |apply body_PT, HL].
    apply PT_tlist. apply (tx_vars nm N_var N_ty).
  Qed.

  (* a group behind its separator: a blank, or nothing when the group opens with a parenthesis *)
  Definition piece (p : string * string) (x : sexp) : Prop :=
    PT (snd p) x /\ (fst p = " " \/ (fst p = "" /\ exists r, snd p = String "(" r)).

  Lemma unit_piece e : LIVE e -> piece (pre_t e, unit_t e) (item0 e).
  Proof.
    intro HL. split; [apply unit_PT, HL|]. cbn [fst snd]. unfold pre_t, unit_t.
    destruct (e_vars e); [left; reflexivity|right]. split; [reflexivity|]. eexists. reflexivity.
  Qed.

  Fixpoint shiftl (t : string) (l : list (string * string)) : list (string * string) :=
    match l with [] => [(t, "")] | (pre, u) :: r => (t, pre) :: shiftl u r end.

  Lemma shift_cat l : forall t, cat (shiftl t l) = t ++ concat_s (map (fun p => fst p ++ snd p) l).
  Proof.
    induction l as [|[pre u] r IH]; intro t; cbn [shiftl cat map concat_s fst snd].
    - reflexivity.
    - rewrite IH. rewrite !str_app_assoc. reflexivity.
  Qed.

  (* a head followed by pieces is a list of items with their separators, as PddlLex_proofs reads them *)
  Lemma shift_items l : forall ss t s, PT t s -> Forall2 piece l ss ->
    Forall2 (fun it x => LX (fst it) x) (shiftl t l) (s :: ss) /\ seps_ok2 (shiftl t l)
    /\ Forall (fun it => clean (fst it) /\ clean (snd it)) (shiftl t l).
  Proof.
    induction l as [|[pre u] r IH]; intros ss t s [Lt Ct] F; inversion F as [|p x r' ss' [Pu Hp] Fr]; subst;
      cbn [shiftl seps_ok2 fst snd] in *.
    - split; [constructor; [exact Lt|constructor]|]. split; [|constructor; [split; [exact Ct|reflexivity]|constructor]].
      split; [reflexivity|]. split; [|exact I]. intros y Hy. exact Hy.
    - destruct (IH _ _ _ Pu Fr) as (I1 & I2 & I3).
      assert (ws_str pre = true /\ clean pre) as [Wp Cp] by (destruct Hp as [->|[-> _]]; split; reflexivity).
      split; [constructor; [exact Lt|exact I1]|]. split; [|constructor; [split; [exact Ct|exact Cp]|exact I3]].
      split; [exact Wp|]. split; [|exact I2].
      intros y Hy. destruct Hp as [->|[-> [r0 Hu]]]; [reflexivity|]. cbn [append].
      destruct r as [|[pre' u'] r'']; cbn [shiftl cat]; rewrite Hu; reflexivity.
  Qed.

  Lemma shift_PT l ss t s : PT t s -> Forall2 piece l ss -> PT (tl (shiftl t l)) (SList (s :: ss)).
  Proof.
    intros Ht F. destruct (shift_items l ss t s Ht F) as (H1 & H2 & H3).
    split; [apply LX_tl2; assumption|apply clean_tl; assumption].
  Qed.

  Lemma print_all_text rw effs : Forall OKE effs ->
    print_effects_text simp nm rw effs =
    Some (tl (shiftl "and" (map (fun e => (pre_t e, unit_t e)) (filter (fun e => negb (is_false (e_cond e))) effs)))).
  Proof.
    intro F. unfold print_effects_text, tl.
    rewrite (sequence_map _ (fun e => if is_false (e_cond e) then [] else [item_text nm (e_vars e) (body_t e)]) effs)
      by (intros e He; apply print_item_text, (proj1 (Forall_forall _ _) F), He).
    rewrite concat_map_opt, shift_cat, map_map. cbn [fst snd]. rewrite (map_ext _ _ item_split). reflexivity.
  Qed.

  Theorem effects_text_roundtrip rw effs : forallb (pddl_eff_ok simp isb) effs = true ->
    exists t, print_effects_text simp nm rw effs = Some t /\ parse_effects_text simp E isb t = Some (norm_effs effs).
  Proof.
    intro F. destruct (effects_roundtrip rw effs F) as (s & P1 & P2). apply all_OKE in F.
    rewrite (print_all rw effs F) in P1. inversion P1 as [P1e].
    rewrite (print_all_text rw effs F). eexists; split; [reflexivity|].
    set (K := filter (fun e => negb (is_false (e_cond e))) effs) in *.
    assert (PT (tl (shiftl "and" (map (fun e => (pre_t e, unit_t e)) K))) (SList (Atom "and" :: map item0 K))) as [L C].
    { apply shift_PT; [apply PT_atom; reflexivity|]. apply Forall2_maps. intros e He.
      apply unit_piece, (live_filter effs F), He. }
    unfold parse_effects_text. rewrite C, (lex_of_LX _ _ L), P1e. exact P2.
  Qed.
End EffRoundTrip.

Definition ex_effects_roundtrip (simp : expr -> expr) (isb : N -> bool) :=
  effects_roundtrip simp isb ex_nm ex_env (pref_ok "x") (fun f => eq_refl) (pref_ok "b") (fun o => eq_refl) (fun o => eq_refl)
    (pref_ok "p") (pref_ok "v") (fun p v (H : pref_nm "p" p = pref_nm "v" v) => ltac:(discriminate H))
    (pref_ok "t") (fun t => eq_refl) ex_num (fun f => eq_refl) (fun f => eq_refl) (fun o => eq_refl) (fun t => eq_refl).

Theorem roundtrip_same_successor (simp : expr -> expr) (isb : N -> bool) (sc : bool) (I : interp) (P : problem) (s : state)
  (effs : list effect) (acts : list aeff) :
  Forall (fun e => pddl_eff_ok simp isb e = true) effs ->
  fired sc I effs = Some acts ->
  exists acts', fired sc I (norm_effs effs) = Some acts'
                /\ spec_effects_ok P s acts' = spec_effects_ok P s acts
                /\ forall f args, spec_succ P s acts' f args = spec_succ P s acts f args.
Proof.
  intros F H. destruct (norm_effs_fired simp isb sc I effs acts F H) as (acts' & A1 & A2).
  exists acts'. split; [exact A1|]. destruct (same_successor P s acts acts' A2) as [B1 B2].
  split; [symmetry; exact B1|]. intros f args. symmetry. apply B2.
Qed.

Definition ex_effects_text_roundtrip (simp : expr -> expr) (isb : N -> bool) :=
  effects_text_roundtrip simp isb ex_nm ex_env (pref_ok "x") (fun f => eq_refl) (pref_ok "b") (fun o => eq_refl)
    (fun o => eq_refl) (pref_ok "p") (pref_ok "v") (fun p v (H : pref_nm "p" p = pref_nm "v" v) => ltac:(discriminate H))
    (pref_ok "t") (fun t => eq_refl) ex_num (fun f => eq_refl) (fun f => eq_refl) (fun o => eq_refl) (fun t => eq_refl)
    (fun f => pref_name_ok "x" f eq_refl) (fun o => pref_name_ok "b" o eq_refl)
    (fun p => pref_name_ok "p" p eq_refl) (fun v => pref_name_ok "v" v eq_refl) (fun t => pref_name_ok "t" t eq_refl).

Section ActionSem.
  Variable simp : expr -> expr.
  Variable isb : N -> bool.
  Variable sc : bool.
  Variable I : interp.
  (* soundness of the Simplifier on conditions (C11's theorem, a hypothesis here): it preserves "holds" *)
  Hypothesis simp_holds : forall x, holds sc I (simp x) = holds sc I x.

  Lemma holds_conjuncts pre : forallb (holds sc I) (pre_conjuncts simp pre) = forallb (holds sc I) pre.
  Proof.
    induction pre as [|p pre IH]; [reflexivity|]. cbn [pre_conjuncts flat_map forallb]. fold (pre_conjuncts simp pre).
    rewrite forallb_app, IH, <- (simp_holds p). f_equal.
    destruct (is_true (simp p)) eqn:Ht; [apply is_true_eq in Ht; rewrite Ht; reflexivity|].
    destruct (simp p); cbn [forallb]; rewrite ?andb_true_r; try reflexivity. symmetry. apply holds_EAnd.
  Qed.

  Lemma holds_norm cs : forallb (fun c => sfix simp c && pddl_ok [] c) cs = true ->
    forallb (holds sc I) (map norm cs) = forallb (holds sc I) cs.
  Proof.
    induction cs as [|c cs IH]; [reflexivity|]. cbn [forallb map]. intro H. apply andb_true_iff in H as [Hc H].
    apply andb_true_iff in Hc as [_ Hp]. rewrite (IH H). f_equal. unfold holds. rewrite (norm_sem sc c [] I Hp). reflexivity.
  Qed.

  Theorem action_same_behaviour (P : problem) (s : state) (a : paction) : pddl_action_ok simp isb a = true ->
    forallb (holds sc I) (pa_pre (norm_action simp a)) = forallb (holds sc I) (pa_pre a)
    /\ forall acts, fired sc I (pa_effs a) = Some acts ->
         exists acts', fired sc I (pa_effs (norm_action simp a)) = Some acts'
                       /\ spec_effects_ok P s acts' = spec_effects_ok P s acts
                       /\ forall f args, spec_succ P s acts' f args = spec_succ P s acts f args.
  Proof.
    unfold pddl_action_ok. intro H. apply andb_true_iff in H as [H _]. apply andb_true_iff in H as [H Heff].
    apply andb_true_iff in H as [_ Hpre]. split.
    - assert (holds sc I (mkAnd (map norm (pre_conjuncts simp (pa_pre a)))) = forallb (holds sc I) (pa_pre a)) as HC
        by (rewrite holds_mkAnd; unfold all_hold; rewrite (holds_norm _ Hpre), holds_conjuncts; reflexivity).
      unfold norm_action. cbn [pa_pre]. destruct (pa_pre a) as [|p0 pre]; [reflexivity|]. cbv zeta.
      destruct (is_true (mkAnd (map norm (pre_conjuncts simp (p0 :: pre))))) eqn:Ht; rewrite <- HC; cbn [forallb].
      + apply is_true_eq in Ht. rewrite Ht. reflexivity.
      + apply andb_true_r.
    - intros acts Hf. cbn [norm_action pa_effs]. apply (roundtrip_same_successor simp isb sc I P s); [|exact Hf].
      apply Forall_forall. intros e He. rewrite forallb_forall in Heff. apply Heff. exact He.
  Qed.
End ActionSem.

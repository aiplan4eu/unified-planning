(* Proofs about the LinearChecker model (C17): a fluent reported only among the positive (negative) fluents of an
   expression reported linear makes the value non-decreasing (non-increasing); products of two fluent-dependent
   factors and quotients by a fluent-dependent divisor are never reported linear. *)
From Coq Require Import List ZArith NArith QArith Qcanon Bool Lia Lqa.
Import ListNotations.
Require Import UPV.Core.Expr UPV.Core.Eval UPV.Core.Interp UPV.Proofs.Eval_lemmas UPV.Proofs.ListFacts UPV.Proofs.ExprKids.
Require Import UPV.Walkers.TypeInfer UPV.Proofs.TypeInfer_proofs UPV.Walkers.Linear.
Local Open Scope Qc_scope.

Lemma mem_e_In x s : mem_e x s = true <-> In x s.
Proof. exact (existsb_eqb_In expr_eqb expr_eqb_eq x s). Qed.
Lemma mem_e_not_In x s : ~ In x s -> mem_e x s = false.
Proof. exact (proj2 (existsb_eqb_not_In expr_eqb expr_eqb_eq x s)). Qed.

Lemma mem_e_app x a b : mem_e x (a ++ b) = mem_e x a || mem_e x b.
Proof. unfold mem_e. apply existsb_app. Qed.

Lemma mem_e_union x a b : mem_e x (union a b) = mem_e x a || mem_e x b.
Proof.
  unfold union. rewrite mem_e_app. destruct (mem_e x a) eqn:Ea; [reflexivity|]. simpl.
  apply eq_true_iff_eq. rewrite !mem_e_In, filter_In. split.
  - tauto.
  - intros H. split; [exact H|]. apply negb_true_iff.
    destruct (mem_e x a) eqn:E; [discriminate | reflexivity].
Qed.

Lemma mem_e_fold_union x sets : forall acc,
  mem_e x (fold_left union sets acc) = mem_e x acc || existsb (mem_e x) sets.
Proof.
  induction sets as [|s sets IH]; intros acc; simpl; [rewrite orb_false_r; reflexivity|].
  rewrite IH, mem_e_union, orb_assoc. reflexivity.
Qed.

Lemma is_empty_true s : is_empty s = true -> s = [].
Proof. destruct s; [reflexivity | discriminate]. Qed.

Lemma union_nonempty a b : is_empty (union a b) = is_empty a && is_empty b.
Proof.
  destruct a as [|x a]; simpl.
  - unfold union. simpl. destruct b; reflexivity.
  - reflexivity.
Qed.

Fixpoint lins (G : tenv) (l : list expr) : option (list lres) :=
  match l with
  | [] => Some []
  | x :: l' => match lin G x, lins G l' with Some r, Some rs => Some (r :: rs) | _, _ => None end
  end.

Lemma lins_fix G l :
  (fix lins (l : list expr) : option (list lres) :=
     match l with
     | [] => Some []
     | x :: l' => match lin G x, lins l' with Some r, Some rs => Some (r :: rs) | _, _ => None end
     end) l = lins G l.
Proof. induction l as [|x l IH]; [reflexivity|]. cbn [lins]. rewrite IH. reflexivity. Qed.

Definition dfltn (G : tenv) (l : list expr) : option lres :=
  match lins G l with Some rs => Some (walk_default rs) | None => None end.

Lemma lin_EFluent G f args :
  lin G (EFluent f args) = match lins G args with Some rs => Some (forallb r_lin rs, [EFluent f args], []) | None => None end.
Proof. cbn [lin]. rewrite lins_fix. reflexivity. Qed.
Lemma lin_ETimes G l : lin G (ETimes l) = match lins G l with Some rs => walk_times G l rs | None => None end.
Proof. cbn [lin]. rewrite lins_fix. reflexivity. Qed.
(* every operator but fluent application, product, quotient and difference is walk_default of its children's results *)
Definition plain (e : expr) : bool :=
  match e with EFluent _ _ | ETimes _ | EDiv _ _ | EMinus _ _ => false | _ => true end.

Lemma lin_plain G e : plain e = true -> lin G e = dfltn G (kids e).
Proof.
  unfold dfltn. destruct e; try discriminate; intros _; cbn [lin kids]; rewrite ?lins_fix; cbn [lins];
    repeat match goal with |- context [lin G ?x] => destruct (lin G x) end; reflexivity.
Qed.

Lemma has_fluent_plain e : plain e = true -> has_fluent e = existsb has_fluent (kids e).
Proof. destruct e; try discriminate; intros _; cbn [kids existsb has_fluent]; rewrite ?orb_false_r; reflexivity. Qed.

Lemma lin_EMinus G a b :
  lin G (EMinus a b) = match lin G a, lin G b with Some ra, Some rb => Some (walk_minus ra rb) | _, _ => None end.
Proof. reflexivity. Qed.

Lemma mul_le_r (k x y : Qc) : 0 <= k -> x <= y -> x * k <= y * k.
Proof. intros. apply Qcmult_le_compat_r; assumption. Qed.
Lemma mul_le_r_neg (k x y : Qc) : k <= 0 -> x <= y -> y * k <= x * k.
Proof. intros. rewrite (Qcmult_comm y), (Qcmult_comm x). apply mul_le_l_neg; assumption. Qed.
Lemma pos_pos (a b : Qc) : 0 < a -> 0 < b -> 0 < a * b.
Proof. intros Ha Hb. pose proof (Qcmult_lt_compat_r 0 a b Hb Ha) as P. rewrite mul_0_l in P. exact P. Qed.
Lemma neg_pos (a b : Qc) : a < 0 -> 0 < b -> a * b < 0.
Proof. intros Ha Hb. pose proof (Qcmult_lt_compat_r a 0 b Hb Ha) as P. rewrite mul_0_l in P. exact P. Qed.
Lemma pos_neg (a b : Qc) : 0 < a -> b < 0 -> a * b < 0.
Proof. intros Ha Hb. rewrite Qcmult_comm. apply neg_pos; assumption. Qed.
Lemma neg_neg (a b : Qc) : a < 0 -> b < 0 -> 0 < a * b.
Proof.
  intros Ha Hb. replace (a * b) with ((- a) * (- b)) by ring.
  apply pos_pos; qlra.
Qed.

Lemma sign_of_pos t q : sign_of t = SPos -> num_in t q -> 0 < q.
Proof.
  unfold sign_of. intros H [Hl _]. destruct (lb t) as [l|]; [|discriminate]. destruct (ub t) as [u|]; [|discriminate].
  destruct (qc_ltb 0 l) eqn:E; [|destruct (qc_ltb u 0); discriminate].
  apply qc_ltb_lt in E. simpl in Hl. exact (Qclt_le_trans _ _ _ E Hl).
Qed.
Lemma sign_of_neg t q : sign_of t = SNeg -> num_in t q -> q < 0.
Proof.
  unfold sign_of. intros H [_ [Hh _]]. destruct (lb t) as [l|]; [|discriminate]. destruct (ub t) as [u|]; [|discriminate].
  destruct (qc_ltb 0 l) eqn:E; [discriminate|]. destruct (qc_ltb u 0) eqn:E2; [|discriminate].
  apply qc_ltb_lt in E2. simpl in Hh. exact (Qcle_lt_trans _ _ _ Hh E2).
Qed.

(* the sign the model has recorded for a fluent-free factor: known (unk = false) means strictly of the sign posity *)
Definition signed (unk posity : bool) (c : Qc) : Prop := unk = false -> if posity then 0 < c else c < 0.

Lemma signed_inv unk posity c : signed unk posity c -> signed unk posity (/ c).
Proof. intros H Hu. specialize (H Hu). destruct posity; [apply inv_pos | apply inv_neg]; exact H. Qed.

Lemma lin_EDiv G a b :
  lin G (EDiv a b) = match lin G a, lin G b with Some ra, Some rb => walk_div G b ra rb | _, _ => None end.
Proof. reflexivity. Qed.
(* walk_div reports linear only for a linear numerator over a linear fluent-free divisor, with the sign of the
   divisor read from its type *)
Lemma walk_div_cases G b ra rb r : walk_div G b ra rb = Some r ->
  r = (false, [], []) \/
  (r_lin ra = true /\ r_lin rb = true /\ r_pos rb = [] /\ r_neg rb = [] /\
   exists t unk posity, num_type G b = Some t /\
     r = signed_out true unk posity (union (r_pos ra) (r_pos rb)) (union (r_neg ra) (r_neg rb)) /\
     forall y, num_in t y -> signed unk posity y).
Proof.
  unfold walk_div.
  destruct (r_lin ra && r_lin rb && is_empty (r_pos rb) && is_empty (r_neg rb)) eqn:El; simpl negb; cbv iota;
    [|intros H; inversion H; left; reflexivity].
  apply andb_true_iff in El. destruct El as [El En0]. apply andb_true_iff in El. destruct El as [El Ep0].
  apply andb_true_iff in El. destruct El as [La Lb]. apply is_empty_true in Ep0. apply is_empty_true in En0.
  destruct (num_type G b) as [t|]; [|discriminate]. intros H. right. repeat (split; [assumption|]).
  exists t. destruct (sign_of t) eqn:Es; inversion H; [exists false, true | exists false, false | exists true, true];
    (split; [reflexivity|]); (split; [reflexivity|]); intros y Hy Hu.
  - exact (sign_of_pos t y Es Hy).
  - exact (sign_of_neg t y Es Hy).
  - discriminate Hu.
Qed.

Lemma evals_objs sc I os : evals sc I (map EObj os) = Some (map VObj os).
Proof. induction os as [|o os IH]; simpl; [reflexivity|]. rewrite IH. reflexivity. Qed.

Lemma all_objc args : forallb is_objc args = true -> exists os, args = map EObj os.
Proof.
  induction args as [|a args IH]; simpl; intros H; [exists []; reflexivity|].
  apply andb_true_iff in H. destruct H as [Ha Hr]. destruct (IH Hr) as [os ->].
  destruct a; try discriminate. exists (o :: os). reflexivity.
Qed.

Lemma map_VObj_inj a b : map VObj a = map VObj b -> a = b.
Proof.
  revert b. induction a as [|x a IH]; intros [|y b] H; simpl in H; try discriminate; [reflexivity|].
  inversion H. f_equal. apply IH. assumption.
Qed.

Section Mono.
  Variable G : tenv.
  Variable sc : bool.
  Variables I J : interp.
  Variable f : N.
  Variable os : list N.
  Hypothesis RI : respects G I.
  Hypothesis RJ : respects G J.
  Hypothesis AE : agree_except f os I J.
  Variables vk vk' : Qc.
  Hypothesis HkI : eval sc (gfluent f os) I = Some (VNum vk).
  Hypothesis HkJ : eval sc (gfluent f os) J = Some (VNum vk').
  Hypothesis Hle : vk <= vk'.

  Let k := gfluent f os.

  (* what a result promises about a pair of values *)
  Definition promise (r : lres) (q q' : Qc) : Prop :=
    (mem_e k (r_neg r) = false -> q <= q') /\ (mem_e k (r_pos r) = false -> q' <= q).

  Definition mono_at (e : expr) : Prop :=
    forall r v v', lin G e = Some r -> r_lin r = true ->
      eval sc e I = Some (VNum v) -> eval sc e J = Some (VNum v') -> promise r v v'.

  Definition item_ok (a : expr) (r : lres) (q q' : Qc) : Prop :=
    (r_lin r = true -> promise r q q') /\
    (forall t, num_type G a = Some t -> num_in t q /\ num_in t q').

  Inductive items : list expr -> list lres -> list Qc -> list Qc -> Prop :=
  | it_nil : items [] [] [] []
  | it_cons a r q q' l rs qs qs' :
      item_ok a r q q' -> items l rs qs qs' -> items (a :: l) (r :: rs) (q :: qs) (q' :: qs').

  Lemma num_type_sound a t II q : respects G II -> num_type G a = Some t -> eval sc a II = Some (VNum q) -> num_in t q.
  Proof.
    unfold num_type. intros R H Hv. destruct (infer_r G a) as [t'|] eqn:E; [|discriminate].
    destruct (is_num t') eqn:Hn; [|discriminate]. inversion H; subst t'.
    apply (inhabits_num G); [exact Hn|]. exact (infer_r_sound G sc II R a t (VNum q) E Hv).
  Qed.

  Definition arl : list expr -> bool :=
    fix ar (l : list expr) : bool := match l with [] => true | x :: l' => arith x && ar l' end.

  Lemma build_items l : Forall (fun x => arith x = true -> mono_at x) l -> arl l = true ->
    forall rs qs qs', lins G l = Some rs -> enums sc I l = Some qs -> enums sc J l = Some qs' -> items l rs qs qs'.
  Proof.
    induction 1 as [|x l Hx _ IH]; intros Har rs qs qs'; simpl.
    - intros E1 E2 E3. inversion E1; inversion E2; inversion E3. constructor.
    - simpl in Har. apply andb_true_iff in Har. destruct Har as [Hax Harl].
      destruct (lin G x) as [r|] eqn:El; [|discriminate]. destruct (lins G l) as [rs'|]; [|discriminate].
      intros E1. inversion E1; subst rs. clear E1.
      destruct (as_num (eval sc x I)) as [q|] eqn:Eq; [|discriminate].
      destruct (enums sc I l) as [qs0|]; [|discriminate]. intros E2. inversion E2; subst qs. clear E2.
      destruct (as_num (eval sc x J)) as [q'|] eqn:Eq'; [|discriminate].
      destruct (enums sc J l) as [qs0'|]; [|discriminate]. intros E3. inversion E3; subst qs'. clear E3.
      apply as_num_some in Eq. apply as_num_some in Eq'.
      constructor; [|apply IH; auto].
      split.
      + intros Hl. exact (Hx Hax r q q' El Hl Eq Eq').
      + intros t Ht. split; [exact (num_type_sound x t I q RI Ht Eq) | exact (num_type_sound x t J q' RJ Ht Eq')].
  Qed.

  Lemma items_sum l rs qs qs' : items l rs qs qs' -> forallb r_lin rs = true ->
    (existsb (mem_e k) (map r_neg rs) = false -> fold_right Qcplus (zq 0) qs <= fold_right Qcplus (zq 0) qs') /\
    (existsb (mem_e k) (map r_pos rs) = false -> fold_right Qcplus (zq 0) qs' <= fold_right Qcplus (zq 0) qs).
  Proof.
    induction 1 as [|a r q q' l rs qs qs' [Hp _] _ IH]; simpl; intros Hl.
    - split; intros _; apply Qcle_refl.
    - apply andb_true_iff in Hl. destruct Hl as [Hr Hrs]. destruct (IH Hrs) as [IH1 IH2]. destruct (Hp Hr) as [P1 P2].
      split; intros E; apply orb_false_iff in E; destruct E as [E1 E2]; apply Qcplus_le_compat; auto.
  Qed.

  Lemma promise_eq r q : promise r q q.
  Proof. split; intros _; apply Qcle_refl. Qed.

  Lemma promise_both r q q' : mem_e k (r_neg r) = false -> mem_e k (r_pos r) = false -> promise r q q' -> q = q'.
  Proof. intros H1 H2 [P1 P2]. apply Qcle_antisym; auto. Qed.

  (* the three-way return: a promise about x, x' under the sets P, N becomes one about the multiples by a constant
     of the recorded sign *)
  Lemma promise_signed_out unk posity P N c x x' :
    promise (true, P, N) x x' -> signed unk posity c -> promise (signed_out true unk posity P N) (x * c) (x' * c).
  Proof.
    intros Hp Hc. unfold signed_out. simpl negb. cbv iota. destruct unk.
    - assert (E : mem_e k (union P N) = false -> x = x').
      { rewrite mem_e_union. intros E. apply orb_false_iff in E. destruct E as [E1 E2].
        exact (promise_both (true, P, N) x x' E2 E1 Hp). }
      split; intros E0; rewrite (E E0); apply Qcle_refl.
    - specialize (Hc eq_refl). destruct Hp as [Up Dn]. cbn [r_neg r_pos fst snd] in Up, Dn. destruct posity.
      + split; intros E0; apply mul_le_r; auto using Qclt_le_weak.
      + split; intros E0; apply mul_le_r_neg; auto using Qclt_le_weak.
  Qed.

  (* while linear, the product so far is x * c: x the one fluent-dependent factor met (1 before it is found),
     promised under the collected sets, and c the product of the fluent-free factors, of the recorded sign *)
  Definition inv (st : tstate) (p p' : Qc) : Prop :=
    ts_lin st = true ->
    exists x x' c, p = x * c /\ p' = x' * c /\
      promise (true, ts_P st, ts_N st) x x' /\ signed (ts_unk st) (ts_posity st) c /\
      (ts_found st = false -> x = 1 /\ x' = 1).

  Lemma inv_out st p p' : inv st p p' -> ts_lin st = true -> promise (times_out st) p p'.
  Proof.
    intros Hinv Hl. destruct (Hinv Hl) as (x & x' & c & -> & -> & Hp & Hc & _).
    unfold times_out. rewrite Hl. apply promise_signed_out; assumption.
  Qed.

  Lemma inv_const st p p' q q' b unk' posity' :
    inv st p p' -> (b = true -> q = q') -> (forall c, signed (ts_unk st) (ts_posity st) c -> signed unk' posity' (c * q)) ->
    inv {| ts_lin := ts_lin st && b; ts_found := ts_found st; ts_posity := posity'; ts_unk := unk';
           ts_P := ts_P st; ts_N := ts_N st |} (p * q) (p' * q').
  Proof.
    intros Hinv Heq Hs. unfold inv. cbn [ts_lin ts_found ts_P ts_N ts_unk ts_posity]. intros Hl.
    apply andb_true_iff in Hl. destruct Hl as [Hl Hb]. destruct (Heq Hb).
    destruct (Hinv Hl) as (x & x' & c & -> & -> & Hp & Hc & Hnf).
    exists x, x', (c * q). split; [ring|]. split; [ring|]. split; [exact Hp|]. split; [exact (Hs c Hc) | exact Hnf].
  Qed.

  Lemma step_inv a r q q' st st1 p p' :
    item_ok a r q q' -> inv st p p' -> times_step G (Some st) (a, r) = Some st1 -> inv st1 (p * q) (p' * q').
  Proof.
    intros [Hprom Hty] Hinv. unfold times_step. cbn [fst snd].
    destruct (negb (is_empty (r_pos r) && is_empty (r_neg r))) eqn:Eset.
    - (* an argument with fluents: it becomes x *)
      intros E. inversion E. subst st1. clear E. unfold inv. cbn [ts_lin ts_found ts_P ts_N ts_unk ts_posity].
      destruct (ts_found st) eqn:Ef; [discriminate|]. intros Hl. apply andb_true_iff in Hl. destruct Hl as [Hl Hb].
      destruct (Hinv Hl) as (x & x' & c & -> & -> & _ & Hc & Hnf). destruct (Hnf Ef) as [-> ->].
      destruct (Hprom Hb) as [Q1 Q2].
      exists q, q', c. split; [ring|]. split; [ring|]. split; [|split; [exact Hc | discriminate]].
      split; cbn [r_neg r_pos fst snd]; rewrite mem_e_union; intros E0; apply orb_false_iff in E0; destruct E0; auto.
    - (* a fluent-free factor: it goes into c, its sign read from its type *)
      apply negb_false_iff in Eset. apply andb_true_iff in Eset. destruct Eset as [Ep0 En0].
      apply is_empty_true in Ep0. apply is_empty_true in En0.
      destruct (num_type G a) as [t|] eqn:Et; [|discriminate]. destruct (Hty t eq_refl) as [Tq _].
      assert (Heq : r_lin r = true -> q = q').
      { intros Hb. apply (promise_both r); [rewrite En0 | rewrite Ep0 | exact (Hprom Hb)]; reflexivity. }
      destruct (sign_of t) eqn:Es; intros E; inversion E; apply (inv_const _ _ _ _ _ _ _ _ Hinv Heq); intros c Hc Hu.
      + pose proof (sign_of_pos _ _ Es Tq) as Hq. specialize (Hc Hu).
        destruct (ts_posity st); [apply pos_pos | apply neg_pos]; assumption.
      + pose proof (sign_of_neg _ _ Es Tq) as Hq. specialize (Hc Hu).
        destruct (ts_posity st); [apply pos_neg | apply neg_neg]; assumption.
      + discriminate Hu.
  Qed.

  Lemma fold_none {A} (step : option tstate -> A -> option tstate) (H : forall x, step None x = None) l :
    fold_left step l None = None.
  Proof. induction l; simpl; [reflexivity|]. rewrite H. assumption. Qed.

  Lemma times_fold_inv l rs qs qs' : items l rs qs qs' -> forall st p p' stf,
    inv st p p' -> fold_left (times_step G) (combine l rs) (Some st) = Some stf ->
    inv stf (p * fold_right Qcmult (zq 1) qs) (p' * fold_right Qcmult (zq 1) qs').
  Proof.
    induction 1 as [|a r q q' l rs qs qs' Hit _ IH]; intros st p p' stf Hinv; cbn [combine fold_left fold_right].
    - intros E. inversion E. subst stf. rewrite zq1. replace (p * 1) with p by ring. replace (p' * 1) with p' by ring. exact Hinv.
    - destruct (times_step G (Some st) (a, r)) as [st1|] eqn:Es.
      + intros E.
        replace (p * (q * fold_right Qcmult (zq 1) qs)) with ((p * q) * fold_right Qcmult (zq 1) qs) by ring.
        replace (p' * (q' * fold_right Qcmult (zq 1) qs')) with ((p' * q') * fold_right Qcmult (zq 1) qs') by ring.
        eapply IH; [|exact E]. eapply step_inv; eauto.
      + rewrite fold_none; [discriminate | reflexivity].
  Qed.

  Lemma inv_init : inv ts_init 1 1.
  Proof.
    intros _. exists 1, 1, 1. split; [ring|]. split; [ring|]. split; [apply promise_eq|].
    split; [intros _; reflexivity | intros _; split; reflexivity].
  Qed.

  Lemma times_out_lin st : r_lin (times_out st) = true -> ts_lin st = true.
  Proof. unfold times_out, signed_out. destruct (ts_lin st); [reflexivity|]. simpl. discriminate. Qed.

  Lemma k_eval II : eval sc (gfluent f os) II = fl II f (map VObj os).
  Proof. unfold gfluent. rewrite eval_EFluent, evals_objs. reflexivity. Qed.

  Theorem mono_all : forall e, arith e = true -> mono_at e.
  Proof.
    induction e using expr_ind'; intros Har; try discriminate Har; unfold mono_at; intros r v v' Hr Hl Hv Hv'.
    - (* EInt *) simpl in *. inversion Hv; inversion Hv'. subst. apply promise_eq.
    - (* EReal *) simpl in *. inversion Hv; inversion Hv'. subst. apply promise_eq.
    - (* EParam *) simpl in Hv, Hv'. rewrite (ae_par _ _ _ _ AE) in Hv. rewrite Hv in Hv'. inversion Hv'. apply promise_eq.
    - (* EFluent *)
      simpl in Har. destruct (all_objc _ Har) as [os' ->].
      rewrite lin_EFluent in Hr. destruct (lins G (map EObj os')) as [rs|]; [|discriminate]. inversion Hr. subst r. clear Hr.
      rewrite eval_EFluent, evals_objs in Hv, Hv'.
      destruct (N.eq_dec f0 f) as [Ef|Ef]; [destruct (list_eq_dec N.eq_dec os' os) as [Eo|Eo]|].
      + subst f0 os'.
        pose proof (k_eval I) as K1. pose proof (k_eval J) as K2.
        rewrite HkI in K1. rewrite HkJ in K2. rewrite <- K1 in Hv. rewrite <- K2 in Hv'. inversion Hv; inversion Hv'. subst.
        split; cbn [r_neg r_pos fst snd]; intros E0; [exact Hle|].
        unfold mem_e, k, gfluent in E0. cbn [existsb] in E0. rewrite expr_eqb_refl in E0. discriminate.
      + rewrite (ae_fl _ _ _ _ AE) in Hv; [|right; intros X; apply Eo; apply map_VObj_inj; exact X].
        rewrite Hv in Hv'. inversion Hv'. apply promise_eq.
      + rewrite (ae_fl _ _ _ _ AE) in Hv; [|left; exact Ef].
        rewrite Hv in Hv'. inversion Hv'. apply promise_eq.
    - (* EPlus *)
      rewrite (lin_plain G (EPlus l) eq_refl) in Hr. unfold dfltn in Hr. cbn [kids] in Hr. destruct (lins G l) as [rs|] eqn:El; [|discriminate].
      inversion Hr. subst r. clear Hr. unfold walk_default in *. cbn [r_lin r_pos r_neg fst snd] in *.
      rewrite eval_EPlus in Hv, Hv'.
      destruct (enums sc I l) as [qs|] eqn:E1; [|discriminate]. destruct (enums sc J l) as [qs'|] eqn:E2; [|discriminate].
      inversion Hv; inversion Hv'. subst.
      pose proof (build_items l H Har rs qs qs' El E1 E2) as Hit.
      destruct (items_sum _ _ _ _ Hit Hl) as [S1 S2].
      split; cbn [r_neg r_pos fst snd]; rewrite mem_e_fold_union; simpl; intros E0; auto.
    - (* EMinus *)
      simpl in Har. apply andb_true_iff in Har. destruct Har as [Ha Hb].
      rewrite lin_EMinus in Hr. destruct (lin G e1) as [ra|] eqn:L1; [|discriminate]. destruct (lin G e2) as [rb|] eqn:L2; [|discriminate].
      inversion Hr. subst r. clear Hr. unfold walk_minus in *.
      destruct (r_lin ra && r_lin rb) eqn:Eb; simpl negb in *; cbv iota in *; [|discriminate Hl].
      apply andb_true_iff in Eb. destruct Eb as [La Lb].
      rewrite eval_EMinus in Hv, Hv'.
      destruct (as_num (eval sc e1 I)) as [x|] eqn:X1; [|discriminate]. destruct (as_num (eval sc e2 I)) as [y|] eqn:Y1; [|discriminate].
      destruct (as_num (eval sc e1 J)) as [x'|] eqn:X2; [|discriminate]. destruct (as_num (eval sc e2 J)) as [y'|] eqn:Y2; [|discriminate].
      inversion Hv; inversion Hv'. subst.
      apply as_num_some in X1. apply as_num_some in Y1. apply as_num_some in X2. apply as_num_some in Y2.
      destruct (IHe1 Ha ra x x' L1 La X1 X2) as [A1 A2]. destruct (IHe2 Hb rb y y' L2 Lb Y1 Y2) as [B1 B2].
      split; cbn [r_neg r_pos fst snd]; rewrite mem_e_union; intros E0; apply orb_false_iff in E0; destruct E0 as [F1 F2];
        specialize (A1); specialize (B1).
      + pose proof (A1 F1). pose proof (B2 F2). qlra.
      + pose proof (A2 F1). pose proof (B1 F2). qlra.
    - (* ETimes *)
      rewrite lin_ETimes in Hr. destruct (lins G l) as [rs|] eqn:El; [|discriminate]. unfold walk_times in Hr.
      destruct (fold_left (times_step G) (combine l rs) (Some ts_init)) as [stf|] eqn:Ef; [|discriminate].
      inversion Hr. subst r. clear Hr.
      rewrite eval_ETimes in Hv, Hv'.
      destruct (enums sc I l) as [qs|] eqn:E1; [|discriminate]. destruct (enums sc J l) as [qs'|] eqn:E2; [|discriminate].
      inversion Hv; inversion Hv'. subst.
      pose proof (build_items l H Har rs qs qs' El E1 E2) as Hit.
      pose proof (times_fold_inv _ _ _ _ Hit ts_init 1 1 stf inv_init Ef) as Hinv.
      replace (1 * fold_right Qcmult (zq 1) qs) with (fold_right Qcmult (zq 1) qs) in Hinv by ring.
      replace (1 * fold_right Qcmult (zq 1) qs') with (fold_right Qcmult (zq 1) qs') in Hinv by ring.
      exact (inv_out _ _ _ Hinv (times_out_lin _ Hl)).
    - (* EDiv *)
      simpl in Har. apply andb_true_iff in Har. destruct Har as [Ha Hb].
      rewrite lin_EDiv in Hr. destruct (lin G e1) as [ra|] eqn:L1; [|discriminate]. destruct (lin G e2) as [rb|] eqn:L2; [|discriminate].
      destruct (walk_div_cases _ _ _ _ _ Hr) as [->|(La & Lb & Ep0 & En0 & t & unk & posity & Et & -> & Hs)]; [discriminate Hl|].
      clear Hr.
      rewrite eval_EDiv in Hv, Hv'.
      destruct (as_num (eval sc e1 I)) as [x|] eqn:X1; [|discriminate]. destruct (as_num (eval sc e2 I)) as [y|] eqn:Y1; [|discriminate].
      destruct (as_num (eval sc e1 J)) as [x'|] eqn:X2; [|discriminate]. destruct (as_num (eval sc e2 J)) as [y'|] eqn:Y2; [|discriminate].
      destruct (qc_is0 y) eqn:Z1; [discriminate|]. destruct (qc_is0 y') eqn:Z2; [discriminate|].
      inversion Hv; inversion Hv'. subst v v'.
      apply as_num_some in X1. apply as_num_some in Y1. apply as_num_some in X2. apply as_num_some in Y2.
      destruct (IHe1 Ha ra x x' L1 La X1 X2) as [A1 A2].
      assert (y = y') as <-.
      { apply (promise_both rb); [rewrite En0 | rewrite Ep0 | exact (IHe2 Hb rb y y' L2 Lb Y1 Y2)]; reflexivity. }
      apply promise_signed_out; [|exact (signed_inv _ _ _ (Hs y (num_type_sound _ _ _ _ RI Et Y1)))].
      split; cbn [r_neg r_pos fst snd]; rewrite mem_e_union; intros E0; apply orb_false_iff in E0; destruct E0; auto.
  Qed.
End Mono.

Theorem linear_mono_pos_thm G sc e pos neg f os :
  get_fluents G e = Some (true, pos, neg) -> arith e = true ->
  In (gfluent f os) pos -> ~ In (gfluent f os) neg ->
  forall I J, respects G I -> respects G J -> agree_except f os I J ->
  forall vk vk', eval sc (gfluent f os) I = Some (VNum vk) -> eval sc (gfluent f os) J = Some (VNum vk') -> vk <= vk' ->
  forall v v', eval sc e I = Some (VNum v) -> eval sc e J = Some (VNum v') -> v <= v'.
Proof.
  intros Hg Ha _ Hn I J RI RJ AE vk vk' K1 K2 Hle v v' V1 V2.
  destruct (mono_all G sc I J f os RI RJ AE vk vk' K1 K2 Hle e Ha (true, pos, neg) v v' Hg eq_refl V1 V2) as [P _].
  apply P, mem_e_not_In, Hn.
Qed.

Theorem linear_mono_neg_thm G sc e pos neg f os :
  get_fluents G e = Some (true, pos, neg) -> arith e = true ->
  In (gfluent f os) neg -> ~ In (gfluent f os) pos ->
  forall I J, respects G I -> respects G J -> agree_except f os I J ->
  forall vk vk', eval sc (gfluent f os) I = Some (VNum vk) -> eval sc (gfluent f os) J = Some (VNum vk') -> vk <= vk' ->
  forall v v', eval sc e I = Some (VNum v) -> eval sc e J = Some (VNum v') -> v' <= v.
Proof.
  intros Hg Ha _ Hn I J RI RJ AE vk vk' K1 K2 Hle v v' V1 V2.
  destruct (mono_all G sc I J f os RI RJ AE vk vk' K1 K2 Hle e Ha (true, pos, neg) v v' Hg eq_refl V1 V2) as [_ P].
  apply P, mem_e_not_In, Hn.
Qed.

(* a fluent reported in neither set does not influence the value *)
Theorem linear_independent_thm G sc e pos neg f os :
  get_fluents G e = Some (true, pos, neg) -> arith e = true ->
  ~ In (gfluent f os) pos -> ~ In (gfluent f os) neg ->
  forall I J, respects G I -> respects G J -> agree_except f os I J ->
  forall vk vk', eval sc (gfluent f os) I = Some (VNum vk) -> eval sc (gfluent f os) J = Some (VNum vk') -> vk <= vk' ->
  forall v v', eval sc e I = Some (VNum v) -> eval sc e J = Some (VNum v') -> v = v'.
Proof.
  intros Hg Ha Hp Hn I J RI RJ AE vk vk' K1 K2 Hle v v' V1 V2.
  destruct (mono_all G sc I J f os RI RJ AE vk vk' K1 K2 Hle e Ha (true, pos, neg) v v' Hg eq_refl V1 V2) as [P1 P2].
  apply Qcle_antisym.
  - apply P1, mem_e_not_In, Hn.
  - apply P2, mem_e_not_In, Hp.
Qed.

(* a result that is non-linear or mentions a fluent *)
Definition flu (r : lres) : bool := negb (r_lin r) || negb (is_empty (r_pos r) && is_empty (r_neg r)).

Lemma is_empty_fold_union sets : forall acc,
  is_empty (fold_left union sets acc) = is_empty acc && forallb is_empty sets.
Proof.
  induction sets as [|s sets IH]; intros acc; simpl; [rewrite andb_true_r; reflexivity|].
  rewrite IH, union_nonempty, andb_assoc. reflexivity.
Qed.

Lemma walk_default_flu rs : existsb flu rs = true -> flu (walk_default rs) = true.
Proof.
  intros H. unfold flu, walk_default. cbn [r_lin r_pos r_neg fst snd].
  destruct (forallb r_lin rs) eqn:El; [|reflexivity]. simpl.
  rewrite !is_empty_fold_union. simpl.
  apply existsb_exists in H. destruct H as [r [Hin Hr]]. unfold flu in Hr.
  rewrite forallb_forall in El. rewrite (El r Hin) in Hr. simpl in Hr.
  apply negb_true_iff. apply negb_true_iff in Hr. apply andb_false_iff in Hr. apply andb_false_iff.
  destruct Hr as [Hr|Hr]; [left | right]; apply not_true_is_false; intros F; rewrite forallb_forall in F.
  - specialize (F (r_pos r) (in_map r_pos _ _ Hin)). congruence.
  - specialize (F (r_neg r) (in_map r_neg _ _ Hin)). congruence.
Qed.

Lemma signed_out_flu unk posity P N :
  is_empty P && is_empty N = false -> flu (signed_out true unk posity P N) = true.
Proof.
  intros H. unfold signed_out, flu. simpl negb. cbv iota.
  destruct unk; [|destruct posity]; cbn [r_lin r_pos r_neg fst snd]; simpl; rewrite ?union_nonempty.
  - rewrite H. reflexivity.
  - rewrite H. reflexivity.
  - rewrite andb_comm, H. reflexivity.
Qed.

Section NonLinear.
  Variable G : tenv.

  Definition flu_at (e : expr) : Prop := has_fluent e = true -> forall r, lin G e = Some r -> flu r = true.

  Lemma lins_flu l : Forall flu_at l -> existsb has_fluent l = true -> forall rs, lins G l = Some rs -> existsb flu rs = true.
  Proof.
    induction 1 as [|x l Hx _ IH]; simpl; intros Hh rs; [discriminate|].
    destruct (lin G x) as [r|] eqn:El; [|discriminate]. destruct (lins G l) as [rs'|]; [|discriminate].
    intros E. inversion E. subst rs. simpl. apply orb_true_iff in Hh. destruct Hh as [Hh|Hh].
    - rewrite (Hx Hh r El). reflexivity.
    - rewrite (IH Hh rs' eq_refl). apply orb_true_r.
  Qed.

  (* walk_times: what the loop state remembers *)
  Definition good (st : tstate) : Prop := ts_lin st = false \/ is_empty (ts_P st) && is_empty (ts_N st) = false.

  Lemma step_good st a r st1 : good st -> times_step G (Some st) (a, r) = Some st1 -> good st1.
  Proof.
    unfold good, times_step. cbn [fst snd]. intros Hg.
    destruct (negb (is_empty (r_pos r) && is_empty (r_neg r))).
    - intros E. inversion E. cbn. destruct Hg as [Hg|Hg].
      + left. rewrite Hg. destruct (ts_found st); reflexivity.
      + right. rewrite !union_nonempty. apply andb_false_iff in Hg. apply andb_false_iff.
        destruct Hg as [Hg|Hg]; [left | right]; rewrite Hg; reflexivity.
    - destruct (num_type G a); [|discriminate].
      destruct (sign_of t); intros E; inversion E; cbn; (destruct Hg as [Hg|Hg]; [left; rewrite Hg; reflexivity | right; exact Hg]).
  Qed.

  Lemma step_flu_good st a r st1 : flu r = true -> times_step G (Some st) (a, r) = Some st1 -> good st1.
  Proof.
    unfold good, times_step, flu. cbn [fst snd]. intros Hf.
    destruct (negb (is_empty (r_pos r) && is_empty (r_neg r))) eqn:Es.
    - intros E. inversion E. cbn. right. rewrite !union_nonempty.
      apply negb_true_iff in Es. apply andb_false_iff in Es. apply andb_false_iff.
      destruct Es as [Es|Es]; [left | right]; rewrite Es; apply andb_false_r.
    - rewrite orb_false_r in Hf. apply negb_true_iff in Hf.
      destruct (num_type G a); [|discriminate].
      destruct (sign_of t); intros E; inversion E; cbn; left; rewrite Hf; apply andb_false_r.
  Qed.

  Lemma fold_good l : forall rs st stf, good st -> fold_left (times_step G) (combine l rs) (Some st) = Some stf -> good stf.
  Proof.
    induction l as [|a l IH]; intros [|r rs] st stf Hg; cbn [combine fold_left]; try (intros E; inversion E; subst; exact Hg).
    destruct (times_step G (Some st) (a, r)) as [st1|] eqn:Es.
    - apply IH. eapply step_good; eauto.
    - rewrite fold_none; [discriminate | reflexivity].
  Qed.

  Lemma fold_flu_good l : Forall flu_at l -> existsb has_fluent l = true -> forall rs st stf,
    lins G l = Some rs -> fold_left (times_step G) (combine l rs) (Some st) = Some stf -> good stf.
  Proof.
    induction 1 as [|x l Hx _ IH]; cbn [existsb]; intros Hh rs st stf; [discriminate|].
    cbn [lins]. destruct (lin G x) as [r|] eqn:El; [|discriminate]. destruct (lins G l) as [rs'|] eqn:Els; [|discriminate].
    intros E. inversion E. subst rs. clear E. cbn [combine fold_left].
    destruct (times_step G (Some st) (x, r)) as [st1|] eqn:Es; [|rewrite fold_none; [discriminate | reflexivity]].
    apply orb_true_iff in Hh. destruct Hh as [Hh|Hh].
    - apply fold_good. eapply step_flu_good; [exact (Hx Hh r El) | exact Es].
    - apply IH; [exact Hh | reflexivity].
  Qed.

  Lemma good_out_flu st : good st -> flu (times_out st) = true.
  Proof.
    unfold good, times_out. intros [H|H].
    - unfold signed_out. rewrite H. reflexivity.
    - destruct (ts_lin st) eqn:E; [apply signed_out_flu; exact H | reflexivity].
  Qed.

  Theorem has_fluent_flu : forall e, flu_at e.
  Proof.
    induction e using expr_kids_ind. unfold flu_at. intros Hh r Hr. destruct (plain e) eqn:D.
    { rewrite (lin_plain G e D) in Hr. rewrite (has_fluent_plain e D) in Hh. unfold dfltn in Hr.
      destruct (lins G (kids e)) as [rs|] eqn:E; [|discriminate]. inversion Hr.
      apply walk_default_flu. eapply lins_flu; eauto. }
    destruct e; try discriminate D; cbn [kids] in H;
      try (inversion H as [|? ? IHe1 H']; inversion H' as [|? ? IHe2 _]; subst).
    - (* EFluent *) rewrite lin_EFluent in Hr. destruct (lins G args); [|discriminate]. inversion Hr. unfold flu. cbn. apply orb_true_r.
    - (* EMinus *) simpl in Hh. rewrite lin_EMinus in Hr.
      destruct (lin G e1) as [ra|] eqn:E1; [|discriminate]. destruct (lin G e2) as [rb|] eqn:E2; [|discriminate].
      inversion Hr. unfold walk_minus. destruct (r_lin ra && r_lin rb) eqn:El; [|reflexivity]. simpl negb. cbv iota.
      apply andb_true_iff in El. destruct El as [La Lb]. unfold flu. cbn [r_lin r_pos r_neg fst snd]. simpl.
      rewrite !union_nonempty. apply orb_true_iff in Hh. destruct Hh as [Hh|Hh].
      + pose proof (IHe1 Hh ra E1) as F. unfold flu in F. rewrite La in F. simpl in F. apply negb_true_iff in F.
        apply negb_true_iff. apply andb_false_iff in F. apply andb_false_iff.
        destruct F as [F|F]; [left | right]; rewrite F; reflexivity.
      + pose proof (IHe2 Hh rb E2) as F. unfold flu in F. rewrite Lb in F. simpl in F. apply negb_true_iff in F.
        apply negb_true_iff. apply andb_false_iff in F. apply andb_false_iff.
        destruct F as [F|F]; [right | left]; rewrite F; apply andb_false_r.
    - (* ETimes *) rewrite lin_ETimes in Hr. destruct (lins G l) as [rs|] eqn:E; [|discriminate]. unfold walk_times in Hr.
      destruct (fold_left (times_step G) (combine l rs) (Some ts_init)) as [stf|] eqn:Ef; [|discriminate]. inversion Hr.
      apply good_out_flu. eapply fold_flu_good; eauto.
    - (* EDiv *) simpl in Hh. rewrite lin_EDiv in Hr.
      destruct (lin G e1) as [ra|] eqn:E1; [|discriminate]. destruct (lin G e2) as [rb|] eqn:E2; [|discriminate].
      destruct (walk_div_cases _ _ _ _ _ Hr) as [->|(La & Lb & Ep0 & En0 & t & unk & posity & _ & -> & _)]; [reflexivity|].
      assert (Hne : is_empty (union (r_pos ra) (r_pos rb)) && is_empty (union (r_neg ra) (r_neg rb)) = false).
      { rewrite !union_nonempty, Ep0, En0. cbn [is_empty]. rewrite !andb_true_r. apply orb_true_iff in Hh. destruct Hh as [Hh|Hh].
        - pose proof (IHe1 Hh ra E1) as F. unfold flu in F. rewrite La in F. simpl in F. apply negb_true_iff in F. exact F.
        - pose proof (IHe2 Hh rb E2) as F. unfold flu in F. rewrite Lb, Ep0, En0 in F. discriminate F. }
      apply signed_out_flu. exact Hne.
  Qed.

  Definition nflu (l : list expr) : nat := length (filter has_fluent l).

  Lemma step_lin_false st x st1 : ts_lin st = false -> times_step G (Some st) x = Some st1 -> ts_lin st1 = false.
  Proof.
    unfold times_step. intros H. destruct (negb (is_empty (r_pos (snd x)) && is_empty (r_neg (snd x)))).
    - intros E. inversion E. cbn. rewrite H. destruct (ts_found st); reflexivity.
    - destruct (num_type G (fst x)); [|discriminate]. destruct (sign_of t); intros E; inversion E; cbn; rewrite H; reflexivity.
  Qed.

  Lemma step_found st x st1 : ts_found st = true -> times_step G (Some st) x = Some st1 -> ts_found st1 = true.
  Proof.
    unfold times_step. intros H. destruct (negb (is_empty (r_pos (snd x)) && is_empty (r_neg (snd x)))).
    - intros E. inversion E. reflexivity.
    - destruct (num_type G (fst x)); [|discriminate]. destruct (sign_of t); intros E; inversion E; cbn; exact H.
  Qed.

  (* processing a fluent-dependent factor: afterwards non-linear, or "found" (and non-linear if already found) *)
  Lemma step_flu st a r st1 : flu r = true -> times_step G (Some st) (a, r) = Some st1 ->
    (ts_lin st1 = false \/ ts_found st1 = true) /\ (ts_found st = true -> ts_lin st1 = false).
  Proof.
    unfold times_step, flu. cbn [fst snd]. intros Hf.
    destruct (negb (is_empty (r_pos r) && is_empty (r_neg r))) eqn:Es.
    - intros E. inversion E. cbn. split; [right; reflexivity | intros ->; reflexivity].
    - rewrite orb_false_r in Hf. apply negb_true_iff in Hf.
      destruct (num_type G a); [|discriminate].
      destruct (sign_of t); intros E; inversion E; cbn; rewrite Hf, andb_false_r; split; auto.
  Qed.

  Lemma fold_two l : forall rs st stf,
    lins G l = Some rs -> fold_left (times_step G) (combine l rs) (Some st) = Some stf ->
    (ts_lin st = false -> ts_lin stf = false) /\
    (ts_found st = true -> (1 <= nflu l)%nat -> ts_lin stf = false) /\
    ((2 <= nflu l)%nat -> ts_lin stf = false).
  Proof.
    induction l as [|x l IH]; intros rs st stf; cbn [lins].
    - intros E. inversion E. subst rs. cbn. intros E2. inversion E2. subst stf. unfold nflu. simpl. repeat split; auto; lia.
    - destruct (lin G x) as [r|] eqn:El; [|discriminate]. destruct (lins G l) as [rs'|] eqn:Els; [|discriminate].
      intros E. inversion E. subst rs. clear E. cbn [combine fold_left].
      destruct (times_step G (Some st) (x, r)) as [st1|] eqn:Es; [|rewrite fold_none; [discriminate | reflexivity]].
      intros Ef. destruct (IH rs' st1 stf eq_refl Ef) as [I1 [I2 I3]].
      unfold nflu in *. simpl filter. destruct (has_fluent x) eqn:Hx; simpl length.
      + destruct (step_flu st x r st1 (has_fluent_flu x Hx r El) Es) as [S1 S2].
        repeat split.
        * intros H. apply I1. eapply step_lin_false; eauto.
        * intros Hf _. apply I1. auto.
        * intros H2. destruct S1 as [S1|S1]; [apply I1; exact S1 | apply I2; [exact S1 | lia]].
      + repeat split.
        * intros H. apply I1. eapply step_lin_false; eauto.
        * intros Hf H1. apply I2; [eapply step_found; eauto | exact H1].
        * exact I3.
  Qed.

  Theorem times_two_fluent_factors_nonlinear_thm l r :
    lin G (ETimes l) = Some r -> (2 <= nflu l)%nat -> r = (false, [], []).
  Proof.
    rewrite lin_ETimes. destruct (lins G l) as [rs|] eqn:E; [|discriminate]. unfold walk_times.
    destruct (fold_left (times_step G) (combine l rs) (Some ts_init)) as [stf|] eqn:Ef; [|discriminate].
    intros Hr H2. inversion Hr. destruct (fold_two l rs ts_init stf E Ef) as [_ [_ I3]].
    unfold times_out, signed_out. rewrite (I3 H2). reflexivity.
  Qed.

  Theorem div_fluent_divisor_nonlinear_thm a b r :
    lin G (EDiv a b) = Some r -> has_fluent b = true -> r = (false, [], []).
  Proof.
    rewrite lin_EDiv. destruct (lin G a) as [ra|]; [|discriminate]. destruct (lin G b) as [rb|] eqn:Eb; [|discriminate].
    intros Hr Hb. destruct (walk_div_cases _ _ _ _ _ Hr) as [E|(_ & Lb & Ep0 & En0 & _)]; [exact E|].
    pose proof (has_fluent_flu b Hb rb Eb) as F. unfold flu in F. rewrite Lb, Ep0, En0 in F. discriminate F.
  Qed.
End NonLinear.

Theorem fluent_dependence_reported_thm G e r :
  has_fluent e = true -> lin G e = Some r -> r_lin r = false \/ r_pos r <> [] \/ r_neg r <> [].
Proof.
  intros Hh Hr. pose proof (has_fluent_flu G e Hh r Hr) as F. unfold flu in F.
  destruct (r_lin r); [right | left; reflexivity]. simpl in F.
  destruct (r_pos r); [|left; discriminate]. destruct (r_neg r); [discriminate F | right; discriminate].
Qed.

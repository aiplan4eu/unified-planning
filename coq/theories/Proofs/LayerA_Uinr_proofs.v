(* C06 / C07, Layer A — UndefinedInitialNumericRemover: proofs about Compilers/LayerA_Uinr.v.
   Invariant [uinr_rel]: the companion of a tracked fluent says whether the original fluent has a value, and where it
   has one the compiled state holds the same value.
   1. [eval_guarded]: for related interpretations and an expression that reads tracked fluents only outside quantifiers,
      if all guards of the expression hold the compiled value is the original value, and if one guard fails the original
      is UNDEFINED (strict evaluation) - so `guards and e` holds exactly when `e` holds, wherever the read sits.
   2. [uinr_step]: the compiled action takes the original step (successors related again) under [action_ok].
   3. [uinr_valid_plan]: the two problems accept the same plans from related states.
   4. witnesses that [action_ok] cannot be dropped: [uinr_cond_read_incomplete]. *)
From Coq Require Import List ZArith NArith QArith Qcanon Bool Lia.
Import ListNotations.
Require Import UPV.Core.Expr UPV.Core.Eval UPV.Core.Interp UPV.Planning.Problem UPV.Planning.Sem.
Require Import UPV.Proofs.ListFacts UPV.Proofs.Eval_lemmas UPV.Proofs.Sem_proofs UPV.Proofs.Step_proofs.
Require Import UPV.Walkers.Subst UPV.Proofs.Subst_proofs UPV.Proofs.Variants_proofs.
Require Import UPV.Compilers.Variants UPV.Compilers.LayerA_Defs UPV.Compilers.LayerA_Quant UPV.Compilers.LayerA_Uinr.
Require Import UPV.Proofs.LayerA_base UPV.Proofs.LayerA_Quant_proofs UPV.Proofs.LayerA_sim.
Require Import UPV.Proofs.LayerA_Variants_proofs UPV.Proofs.LayerA_Neg_proofs UPV.Proofs.ExprView UPV.Proofs.EvalView.
Local Open Scope nat_scope.


Section UinrEval.
  Variable umap : list (N * N).
  Notation uc := (ucomp umap).
  Notation isc := (is_ucomp umap).
  Notation rd := (reads umap).
  Notation urel := (urel_interp umap).

  Definition guards_hold (I' : interp) (rs : list fexp) : bool := forallb (fun r => holds false I' (gexp umap r)) rs.

  Lemma guards_app I' a b : guards_hold I' (a ++ b) = guards_hold I' a && guards_hold I' b.
  Proof. apply forallb_app. Qed.

  Lemma urel_bind I I' v o : urel I I' -> urel (bind_var I v o) (bind_var I' v o).
  Proof.
    intros (H1 & H2 & H3 & H4 & H5). repeat split; simpl; auto; try apply H5. intros w. destruct (w =? v)%N; auto.
  Qed.

  Lemma urel_instances vs I I' : urel I I' -> Forall2 urel (instances I vs) (instances I' vs).
  Proof.
    apply instances_Forall2; [|intros J J' v o; apply urel_bind]. intros J J' (_ & _ & _ & H & _) t. symmetry. apply H.
  Qed.

  Definition guarded (e : expr) : Prop :=
    forall I I', urel I I' -> uq umap e = true ->
      (guards_hold I' (rd e) = true -> eval false e I' = eval false e I) /\
      (guards_hold I' (rd e) = false -> eval false e I = None).

  Lemma guarded_list l I I' : Forall guarded l -> urel I I' -> forallb (uq umap) l = true ->
    (guards_hold I' (flat_map rd l) = true -> Forall2 (fun x y => eval false x I' = eval false y I) l l) /\
    (guards_hold I' (flat_map rd l) = false -> exists x, In x l /\ eval false x I = None).
  Proof.
    intros HF HR. induction HF as [|x l Hx _ IH]; intros Hq.
    - split; [constructor | discriminate].
    - cbn [forallb] in Hq. apply andb_true_iff in Hq. destruct Hq as [Hq1 Hq2].
      cbn [flat_map]. rewrite guards_app. destruct (Hx I I' HR Hq1) as [X1 X2]. destruct (IH Hq2) as [L1 L2].
      split.
      + intros H. apply andb_true_iff in H. destruct H as [G1 G2]. constructor; auto.
      + intros H. apply andb_false_iff in H. destruct H as [G|G].
        * exists x. split; [left; reflexivity | auto].
        * destruct (L2 G) as [y [Hy Ey]]. exists y. split; [right; exact Hy | exact Ey].
  Qed.

  Lemma ucomp_isc f d : uc f = Some d -> isc d = true.
  Proof.
    intros H. apply lookupN_In in H. unfold is_ucomp. apply existsb_exists. exists (f, d). split; [exact H | apply N.eqb_refl].
  Qed.

  (* the tracked fluent expression a node itself contributes to the reads *)
  Definition own (o : opn) (l : list expr) : list fexp :=
    match o with NFluent f => match uc f with Some _ => [(f, l)] | None => [] end | _ => [] end.

  Lemma rd_En o l : rd (En o l) = flat_map rd l ++ own o l.
  Proof. destruct o; cbn [En reads own]; rewrite ?app_nil_r; reflexivity. Qed.

  Lemma eval_guarded e : guarded e.
  Proof.
    induction e as [e Hl | o a IHa | o a b IHa IHb | o l IHl | ex vs a IHa] using expr_view_ind;
      intros I I' HR Hq; pose proof HR as (Hp & Hv & Hi & Ho & Hf1 & Hf2).
    - destruct e; try discriminate Hl; (split; [intros _ | cbn; discriminate]); cbn [eval]; auto.
    - assert (Hqa : uq umap a = true) by (destruct o; exact Hq).
      assert (Er : rd (E1 o a) = rd a) by (destruct o; reflexivity). rewrite Er, !eval_E1.
      destruct (IHa I I' HR Hqa) as [A1 A2]. split; intros G; [rewrite (A1 G); reflexivity|].
      rewrite <- eval_E1. apply eval_E1_none, A2, G.
    - assert (Hqa : uq umap a = true /\ uq umap b = true) by (apply andb_true_iff; destruct o; exact Hq).
      assert (Er : rd (E2 o a b) = rd a ++ rd b) by (destruct o; reflexivity). rewrite Er, guards_app, !eval_E2.
      destruct (IHa I I' HR (proj1 Hqa)) as [A1 A2]. destruct (IHb I I' HR (proj2 Hqa)) as [B1 B2]. split; intros G.
      + apply andb_true_iff in G. destruct G as [G1 G2]. rewrite (A1 G1), (B1 G2). reflexivity.
      + rewrite <- eval_E2. apply eval_E2_none. apply andb_false_iff in G. destruct G as [G|G]; [left; exact (A2 G) | right; exact (B2 G)].
    - assert (Hql : forallb (uq umap) l = true)
        by (destruct o; cbn [En uq] in Hq; try exact Hq; apply andb_true_iff in Hq; exact (proj2 Hq)).
      destruct (guarded_list l I I' IHl HR Hql) as [L1 L2]. rewrite rd_En, guards_app.
      destruct (guards_hold I' (flat_map rd l)) eqn:GA; cbn [andb].
      2:{ split; [discriminate|]. intros _. destruct (L2 eq_refl) as [x [Hx Ex]]. exact (eval_En_none false o l I x Hx Ex). }
      specialize (L1 eq_refl). rewrite !eval_En.
      destruct o as [f|g| | | |];
        try (split; [intros _; apply (semn_ext false false I' I _ l l L1); intros; try discriminate; auto | discriminate]).
      (* a fluent: the guard of the node itself says whether the original fluent has a value *)
      cbn [En uq] in Hq. apply andb_true_iff in Hq. destruct Hq as [Hc _]. apply negb_true_iff in Hc.
      cbn [semn own]. rewrite (evals_ext2 _ _ _ _ _ _ L1). destruct (evals false I l) as [vs|] eqn:Ev.
      + destruct (uc f) as [d|] eqn:Ed.
        * unfold guards_hold. cbn [forallb]. unfold gexp. cbn [fst snd]. rewrite Ed. unfold holds.
          rewrite eval_EFluent, (evals_ext2 _ _ _ _ _ _ L1), Ev, andb_true_r. specialize (Hf2 f d vs Ed).
          destruct (fl I f vs) as [v|].
          -- destruct Hf2 as [Y1 Y2]. rewrite Y1, Y2. split; [reflexivity | discriminate].
          -- rewrite Hf2. split; [discriminate | reflexivity].
        * split; [intros _; apply Hf1; assumption | cbn; discriminate].
      + split; reflexivity.
    - assert (Hqa : uq umap a = true /\ rd a = []).
      { destruct ex; cbn [EQ uq] in Hq; apply andb_true_iff in Hq; (split; [tauto | apply is_nil_eq; tauto]). }
      assert (Er : rd (EQ ex vs a) = []) by (destruct ex; exact (proj2 Hqa)). rewrite Er.
      split; [intros _ | cbn; discriminate]. rewrite !eval_EQ.
      rewrite (Forall2_map_eq urel (fun J => as_bool (eval false a J)) (fun J => as_bool (eval false a J))
                 _ _ (urel_instances vs I I' HR)); [reflexivity|].
      intros x y Hxy. destruct (IHa x y Hxy (proj1 Hqa)) as [A1 _]. rewrite (proj2 Hqa) in A1. rewrite (A1 eq_refl). reflexivity.
  Qed.
End UinrEval.

Lemma fexp_eqb_eq (a b : fexp) : fexp_eqb a b = true <-> a = b.
Proof.
  destruct a as [f l], b as [g m]. unfold fexp_eqb. cbn [fst snd]. rewrite andb_true_iff, N.eqb_eq, lexpr_eqb_eq.
  split; [intros [-> ->]; reflexivity | intros H; inversion H; auto].
Qed.

Lemma In_dedup_f x l : In x (dedup_f l) <-> In x l.
Proof.
  induction l as [|y l IH]; [tauto|]. cbn [dedup_f]. split.
  - intros [H|H]; [left; exact H|]. apply filter_In in H. right. apply IH. tauto.
  - intros [H|H]; [left; exact H|]. destruct (fexp_eqb y x) eqn:E.
    + apply fexp_eqb_eq in E. left; exact E.
    + right. apply filter_In. split; [apply IH; exact H | rewrite E; reflexivity].
Qed.

Lemma forallb_same_elems {A} (p : A -> bool) l l' : (forall x, In x l <-> In x l') -> forallb p l = forallb p l'.
Proof.
  intros H. destruct (forallb p l) eqn:E1, (forallb p l') eqn:E2; try reflexivity; exfalso.
  - rewrite forallb_forall in E1. assert (forallb p l' = true) by (apply forallb_forall; intros x Hx; apply E1, H, Hx). congruence.
  - rewrite forallb_forall in E2. assert (forallb p l = true) by (apply forallb_forall; intros x Hx; apply E2, H, Hx). congruence.
Qed.

Lemma effect_eqb_eq (a b : effect) : effect_eqb a b = true -> a = b.
Proof.
  destruct a as [f1 a1 v1 c1 k1 w1 b1], b as [f2 a2 v2 c2 k2 w2 b2]. unfold effect_eqb. cbn [e_fl e_args e_val e_cond e_kind e_vars e_isbool].
  intros H. nfsplit.
  repeat match goal with
         | Hq : (_ =? _)%N = true |- _ => apply N.eqb_eq in Hq
         | Hq : list_expr_eqb _ _ = true |- _ => apply lexpr_eqb_eq in Hq
         | Hq : expr_eqb _ _ = true |- _ => apply expr_eqb_eq in Hq
         | Hq : vars_eqb _ _ = true |- _ => apply vars_eqb_eq in Hq
         | Hq : Bool.eqb _ _ = true |- _ => apply Bool.eqb_prop in Hq
         end.
  subst. destruct k1, k2; try discriminate; reflexivity.
Qed.

Lemma In_dedup_e x l : In x (dedup_e l) <-> In x l.
Proof.
  induction l as [|y l IH]; [tauto|]. cbn [dedup_e]. split.
  - intros [H|H]; [left; exact H|]. apply filter_In in H. right. apply IH. tauto.
  - intros [H|H]; [left; exact H|]. destruct (effect_eqb y x) eqn:E.
    + apply effect_eqb_eq in E. left; exact E.
    + right. apply filter_In. split; [apply IH; exact H | rewrite E; reflexivity].
Qed.

Lemma in_eres_of I r effs : In r (eres_of I effs) <-> exists e, In e effs /\ In r (piece I e).
Proof. unfold eres_of. rewrite in_flat_map. reflexivity. Qed.

Section UinrStep.
  Variable umap : list (N * N).
  Variable P : problem.
  Notation uc := (ucomp umap).
  Notation isc := (is_ucomp umap).
  Notation rd := (reads umap).
  Notation urel := (urel_interp umap).
  Notation P' := (uinr_compile umap P).
  Hypothesis Hmap : umap_ok umap P = true.

  Lemma umap_facts :
    NoDup (map snd umap) /\ (forall f d, uc f = Some d -> isc f = false) /\
    (forall fd, In fd (p_fluents P) -> isc (fd_id fd) = false) /\
    (forall fd d, In fd (p_fluents P) -> uc (fd_id fd) = Some d -> fd_ty fd = FNum None None).
  Proof.
    unfold umap_ok in Hmap. nfsplit. repeat split.
    - apply nodupN_NoDup. assumption.
    - intros f d Hf. apply lookupN_In in Hf.
      match goal with Hq : forallb (fun p => negb (is_ucomp umap (fst p))) umap = true |- _ =>
        rewrite forallb_forall in Hq; specialize (Hq _ Hf); apply negb_true_iff in Hq; exact Hq end.
    - intros fd Hfd.
      match goal with Hq : forallb (fun fd => negb (is_ucomp umap (fd_id fd))) _ = true |- _ =>
        rewrite forallb_forall in Hq; specialize (Hq _ Hfd); apply negb_true_iff in Hq; exact Hq end.
    - intros fd d Hfd Hn.
      match goal with Hq : forallb (fun fd => match ucomp umap (fd_id fd) with Some _ => _ | None => true end) _ = true |- _ =>
        rewrite forallb_forall in Hq; specialize (Hq _ Hfd); rewrite Hn in Hq;
        destruct (fd_ty fd) as [|[?|] [?|]|]; try discriminate; reflexivity end.
  Qed.

  Lemma uc_inj f1 f2 d : uc f1 = Some d -> uc f2 = Some d -> f1 = f2.
  Proof.
    intros H1 H2. apply lookupN_In in H1. apply lookupN_In in H2. destruct umap_facts as [Hnd _].
    clear -H1 H2 Hnd. induction umap as [|[a b] l IH]; [destruct H1|]. cbn [map snd] in Hnd.
    inversion Hnd as [|? ? Hn Hnd']; subst. destruct H1 as [H1|H1], H2 as [H2|H2].
    - inversion H1; inversion H2; subst. reflexivity.
    - inversion H1; subst. exfalso. apply Hn. apply in_map_iff. exists (f2, d). split; [reflexivity | exact H2].
    - inversion H2; subst. exfalso. apply Hn. apply in_map_iff. exists (f1, d). split; [reflexivity | exact H1].
    - apply IH; assumption.
  Qed.

  Lemma isc_ex g : isc g = true -> exists f, uc f = Some g.
  Proof.
    unfold is_ucomp. rewrite existsb_exists. intros [[f d] [Hin E]]. cbn [snd] in E. apply N.eqb_eq in E. subst d.
    exists f. unfold ucomp. apply lookupN_unique; [|exact Hin]. apply nodupN_NoDup.
    unfold umap_ok in Hmap. nfsplit. assumption.
  Qed.

  Lemma urel_mk s s' pars : uinr_rel umap s s' -> urel (mk_interp P s pars) (mk_interp P' s' pars).
  Proof. intros H. repeat split; try apply H. Qed.

  Lemma pure_eval e J J' : urel J J' -> upure umap e = true -> eval false e J' = eval false e J.
  Proof.
    intros HR Hp. unfold upure in Hp. apply andb_true_iff in Hp. destruct Hp as [Hq Hn]. apply is_nil_eq in Hn.
    destruct (eval_guarded umap e J J' HR Hq) as [A _]. rewrite Hn in A. apply A. reflexivity.
  Qed.

  Lemma pure_evals_l l J J' : urel J J' -> forallb (upure umap) l = true -> evals_l false J' l = evals_l false J l.
  Proof.
    intros HR. induction l as [|x l IH]; intros H; [reflexivity|]. cbn [forallb] in H. apply andb_true_iff in H.
    destruct H as [H1 H2]. cbn [evals_l]. rewrite (pure_eval x J J' HR H1), (IH H2). reflexivity.
  Qed.

  Lemma pure_holds e J J' : urel J J' -> upure umap e = true -> holds false J' e = holds false J e.
  Proof. intros HR Hp. unfold holds. rewrite (pure_eval e J J' HR Hp). reflexivity. Qed.

  (* the condition-level statement: the guards as extra conjuncts reproduce "an undefined read is not satisfied" *)
  Lemma guarded_cond e J J' : urel J J' -> uq umap e = true ->
    holds false J' e && guards_hold umap J' (rd e) = holds false J e.
  Proof.
    intros HR Hq. destruct (eval_guarded umap e J J' HR Hq) as [A B]. destruct (guards_hold umap J' (rd e)).
    - rewrite andb_true_r. unfold holds. rewrite (A eq_refl). reflexivity.
    - rewrite andb_false_r. unfold holds. rewrite (B eq_refl). reflexivity.
  Qed.

  Lemma guards_in J' l x : guards_hold umap J' (flat_map rd l) = true -> In x l -> guards_hold umap J' (rd x) = true.
  Proof.
    unfold guards_hold. rewrite !forallb_forall. intros H Hx r Hr. apply H. apply in_flat_map. exists x. split; assumption.
  Qed.

  Lemma guards_false_ex J' l : guards_hold umap J' (flat_map rd l) = false ->
    exists x, In x l /\ guards_hold umap J' (rd x) = false.
  Proof.
    induction l as [|x l IH]; [discriminate|]. cbn [flat_map]. rewrite guards_app. intros H.
    apply andb_false_iff in H. destruct H as [H|H].
    - exists x. split; [left; reflexivity | exact H].
    - destruct (IH H) as [y [Hy Gy]]. exists y. split; [right; exact Hy | exact Gy].
  Qed.

  Lemma conds_guarded J J' l : urel J J' -> forallb (uq umap) l = true ->
    all_hold false J' l && guards_hold umap J' (flat_map rd l) = all_hold false J l.
  Proof.
    intros HR. induction l as [|x l IH]; intros Hq; [reflexivity|]. cbn [forallb] in Hq. apply andb_true_iff in Hq.
    destruct Hq as [H1 H2]. cbn [flat_map]. rewrite guards_app.
    change (all_hold false J' (x :: l)) with (holds false J' x && all_hold false J' l).
    change (all_hold false J (x :: l)) with (holds false J x && all_hold false J l).
    rewrite <- (guarded_cond x J J' HR H1), <- (IH H2).
    destruct (holds false J' x), (all_hold false J' l), (guards_hold umap J' (rd x)), (guards_hold umap J' (flat_map rd l)); reflexivity.
  Qed.

  Lemma guards_as_conds J' rs : all_hold false J' (map (gexp umap) (dedup_f rs)) = guards_hold umap J' rs.
  Proof.
    unfold all_hold, guards_hold. rewrite forallb_map. apply forallb_same_elems. intros x. apply In_dedup_f.
  Qed.

  (* a guard that holds: the companion is true, hence the original fluent has the value of the compiled one *)
  Lemma guard_true J J' f d l vs rs : urel J J' -> uc f = Some d -> In (f, l) rs -> guards_hold umap J' rs = true ->
    evals false J' l = Some vs ->
    fl J' d vs = Some (VBool true) /\ exists v, fl J f vs = Some v /\ fl J' f vs = Some v.
  Proof.
    intros HR Hd Hin HG Ev. unfold guards_hold in HG. rewrite forallb_forall in HG. specialize (HG _ Hin).
    unfold gexp in HG. cbn [fst snd] in HG. rewrite Hd in HG. unfold holds in HG. rewrite eval_EFluent, Ev in HG.
    destruct HR as (_ & _ & _ & _ & _ & H2). specialize (H2 f d vs Hd).
    destruct (fl J' d vs) as [[[|]| |]|] eqn:Ed; try discriminate. split; [reflexivity|].
    destruct (fl J f vs) as [v|]; [exists v; split; [reflexivity | apply H2] | congruence].
  Qed.

  Lemma eff_shape e : effect_ok umap e = true ->
    isc (e_fl e) = false /\ forallb (upure umap) (e_args e) = true /\ uq umap (e_val e) = true /\
    uq umap (e_cond e) = true /\
    ((e_cond e = EBool true /\ e_vars e = []) \/
     (upure umap (e_val e) = true /\
      ((e_vars e = [] /\ (uc (e_fl e) = None \/ e_kind e = KAssign)) \/
       (uc (e_fl e) = None /\ upure umap (e_cond e) = true)))).
  Proof.
    unfold effect_ok. intros H. apply andb_true_iff in H. destruct H as [H H5]. apply andb_true_iff in H. destruct H as [H H4].
    apply andb_true_iff in H. destruct H as [H H3]. apply andb_true_iff in H. destruct H as [H1 H2].
    apply negb_true_iff in H1. repeat split; try assumption.
    destruct (is_uncond e && is_nil (e_vars e)) eqn:E.
    - left. apply andb_true_iff in E. destruct E as [E1 E2]. split; [apply is_true_eq; exact E1 | apply is_nil_eq; exact E2].
    - right. apply andb_true_iff in H5. destruct H5 as [H5 H6]. split; [exact H5|].
      destruct (is_nil (e_vars e)) eqn:En.
      + left. split; [apply is_nil_eq; exact En|]. destruct (uc (e_fl e)); [right | left; reflexivity].
        unfold is_kassign in H6. destruct (e_kind e); [reflexivity | discriminate | discriminate].
      + right. apply andb_true_iff in H6. destruct H6 as [H6 H7]. split; [|exact H7].
        destruct (uc (e_fl e)); [discriminate | reflexivity].
  Qed.

  Lemma eval_effect_eq J J' e : urel J J' -> forallb (upure umap) (e_args e) = true ->
    eval false (e_cond e) J' = eval false (e_cond e) J -> eval false (e_val e) J' = eval false (e_val e) J ->
    eval_effect false J' e = eval_effect false J e.
  Proof. intros HRJ Ha Hc Hv. unfold eval_effect. rewrite (pure_evals_l _ J J' HRJ Ha), Hc, Hv. reflexivity. Qed.

  Lemma eval_effect_act J e y : eval_effect false J e = EAct y ->
    fst (ae_key y) = e_fl e /\ ae_kind y = e_kind e /\ evals_l false J (e_args e) = Some (snd (ae_key y)) /\
    eval false (e_cond e) J = Some (VBool true).
  Proof.
    unfold eval_effect. destruct (evals_l false J (e_args e)); [|discriminate].
    destruct (eval false (e_cond e) J) as [[[|]| |]|]; try discriminate.
    destruct (eval false (e_val e) J); [|discriminate]. intros E. inversion E; subst. cbn. auto.
  Qed.

  Variables (s s' : state) (a : action) (args : list value).
  Hypothesis HRs : uinr_rel umap s s'.
  Hypothesis Hok : action_ok umap a = true.
  Notation pars := (zip_params (a_params a) args).
  Notation I := (mk_interp P s pars).
  Notation I' := (mk_interp P' s' pars).
  Notation effs := (a_effs a).
  Notation acts := (acts_of (eres_of I effs)).

  Lemma rel_I : urel I I'.
  Proof. apply urel_mk, HRs. Qed.

  Lemma pre_uq : forallb (uq umap) (a_pre a) = true.
  Proof. unfold action_ok in Hok. apply andb_true_iff in Hok. tauto. Qed.

  Lemma eff_ok e : In e effs -> effect_ok umap e = true.
  Proof. unfold action_ok in Hok. apply andb_true_iff in Hok. destruct Hok as [_ H]. rewrite forallb_forall in H. apply H. Qed.

  Lemma in_exprs_pre x : In x (a_pre a) -> In x (a_exprs a).
  Proof. intros H. unfold a_exprs. apply in_or_app. left; exact H. Qed.
  Lemma in_exprs_val e : In e effs -> In (e_val e) (a_exprs a).
  Proof. intros H. unfold a_exprs. apply in_or_app. right. apply in_or_app. left. apply in_map. exact H. Qed.
  Lemma in_exprs_cond e : In e effs -> In (e_cond e) (a_exprs a).
  Proof. intros H. unfold a_exprs. apply in_or_app. right. apply in_or_app. right. apply in_or_app. right. apply in_map. exact H. Qed.
  Lemma in_exprs_tgt e : In e effs -> e_kind e <> KAssign -> In (EFluent (e_fl e) (e_args e)) (a_exprs a).
  Proof.
    intros H Hk. unfold a_exprs. apply in_or_app. right. apply in_or_app. right. apply in_or_app. left.
    unfold inc_targets. apply in_flat_map. exists e. split; [exact H|]. destruct (e_kind e); [congruence | left; reflexivity | left; reflexivity].
  Qed.

  Lemma exprs_uq x : In x (a_exprs a) -> uq umap x = true.
  Proof.
    unfold a_exprs. rewrite !in_app_iff. intros [H|[H|[H|H]]].
    - pose proof pre_uq as Hp. rewrite forallb_forall in Hp. apply Hp, H.
    - apply in_map_iff in H. destruct H as [e [<- He]]. apply (eff_shape e (eff_ok e He)).
    - unfold inc_targets in H. apply in_flat_map in H. destruct H as [e [He H]].
      destruct (eff_shape e (eff_ok e He)) as (Hc & Ha & _).
      assert (Hx : x = EFluent (e_fl e) (e_args e)) by (destruct (e_kind e); [destruct H | destruct H as [H|[]]; auto | destruct H as [H|[]]; auto]).
      subst x. cbn [uq]. rewrite Hc. cbn [negb andb]. apply forallb_forall. intros z Hz. rewrite forallb_forall in Ha.
      specialize (Ha z Hz). unfold upure in Ha. apply andb_true_iff in Ha. tauto.
    - apply in_map_iff in H. destruct H as [e [<- He]]. apply (eff_shape e (eff_ok e He)).
  Qed.

  (* an effect on a tracked fluent has no forall variables: it yields exactly one instance *)
  Lemma tracked_vars e d : In e effs -> uc (e_fl e) = Some d -> e_vars e = [].
  Proof.
    intros He Hd. destruct (eff_shape e (eff_ok e He)) as (_ & _ & _ & _ & [[_ Hn]|(_ & [[Hn _]|[Hu _]])]); [assumption | assumption | congruence].
  Qed.

  Lemma tracked_piece e d : In e effs -> uc (e_fl e) = Some d -> piece I e = [eval_effect false I e].
  Proof. intros He Hd. unfold piece. rewrite (tracked_vars e d He Hd). reflexivity. Qed.

  Lemma act_origin y : In y acts ->
    exists e J, In e effs /\ In J (instances I (e_vars e)) /\ eval_effect false J e = EAct y.
  Proof.
    intros H. apply in_acts_of in H. unfold eres_of in H. apply in_flat_map in H. destruct H as [e [He H]].
    apply in_map_iff in H. destruct H as [J [E HJ]]. exists e, J. auto.
  Qed.

  Lemma act_noncomp y : In y acts -> isc (fst (ae_key y)) = false.
  Proof.
    intros H. destruct (act_origin y H) as [e [J (He & _ & E)]]. destruct (eval_effect_act J e y E) as [-> _].
    apply (eff_shape e (eff_ok e He)).
  Qed.

  Lemma tracked_act y d : In y acts -> uc (fst (ae_key y)) = Some d ->
    exists e, In e effs /\ e_fl e = fst (ae_key y) /\ ae_kind y = e_kind e /\
              evals_l false I (e_args e) = Some (snd (ae_key y)) /\ eval false (e_cond e) I = Some (VBool true).
  Proof.
    intros H Hd. destruct (act_origin y H) as [e [J (He & HJ & E)]]. destruct (eval_effect_act J e y E) as (E1 & E2 & E3 & E4).
    exists e. rewrite E1 in Hd. rewrite (tracked_vars e d He Hd) in HJ. cbn [instances] in HJ. destruct HJ as [<-|[]]. auto.
  Qed.

  Definition tres (d : N) (e : effect) : Sem.eres :=
    match evals_l false I' (e_args e) with
    | Some vs => match eval false (e_cond e) I' with
                 | Some (VBool true) => EAct {| ae_key := (d, vs); ae_kind := KAssign; ae_val := VBool true |}
                 | Some _ => ESkip
                 | None => EErr
                 end
    | None => EErr
    end.

  Notation X := (dedup_e (flat_map (track_effect umap a) effs)).
  Notation xl := (eres_of I' X).
  Notation xacts := (acts_of xl).

  Lemma in_X t : In t X <->
    exists e d, In e effs /\ uc (e_fl e) = Some d /\
                existsb (fexp_eqb (e_fl e, e_args e)) (a_reads umap a) = false /\ t = mk_tracker d e.
  Proof.
    rewrite In_dedup_e, in_flat_map. unfold track_effect. split.
    - intros [e [He H]]. destruct (uc (e_fl e)) as [d|] eqn:Ed; [|destruct H].
      destruct (existsb (fexp_eqb (e_fl e, e_args e)) (a_reads umap a)) eqn:Ex; [destruct H|].
      destruct H as [<-|[]]. exists e, d. auto.
    - intros [e [d (He & Ed & Ex & ->)]]. exists e. split; [exact He|]. rewrite Ed, Ex. left; reflexivity.
  Qed.

  Lemma tracker_piece e d : In e effs -> uc (e_fl e) = Some d -> piece I' (mk_tracker d e) = [tres d e].
  Proof.
    intros He Ed. unfold piece. cbn [mk_tracker e_vars]. rewrite (tracked_vars e d He Ed). cbn [instances map]. f_equal.
    all: unfold eval_effect, tres; cbn [mk_tracker e_args e_cond e_val e_fl e_kind eval];
      destruct (evals_l false I' (e_args e)); [|reflexivity];
      destruct (eval false (e_cond e) I') as [[[|]| |]|]; reflexivity.
  Qed.

  Lemma in_xl r : In r xl <->
    exists e d, In e effs /\ uc (e_fl e) = Some d /\
                existsb (fexp_eqb (e_fl e, e_args e)) (a_reads umap a) = false /\ r = tres d e.
  Proof.
    rewrite in_eres_of. split.
    - intros [t [Ht Hr]]. apply in_X in Ht. destruct Ht as [e [d (He & Ed & Ex & ->)]].
      rewrite (tracker_piece e d He Ed) in Hr. destruct Hr as [<-|[]]. exists e, d. auto.
    - intros [e [d (He & Ed & Ex & ->)]]. exists (mk_tracker d e). split.
      + apply in_X. exists e, d. auto.
      + rewrite (tracker_piece e d He Ed). left; reflexivity.
  Qed.

  Lemma args_same e : In e effs -> evals_l false I' (e_args e) = evals_l false I (e_args e).
  Proof. intros He. apply (pure_evals_l _ I I' rel_I). apply (eff_shape e (eff_ok e He)). Qed.

  Lemma xacts_in x : In x xacts ->
    exists e d vs, In e effs /\ uc (e_fl e) = Some d /\ evals_l false I (e_args e) = Some vs /\
                   eval false (e_cond e) I' = Some (VBool true) /\
                   x = {| ae_key := (d, vs); ae_kind := KAssign; ae_val := VBool true |}.
  Proof.
    intros H. apply in_acts_of in H. apply in_xl in H. destruct H as [e [d (He & Ed & _ & H)]].
    unfold tres in H. rewrite (args_same e He) in H.
    destruct (evals_l false I (e_args e)) as [vs|] eqn:Ev; [|discriminate].
    destruct (eval false (e_cond e) I') as [[[|]| |]|] eqn:Ec; try discriminate. inversion H. exists e, d, vs. auto.
  Qed.

  Section NoError.
    Hypothesis Hne : has_err (eres_of I effs) = false.

    Lemma tracked_ok e d : In e effs -> uc (e_fl e) = Some d ->
      exists vs, evals_l false I (e_args e) = Some vs /\ eval false (e_cond e) I <> None /\
                 (eval false (e_cond e) I = Some (VBool true) ->
                  exists y, In y acts /\ ae_key y = (e_fl e, vs) /\ ae_kind y = e_kind e).
    Proof.
      intros He Hd. assert (Hin : In (eval_effect false I e) (eres_of I effs)).
      { apply in_eres_of. exists e. split; [exact He|]. rewrite (tracked_piece e d He Hd). left; reflexivity. }
      unfold eval_effect in Hin. destruct (evals_l false I (e_args e)) as [vs|].
      - exists vs. split; [reflexivity|]. destruct (eval false (e_cond e) I) as [[[|]| |]|].
        + split; [discriminate|]. intros _. destruct (eval false (e_val e) I) as [v|].
          * eexists. split; [apply in_acts_of; exact Hin|]. split; reflexivity.
          * apply has_err_in in Hin. congruence.
        + split; [discriminate | discriminate].
        + split; [discriminate | discriminate].
        + split; [discriminate | discriminate].
        + apply has_err_in in Hin. congruence.
      - apply has_err_in in Hin. congruence.
    Qed.
  End NoError.

  Section GuardsHold.
    Hypothesis Gall : guards_hold umap I' (a_reads umap a) = true.

    Lemma expr_eq x : In x (a_exprs a) -> eval false x I' = eval false x I.
    Proof.
      intros Hx. destruct (eval_guarded umap x I I' rel_I (exprs_uq x Hx)) as [A _]. apply A.
      apply (guards_in I' (a_exprs a)); [exact Gall | exact Hx].
    Qed.

    Lemma pre_eq : all_hold false I' (a_pre a) = all_hold false I (a_pre a).
    Proof. unfold all_hold. apply forallb_ext_in. intros x Hx. unfold holds. rewrite (expr_eq x (in_exprs_pre x Hx)). reflexivity. Qed.

    Lemma piece_eq e : In e effs -> piece I' e = piece I e.
    Proof.
      intros He. destruct (eff_shape e (eff_ok e He)) as (_ & Ha & Hv & Hc & Hs).
      assert (Hcase : e_vars e = [] \/ (upure umap (e_val e) = true /\ upure umap (e_cond e) = true)).
      { destruct Hs as [[_ Hn]|(Hpv & [[Hn _]|[_ Hpc]])]; auto. }
      destruct Hcase as [Hn|[Hpv Hpc]].
      - unfold piece. rewrite Hn. cbn [instances map]. f_equal.
        apply (eval_effect_eq I I' e rel_I Ha); apply expr_eq; [apply in_exprs_cond | apply in_exprs_val]; exact He.
      - unfold piece. symmetry. apply (Forall2_map_eq urel _ _ _ _ (urel_instances umap (e_vars e) I I' rel_I)).
        intros J J' HJ. symmetry. apply (eval_effect_eq J J' e HJ Ha); apply pure_eval; assumption.
    Qed.

    Lemma eres_eq : eres_of I' effs = eres_of I effs.
    Proof. unfold eres_of. apply flat_map_ext_in. intros e He. apply (piece_eq e He). Qed.

    Lemma cond_same e : In e effs -> eval false (e_cond e) I' = eval false (e_cond e) I.
    Proof. intros He. apply expr_eq, in_exprs_cond, He. Qed.

    (* the tracker of an assignment that fires fires too (same condition), unless the target is among the reads *)
    Lemma xacts_cover e d vs : In e effs -> uc (e_fl e) = Some d -> evals_l false I (e_args e) = Some vs ->
      eval false (e_cond e) I = Some (VBool true) ->
      (exists x, In x xacts /\ ae_key x = (d, vs)) \/ existsb (fexp_eqb (e_fl e, e_args e)) (a_reads umap a) = true.
    Proof.
      intros He Ed Ev Ec. destruct (existsb (fexp_eqb (e_fl e, e_args e)) (a_reads umap a)) eqn:Ex; [right; reflexivity|].
      left. exists {| ae_key := (d, vs); ae_kind := KAssign; ae_val := VBool true |}. split; [|reflexivity].
      apply in_acts_of. apply in_xl. exists e, d. repeat split; auto.
      unfold tres. rewrite (args_same e He), Ev, (cond_same e He), Ec. reflexivity.
    Qed.

    Section Fluents.
      Hypothesis Hne : has_err (eres_of I effs) = false.

      Lemma xacts_noerr : has_err xl = false.
      Proof.
        destruct (has_err xl) eqn:E; [|reflexivity]. exfalso. apply has_err_in in E. apply in_xl in E.
        destruct E as [e [d (He & Ed & _ & H)]]. unfold tres in H. rewrite (args_same e He), (cond_same e He) in H.
        destruct (tracked_ok Hne e d He Ed) as [vs (Ev & Hc & _)]. rewrite Ev in H.
        destruct (eval false (e_cond e) I) as [[[|]| |]|]; try discriminate. apply Hc; reflexivity.
      Qed.

      Lemma xact_key x : In x xacts -> isc (fst (ae_key x)) = true /\ is_assign x = true /\ ae_val x = VBool true.
      Proof.
        intros H. destruct (xacts_in x H) as [e [d [vs (He & Ed & Ev & _ & ->)]]]. cbn.
        split; [apply (ucomp_isc umap _ _ Ed) | auto].
      Qed.

      Lemma old_same y d : In y acts -> is_assign y = false -> uc (fst (ae_key y)) = Some d ->
        s' (fst (ae_key y)) (snd (ae_key y)) = s (fst (ae_key y)) (snd (ae_key y)).
      Proof.
        intros Hy Hna Hd. destruct (tracked_act y d Hy Hd) as [e (He & Ef & Ek & Ev & _)].
        assert (Hk : e_kind e <> KAssign).
        { intros E. unfold is_assign in Hna. rewrite Ek, E in Hna. discriminate. }
        pose proof (in_exprs_tgt e He Hk) as Hin.
        assert (HG : guards_hold umap I' (rd (EFluent (e_fl e) (e_args e))) = true)
          by (apply (guards_in I' (a_exprs a)); assumption).
        rewrite <- Ef in Hd.
        assert (Hm : In (e_fl e, e_args e) (rd (EFluent (e_fl e) (e_args e)))).
        { cbn [reads]. rewrite Hd. apply in_or_app. right. left. reflexivity. }
        assert (Ev' : evals false I' (e_args e) = Some (snd (ae_key y))).
        { rewrite <- evals_l_evals, (args_same e He). exact Ev. }
        destruct (guard_true I I' (e_fl e) d (e_args e) _ _ rel_I Hd Hm HG Ev') as [_ [v [E1 E2]]].
        rewrite <- Ef. cbn [mk_interp fl] in E1, E2. rewrite E1, E2. reflexivity.
      Qed.

      Lemma sf_noncomp k : isc (fst k) = false -> spec_fluent P' s' (acts ++ xacts) k = spec_fluent P s acts k.
      Proof.
        intros Hk. unfold spec_fluent. rewrite avals_app, deltas_app.
        destruct (absent_key_nil k xacts) as [-> ->].
        { intros x Hx. destruct (xact_key x Hx) as [Hc _]. destruct (gfl_eqb (ae_key x) k) eqn:E; [|reflexivity].
          apply gfl_eqb_eq in E. subst k. congruence. }
        rewrite !app_nil_r.
        replace (is_bool_fluent P' (fst k)) with (is_bool_fluent P (fst k)).
        2:{ unfold is_bool_fluent. cbn [p_fluents uinr_compile]. unfold u_fluents. rewrite existsb_app.
            match goal with |- _ = _ || ?b => assert (Eb : b = false) end.
            { match goal with |- ?b = false => destruct b eqn:E; [|reflexivity] end. exfalso.
              apply existsb_exists in E. destruct E as [fd [Hfd E]]. apply in_map_iff in Hfd. destruct Hfd as [p [<- Hp]].
              cbn [fd_id fd_ty] in E. apply andb_true_iff in E. destruct E as [E _].
              assert (isc (fst k) = true) by (unfold is_ucomp; apply existsb_exists; exists p; split; assumption).
              congruence. }
            rewrite Eb, orb_false_r. reflexivity. }
        apply combine_old_irrelevant. intros HD HA.
        apply deltas_nonempty in HD. destruct HD as [y (Hy & Hky & Hna)].
        destruct (uc (fst k)) as [d|] eqn:Ed.
        - subst k. apply (old_same y d Hy Hna Ed).
        - destruct HRs as [H1 _]. apply H1; assumption.
      Qed.

      Lemma sf_comp k : isc (fst k) = true ->
        spec_fluent P' s' (acts ++ xacts) k = match avals k xacts with [] => CUnchanged | _ => CVal (VBool true) end.
      Proof.
        intros Hk. unfold spec_fluent. rewrite avals_app, deltas_app.
        destruct (absent_key_nil k acts) as [-> ->].
        { intros y Hy. pose proof (act_noncomp y Hy) as Hn. destruct (gfl_eqb (ae_key y) k) eqn:E; [|reflexivity].
          apply gfl_eqb_eq in E. subst k. congruence. }
        rewrite (proj2 (deltas_nil k xacts)).
        2:{ intros x Hx. destruct (xact_key x Hx) as (_ & -> & _). apply andb_false_r. }
        cbn [app]. apply combine_all_true. apply Forall_forall. intros v Hv. apply in_avals in Hv.
        destruct Hv as [x (Hx & _ & _ & <-)]. apply (xact_key x Hx).
      Qed.

      Lemma sf_comp_some k x : In x xacts -> ae_key x = k -> spec_fluent P' s' (acts ++ xacts) k = CVal (VBool true).
      Proof.
        intros Hx Hk. rewrite sf_comp by (subst k; apply (xact_key x Hx)).
        destruct (avals k xacts) eqn:E; [|reflexivity]. exfalso.
        assert (Hv : In (ae_val x) (avals k xacts)).
        { apply in_avals. exists x. repeat split; [exact Hx | rewrite Hk; apply gfl_eqb_refl | apply (xact_key x Hx)]. }
        rewrite E in Hv. destruct Hv.
      Qed.

      Lemma sf_comp_cases k : isc (fst k) = true ->
        spec_fluent P' s' (acts ++ xacts) k = CVal (VBool true) \/
        (spec_fluent P' s' (acts ++ xacts) k = CUnchanged /\ forall x, In x xacts -> ae_key x <> k).
      Proof.
        intros Hk. rewrite (sf_comp k Hk). destruct (avals k xacts) eqn:E; [right | left; reflexivity].
        split; [reflexivity|]. intros x Hx Hkx. pose proof (sf_comp_some k x Hx Hkx) as H.
        rewrite (sf_comp k Hk), E in H. discriminate H.
      Qed.

      Lemma effects_ok_eq : spec_effects_ok P' s' (acts ++ xacts) = spec_effects_ok P s acts.
      Proof.
        unfold spec_effects_ok. rewrite forallb_app.
        rewrite (forallb_ext_in _ (fun a0 => match spec_fluent P s acts (ae_key a0) with CFail => false | _ => true end) acts).
        2:{ intros y Hy. rewrite (sf_noncomp _ (act_noncomp y Hy)). reflexivity. }
        match goal with |- _ && ?b = _ => assert (E : b = true) end.
        { apply forallb_forall. intros x Hx. rewrite (sf_comp_some (ae_key x) x Hx eq_refl). reflexivity. }
        rewrite E, andb_true_r. reflexivity.
      Qed.

      Lemma succ_rel : spec_effects_ok P s acts = true ->
        uinr_rel umap (spec_succ P s acts) (spec_succ P' s' (acts ++ xacts)).
      Proof.
        intros Hok2. split.
        - intros g vs Hg Hc. unfold spec_succ. rewrite (sf_noncomp (g, vs) Hc). destruct HRs as [H1 _].
          rewrite (H1 g vs Hg Hc). reflexivity.
        - intros f d vs Hd. pose proof umap_facts as (_ & Ftr & _). pose proof (Ftr f d Hd) as Hfc.
          pose proof (ucomp_isc umap f d Hd) as Hdc.
          unfold spec_succ. rewrite (sf_noncomp (f, vs) Hfc).
          destruct HRs as [_ H2]. specialize (H2 f d vs Hd).
          destruct (spec_fluent P s acts (f, vs)) as [|v|] eqn:Esf.
          + assert (Hno : forall y, In y acts -> ae_key y <> (f, vs)).
            { intros y Hy Hk. apply (proj2 (spec_fluent_touched P s acts (f, vs))); [exists y; auto | exact Esf]. }
            destruct (sf_comp_cases (d, vs) Hdc) as [Ec|[Ec Hnx]].
            * exfalso. rewrite (sf_comp (d, vs) Hdc) in Ec. destruct (avals (d, vs) xacts) as [|v0 A0] eqn:E; [discriminate|].
              assert (Hv : In v0 (avals (d, vs) xacts)) by (rewrite E; left; reflexivity).
              apply in_avals in Hv. destruct Hv as [x (Hx & Hkx & _)]. apply gfl_eqb_eq in Hkx.
              destruct (xacts_in x Hx) as [e [d0 [vs0 (He & Ed0 & Ev0 & Ec0 & ->)]]]. cbn [ae_key] in Hkx. inversion Hkx; subst d0 vs0.
              pose proof (uc_inj _ _ _ Ed0 Hd) as Ef.
              destruct (tracked_ok Hne e d He Ed0) as [vs1 (Ev1 & _ & Hy1)].
              rewrite (cond_same e He) in Ec0. destruct (Hy1 Ec0) as [y (Hy & Hky & _)].
              rewrite Ev0 in Ev1. inversion Ev1; subst vs1. rewrite Ef in Hky. exact (Hno y Hy Hky).
            * rewrite Ec. exact H2.
          + split; [reflexivity|].
            destruct (proj1 (spec_fluent_touched P s acts (f, vs))) as [y [Hy Hky]]; [rewrite Esf; discriminate|].
            assert (Hd' : uc (fst (ae_key y)) = Some d) by (rewrite Hky; exact Hd).
            destruct (tracked_act y d Hy Hd') as [e (He & Ef & _ & Ev & Ec)]. rewrite Hky in Ef, Ev. cbn [fst snd] in Ef, Ev.
            rewrite <- Ef in Hd.
            destruct (xacts_cover e d vs He Hd Ev Ec) as [[x [Hx Hkx]]|Hread].
            * rewrite (sf_comp_some (d, vs) x Hx Hkx). reflexivity.
            * apply existsb_exists in Hread. destruct Hread as [r [Hr Er]]. apply fexp_eqb_eq in Er. subst r.
              assert (Ev' : evals false I' (e_args e) = Some vs) by (rewrite <- evals_l_evals, (args_same e He); exact Ev).
              destruct (guard_true I I' (e_fl e) d (e_args e) vs _ rel_I Hd Hr Gall Ev') as [Et _]. cbn [mk_interp fl] in Et.
              destruct (sf_comp_cases (d, vs) Hdc) as [Ec2|[Ec2 _]]; rewrite Ec2; [reflexivity | exact Et].
          + (* conflict: excluded by spec_effects_ok *)
            exfalso.
            destruct (proj1 (spec_fluent_touched P s acts (f, vs))) as [y [Hy Hky]]; [rewrite Esf; discriminate|].
            unfold spec_effects_ok in Hok2. rewrite forallb_forall in Hok2.
            specialize (Hok2 y Hy). rewrite Hky, Esf in Hok2. discriminate.
      Qed.
    End Fluents.
  End GuardsHold.

  Lemma pure_args_reads l : forallb (upure umap) l = true -> flat_map rd l = [].
  Proof.
    intros H. apply flat_map_nil. intros x Hx. rewrite forallb_forall in H. specialize (H x Hx). unfold upure in H.
    apply andb_true_iff in H. apply is_nil_eq. tauto.
  Qed.

  Lemma err_in_effs e : In e effs -> e_vars e = [] -> eval_effect false I e = EErr -> has_err (eres_of I effs) = true.
  Proof.
    intros He Hn E. apply has_err_in. unfold eres_of. apply in_flat_map. exists e. split; [exact He|].
    rewrite Hn. cbn [instances map]. left. exact E.
  Qed.

  Lemma finish_err : has_err (eres_of I effs) = true -> finish_step P s (eres_of I effs) = None.
  Proof. intros H. unfold finish_step. rewrite collect_res_spec, H. reflexivity. Qed.

  Lemma guards_fail_orig : guards_hold umap I' (a_reads umap a) = false -> spec_step false P s a args = None.
  Proof.
    intros G. unfold a_reads in G. destruct (guards_false_ex I' _ G) as [x [Hx Gx]].
    destruct (eval_guarded umap x I I' rel_I (exprs_uq x Hx)) as [_ B]. specialize (B Gx).
    rewrite spec_step_unfold. cbv zeta.
    unfold a_exprs in Hx. rewrite !in_app_iff in Hx. destruct Hx as [Hx|[Hx|[Hx|Hx]]].
    - assert (E : all_hold false I (a_pre a) = false).
      { destruct (all_hold false I (a_pre a)) eqn:E; [|reflexivity]. pose proof (all_hold_In false I _ x E Hx) as Hh.
        unfold holds in Hh. rewrite B in Hh. discriminate. }
      rewrite E. reflexivity.
    - apply in_map_iff in Hx. destruct Hx as [e [<- He]].
      destruct (all_hold false I (a_pre a)); [|reflexivity]. cbn [negb]. apply finish_err.
      destruct (eff_shape e (eff_ok e He)) as (_ & _ & _ & _ & [[Hc Hn]|(Hpv & _)]).
      + apply (err_in_effs e He Hn). unfold eval_effect. destruct (evals_l false I (e_args e)); [|reflexivity].
        rewrite Hc. cbn [eval]. rewrite B. reflexivity.
      + unfold upure in Hpv. apply andb_true_iff in Hpv. destruct Hpv as [_ Hn]. apply is_nil_eq in Hn.
        rewrite Hn in Gx. discriminate.
    - unfold inc_targets in Hx. apply in_flat_map in Hx. destruct Hx as [e [He Hx]].
      assert (Hk : x = EFluent (e_fl e) (e_args e) /\ e_kind e <> KAssign).
      { destruct (e_kind e); [destruct Hx | |]; (destruct Hx as [Hx|[]]; split; [auto | discriminate]). }
      destruct Hk as [-> Hk].
      destruct (all_hold false I (a_pre a)); [|reflexivity]. cbn [negb].
      destruct (eff_shape e (eff_ok e He)) as (_ & Ha & _ & _ & Hs).
      destruct (uc (e_fl e)) as [d|] eqn:Ed.
      + destruct Hs as [[Hc Hn]|(_ & [[_ [Hu|Hka]]|[Hu _]])]; [|congruence|congruence|congruence].
        destruct (has_err (eres_of I effs)) eqn:Hne; [apply finish_err; exact Hne|].
        destruct (tracked_ok Hne e d He Ed) as [vs (Ev & _ & Hy1)].
        assert (Ect : eval false (e_cond e) I = Some (VBool true)) by (rewrite Hc; reflexivity).
        destruct (Hy1 Ect) as [y (Hy & Hky & Hkk)].
        rewrite eval_EFluent, <- evals_l_evals, Ev in B. cbn [mk_interp fl] in B.
        unfold finish_step. rewrite collect_res_spec, Hne.
        assert (Ef : spec_effects_ok P s acts = false).
        { destruct (spec_effects_ok P s acts) eqn:E; [|reflexivity]. exfalso. unfold spec_effects_ok in E.
          rewrite forallb_forall in E. specialize (E y Hy). rewrite Hky in E. unfold spec_fluent in E. cbn [fst snd] in E.
          rewrite B in E.
          assert (HD : deltas (e_fl e, vs) acts <> []).
          { apply deltas_nonempty. exists y. repeat split; auto. unfold is_assign. rewrite Hkk.
            destruct (e_kind e); [congruence | reflexivity | reflexivity]. }
          destruct (avals (e_fl e, vs) acts), (deltas (e_fl e, vs) acts); cbn [combine] in E; try discriminate.
          all: apply HD; reflexivity. }
        rewrite Ef. reflexivity.
      + exfalso. cbn [reads] in Gx. rewrite Ed, (pure_args_reads _ Ha) in Gx. discriminate.
    - apply in_map_iff in Hx. destruct Hx as [e [<- He]].
      destruct (all_hold false I (a_pre a)); [|reflexivity]. cbn [negb]. apply finish_err.
      destruct (eff_shape e (eff_ok e He)) as (_ & _ & _ & _ & [[Hc Hn]|(_ & [[Hn _]|[_ Hpc]])]).
      + rewrite Hc in B. discriminate.
      + apply (err_in_effs e He Hn). unfold eval_effect. destruct (evals_l false I (e_args e)); [|reflexivity].
        rewrite B. reflexivity.
      + unfold upure in Hpc. apply andb_true_iff in Hpc. destruct Hpc as [_ Hn]. apply is_nil_eq in Hn.
        rewrite Hn in Gx. discriminate.
  Qed.

  Lemma num_node_pure q : upure umap (num_node q) = true.
  Proof. unfold num_node. destruct (Z.pos (Qden (this q)) =? 1)%Z; reflexivity. Qed.
  Lemma value_expr_pure v : upure umap (value_expr v) = true.
  Proof. destruct v; try reflexivity. apply num_node_pure. Qed.

  Lemma upure_split e : upure umap e = true -> uq umap e = true /\ rd e = [].
  Proof. unfold upure. intros H. apply andb_true_iff in H. destruct H as [H1 H2]. split; [exact H1 | apply is_nil_eq, H2]. Qed.

  Lemma upure_ELe x y : upure umap x = true -> upure umap y = true -> upure umap (ELe x y) = true.
  Proof.
    intros Hx Hy. apply upure_split in Hx. apply upure_split in Hy. destruct Hx as [X1 X2], Hy as [Y1 Y2].
    unfold upure. cbn [uq reads]. rewrite X1, X2, Y1, Y2. reflexivity.
  Qed.

  Lemma bound_inv_pure x : In x (bound_invs P) -> upure umap x = true.
  Proof.
    unfold bound_invs. intros H. apply in_flat_map in H. destruct H as [fd [Hfd H]].
    destruct umap_facts as (_ & _ & Ffl & Fub).
    destruct (fd_ty fd) as [|lo hi|] eqn:Et; try destruct H.
    apply in_flat_map in H. destruct H as [tup [_ H]].
    destruct (uc (fd_id fd)) as [d|] eqn:Ed.
    { rewrite (Fub fd d Hfd Ed) in Et. inversion Et; subst lo hi. destruct H. }
    assert (Hfl : upure umap (EFluent (fd_id fd) (map value_expr tup)) = true).
    { unfold upure. cbn [uq reads]. rewrite (Ffl fd Hfd), Ed. cbn [negb andb]. rewrite app_nil_r.
      assert (Hq : forallb (uq umap) (map value_expr tup) = true).
      { apply forallb_forall. intros z Hz. apply in_map_iff in Hz. destruct Hz as [v [<- _]]. apply (upure_split _ (value_expr_pure v)). }
      rewrite Hq. rewrite flat_map_nil; [reflexivity|]. intros z Hz. apply in_map_iff in Hz. destruct Hz as [v [<- _]].
      apply (upure_split _ (value_expr_pure v)). }
    apply in_app_or in H. destruct H as [H|H].
    - destruct lo as [l|]; [|destruct H]. destruct H as [<-|[]]. apply upure_ELe; [apply num_node_pure | exact Hfl].
    - destruct hi as [h|]; [|destruct H]. destruct H as [<-|[]]. apply upure_ELe; [exact Hfl | apply num_node_pure].
  Qed.

  Lemma bound_invs_same : bound_invs P' = bound_invs P.
  Proof.
    unfold bound_invs. cbn [p_fluents uinr_compile]. unfold u_fluents. rewrite flat_map_app.
    rewrite (flat_map_nil _ (map _ umap)).
    2:{ intros fd H. apply in_map_iff in H. destruct H as [p [<- _]]. reflexivity. }
    rewrite app_nil_r. apply flat_map_ext. intros fd. destruct (fd_ty fd); try reflexivity.
    rewrite (arg_tuples_objs P P' _ eq_refl). reflexivity.
  Qed.

  Lemma uinr_invariants t t' : uinr_rel umap t t' -> forallb (upure umap) (p_invs P) = true ->
    invariants_ok false P' t' = invariants_ok false P t.
  Proof.
    intros HRt Hinv. unfold invariants_ok. cbn [p_invs uinr_compile]. rewrite bound_invs_same.
    unfold all_hold. apply forallb_ext_in. intros x Hx. apply (pure_holds x _ _ (urel_mk t t' [] HRt)).
    apply in_app_or in Hx. destruct Hx as [Hx|Hx]; [rewrite forallb_forall in Hinv; apply Hinv, Hx | apply bound_inv_pure, Hx].
  Qed.

  Definition orel (o o' : option state) : Prop :=
    match o, o' with Some t, Some t' => uinr_rel umap t t' | None, None => True | _, _ => False end.

  Theorem uinr_step : forallb (upure umap) (p_invs P) = true ->
    orel (spec_step false P s a args) (spec_step false P' s' (u_action umap a) args).
  Proof.
    intros Hinv. destruct (guards_hold umap I' (a_reads umap a)) eqn:G.
    - rewrite !spec_step_unfold. cbv zeta. cbn [a_params a_pre a_effs u_action].
      rewrite all_hold_fold_add_pre, guards_as_conds, G, andb_true_r, (pre_eq G).
      destruct (all_hold false I (a_pre a)); [|exact Logic.I]. cbn [negb].
      rewrite eres_of_app, (eres_eq G).
      unfold finish_step. rewrite !collect_res_spec, has_err_app, acts_of_app.
      destruct (has_err (eres_of I effs)) eqn:Hne; [exact Logic.I|]. rewrite (xacts_noerr G Hne). cbn [orb].
      rewrite (effects_ok_eq G). destruct (spec_effects_ok P s acts) eqn:Eok; [|exact Logic.I]. cbn [negb].
      pose proof (succ_rel G Hne Eok) as Hrel. rewrite (uinr_invariants _ _ Hrel Hinv).
      destruct (invariants_ok false P (spec_succ P s acts)); [exact Hrel | exact Logic.I].
    - rewrite (guards_fail_orig G). rewrite spec_step_unfold. cbv zeta. cbn [a_params a_pre a_effs u_action].
      rewrite all_hold_fold_add_pre, guards_as_conds, G, andb_false_r. exact Logic.I.
  Qed.
End UinrStep.

Section UinrPlan.
  Variable umap : list (N * N).
  Variable P : problem.
  Notation P' := (uinr_compile umap P).
  Hypothesis Hok : uinr_ok umap P = true.

  Lemma uinr_ok_parts :
    umap_ok umap P = true /\ (forall i a, In (i, a) (p_actions P) -> action_ok umap a = true) /\
    forallb (uq umap) (p_goals P) = true /\ forallb (upure umap) (p_invs P) = true.
  Proof.
    unfold uinr_ok in Hok. apply andb_true_iff in Hok. destruct Hok as [H H4]. apply andb_true_iff in H. destruct H as [H H3].
    apply andb_true_iff in H. destruct H as [H1 H2]. repeat split; try assumption.
    intros i a Hin. rewrite forallb_forall in H2. apply (H2 (i, a) Hin).
  Qed.

  Lemma lookup_u aid : lookup_action P' aid = option_map (u_action umap) (lookup_action P aid).
  Proof.
    unfold lookup_action. cbn [p_actions uinr_compile]. apply lookupN_map_snd.
  Qed.

  Lemma uinr_goals t t' : uinr_rel umap t t' -> goals_hold false P' t' = goals_hold false P t.
  Proof.
    intros HR. destruct uinr_ok_parts as (Hm & _ & Hg & _). unfold goals_hold. cbn [p_goals uinr_compile]. unfold u_goals.
    rewrite all_hold_app, (guards_as_conds umap).
    apply (conds_guarded umap _ _ (p_goals P) (urel_mk umap P t t' [] HR) Hg).
  Qed.

  Lemma uinr_steps s s' aid args : uinr_rel umap s s' ->
    orel_by (uinr_rel umap)
      (match lookup_action P aid with Some a => spec_step false P s a args | None => None end)
      (match lookup_action P' aid with Some a' => spec_step false P' s' a' args | None => None end).
  Proof.
    destruct uinr_ok_parts as (Hm & Ha & _ & Hi). intros HR. rewrite lookup_u.
    destruct (lookup_action P aid) as [a|] eqn:El; cbn [option_map]; [|exact I].
    exact (uinr_step umap P Hm s s' a args HR (Ha aid a (lookupN_In _ _ _ El)) Hi).
  Qed.

  Theorem uinr_run pi : forall s s', uinr_rel umap s s' ->
    orel umap (run P (spec_step false P) s pi) (run P' (spec_step false P') s' pi).
  Proof. intros s s'. exact (run_sim P P' _ uinr_steps pi s s'). Qed.

  (* the two problems accept exactly the same plans (the map back of a plan is the plan itself: replace_action with
     the name-preserving dictionary) *)
  Theorem uinr_valid_plan s s' pi : uinr_rel umap s s' -> valid_plan false P' s' pi = valid_plan false P s pi.
  Proof. exact (valid_plan_sim P P' _ uinr_steps uinr_goals s s' pi). Qed.

  Corollary uinr_sound s s' pi : uinr_rel umap s s' -> valid_plan false P' s' pi = true -> valid_plan false P s pi = true.
  Proof. intros HR H. rewrite <- (uinr_valid_plan s s' pi HR). exact H. Qed.

  Corollary uinr_complete s s' pi : uinr_rel umap s s' -> valid_plan false P s pi = true -> valid_plan false P' s' pi = true.
  Proof. intros HR H. rewrite (uinr_valid_plan s s' pi HR). exact H. Qed.
End UinrPlan.

(* the compiled initial state: default values for the tracked fluents without value, companions accordingly *)
Definition uinr_init (umap : list (N * N)) (dflt : N -> Qc) (s : state) : state :=
  fun g args =>
    match find (fun p => (snd p =? g)%N) umap with
    | Some p => Some (VBool (match s (fst p) args with Some _ => true | None => false end))
    | None => match ucomp umap g, s g args with
              | Some _, None => Some (VNum (dflt g))
              | _, v => v
              end
    end.

Lemma uinr_init_rel umap dflt P s : umap_ok umap P = true -> uinr_rel umap s (uinr_init umap dflt s).
Proof.
  intros Hm. pose proof (umap_facts umap P Hm) as (Hnd & Ftr & _).
  assert (Hfind : forall g, is_ucomp umap g = false -> find (fun p => (snd p =? g)%N) umap = None).
  { intros g Hg. destruct (find (fun p => (snd p =? g)%N) umap) as [p|] eqn:E; [|reflexivity]. exfalso.
    apply find_some in E. destruct E as [Hin E]. assert (is_ucomp umap g = true) by (apply existsb_exists; exists p; auto). congruence. }
  split.
  - intros g args Hg Hc. unfold uinr_init. rewrite (Hfind g Hc), Hg. reflexivity.
  - intros f d args Hd. unfold uinr_init.
    assert (Ed : find (fun p => (snd p =? d)%N) umap = Some (f, d)).
    { destruct (find (fun p => (snd p =? d)%N) umap) as [p|] eqn:E.
      - apply find_some in E. destruct E as [Hin E]. apply N.eqb_eq in E. destruct p as [f0 d0]. cbn [snd] in E. subst d0.
        assert (uc0 : ucomp umap f0 = Some d).
        { unfold ucomp. apply lookupN_unique; [|exact Hin]. apply nodupN_NoDup. unfold umap_ok in Hm. nfsplit. assumption. }
        rewrite (uc_inj umap P Hm f0 f d uc0 Hd). reflexivity.
      - exfalso. apply lookupN_In in Hd. apply (find_none _ _ E) in Hd. cbn [snd] in Hd. rewrite N.eqb_refl in Hd. discriminate. }
    rewrite (Hfind f (Ftr f d Hd)), Hd, Ed. cbn [fst]. destruct (s f args); [split; reflexivity | reflexivity].
Qed.

Module UinrW.
  Definition eff (f : N) (v c : expr) (k : ekind) (isb : bool) : effect :=
    {| e_fl := f; e_args := []; e_val := v; e_cond := c; e_kind := k; e_vars := []; e_isbool := isb |}.
  Definition fl0 (f : N) : expr := EFluent f [].
  Definition bfd (f : N) : fdecl := {| fd_id := f; fd_sig := []; fd_ty := FBool |}.
  Definition nfd (f : N) : fdecl := {| fd_id := f; fd_sig := []; fd_ty := FNum None None |}.
  Definition um : list (N * N) := [(0%N, 9%N)].        (* x = fluent 0 is tracked, its companion is fluent 9 *)
  (* fluents: 0 = x (no initial value), 1 = c (false), 2 = g (false), 3 = y (0) *)
  Definition s0 : state := fun f a => match f with 0%N => None | 3%N => Some (VNum (zq 0)) | _ => Some (VBool false) end.
  Definition s0c : state := fun f a => match f with 1%N => Some (VBool true) | _ => s0 f a end.

  (* (1) conditional assignment: a = [if c then x := 5], b = [pre x = 5; g := true], goal g *)
  Definition P1 : problem :=
    {| p_objs := []; p_ifun := []; p_fluents := [nfd 0; bfd 1; bfd 2];
       p_actions := [(0%N, {| a_params := []; a_pre := []; a_effs := [eff 0 (EInt 5) (fl0 1) KAssign false] |});
                     (1%N, {| a_params := []; a_pre := [EEquals (fl0 0) (EInt 5)];
                              a_effs := [eff 2 (EBool true) (EBool true) KAssign true] |})];
       p_goals := [fl0 2]; p_invs := [] |}.
  Definition plan1 : list (N * list value) := [(0%N, []); (1%N, [])].

  (* (2) conditional read: a = [if c then y := x + 1; g := true], goal g *)
  Definition P2 : problem :=
    {| p_objs := []; p_ifun := []; p_fluents := [nfd 0; bfd 1; bfd 2; nfd 3];
       p_actions := [(0%N, {| a_params := []; a_pre := [];
                              a_effs := [eff 3 (EPlus [fl0 0; EInt 1]) (fl0 1) KAssign false;
                                         eff 2 (EBool true) (EBool true) KAssign true] |})];
       p_goals := [fl0 2]; p_invs := [] |}.
  (* (2') conditional increase of the tracked fluent itself *)
  Definition P2' : problem :=
    {| p_objs := []; p_ifun := []; p_fluents := [nfd 0; bfd 1; bfd 2];
       p_actions := [(0%N, {| a_params := []; a_pre := [];
                              a_effs := [eff 0 (EInt 1) (fl0 1) KInc false;
                                         eff 2 (EBool true) (EBool true) KAssign true] |})];
       p_goals := [fl0 2]; p_invs := [] |}.
  Definition plan2 : list (N * list value) := [(0%N, [])].

  (* (3) a problem inside the fragment: a = [x := 2], b = [pre x <= 3; y := x + 1; g := true], c = [if g then y += 1] *)
  Definition P3 : problem :=
    {| p_objs := []; p_ifun := []; p_fluents := [nfd 0; bfd 1; bfd 2; nfd 3];
       p_actions := [(0%N, {| a_params := []; a_pre := []; a_effs := [eff 0 (EInt 2) (EBool true) KAssign false] |});
                     (1%N, {| a_params := []; a_pre := [ELe (fl0 0) (EInt 3)];
                              a_effs := [eff 3 (EPlus [fl0 0; EInt 1]) (EBool true) KAssign false;
                                         eff 2 (EBool true) (EBool true) KAssign true] |});
                     (2%N, {| a_params := []; a_pre := []; a_effs := [eff 3 (EInt 1) (fl0 2) KInc false] |})];
       p_goals := [fl0 2; EEquals (fl0 3) (EInt 4)]; p_invs := [] |}.
  Definition plan3 : list (N * list value) := [(0%N, []); (1%N, []); (2%N, [])].
  Definition plan3bad : list (N * list value) := [(1%N, []); (2%N, [])].
  Definition dflt (f : N) : Qc := zq 5.
End UinrW.

(* finding C07-uinr-guard-on-conditional-read: the guard is required although the effect does not fire *)
Lemma uinr_cond_read_incomplete :
  umap_ok UinrW.um UinrW.P2 = true /\ uinr_ok UinrW.um UinrW.P2 = false /\
  uinr_rel UinrW.um UinrW.s0 (uinr_init UinrW.um UinrW.dflt UinrW.s0) /\
  valid_plan false UinrW.P2 UinrW.s0 UinrW.plan2 = true /\
  valid_plan false (uinr_compile UinrW.um UinrW.P2) (uinr_init UinrW.um UinrW.dflt UinrW.s0) UinrW.plan2 = false /\
  uinr_ok UinrW.um UinrW.P2' = false /\
  valid_plan false UinrW.P2' UinrW.s0 UinrW.plan2 = true /\
  valid_plan false (uinr_compile UinrW.um UinrW.P2') (uinr_init UinrW.um UinrW.dflt UinrW.s0) UinrW.plan2 = false.
Proof.
  split; [vm_compute; reflexivity|]. split; [vm_compute; reflexivity|].
  split; [apply (uinr_init_rel UinrW.um UinrW.dflt UinrW.P2); vm_compute; reflexivity|].
  repeat split; vm_compute; reflexivity.
Qed.

Lemma uinr_nonvacuous :
  uinr_ok UinrW.um UinrW.P3 = true /\
  uinr_rel UinrW.um UinrW.s0 (uinr_init UinrW.um UinrW.dflt UinrW.s0) /\
  valid_plan false UinrW.P3 UinrW.s0 UinrW.plan3 = true /\
  valid_plan false (uinr_compile UinrW.um UinrW.P3) (uinr_init UinrW.um UinrW.dflt UinrW.s0) UinrW.plan3 = true /\
  valid_plan false UinrW.P3 UinrW.s0 UinrW.plan3bad = false /\
  valid_plan false (uinr_compile UinrW.um UinrW.P3) (uinr_init UinrW.um UinrW.dflt UinrW.s0) UinrW.plan3bad = false.
Proof.
  split; [vm_compute; reflexivity|].
  split; [apply (uinr_init_rel UinrW.um UinrW.dflt UinrW.P3); vm_compute; reflexivity|].
  repeat split; vm_compute; reflexivity.
Qed.

(* C06 / C07, Layer A — where the rows of the compiled-action tables come from (cer_table, dcr_table, ground_table of
   Compilers/LayerA_Variants.v and LayerA_Ground.v): membership facts only, no semantics. *)
From Coq Require Import List ZArith NArith Bool.
Import ListNotations.
Require Import UPV.Planning.Problem.
Require Import UPV.Compilers.Variants UPV.Compilers.LayerA_Variants UPV.Compilers.LayerA_Ground.

Lemma number_from_In {A} (l : list A) : forall n k x, In (k, x) (number_from n l) -> In x l.
Proof.
  induction l as [|y l IH]; intros n k x H; [destruct H|]. cbn [number_from] in H. destruct H as [H|H].
  - inversion H; subst. left; reflexivity.
  - right. eapply IH. exact H.
Qed.

Lemma In_number_from {A} (l : list A) x : In x l -> forall n, exists k, In (k, x) (number_from n l).
Proof.
  induction l as [|y l IH]; intros H n; [destruct H|]. destruct H as [->|H].
  - exists n. left; reflexivity.
  - destruct (IH H (S n)) as [k Hk]. exists k. right; exact Hk.
Qed.

(* [vt_actions] and [gt_actions] forget the middle component of a row *)
Lemma rows_actions_In {B C} (t : list (N * B * C)) id' c :
  In (id', c) (map (fun x => (fst (fst x), snd x)) t) -> exists b, In (id', b, c) t.
Proof.
  intros H. apply in_map_iff in H. destruct H as [[[x b] c'] [E Hin]].
  cbn [fst snd] in E. inversion E; subst. exists b. exact Hin.
Qed.

Lemma cer_table_In simp_pre nm P id' i a' : In (id', i, a') (cer_table simp_pre nm P) ->
  exists a, In (i, a) (p_actions P) /\
    ((is_cond_action a = false /\ id' = i /\ a' = a) \/
     (is_cond_action a = true /\ exists sel pre', In sel (ce_kept_sels a) /\
        simp_pre (a_pre (ce_variant a sel)) = Some pre' /\ a' = set_pre (ce_variant a sel) pre')).
Proof.
  unfold cer_table. intros H. apply in_flat_map in H. destruct H as [[j a] [Hin H]]. cbn [fst snd] in H.
  destruct (is_cond_action a) eqn:Ec.
  - apply in_map_iff in H. destruct H as [[k v] [E Hk]]. cbn [fst snd] in E. inversion E; subst.
    exists a. split; [exact Hin|]. right. split; [exact Ec|].
    apply number_from_In in Hk. unfold cer_variants in Hk. apply in_flat_map in Hk. destruct Hk as [sel [Hsel Hk]].
    destruct (simp_pre (a_pre (ce_variant a sel))) as [pre'|] eqn:Es; [|destruct Hk].
    destruct Hk as [<-|[]]. exists sel, pre'. repeat split; assumption.
  - destruct H as [H|[]]. inversion H; subst. exists a'. split; [exact Hin|]. left. repeat split. exact Ec.
Qed.

Lemma dcr_table_In cdnf pre_dnf nm P id' i a' : In (id', i, a') (dcr_table cdnf pre_dnf nm P) ->
  exists a d, In (i, a) (p_actions P) /\ In d (pre_dnf a) /\ a' = dnf_variant cdnf a d /\ dnf_kept a' = true.
Proof.
  unfold dcr_table. intros H. apply in_flat_map in H. destruct H as [[j a] [Hin H]]. cbn [fst snd] in H.
  apply in_map_iff in H. destruct H as [[k v] [E Hk]]. cbn [fst snd] in E. inversion E; subst.
  apply number_from_In in Hk. unfold dnf_variants in Hk. apply filter_In in Hk. destruct Hk as [Hk Hkept].
  apply in_map_iff in Hk. destruct Hk as [d [<- Hd]]. exists a, d. repeat split; assumption.
Qed.

Lemma ground_table_In smp tuples nm P id' i args g : In (id', (i, args), g) (ground_table smp tuples nm P) ->
  exists a, In (i, a) (p_actions P) /\ In args (tuples i) /\ g_action smp a args = Some g.
Proof.
  unfold ground_table. intros H. apply in_flat_map in H. destruct H as [[j a] [Hin H]]. cbn [fst snd] in H.
  apply in_flat_map in H. destruct H as [[k t] [Hk H]]. cbn [fst snd] in H.
  destruct (g_action smp a t) as [g0|] eqn:Eg; [|destruct H]. destruct H as [H|[]]. inversion H; subst.
  exists a. split; [exact Hin|]. split; [eapply number_from_In; exact Hk | exact Eg].
Qed.

Lemma In_cer_table_plain simp_pre nm P i a :
  In (i, a) (p_actions P) -> is_cond_action a = false -> In (i, i, a) (cer_table simp_pre nm P).
Proof.
  intros Ha Ec. unfold cer_table. apply in_flat_map. exists (i, a). split; [exact Ha|]. cbn [fst snd]. rewrite Ec.
  left; reflexivity.
Qed.

Lemma In_cer_table_variant simp_pre nm P i a sel pre' :
  In (i, a) (p_actions P) -> is_cond_action a = true -> In sel (ce_kept_sels a) ->
  simp_pre (a_pre (ce_variant a sel)) = Some pre' ->
  exists k, In (nm i k, i, set_pre (ce_variant a sel) pre') (cer_table simp_pre nm P).
Proof.
  intros Ha Ec Hsel Es.
  assert (Hv : In (set_pre (ce_variant a sel) pre') (cer_variants simp_pre a)).
  { unfold cer_variants. apply in_flat_map. exists sel. split; [exact Hsel|]. rewrite Es. left; reflexivity. }
  destruct (In_number_from _ _ Hv 0) as [k Hk]. exists k.
  unfold cer_table. apply in_flat_map. exists (i, a). split; [exact Ha|]. cbn [fst snd]. rewrite Ec.
  apply in_map_iff. exists (k, set_pre (ce_variant a sel) pre'). split; [reflexivity | exact Hk].
Qed.

Lemma In_dcr_table cdnf pre_dnf nm P i a d :
  In (i, a) (p_actions P) -> In d (pre_dnf a) -> dnf_kept (dnf_variant cdnf a d) = true ->
  exists k, In (nm i k, i, dnf_variant cdnf a d) (dcr_table cdnf pre_dnf nm P).
Proof.
  intros Ha Hd Ek.
  assert (Hv : In (dnf_variant cdnf a d) (dnf_variants cdnf a (pre_dnf a))).
  { unfold dnf_variants. apply filter_In. split; [apply in_map; exact Hd | exact Ek]. }
  destruct (In_number_from _ _ Hv 0) as [k Hk]. exists k.
  unfold dcr_table. apply in_flat_map. exists (i, a). split; [exact Ha|]. cbn [fst snd].
  apply in_map_iff. exists (k, dnf_variant cdnf a d). split; [reflexivity | exact Hk].
Qed.

Lemma In_ground_table smp tuples nm P i a args g :
  In (i, a) (p_actions P) -> In args (tuples i) -> g_action smp a args = Some g ->
  exists k, In (nm i k, (i, args), g) (ground_table smp tuples nm P).
Proof.
  intros Ha Htu Eg. destruct (In_number_from _ _ Htu 0) as [k Hk]. exists k.
  unfold ground_table. apply in_flat_map. exists (i, a). split; [exact Ha|]. cbn [fst snd].
  apply in_flat_map. exists (k, args). split; [exact Hk|]. cbn [fst snd]. rewrite Eg. left; reflexivity.
Qed.

(* Proofs about Planning/Ground.v (the grounding step of the sequential simulator, C01).  [psubst_eval]: evaluating the
   substituted expression without parameters = evaluating the original with the parameters bound; with C11's soundness
   of the simplifier the grounded preconditions and effects evaluate like the original ones wherever those are defined
   ([ground_pre_spec], [ground_effects_fired]), which gives the step theorems; the three deviations are witnesses inside
   the model. *)
From Coq Require Import List ZArith NArith QArith Qcanon Bool Lia.
Import ListNotations.
Require Import UPV.Core.Expr UPV.Core.Eval UPV.Core.Interp UPV.Planning.Problem UPV.Planning.Sem UPV.Planning.Ground
  UPV.Walkers.Simplify.
Require Import UPV.Proofs.Eval_lemmas UPV.Proofs.Sem_proofs UPV.Proofs.Step_proofs UPV.Proofs.Simplify_proofs.
Require Import UPV.Compilers.Variants UPV.Compilers.LayerA_Defs UPV.Compilers.LayerA_Variants UPV.Compilers.LayerA_Ground.
Require Import UPV.Proofs.LayerA_base UPV.Proofs.ListFacts UPV.Proofs.ExprView UPV.Proofs.EvalView UPV.Proofs.Psubst_view UPV.Proofs.Variants_proofs.
Local Open Scope nat_scope.

Lemma value_expr_const v : is_const (value_expr v) = true.
Proof. destruct v as [b|q|o]; try reflexivity. unfold value_expr, num_node. destruct (_ =? _)%Z; reflexivity. Qed.

Lemma cvalue_value_expr v : cvalue (value_expr v) = Some v.
Proof.
  destruct v as [b|q|o]; try reflexivity. unfold value_expr, num_node.
  destruct (Zpos (Qden (this q)) =? 1)%Z eqn:E; [|reflexivity].
  apply Z.eqb_eq in E. cbn [cvalue]. rewrite (zq_num_den1 q E). reflexivity.
Qed.

Lemma const_value_cvalue e : const_value e = cvalue e.
Proof. destruct e; reflexivity. Qed.
Lemma const_values_cvalues l : const_values l = cvalues l.
Proof. induction l as [|x r IH]; [reflexivity|]. cbn [const_values cvalues]. rewrite const_value_cvalue, IH. reflexivity. Qed.

(* the grounder's simplifier configuration satisfies C11's condition on its tables *)
Lemma gcfg_consts T P : cfg_consts (gcfg T P).
Proof.
  split; cbn [gcfg stat itab]; intros f a c H; [discriminate|].
  destruct (const_values a); [|discriminate]. destruct (lookup_app f l (p_ifun P)); [|discriminate].
  inversion H. apply value_expr_const.
Qed.

(* [I] binds the parameters as [sg] says, [I'] binds none; everything else is the same *)
Definition prel (sg : list (N * value)) (I I' : interp) : Prop :=
  (forall f a, fl I f a = fl I' f a) /\ (forall p, par I p = lookupN p sg) /\ (forall p, par I' p = None) /\
  (forall v, var I v = var I' v) /\ (forall f a, ifun I f a = ifun I' f a) /\ (forall t, objs I t = objs I' t).

Lemma prel_bind sg I I' v o : prel sg I I' -> prel sg (bind_var I v o) (bind_var I' v o).
Proof.
  intros (H1 & H2 & H3 & H4 & H5 & H6). repeat split; simpl; auto. intros w. destruct (w =? v)%N; auto.
Qed.

Lemma prel_instances sg vs : forall I I', prel sg I I' -> Forall2 (prel sg) (instances I vs) (instances I' vs).
Proof.
  apply instances_Forall2; [intros I I' (_ & _ & _ & _ & _ & H6); exact H6 | intros I I' v o; apply prel_bind].
Qed.

Lemma prel_mk_interp P s sg : prel sg (mk_interp P s sg) (mk_interp P s []).
Proof. repeat split. Qed.

Lemma psubst_eval sc sg e : forall I I', prel sg I I' -> eval sc (psubst sg e) I' = eval sc e I.
Proof.
  induction e as [e Hl|o a IHe|o a b IHe1 IHe2|o l H|ex vs a IHe] using expr_view_ind; intros I I' HP.
  - rewrite psubst_leaf by exact Hl. destruct HP as (_ & H2 & H3 & H4 & _). destruct e; try discriminate; try reflexivity; cbn [eval].
    + rewrite H2. destruct (lookupN p sg) as [v|]; [apply eval_value_expr | cbn [eval]; apply H3].
    + symmetry. apply H4.
  - rewrite psubst_E1, !eval_E1, (IHe I I' HP). reflexivity.
  - rewrite psubst_E2, !eval_E2, (IHe1 I I' HP), (IHe2 I I' HP). reflexivity.
  - rewrite psubst_En, !eval_En. pose proof HP as (H1 & _ & _ & _ & H5 & _). apply semn_ext; [|auto|auto].
    apply Forall2_map_self. eapply Forall_impl; [|exact H]. intros x Hx. apply Hx. exact HP.
  - rewrite psubst_EQ, !eval_EQ.
    rewrite (Forall2_map_eq (prel sg) (fun J => as_bool (eval sc a J)) (fun J => as_bool (eval sc (psubst sg a) J))
               _ _ (prel_instances sg vs I I' HP)); [reflexivity|].
    intros J J' HJ. rewrite (IHe J J' HJ). reflexivity.
Qed.

Lemma forallb_map_eq {A} (p : A -> bool) (f : A -> A) l :
  Forall (fun x => p (f x) = p x) l -> forallb p (map f l) = forallb p l.
Proof. induction 1 as [|x l Hx _ IH]; [reflexivity|]. cbn [map forallb]. rewrite Hx, IH. reflexivity. Qed.

Lemma qfree_psubst sg e : qfree (psubst sg e) = qfree e.
Proof.
  induction e as [e Hl|o a IHe|o a b IHe1 IHe2|o l H|ex vs a IHe] using expr_view_ind.
  - rewrite psubst_leaf by exact Hl. destruct e; try reflexivity.
    destruct (lookupN p sg); [apply (c_const _ comp_qfree), value_expr_const | reflexivity].
  - rewrite psubst_E1, !qfree_E1. exact IHe.
  - rewrite psubst_E2, !qfree_E2, IHe1, IHe2. reflexivity.
  - rewrite psubst_En, !qfree_En. apply forallb_map_eq. exact H.
  - rewrite psubst_EQ, !qfree_EQ. reflexivity.
Qed.

Lemma wfx_psubst tau QT sg e : forall S, wfx tau QT S (psubst sg e) = wfx tau QT S e.
Proof.
  induction e as [e Hl|o a IHe|o a b IHe1 IHe2|o l H|ex vs a IHe] using expr_view_ind; intros S.
  - rewrite psubst_leaf by exact Hl. destruct e; try reflexivity.
    destruct (lookupN p sg); [apply (c_const _ (comp_wfx tau QT S)), value_expr_const | reflexivity].
  - rewrite psubst_E1, !wf_E1. apply IHe.
  - rewrite psubst_E2, !wf_E2, IHe1, IHe2. reflexivity.
  - rewrite psubst_En, !wf_En. apply forallb_map_eq. eapply Forall_impl; [|exact H].
    intros x Hx. cbv beta. rewrite qfree_psubst, Hx. reflexivity.
  - rewrite psubst_EQ, !wf_EQ, IHe. reflexivity.
Qed.

(* Static side conditions (C11's [wfx], per expression of the action): variable annotations follow [tau], quantifiers
   bind distinct, quantifiable ([QT]: inhabited), unshadowed variables, fluent arguments are quantifier-free; the forall
   variables of an effect are the scope of its three expressions, typed by [tau] and pairwise distinct. *)
Definition eff_exprs (e : effect) : list expr := e_cond e :: e_val e :: e_args e.

Definition binders_typed (tau : N -> N) (vs : list (N * N)) : bool :=
  forallb (fun p => (snd p =? tau (fst p))%N) vs && nodupb (map fst vs).

Definition effect_wf_b (tau : N -> N) (QT : N -> bool) (e : effect) : bool :=
  binders_typed tau (e_vars e) && forallb (wfx tau QT (map fst (e_vars e))) (eff_exprs e).

Definition ground_wf_b (tau : N -> N) (QT : N -> bool) (a : action) : bool :=
  forallb (wfx tau QT []) (a_pre a) && forallb (effect_wf_b tau QT) (a_effs a).

Lemma eval_any_sc sc e I v : eval false e I = Some v -> eval sc e I = Some v.
Proof. destruct sc; [apply eval_sc_refines | auto]. Qed.

Lemma holds_any_sc sc I c b : eval false c I = Some (VBool b) -> holds sc I c = b.
Proof. intros H. unfold holds. rewrite (eval_any_sc sc c I _ H). destruct b; reflexivity. Qed.

(* "the strict documented step is defined on total information": every precondition has a Boolean value, every effect
   instance can be evaluated (target arguments, condition, and the value when the condition is true), and every state
   invariant / bounded-type constraint has a value in the successor the effects produce *)
Definition pre_defined (I0 : interp) (pre : list expr) : Prop :=
  forall c, In c pre -> exists b, eval false c I0 = Some (VBool b).

Record step_defined (P : problem) (s : state) (a : action) (args : list value) : Prop := {
  sd_pre : pre_defined (mk_interp P s (zip_params (a_params a) args)) (a_pre a);
  sd_eff : fired false (mk_interp P s (zip_params (a_params a) args)) (a_effs a) <> None;
  sd_inv : forall acts, fired false (mk_interp P s (zip_params (a_params a) args)) (a_effs a) = Some acts ->
           forall c, In c (p_invs P ++ bound_invs P) -> eval false c (mk_interp P (spec_succ P s acts) []) <> None
}.

Lemma holds_sc_defined sc I c : eval false c I <> None -> holds sc I c = holds false I c.
Proof.
  intros H. unfold holds. destruct (eval false c I) as [v|] eqn:E; [|contradiction H; reflexivity].
  rewrite (eval_any_sc sc c I v E). reflexivity.
Qed.

Lemma all_hold_sc_defined_gen sc I l :
  (forall c, In c l -> eval false c I <> None) -> all_hold sc I l = all_hold false I l.
Proof. intros H. apply forallb_ext_in. intros c Hc. apply holds_sc_defined, H, Hc. Qed.

Lemma all_hold_sc_defined sc I l : pre_defined I l -> all_hold sc I l = all_hold false I l.
Proof. intros H. apply all_hold_sc_defined_gen. intros c Hc. destruct (H c Hc) as [b Hb]. rewrite Hb. discriminate. Qed.

Lemma all_hold_true_defined I l : all_hold false I l = true -> pre_defined I l.
Proof.
  unfold all_hold. rewrite forallb_forall. intros H c Hc. specialize (H c Hc). unfold holds in H.
  destruct (eval false c I) as [[[|]| |]|]; try discriminate. exists true. reflexivity.
Qed.

Lemma ebools_defined I l : pre_defined I l -> ebools false I l = Some (map (holds false I) l).
Proof.
  induction l as [|x l IH]; intros H; [reflexivity|]. cbn [ebools map].
  destruct (H x (or_introl eq_refl)) as [b Hb]. rewrite Hb. cbn [as_bool].
  rewrite IH by (intros c Hc; apply H; right; exact Hc).
  rewrite (holds_any_sc false I x b Hb). reflexivity.
Qed.

Lemma eval_EAnd_defined I l : pre_defined I l -> eval false (EAnd l) I = Some (VBool (all_hold false I l)).
Proof.
  intros H. rewrite eval_EAnd, (ebools_defined I l H). unfold all_hold. do 2 f_equal. apply (forallb_map (fun b => b)).
Qed.

(* check_and_simplify_preconditions of the grounder, for any simplifier ([ground_pre G] is [g_pre (gsimp G)]) *)
Lemma g_pre_parts smp sg pre :
  g_pre smp sg pre = match pre with [] => Some [] | _ => pre_parts (smp (mkAnd (map (psubst sg) pre))) end.
Proof. destruct pre; [reflexivity|]. unfold g_pre, pre_parts. destruct (smp _); reflexivity. Qed.

Lemma g_pre_holds smp sg pre sc Ig I0 :
  holds sc Ig (smp (mkAnd (map (psubst sg) pre))) = all_hold false I0 pre ->
  match g_pre smp sg pre with
  | Some l => all_hold sc Ig l = all_hold false I0 pre
  | None => all_hold false I0 pre = false
  end.
Proof.
  intros E. rewrite g_pre_parts. destruct pre as [|c pre0]; [reflexivity|].
  pose proof (pre_parts_spec sc Ig (smp (mkAnd (map (psubst sg) (c :: pre0))))) as S. rewrite E in S. exact S.
Qed.

Lemma collect_res_noerr l : collect_res l <> None -> Forall (fun r => r <> EErr) l.
Proof.
  induction l as [|r l IH]; intros H; constructor.
  - intros ->. apply H. reflexivity.
  - apply IH. intros E. apply H. destruct r; cbn [collect_res]; rewrite ?E; reflexivity.
Qed.

Lemma fired_defined I effs e : fired false I effs <> None -> In e effs -> Forall (fun r => r <> EErr) (piece I e).
Proof.
  unfold fired. intros H He. apply collect_res_noerr in H. rewrite Forall_flat_map, Forall_forall in H. exact (H e He).
Qed.

Lemma eval_effect_kept sc sc' J J' e e' :
  e_fl e' = e_fl e -> e_kind e' = e_kind e ->
  (forall vs, evals_l sc J (e_args e) = Some vs -> evals_l sc' J' (e_args e') = Some vs) ->
  (forall v, eval sc (e_cond e) J = Some v -> eval sc' (e_cond e') J' = Some v) ->
  (forall v, eval sc (e_val e) J = Some v -> eval sc' (e_val e') J' = Some v) ->
  eval_effect sc J e <> EErr -> eval_effect sc' J' e' = eval_effect sc J e.
Proof.
  intros Ef Ek Ha Hc Hv HN. unfold eval_effect in *. rewrite Ef, Ek.
  destruct (evals_l sc J (e_args e)) as [vs|]; [|contradiction HN; reflexivity]. rewrite (Ha vs eq_refl).
  destruct (eval sc (e_cond e) J) as [cv|]; [|contradiction HN; reflexivity]. rewrite (Hc cv eq_refl).
  destruct cv as [[|]| |]; try reflexivity.
  destruct (eval sc (e_val e) J) as [v|]; [|contradiction HN; reflexivity]. rewrite (Hv v eq_refl). reflexivity.
Qed.

Lemma evals_l_kept sc sc' J J' (f : expr -> expr) l :
  (forall x v, In x l -> eval sc x J = Some v -> eval sc' (f x) J' = Some v) ->
  forall vs, evals_l sc J l = Some vs -> evals_l sc' J' (map f l) = Some vs.
Proof.
  induction l as [|x l IH]; intros H vs E; cbn [evals_l map] in *; [exact E|].
  destruct (eval sc x J) as [v|] eqn:Ex; [|discriminate]. rewrite (H x v (or_introl eq_refl) Ex).
  destruct (evals_l sc J l) as [vl|]; [|discriminate].
  rewrite (IH (fun y w Hy => H y w (or_intror Hy)) vl eq_refl). exact E.
Qed.

Lemma eval_effect_any_sc sc J e : eval_effect false J e <> EErr -> eval_effect sc J e = eval_effect false J e.
Proof.
  apply eval_effect_kept; [reflexivity | reflexivity | | intros v; apply eval_any_sc | intros v; apply eval_any_sc].
  intros vs E. rewrite <- (map_id (e_args e)). revert vs E. apply evals_l_kept. intros x v _. apply eval_any_sc.
Qed.

Lemma fired_any_sc sc I effs : fired false I effs <> None -> fired sc I effs = fired false I effs.
Proof.
  intros H. unfold fired. f_equal. apply flat_map_ext_in. intros e He. apply map_ext_in. intros J HJ.
  apply eval_effect_any_sc. pose proof (fired_defined I effs e H He) as F. unfold piece in F.
  rewrite Forall_map, Forall_forall in F. exact (F J HJ).
Qed.

Lemma Forall2_map_eq_in {A B} (R : A -> A -> Prop) (f g : A -> B) l l' :
  Forall2 R l l' -> (forall x y, In x l -> In y l' -> R x y -> f x = g y) -> map f l = map g l'.
Proof.
  induction 1 as [|a b l l' Hab _ IH]; intros H'; simpl; [reflexivity|]. f_equal.
  - apply H'; [left; reflexivity | left; reflexivity | exact Hab].
  - apply IH. intros x y Hx Hy. apply H'; right; assumption.
Qed.

Lemma strip_all_skip {A} (f : A -> Sem.eres) l : (forall x, In x l -> f x = ESkip) -> strip (map f l) = [].
Proof.
  induction l as [|x l IH]; intros H; [reflexivity|]. cbn [map strip filter].
  rewrite (H x (or_introl eq_refl)). cbn [is_skip negb]. apply IH. intros y Hy. apply H. right; exact Hy.
Qed.

(* the effects of the ground action fire like the original ones as soon as, instance by instance, an effect that is kept
   evaluates alike and one that is dropped is skipped *)
Lemma fired_g_effects smp sg I0 Ig effs :
  prel sg I0 Ig ->
  (forall e ge, In e effs -> g_effect smp sg e = Some ge -> e_vars ge = e_vars e) ->
  (forall e J0 Jg, In e effs -> In J0 (instances I0 (e_vars e)) -> In Jg (instances Ig (e_vars e)) -> prel sg J0 Jg ->
     match g_effect smp sg e with
     | Some ge => eval_effect false Jg ge = eval_effect false J0 e
     | None => eval_effect false J0 e = ESkip
     end) ->
  fired false Ig (g_effects smp sg effs) = fired false I0 effs.
Proof.
  intros HP HV HI. rewrite !fired_eres, collect_res_strip, (collect_res_strip (eres_of I0 effs)). f_equal.
  unfold g_effects. rewrite eres_of_flat_map. apply strip_flat_map. intros e He.
  pose proof (prel_instances sg (e_vars e) I0 Ig HP) as F. specialize (HI e).
  destruct (g_effect smp sg e) as [ge|] eqn:EG.
  - rewrite eres_of_one. unfold piece. rewrite (HV e ge He EG). f_equal. symmetry.
    apply (Forall2_map_eq_in (prel sg) _ _ _ _ F). intros J0 Jg H0 Hg HR. symmetry. exact (HI J0 Jg He H0 Hg HR).
  - symmetry. apply strip_all_skip. intros J0 H0. destruct (Forall2_In_l _ _ _ J0 F H0) as [Jg [Hg HR]].
    exact (HI J0 Jg He H0 Hg HR).
Qed.

(* the syntactic conflict check decides only WHETHER there is a result *)
Lemma ground_effects_some G sg effs : forall st geffs,
  ground_effects G sg effs st = Some geffs -> geffs = g_effects (gsimp G) sg effs.
Proof.
  induction effs as [|e r IH]; intros st geffs H; cbn [ground_effects] in H; [injection H as <-; reflexivity|].
  unfold g_effects. cbn [flat_map]. change (g_effect (gsimp G) sg e) with (ground_effect G sg e).
  destruct (ground_effect G sg e) as [ge|]; [|exact (IH st geffs H)].
  destruct (syn_check ge st) as [st'|]; [|discriminate].
  destruct (ground_effects G sg r st') as [l|] eqn:EL; [|discriminate]. injection H as <-. rewrite (IH st' l EL). reflexivity.
Qed.

Section Ground.
  Variables (T : tytab) (P : problem) (tau : N -> N) (QT : N -> bool).
  Notation G := (gcfg T P).

  Lemma gsimp_sound sg S e I0 Ig v :
    prel sg I0 Ig -> env_ok G tau QT Ig -> wfx tau QT S e = true ->
    eval false e I0 = Some v -> eval false (gsimp G (psubst sg e)) Ig = Some v.
  Proof.
    intros HP HE W Hv. unfold gsimp.
    apply (simp_sound_any_fuel G tau QT S _ _ Ig v (gcfg_consts T P)); [rewrite wfx_psubst; exact W | exact HE |].
    rewrite (psubst_eval false sg e I0 Ig HP). exact Hv.
  Qed.

  (* check_and_simplify_preconditions: None exactly when the (defined) preconditions do not all hold, otherwise the new
     preconditions hold exactly when the old ones do, under either quantifier mode *)
  Lemma ground_pre_spec sg I0 Ig pre :
    prel sg I0 Ig -> env_ok G tau QT Ig -> forallb (wfx tau QT []) pre = true -> pre_defined I0 pre ->
    match ground_pre G sg pre with
    | None => all_hold false I0 pre = false
    | Some l => forall sc, all_hold sc Ig l = all_hold false I0 pre
    end.
  Proof.
    intros HP HE W HD.
    assert (EV : eval false (gsimp G (mkAnd (map (psubst sg) pre))) Ig = Some (VBool (all_hold false I0 pre))).
    { unfold gsimp. apply (simp_sound_any_fuel G tau QT [] _ _ Ig _ (gcfg_consts T P)); [|exact HE|].
      - apply (P_mkn _ (comp_wfx tau QT []) NAnd); [reflexivity|]. rewrite forallb_map. rewrite <- W. apply forallb_ext. intros x. apply wfx_psubst.
      - apply mkAnd_R. change (EAnd (map (psubst sg) pre)) with (psubst sg (EAnd pre)).
        rewrite (psubst_eval false sg (EAnd pre) I0 Ig HP). apply eval_EAnd_defined. exact HD. }
    pose proof (fun sc => g_pre_holds (gsimp G) sg pre sc Ig I0 (holds_any_sc sc Ig _ _ EV)) as S.
    change (ground_pre G sg pre) with (g_pre (gsimp G) sg pre). destruct (g_pre _ sg pre); [exact S | exact (S false)].
  Qed.

  Lemma effect_wf_b_spec e :
    effect_wf_b tau QT e = true ->
    (forall p, In p (e_vars e) -> snd p = tau (fst p)) /\ NoDup (map fst (e_vars e)) /\
    forallb (wfx tau QT (map fst (e_vars e))) (eff_exprs e) = true.
  Proof.
    unfold effect_wf_b, binders_typed. rewrite !andb_true_iff, forallb_forall, nodupb_NoDup.
    intros [[A B] C]. split; [|split; assumption]. intros p Hp. apply N.eqb_eq. apply A. exact Hp.
  Qed.

  (* one instance of one effect: kept, it evaluates like the original; it is dropped only when the original is skipped *)
  Lemma ground_effect_instance sg e J0 Jg :
    prel sg J0 Jg -> env_ok G tau QT Jg -> forallb (wfx tau QT (map fst (e_vars e))) (eff_exprs e) = true ->
    eval_effect false J0 e <> EErr ->
    match ground_effect G sg e with
    | Some ge => eval_effect false Jg ge = eval_effect false J0 e
    | None => eval_effect false J0 e = ESkip
    end.
  Proof.
    intros HP HE W HN. rewrite forallb_forall in W.
    assert (S : forall x v, In x (eff_exprs e) -> eval false x J0 = Some v -> eval false (gsimp G (psubst sg x)) Jg = Some v).
    { intros x v Hx. apply (gsimp_sound sg (map fst (e_vars e)) x J0 Jg v HP HE), W, Hx. }
    unfold ground_effect. destruct (is_false (gsimp G (psubst sg (e_cond e)))) eqn:EF.
    - apply is_false_eq in EF. unfold eval_effect in *.
      destruct (evals_l false J0 (e_args e)) as [vs|]; [|contradiction HN; reflexivity].
      destruct (eval false (e_cond e) J0) as [cv|] eqn:EC; [|contradiction HN; reflexivity].
      pose proof (S _ cv (or_introl eq_refl) EC) as HS. rewrite EF in HS. injection HS as <-. reflexivity.
    - apply eval_effect_kept; cbn [e_fl e_kind e_args e_cond e_val]; [reflexivity | reflexivity | | | | exact HN].
      + apply evals_l_kept. intros x v Hx. apply S. right. right. exact Hx.
      + intros v. apply S. left. reflexivity.
      + intros v. apply S. right. left. reflexivity.
  Qed.

  Lemma ground_effects_fired sg I0 Ig effs :
    prel sg I0 Ig -> env_ok G tau QT Ig -> forallb (effect_wf_b tau QT) effs = true ->
    fired false I0 effs <> None ->
    (forall e ge, In e effs -> ground_effect G sg e = Some ge -> e_vars ge = e_vars e) ->
    fired false Ig (g_effects (gsimp G) sg effs) = fired false I0 effs.
  Proof.
    intros HP HE W HF HV. rewrite forallb_forall in W. apply (fired_g_effects _ _ _ _ _ HP HV).
    intros e J0 Jg He H0 Hg HR. destruct (effect_wf_b_spec e (W e He)) as (WT & WN & WX).
    pose proof (fired_defined I0 effs e HF He) as HN. unfold piece in HN. rewrite Forall_map, Forall_forall in HN.
    exact (ground_effect_instance sg e J0 Jg HR (env_ok_inst G tau QT Ig _ Jg HE WT WN Hg) WX (HN J0 H0)).
  Qed.
End Ground.

Lemma vars_dropped_false T P a args :
  vars_dropped T P a args = false ->
  forall e ge, In e (a_effs a) -> ground_effect (gcfg T P) (zip_params (a_params a) args) e = Some ge ->
               e_vars ge = e_vars e.
Proof.
  unfold vars_dropped. intros H e ge He HG. pose proof (existsb_false_in _ _ H e He) as X. cbv beta in X.
  rewrite HG in X. apply vars_eqb_eq, negb_false_iff, X.
Qed.

Lemma ground_wf_b_spec tau QT a :
  ground_wf_b tau QT a = true ->
  forallb (wfx tau QT []) (a_pre a) = true /\ forallb (effect_wf_b tau QT) (a_effs a) = true.
Proof. unfold ground_wf_b. rewrite andb_true_iff. tauto. Qed.

(* With every read defined, no syntactic conflict and no vanishing forall variable, grounding (substitution +
   simplification) changes NOTHING: the simulator's step on the grounded action is its step on the action with the
   parameters bound, for either quantifier mode (Leibniz equality of the results). *)
Theorem grounded_eq_ungrounded sc T P tau QT s a args :
  ground_wf_b tau QT a = true ->
  env_ok (gcfg T P) tau QT (mk_interp P s []) ->
  pre_defined (mk_interp P s (zip_params (a_params a) args)) (a_pre a) ->
  fired false (mk_interp P s (zip_params (a_params a) args)) (a_effs a) <> None ->
  ground_conflict T P a args = false ->
  vars_dropped T P a args = false ->
  sim_apply_grounded sc T P s a args = sim_apply sc P s a args.
Proof.
  intros W HE HD HF HC HV. destruct (ground_wf_b_spec tau QT a W) as [Wp We].
  set (sg := zip_params (a_params a) args) in *.
  set (I0 := mk_interp P s sg) in *. set (Ig := mk_interp P s []) in *.
  assert (HP : prel sg I0 Ig) by apply prel_mk_interp.
  unfold sim_apply_grounded, ground_action. fold sg.
  unfold ground_conflict in HC. fold sg in HC.
  destruct (ground_effects (gcfg T P) sg (a_effs a) ([], [])) as [geffs|] eqn:EG; [|discriminate].
  pose proof (ground_pre_spec T P tau QT sg I0 Ig (a_pre a) HP HE Wp HD) as PS.
  unfold sim_apply. fold sg. fold I0.
  rewrite (all_hold_sc_defined sc I0 (a_pre a) HD).
  destruct (ground_pre (gcfg T P) sg (a_pre a)) as [gpre|].
  - cbn [a_params a_pre a_effs zip_params]. fold Ig. rewrite (PS sc).
    assert (EF : fired false Ig geffs = fired false I0 (a_effs a)).
    { rewrite (ground_effects_some _ _ _ _ _ EG).
      exact (ground_effects_fired T P tau QT sg I0 Ig (a_effs a) HP HE We HF (vars_dropped_false T P a args HV)). }
    rewrite (fired_any_sc sc Ig geffs) by (rewrite EF; exact HF).
    rewrite EF, (fired_any_sc sc I0 (a_effs a) HF). reflexivity.
  - rewrite PS. reflexivity.
Qed.

Lemma spec_step_any_sc sc P s a args :
  step_defined P s a args -> spec_step sc P s a args = spec_step false P s a args.
Proof.
  intros [HD HF HI]. unfold spec_step.
  rewrite (all_hold_sc_defined sc _ _ HD), (fired_any_sc sc _ _ HF).
  destruct (negb _); [reflexivity|].
  destruct (fired false _ (a_effs a)) as [acts|] eqn:EF; [|reflexivity].
  destruct (negb _); [reflexivity|].
  unfold invariants_ok. rewrite (all_hold_sc_defined_gen sc _ _ (HI acts eq_refl)). reflexivity.
Qed.

(* (a) the grounded step of the code (short-circuit quantifiers) is the strict documented step *)
Theorem grounded_refines_semantic T P tau QT s a args :
  ground_wf_b tau QT a = true ->
  env_ok (gcfg T P) tau QT (mk_interp P s []) ->
  step_defined P s a args ->
  effects_typed false P s a args ->
  ground_conflict T P a args = false ->
  vars_dropped T P a args = false ->
  ostate_eq (sim_apply_grounded true T P s a args) (spec_step false P s a args).
Proof.
  intros W HE SD ET HC HV.
  rewrite (grounded_eq_ungrounded true T P tau QT s a args W HE (sd_pre _ _ _ _ SD) (sd_eff _ _ _ _ SD) HC HV).
  rewrite <- (spec_step_any_sc true P s a args SD).
  apply sim_apply_refines_spec.
  intros acts HA. apply ET. rewrite <- HA. symmetry. apply fired_any_sc. exact (sd_eff _ _ _ _ SD).
Qed.

(* the same with strict quantifiers on both sides: no hypothesis on the invariants is needed.  Read contrapositively it
   classifies a deviation: when the grounded action, evaluated STRICTLY, behaves differently from the strict documented
   step although nothing conflicts syntactically and no forall variable vanished, then some precondition has no
   Boolean value or some effect instance cannot be evaluated in the state — simplification removed a read of a fluent
   without value (Corr_C01g bit 13) *)
Theorem grounded_strict_refines_semantic T P tau QT s a args :
  ground_wf_b tau QT a = true ->
  env_ok (gcfg T P) tau QT (mk_interp P s []) ->
  pre_defined (mk_interp P s (zip_params (a_params a) args)) (a_pre a) ->
  fired false (mk_interp P s (zip_params (a_params a) args)) (a_effs a) <> None ->
  effects_typed false P s a args ->
  ground_conflict T P a args = false ->
  vars_dropped T P a args = false ->
  ostate_eq (sim_apply_grounded false T P s a args) (spec_step false P s a args).
Proof.
  intros W HE HD HF ET HC HV.
  rewrite (grounded_eq_ungrounded false T P tau QT s a args W HE HD HF HC HV).
  apply sim_apply_refines_spec. exact ET.
Qed.

Lemma spec_step_some_defined P s a args s' : spec_step false P s a args = Some s' -> step_defined P s a args.
Proof.
  intros H. destruct (spec_step_inv _ _ _ _ _ _ H) as (EP & acts & EF & _ & -> & EI). constructor.
  - apply all_hold_true_defined. exact EP.
  - rewrite EF. discriminate.
  - intros acts' HA. rewrite EF in HA. injection HA as <-. intros c Hc.
    destruct (all_hold_true_defined _ _ EI c Hc) as [b ->]. discriminate.
Qed.

(* (c) never less defined: an applicable strict documented step is applicable in the grounded model, with the same
   successor — unless grounding itself rejects the action syntactically or loses a forall variable (the two deviations
   below show that these two hypotheses cannot be dropped) *)
Theorem grounded_never_less_defined T P tau QT s a args s' :
  spec_step false P s a args = Some s' ->
  ground_wf_b tau QT a = true ->
  env_ok (gcfg T P) tau QT (mk_interp P s []) ->
  effects_typed false P s a args ->
  ground_conflict T P a args = false ->
  vars_dropped T P a args = false ->
  exists t, sim_apply_grounded true T P s a args = Some t /\ state_eq t s'.
Proof.
  intros HS W HE ET HC HV.
  pose proof (grounded_refines_semantic T P tau QT s a args W HE (spec_step_some_defined P s a args s' HS) ET HC HV) as R.
  rewrite HS in R. destruct (sim_apply_grounded true T P s a args) as [t|]; [|contradiction].
  exists t. split; [reflexivity | exact R].
Qed.

(* the precondition part needs no hypothesis on the effects: preconditions that hold under the strict reading are never
   lost by check_and_simplify_preconditions *)
Theorem ground_pre_never_less_satisfied T P tau QT s a args :
  forallb (wfx tau QT []) (a_pre a) = true ->
  env_ok (gcfg T P) tau QT (mk_interp P s []) ->
  all_hold false (mk_interp P s (zip_params (a_params a) args)) (a_pre a) = true ->
  exists l, ground_pre (gcfg T P) (zip_params (a_params a) args) (a_pre a) = Some l /\
            forall sc, all_hold sc (mk_interp P s []) l = true.
Proof.
  intros W HE HA.
  pose proof (ground_pre_spec T P tau QT _ _ _ (a_pre a) (prel_mk_interp P s _) HE W (all_hold_true_defined _ _ HA)) as PS.
  destruct (ground_pre (gcfg T P) (zip_params (a_params a) args) (a_pre a)) as [l|].
  - exists l. split; [reflexivity|]. intros sc. rewrite (PS sc). exact HA.
  - rewrite HA in PS. discriminate.
Qed.

Definition qt_of (P : problem) : N -> bool := fun t => match objs_of P t with [] => false | _ => true end.

Definition anc_of (T : tytab) (t : N) : list N := match lookupN t (tt_anc T) with Some l => l | None => [] end.

(* the type table is consistent with the problem's object lists: an object belongs to the list of its type, the list of
   a type is contained in the lists of its ancestors, two types that share an object are related *)
Definition tytab_ok_b (T : tytab) (P : problem) : bool :=
  forallb (fun ot => memN (fst ot) (objs_of P (snd ot))) (tt_obj T) &&
  forallb (fun bl => forallb (fun a => forallb (fun o => memN o (objs_of P a)) (snd bl)) (anc_of T (fst bl))) (p_objs P) &&
  forallb (fun al => forallb (fun bl => forallb (fun o =>
             negb (memN o (snd bl)) || compat (gcfg T P) (fst al) (fst bl) || compat (gcfg T P) (fst bl) (fst al))
             (snd al)) (p_objs P)) (p_objs P).

(* object-valued fluents hold objects of their declared type *)
Definition state_typed (P : problem) (s : state) : Prop :=
  forall f ty a v, fluent_user_type P f = Some ty -> s f a = Some v -> exists o, v = VObj o /\ In o (objs_of P ty).

Lemma objs_of_entry P t o : In o (objs_of P t) -> exists l, In (t, l) (p_objs P) /\ objs_of P t = l.
Proof.
  unfold objs_of. destruct (lookupN t (p_objs P)) as [l|] eqn:E; [|intros []].
  intros _. exists l. split; [apply lookupN_In; exact E | reflexivity].
Qed.

Lemma env_ok_of_tables T P tau s :
  tytab_ok_b T P = true -> state_typed P s -> env_ok (gcfg T P) tau (qt_of P) (mk_interp P s []).
Proof.
  unfold tytab_ok_b. rewrite !andb_true_iff. intros [[HO HS] HD] HT.
  rewrite forallb_forall in HO, HS, HD.
  constructor; cbn [gcfg mk_interp stat itab par_ty fl_ty if_ty obj_ty fl par var ifun objs].
  - intros; discriminate.
  - intros f args c vs H HV. rewrite const_values_cvalues, HV in H.
    destruct (lookup_app f vs (p_ifun P)) as [v|]; [|discriminate]. inversion H. symmetry. apply cvalue_value_expr.
  - intros; discriminate.
  - intros; discriminate.
  - intros f ty a v Hty Hv. exact (HT f ty a v Hty Hv).
  - intros; discriminate.
  - intros o ty H. apply lookupN_In in H. specialize (HO (o, ty) H). apply memN_In. exact HO.
  - intros a b o HC Ho. unfold compat in HC. apply orb_true_iff in HC. destruct HC as [HC|HC].
    + apply N.eqb_eq in HC. subst. exact Ho.
    + destruct (objs_of_entry P b o Ho) as [l [Hl El]]. specialize (HS (b, l) Hl). cbn [fst snd] in HS.
      rewrite forallb_forall in HS. cbn [gcfg anc] in HC. apply memN_In in HC. specialize (HS a HC).
      rewrite forallb_forall in HS. apply memN_In. apply HS. rewrite <- El. exact Ho.
  - intros a b o Ha Hb.
    destruct (objs_of_entry P a o Ha) as [la [Hla Ela]]. destruct (objs_of_entry P b o Hb) as [lb [Hlb Elb]].
    specialize (HD (a, la) Hla). rewrite forallb_forall in HD. specialize (HD (b, lb) Hlb).
    rewrite forallb_forall in HD. cbn [fst snd] in HD. rewrite Ela in Ha. specialize (HD o Ha).
    rewrite Elb in Hb. apply memN_In in Hb. rewrite Hb in HD. cbn [negb orb] in HD.
    apply orb_true_iff in HD. exact HD.
  - intros ty H. unfold qt_of in H. destruct (objs_of P ty); [discriminate | discriminate].
Qed.

(* The three deviations of the grounded model (= the code) from the strict documented semantics, inside the model.
   In each of them one hypothesis of [grounded_refines_semantic] fails. *)
Definition T1 : tytab := {| tt_obj := [(0, 0); (1, 0)]%N; tt_anc := [(0%N, [])] |}.

Definition unc (f : N) (args : list expr) (v : expr) (k : ekind) (isb : bool) : effect :=
  {| e_fl := f; e_args := args; e_val := v; e_cond := EBool true; e_kind := k; e_vars := []; e_isbool := isb |}.

(* F1. a precondition (u or not u) over a fluent u WITHOUT value is simplified away: the grounded action is applicable,
   the documented step is not ("a condition that reads a fluent with no value is never satisfied");
   [step_defined] fails. *)
Definition P_taut : problem :=
  {| p_objs := []; p_ifun := [];
     p_fluents := [ {| fd_id := 0%N; fd_sig := []; fd_ty := FBool |}; {| fd_id := 1%N; fd_sig := []; fd_ty := FBool |} ];
     p_actions := []; p_goals := []; p_invs := [] |}.
Definition a_taut : action :=
  {| a_params := []; a_pre := [EOr [EFluent 0%N []; ENot (EFluent 0%N [])]];
     a_effs := [unc 1%N [] (EBool true) KAssign true] |}.
Definition s_taut : state := fun f _ => if (f =? 1)%N then Some (VBool false) else None.

Lemma grounded_tautology_over_undefined :
  (exists t, sim_apply_grounded true T1 P_taut s_taut a_taut [] = Some t /\ t 1%N [] = Some (VBool true)) /\
  spec_step false P_taut s_taut a_taut [] = None /\
  sim_apply true P_taut s_taut a_taut [] = None /\
  eval false (EOr [EFluent 0%N []; ENot (EFluent 0%N [])]) (mk_interp P_taut s_taut []) = None.
Proof.
  split; [|repeat split; vm_compute; reflexivity].
  apply (obs_some _ (fun t => t 1%N [])). vm_compute. reflexivity.
Qed.

(* F2. x(p) := y and x(q) := 3 grounded with p = q in a state where y = 3: the two value expressions differ
   syntactically, check_conflicting_effects rejects the grounding, the action is inapplicable although the documented
   semantics assigns the single value 3; [ground_conflict] = true. *)
Definition P_conf : problem :=
  {| p_objs := [(0%N, [0%N; 1%N])]; p_ifun := [];
     p_fluents := [ {| fd_id := 0%N; fd_sig := [0%N]; fd_ty := FNum (Some (zq 0)) (Some (zq 5)) |};
                    {| fd_id := 1%N; fd_sig := []; fd_ty := FNum (Some (zq 0)) (Some (zq 5)) |} ];
     p_actions := []; p_goals := []; p_invs := [] |}.
Definition a_conf : action :=
  {| a_params := [0%N; 1%N]; a_pre := [];
     a_effs := [unc 0%N [EParam 0%N] (EFluent 1%N []) KAssign false; unc 0%N [EParam 1%N] (EInt 3) KAssign false] |}.
Definition s_conf : state := fun f _ => if (f =? 1)%N then Some (VNum (zq 3)) else Some (VNum (zq 0)).

Lemma grounded_syntactic_conflict :
  ground_action T1 P_conf a_conf [VObj 0%N; VObj 0%N] = None /\
  ground_conflict T1 P_conf a_conf [VObj 0%N; VObj 0%N] = true /\
  sim_apply_grounded true T1 P_conf s_conf a_conf [VObj 0%N; VObj 0%N] = None /\
  (exists t, spec_step false P_conf s_conf a_conf [VObj 0%N; VObj 0%N] = Some t /\
             t 0%N [VObj 0%N] = Some (VNum (zq 3))) /\
  step_defined P_conf s_conf a_conf [VObj 0%N; VObj 0%N].
Proof.
  assert (S : exists t, spec_step false P_conf s_conf a_conf [VObj 0%N; VObj 0%N] = Some t /\
                        t 0%N [VObj 0%N] = Some (VNum (zq 3)))
    by (apply (obs_some _ (fun t => t 0%N [VObj 0%N])); vm_compute; reflexivity).
  split; [vm_compute; reflexivity|]. split; [vm_compute; reflexivity|]. split; [vm_compute; reflexivity|].
  split; [exact S|]. destruct S as [t [Ht _]]. exact (spec_step_some_defined _ _ _ _ t Ht).
Qed.

(* F3. forall v. if (v == v) then r += 1 over a type with two objects: the condition simplifies to true, v is no longer
   free in the rebuilt effect, Effect.__init__ drops it, and the increase is applied once instead of once per object;
   [vars_dropped] = true. *)
Definition P_fa : problem :=
  {| p_objs := [(0%N, [0%N; 1%N])]; p_ifun := [];
     p_fluents := [ {| fd_id := 0%N; fd_sig := []; fd_ty := FNum None None |} ];
     p_actions := []; p_goals := []; p_invs := [] |}.
Definition a_fa : action :=
  {| a_params := []; a_pre := [];
     a_effs := [ {| e_fl := 0%N; e_args := []; e_val := EInt 1; e_cond := EEquals (EVar 0%N 0%N) (EVar 0%N 0%N);
                    e_kind := KInc; e_vars := [(0%N, 0%N)]; e_isbool := false |} ] |}.
Definition s_fa : state := fun _ _ => Some (VNum (zq 0)).

Lemma grounded_forall_applied_once :
  vars_dropped T1 P_fa a_fa [] = true /\
  (exists t, sim_apply_grounded true T1 P_fa s_fa a_fa [] = Some t /\ t 0%N [] = Some (VNum (zq 1))) /\
  (exists t, spec_step false P_fa s_fa a_fa [] = Some t /\ t 0%N [] = Some (VNum (zq 2))).
Proof.
  split; [vm_compute; reflexivity|].
  split; apply (obs_some _ (fun t => t 0%N [])); vm_compute; reflexivity.
Qed.

(* ---- non-vacuity of the step theorems: a parametrised action whose precondition is really simplified
   (b(p) and true, over a conditional forall effect), all hypotheses discharged ---- *)
Definition P_nv : problem :=
  {| p_objs := [(0%N, [0%N; 1%N])]; p_ifun := [];
     p_fluents := [ {| fd_id := 0%N; fd_sig := [0%N]; fd_ty := FBool |};
                    {| fd_id := 1%N; fd_sig := []; fd_ty := FNum (Some (zq 0)) (Some (zq 3)) |} ];
     p_actions := []; p_goals := []; p_invs := [EFluent 0%N [EObj 1%N]] |}.
Definition a_nv : action :=
  {| a_params := [0%N];
     a_pre := [EAnd [EFluent 0%N [EParam 0%N]; EEquals (EParam 0%N) (EParam 0%N)]];
     a_effs := [ unc 0%N [EParam 0%N] (EBool false) KAssign true;
                 {| e_fl := 1%N; e_args := []; e_val := EInt 1; e_cond := EFluent 0%N [EVar 0%N 0%N];
                    e_kind := KInc; e_vars := [(0%N, 0%N)]; e_isbool := false |} ] |}.
Definition s_nv : state := fun f _ => if (f =? 0)%N then Some (VBool true) else Some (VNum (zq 0)).

Lemma state_typed_nv : state_typed P_nv s_nv.
Proof.
  intros f ty a v H. unfold fluent_user_type in H. cbn [P_nv p_fluents find fd_id] in H.
  destruct (0 =? f)%N; [discriminate|]. destruct (1 =? f)%N; discriminate.
Qed.

(* (top-level definitions rather than `let ... in` in the statement: coqchk 8.16 rejects the VM-cast proof term of a
   let-bound statement although the kernel accepts it) *)
Definition args_nv : list value := [VObj 0%N].
Definition tau_nv : N -> N := fun _ => 0%N.

Lemma grounded_nonvacuous :
  ground_wf_b tau_nv (qt_of P_nv) a_nv = true /\
  env_ok (gcfg T1 P_nv) tau_nv (qt_of P_nv) (mk_interp P_nv s_nv []) /\
  step_defined P_nv s_nv a_nv args_nv /\
  effects_typed false P_nv s_nv a_nv args_nv /\
  ground_conflict T1 P_nv a_nv args_nv = false /\
  vars_dropped T1 P_nv a_nv args_nv = false /\
  (exists g, ground_action T1 P_nv a_nv args_nv = Some g /\ a_pre g = [EFluent 0%N [EObj 0%N]]) /\
  (exists t, sim_apply_grounded true T1 P_nv s_nv a_nv args_nv = Some t /\
             t 0%N [VObj 0%N] = Some (VBool false) /\ t 1%N [] = Some (VNum (zq 2))).
Proof.
  split; [vm_compute; reflexivity|].
  split; [apply env_ok_of_tables; [vm_compute; reflexivity | exact state_typed_nv]|].
  destruct (obs_some (spec_step false P_nv s_nv a_nv args_nv) (fun _ => tt) tt) as [t [Ht _]]; [vm_compute; reflexivity|].
  split; [exact (spec_step_some_defined _ _ _ _ _ Ht)|].
  split; [intros acts H; vm_compute in H; inversion H; reflexivity|].
  split; [vm_compute; reflexivity|]. split; [vm_compute; reflexivity|].
  split; [apply (obs_some _ a_pre); vm_compute; reflexivity|].
  destruct (obs_some (sim_apply_grounded true T1 P_nv s_nv a_nv args_nv) (fun t => (t 0%N [VObj 0%N], t 1%N []))
              (Some (VBool false), Some (VNum (zq 2)))) as [u [Hu Hv]]; [vm_compute; reflexivity|].
  exists u. split; [exact Hu|]. injection Hv as H0 H1. split; assumption.
Qed.

(* [state_typed] for a finite state (what the harness serialises), as a boolean check *)
Definition state_typed_b (P : problem) (l : list (N * list value * value)) : bool :=
  forallb (fun e => match e with
                    | (f, _, v) => match fluent_user_type P f with
                                   | Some ty => match v with VObj o => memN o (objs_of P ty) | _ => false end
                                   | None => true
                                   end
                    end) l.

Lemma state_typed_b_spec P l : state_typed_b P l = true -> state_typed P (fun f a => lookup_app f a l).
Proof.
  induction l as [|[[g a0] v0] l IH]; intros H f ty a v Hty Hv; cbn [lookup_app] in Hv; [discriminate|].
  cbn [state_typed_b forallb] in H. apply andb_true_iff in H. destruct H as [H0 Hl].
  destruct ((f =? g)%N && values_eqb a a0) eqn:E.
  - inversion Hv; subst v0. apply andb_true_iff in E. destruct E as [E _]. apply N.eqb_eq in E. subst g.
    rewrite Hty in H0. destruct v as [|?|o]; try discriminate. exists o. split; [reflexivity|].
    apply memN_In. exact H0.
  - exact (IH Hl f ty a v Hty Hv).
Qed.

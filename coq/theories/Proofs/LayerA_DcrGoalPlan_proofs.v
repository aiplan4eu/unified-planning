(* C06 / C07, Layer A — DisjunctiveConditionsRemover with a disjunctive goal (fake goal fluent, goal actions): plan level
   (soundness, completeness with one auxiliary step), and the compilation as a pipeline stage
   ([dcrg_stage_certified]). *)
From Coq Require Import List ZArith NArith QArith Qcanon Bool Lia.
Import ListNotations.
Require Import UPV.Core.Expr UPV.Core.Eval UPV.Core.Interp UPV.Planning.Problem UPV.Planning.Sem.
Require Import UPV.Proofs.Eval_lemmas UPV.Proofs.Sem_proofs UPV.Proofs.Step_proofs UPV.Proofs.Subst_proofs.
Require Import UPV.Compilers.Variants UPV.Proofs.Variants_proofs.
Require Import UPV.Compilers.LayerA_Defs UPV.Compilers.LayerA_Variants.
Require Import UPV.Proofs.LayerA_base UPV.Proofs.LayerA_Variants_proofs.
Require Import UPV.Compilers.LayerA_Quant.
Require Import UPV.Compilers.LayerA_Pipe UPV.Proofs.LayerA_Pipe_proofs UPV.Compilers.LayerA_DcrGoal UPV.Proofs.LayerA_DcrGoal_proofs.
Require Import UPV.Proofs.ListFacts.
Local Open Scope nat_scope.

(* the template of the goal actions before its effect is added: no parameters, the disjunct as precondition *)
Definition pre_only (d : list expr) : action := {| a_params := []; a_pre := d; a_effs := [] |}.

Lemma pre_only_step P s d args m : spec_step false P s (pre_only d) args = Some m ->
  all_hold false (mk_interp P s []) d = true /\ state_eq m s.
Proof.
  rewrite spec_step_eq. cbn [pre_only a_params a_pre a_effs zip_params].
  destruct (all_hold false (mk_interp P s []) d); cbn [negb]; [|discriminate].
  change (fired false (mk_interp P s []) []) with (Some (@nil aeff)). cbn [spec_effects_ok forallb negb].
  destruct (invariants_ok false P (spec_succ P s [])); [|discriminate]. intros H. inversion H; subst.
  split; [reflexivity|]. intros f x. reflexivity.
Qed.

Lemma pre_only_applies P s d args : all_hold false (mk_interp P s []) d = true -> invariants_ok false P s = true ->
  exists m, spec_step false P s (pre_only d) args = Some m /\ state_eq m s.
Proof.
  intros Hd Hi. rewrite spec_step_eq. cbn [pre_only a_params a_pre a_effs zip_params]. rewrite Hd. cbn [negb].
  change (fired false (mk_interp P s []) []) with (Some (@nil aeff)). cbn [spec_effects_ok forallb negb].
  assert (E : state_eq (spec_succ P s []) s) by (intros f x; reflexivity).
  rewrite (invariants_ok_ext false P _ _ E), Hi. exists (spec_succ P s []). split; [reflexivity | exact E].
Qed.

Section DCRGProofs.
  Variable cdnf : expr -> list expr.
  Variable pre_dnf : action -> list (list expr).
  Variable nm : N -> nat -> N.
  Variable fk : N.
  Variable gnm : nat -> N.
  Variable gds : list (list expr).
  Variable P : problem.
  Let tbl := dcr_table cdnf pre_dnf nm P.
  Let P' := dcrg_compile cdnf pre_dnf nm fk gnm gds P.
  Let back := dcrg_back cdnf pre_dnf nm fk gnm gds P.
  Hypothesis Hu : unique_ids P.
  Hypothesis Hu' : unique_ids P'.                 (* the fresh names are new and pairwise different (C08) *)
  Hypothesis Hfresh : dcrg_fresh cdnf pre_dnf nm fk gds P = true.

  Variable G : state -> Prop.
  Hypothesis Gstep : forall s aid a args t, G s -> lookup_action P aid = Some a -> spec_step false P s a args = Some t -> G t.
  Hypothesis Heffs : forall s args i a, G s -> In (i, a) (p_actions P) ->
    Forall (dnf_effect_ok cdnf P s a args) (a_effs a).
  Hypothesis Hpre : forall s args i a, G s -> In (i, a) (p_actions P) ->
    existsb (all_hold false (mk_interp P s (zip_params (a_params a) args))) (pre_dnf a) =
    all_hold false (mk_interp P s (zip_params (a_params a) args)) (a_pre a).
  (* some goal action is applicable exactly where the original goals hold (C12: DNF of the goals) *)
  Hypothesis Hgoals : forall s, G s ->
    existsb (all_hold false (mk_interp P s [])) gds = all_hold false (mk_interp P s []) (p_goals P).

  Lemma fresh_split :
    (forall x, In x tbl -> action_cleanf fk (snd x) = true) /\
    forallb (cleanf fk) (p_invs P ++ bound_invs P) = true /\
    (forall d, In d gds -> forallb (cleanf fk) d = true).
  Proof.
    unfold dcrg_fresh in Hfresh. nfsplit. repeat split.
    - match goal with Hq : forallb _ (dcr_table _ _ _ _) = true |- _ => rewrite forallb_forall in Hq; exact Hq end.
    - assumption.
    - match goal with Hq : forallb _ gds = true |- _ => rewrite forallb_forall in Hq; exact Hq end.
  Qed.

  Lemma step_x a b args s s' : agree_off fk s s' -> action_cleanf fk a = true ->
    match spec_step false P s a args, spec_step false P' s' (add_eff a (bool_effect fk b)) args with
    | Some t, Some t' => agree_off fk t t' /\ t' fk [] = Some (VBool b)
    | None, None => True
    | _, _ => False
    end.
  Proof.
    destruct fresh_split as (_ & Hinvc & _).
    exact (step_extra fk P P' eq_refl eq_refl eq_refl eq_refl Hinvc a b args s s').
  Qed.

  Let acts1 := map (fun x : N * N * action => (fst (fst x), add_reset fk (snd x))) tbl.
  Let acts2 := goal_actions fk gnm gds.

  Lemma ids_split : NoDup (map fst acts1 ++ map fst acts2).
  Proof. rewrite <- map_app. exact Hu'. Qed.

  Lemma ids1 : map fst acts1 = map fst (vt_actions tbl).
  Proof. unfold acts1, vt_actions. rewrite !map_map. reflexivity. Qed.

  Lemma goal_id_spec id : is_goal_id fk gnm gds id = true <-> In id (map fst acts2).
  Proof.
    unfold is_goal_id. fold acts2. rewrite existsb_exists. split.
    - intros [[j a] [Hin E]]. cbn [fst] in E. apply N.eqb_eq in E. subst. apply in_map_iff. exists (id, a). split; [reflexivity | exact Hin].
    - intros H. apply in_map_iff in H. destruct H as [[j a] [E Hin]]. cbn [fst] in E. subst.
      exists (id, a). split; [exact Hin | apply N.eqb_refl].
  Qed.

  Lemma tbl_facts id' i a' : In (id', i, a') tbl ->
    lookup_action P' id' = Some (add_reset fk a') /\ is_goal_id fk gnm gds id' = false /\ vt_back tbl id' = i.
  Proof.
    intros Hin.
    assert (H1 : In (id', add_reset fk a') acts1)
      by (unfold acts1; apply in_map_iff; exists (id', i, a'); split; [reflexivity | exact Hin]).
    split; [|split].
    - unfold lookup_action. apply lookupN_unique; [exact Hu'|]. change (p_actions P') with (acts1 ++ acts2).
      apply in_or_app. left. exact H1.
    - destruct (is_goal_id fk gnm gds id') eqn:E; [|reflexivity]. exfalso. apply goal_id_spec in E.
      apply (proj2 (proj2 (proj1 (NoDup_app_iff _ _) ids_split)) id'); [|exact E]. apply in_map_iff. exists (id', add_reset fk a'). split; [reflexivity | exact H1].
    - apply (vt_back_unique tbl id' i a'); [|exact Hin]. rewrite <- ids1. exact (proj1 (proj1 (NoDup_app_iff _ _) ids_split)).
  Qed.

  Lemma goal_facts k d : In (k, d) (number_from 0 gds) ->
    lookup_action P' (gnm k) = Some (goal_action fk d) /\ is_goal_id fk gnm gds (gnm k) = true.
  Proof.
    intros Hin.
    assert (H2 : In (gnm k, goal_action fk d) acts2)
      by (unfold acts2, goal_actions; apply in_map_iff; exists (k, d); split; [reflexivity | exact Hin]).
    split.
    - unfold lookup_action. apply lookupN_unique; [exact Hu'|]. change (p_actions P') with (acts1 ++ acts2).
      apply in_or_app. right. exact H2.
    - apply goal_id_spec. apply in_map_iff. exists (gnm k, goal_action fk d). split; [reflexivity | exact H2].
  Qed.

  Lemma dcrg_lookup id' a'' : lookup_action P' id' = Some a'' ->
    (exists i a', In (id', i, a') tbl /\ a'' = add_reset fk a') \/
    (exists k d, In (k, d) (number_from 0 gds) /\ id' = gnm k /\ a'' = goal_action fk d).
  Proof.
    unfold lookup_action. intros H. apply lookupN_In in H. change (p_actions P') with (acts1 ++ acts2) in H.
    apply in_app_or in H. destruct H as [H|H].
    - left. apply in_map_iff in H. destruct H as [[[x i] a'] [E Hin]]. cbn [fst snd] in E. inversion E; subst.
      exists i, a'. split; [exact Hin | reflexivity].
    - right. unfold goal_actions in H. apply in_map_iff in H. destruct H as [[k d] [E Hin]]. cbn [fst snd] in E.
      inversion E; subst. exists k, d. repeat split. exact Hin.
  Qed.

  Lemma compiled_goal t' : goals_hold false P' t' = true <-> t' fk [] = Some (VBool true).
  Proof.
    unfold goals_hold, all_hold. cbn [P' dcrg_compile p_goals forallb]. unfold holds. rewrite eval_EFluent. cbn.
    destruct (t' fk []) as [[[|]| |]|]; cbn; split; intros H; try discriminate; try reflexivity.
  Qed.

  (* fk is true only where the original goals hold *)
  Definition ginv (s s' : state) : Prop := s' fk [] = Some (VBool true) -> goals_hold false P s = true.

  Lemma dcrg_run_sound pi' : forall s s' t', G s -> agree_off fk s s' -> ginv s s' ->
    run P' (spec_step false P') s' pi' = Some t' ->
    exists t, run P (spec_step false P) s (pback back pi') = Some t /\ G t /\ agree_off fk t t' /\ ginv t t'.
  Proof.
    destruct fresh_split as (Htc & _ & Hgc).
    induction pi' as [|[id' args] pi' IH]; intros s s' t' HG Hs Hi; cbn [run].
    - intros E. inversion E; subst. exists s. repeat split; assumption.
    - destruct (lookup_action P' id') as [a''|] eqn:EL; [|discriminate].
      destruct (spec_step false P' s' a'' args) as [m'|] eqn:ES; [|discriminate]. intros ER.
      rewrite pback_cons. unfold ostep, back, dcrg_back. cbn [fst snd]. fold tbl.
      destruct (dcrg_lookup id' a'' EL) as [(i & a' & Hin & ->) | (k & d & Hin & -> & ->)].
      + destruct (tbl_facts id' i a' Hin) as (_ & -> & ->). cbn [app].
        pose proof (step_x a' false args s s' Hs (Htc _ Hin)) as Hx. unfold add_reset in ES. rewrite ES in Hx.
        destruct (spec_step false P s a' args) as [m|] eqn:Em; [|destruct Hx]. destruct Hx as [Ha Hb].
        destruct (dcr_Hsound cdnf pre_dnf nm P Hu G Heffs Hpre id' i a' Hin) as [a [ELo Hst]].
        destruct (Hst s args m HG Em) as [m0 [E0 Hm0]].
        cbn [run]. rewrite ELo, E0.
        apply (IH m0 m' t'); [eapply Gstep; eassumption | | | exact ER].
        * intros f x Hf. rewrite (Ha f x Hf). symmetry. apply Hm0.
        * intros Hc. rewrite Hb in Hc. discriminate.
      + destruct (goal_facts k d Hin) as (_ & ->). cbn [app].
        assert (Hd : In d gds) by (eapply number_from_In; exact Hin).
        assert (Hc : action_cleanf fk (pre_only d) = true)
          by (unfold action_cleanf; cbn [pre_only a_pre a_effs forallb]; rewrite (Hgc d Hd); reflexivity).
        pose proof (step_x (pre_only d) true args s s' Hs Hc) as Hx.
        change (add_eff (pre_only d) (bool_effect fk true)) with (goal_action fk d) in Hx. rewrite ES in Hx.
        destruct (spec_step false P s (pre_only d) args) as [m|] eqn:Em; [|destruct Hx]. destruct Hx as [Ha _].
        destruct (pre_only_step P s d args m Em) as [Hhold Hm].
        apply (IH s m' t'); [exact HG | | | exact ER].
        * intros f x Hf. rewrite (Ha f x Hf). apply Hm.
        * intros _. unfold goals_hold. rewrite <- (Hgoals s HG). apply existsb_exists. exists d. split; assumption.
  Qed.

  (* a valid plan of the compiled problem, its goal-action steps removed, is a valid plan of the original problem *)
  Theorem dcrg_sound s0 s0' pi' : G s0 -> agree_off fk s0 s0' -> s0' fk [] = Some (VBool false) ->
    valid_plan false P' s0' pi' = true -> valid_plan false P s0 (pback back pi') = true.
  Proof.
    intros HG Hs H0. unfold valid_plan.
    destruct (run P' (spec_step false P') s0' pi') as [t'|] eqn:ER; [|discriminate]. intros Hgl.
    assert (Hi : ginv s0 s0') by (intros Hc; rewrite H0 in Hc; discriminate).
    destruct (dcrg_run_sound pi' s0 s0' t' HG Hs Hi ER) as (t & -> & _ & _ & Hinv).
    apply Hinv. apply compiled_goal. exact Hgl.
  Qed.

  Hypothesis Hconf : forall s args i a d, G s -> In (i, a) (p_actions P) -> In d (pre_dnf a) ->
    add_effs_ok [] [] (a_effs (dnf_variant cdnf a d)) = false ->
    all_hold false (mk_interp P s (zip_params (a_params a) args)) d = true -> applicable P s a args = false.

  Lemma dcrg_run_complete pi : forall s s' t, G s -> agree_off fk s s' -> invariants_ok false P s = true ->
    run P (spec_step false P) s pi = Some t ->
    exists pi' t', run P' (spec_step false P') s' pi' = Some t' /\ agree_off fk t t' /\
                   length pi' <= length pi /\ sub_noop_eq P s pi (pback back pi') /\ G t /\
                   invariants_ok false P t = true.
  Proof.
    destruct fresh_split as (Htc & _ & _).
    induction pi as [|[i args] pi IH]; intros s s' t HG Hs Hi; cbn [run].
    - intros E. inversion E; subst. exists [], s'. repeat split; try assumption; [apply le_n | constructor].
    - destruct (lookup_action P i) as [a|] eqn:EL; [|discriminate].
      destruct (spec_step false P s a args) as [t1|] eqn:E1; [|discriminate]. intros ER.
      assert (HG1 : G t1) by (eapply Gstep; eassumption).
      assert (Hi1 : invariants_ok false P t1 = true)
        by (destruct (spec_step_inv false P s a args t1 E1) as (_ & acts & _ & _ & -> & H); exact H).
      destruct (dcr_Hcomplete cdnf pre_dnf nm P G Heffs Hpre Hconf i a s args t1 HG EL E1)
        as [Hnoop | (id' & a' & t1' & Hin & E2 & Ht1)].
      + assert (Hs1 : agree_off fk t1 s') by (intros f x Hf; rewrite (Hs f x Hf); symmetry; apply Hnoop).
        destruct (IH t1 s' t HG1 Hs1 Hi1 ER) as (pi' & t' & R1 & R2 & R3 & R4 & R5 & R6).
        exists pi', t'. repeat split; try assumption; [cbn [length]; lia|]. eapply sne_drop; eassumption.
      + pose proof (step_x a' false args s s' Hs (Htc _ Hin)) as Hx. rewrite E2 in Hx.
        destruct (spec_step false P' s' (add_eff a' (bool_effect fk false)) args) as [m'|] eqn:E3; [|destruct Hx].
        destruct Hx as [Ha _].
        assert (Hs1 : agree_off fk t1 m') by (intros f x Hf; rewrite (Ha f x Hf); symmetry; apply Ht1).
        destruct (IH t1 m' t HG1 Hs1 Hi1 ER) as (pi' & t' & R1 & R2 & R3 & R4 & R5 & R6).
        destruct (tbl_facts id' i a' Hin) as (ELc & Eg & Eb).
        exists ((id', args) :: pi'), t'. cbn [run length]. unfold add_reset in ELc. rewrite ELc, E3.
        repeat split; try assumption; [lia|].
        rewrite pback_cons. unfold ostep, back, dcrg_back. cbn [fst snd]. fold tbl. rewrite Eg, Eb. cbn [app].
        eapply sne_keep; eassumption.
  Qed.

  (* every valid plan of the original problem has a compiled counterpart — its variants followed by ONE goal action —
     that maps back to it modulo steps that change nothing *)
  Theorem dcrg_complete s0 s0' pi : G s0 -> agree_off fk s0 s0' -> invariants_ok false P s0 = true ->
    valid_plan false P s0 pi = true ->
    exists pi', valid_plan false P' s0' pi' = true /\ length pi' <= length pi + 1 /\
                sub_noop_eq P s0 pi (pback back pi').
  Proof.
    destruct fresh_split as (_ & _ & Hgc).
    intros HG Hs Hi. unfold valid_plan.
    destruct (run P (spec_step false P) s0 pi) as [t|] eqn:ER; [|discriminate]. intros Hgl.
    destruct (dcrg_run_complete pi s0 s0' t HG Hs Hi ER) as (pi1 & t' & R1 & R2 & R3 & R4 & R5 & R6).
    unfold goals_hold in Hgl. rewrite <- (Hgoals t R5) in Hgl. apply existsb_exists in Hgl. destruct Hgl as [d [Hd Hhold]].
    destruct (In_number_from _ _ Hd 0) as [k Hk].
    destruct (goal_facts k d Hk) as [ELg Eg].
    destruct (pre_only_applies P t d [] Hhold R6) as [m [Em _]].
    assert (Hc : action_cleanf fk (pre_only d) = true)
      by (unfold action_cleanf; cbn [pre_only a_pre a_effs forallb]; rewrite (Hgc d Hd); reflexivity).
    pose proof (step_x (pre_only d) true [] t t' R2 Hc) as Hx. rewrite Em in Hx.
    change (add_eff (pre_only d) (bool_effect fk true)) with (goal_action fk d) in Hx.
    destruct (spec_step false P' t' (goal_action fk d) []) as [m'|] eqn:E3; [|destruct Hx]. destruct Hx as [_ Hb].
    exists (pi1 ++ [(gnm k, [])]). split; [|split].
    - rewrite run_app, R1. cbn [run]. rewrite ELg, E3. apply compiled_goal. exact Hb.
    - rewrite app_length. cbn [length]. lia.
    - rewrite pback_app. cbn [pback flat_map]. unfold ostep, back, dcrg_back. cbn [fst snd]. rewrite Eg.
      cbn [app]. rewrite app_nil_r. exact R4.
  Qed.
End DCRGProofs.

Lemma run_inv P pi : forall s t, run P (spec_step false P) s pi = Some t -> invariants_ok false P s = true ->
  invariants_ok false P t = true.
Proof.
  intros s t ER Hi. apply (run_closed P (fun s => invariants_ok false P s = true)) with (pi := pi) (s := s); try assumption.
  intros s1 aid a args t1 _ _ ES. destruct (spec_step_inv false P s1 a args t1 ES) as (_ & acts & _ & _ & -> & H). exact H.
Qed.

Section DcrgStage.
  Variable cdnf : expr -> list expr.
  Variable pre_dnf : action -> list (list expr).
  Variable nm : N -> nat -> N.
  Variable fk : N.
  Variable gnm : nat -> N.
  Variable gds : list (list expr).
  Variable P : problem.
  Let P' := dcrg_compile cdnf pre_dnf nm fk gnm gds P.
  Let st := dcrg_stage cdnf pre_dnf nm fk gnm gds.
  Hypothesis Hu : unique_ids P.
  Hypothesis Hu' : unique_ids P'.
  Hypothesis Hfresh : dcrg_fresh cdnf pre_dnf nm fk gds P = true.
  Hypothesis Hnofk : orig_no_fk fk P = true.
  Variable G : state -> Prop.
  Hypothesis Gstep : forall s aid a args t, G s -> lookup_action P aid = Some a -> spec_step false P s a args = Some t -> G t.
  Hypothesis Heffs : forall s args i a, G s -> In (i, a) (p_actions P) ->
    Forall (dnf_effect_ok cdnf P s a args) (a_effs a).
  Hypothesis Hpre : forall s args i a, G s -> In (i, a) (p_actions P) ->
    existsb (all_hold false (mk_interp P s (zip_params (a_params a) args))) (pre_dnf a) =
    all_hold false (mk_interp P s (zip_params (a_params a) args)) (a_pre a).
  Hypothesis Hgoals : forall s, G s ->
    existsb (all_hold false (mk_interp P s [])) gds = all_hold false (mk_interp P s []) (p_goals P).

  Lemma dcrg_sim pi' s s' t' : dcrg_rel fk G P s s' ->
    run P' (spec_step false P') s' pi' = Some t' ->
    exists t, run P (spec_step false P) s (pback (dcrg_back cdnf pre_dnf nm fk gnm gds P) pi') = Some t /\
              dcrg_rel fk G P t t'.
  Proof.
    intros (Ha & HG & Hi & Hg) ER.
    destruct (dcrg_run_sound cdnf pre_dnf nm fk gnm gds P Hu Hu' Hfresh G Gstep Heffs Hpre Hgoals pi' s s' t' HG Ha Hg ER)
      as (t & Et & HGt & Hat & Hgt).
    exists t. split; [exact Et|]. repeat split; try assumption. eapply run_inv; eassumption.
  Qed.

  Lemma dcrg_stage_sound : stage_sound (st G P).
  Proof.
    intros s s' pi' HR _. cbn [st dcrg_stage st_back st_src st_dst st_rel] in *. unfold valid_plan.
    destruct (run (dcrg_compile cdnf pre_dnf nm fk gnm gds P) (spec_step false (dcrg_compile cdnf pre_dnf nm fk gnm gds P)) s' pi')
      as [t'|] eqn:ER; [|discriminate]. intros Hgl.
    destruct (dcrg_sim pi' s s' t' HR ER) as (t & -> & _ & _ & _ & Hg). apply Hg.
    apply (compiled_goal cdnf pre_dnf nm fk gnm gds P). exact Hgl.
  Qed.

  Lemma dcrg_stage_noop : stage_noop (st G P).
  Proof.
    apply sim_noop.
    - intros s s' x' t' HR _ ER. cbn [st dcrg_stage st_back st_src st_dst st_rel] in *.
      destruct (dcrg_sim [x'] s s' t' HR ER) as (t & Et & HRt).
      exists t. split; [|exact HRt]. rewrite pback_cons in Et. cbn [pback flat_map] in Et. rewrite app_nil_r in Et. exact Et.
    - intros s s' [aid args] t t' (Ha & _) (Hb & _) Hs' ER g x. cbn [st dcrg_stage st_back st_src st_dst st_rel] in *.
      destruct (N.eq_dec g fk) as [->|Hne].
      + unfold ostep in ER. destruct (dcrg_back cdnf pre_dnf nm fk gnm gds P (aid, args)) as [[i ar]|].
        * rewrite run_single in ER. destruct (lookup_action P i) as [a|] eqn:EL; [|discriminate].
          symmetry. apply (step_untouched P s a ar t fk ER).
          intros e He. apply lookupN_In in EL. unfold orig_no_fk in Hnofk. rewrite forallb_forall in Hnofk.
          specialize (Hnofk _ EL). cbn [snd] in Hnofk. rewrite forallb_forall in Hnofk. specialize (Hnofk e He).
          apply negb_true_iff, N.eqb_neq in Hnofk. exact Hnofk.
        * cbn [run] in ER. inversion ER; subst. reflexivity.
      + rewrite <- (Ha g x Hne), <- (Hb g x Hne). apply Hs'.
  Qed.

  Hypothesis Hconf : forall s args i a d, G s -> In (i, a) (p_actions P) -> In d (pre_dnf a) ->
    add_effs_ok [] [] (a_effs (dnf_variant cdnf a d)) = false ->
    all_hold false (mk_interp P s (zip_params (a_params a) args)) d = true -> applicable P s a args = false.

  Lemma dcrg_stage_complete : stage_complete (st G P).
  Proof.
    intros s s' pi (Ha & HG & Hi & _) _ Hv. cbn [st dcrg_stage st_back st_src st_dst st_aux st_okD] in *.
    destruct (dcrg_complete cdnf pre_dnf nm fk gnm gds P Hu' Hfresh G Gstep Heffs Hpre Hgoals Hconf s s' pi HG Ha Hi Hv)
      as (pi' & V & L & S).
    exists pi'. split; [exact L|]. split; [exact V|]. split; [apply Forall_forall; intros; exact I | exact S].
  Qed.

  Lemma dcrg_stage_certified : certified (st G P).
  Proof. constructor; [exact dcrg_stage_sound | exact dcrg_stage_complete | exact dcrg_stage_noop]. Qed.
End DcrgStage.

(* the compiled initial state (fk = false) is related to the original one *)
Lemma dcrg_rel_init fk (G : state -> Prop) P s : G s -> invariants_ok false P s = true -> dcrg_rel fk G P s (with_fk fk s).
Proof.
  intros HG Hi. repeat split; try assumption.
  - intros f x Hf. unfold with_fk. apply N.eqb_neq in Hf. rewrite Hf. reflexivity.
  - unfold with_fk. rewrite N.eqb_refl. discriminate.
Qed.

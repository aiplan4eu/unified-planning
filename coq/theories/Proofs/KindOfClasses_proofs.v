(* C10, the other problem classes: proofs about Model/KindOfClasses.v.
   Main results: [covers_contingent], [covers_ma], [covers_hier], [covers_sched] - the proved specification of each class
   is inside the mirror of its `kind`.  The common features are obtained by REUSING the per-clause lemmas of
   KindOf_proofs.v on the flattened view ([spec_in_raw]: spec_features P is inside the raw set of set_* calls M.raw P)
   and then relating M.raw of the flattened view with the class's own set of calls:
     - contingent: the kind IS kind_model of the base plus CONTINGENT;
     - hierarchical: the factory's calls are M.raw of the flattened view minus ACTION_BASED ([hier_raw_keeps]);
     - multi-agent: every call of M.raw whose feature is in [ma_mask] has a counterpart in kind_ma ([raw_sub]);
     - scheduling: every call of M.raw has a counterpart in sched_raw after [unstatic] ([raw_unstatic]). *)
From Coq Require Import List ZArith NArith Bool Lia.
Import ListNotations.
Require Import UPV.Core.Expr UPV.Model.Kind UPV.Gen.Gen_Kind UPV.Model.KindOf UPV.Proofs.Eval_lemmas UPV.Proofs.ListFacts UPV.Proofs.KindOf_proofs UPV.Model.KindOfClasses.

Lemma clause_inv f g b : In f (clause g b) -> f = g /\ b = true.
Proof. destruct b; simpl; [intros [<-|[]]; auto | intros []]. Qed.

Theorem covers_contingent C : wf_contingent C -> incl (spec_contingent C) (kind_contingent C).
Proof.
  intros W f Hf. unfold spec_contingent in Hf. apply in_app_or in Hf. destruct Hf as [Hf|[<-|[]]].
  - right. apply covers; [exact W | exact Hf].
  - left. reflexivity.
Qed.

Lemma fold_max_ge l : forall a x, In x (a :: l) -> (x <= fold_left N.max l a)%N.
Proof.
  induction l as [|b l IH]; intros a x Hx; simpl.
  - destruct Hx as [<-|[]]. lia.
  - destruct Hx as [<-|[<-|Hx]].
    + etransitivity; [|apply IH; left; reflexivity]. lia.
    + etransitivity; [|apply IH; left; reflexivity]. lia.
    + apply IH. right. exact Hx.
Qed.
Lemma fold_max_in l : forall a, In (fold_left N.max l a) (a :: l).
Proof.
  induction l as [|b l IH]; intros a; simpl; [auto|].
  destruct (IH (N.max a b)) as [E|Hin]; [|auto].
  rewrite <- E. destruct (N.max_spec a b) as [[_ ->]|[_ ->]]; auto.
Qed.

Lemma hier_raw_keeps H f : In f (M.raw (flat_hier H)) -> f <> f_ACTION_BASED -> In f (hier_raw H).
Proof.
  intros Hf Hne. unfold hier_raw. right. apply in_or_app. left. apply filter_In. split; [exact Hf|].
  apply negb_true_iff. apply N.eqb_neq. exact Hne.
Qed.
Lemma hier_class_in H f : In f (hier_class_feats0 H) -> In f (hier_raw H).
Proof. intro Hf. unfold hier_raw. right. apply in_or_app. right. unfold hier_class_feats. apply in_or_app. right. exact Hf. Qed.
Lemma hier_type_in H f : In f (hier_type_feats H) -> In f (hier_raw H).
Proof. intro Hf. unfold hier_raw. right. apply in_or_app. right. unfold hier_class_feats. apply in_or_app. left. exact Hf. Qed.
Lemma spec_type_sub t : incl (spec_type_features t) (M.type_feats t).
Proof. destruct t as [| | |u hf]; simpl; try (intros x []). destruct hf; intros x [<-|[]]; simpl; auto. Qed.

Lemma hier_lvl_max H : In (hier_max_lvl H) (hier_lvls H) /\ forall l, In l (hier_lvls H) -> (l <= hier_max_lvl H)%N.
Proof. unfold hier_max_lvl, hier_lvls. split; [apply fold_max_in | intros l Hl; apply fold_max_ge; exact Hl]. Qed.

Ltac fne := let E := fresh "E" in intro E; vm_compute in E; discriminate E.

Lemma finalize_clause P fs u g b :
  g <> f_CONTINUOUS_TIME -> (b = true -> In g fs) -> incl (clause g b) (M.finalize P fs u).
Proof. intros Hne Hb. apply clause_incl. intro E. apply finalize_keeps; [exact (Hb E) | exact Hne]. Qed.

Lemma covers_hier_class H : incl (spec_hier_class H) (kind_hier H).
Proof.
  unfold spec_hier_class. repeat apply incl_app; try (apply finalize_clause; [fne | intro E; apply hier_class_in; unfold hier_class_feats0]).
  - intros f [<-|[]]. apply finalize_keeps; [left; reflexivity | fne].
  - apply existsb_exists in E. destruct E as (m & Hm & E). summand 2. eapply fm_in; [exact Hm|].
    apply in_or_app. left. apply in_clause. exact E.
  - apply orb_true_iff in E. destruct E as [E|E].
    + summand 1. apply in_clause. exact E.
    + apply existsb_exists in E. destruct E as (m & Hm & E). summand 2. eapply fm_in; [exact Hm|].
      apply in_or_app. right. apply in_clause. exact E.
  - summand 0. apply in_clause. exact E.
  - do 3 (apply in_or_app; right).
    apply existsb_exists in E. destruct E as (l & Hl & E). apply N.leb_le in E.
    destruct (hier_lvl_max H) as [_ Hmax]. specialize (Hmax l Hl).
    destruct (hier_max_lvl H) as [|[p|p|]]; try lia; left; reflexivity.
  - do 3 (apply in_or_app; right).
    apply andb_true_iff in E. destruct E as [E1 E2]. apply negb_true_iff in E1.
    apply existsb_exists in E2. destruct E2 as (l & Hl & E2). apply N.eqb_eq in E2. subst l.
    destruct (hier_lvl_max H) as [Hin Hmax]. specialize (Hmax 1%N Hl).
    assert (X : (2 <=? hier_max_lvl H)%N = false).
    { destruct (2 <=? hier_max_lvl H)%N eqn:X; [|reflexivity]. rewrite <- E1. symmetry. apply existsb_exists.
      exists (hier_max_lvl H). auto. }
    apply N.leb_gt in X. destruct (hier_max_lvl H) as [|[p|p|]]; try lia. left. reflexivity.
  - do 3 (apply in_or_app; right).
    destruct (hier_lvl_max H) as [Hin _]. rewrite forallb_forall in E. specialize (E _ Hin). apply N.eqb_eq in E.
    rewrite E. left. reflexivity.
Qed.

Theorem covers_hier H : wf_hier H -> incl (spec_hier H) (kind_hier H).
Proof.
  intros W. unfold spec_hier. apply incl_app; [|apply covers_hier_class]. intros f Hf.
  pose proof (spec_in_list _ _ Hf) as L. destruct (listed_ne _ L) as [N1 N2].
  apply finalize_keeps; [|exact N2]. apply hier_raw_keeps; [|exact N1]. apply spec_in_raw; assumption.
Qed.
Theorem covers_hier_full H : wf_hier H -> incl (spec_hier_full H) (kind_hier H).
Proof.
  intros W f Hf. unfold spec_hier_full in Hf. apply in_app_or in Hf. destruct Hf as [Hf|Hf]; [apply covers_hier; assumption|].
  unfold spec_hier_params in Hf. apply in_flat_map in Hf. destruct Hf as (t & Ht & Hf).
  assert (Hne : f <> f_CONTINUOUS_TIME).
  { destruct t as [| | |u hf]; simpl in Hf; try (destruct Hf; fail). destruct hf; destruct Hf as [<-|[]]; fne. }
  apply spec_type_sub in Hf. apply finalize_keeps; [|exact Hne]. apply hier_type_in.
  unfold hier_param_types in Ht. unfold hier_type_feats. rewrite !in_app_iff in *. destruct Ht as [Ht|[Ht|Ht]].
  - left. eapply fm_in; eauto.
  - right. right. apply in_flat_map in Ht. destruct Ht as (m & Hm & Ht). apply in_flat_map. exists m. split; [exact Hm|].
    eapply fm_in; eauto.
  - right. left. eapply fm_in; eauto.
Qed.

Ltac out Hm := exfalso; subst; vm_compute in Hm; discriminate Hm.

Lemma fl_out P fs A B f : In f (M.fl_feats P fs A B) -> f = A \/ f = B.
Proof. unfold M.fl_feats. intro H. apply in_app_or in H. destruct H as [H|H]; apply clause_inv in H; destruct H; auto. Qed.
Lemma tm_out t f : In f (M.tm_feats t) -> f = f_INTERMEDIATE_CONDITIONS_AND_EFFECTS \/ f = f_EXTERNAL_CONDITIONS_AND_EFFECTS.
Proof. unfold M.tm_feats. destruct (_ || _); intros [<-|[]]; auto. Qed.
Lemma interval_out i f : In f (M.interval_feats i) -> f = f_INTERMEDIATE_CONDITIONS_AND_EFFECTS \/ f = f_EXTERNAL_CONDITIONS_AND_EFFECTS.
Proof. unfold M.interval_feats. destruct (_ || _); [|intros []]. intro H. apply in_app_or in H. destruct H as [H|H]; eapply tm_out; eauto. Qed.

Lemma cond_sub c f : In f (M.expr_feats c) -> memN f ma_mask = true -> In f (ma_cond_feats c).
Proof.
  unfold M.expr_feats, ma_cond_feats. cbv zeta. rewrite !in_app_iff. intros [H|[H|[H|[H|[H|H]]]]] Hm; try tauto.
  apply clause_inv in H. destruct H as [-> _]. out Hm.
Qed.

Lemma eff_sub P e f :
  In f (M.effect_feats P e) -> memN f ma_mask = true ->
  In f (ma_effect_feats e) \/ exists v, In v (ef_forall e) /\ In f (M.type_feats (snd v)).
Proof.
  unfold M.effect_feats, ma_effect_feats. cbv zeta. rewrite !in_app_iff. intros [H|[H|H]] Hm.
  - destruct (is_conditional e); [|destruct H]. apply in_app_or in H. left. left. apply in_or_app.
    destruct H as [H|H]; [left; apply cond_sub; auto | right; exact H].
  - destruct (nonempty (ef_forall e)) eqn:NE; [|destruct H]. destruct H as [<-|H].
    + left. right. left. left. reflexivity.
    + right. apply in_flat_map in H. destruct H as (v & Hv & H). eauto.
  - left. right. right. destruct (ef_kind e).
    + destruct (ef_vcls e); apply in_app_or in H; destruct H as [H|H];
        try (apply clause_inv in H; destruct H as [-> _]; out Hm); apply fl_out in H; destruct H; out Hm.
    + destruct H as [<-|H]; [left; reflexivity|]. apply in_app_or in H. destruct H as [H|H].
      * apply clause_inv in H. destruct H as [-> _]. out Hm.
      * destruct (is_num_const (ef_val e)); [destruct H|]. apply fl_out in H. destruct H; out Hm.
    + destruct H as [<-|H]; [left; reflexivity|]. apply in_app_or in H. destruct H as [H|H].
      * apply clause_inv in H. destruct H as [-> _]. out Hm.
      * destruct (is_num_const (ef_val e)); [destruct H|]. apply fl_out in H. destruct H; out Hm.
    + apply clause_inv in H. destruct H as [-> _]. out Hm.
    + apply clause_inv in H. destruct H as [-> _]. out Hm.
Qed.

Lemma param_sub t f : In f (M.param_feats t) -> memN f ma_mask = true -> In f (M.type_feats t).
Proof.
  unfold M.param_feats. intros H Hm. apply in_app_or in H. destruct H as [H|H]; [exact H|].
  destruct t as [|lo hi|lo hi|]; simpl in H.
  - destruct H as [<-|[]]. out Hm.
  - destruct (negb lo || negb hi); destruct H as [<-|[]]; out Hm.
  - destruct H as [<-|[]]. out Hm.
  - destruct H.
Qed.

Lemma fluent_sub P fd f : In f (M.fluent_feats P fd) -> memN f ma_mask = true -> In f (ma_fluent_feats fd).
Proof.
  unfold M.fluent_feats, ma_fluent_feats. cbv zeta. rewrite !in_app_iff. intros [H|[H|H]] Hm.
  - left. destruct (_ || _); [exact H | destruct H].
  - right. left. destruct (fd_ty fd) as [|lo hi|lo hi|]; simpl in *; try exact H.
    + apply in_app_or in H. apply in_or_app. destruct H as [H|H]; [left; exact H | right].
      destruct (_ || _); [exact H | destruct H].
    + apply in_app_or in H. apply in_or_app. destruct H as [H|H]; [left; exact H | right].
      destruct (_ || _); [exact H | destruct H].
  - right. right. apply in_flat_map in H. destruct H as (pt & Hpt & H). apply in_app_or in H. destruct H as [H|H].
    + apply in_flat_map. exists pt. auto.
    + destruct pt; simpl in H; try (destruct H; fail); destruct H as [<-|[]]; out Hm.
Qed.

Section MA.
  Variable Mm : ma_desc.
  Let F := flat_ma Mm.

  Ltac kin := unfold kind_ma; rewrite !in_app_iff.

  Lemma ma_in_fluent fd : In fd (ma_all_fluents Mm) -> incl (ma_fluent_feats fd) (kind_ma Mm).
  Proof.
    unfold ma_all_fluents. intros H f Hf. apply in_app_or in H. kin. destruct H as [H|H].
    - apply in_flat_map in H. destruct H as (ag & Hag & H). right. left. apply in_flat_map. exists ag. split; [exact Hag|].
      eapply fm_in; eauto.
    - right. right. left. eapply fm_in; eauto.
  Qed.
  Lemma ma_in_objty t : In t (ma_objtys Mm) -> incl (M.type_feats t) (kind_ma Mm).
  Proof. intros H f Hf. kin. do 3 right. left. eapply fm_in; eauto. Qed.
  Lemma ma_in_action a : In a (ma_all_actions Mm) -> incl (ma_action_feats a) (kind_ma Mm).
  Proof.
    unfold ma_all_actions. intros H f Hf. apply in_flat_map in H. destruct H as (ag & Hag & H). kin. do 4 right. left.
    apply in_flat_map. exists ag. split; [exact Hag|]. apply in_or_app. right. eapply fm_in; eauto.
  Qed.
  Lemma ma_in_action_param a t :
    In a (ma_all_actions Mm) -> In t (Spec.action_params a) -> incl (M.type_feats t) (kind_ma Mm).
  Proof.
    intros Ha Ht f Hf. apply (ma_in_action a Ha). destruct a as [i|d]; simpl; apply in_or_app; left; eapply fm_in; eauto.
  Qed.
  Lemma ma_in_agent_goal ag : In ag (ma_agents Mm) -> incl (ma_agent_goal_feats ag) (kind_ma Mm).
  Proof. intros Hag f Hf. unfold kind_ma. summand 4. eapply fm_in; [exact Hag|]. apply in_or_app. left. exact Hf. Qed.
  Lemma ma_in_goal g : In g (ma_all_goals Mm) -> incl (ma_cond_feats g) (kind_ma Mm).
  Proof.
    unfold ma_all_goals. intros H f Hf. apply in_app_or in H. destruct H as [H|H].
    - apply in_flat_map in H. destruct H as (ag & Hag & H). apply (ma_in_agent_goal ag Hag).
      unfold ma_agent_goal_feats. do 2 (apply in_or_app; right). eapply fm_in; eauto.
    - kin. do 5 right. eapply fm_in; eauto.
  Qed.

  Lemma covers_ma_class : incl (spec_ma_class Mm) (kind_ma Mm).
  Proof.
    unfold spec_ma_class. repeat apply incl_app.
    - intros f [<-|[]]. left. reflexivity.
    - apply clause_incl. intro E. apply existsb_exists in E. destruct E as (ag & Hag & E).
      apply (ma_in_agent_goal ag Hag). unfold ma_agent_goal_feats. summand 0. apply in_clause. exact E.
    - apply clause_incl. intro E. apply existsb_exists in E. destruct E as (ag & Hag & E).
      apply (ma_in_agent_goal ag Hag). unfold ma_agent_goal_feats. summand 1. apply in_clause. exact E.
  Qed.

  Lemma decl_type_in_kind t : In t (ma_decl_types Mm) -> incl (M.type_feats t) (kind_ma Mm).
  Proof.
    unfold ma_decl_types. rewrite !in_app_iff. intros [H|[H|H]] f Hf.
    - eapply ma_in_objty; eauto.
    - apply in_flat_map in H. destruct H as (fd & Hfd & H). apply (ma_in_fluent fd Hfd). unfold ma_fluent_feats.
      rewrite !in_app_iff. destruct H as [<-|H]; [left; exact Hf | right; right; eapply fm_in; eauto].
    - apply in_flat_map in H. destruct H as (a & Ha & H). eapply ma_in_action_param; eauto.
  Qed.

  Hypothesis WF : wf_ma Mm.

  Lemma wf_ma_parts : wf F /\ forallb wf_process_eff (ma_ceffs Mm) = true /\ ma_var_types_okb Mm = true.
  Proof.
    pose proof WF as W. unfold wf_ma, wf_mab in W. apply andb_true_iff in W. destruct W as [W W3].
    apply andb_true_iff in W. destruct W as [W1 W2]. auto.
  Qed.

  Lemma var_type_in_kind e v f :
    In e (Spec.all_effects F) -> In v (ef_forall e) -> In f (M.type_feats (snd v)) -> In f (kind_ma Mm).
  Proof.
    intros He Hv Hf. destruct wf_ma_parts as (_ & _ & W). unfold ma_var_types_okb in W. rewrite forallb_forall in W.
    assert (X : In (snd v) (ma_var_types Mm)).
    { unfold ma_var_types. apply in_flat_map. exists e. split; [exact He|]. apply in_map. exact Hv. }
    specialize (W _ X). rewrite forallb_forall in W. specialize (W _ Hf). apply memN_In in W.
    apply in_flat_map in W. destruct W as (t & Ht & Hft). eapply decl_type_in_kind; eauto.
  Qed.

  Lemma action_effect_in a e : In a (ma_all_actions Mm) -> In e (Spec.action_effects a) -> In e (Spec.all_effects F).
  Proof.
    intros Ha He. unfold Spec.all_effects. apply in_or_app. left. apply in_flat_map. exists a. split; [exact Ha | exact He].
  Qed.

  Lemma action_sub a f :
    In a (ma_all_actions Mm) -> In f (M.action_feats F a) -> memN f ma_mask = true -> In f (kind_ma Mm).
  Proof.
    intros Ha Hf Hm. destruct a as [i|d]; simpl in Hf.
    - unfold M.iaction_feats in Hf. rewrite !in_app_iff in Hf. destruct Hf as [H|[H|[H|[H|[H|H]]]]].
      + apply in_flat_map in H. destruct H as (t & Ht & H). apply param_sub in H; [|exact Hm].
        exact (ma_in_action_param _ t Ha Ht f H).
      + apply clause_inv in H. destruct H as [-> _]. out Hm.
      + apply clause_inv in H. destruct H as [-> _]. out Hm.
      + apply in_flat_map in H. destruct H as (c & Hc & H). apply cond_sub in H; [|exact Hm].
        apply (ma_in_action _ Ha). simpl. rewrite !in_app_iff. right. left. eapply fm_in; eauto.
      + apply in_flat_map in H. destruct H as (e & He & H). apply eff_sub in H; [|exact Hm]. destruct H as [H|(v & Hv & H)].
        * apply (ma_in_action _ Ha). simpl. rewrite !in_app_iff. right. right. eapply fm_in; eauto.
        * eapply var_type_in_kind; [|exact Hv|exact H]. apply (action_effect_in _ _ Ha). exact He.
      + apply clause_inv in H. destruct H as [-> _]. out Hm.
    - unfold M.daction_feats in Hf. rewrite !in_app_iff in Hf. destruct Hf as [H|[H|[H|[H|[H|[H|[H|[H|H]]]]]]]].
      + apply in_flat_map in H. destruct H as (t & Ht & H). apply param_sub in H; [|exact Hm].
        exact (ma_in_action_param _ t Ha Ht f H).
      + apply clause_inv in H. destruct H as [-> _]. out Hm.
      + unfold M.duration_feats, M.bound_feats in H. rewrite !in_app_iff in H. destruct H as [H|[H|[H|[H|H]]]].
        * destruct (de_cls (da_lo d)); destruct H as [<-|[]]; out Hm.
        * destruct (de_cls (da_hi d)); destruct H as [<-|[]]; out Hm.
        * apply clause_inv in H. destruct H as [-> _]. out Hm.
        * apply clause_inv in H. destruct H as [-> _]. out Hm.
        * apply fl_out in H. destruct H; out Hm.
      + apply in_flat_map in H. destruct H as (x & Hx & H). unfold M.timed_condition_feats in H. apply in_app_or in H.
        destruct H as [H|H]; [apply interval_out in H; destruct H; out Hm|]. apply cond_sub in H; [|exact Hm].
        apply (ma_in_action _ Ha). cbn [ma_action_feats]. rewrite !in_app_iff. right. right. left.
        apply in_flat_map. exists x. auto.
      + apply in_flat_map in H. destruct H as (x & Hx & H). unfold M.timed_effect_feats in H. apply in_app_or in H.
        destruct H as [H|H]; [destruct (negb _); [apply tm_out in H; destruct H; out Hm | destruct H]|].
        apply eff_sub in H; [|exact Hm]. destruct H as [H|(v & Hv & H)].
        * apply (ma_in_action _ Ha). cbn [ma_action_feats]. rewrite !in_app_iff. right. right. right. apply in_flat_map. exists x. auto.
        * eapply var_type_in_kind; [|exact Hv|exact H]. apply (action_effect_in _ _ Ha). simpl. apply in_or_app. left.
          apply in_map. exact Hx.
      + apply in_flat_map in H. destruct H as (x & Hx & H). unfold M.timed_ceffect_feats in H. apply in_app_or in H.
        destruct H as [H|H]; [apply interval_out in H; destruct H; out Hm|].
        (* a plain continuous effect has no feature of the mask *)
        destruct wf_ma_parts as (_ & W & _). rewrite forallb_forall in W.
        assert (X : In (snd x) (ma_ceffs Mm)).
        { unfold ma_ceffs. apply in_flat_map. exists (ADur d). split; [exact Ha|]. apply in_map. exact Hx. }
        specialize (W _ X). unfold wf_process_eff in W. apply andb_true_iff in W. destruct W as [W K].
        apply andb_true_iff in W. destruct W as [T NV]. apply negb_true_iff in NV.
        apply eff_sub in H; [|exact Hm]. destruct H as [H|(v & Hv & H)].
        * exfalso. unfold ma_effect_feats, is_conditional in H. rewrite T, NV in H. simpl in H.
          destruct (ef_kind (snd x)); try discriminate; destruct H.
        * rewrite (nonempty_in _ _ Hv) in NV. discriminate.
      + apply clause_inv in H. destruct H as [-> _]. out Hm.
      + destruct H as [<-|[]]. out Hm.
      + unfold M.continuous_feats in H. apply in_app_or in H. destruct H as [H|H].
        * apply in_flat_map in H. destruct H as (e & He & H). destruct (ef_kind e); try (destruct H; fail);
            destruct H as [<-|[]]; out Hm.
        * apply clause_inv in H. destruct H as [-> _]. out Hm.
  Qed.

  Lemma raw_sub f : In f (M.raw F) -> memN f ma_mask = true -> In f (kind_ma Mm).
  Proof.
    intros Hf Hm. unfold M.raw in Hf. simpl in Hf.
    destruct Hf as [<-|Hf]; [out Hm|]. rewrite !in_app_iff in Hf.
    destruct Hf as [H|[H|[H|[H|[H|[]]]]]].
    - apply in_flat_map in H. destruct H as (fd & Hfd & H). apply fluent_sub in H; [|exact Hm]. eapply ma_in_fluent; eauto.
    - apply in_flat_map in H. destruct H as (t & Ht & H). eapply ma_in_objty; eauto.
    - apply in_flat_map in H. destruct H as (a & Ha & H). eapply action_sub; eauto.
    - apply in_flat_map in H. destruct H as (g & Hg & H). apply cond_sub in H; [|exact Hm]. eapply ma_in_goal; eauto.
    - apply in_flat_map in H. destruct H as (fd & Hfd & H). unfold M.initial_feats in H.
      destruct (fd_default fd); [destruct H|]. destruct (negb _); [|destruct H].
      destruct (cnum _); destruct H as [<-|[]]; out Hm.
  Qed.

  Theorem covers_ma_section : incl (spec_ma Mm) (kind_ma Mm).
  Proof.
    unfold spec_ma. apply incl_app; [|apply covers_ma_class]. intros f Hf.
    apply filter_In in Hf. destruct Hf as [Hf Hm]. apply raw_sub; [|exact Hm].
    apply spec_in_raw; [|exact Hf]. apply wf_ma_parts.
  Qed.
End MA.

Theorem covers_ma M : wf_ma M -> incl (spec_ma M) (kind_ma M).
Proof. intro W. apply covers_ma_section. exact W. Qed.
(* [unstatic] leaves every feature alone except the five STATIC_FLUENTS_IN_x, which only fl_feats and the action-cost
   loop produce; a list it leaves alone satisfies map unstatic l = l *)
Lemma fixed_incl l : map unstatic l = l -> incl (map unstatic l) l.
Proof. intros ->. apply incl_refl. Qed.
Lemma in_unstatic l l' f : incl (map unstatic l) l' -> In f l -> In (unstatic f) l'.
Proof. intros H Hf. apply H. apply in_map. exact Hf. Qed.
Lemma flat_map_fixed {A} (g : A -> list feature) l : (forall x, map unstatic (g x) = g x) -> map unstatic (flat_map g l) = flat_map g l.
Proof. intro H. rewrite map_flat_map. apply flat_map_ext. exact H. Qed.
Lemma flat_map_unstatic {A} (g g' : A -> list feature) l f :
  (forall x, incl (map unstatic (g x)) (g' x)) -> In f (flat_map g l) -> In (unstatic f) (flat_map g' l).
Proof. intros H Hf. apply (in_map unstatic) in Hf. rewrite map_flat_map in Hf. revert Hf. apply incl_flat_map. exact H. Qed.
Lemma cons_unstatic g l l' : unstatic g = g -> incl (map unstatic l) l' -> incl (map unstatic (g :: l)) (g :: l').
Proof. intros E H. simpl. rewrite E. apply incl_cons; [left; reflexivity | apply incl_tl; exact H]. Qed.
Lemma clause_unstatic g b : unstatic g = g -> map unstatic (clause g b) = clause g b.
Proof. intro E. destruct b; simpl; rewrite ?E; reflexivity. Qed.

Lemma fl_unstatic P fs A B :
  unstatic A = B -> unstatic B = B -> incl (map unstatic (M.fl_feats P fs A B)) (M.fl_feats no_sets fs A B).
Proof.
  intros UA UB f' H. apply in_map_iff in H. destruct H as (f & <- & H).
  unfold M.fl_feats in *. apply in_app_or in H. apply in_or_app. right.
  assert (X : exists g, In g fs /\ (f = A \/ f = B)).
  { destruct H as [H|H]; apply clause_inv in H; destruct H as [-> E]; apply existsb_exists in E; destruct E as (g & Hg & _); eauto. }
  destruct X as (g & Hg & E).
  assert (U : unstatic f = B) by (destruct E as [->| ->]; assumption). rewrite U.
  apply in_clause. apply existsb_exists. exists g. split; [exact Hg | reflexivity].
Qed.

Lemma expr_unstatic c : map unstatic (M.expr_feats c) = M.expr_feats c.
Proof. unfold M.expr_feats. cbv zeta. rewrite !map_app, !clause_unstatic by reflexivity. reflexivity. Qed.
Lemma type_unstatic t : map unstatic (M.type_feats t) = M.type_feats t.
Proof. destruct t as [| | |u [|]]; reflexivity. Qed.
Lemma param_unstatic t : map unstatic (M.param_feats t) = M.param_feats t.
Proof. destruct t as [|[|] [|]|lo hi|u [|]]; reflexivity. Qed.
Lemma tm_unstatic t : map unstatic (M.tm_feats t) = M.tm_feats t.
Proof. unfold M.tm_feats. destruct (_ || _); reflexivity. Qed.
Lemma interval_unstatic i : map unstatic (M.interval_feats i) = M.interval_feats i.
Proof. unfold M.interval_feats. destruct (_ || _); [|reflexivity]. rewrite map_app, !tm_unstatic. reflexivity. Qed.
Lemma gains_unstatic w : map unstatic (M.gains_feats w) = M.gains_feats w.
Proof. apply flat_map_fixed. intros [|]; reflexivity. Qed.
Lemma initial_unstatic fd : map unstatic (M.initial_feats fd) = M.initial_feats fd.
Proof.
  unfold M.initial_feats. destruct (fd_default fd); [reflexivity|]. destruct (negb _); [|reflexivity].
  destruct (cnum _); reflexivity.
Qed.

Lemma effect_unstatic P e : incl (map unstatic (M.effect_feats P e)) (M.effect_feats no_sets e).
Proof.
  unfold M.effect_feats. cbv zeta. rewrite !map_app. repeat apply incl_app_app.
  - destruct (is_conditional e); [|apply incl_refl]. rewrite map_app, expr_unstatic. apply incl_refl.
  - destruct (nonempty (ef_forall e)); [|apply incl_refl]. apply cons_unstatic; [reflexivity|].
    rewrite flat_map_fixed by (intro; apply type_unstatic). apply incl_refl.
  - destruct (ef_kind e); [destruct (ef_vcls e)|..].
    1-4: rewrite map_app, clause_unstatic by reflexivity; apply incl_app_app; [apply incl_refl | apply fl_unstatic; reflexivity].
    1-2: apply cons_unstatic; [reflexivity|]; rewrite map_app, clause_unstatic by reflexivity; apply incl_app_app; [apply incl_refl|];
         destruct (is_num_const (ef_val e)); [apply incl_refl | apply fl_unstatic; reflexivity].
    1-2: rewrite clause_unstatic by reflexivity; apply incl_refl.
Qed.

Lemma duration_unstatic P lo hi : incl (map unstatic (M.duration_feats P lo hi)) (M.duration_feats no_sets lo hi).
Proof.
  assert (B : forall d, map unstatic (M.bound_feats d) = M.bound_feats d).
  { intro d. unfold M.bound_feats. destruct (de_cls d); reflexivity. }
  unfold M.duration_feats. rewrite !map_app, !B, !clause_unstatic by reflexivity.
  repeat (apply incl_app_app; [apply incl_refl|]). apply fl_unstatic; reflexivity.
Qed.

Lemma metric_unstatic P m : incl (map unstatic (M.metric_feats P m)) (M.metric_feats no_sets m).
Proof.
  destruct m; cbn [M.metric_feats]; try apply incl_refl; (apply cons_unstatic; [reflexivity|]).
  - rewrite expr_unstatic. apply incl_refl.
  - rewrite expr_unstatic. apply incl_refl.
  - rewrite map_flat_map. apply incl_flat_map. intro c. rewrite !map_app, expr_unstatic.
    apply incl_app_app; [apply incl_refl | apply incl_app_app].
    + destruct (snd c); apply incl_refl.
    + rewrite map_flat_map. apply incl_flat_map. intro g. destruct (M.static P g); apply incl_refl.
  - rewrite map_app, gains_unstatic, (flat_map_fixed _ _ expr_unstatic). apply incl_refl.
  - rewrite map_app, gains_unstatic, (flat_map_fixed _ _ expr_unstatic). apply incl_refl.
Qed.

Lemma fluent_unstatic P fd : incl (map unstatic (M.fluent_feats P fd)) (M.fluent_feats no_sets fd).
Proof.
  unfold M.fluent_feats. cbv zeta. rewrite !map_app. repeat apply incl_app_app.
  - destruct (_ || _); [rewrite type_unstatic; apply incl_refl | apply incl_nil_l].
  - destruct (fd_ty fd) as [|lo hi|lo hi|]; try apply incl_refl.
    + rewrite map_app, clause_unstatic by reflexivity. apply incl_app_app; [apply incl_refl|].
      destruct (_ || _); [apply incl_refl | apply incl_nil_l].
    + rewrite map_app, clause_unstatic by reflexivity. apply incl_app_app; [apply incl_refl|].
      destruct (_ || _); [apply incl_refl | apply incl_nil_l].
  - rewrite flat_map_fixed; [apply incl_refl|]. intro pt. rewrite map_app, type_unstatic. destruct pt; reflexivity.
Qed.

Lemma unstatic_not_ct f : memN f spec_feature_list = true -> unstatic f <> f_CONTINUOUS_TIME.
Proof.
  intro L. unfold unstatic.
  repeat match goal with |- context [if ?c then _ else _] => destruct c end; try (intro E; vm_compute in E; discriminate E).
  apply listed_ne. exact L.
Qed.

Section Sched.
  Variable S : sched_desc.
  Let F := flat_sched S.

  Lemma activity_in a : In a (sp_activities S) -> incl (activity_feats a) (sched_raw S).
  Proof. intros Ha f Hf. unfold sched_raw. summand 11. exact (fm_in _ _ _ _ Ha Hf). Qed.
  Lemma constraint_in c : In c (sched_constraints S) -> incl (constraint_feats c) (sched_raw S).
  Proof.
    intros Hc f Hf. unfold sched_constraints in Hc. apply in_app_or in Hc. destruct Hc as [Hc|Hc].
    - unfold sched_raw. summand 8. exact (fm_in _ _ _ _ Hc Hf).
    - apply in_flat_map in Hc. destruct Hc as (a & Ha & Hc). apply (activity_in a Ha).
      unfold activity_feats. do 5 (apply in_or_app; right). exact (fm_in _ _ _ _ Hc Hf).
  Qed.

  Lemma covers_sched_class : incl (spec_sched_class S) (kind_sched S).
  Proof.
    unfold spec_sched_class. repeat apply incl_app.
    - intros f [<-|[]]. apply finalize_keeps; [left; reflexivity | fne].
    - apply finalize_clause; [fne|]. intro E. apply existsb_exists in E. destruct E as (a & Ha & E).
      apply (activity_in a Ha). unfold activity_feats. summand 0. apply in_clause. exact E.
    - apply finalize_clause; [fne|]. intro E. apply existsb_exists in E. destruct E as (c & Hc & E).
      apply (constraint_in c Hc). unfold constraint_feats. apply in_or_app. right. apply in_clause. exact E.
  Qed.

  Lemma activity_unstatic a f :
    In f (M.action_feats F (activity_as_action a)) -> memN f spec_feature_list = true -> In (unstatic f) (activity_feats a).
  Proof.
    intros H L. simpl in H. unfold M.daction_feats in H. cbn [da_params da_lo da_hi da_conds da_effs da_ceffs da_sims da_motion] in H.
    unfold activity_feats. rewrite !in_app_iff in H.
    destruct H as [H|[H|[H|[H|[H|[H|[H|[H|H]]]]]]]].
    - summand 2. revert H. apply flat_map_unstatic. intro t. apply fixed_incl. apply param_unstatic.
    - destruct H.
    - summand 1. revert H. apply in_unstatic. apply duration_unstatic.
    - summand 4. revert H. apply flat_map_unstatic. intro x. apply fixed_incl.
      unfold M.timed_condition_feats. rewrite map_app, interval_unstatic, expr_unstatic. reflexivity.
    - summand 3. revert H. apply flat_map_unstatic. intro x.
      unfold M.timed_effect_feats. rewrite map_app. apply incl_app_app; [|apply effect_unstatic].
      destruct (negb _); [rewrite tm_unstatic|]; apply incl_refl.
    - destruct H.
    - destruct H.
    - destruct H as [<-|[]]. vm_compute in L. discriminate L.
    - destruct H.
  Qed.

  Lemma nonempty_map {A B} (g : A -> B) l : nonempty (map g l) = nonempty l.
  Proof. destruct l; reflexivity. Qed.

  Lemma raw_unstatic f : In f (M.raw F) -> memN f spec_feature_list = true -> In (unstatic f) (sched_raw S).
  Proof.
    pose (Q f := memN f spec_feature_list = true -> In (unstatic f) (sched_raw S)).
    assert (A : Forall Q (M.raw F)); [|exact (proj1 (Forall_forall Q _) A f)].
    clear f. unfold M.raw. simpl. rewrite !nonempty_map.
    apply Forall_cons; [intro L; vm_compute in L; discriminate L|].
    repeat (apply Forall_app; split); [..|apply Forall_nil]; apply Forall_forall; intros f H L; unfold sched_raw.
    - summand 1. revert H. apply flat_map_unstatic. intro m. apply metric_unstatic.
    - summand 2. revert H. apply flat_map_unstatic. intro fd. apply fluent_unstatic.
    - summand 3. revert H. apply flat_map_unstatic. intro t. apply fixed_incl. apply type_unstatic.
    - apply in_flat_map in H. destruct H as (a' & Ha & H). apply in_map_iff in Ha.
      destruct Ha as (a & <- & Ha). apply (activity_in a Ha). apply activity_unstatic; assumption.
    - destruct (nonempty (sp_effs S)); [|destruct H]. destruct H as [<-|[<-|[]]]; [vm_compute in L; discriminate L|].
      summand 6. left. reflexivity.
    - summand 9. apply in_flat_map in H. destruct H as (te & Hte & H). apply in_map_iff in Hte.
      destruct Hte as (x & <- & Hx). simpl in H. rewrite app_nil_r in H. apply in_flat_map. exists x. split; [exact Hx|].
      revert H. apply in_unstatic. apply effect_unstatic.
    - destruct (nonempty (sp_conds S)); [|destruct H]. destruct H as [<-|[<-|[]]]; [|vm_compute in L; discriminate L].
      summand 5. left. reflexivity.
    - summand 7. apply in_flat_map in H. destruct H as (tg & Htg & H). apply in_map_iff in Htg.
      destruct Htg as (x & <- & Hx). simpl in H. rewrite app_nil_r in H.
      apply in_flat_map. exists x. split; [apply in_or_app; left; exact Hx|].
      revert H. apply in_unstatic. apply fixed_incl. apply expr_unstatic.
    - apply in_flat_map in H. destruct H as (c' & Hc & H). apply in_map_iff in Hc. destruct Hc as (c & <- & Hc).
      apply (constraint_in c Hc). unfold constraint_feats. apply in_or_app. left.
      revert H. apply in_unstatic. apply fixed_incl. apply expr_unstatic.
    - do 12 (apply in_or_app; right). revert H. apply flat_map_unstatic. intro fd. apply fixed_incl. apply initial_unstatic.
  Qed.

  Theorem covers_sched_section : wf_sched S -> incl (spec_sched S) (kind_sched S).
  Proof.
    intros W. unfold spec_sched. apply incl_app; [|apply covers_sched_class]. intros f Hf.
    apply in_map_iff in Hf. destruct Hf as (g & <- & Hg). pose proof (spec_in_list _ _ Hg) as L.
    apply finalize_keeps; [|apply unstatic_not_ct; exact L]. apply raw_unstatic; [|exact L]. apply spec_in_raw; assumption.
  Qed.
  Lemma spec_param_sub t : incl (spec_param_features t) (M.param_feats t).
  Proof.
    unfold M.param_feats. destruct t as [|lo hi|lo hi|u hf]; simpl.
    - intros x [<-|[]]. left. reflexivity.
    - destruct lo, hi; simpl; intros x [<-|[]]; left; reflexivity.
    - intros x [<-|[]]. left. reflexivity.
    - destruct hf; intros x [<-|[]]; simpl; auto.
  Qed.

  Theorem covers_sched_full_section : wf_sched S -> incl (spec_sched_full S) (kind_sched S).
  Proof.
    intros W f Hf. unfold spec_sched_full in Hf. apply in_app_or in Hf. destruct Hf as [Hf|Hf]; [apply covers_sched_section; assumption|].
    unfold spec_sched_vars in Hf. apply in_flat_map in Hf. destruct Hf as (t & Ht & Hf).
    assert (Hne : f <> f_CONTINUOUS_TIME).
    { destruct t as [|lo hi|lo hi|u hf]; simpl in Hf.
      - destruct Hf as [<-|[]]; fne.
      - destruct (lo && hi); destruct Hf as [<-|[]]; fne.
      - destruct Hf as [<-|[]]; fne.
      - destruct hf; destruct Hf as [<-|[]]; fne. }
    apply spec_param_sub in Hf. apply finalize_keeps; [|exact Hne]. unfold sched_raw. summand 10. eapply fm_in; eauto.
  Qed.
End Sched.

Theorem covers_sched_full S : wf_sched S -> incl (spec_sched_full S) (kind_sched S).
Proof. apply covers_sched_full_section. Qed.

Theorem covers_sched S : wf_sched S -> incl (spec_sched S) (kind_sched S).
Proof. apply covers_sched_section. Qed.

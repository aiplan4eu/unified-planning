(* C11 — the results about the top-level [simplify] of Walkers/Simplify.v, from the Simplify_* files exported below. *)
From Coq Require Import List ZArith NArith QArith Qcanon Bool.
Import ListNotations.
Require Import UPV.Core.Expr UPV.Core.Eval UPV.Walkers.Simplify.
Require Export UPV.Proofs.Simplify_base UPV.Proofs.Simplify_fv UPV.Proofs.Simplify_sem UPV.Proofs.Simplify_wf
  UPV.Proofs.Simplify_wfp UPV.Proofs.Simplify_sound UPV.Proofs.Simplify_quant UPV.Proofs.Simplify_nf UPV.Proofs.Simplify_raises.

Lemma simplify_some G e e' : simplify G e = Some e' -> e' = simp G (size e) e.
Proof. unfold simplify. destruct (simp_ok G (size e) e); [|discriminate]. intros H; inversion H; reflexivity. Qed.

Theorem simplify_sound G tau QT S e e' I v :
  cfg_consts G -> wfx tau QT S e = true -> env_ok G tau QT I ->
  simplify G e = Some e' -> eval false e I = Some v -> eval false e' I = Some v.
Proof.
  intros HG W E H. rewrite (simplify_some _ _ _ H). apply (simp_sound G tau QT HG (size e) e S I W E).
Qed.

Theorem simplify_no_new_free_vars G e e' :
  cfg_consts G -> simplify G e = Some e' -> incl (free_vars e') (free_vars e).
Proof. intros HG H. rewrite (simplify_some _ _ _ H). apply simp_fv. exact HG. Qed.

Theorem simplify_idempotent G e e' :
  cfg_consts G -> simplify G e = Some e' -> simplify G e' = Some e'.
Proof. intros HG. apply simplify_idem. exact HG. Qed.

Theorem simplify_preserves_wfx G tau QT S e e' :
  cfg_consts G -> wfx tau QT S e = true -> simplify G e = Some e' -> wfx tau QT S e' = true.
Proof. intros HG W H. rewrite (simplify_some _ _ _ H). apply simp_wf; assumption. Qed.

Theorem simp_sound_any_fuel G tau QT S n e I v :
  cfg_consts G -> wfx tau QT S e = true -> env_ok G tau QT I ->
  eval false e I = Some v -> eval false (simp G n e) I = Some v.
Proof. intros HG W E. apply (simp_sound G tau QT HG n e S I W E). Qed.

(* the Python code raises only on a divisor that simplifies to the constant 0; such an expression has no value *)
Theorem raises_only_without_value G tau QT strict S n e I :
  cfg_consts G -> wfx tau QT S e = true -> env_ok G tau QT I -> raises G strict n e = true -> eval false e I = None.
Proof. intros HG W E. apply (raises_no_value G tau QT strict HG n e S I W E). Qed.

(* Proofs about Model/PddlLex.v: the tokenisation reads back every layout the converter emits. *)
From Coq Require Import List ZArith NArith QArith Qcanon Bool String Ascii Lia.
Import ListNotations.
Require Import UPV.Core.Expr UPV.Model.PddlExpr UPV.Model.PddlLex UPV.Proofs.StringFacts UPV.Proofs.PddlExpr_proofs.
Local Open Scope string_scope.

Lemma prep_app a b : prep (a ++ b) = prep a ++ prep b.
Proof. induction a as [|x a IH]; cbn [append prep]; [reflexivity|]. rewrite IH. reflexivity. Qed.

Lemma all_c_app p a b : all_c p (a ++ b) = all_c p a && all_c p b.
Proof. induction a as [|x a IH]; cbn [append all_c]; [reflexivity|]. rewrite IH. apply andb_assoc. Qed.

Lemma all_c_impl (p q : ascii -> bool) s : (forall c, p c = true -> q c = true) -> all_c p s = true -> all_c q s = true.
Proof.
  intro H. induction s as [|c s IH]; cbn [all_c]; [auto|]. intro A. apply andb_true_iff in A as [A1 A2].
  rewrite (H _ A1), (IH A2). reflexivity.
Qed.

Definition dstart (s : string) : bool := match s with EmptyString => true | String c _ => is_delim c end.
Definition ws_str (w : string) : bool := all_c is_ws w.

Lemma lex_open top st r : lex_go top st MWs (String "(" r) = lex_go [] (top :: st) MWs r.
Proof. reflexivity. Qed.
Lemma lex_close top f st r : lex_go top (f :: st) MWs (String ")" r) = lex_go (SList (rev top) :: f) st MWs r.
Proof. reflexivity. Qed.

Lemma ws_skip w : ws_str w = true -> forall top st s, lex_go top st MWs (w ++ s) = lex_go top st MWs s.
Proof.
  induction w as [|c w IH]; cbn [ws_str all_c append]; intros H top st s; [reflexivity|].
  apply andb_true_iff in H as [H1 H2]. cbn [lex_go]. unfold is_delim. rewrite H1. cbn [orb]. apply IH. exact H2.
Qed.

Lemma atom_run a : forall b top st rest, all_c (fun c => negb (is_delim c)) a = true ->
  lex_go top st (MAtom b) (a ++ rest) = lex_go top st (MAtom (b ++ a)) rest.
Proof.
  induction a as [|c a IH]; intros b top st rest H.
  - cbn [append]. rewrite str_app_nil_r. reflexivity.
  - cbn [all_c] in H. apply andb_true_iff in H as [H1 H2]. apply negb_true_iff in H1.
    cbn [append lex_go]. rewrite H1. rewrite (IH _ _ _ _ H2). rewrite str_app_assoc. reflexivity.
Qed.

Lemma atom_end b top st rest : dstart rest = true ->
  lex_go top st (MAtom b) rest = lex_go (Atom b :: top) st MWs rest.
Proof.
  destruct rest as [|c r]; cbn [dstart]; intro H; [reflexivity|]. cbn [lex_go]. rewrite H. reflexivity.
Qed.

(* [t] is read as the single element [s], whatever the context, when a delimiter (or the end) follows *)
Definition LX (t : string) (s : sexp) : Prop :=
  forall top st rest, dstart rest = true -> lex_go top st MWs (t ++ rest) = lex_go (s :: top) st MWs rest.

Lemma LX_atom a : atom_ok a = true -> LX a (Atom a).
Proof.
  unfold atom_ok. destruct a as [|c a]; [discriminate|]. cbn [String.eqb negb andb all_c]. intro H.
  apply andb_true_iff in H as [H1 H2]. apply andb_true_iff in H1 as [Hd Hs].
  apply negb_true_iff in Hd. apply negb_true_iff in Hs.
  intros top st rest Hr. cbn [append lex_go]. rewrite Hd, Hs.
  rewrite atom_run by (eapply all_c_impl; [|exact H2]; intros x Hx; apply andb_true_iff in Hx as [Hx _]; exact Hx).
  cbn [append]. apply atom_end. exact Hr.
Qed.

Fixpoint seps_ok (items : list (string * string)) : Prop :=
  match items with
  | [] => True
  | (_, w) :: r => ws_str w = true /\ (r = [] \/ w <> "") /\ seps_ok r
  end.

(* items may follow each other without a blank when the next one starts with a delimiter (the writer's "(and(forall ...");
   [seps_ok] is the syntactic special case "a blank between any two items" *)
Fixpoint seps_ok2 (items : list (string * string)) : Prop :=
  match items with
  | [] => True
  | (_, w) :: r => ws_str w = true /\ (forall x, dstart x = true -> dstart (w ++ (cat r ++ x)) = true) /\ seps_ok2 r
  end.

Lemma cat_lex2 items ss : Forall2 (fun it s => LX (fst it) s) items ss -> seps_ok2 items ->
  forall top st rest, lex_go top st MWs (cat items ++ String ")" rest) = lex_go (rev ss ++ top) st MWs (String ")" rest).
Proof.
  induction 1 as [|[t w] s items ss Hx Hl IH]; intros Hs top st rest; [reflexivity|].
  cbn [cat fst seps_ok2] in *. destruct Hs as (Hw & Hd & Hs').
  rewrite !str_app_assoc. rewrite Hx by (apply Hd; reflexivity).
  rewrite ws_skip by exact Hw. rewrite IH by exact Hs'. cbn [rev]. rewrite <- app_assoc. reflexivity.
Qed.

Lemma LX_tl2 items ss : Forall2 (fun it s => LX (fst it) s) items ss -> seps_ok2 items -> LX (tl items) (SList ss).
Proof.
  intros F Hs top st rest Hr. unfold tl. cbn [append]. rewrite lex_open, str_app_assoc. cbn [append].
  rewrite (cat_lex2 items ss F Hs), lex_close, app_nil_r, rev_involutive. reflexivity.
Qed.

Lemma seps_ok_2 items : seps_ok items -> seps_ok2 items.
Proof.
  induction items as [|[t w] r IH]; [auto|]. cbn [seps_ok seps_ok2]. intros (Hw & Hne & Hr). split; [exact Hw|].
  split; [|apply IH; exact Hr]. intros x Hx. destruct w as [|c w'].
  - destruct Hne as [->|Hne]; [exact Hx|congruence].
  - cbn [ws_str all_c] in Hw. apply andb_true_iff in Hw as [Hc _]. cbn [append dstart]. unfold is_delim. rewrite Hc. reflexivity.
Qed.

Lemma LX_tl items ss : Forall2 (fun it s => LX (fst it) s) items ss -> seps_ok items -> LX (tl items) (SList ss).
Proof. intros F Hs. exact (LX_tl2 items ss F (seps_ok_2 items Hs)). Qed.

Lemma sepd_F2 {R : string -> sexp -> Prop} ts ss : Forall2 R ts ss -> Forall2 (fun it s => R (fst it) s) (sepd ts) ss.
Proof.
  induction 1 as [|t s ts ss Hx Hl IH]; [constructor|]. destruct ts as [|t' ts'].
  - inversion Hl. subst. cbn [sepd]. constructor; [exact Hx|constructor].
  - change (sepd (t :: t' :: ts')) with ((t, " ") :: sepd (t' :: ts')). constructor; [exact Hx|exact IH].
Qed.

Lemma sepd_ok ts : seps_ok (sepd ts).
Proof.
  induction ts as [|t ts IH]; [exact I|]. destruct ts as [|t' ts'].
  - cbn. auto.
  - change (sepd (t :: t' :: ts')) with ((t, " ") :: sepd (t' :: ts')). cbn [seps_ok]. split; [reflexivity|].
    split; [right; discriminate|exact IH].
Qed.

Lemma LX_tlist ts ss : Forall2 LX ts ss -> LX (tlist ts) (SList ss).
Proof. intro F. apply LX_tl; [apply sepd_F2; exact F|apply sepd_ok]. Qed.

Section SexpInd.
  Variable P : sexp -> Prop.
  Hypothesis HA : forall a, P (Atom a).
  Hypothesis HL : forall l, Forall P l -> P (SList l).
  Fixpoint sexp_ind' (s : sexp) : P s :=
    match s with
    | Atom a => HA a
    | SList l => HL l ((fix go (l : list sexp) : Forall P l :=
                          match l with [] => Forall_nil P | x :: r => Forall_cons x (sexp_ind' x) (go r) end) l)
    end.
End SexpInd.

Lemma lex_of_LX t s : LX t s -> lex t = Some s.
Proof. intro H. unfold lex. rewrite <- (str_app_nil_r t). rewrite H by reflexivity. reflexivity. Qed.

Lemma show_LX s : atoms_ok s = true -> LX (show s) s.
Proof.
  induction s using sexp_ind'; cbn [atoms_ok show]; intro Hok; [apply LX_atom; exact Hok|].
  apply LX_tlist. induction H as [|x l Hx Hl IH]; [constructor|]. cbn [forallb] in Hok.
  apply andb_true_iff in Hok as [H1 H2]. cbn [map]. constructor; [apply Hx; exact H1|apply IH; exact H2].
Qed.

Theorem lex_show s : atoms_ok s = true -> lex (show s) = Some s.
Proof. intro H. apply lex_of_LX, show_LX, H. Qed.

Definition clean (t : string) : Prop := prep t = t.

Lemma clean_app a b : clean a -> clean b -> clean (a ++ b).
Proof. unfold clean. intros A B. rewrite prep_app, A, B. reflexivity. Qed.

Lemma clean_cat items : Forall (fun it => clean (fst it) /\ clean (snd it)) items -> clean (cat items).
Proof.
  induction 1 as [|[t w] items [H1 H2] Hl IH]; [reflexivity|]. cbn [cat]. apply clean_app; [exact H1|].
  apply clean_app; [exact H2|exact IH].
Qed.

Lemma clean_tl items : Forall (fun it => clean (fst it) /\ clean (snd it)) items -> clean (tl items).
Proof.
  intro H. unfold tl. change (String "(" (cat items ++ ")")) with ("(" ++ (cat items ++ ")")).
  apply clean_app; [reflexivity|]. apply clean_app; [apply clean_cat; exact H|reflexivity].
Qed.

Lemma sepd_clean ts : Forall clean ts -> Forall (fun it => clean (fst it) /\ clean (snd it)) (sepd ts).
Proof.
  induction 1 as [|t ts Hx Hl IH]; [constructor|]. destruct ts as [|t' ts'].
  - cbn [sepd]. constructor; [split; [exact Hx|reflexivity]|constructor].
  - change (sepd (t :: t' :: ts')) with ((t, " ") :: sepd (t' :: ts')). constructor; [split; [exact Hx|reflexivity]|exact IH].
Qed.

Definition PT (t : string) (s : sexp) : Prop := LX t s /\ clean t.

Lemma F2_PT ts ss : Forall2 PT ts ss -> Forall2 LX ts ss /\ Forall clean ts.
Proof. induction 1 as [|t s ts ss [H1 H2] Hl [IH1 IH2]]; split; constructor; auto. Qed.

Lemma PT_tlist ts ss : Forall2 PT ts ss -> PT (tlist ts) (SList ss).
Proof.
  intro F. apply F2_PT in F as [F1 F2]. split; [apply LX_tlist; exact F1|apply clean_tl, sepd_clean; exact F2].
Qed.

Lemma name_ok_atom a : name_ok a = true -> atom_ok a = true /\ clean a.
Proof.
  unfold name_ok, atom_ok. intro H. apply andb_true_iff in H as [H1 H2]. rewrite H1. split.
  - eapply all_c_impl; [|exact H2]. unfold okc. intros c Hc. apply andb_true_iff in Hc as [Hc _]. exact Hc.
  - clear H1. unfold clean. induction a as [|c a IH]; [reflexivity|]. cbn [all_c] in H2.
    apply andb_true_iff in H2 as [Hc H2]. unfold okc in Hc. apply andb_true_iff in Hc as [_ Hc].
    apply Ascii.eqb_eq in Hc. cbn [prep]. rewrite Hc, (IH H2). reflexivity.
Qed.

Lemma PT_atom a : name_ok a = true -> PT a (Atom a).
Proof. intro H. destruct (name_ok_atom a H) as [A C]. split; [apply LX_atom; exact A|exact C]. Qed.

Lemma name_ok_q x : name_ok x = true -> name_ok (String "?" x) = true.
Proof.
  unfold name_ok. intro H. apply andb_true_iff in H as [_ H]. cbn [String.eqb negb andb all_c]. rewrite H. reflexivity.
Qed.

Definition numch (c : ascii) : bool :=
  match digit_of c with Some _ => true | None => Ascii.eqb c "-" || Ascii.eqb c "." end.

Lemma numch_okc c : numch c = true -> okc c = true.
Proof. apply chars_impl. vm_compute. reflexivity. Qed.

Lemma numch_digit d : (d < 10)%N -> numch (digit_char d) = true.
Proof. intro H. unfold numch. destruct (digit_ok d H) as [D _]. rewrite D. reflexivity. Qed.

Lemma numch_show_N_fuel fuel : forall n acc, all_c numch acc = true -> all_c numch (show_N_fuel fuel n acc) = true.
Proof.
  induction fuel as [|f IH]; intros n acc H; cbn [show_N_fuel]; [exact H|].
  assert (all_c numch (String (digit_char (n mod 10)) acc) = true) as H'.
  { cbn [all_c]. rewrite numch_digit by (apply N.mod_lt; lia). exact H. }
  destruct (n <? 10)%N; [exact H'|apply IH; exact H'].
Qed.

Lemma numch_frac k : forall r acc, all_c numch acc = true -> all_c numch (frac_digits k r acc) = true.
Proof.
  induction k as [|k IH]; intros r acc H; cbn [frac_digits]; [exact H|]. apply IH. cbn [all_c].
  rewrite numch_digit by (apply N.mod_lt; lia). exact H.
Qed.

Lemma numstr_ok ip X : all_c numch X = true -> all_c numch (show_N ip ++ X) = true /\ show_N ip ++ X <> "".
Proof.
  intro H. split.
  - rewrite all_c_app, H. unfold show_N. rewrite numch_show_N_fuel by reflexivity. reflexivity.
  - destruct (show_N_head ip X) as (d & r & _ & E). rewrite E. discriminate.
Qed.

Lemma name_ok_num (neg : bool) body : all_c numch body = true /\ body <> "" ->
  name_ok (if neg then String "-" body else body) = true.
Proof.
  intros [H Hne]. assert (all_c okc body = true) as Hb by (eapply all_c_impl; [exact numch_okc|exact H]).
  unfold name_ok. destruct neg.
  - cbn [String.eqb negb andb all_c]. rewrite Hb. reflexivity.
  - rewrite Hb. destruct body; [congruence|reflexivity].
Qed.

Lemma name_ok_show_Z z : name_ok (show_Z z) = true.
Proof.
  unfold show_Z. apply (name_ok_num (z <? 0)%Z). rewrite <- (str_app_nil_r (show_N _)). apply numstr_ok. reflexivity.
Qed.

Lemma name_ok_show_real q s : show_real q = Some s -> name_ok s = true.
Proof.
  unfold show_real. remember (pow10 16) as P16 eqn:HP. clear HP.
  destruct (find_scale MAX_SCALE 0 (N.pos (Qden (this q)))) as [k|]; [|discriminate].
  match goal with |- context [if ?c then Some _ else None] => destruct c end; [|discriminate].
  intro H. inversion H as [Hs]. clear H Hs.
  apply name_ok_num. destruct k as [|k'].
  - match goal with |- context [if ?c then _ else _] => destruct c end; [apply numstr_ok; reflexivity|].
    rewrite <- (str_app_nil_r (show_N _)). apply numstr_ok. reflexivity.
  - apply numstr_ok. cbn [all_c]. change (numch ".") with true. cbn [andb]. apply numch_frac. reflexivity.
Qed.

Ltac f2 := repeat (first [apply Forall2_nil | apply Forall2_cons | apply Forall_nil | apply Forall_cons]).

Section Text.
  Variable nm : naming.
  (* names are lexically valid tokens: not empty, no white space, parenthesis, ";", tab or upper-case letter
     (_get_pddl_name lower-cases and replaces every character outside [0-9a-zA-Z_-]) *)
  Hypothesis N_fl : forall f, name_ok (nm_fl nm f) = true.
  Hypothesis N_obj : forall o, name_ok (nm_obj nm o) = true.
  Hypothesis N_par : forall p, name_ok (nm_par nm p) = true.
  Hypothesis N_var : forall v, name_ok (nm_var nm v) = true.
  Hypothesis N_ty : forall t, name_ok (nm_ty nm t) = true.

  Definition TX (e : expr) : Prop :=
    forall s, print nm e = Some s -> exists t, print_text nm e = Some t /\ PT t s.

  Lemma tx_list l : Forall TX l -> forall ss, sequence (map (print nm) l) = Some ss ->
    exists ts, sequence (map (print_text nm) l) = Some ts /\ Forall2 PT ts ss.
  Proof.
    induction 1 as [|x l Hx Hl IH]; intros ss Hs.
    - cbn in Hs. inversion Hs. exists []. split; [reflexivity|constructor].
    - cbn [map sequence] in Hs. destruct (print nm x) as [s|] eqn:Px; [|discriminate].
      destruct (sequence (map (print nm) l)) as [ss'|] eqn:Pl; [|discriminate]. inversion Hs. subst ss.
      destruct (Hx s Px) as (t & T1 & T2). destruct (IH ss' eq_refl) as (ts & U1 & U2).
      exists (t :: ts). cbn [map sequence]. rewrite T1, U1. split; [reflexivity|constructor; assumption].
  Qed.

  Lemma tx_un op a : name_ok op = true -> TX a ->
    forall s, match print nm a with Some x => Some (SList [Atom op; x]) | None => None end = Some s ->
    exists t, match print_text nm a with Some x => Some (tlist [op; x]) | None => None end = Some t /\ PT t s.
  Proof.
    intros Hop Ha s H. destruct (print nm a) as [x|] eqn:Pa; [|discriminate]. inversion H. subst s.
    destruct (Ha x Pa) as (t & T1 & T2). rewrite T1. eexists; split; [reflexivity|].
    apply PT_tlist. f2; [apply PT_atom; exact Hop|exact T2].
  Qed.

  Lemma tx_bin op a b : name_ok op = true -> TX a -> TX b ->
    forall s, match print nm a, print nm b with Some x, Some y => Some (SList [Atom op; x; y]) | _, _ => None end = Some s ->
    exists t, match print_text nm a, print_text nm b with Some x, Some y => Some (tlist [op; x; y]) | _, _ => None end = Some t
              /\ PT t s.
  Proof.
    intros Hop Ha Hb s H. destruct (print nm a) as [x|] eqn:Pa; [|discriminate].
    destruct (print nm b) as [y|] eqn:Pb; [|discriminate]. inversion H. subst s.
    destruct (Ha x Pa) as (t & T1 & T2). destruct (Hb y Pb) as (u & U1 & U2). rewrite T1, U1.
    eexists; split; [reflexivity|]. apply PT_tlist. f2; [apply PT_atom; exact Hop|exact T2|exact U2].
  Qed.

  Lemma tx_vars vs : Forall2 PT (var_toks nm vs) (print_vars nm vs).
  Proof.
    induction vs as [|[v t] vs IH]; [constructor|]. cbn [var_toks print_vars flat_map app fst snd].
    apply Forall2_cons; [apply PT_atom, name_ok_q, N_var|]. apply Forall2_cons; [apply PT_atom; reflexivity|].
    apply Forall2_cons; [apply PT_atom, N_ty|exact IH].
  Qed.

  Lemma tx_quant op vs a : name_ok op = true -> TX a ->
    forall s, match print nm a with Some x => Some (SList [Atom op; SList (print_vars nm vs); x]) | None => None end = Some s ->
    exists t, match print_text nm a with
              | Some x => Some (tl [(op, " "); (tlist (var_toks nm vs), String nl " "); (x, "")])
              | None => None end = Some t /\ PT t s.
  Proof.
    intros Hop Ha s H. destruct (print nm a) as [x|] eqn:Pa; [|discriminate]. inversion H. subst s.
    destruct (Ha x Pa) as (t & T1 & T2 & T3).
    rewrite T1. eexists; split; [reflexivity|]. destruct (PT_atom op Hop) as [A1 A2].
    destruct (PT_tlist _ _ (tx_vars vs)) as [V1 V2]. split.
    - apply LX_tl; [f2; cbn [fst]; assumption|]. cbn. repeat split; auto; right; discriminate.
    - apply clean_tl. f2; cbn [fst snd]; (split; [assumption|reflexivity]).
  Qed.

  Lemma tx_chain op : name_ok op = true -> forall r sr, Forall2 PT r sr -> forall a sa, PT a sa ->
    PT (fold_left (fun x y => tlist [op; y; x]) r a) (fold_left (fun x y => SList [Atom op; y; x]) sr sa).
  Proof.
    intro Hop. induction 1 as [|y sy r sr Hy Hr IH]; intros a sa Ha; [exact Ha|]. cbn [fold_left]. apply IH.
    apply PT_tlist. f2; [apply PT_atom; exact Hop|exact Hy|exact Ha].
  Qed.

  Lemma F2_two {A B} (R : A -> B -> Prop) ts a b r : Forall2 R ts (a :: b :: r) ->
    exists ta tb tr, ts = ta :: tb :: tr /\ R ta a /\ R tb b /\ Forall2 R tr r.
  Proof.
    intro F. inversion F as [|ta ? ts' ? Ra F']. subst. inversion F' as [|tb ? tr ? Rb F'']. subst.
    exists ta, tb, tr. auto.
  Qed.

  Lemma tx_nary op l : name_ok op = true -> Forall TX l ->
    forall s, match sequence (map (print nm) l) with Some ss => nary op ss | None => None end = Some s ->
    exists t, match sequence (map (print_text nm) l) with Some ts => nary_text op ts | None => None end = Some t /\ PT t s.
  Proof.
    intros Hop H s Hp. destruct (sequence (map (print nm) l)) as [ss|] eqn:Q; [|discriminate].
    destruct (tx_list _ H ss Q) as (ts & T1 & T2). rewrite T1. unfold nary in Hp.
    destruct ss as [|a [|b r]]; try discriminate Hp. inversion Hp.
    destruct (F2_two _ _ _ _ _ T2) as (ta & tb & tr & -> & Ra & Rb & Rr). eexists; split; [reflexivity|].
    apply PT_tlist. f2; try assumption. apply PT_atom; exact Hop.
  Qed.

  Lemma tx_chainl op l : name_ok op = true -> Forall TX l ->
    forall s, match sequence (map (print nm) l) with Some ss => chain op ss | None => None end = Some s ->
    exists t, match sequence (map (print_text nm) l) with Some ts => chain_text op ts | None => None end = Some t /\ PT t s.
  Proof.
    intros Hop H s Hp. destruct (sequence (map (print nm) l)) as [ss|] eqn:Q; [|discriminate].
    destruct (tx_list _ H ss Q) as (ts & T1 & T2). rewrite T1. unfold chain in Hp.
    destruct ss as [|a [|b r]]; try discriminate Hp. inversion Hp.
    destruct (F2_two _ _ _ _ _ T2) as (ta & tb & tr & -> & Ra & Rb & Rr). eexists; split; [reflexivity|].
    apply (tx_chain op Hop (tb :: tr) (b :: r)); [apply Forall2_cons; assumption|exact Ra].
  Qed.

  Theorem text_of_print : forall e, TX e.
  Proof.
    induction e using expr_ind'; intros s Hp; cbn [print] in Hp; cbn [print_text]; try discriminate Hp.
    - (* EInt *) inversion Hp. eexists; split; [reflexivity|]. apply PT_atom, name_ok_show_Z.
    - (* EReal *) destruct (show_real q) as [t|] eqn:Hq; [|discriminate]. cbn [option_map] in Hp. inversion Hp.
      eexists; split; [reflexivity|]. apply PT_atom. eapply name_ok_show_real; eauto.
    - (* EObj *) inversion Hp. eexists; split; [reflexivity|]. apply PT_atom, N_obj.
    - (* EParam *) inversion Hp. eexists; split; [reflexivity|]. apply PT_atom, name_ok_q, N_par.
    - (* EVar *) inversion Hp. eexists; split; [reflexivity|]. apply PT_atom, name_ok_q, N_var.
    - (* EFluent *) destruct (sequence (map (print nm) args)) as [ss|] eqn:Q; [|discriminate]. inversion Hp.
      destruct (tx_list _ H ss Q) as (ts & T1 & T2). rewrite T1. eexists; split; [reflexivity|].
      apply PT_tlist. apply Forall2_cons; [apply PT_atom, N_fl|exact T2].
    - (* EAnd *) apply (tx_nary "and"); auto.
    - (* EOr *) apply (tx_nary "or"); auto.
    - (* ENot *) apply (tx_un "not"); auto.
    - (* EImplies *) apply (tx_bin "imply"); auto.
    - (* EIff *) destruct (print nm e1) as [x|] eqn:P1; [|discriminate]. destruct (print nm e2) as [y|] eqn:P2; [|discriminate].
      inversion Hp. destruct (IHe1 x P1) as (t & T1 & T2). destruct (IHe2 y P2) as (u & U1 & U2).
      rewrite T1, U1. eexists; split; [reflexivity|].
      assert (PT (tlist ["imply"; t; u]) (SList [Atom "imply"; x; y])) as [I1 I2]
        by (apply PT_tlist; f2; [apply PT_atom; reflexivity|assumption|assumption]).
      assert (PT (tlist ["imply"; u; t]) (SList [Atom "imply"; y; x])) as [J1 J2]
        by (apply PT_tlist; f2; [apply PT_atom; reflexivity|assumption|assumption]).
      destruct (PT_atom "and" eq_refl) as [A1 A2]. split.
      + apply LX_tl; [f2; cbn [fst]; assumption|]. cbn. repeat split; auto; right; discriminate.
      + apply clean_tl. f2; cbn [fst snd]; (split; [assumption|reflexivity]).
    - (* EExists *) apply (tx_quant "exists"); auto.
    - (* EForall *) apply (tx_quant "forall"); auto.
    - (* EPlus *) apply (tx_chainl "+"); auto.
    - (* EMinus *) apply (tx_bin "-"); auto.
    - (* ETimes *) apply (tx_chainl "*"); auto.
    - (* EDiv *) apply (tx_bin "/"); auto.
    - (* ELe *) apply (tx_bin "<="); auto.
    - (* ELt *) apply (tx_bin "<"); auto.
    - (* EEquals *) apply (tx_bin "="); auto.
    - apply (tx_un "always"); auto.
    - apply (tx_un "sometime"); auto.
    - apply (tx_bin "sometime-before"); auto.
    - apply (tx_bin "sometime-after"); auto.
    - apply (tx_un "at-most-once"); auto.
  Qed.

  (* the reader's tokenisation of the converter's text is exactly the S-expression of the structural model *)
  Theorem lex_print_text e s : print nm e = Some s ->
    exists t, print_text nm e = Some t /\ prep t = t /\ lex t = Some s.
  Proof.
    intro H. destruct (text_of_print e s H) as (t & T1 & T2 & T3). exists t. split; [exact T1|].
    split; [exact T3|apply lex_of_LX; exact T2].
  Qed.
End Text.

Theorem text_roundtrip (nm : naming) (E : env) :
  (forall f, e_fl E (nm_fl nm f) = Some f) -> (forall f, is_kw (nm_fl nm f) = false) ->
  (forall o, e_obj E (nm_obj nm o) = Some o) -> (forall o, e_fl E (nm_obj nm o) = None) ->
  (forall o, starts_q (nm_obj nm o) = false) -> (forall p, e_par E (nm_par nm p) = Some p) ->
  (forall v, e_var E (nm_var nm v) = Some v) -> (forall p v, nm_par nm p <> nm_var nm v) ->
  (forall t, e_ty E (nm_ty nm t) = Some t) -> (forall t, starts_q (nm_ty nm t) = false) ->
  (forall s q, parse_number s = Some q -> e_fl E s = None /\ e_obj E s = None) ->
  (forall f, name_ok (nm_fl nm f) = true) -> (forall o, name_ok (nm_obj nm o) = true) ->
  (forall p, name_ok (nm_par nm p) = true) -> (forall v, name_ok (nm_var nm v) = true) ->
  (forall t, name_ok (nm_ty nm t) = true) ->
  forall e, pddl_ok [] e = true ->
  exists t, print_text nm e = Some t /\ parse_text E t = Some (norm e).
Proof.
  intros H1 H2 H3 H4 H5 H6 H7 H8 H9 H10 H11 N1 N2 N3 N4 N5 e Hok.
  destruct (roundtrip nm E H1 H2 H3 H4 H5 H6 H7 H8 H9 H10 H11 e Hok) as (s & P1 & P2).
  destruct (lex_print_text nm N1 N2 N3 N4 N5 e s P1) as (t & T1 & T2 & T3).
  exists t. split; [exact T1|]. unfold parse_text. rewrite T2, T3. exact P2.
Qed.

Lemma pref_name_ok c n : okc c = true -> name_ok (pref_nm c n) = true.
Proof.
  intro Hc. unfold name_ok, pref_nm. cbn [String.eqb negb andb all_c]. rewrite Hc. cbn [andb].
  eapply all_c_impl; [exact numch_okc|]. unfold show_N. apply numch_show_N_fuel. reflexivity.
Qed.

Definition ex_text_roundtrip :=
  text_roundtrip ex_nm ex_env (pref_ok "x") (fun f => eq_refl) (pref_ok "b") (fun o => eq_refl) (fun o => eq_refl)
            (pref_ok "p") (pref_ok "v") (fun p v (H : pref_nm "p" p = pref_nm "v" v) => ltac:(discriminate H))
            (pref_ok "t") (fun t => eq_refl) ex_num
            (fun f => pref_name_ok "x" f eq_refl) (fun o => pref_name_ok "b" o eq_refl)
            (fun p => pref_name_ok "p" p eq_refl) (fun v => pref_name_ok "v" v eq_refl)
            (fun t => pref_name_ok "t" t eq_refl).

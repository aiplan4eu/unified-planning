(* C06 / C07, Layer A — StateInvariantsRemover and BoundedTypesRemover: proofs about Compilers/LayerA_Inv.v.
   Both compilers move a set M of state invariants (the state invariants themselves / the bounded-type constraints)
   from "checked in the successor of every step" to "precondition of every action and goal".  Along a run
   s0 -> s1 -> ... -> sn the original problem checks M in s1..sn, the compiled one in s0..s(n-1) (preconditions) and
   in sn (goal): the two verdicts differ exactly by "M holds in the initial state". *)
From Coq Require Import List ZArith NArith QArith Qcanon Bool Lia.
Import ListNotations.
Require Import UPV.Core.Expr UPV.Core.Eval UPV.Core.Interp UPV.Planning.Problem UPV.Planning.Sem.
Require Import UPV.Proofs.Eval_lemmas UPV.Proofs.Sem_proofs UPV.Proofs.Step_proofs.
Require Import UPV.Walkers.Subst.
Require Import UPV.Compilers.LayerA_Defs UPV.Compilers.LayerA_Quant UPV.Compilers.LayerA_Inv.
Require Import UPV.Proofs.LayerA_base UPV.Proofs.ListFacts.
Local Open Scope nat_scope.

Lemma all_hold_one sc I x : all_hold sc I [x] = holds sc I x.
Proof. apply andb_true_r. Qed.

Lemma holds_conj_parts sc I c : all_hold sc I (conj_parts c) = holds sc I c.
Proof. destruct c; try apply all_hold_one. symmetry. apply holds_EAnd. Qed.

Lemma all_hold_closed P s pars l : Forall (closed_cond P) l ->
  all_hold false (mk_interp P s pars) l = all_hold false (mk_interp P s []) l.
Proof. intros H. apply forallb_ext_in. intros x Hx. rewrite Forall_forall in H. exact (H x Hx s pars). Qed.

Section Generic.
  Variable smp : expr -> expr.
  Hypothesis Hsmp : smp_holds smp.
  Variables P P' : problem.
  Variable cond : expr.
  Variable M : list expr.

  Definition moved_ok (s : state) : bool := all_hold false (mk_interp P s []) M.

  Hypothesis Hobj : p_objs P' = p_objs P.
  Hypothesis Hif : p_ifun P' = p_ifun P.
  Hypothesis Hbf : forall f, is_bool_fluent P' f = is_bool_fluent P f.
  Hypothesis Hact : p_actions P' = map_actions (inv_action smp cond) (p_actions P).
  Hypothesis Hgoal : p_goals P' = inv_goals smp cond (p_goals P).
  Hypothesis Hinv : forall s, invariants_ok false P s = invariants_ok false P' s && moved_ok s.
  Hypothesis Hcond : forall s pars, holds false (mk_interp P s pars) cond = moved_ok s.
  Hypothesis Hu : unique_ids P.

  Lemma interp_same s s' pars : state_eq s s' -> interp_eq (mk_interp P' s' pars) (mk_interp P s pars).
  Proof.
    intros H. repeat split; cbn [mk_interp fl par var ifun objs]; try reflexivity.
    - intros f a. symmetry. apply H.
    - intros f a. rewrite Hif. reflexivity.
    - intros t. unfold objs_of. rewrite Hobj. reflexivity.
  Qed.

  Lemma spec_fluent_same s s' acts k : state_eq s s' -> spec_fluent P' s' acts k = spec_fluent P s acts k.
  Proof. intros H. unfold spec_fluent. rewrite Hbf, (H (fst k) (snd k)). reflexivity. Qed.

  Lemma effects_ok_same s s' acts : state_eq s s' -> spec_effects_ok P' s' acts = spec_effects_ok P s acts.
  Proof.
    intros H. apply forallb_ext. intros a. rewrite (spec_fluent_same s s' acts _ H). reflexivity.
  Qed.

  Lemma succ_same s s' acts : state_eq s s' -> state_eq (spec_succ P s acts) (spec_succ P' s' acts).
  Proof. intros H f a. unfold spec_succ. rewrite (spec_fluent_same s s' acts _ H), (H f a). reflexivity. Qed.

  Lemma holds_with_cond s pars l :
    holds false (mk_interp P s pars) (smp (mkAnd (l ++ [cond]))) = all_hold false (mk_interp P s pars) l && moved_ok s.
  Proof. rewrite Hsmp, holds_mkAnd, all_hold_app, all_hold_one, Hcond. reflexivity. Qed.

  Lemma inv_action_pre s pars a a' : inv_action smp cond a = Some a' ->
    all_hold false (mk_interp P s pars) (a_pre a') = all_hold false (mk_interp P s pars) (a_pre a) && moved_ok s.
  Proof.
    unfold inv_action. destruct (is_false _); [discriminate|]. intros E. inversion E; subst a'. cbn [a_pre].
    rewrite all_hold_add_pres, holds_conj_parts. apply holds_with_cond.
  Qed.

  Lemma inv_action_none s pars a : inv_action smp cond a = None ->
    all_hold false (mk_interp P s pars) (a_pre a) && moved_ok s = false.
  Proof.
    unfold inv_action. destruct (is_false _) eqn:F; [|discriminate]. intros _.
    apply (holds_of_is_false false (mk_interp P s pars)) in F. rewrite holds_with_cond in F. exact F.
  Qed.

  Lemma inv_action_shape a a' : inv_action smp cond a = Some a' -> a_params a' = a_params a /\ a_effs a' = a_effs a.
  Proof. unfold inv_action. destruct (is_false _); [discriminate|]. intros E. inversion E; subst. split; reflexivity. Qed.

  Lemma goals_same s s' : state_eq s s' -> goals_hold false P' s' = goals_hold false P s && moved_ok s.
  Proof.
    intros H. unfold goals_hold. rewrite (all_hold_ext false _ _ _ (interp_same s s' [] H)).
    rewrite Hgoal. unfold inv_goals. rewrite all_hold_filter_true, holds_conj_parts. apply holds_with_cond.
  Qed.

  Lemma invok_same s s' : state_eq s s' -> invariants_ok false P' s' = invariants_ok false P' s.
  Proof. intros H. apply invariants_ok_ext. apply state_eq_sym. exact H. Qed.

  Theorem inv_valid_plan pi : forall s s', state_eq s s' ->
    valid_plan false P' s' pi = moved_ok s && valid_plan false P s pi.
  Proof.
    induction pi as [|[aid args] pi IH]; intros s s' Hs; unfold valid_plan in *; cbn [run].
    - rewrite (goals_same s s' Hs). apply andb_comm.
    - unfold lookup_action at 1. rewrite Hact, (lookup_map_actions _ _ _ Hu). fold (lookup_action P aid).
      destruct (lookup_action P aid) as [a|] eqn:EL; [|rewrite andb_false_r; reflexivity].
      set (pars := zip_params (a_params a) args).
      destruct (inv_action smp cond a) as [a'|] eqn:EA.
      + destruct (inv_action_shape a a' EA) as [Ep Ee].
        rewrite !spec_step_eq. rewrite Ep, Ee. fold pars.
        rewrite (all_hold_ext false _ _ _ (interp_same s s' pars Hs)), (fired_ext false _ _ _ (interp_same s s' pars Hs)).
        rewrite (inv_action_pre s pars a a' EA).
        destruct (all_hold false (mk_interp P s pars) (a_pre a)); cbn [andb negb]; [|rewrite andb_false_r; reflexivity].
        destruct (moved_ok s) eqn:Em; cbn [andb negb]; [|reflexivity].
        destruct (fired false (mk_interp P s pars) (a_effs a)) as [acts|]; [|reflexivity].
        rewrite (effects_ok_same s s' acts Hs).
        destruct (spec_effects_ok P s acts); cbn [negb]; [|reflexivity].
        pose proof (succ_same s s' acts Hs) as Hss.
        rewrite (invok_same _ _ Hss), (Hinv (spec_succ P s acts)).
        destruct (invariants_ok false P' (spec_succ P s acts)); cbn [andb]; [|reflexivity].
        cbv beta iota. rewrite (IH _ _ Hss).
        destruct (moved_ok (spec_succ P s acts)); reflexivity.
      + pose proof (inv_action_none s pars a EA) as Hn. rewrite spec_step_eq. fold pars.
        destruct (all_hold false (mk_interp P s pars) (a_pre a)); cbn [andb negb] in *; [|rewrite andb_false_r; reflexivity].
        rewrite Hn. reflexivity.
  Qed.
End Generic.

Section SIR.
  Variable smp : expr -> expr.
  Hypothesis Hsmp : smp_holds smp.
  Variable P : problem.
  Hypothesis Hu : unique_ids P.
  Hypothesis Hclosed : Forall (closed_cond P) (p_invs P).

  Let P' := sir_compile smp P.

  Lemma sir_inv s : invariants_ok false P s = invariants_ok false P' s && moved_ok P (p_invs P) s.
  Proof.
    unfold invariants_ok, moved_ok. rewrite (bound_invs_sig P P' eq_refl eq_refl).
    change (mk_interp P' s []) with (mk_interp P s []). change (p_invs P') with (@nil expr).
    rewrite all_hold_app. cbn [app]. apply andb_comm.
  Qed.

  Lemma sir_cond_ok s pars : holds false (mk_interp P s pars) (sir_cond smp P) = moved_ok P (p_invs P) s.
  Proof. unfold sir_cond, moved_ok. rewrite Hsmp, holds_mkAnd. apply all_hold_closed. exact Hclosed. Qed.

  (* the verdicts differ exactly by "the state invariants hold in the initial state" *)
  Theorem sir_valid_plan s0 pi :
    valid_plan false (sir_compile smp P) s0 pi =
    all_hold false (mk_interp P s0 []) (p_invs P) && valid_plan false P s0 pi.
  Proof.
    apply (inv_valid_plan smp Hsmp P P' (sir_cond smp P) (p_invs P)); try reflexivity.
    - exact sir_inv.
    - exact sir_cond_ok.
    - exact Hu.
    - apply state_eq_refl.
  Qed.

  Theorem sir_sound s0 pi : valid_plan false (sir_compile smp P) s0 pi = true -> valid_plan false P s0 pi = true.
  Proof. rewrite sir_valid_plan. intros H. apply andb_true_iff in H. tauto. Qed.

  Theorem sir_complete s0 pi :
    all_hold false (mk_interp P s0 []) (p_invs P) = true ->
    valid_plan false P s0 pi = true -> valid_plan false (sir_compile smp P) s0 pi = true.
  Proof. intros H1 H2. rewrite sir_valid_plan, H1, H2. reflexivity. Qed.

  (* with the check of the initial state (UPSequentialSimulator.get_initial_state / SimCheck.init_ok) the two problems
     have the same valid plans *)
  Theorem sir_same_plans s0 pi :
    invariants_ok false (sir_compile smp P) s0 && valid_plan false (sir_compile smp P) s0 pi =
    invariants_ok false P s0 && valid_plan false P s0 pi.
  Proof. rewrite sir_valid_plan, (sir_inv s0). unfold moved_ok. fold P'. rewrite andb_assoc. reflexivity. Qed.
End SIR.

Lemma bound_inv_closed P e : In e (bound_invs P) -> closed_cond P e.
Proof.
  intros Hin s pars. unfold bound_invs in Hin. apply in_flat_map in Hin. destruct Hin as [fd [_ Hin]].
  destruct (fd_ty fd) as [|lo hi|]; try destruct Hin.
  apply in_flat_map in Hin. destruct Hin as [a [_ Hin]]. apply in_app_or in Hin.
  set (I := mk_interp P s pars). set (J := mk_interp P s []).
  assert (EF : eval false (EFluent (fd_id fd) (map value_expr a)) I = eval false (EFluent (fd_id fd) (map value_expr a)) J).
  { rewrite !eval_EFluent, !evals_value_exprs. reflexivity. }
  destruct Hin as [Hin|Hin].
  - destruct lo as [l|]; [|destruct Hin]. destruct Hin as [<-|[]].
    unfold holds. rewrite !eval_ELe, EF, !eval_num_node. reflexivity.
  - destruct hi as [h|]; [|destruct Hin]. destruct Hin as [<-|[]].
    unfold holds. rewrite !eval_ELe, EF, !eval_num_node. reflexivity.
Qed.

Lemma is_bool_fluent_unbound fl f :
  existsb (fun fd => (fd_id fd =? f)%N && match fd_ty fd with FBool => true | _ => false end) (map unbound fl) =
  existsb (fun fd => (fd_id fd =? f)%N && match fd_ty fd with FBool => true | _ => false end) fl.
Proof.
  induction fl as [|fd fl IH]; [reflexivity|]. cbn [map existsb]. rewrite IH. f_equal.
  unfold unbound. cbn [fd_id fd_ty]. destruct (fd_ty fd); reflexivity.
Qed.

Lemma bound_invs_unbound P P' : p_fluents P' = map unbound (p_fluents P) -> bound_invs P' = [].
Proof.
  intros H. unfold bound_invs. rewrite H. clear H. induction (p_fluents P) as [|fd fl IH]; [reflexivity|].
  cbn [map flat_map]. rewrite IH, app_nil_r. unfold unbound. cbn [fd_ty fd_id fd_sig].
  destruct (fd_ty fd); try reflexivity.
  induction (arg_tuples P' (fd_sig fd)) as [|a l IHl]; [reflexivity|]. cbn [flat_map app]. exact IHl.
Qed.

Section BTR.
  Variable smp : expr -> expr.
  Hypothesis Hsmp : smp_holds smp.
  Variable P : problem.
  Hypothesis Hu : unique_ids P.

  Let P' := btr_compile smp P.

  Lemma btr_inv s : invariants_ok false P s = invariants_ok false P' s && moved_ok P (bound_invs P) s.
  Proof.
    unfold invariants_ok, moved_ok. rewrite (bound_invs_unbound P P' eq_refl), app_nil_r.
    change (mk_interp P' s []) with (mk_interp P s []). change (p_invs P') with (p_invs P).
    apply all_hold_app.
  Qed.

  Lemma btr_cond_ok s pars : holds false (mk_interp P s pars) (btr_cond P) = moved_ok P (bound_invs P) s.
  Proof.
    unfold btr_cond, moved_ok. rewrite holds_mkAnd. apply all_hold_closed.
    apply Forall_forall. intros e. apply bound_inv_closed.
  Qed.

  (* the verdicts differ exactly by "every bounded fluent is within its bounds in the initial state" *)
  Theorem btr_valid_plan s0 pi :
    valid_plan false (btr_compile smp P) s0 pi =
    all_hold false (mk_interp P s0 []) (bound_invs P) && valid_plan false P s0 pi.
  Proof.
    apply (inv_valid_plan smp Hsmp P P' (btr_cond P) (bound_invs P)); try reflexivity.
    - intros f. unfold is_bool_fluent. apply is_bool_fluent_unbound.
    - exact btr_inv.
    - exact btr_cond_ok.
    - exact Hu.
    - apply state_eq_refl.
  Qed.

  Theorem btr_sound s0 pi : valid_plan false (btr_compile smp P) s0 pi = true -> valid_plan false P s0 pi = true.
  Proof. rewrite btr_valid_plan. intros H. apply andb_true_iff in H. tauto. Qed.

  Theorem btr_complete s0 pi :
    all_hold false (mk_interp P s0 []) (bound_invs P) = true ->
    valid_plan false P s0 pi = true -> valid_plan false (btr_compile smp P) s0 pi = true.
  Proof. intros H1 H2. rewrite btr_valid_plan, H1, H2. reflexivity. Qed.

  Theorem btr_same_plans s0 pi :
    invariants_ok false (btr_compile smp P) s0 && valid_plan false (btr_compile smp P) s0 pi =
    invariants_ok false P s0 && valid_plan false P s0 pi.
  Proof. rewrite btr_valid_plan, (btr_inv s0). unfold moved_ok. fold P'. rewrite andb_assoc. reflexivity. Qed.
End BTR.

(* Tie between Planning/Ground.v's parameter substitution [psubst] and the C13 model of FNode.substitute
   (Walkers/Subst.v): on expressions the ExpressionManager can build ([Subst.nf]), the Substituter applied to the map
   {parameter: constant} that create_action_with_given_subs passes computes exactly [psubst]. *)
From Coq Require Import List ZArith NArith QArith Qcanon Bool.
Import ListNotations.
Require Import UPV.Core.Expr UPV.Core.Eval UPV.Core.Interp UPV.Planning.Problem UPV.Planning.Ground.
Require Import UPV.Proofs.Eval_lemmas UPV.Walkers.Subst UPV.Proofs.Subst_proofs UPV.Proofs.ExprView UPV.Proofs.Psubst_view UPV.Proofs.Ground_proofs.
Local Open Scope nat_scope.

(* subs = dict(zip(action.parameters, parameters)) as a substitution map of the C13 model *)
Definition pmap (sg : list (N * value)) : smap := map (fun pv => (EParam (fst pv), value_expr (snd pv))) sg.

Lemma assoc_pmap_param sg p : assoc (pmap sg) (EParam p) = option_map value_expr (lookupN p sg).
Proof.
  induction sg as [|[q v] sg IH]; [reflexivity|]. cbn [pmap map fst snd]. rewrite assoc_cons.
  cbn [expr_eqb lookupN]. destruct (p =? q)%N; [reflexivity | exact IH].
Qed.

Lemma assoc_pmap_other sg e : (forall p, e <> EParam p) -> assoc (pmap sg) e = None.
Proof.
  intros H. induction sg as [|[q v] sg IH]; [reflexivity|]. cbn [pmap map fst snd]. rewrite assoc_cons.
  destruct e; try exact IH. contradiction (H p). reflexivity.
Qed.

Lemma mentions_bound_param vs p : mentions_bound vs (EParam p) = false.
Proof. unfold mentions_bound. induction vs as [|x vs IH]; [reflexivity|]. cbn [existsb free_vars memN]. exact IH. Qed.

Lemma drop_bound_pmap sg vs : drop_bound (pmap sg) vs = pmap sg.
Proof.
  unfold drop_bound. induction sg as [|[q v] sg IH]; [reflexivity|]. cbn [pmap map filter fst snd].
  rewrite mentions_bound_param. cbn [negb]. f_equal. exact IH.
Qed.

Lemma is_not_value_expr v : is_not (value_expr v) = false.
Proof. destruct v as [b|q|o]; try reflexivity. unfold value_expr, num_node. destruct (_ =? _)%Z; reflexivity. Qed.

Lemma is_not_psubst sg e : is_not (psubst sg e) = is_not e.
Proof. destruct e; try reflexivity. cbn [psubst]. destruct (lookupN p sg); [apply is_not_value_expr | reflexivity]. Qed.

Theorem tr_psubst sg e : nf e = true -> topdown_replace (pmap sg) e = psubst sg e.
Proof.
  induction e as [e Hl|o a IHe|o a b IHe1 IHe2|o l H|ex vs a IHe] using expr_view_ind; intros Hnf.
  - rewrite psubst_leaf by exact Hl.
    destruct e; try discriminate Hl; try (apply tr_leaf; [reflexivity | apply assoc_pmap_other; intros ?; discriminate]).
    pose proof (assoc_pmap_param sg p) as E.
    destruct (lookupN p sg) as [v|]; [exact (tr_key _ _ _ E) | exact (tr_leaf _ _ Hl E)].
  - rewrite nf_E1 in Hnf. apply andb_true_iff in Hnf. destruct Hnf as [Hn Ha].
    rewrite tr_E1 by (apply assoc_pmap_other; destruct o; intros ?; discriminate). rewrite (IHe Ha), psubst_E1.
    destruct o; try reflexivity. apply mkNot_plain. rewrite is_not_psubst. apply negb_true_iff. exact Hn.
  - rewrite nf_E2 in Hnf. apply andb_true_iff in Hnf. destruct Hnf as [Ha Hb].
    rewrite tr_E2 by (apply assoc_pmap_other; destruct o; intros ?; discriminate).
    rewrite (IHe1 Ha), (IHe2 Hb), psubst_E2. reflexivity.
  - rewrite tr_En by (apply assoc_pmap_other; destruct o; intros ?; discriminate).
    rewrite (map_Forall_eq nf _ (psubst sg) l H (nf_En_args o l Hnf)), psubst_En. apply mkn_nf. exact Hnf.
  - rewrite nf_EQ in Hnf. rewrite tr_EQ by (apply assoc_pmap_other; destruct ex; intros ?; discriminate).
    rewrite drop_bound_pmap, (IHe Hnf), psubst_EQ. reflexivity.
Qed.

(* FNode.substitute(subs) with subs = {parameter: constant}, on a manager-built expression, is [psubst] *)
Theorem psubst_is_substitute sg e : nf e = true -> substitute (pmap sg) e = psubst sg e.
Proof. intros H. rewrite (subst_spec (pmap sg) e H). apply tr_psubst. exact H. Qed.

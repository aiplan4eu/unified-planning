(* Proofs about the ANML expression codec model (Model/AnmlExpr.v).
   [Parses s sc b ts a t r]: with any fuel >= b the parser in state s turns ts into (a, t) and leaves r.
   Compositional lemmas: one per parser step (lemmas P_xxx; [loop_step] is the shape of one round of a left-associative
   loop), lifting through the looser levels when no operator of those levels follows (lemmas up_xxx, imp_of_xxx), the four
   left-associative levels as instances of [level], name resolution under [names_ok] (lemmas res_xxx), the node
   "( x sep y sep ... )" of any level (chain_parses, node_parses).
   Main results: main_all (every expression of the fragment is read back as its normal form, in front of any token that
   does not continue it), parse_print, norm_eval. *)
From Coq Require Import List ZArith NArith QArith Qcanon Bool Lia FinFun.
Import ListNotations.
Require Import UPV.Core.Expr UPV.Model.AnmlExpr UPV.Proofs.EvalFold.
Require Import UPV.Core.Eval UPV.Proofs.Eval_lemmas UPV.Proofs.Simplify_sound UPV.Proofs.ExprView UPV.Proofs.EvalView.
Local Open Scope nat_scope.

Record names_ok (W : wnames) (R : rtables) (arity : N -> nat) : Prop := {
  h_ty : forall t, tyOf R (nmT W t) = Some t;
  h_par : forall p, parOf R (nmP W p) = Some p;
  h_flu : forall f, fluOf R (nmF W f) = Some (f, arity f);
  h_obj : forall o, objOf R (nmO W o) = Some o;
  h_var : forall v, varOf R (nmV W v) = v;
  h_pv : forall p v, nmP W p <> nmV W v;
  h_fv : forall f v, nmF W f <> nmV W v;
  h_ov : forall o v, nmO W o <> nmV W v;
  h_fp : forall f, parOf R (nmF W f) = None;
  h_op : forall o, parOf R (nmO W o) = None;
  h_of : forall o, fluOf R (nmO W o) = None }.

Definition lv (t : token) : nat :=
  match t with
  | TImplies => 1 | TAnd | TOr | TXor => 2
  | TLe | TLt | TGe | TGt | TEq | TNeq => 5
  | TPlus | TMinus => 6 | TTimes | TDiv => 7 | _ => 0
  end.
Definition hd (r : list token) : token := match r with [] => TRp | t :: _ => t end.
Definition start_ok (ts : list token) : bool :=
  match ts with (TLp | TName _ | TNum _ | TTrue | TFalse | TMinus) :: _ => true | _ => false end.
Definition nolp (r : list token) : bool := match r with TLp :: _ => false | _ => true end.
Definition isA (t : tier) : Prop := t = TA.
Definition leR (t : tier) : Prop := tier_le_R t = true.
Definition anyT (t : tier) : Prop := True.

Lemma two_plus {A} (l : list A) : Nat.leb 2 (length l) = true -> exists x y l', l = x :: y :: l'.
Proof. destruct l as [|x [|y l']]; cbn; try discriminate. eauto. Qed.
Lemma chain_last mk l : Nat.leb 2 (length l) = true -> exists a b, chain mk (map norm l) = mk a b.
Proof.
  intros H. destruct (two_plus l H) as (x & y & l' & ->). apply (fold_left_last mk (norm y :: map norm l')). discriminate.
Qed.

Definition tok2 (o : op2) : option token :=
  match o with
  | BImplies => Some TImplies | BMinus => Some TMinus | BDiv => Some TDiv | BLe => Some TLe | BLt => Some TLt
  | BEquals => Some TEq | _ => None
  end.
Definition tokn (o : opn) : option token :=
  match o with NAnd => Some TAnd | NOr => Some TOr | NPlus => Some TPlus | NTimes => Some TTimes | _ => None end.

Local Ltac st := let n := fresh "n" in let Hn := fresh "Hn" in
  intros n Hn; destruct n as [|n]; [exfalso; lia|]; cbn [go].

Section P.
  Variable R : rtables.
  Definition Parses (s : st) (sc : list (N * N)) (b : nat) (ts : list token) (a : expr) (t : tier) (r : list token) :=
    forall n, b <= n -> go R n s sc ts = Ok a t r.
  Definition ParsesL (s : st) (sc : list (N * N)) (b : nat) (ts : list token) (l : list expr) (r : list token) :=
    forall n, b <= n -> go R n s sc ts = OkL l r.

  (* one round "sep operand" of the loop state [SL] whose operands are read in state [so]: the operand tiers must satisfy
     [okT], the folded tree has tier [T'] *)
  Definition loop_step (SL : expr -> tier -> st) (so : st) (okT : tier -> Prop) (T' : tier) (sep : token)
    (mk : expr -> expr -> expr) : Prop :=
    forall sc b1 b2 a ta r b tb r' x tx r'', okT ta -> okT tb ->
      Parses so sc b1 r b tb r' -> Parses (SL (mk a b) T') sc b2 r' x tx r'' ->
      Parses (SL a ta) sc (S (b1 + b2)) (sep :: r) x tx r''.

  Lemma Parses_mono s sc b b' ts a t r : Parses s sc b ts a t r -> b <= b' -> Parses s sc b' ts a t r.
  Proof. intros H L n Hn. apply H. lia. Qed.

  Lemma P_stop_mul sc a t r : lv (hd r) <> 7 -> Parses (SMulL a t) sc 1 r a t r.
  Proof. intros H n Hn. destruct n as [|n]; [exfalso; lia|]. destruct r as [|[] r]; try reflexivity; cbn in H; lia. Qed.
  Lemma P_stop_add sc a t r : lv (hd r) <> 6 -> Parses (SAddL a t) sc 1 r a t r.
  Proof. intros H n Hn. destruct n as [|n]; [exfalso; lia|]. destruct r as [|[] r]; try reflexivity; cbn in H; lia. Qed.
  Lemma P_stop_rel sc a t r : lv (hd r) <> 5 -> Parses (SRelL a t) sc 1 r a t r.
  Proof. intros H n Hn. destruct n as [|n]; [exfalso; lia|]. destruct r as [|[] r]; try reflexivity; cbn in H; lia. Qed.
  Lemma P_stop_andor sc a t r : lv (hd r) <> 2 -> Parses (SAndOrL a t) sc 1 r a t r.
  Proof. intros H n Hn. destruct n as [|n]; [exfalso; lia|]. destruct r as [|[] r]; try reflexivity; cbn in H; lia. Qed.

  Lemma P_mul sc b1 b2 ts a ta r x tx r' :
    Parses SUn sc b1 ts a ta r -> Parses (SMulL a ta) sc b2 r x tx r' -> Parses SMul sc (S (b1 + b2)) ts x tx r'.
  Proof. intros H1 H2; st. rewrite H1 by lia. apply H2; lia. Qed.
  Lemma P_add sc b1 b2 ts a ta r x tx r' :
    Parses SMul sc b1 ts a ta r -> Parses (SAddL a ta) sc b2 r x tx r' -> Parses SAdd sc (S (b1 + b2)) ts x tx r'.
  Proof. intros H1 H2; st. rewrite H1 by lia. apply H2; lia. Qed.
  (* at a token that can start an operand, SRel and SNot fall through to the next level *)
  Lemma go_SRel n sc ts : start_ok ts = true ->
    go R (S n) SRel sc ts = match go R n SAdd sc ts with Ok a ta r => go R n (SRelL a ta) sc r | x => x end.
  Proof. destruct ts as [|[] ts]; try discriminate; reflexivity. Qed.
  Lemma go_SNot n sc ts : start_ok ts = true -> go R (S n) SNot sc ts = go R n SRel sc ts.
  Proof. destruct ts as [|[] ts]; try discriminate; reflexivity. Qed.

  Lemma P_rel sc b1 b2 ts a ta r x tx r' : start_ok ts = true ->
    Parses SAdd sc b1 ts a ta r -> Parses (SRelL a ta) sc b2 r x tx r' -> Parses SRel sc (S (b1 + b2)) ts x tx r'.
  Proof.
    intros Hs H1 H2 n Hn. destruct n as [|n]; [exfalso; lia|]. rewrite (go_SRel n sc ts Hs), H1 by lia. apply H2; lia.
  Qed.
  Lemma P_not_skip sc b ts a ta r : start_ok ts = true -> Parses SRel sc b ts a ta r -> Parses SNot sc (S b) ts a ta r.
  Proof. intros Hs H n Hn. destruct n as [|n]; [exfalso; lia|]. rewrite (go_SNot n sc ts Hs). apply H; lia. Qed.
  Lemma P_andor sc b1 b2 ts a ta r x tx r' :
    Parses SNot sc b1 ts a ta r -> Parses (SAndOrL a ta) sc b2 r x tx r' -> Parses SAndOr sc (S (b1 + b2)) ts x tx r'.
  Proof. intros H1 H2; st. rewrite H1 by lia. apply H2; lia. Qed.
  Lemma P_imp_skip sc b ts a ta r : lv (hd r) <> 1 -> Parses SAndOr sc b ts a ta r -> Parses SImp sc (S b) ts a ta r.
  Proof. intros Hf H; st. rewrite H by lia. destruct r as [|[] r]; cbn in Hf; try reflexivity; lia. Qed.

  (* lifting a parse at the unary level through the looser levels when no operator of those levels follows *)
  Lemma up_mul sc b ts a t r : Parses SUn sc b ts a t r -> lv (hd r) < 7 -> Parses SMul sc (b + 2) ts a t r.
  Proof. intros H L. eapply Parses_mono. eapply P_mul; [exact H|apply P_stop_mul; lia]. lia. Qed.
  Lemma up_add sc b ts a t r : Parses SUn sc b ts a t r -> lv (hd r) < 6 -> Parses SAdd sc (b + 4) ts a t r.
  Proof. intros H L. eapply Parses_mono. eapply P_add; [apply up_mul; [exact H|lia]|apply P_stop_add; lia]. lia. Qed.
  Lemma up_not sc b ts a t r : start_ok ts = true ->
    Parses SUn sc b ts a t r -> lv (hd r) < 5 -> Parses SNot sc (b + 7) ts a t r.
  Proof.
    intros Hs H L. eapply Parses_mono. apply P_not_skip; [exact Hs|].
    eapply P_rel; [exact Hs|apply up_add; [exact H|lia]|apply P_stop_rel; lia]. lia.
  Qed.
  Lemma up_andor sc b ts a t r : start_ok ts = true ->
    Parses SUn sc b ts a t r -> lv (hd r) < 2 -> Parses SAndOr sc (b + 9) ts a t r.
  Proof.
    intros Hs H L. eapply Parses_mono. eapply P_andor; [apply up_not; [exact Hs|exact H|lia]|apply P_stop_andor; lia]. lia.
  Qed.
  Lemma up_imp sc b ts a t r : start_ok ts = true ->
    Parses SUn sc b ts a t r -> lv (hd r) = 0 -> Parses SImp sc (b + 10) ts a t r.
  Proof.
    intros Hs H L. eapply Parses_mono. apply P_imp_skip; [lia|]. apply up_andor; [exact Hs|exact H|lia]. lia.
  Qed.

  Lemma P_mulL_times : loop_step SMulL SUn isA TA TTimes (fun a b => ETimes [a; b]).
  Proof. unfold loop_step, isA. intros sc b1 b2 a ta r b tb r' x tx r'' -> -> H1 H2; st. rewrite H1 by lia. cbn. apply H2; lia. Qed.
  Lemma P_mulL_div : loop_step SMulL SUn isA TA TDiv (fun a b => EDiv a b).
  Proof. unfold loop_step, isA. intros sc b1 b2 a ta r b tb r' x tx r'' -> -> H1 H2; st. rewrite H1 by lia. cbn. apply H2; lia. Qed.
  Lemma P_addL_plus : loop_step SAddL SMul isA TA TPlus (fun a b => EPlus [a; b]).
  Proof. unfold loop_step, isA. intros sc b1 b2 a ta r b tb r' x tx r'' -> -> H1 H2; st. rewrite H1 by lia. cbn. apply H2; lia. Qed.
  Lemma P_addL_minus : loop_step SAddL SMul isA TA TMinus (fun a b => EMinus a b).
  Proof. unfold loop_step, isA. intros sc b1 b2 a ta r b tb r' x tx r'' -> -> H1 H2; st. rewrite H1 by lia. cbn. apply H2; lia. Qed.
  Lemma P_relL_le : loop_step SRelL SAdd leR TR TLe ELe.
  Proof.
    unfold loop_step, leR. intros sc b1 b2 a ta r b tb r' x tx r'' Ha Hb H1 H2; st.
    rewrite Ha, H1 by lia. cbn. rewrite Hb. apply H2; lia.
  Qed.
  Lemma P_relL_lt : loop_step SRelL SAdd leR TR TLt ELt.
  Proof.
    unfold loop_step, leR. intros sc b1 b2 a ta r b tb r' x tx r'' Ha Hb H1 H2; st.
    rewrite Ha, H1 by lia. cbn. rewrite Hb. apply H2; lia.
  Qed.
  Lemma P_relL_eq : loop_step SRelL SAdd leR TR TEq (fun a b => if is_bool R a then EIff a b else EEquals a b).
  Proof.
    unfold loop_step, leR. intros sc b1 b2 a ta r b tb r' x tx r'' Ha Hb H1 H2; st.
    rewrite Ha, H1 by lia. cbn. rewrite Hb. apply H2; lia.
  Qed.
  Lemma P_andorL_and : loop_step SAndOrL SNot anyT TB TAnd (fun a b => EAnd [a; b]).
  Proof. intros sc b1 b2 a ta r b tb r' x tx r'' _ _ H1 H2; st. rewrite H1 by lia. apply H2; lia. Qed.
  Lemma P_andorL_or : loop_step SAndOrL SNot anyT TB TOr (fun a b => EOr [a; b]).
  Proof. intros sc b1 b2 a ta r b tb r' x tx r'' _ _ H1 H2; st. rewrite H1 by lia. apply H2; lia. Qed.
  Lemma P_imp sc b1 b2 ts a ta r b tb r' :
    Parses SAndOr sc b1 ts a ta (TImplies :: r) -> Parses SImp sc b2 r b tb r' ->
    Parses SImp sc (S (b1 + b2)) ts (EImplies a b) TB r'.
  Proof. intros H1 H2; st. rewrite H1 by lia. rewrite H2 by lia. reflexivity. Qed.
  Lemma P_not sc b r a ta r' : Parses SNot sc b r a ta r' -> Parses SNot sc (S b) (TNot :: r) (mkNot a) TB r'.
  Proof. intros H; st. rewrite H by lia. reflexivity. Qed.
  Lemma P_paren sc b r a ta r' : Parses SImp sc b r a ta (TRp :: r') -> Parses SUn sc (b + 2) (TLp :: r) a ta r'.
  Proof. intros H; st. destruct n as [|n]; [exfalso; lia|]. cbn [go]. rewrite H by lia. reflexivity. Qed.

  Lemma imp_of_andor sc b ts a t r : Parses SAndOr sc b ts a t (TRp :: r) -> Parses SImp sc (b + 1) ts a t (TRp :: r).
  Proof. intros H. eapply Parses_mono; [apply P_imp_skip; [cbn; lia|exact H]|lia]. Qed.
  Lemma imp_of_not sc b ts a t r : Parses SNot sc b ts a t (TRp :: r) -> Parses SImp sc (b + 3) ts a t (TRp :: r).
  Proof.
    intros H. eapply Parses_mono; [apply imp_of_andor; eapply P_andor; [exact H|apply P_stop_andor; cbn; lia]|lia].
  Qed.
  Lemma imp_of_rel sc b ts a t r : start_ok ts = true ->
    Parses SRel sc b ts a t (TRp :: r) -> Parses SImp sc (b + 4) ts a t (TRp :: r).
  Proof. intros Hs H. eapply Parses_mono; [apply imp_of_not; apply P_not_skip; [exact Hs|exact H]|lia]. Qed.
  Lemma imp_of_add sc b ts a t r : start_ok ts = true ->
    Parses SAdd sc b ts a t (TRp :: r) -> Parses SImp sc (b + 6) ts a t (TRp :: r).
  Proof.
    intros Hs H. eapply Parses_mono; [apply imp_of_rel; [exact Hs|eapply P_rel; [exact Hs|exact H|apply P_stop_rel; cbn; lia]]|lia].
  Qed.
  Lemma imp_of_mul sc b ts a t r : start_ok ts = true ->
    Parses SMul sc b ts a t (TRp :: r) -> Parses SImp sc (b + 8) ts a t (TRp :: r).
  Proof.
    intros Hs H. eapply Parses_mono; [apply imp_of_add; [exact Hs|eapply P_add; [exact H|apply P_stop_add; cbn; lia]]|lia].
  Qed.

  Lemma parse_of_Parses sc b ts a t :
    start_ok ts = true -> Parses SUn sc b ts a t [] -> b + 10 <= fuel_of ts -> parse R sc ts = Some a.
  Proof.
    intros Hs H L. unfold parse.
    rewrite (up_imp sc b ts a t [] Hs H eq_refl (fuel_of ts)) by lia. reflexivity.
  Qed.

  (* a left-associative level of the grammar: entered in state [SE], its operands read in state [so], its loop in state
     [SL]; [k] is [lv] of its operators.  A parse at the unary level reaches [so] with [up] more fuel, a parse in [SE]
     that stops at ")" reaches the top level with [down] more. *)
  Record level (SE : st) (SL : expr -> tier -> st) (so : st) (k up down : nat) : Prop := {
    l_k : k <> 0;
    l_fuel : up + down <= 8;
    l_stop : forall sc a t r, lv (hd r) <> k -> Parses (SL a t) sc 1 r a t r;
    l_enter : forall sc b1 b2 ts a ta r x tx r', start_ok ts = true ->
      Parses so sc b1 ts a ta r -> Parses (SL a ta) sc b2 r x tx r' -> Parses SE sc (S (b1 + b2)) ts x tx r';
    l_up : forall sc b ts a t r, start_ok ts = true ->
      Parses SUn sc b ts a t r -> lv (hd r) <= k -> Parses so sc (b + up) ts a t r;
    l_down : forall sc b ts a t r, start_ok ts = true ->
      Parses SE sc b ts a t (TRp :: r) -> Parses SImp sc (b + down) ts a t (TRp :: r) }.

  Lemma level_mul : level SMul SMulL SUn 7 0 8.
  Proof.
    constructor; try lia.
    - exact P_stop_mul.
    - intros sc b1 b2 ts a ta r x tx r' _. apply P_mul.
    - intros sc b ts a t r _ H _. eapply Parses_mono; [exact H|lia].
    - exact imp_of_mul.
  Qed.
  Lemma level_add : level SAdd SAddL SMul 6 2 6.
  Proof.
    constructor; try lia.
    - exact P_stop_add.
    - intros sc b1 b2 ts a ta r x tx r' _. apply P_add.
    - intros sc b ts a t r _ H L. apply up_mul; [exact H|lia].
    - exact imp_of_add.
  Qed.
  Lemma level_rel : level SRel SRelL SAdd 5 4 4.
  Proof.
    constructor; try lia.
    - exact P_stop_rel.
    - exact P_rel.
    - intros sc b ts a t r _ H L. apply up_add; [exact H|lia].
    - exact imp_of_rel.
  Qed.
  Lemma level_andor : level SAndOr SAndOrL SNot 2 7 1.
  Proof.
    constructor; try lia.
    - exact P_stop_andor.
    - intros sc b1 b2 ts a ta r x tx r' _. apply P_andor.
    - intros sc b ts a t r Hs H L. apply up_not; [exact Hs|exact H|lia].
    - intros sc b ts a t r _. apply imp_of_andor.
  Qed.
End P.

Section Q.
  Variable W : wnames.
  Variable R : rtables.
  Variable arity : N -> nat.
  Hypothesis HN : names_ok W R arity.

  Lemma P_true sc r : Parses R SUn sc 2 (TTrue :: r) (EBool true) TA r.
  Proof. st. destruct n as [|n]; [exfalso; lia|]. reflexivity. Qed.
  Lemma P_false sc r : Parses R SUn sc 2 (TFalse :: r) (EBool false) TA r.
  Proof. st. destruct n as [|n]; [exfalso; lia|]. reflexivity. Qed.
  Lemma P_num sc k r : Parses R SUn sc 2 (TNum k :: r) (EInt (Z.of_N k)) TA r.
  Proof. st. destruct n as [|n]; [exfalso; lia|]. reflexivity. Qed.
  Lemma P_neg sc k r : Parses R SUn sc 3 (TMinus :: TNum k :: r) (ETimes [EInt (-1); EInt (Z.of_N k)]) TA r.
  Proof. st. rewrite (P_num sc k r) by lia. reflexivity. Qed.
  Lemma P_name0 sc s r a : nolp r = true -> resolve R sc s [] r = Ok a TA r -> Parses R SUn sc 2 (TName s :: r) a TA r.
  Proof.
    intros Hl Hr n Hn. do 2 (destruct n as [|n]; [exfalso; lia|]). rewrite <- Hr.
    destruct r as [|[] r]; try discriminate; reflexivity.
  Qed.
  Lemma P_nameargs sc s b r es r' a : start_ok r = true ->
    ParsesL R (SArgs []) sc b r es r' -> resolve R sc s es r' = Ok a TA r' ->
    Parses R SUn sc (b + 2) (TName s :: TLp :: r) a TA r'.
  Proof.
    intros Hs H Hr n Hn. do 2 (destruct n as [|n]; [exfalso; lia|]).
    assert (E : go R (S (S n)) SUn sc (TName s :: TLp :: r)
                = match go R n (SArgs []) sc r with OkL es r' => resolve R sc s es r' | Ok _ _ _ => Fail | x => x end)
      by (destruct r as [|[] r]; try discriminate; reflexivity).
    rewrite E, H by lia. exact Hr.
  Qed.
  Lemma P_args_comma sc b1 b2 ts a ta r acc l r' :
    Parses R SImp sc b1 ts a ta (TComma :: r) -> ParsesL R (SArgs (a :: acc)) sc b2 r l r' ->
    ParsesL R (SArgs acc) sc (S (b1 + b2)) ts l r'.
  Proof. intros H1 H2; st. rewrite H1 by lia. apply H2; lia. Qed.
  Lemma P_args_end sc b ts a ta r acc :
    Parses R SImp sc b ts a ta (TRp :: r) -> ParsesL R (SArgs acc) sc (S b) ts (rev (a :: acc)) r.
  Proof. intros H1; st. rewrite H1 by lia. reflexivity. Qed.

  Lemma lookup_rscope_none bs s : (forall v, s <> nmV W v) -> lookup (rscope W bs) s = None.
  Proof.
    intros H. induction bs as [|[v t] bs IH]; [reflexivity|]. cbn.
    destruct (N.eqb_spec s (nmV W v)); [exfalso; eapply H; eauto|exact IH].
  Qed.
  Lemma nmV_inj v v' : nmV W v = nmV W v' -> v = v'.
  Proof. intros E. rewrite <- (h_var _ _ _ HN v), <- (h_var _ _ _ HN v'). now rewrite E. Qed.
  Lemma lookup_rscope_var bs v : lookup (rscope W bs) (nmV W v) = lookup bs v.
  Proof.
    induction bs as [|[v' t] bs IH]; [reflexivity|]. cbn.
    destruct (N.eqb_spec (nmV W v) (nmV W v')) as [E|E].
    - apply nmV_inj in E. subst. now rewrite N.eqb_refl.
    - destruct (N.eqb_spec v v'); [subst; congruence|exact IH].
  Qed.

  Lemma res_obj bs o r : resolve R (rscope W bs) (nmO W o) [] r = Ok (EObj o) TA r.
  Proof.
    unfold resolve. rewrite lookup_rscope_none by (intros v; apply (h_ov _ _ _ HN)).
    now rewrite (h_op _ _ _ HN), (h_of _ _ _ HN), (h_obj _ _ _ HN).
  Qed.
  Lemma res_par bs p r : resolve R (rscope W bs) (nmP W p) [] r = Ok (EParam p) TA r.
  Proof.
    unfold resolve. rewrite lookup_rscope_none by (intros v; apply (h_pv _ _ _ HN)).
    now rewrite (h_par _ _ _ HN).
  Qed.
  Lemma res_var bs v ty r : lookup bs v = Some ty -> resolve R (rscope W bs) (nmV W v) [] r = Ok (EVar v ty) TA r.
  Proof. intros H. unfold resolve. rewrite lookup_rscope_var, H. now rewrite (h_var _ _ _ HN). Qed.
  Lemma res_flu bs f es r : length es = arity f -> resolve R (rscope W bs) (nmF W f) es r = Ok (EFluent f es) TA r.
  Proof.
    intros H. unfold resolve. rewrite lookup_rscope_none by (intros v; apply (h_fv _ _ _ HN)).
    rewrite (h_fp _ _ _ HN), (h_flu _ _ _ HN), H, Nat.eqb_refl. reflexivity.
  Qed.

  Lemma join_cons sep x l : join sep (x :: l) = x ++ concat (map (fun y => sep :: y) l).
  Proof.
    revert x; induction l as [|y l IH]; intros x; [cbn; now rewrite app_nil_r|].
    change (join sep (x :: y :: l)) with (x ++ sep :: join sep (y :: l)). rewrite IH. reflexivity.
  Qed.

  (* the printer and the fragment on a binary node [E2 o a b] and on a list node [En o l]: [tok2], [tokn] give the
     operator's token; Iff, the fluent application and what the converter has no method for have none *)
  Lemma pr_E2 o t a b : tok2 o = Some t -> pr W (E2 o a b) = TLp :: pr W a ++ t :: pr W b ++ [TRp].
  Proof. destruct o; intros [= <-]; reflexivity. Qed.
  Lemma pr_En o t l : tokn o = Some t -> pr W (En o l) = TLp :: join t (map (pr W) l) ++ [TRp].
  Proof. destruct o; intros [= <-]; reflexivity. Qed.
  Lemma ok_E2 o a b bs :
    anml_ok R arity bs (E2 o a b) = true -> anml_ok R arity bs a = true /\ anml_ok R arity bs b = true.
  Proof.
    destruct o; cbn [E2 anml_ok]; try discriminate; intros H; repeat (apply andb_prop in H; destruct H as [H ?]); auto.
  Qed.
  Lemma ok_En o l bs : anml_ok R arity bs (En o l) = true -> forallb (anml_ok R arity bs) l = true.
  Proof.
    destruct o; cbn [En anml_ok]; try discriminate; intros H; repeat (apply andb_prop in H; destruct H as [H ?]); exact H.
  Qed.

  Lemma start_pr e bs rest : anml_ok R arity bs e = true -> start_ok (pr W e ++ rest) = true.
  Proof.
    destruct e; cbn; try discriminate; try reflexivity; intros _.
    - destruct b; reflexivity.
    - unfold pr_int. destruct (z <? 0)%Z; reflexivity.
    - destruct args; reflexivity.
  Qed.

  Definition IH (sc : list (N * N)) (bs : list (N * N)) (x : expr) : Prop :=
    anml_ok R arity bs x = true /\
    forall rest, nolp rest = true ->
      Parses R SUn sc (20 * length (pr W x)) (pr W x ++ rest) (norm x) (tier_of x) rest.

  Definition ctoks (sep : token) (l : list expr) : list token :=
    concat (map (fun y => sep :: y) (map (pr W) l)).
  Definition tl (l : list expr) : nat := fold_right (fun x s => S (length (pr W x)) + s) 0 l.
  Lemma len_ctoks sep l : length (ctoks sep l) = tl l.
  Proof. unfold ctoks. induction l as [|x l IHl]; cbn; [reflexivity|]. rewrite app_length, IHl. reflexivity. Qed.
  Lemma nolp_sep sep r : lv sep <> 0 -> nolp (sep :: r) = true.
  Proof. destruct sep; cbn; congruence. Qed.
  Lemma nolp_ctoks sep l rest : lv sep <> 0 -> nolp (ctoks sep l ++ TRp :: rest) = true.
  Proof. intros H. destruct l; [reflexivity|]. exact (nolp_sep sep _ H). Qed.
  Lemma lv_hd_ctoks sep l rest : lv (hd (ctoks sep l ++ TRp :: rest)) <= lv sep.
  Proof. destruct l; cbn; lia. Qed.

  (* the node "(" x sep y sep ... ")" of a level, from the parses of its operands; [mk] is what one round of the loop
     builds for [sep] *)
  Section Level.
    Variables (sc bs : list (N * N)) (SE : st) (SL : expr -> tier -> st) (so : st) (k up down : nat).
    Hypothesis HL : level R SE SL so k up down.
    Variables (okT : tier -> Prop) (T' : tier) (sep : token) (mk : expr -> expr -> expr).
    Hypothesis Hstep : loop_step R SL so okT T' sep mk.
    Hypothesis HT' : okT T'.
    Hypothesis Hsep : lv sep = k.

    Definition cost (l : list expr) : nat := fold_right (fun x s => 20 * length (pr W x) + up + 2 + s) 1 l.
    Lemma cost_le l : cost l <= 20 * tl l + 1.
    Proof.
      pose proof (l_fuel _ _ _ _ _ _ _ HL). induction l as [|x l IHl]; [cbn; lia|].
      change (cost (x :: l)) with (20 * length (pr W x) + up + 2 + cost l).
      change (tl (x :: l)) with (S (length (pr W x)) + tl l). lia.
    Qed.

    Lemma chain_parses : forall l acc ta rest, okT ta ->
      Forall (fun x => okT (tier_of x) /\ IH sc bs x) l ->
      Parses R (SL acc ta) sc (cost l) (ctoks sep l ++ TRp :: rest)
             (fold_left mk (map norm l) acc) (match l with [] => ta | _ => T' end) (TRp :: rest).
    Proof.
      destruct HL as [Hk _ Hstop _ Hup _].
      induction l as [|x l IHl]; intros acc ta rest Hta HF.
      - apply Hstop. cbn. lia.
      - inversion HF as [|? ? [Hx [Hok Hp]] HF']; subst.
        replace (ctoks sep (x :: l) ++ TRp :: rest) with (sep :: (pr W x ++ (ctoks sep l ++ TRp :: rest)))
          by (unfold ctoks; cbn; now rewrite <- app_assoc).
        change (cost (x :: l)) with (20 * length (pr W x) + up + 2 + cost l).
        change (fold_left mk (map norm (x :: l)) acc) with (fold_left mk (map norm l) (mk acc (norm x))).
        eapply Parses_mono.
        + eapply Hstep; [exact Hta|exact Hx| |].
          * eapply Hup; [eapply start_pr; exact Hok|apply Hp, nolp_ctoks; lia|].
            pose proof (lv_hd_ctoks sep l rest). lia.
          * specialize (IHl (mk acc (norm x)) T' rest HT' HF').
            destruct l; exact IHl.
        + lia.
    Qed.

    Lemma node_parses x l rest : okT (tier_of x) -> IH sc bs x -> Forall (fun y => okT (tier_of y) /\ IH sc bs y) l ->
      Parses R SUn sc (20 * (2 + length (pr W x) + tl l)) (TLp :: pr W x ++ (ctoks sep l ++ TRp :: rest))
        (fold_left mk (map norm l) (norm x)) (match l with [] => tier_of x | _ => T' end) rest.
    Proof.
      intros Tx [Hok Px] HF.
      assert (Hs : start_ok (pr W x ++ (ctoks sep l ++ TRp :: rest)) = true) by (eapply start_pr; exact Hok).
      pose proof (chain_parses l (norm x) (tier_of x) rest Tx HF) as C. pose proof (cost_le l).
      destruct HL as [Hk Hfuel _ Henter Hup Hdown].
      eapply Parses_mono.
      - apply P_paren, Hdown; [exact Hs|]. eapply Henter; [exact Hs| |exact C].
        apply Hup; [exact Hs|apply Px, nolp_ctoks; lia|]. pose proof (lv_hd_ctoks sep l rest). lia.
      - lia.
    Qed.
  End Level.
End Q.
Arguments node_parses W R arity sc bs {SE SL so k up down} HL {okT T'} sep mk Hstep HT' Hsep x l rest.

Definition atomic (e : expr) : bool :=
  match e with
  | EBool _ | EInt _ | EObj _ | EParam _ | EVar _ _ | EFluent _ [] => true
  | _ => false
  end.

Section Main.
  Variable W : wnames.
  Variable R : rtables.
  Variable arity : N -> nat.
  Hypothesis HN : names_ok W R arity.
  Variable allowq : bool.

  Fixpoint frag (e : expr) : bool :=
    match e with
    | EExists _ a | EForall _ a => allowq && frag a
    | EFluent _ l | EAnd l | EOr l | EPlus l | ETimes l => forallb frag l
    | ENot a => frag a
    | EImplies a b | EIff a b | EMinus a b | EDiv a b | ELe a b | ELt a b | EEquals a b => frag a && frag b
    | _ => true
    end.

  Definition PU (bs : list (N * N)) (e : expr) : Prop :=
    forall rest, nolp rest = true ->
      Parses R SUn (rscope W bs) (20 * length (pr W e)) (pr W e ++ rest) (norm e) (tier_of e) rest.
  Definition M (e : expr) : Prop :=
    forall bs, frag e = true -> anml_ok R arity bs e = true -> PU bs e.

  Definition qnode (ex : bool) (vs : list (N * N)) (a : expr) : expr := if ex then EExists vs a else EForall vs a.
  Hypothesis HQ : allowq = true -> forall ex vs a bs,
    anml_ok R arity bs (qnode ex vs a) = true -> PU (vs ++ bs) a -> PU bs (qnode ex vs a).

  Definition decls_of (vs : list (N * N)) : list (N * N) := map (fun p => (nmT W (snd p), nmV W (fst p))) vs.

  Lemma pvars_pr : forall vs r, vs <> [] -> pvars (pr_vars W vs ++ TRp :: r) = Some (decls_of vs, r).
  Proof.
    unfold pr_vars. induction vs as [|[v t] vs IHvs]; intros r Hne; [congruence|].
    destruct vs as [|[v' t'] vs].
    - reflexivity.
    - change (join TComma (map (fun p => [TName (nmT W (snd p)); TName (nmV W (fst p))]) ((v, t) :: (v', t') :: vs)))
        with ([TName (nmT W t); TName (nmV W v)] ++ TComma ::
              join TComma (map (fun p => [TName (nmT W (snd p)); TName (nmV W (fst p))]) ((v', t') :: vs))).
      cbn [app].
      cbn [pvars]. rewrite IHvs by congruence. reflexivity.
  Qed.

  Lemma decl_types_of vs : decl_types R (decls_of vs) = Some (rscope W vs).
  Proof.
    induction vs as [|[v t] vs IHvs]; [reflexivity|]. cbn [decls_of map decl_types fst snd].
    fold (decls_of vs). rewrite (h_ty _ _ _ HN), IHvs. reflexivity.
  Qed.

  Lemma dict_set_fresh d k v : ~ In k (map fst d) -> dict_set d k v = d ++ [(k, v)].
  Proof.
    induction d as [|[k' v'] d IHd]; intros Hni; [reflexivity|]. cbn [dict_set].
    destruct (N.eqb_spec k k') as [->|Hne]; [exfalso; apply Hni; left; reflexivity|].
    rewrite IHd; [reflexivity|]. intros Hin. apply Hni. right. exact Hin.
  Qed.
  Lemma dict_fold l : forall acc, NoDup (map fst acc ++ map fst l) ->
    fold_left (fun d p => dict_set d (fst p) (snd p)) l acc = acc ++ l.
  Proof.
    induction l as [|[k v] l IHl]; intros acc Hnd; [now rewrite app_nil_r|].
    cbn [fold_left fst snd]. rewrite dict_set_fresh.
    - rewrite IHl; [now rewrite <- app_assoc|].
      rewrite map_app. cbn [map fst]. rewrite <- app_assoc. exact Hnd.
    - cbn [map fst] in Hnd. apply NoDup_remove_2 in Hnd. intros Hin. apply Hnd. apply in_or_app. left. exact Hin.
  Qed.
  Lemma nodupN_NoDup l : nodupN l = true -> NoDup l.
  Proof.
    induction l as [|x l IHl]; [constructor|]. cbn [nodupN]. intros H. apply andb_prop in H. destruct H as [H1 H2].
    constructor; [|apply IHl; exact H2].
    intros Hin. apply negb_true_iff in H1. unfold memN in H1.
    assert (existsb (N.eqb x) l = true) by (apply existsb_exists; exists x; split; [exact Hin|apply N.eqb_refl]). congruence.
  Qed.
  Lemma dict_of_rscope vs : nodupN (map fst vs) = true -> dict_of (rscope W vs) = rscope W vs.
  Proof.
    intros H. unfold dict_of. rewrite dict_fold; [reflexivity|]. cbn [map app].
    unfold rscope. rewrite map_map. cbn [fst].
    apply nodupN_NoDup in H. rewrite <- (map_map fst (nmV W)).
    apply FinFun.Injective_map_NoDup; [|exact H]. intros a b. apply (nmV_inj W R arity HN).
  Qed.
  Lemma quant_vars vs : map (fun p => (varOf R (fst p), snd p)) (rscope W vs) = vs.
  Proof.
    unfold rscope. rewrite map_map. cbn [fst snd]. induction vs as [|[v t] vs IHvs]; [reflexivity|].
    cbn [map fst snd]. rewrite (h_var _ _ _ HN), IHvs. reflexivity.
  Qed.

  Lemma P_body_end sc b ts a ta r acc :
    Parses R SImp sc b ts a ta (TSemi :: TRb :: r) -> ParsesL R (SBody acc) sc (S b) ts (rev (a :: acc)) r.
  Proof. intros H1; st. rewrite H1 by lia. reflexivity. Qed.
  Lemma P_quant sc (ex : bool) b r decls r1 d body r2 :
    pvars r = Some (decls, TLb :: r1) -> decl_types R decls = Some d ->
    ParsesL R (SBody []) (dict_of d ++ sc) b r1 body r2 ->
    Parses R SRel sc (S b) ((if ex then TExists else TForall) :: TLp :: r) (quant R ex (dict_of d) body) TB r2.
  Proof. intros Hp Hd H. destruct ex; st; rewrite Hp, Hd, H by lia; reflexivity. Qed.
  Lemma P_not_skip_q sc (ex : bool) b ts a ta r :
    Parses R SRel sc b ((if ex then TExists else TForall) :: ts) a ta r ->
    Parses R SNot sc (S b) ((if ex then TExists else TForall) :: ts) a ta r.
  Proof. intros H. destruct ex; st; apply H; lia. Qed.

  Lemma quant_case (ex : bool) vs a bs :
    anml_ok R arity bs (qnode ex vs a) = true -> PU (vs ++ bs) a -> PU bs (qnode ex vs a).
  Proof.
    intros Hok Pa rest Hr.
    assert (Hok' : negb (match vs with [] => true | _ => false end) && nodupN (map fst vs) && anml_ok R arity (vs ++ bs) a = true)
      by (destruct ex; exact Hok).
    apply andb_prop in Hok'. destruct Hok' as [Hok' Hoka]. apply andb_prop in Hok'. destruct Hok' as [Hne Hnd].
    assert (Hvs : vs <> []) by (destruct vs; [discriminate|congruence]).
    assert (E : pr W (qnode ex vs a) ++ rest =
                TLp :: (if ex then TExists else TForall) :: TLp :: (pr_vars W vs ++ TRp :: TLb :: (pr W a ++ TSemi :: TRb :: TRp :: rest))).
    { destruct ex; cbn [qnode pr app]; do 3 f_equal; repeat (rewrite <- app_assoc; cbn [app]); reflexivity. }
    assert (L : length (pr W (qnode ex vs a)) = 8 + length (pr_vars W vs) + length (pr W a)).
    { destruct ex; cbn [qnode pr length]; rewrite !app_length; cbn [length]; lia. }
    assert (Nn : norm (qnode ex vs a) = quant R ex (dict_of (rscope W vs)) [norm a]).
    { unfold quant. rewrite (dict_of_rscope vs Hnd), quant_vars. destruct ex; reflexivity. }
    assert (T : tier_of (qnode ex vs a) = TB) by (destruct ex; reflexivity).
    rewrite E, L, Nn, T.
    eapply Parses_mono.
    - apply P_paren. apply imp_of_not. apply P_not_skip_q.
      eapply P_quant; [apply pvars_pr; exact Hvs|apply decl_types_of|].
      change [norm a] with (rev [norm a]).
      apply P_body_end with (ta := tier_of a).
      rewrite (dict_of_rscope vs Hnd). unfold rscope in *. rewrite <- map_app.
      apply up_imp; [eapply start_pr; exact Hoka|apply Pa; reflexivity|reflexivity].
    - lia.
  Qed.

  Lemma int_parses sc z r :
    Parses R SUn sc 3 (pr_int z ++ r) (norm_int z) TA r.
  Proof.
    unfold pr_int, norm_int. destruct (z <? 0)%Z eqn:E; cbn [app].
    - replace (- z)%Z with (Z.of_N (Z.to_N (- z))) at 2 by (apply Z2N.id; lia). apply P_neg.
    - replace z with (Z.of_N (Z.to_N z)) at 2 by (apply Z2N.id; lia). eapply Parses_mono; [apply P_num|lia].
  Qed.
  Lemma len_pr_int z : 1 <= length (pr_int z) <= 2.
  Proof. unfold pr_int. destruct (z <? 0)%Z; cbn; lia. Qed.

  Notation IHb bs := (IH W R arity (rscope W bs) bs).
  Definition MA (e : expr) : Prop := forall bs, anml_ok R arity bs e = true -> PU bs e.

  Lemma IH_all bs (okT : tier -> Prop) l :
    Forall MA l -> forallb (anml_ok R arity bs) l = true -> (forall x, In x l -> okT (tier_of x)) ->
    Forall (fun x => okT (tier_of x) /\ IHb bs x) l.
  Proof.
    intros HM Ho Ht. rewrite forallb_forall in Ho. rewrite Forall_forall in *.
    intros x Hx. split; [apply Ht; exact Hx|]. split; [apply Ho; exact Hx|]. apply HM; [exact Hx|apply Ho; exact Hx].
  Qed.
  Lemma arith_TA x : arith x = true -> tier_of x = TA.
  Proof. unfold arith. destruct (tier_of x); cbn; congruence. Qed.
  Lemma arith_leR x : arith x = true -> leR (tier_of x).
  Proof. intros H. rewrite (arith_TA x H). reflexivity. Qed.
  Lemma arith_isA l : forallb arith l = true -> forall x, In x l -> isA (tier_of x).
  Proof. intros H x Hx. rewrite forallb_forall in H. apply arith_TA, H, Hx. Qed.

  Lemma nary_eq sep x l rest :
    (TLp :: join sep (map (pr W) (x :: l)) ++ [TRp]) ++ rest = TLp :: pr W x ++ (ctoks W sep l ++ TRp :: rest).
  Proof. cbn [map]. rewrite join_cons. unfold ctoks. cbn [app]. rewrite <- !app_assoc. reflexivity. Qed.
  Lemma nary_len sep x l : length (TLp :: join sep (map (pr W) (x :: l)) ++ [TRp]) = 2 + length (pr W x) + tl W l.
  Proof.
    cbn [map]. rewrite join_cons. cbn [length]. rewrite !app_length. fold (ctoks W sep l). rewrite len_ctoks. cbn. lia.
  Qed.
  Lemma bin_eq sep a b rest :
    (TLp :: pr W a ++ sep :: pr W b ++ [TRp]) ++ rest = TLp :: pr W a ++ (ctoks W sep [b] ++ TRp :: rest).
  Proof.
    unfold ctoks. cbn [map concat]. rewrite app_nil_r. cbn [app]. f_equal.
    repeat (rewrite <- app_assoc; cbn [app]). reflexivity.
  Qed.
  Lemma bin_len sep a b : length (TLp :: pr W a ++ sep :: pr W b ++ [TRp]) = 2 + length (pr W a) + tl W [b].
  Proof. cbn [length tl fold_right]. rewrite !app_length. cbn [length]. rewrite app_length. cbn. lia. Qed.
  Lemma bin_assoc sep a b rest :
    (TLp :: pr W a ++ sep :: pr W b ++ [TRp]) ++ rest = TLp :: pr W a ++ (sep :: pr W b ++ TRp :: rest).
  Proof. cbn [app]. f_equal. repeat (rewrite <- app_assoc; cbn [app]). reflexivity. Qed.

  Definition acost (l : list expr) : nat := fold_right (fun x s => 20 * length (pr W x) + 12 + s) 0 l.
  Lemma args_parses bs : forall l acc rest, l <> [] ->
    Forall (fun x => anml_ok R arity bs x = true /\ PU bs x) l ->
    ParsesL R (SArgs acc) (rscope W bs) (acost l) (join TComma (map (pr W) l) ++ TRp :: rest)
      (rev acc ++ map norm l) rest.
  Proof.
    induction l as [|x l IHl]; intros acc rest Hne HF; [congruence|].
    inversion HF as [|? ? [Hok Hp] HF']; subst.
    destruct l as [|y l].
    - cbn [map join]. change (rev acc ++ [norm x]) with (rev (norm x :: acc)).
      intros n Hn. eapply P_args_end with (b := 20 * length (pr W x) + 10); [|cbn in Hn; lia].
      apply up_imp; [eapply start_pr; exact Hok|apply Hp; reflexivity|reflexivity].
    - change (join TComma (map (pr W) (x :: y :: l))) with (pr W x ++ TComma :: join TComma (map (pr W) (y :: l))).
      rewrite <- app_assoc. cbn [app].
      change (map norm (x :: y :: l)) with (norm x :: map norm (y :: l)).
      replace (rev acc ++ norm x :: map norm (y :: l)) with (rev (norm x :: acc) ++ map norm (y :: l))
        by (cbn [rev]; rewrite <- app_assoc; reflexivity).
      intros n Hn.
      eapply P_args_comma with (b1 := 20 * length (pr W x) + 10) (b2 := acost (y :: l)).
      + apply up_imp; [eapply start_pr; exact Hok|apply Hp; reflexivity|reflexivity].
      + apply IHl; [congruence|exact HF'].
      + change (acost (x :: y :: l)) with (20 * length (pr W x) + 12 + acost (y :: l)) in Hn. lia.
  Qed.
  Lemma len_join_args l : l <> [] -> S (length (join TComma (map (pr W) l))) = tl W l.
  Proof.
    induction l as [|x l IHl]; [congruence|]. intros _. destruct l as [|y l].
    - cbn. lia.
    - change (join TComma (map (pr W) (x :: y :: l))) with (pr W x ++ TComma :: join TComma (map (pr W) (y :: l))).
      change (tl W (x :: y :: l)) with (S (length (pr W x)) + tl W (y :: l)).
      rewrite app_length. cbn [length]. rewrite <- IHl by congruence. lia.
  Qed.
  Lemma acost_le l : acost l <= 20 * tl W l.
  Proof.
    induction l as [|x l IHl]; [cbn; lia|].
    change (acost (x :: l)) with (20 * length (pr W x) + 12 + acost l).
    change (tl W (x :: l)) with (S (length (pr W x)) + tl W l). lia.
  Qed.

  Ltac ands H := repeat (apply andb_prop in H; let H' := fresh H in destruct H as [H H']).

  Lemma norm_is_bool e bs : anml_ok R arity bs e = true -> arith e = true -> is_bool R (norm e) = is_bool R e.
  Proof.
    destruct e; cbn [anml_ok arith tier_of tier_is_A]; try reflexivity; try discriminate; intros Hok _.
    - cbn. unfold norm_int. destruct (z <? 0)%Z; reflexivity.
    - apply andb_prop in Hok. cbn [norm]. destruct (chain_last (fun a b => EPlus [a; b]) l (proj2 Hok)) as (a & b & ->). reflexivity.
    - apply andb_prop in Hok. cbn [norm]. destruct (chain_last (fun a b => ETimes [a; b]) l (proj2 Hok)) as (a & b & ->). reflexivity.
  Qed.

  (* the two printed shapes of an operator node, "(x sep y sep ...)" of a list and "(a sep b)", at the operator's level *)
  Lemma nary_node bs {SE SL so k up down okT T' mk} sep l rest :
    level R SE SL so k up down -> loop_step R SL so okT T' sep mk -> okT T' -> lv sep = k ->
    Forall MA l -> forallb (anml_ok R arity bs) l = true -> (forall x, In x l -> okT (tier_of x)) ->
    Nat.leb 2 (length l) = true ->
    Parses R SUn (rscope W bs) (20 * length (TLp :: join sep (map (pr W) l) ++ [TRp]))
      ((TLp :: join sep (map (pr W) l) ++ [TRp]) ++ rest) (chain mk (map norm l)) T' rest.
  Proof.
    intros HL Hstep HT Hsep H Hok Ht Hl. destruct (two_plus l Hl) as (x & y & l' & ->).
    pose proof (IH_all bs okT _ H Hok Ht) as F. destruct (Forall_inv F) as [Tx Ix].
    rewrite nary_eq, nary_len.
    exact (node_parses W R arity _ bs HL sep mk Hstep HT Hsep x (y :: l') rest Tx Ix (Forall_inv_tail F)).
  Qed.
  Lemma bin_node bs {SE SL so k up down okT T' mk} sep a b rest :
    level R SE SL so k up down -> loop_step R SL so okT T' sep mk -> okT T' -> lv sep = k ->
    MA a -> MA b -> anml_ok R arity bs a = true -> anml_ok R arity bs b = true -> okT (tier_of a) -> okT (tier_of b) ->
    Parses R SUn (rscope W bs) (20 * length (TLp :: pr W a ++ sep :: pr W b ++ [TRp]))
      ((TLp :: pr W a ++ sep :: pr W b ++ [TRp]) ++ rest) (mk (norm a) (norm b)) T' rest.
  Proof.
    intros HL Hstep HT Hsep Ma Mb Oa Ob Ta Tb. rewrite bin_eq, bin_len.
    apply (node_parses W R arity _ bs HL sep mk Hstep HT Hsep a [b] rest Ta (conj Oa (Ma bs Oa))).
    constructor; [exact (conj Tb (conj Ob (Mb bs Ob)))|constructor].
  Qed.

  Lemma MA_int z : MA (EInt z).
  Proof.
    intros bs _ rest _. cbn [pr norm tier_of]. eapply Parses_mono; [apply int_parses|pose proof (len_pr_int z); lia].
  Qed.
  Lemma MA_imp a b : MA a -> MA b -> MA (EImplies a b).
  Proof.
    intros Ma Mb bs Hok rest Hr. cbn [anml_ok] in Hok. apply andb_prop in Hok. destruct Hok as [Ha Hb].
    change (pr W (EImplies a b)) with (TLp :: pr W a ++ TImplies :: pr W b ++ [TRp]). cbn [norm tier_of]. rewrite bin_assoc.
    eapply Parses_mono; [apply P_paren; eapply P_imp;
      [apply up_andor; [eapply start_pr; exact Ha|apply (Ma bs Ha); reflexivity|cbn; lia]
      |apply up_imp; [eapply start_pr; exact Hb|apply (Mb bs Hb); reflexivity|reflexivity]]|].
    cbn [length]. rewrite !app_length. cbn [length]. rewrite app_length. cbn [length]. lia.
  Qed.
  Lemma MA_div a b : MA a -> MA b -> MA (EDiv a b).
  Proof.
    intros Ma Mb bs Hok rest Hr. cbn [anml_ok] in Hok. ands Hok.
    exact (bin_node bs TDiv a b rest (level_mul R) (P_mulL_div R) eq_refl eq_refl Ma Mb Hok Hok2 (arith_TA _ Hok1) (arith_TA _ Hok0)).
  Qed.
  Lemma MA_and l : Forall MA l -> MA (EAnd l).
  Proof.
    intros H bs Hok rest Hr. cbn [anml_ok] in Hok. ands Hok.
    exact (nary_node bs TAnd l rest (level_andor R) (P_andorL_and R) I eq_refl H Hok (fun _ _ => I) Hok0).
  Qed.
  Lemma pr_iff a b : pr W (EIff a b) = pr W (EAnd [EImplies a b; EImplies b a]).
  Proof. cbn [pr map join]. cbn [app]. do 2 f_equal. repeat (rewrite <- app_assoc; cbn [app]). reflexivity. Qed.

  (* every expression of the fragment, followed by a token that is not "(", is read at the unary level as its normal
     form; the binary and n-ary nodes are [node_parses] at the operator's level and loop step *)
  Theorem main_all : forall e, MA e.
  Proof.
    induction e using expr_ind'; intros bs Hok rest Hr; cbn [anml_ok] in Hok; try discriminate.
    - (* EBool *) destruct b; cbn [pr app norm tier_of]; eapply Parses_mono; [apply P_true|cbn; lia|apply P_false|cbn; lia].
    - (* EInt *) exact (MA_int z bs Hok rest Hr).
    - (* EReal: printed as the division of two integer literals *)
      exact (MA_div (EInt (Qnum (this q))) (EInt (Zpos (Qden (this q)))) (MA_int _) (MA_int _) bs eq_refl rest Hr).
    - (* EObj *) cbn [pr app norm tier_of]. eapply Parses_mono; [apply P_name0; [exact Hr|apply (res_obj W R arity HN)]|cbn; lia].
    - (* EParam *) cbn [pr app norm tier_of]. eapply Parses_mono; [apply P_name0; [exact Hr|apply (res_par W R arity HN)]|cbn; lia].
    - (* EVar *) destruct (lookup bs v) as [t'|] eqn:E; [|discriminate]. apply N.eqb_eq in Hok. subst t'.
      cbn [pr app norm tier_of]. eapply Parses_mono; [apply P_name0; [exact Hr|apply (res_var W R arity HN); exact E]|cbn; lia].
    - (* EFluent *) ands Hok. apply Nat.eqb_eq in Hok0.
      destruct args as [|x l].
      + cbn [pr app norm tier_of map]. eapply Parses_mono; [apply P_name0; [exact Hr|apply (res_flu W R arity HN); exact Hok0]|cbn; lia].
      + change (pr W (EFluent f (x :: l))) with (TName (nmF W f) :: TLp :: join TComma (map (pr W) (x :: l)) ++ [TRp]).
        cbn [norm tier_of]. cbn [app]. rewrite <- app_assoc. cbn [app].
        pose proof (IH_all bs anyT _ H Hok (fun _ _ => I)) as HF.
        apply (Forall_impl (fun y => anml_ok R arity bs y = true /\ PU bs y) (fun y Hy => proj2 Hy)) in HF.
        eapply Parses_mono.
        * eapply P_nameargs.
          -- cbn [map]. rewrite join_cons. rewrite <- app_assoc. eapply start_pr. inversion HF as [|? ? [Hx _] _]. exact Hx.
          -- apply (args_parses bs (x :: l) [] rest); [congruence|exact HF].
          -- cbn [rev app]. apply (res_flu W R arity HN). rewrite map_length. exact Hok0.
        * pose proof (acost_le (x :: l)). pose proof (len_join_args (x :: l) ltac:(congruence)).
          cbn [length]. rewrite app_length. cbn [length]. lia.
    - (* EAnd *) exact (MA_and l H bs Hok rest Hr).
    - (* EOr *) ands Hok.
      exact (nary_node bs TOr l rest (level_andor R) (P_andorL_or R) I eq_refl H Hok (fun _ _ => I) Hok0).
    - (* ENot *) change (pr W (ENot e)) with (TLp :: TNot :: pr W e ++ [TRp]). cbn [norm tier_of]. cbn [app].
      rewrite <- app_assoc. cbn [app].
      eapply Parses_mono.
      + apply P_paren. apply imp_of_not. eapply P_not.
        apply up_not; [eapply start_pr; exact Hok|apply (IHe bs Hok); reflexivity|cbn; lia].
      + cbn [length]. rewrite app_length. cbn [length]. lia.
    - (* EImplies *) exact (MA_imp e1 e2 IHe1 IHe2 bs Hok rest Hr).
    - (* EIff: printed as the conjunction of the two implications *) ands Hok. rewrite pr_iff.
      apply (MA_and _ (Forall_cons _ (MA_imp _ _ IHe1 IHe2) (Forall_cons _ (MA_imp _ _ IHe2 IHe1) (Forall_nil _))) bs); [|exact Hr].
      cbn [anml_ok forallb length]. rewrite Hok, Hok0. reflexivity.
    - (* EExists *) apply (quant_case true vs e bs); [exact Hok| |exact Hr]. ands Hok. exact (IHe (vs ++ bs) Hok0).
    - (* EForall *) apply (quant_case false vs e bs); [exact Hok| |exact Hr]. ands Hok. exact (IHe (vs ++ bs) Hok0).
    - (* EPlus *) ands Hok.
      exact (nary_node bs TPlus l rest (level_add R) (P_addL_plus R) eq_refl eq_refl H Hok (arith_isA _ Hok1) Hok0).
    - (* EMinus *) ands Hok.
      exact (bin_node bs TMinus e1 e2 rest (level_add R) (P_addL_minus R) eq_refl eq_refl IHe1 IHe2 Hok Hok2
               (arith_TA _ Hok1) (arith_TA _ Hok0)).
    - (* ETimes *) ands Hok.
      exact (nary_node bs TTimes l rest (level_mul R) (P_mulL_times R) eq_refl eq_refl H Hok (arith_isA _ Hok1) Hok0).
    - (* EDiv *) exact (MA_div e1 e2 IHe1 IHe2 bs Hok rest Hr).
    - (* ELe *) ands Hok.
      exact (bin_node bs TLe e1 e2 rest (level_rel R) (P_relL_le R) eq_refl eq_refl IHe1 IHe2 Hok Hok2
               (arith_leR _ Hok1) (arith_leR _ Hok0)).
    - (* ELt *) ands Hok.
      exact (bin_node bs TLt e1 e2 rest (level_rel R) (P_relL_lt R) eq_refl eq_refl IHe1 IHe2 Hok Hok2
               (arith_leR _ Hok1) (arith_leR _ Hok0)).
    - (* EEquals: the loop builds an equality because the left operand is not Boolean *)
      ands Hok. apply negb_true_iff in Hok0. rewrite <- (norm_is_bool e1 bs Hok Hok2) in Hok0.
      pose proof (bin_node bs TEq e1 e2 rest (level_rel R) (P_relL_eq R) eq_refl eq_refl IHe1 IHe2 Hok Hok3
                    (arith_leR _ Hok2) (arith_leR _ Hok1)) as P.
      cbv beta in P. rewrite Hok0 in P. exact P.
  Qed.

  Theorem main : forall e, M e.
  Proof using HN HQ. intros e bs _ Hok. exact (main_all e bs Hok). Qed.
End Main.

Theorem parse_print W R arity (HN : names_ok W R arity) e bs :
  anml_ok R arity bs e = true -> parse R (rscope W bs) (pr W e) = Some (norm e).
Proof.
  intros Hok.
  assert (P := main_all W R arity HN e bs Hok [] eq_refl).
  rewrite app_nil_r in P.
  eapply parse_of_Parses; [|exact P|unfold fuel_of; lia].
  pose proof (start_pr W R arity e bs [] Hok) as S. now rewrite app_nil_r in S.
Qed.

Theorem parse_print_qf W R arity (HN : names_ok W R arity) e bs :
  frag false e = true -> anml_ok R arity bs e = true -> parse R (rscope W bs) (pr W e) = Some (norm e).
Proof. intros _. apply parse_print, HN. Qed.

Section Atomic.
  Variable W : wnames.
  Variable R : rtables.
  Variable arity : N -> nat.
  Hypothesis HN : names_ok W R arity.

  Theorem parse_print_atomic e bs :
    atomic e = true -> anml_ok R arity bs e = true -> parse R (rscope W bs) (pr W e) = Some (norm e).
  Proof. intros _. apply parse_print, HN. Qed.
End Atomic.

Section EvalNorm.
  Variable R : rtables.
  Variable arity : N -> nat.

  Lemma eval_norm_int sc z I : eval sc (norm_int z) I = Some (VNum (zq z)).
  Proof.
    unfold norm_int. destruct (z <? 0)%Z; [|reflexivity].
    rewrite eval_ETimes. cbn. f_equal. f_equal. rewrite q1r, <- zq_mul. f_equal. lia.
  Qed.

  Lemma qc_num_den (q : Qc) : (zq (Qnum (this q)) / zq (Zpos (Qden (this q))) = q)%Qc.
  Proof.
    apply Qc_is_canon. destruct q as [[n d] Hc]. unfold Qcdiv, Qcmult, Qcinv, zq, Q2Qc. cbn [this Qnum Qden].
    rewrite !Qred_correct. unfold Qeq, Qmult, Qinv, inject_Z. cbn. lia.
  Qed.
  Lemma zq_pos_not0 d : qc_is0 (zq (Zpos d)) = false.
  Proof.
    destruct (qc_is0 (zq (Zpos d))) eqn:E; [|reflexivity].
    apply qc_is0_spec in E. apply zq_inj in E. discriminate.
  Qed.

  Definition notnot (a : expr) : bool := match a with ENot _ => true | _ => false end.
  Lemma norm_notnot a bs : anml_ok R arity bs a = true -> notnot a = false -> notnot (norm a) = false.
  Proof.
    destruct a; cbn [anml_ok notnot norm]; try reflexivity; try discriminate; intros Hok _.
    - unfold norm_int. destruct (z <? 0)%Z; reflexivity.
    - apply andb_prop in Hok. destruct (chain_last (fun a b => EAnd [a; b]) l (proj2 Hok)) as (a & b & ->). reflexivity.
    - apply andb_prop in Hok. destruct (chain_last (fun a b => EOr [a; b]) l (proj2 Hok)) as (a & b & ->). reflexivity.
    - apply andb_prop in Hok. destruct (chain_last (fun a b => EPlus [a; b]) l (proj2 Hok)) as (a & b & ->). reflexivity.
    - apply andb_prop in Hok. destruct (chain_last (fun a b => ETimes [a; b]) l (proj2 Hok)) as (a & b & ->). reflexivity.
  Qed.

  Definition EV (e : expr) : Prop :=
    forall sc bs I, anml_ok R arity bs e = true -> nodneg e = true -> eval sc (norm e) I = eval sc e I.

  Lemma norm_eval_En o sc bs I l : Forall EV l -> forallb (anml_ok R arity bs) l = true -> forallb nodneg l = true ->
    eval sc (En o (map norm l)) I = eval sc (En o l) I.
  Proof.
    intros H Ho Hn. rewrite forallb_forall in Ho, Hn.
    destruct (map_eval_same sc I norm l) as (E1 & E2 & E3).
    { rewrite Forall_forall in *. intros x Hx. apply (H x Hx sc bs I); auto. }
    rewrite !eval_En. destruct o; cbn [semn]; rewrite ?E1, ?E2, ?E3; reflexivity.
  Qed.

  Lemma norm_eval_E2 o sc bs I a b : EV a -> EV b -> anml_ok R arity bs (E2 o a b) = true -> nodneg (E2 o a b) = true ->
    eval sc (E2 o (norm a) (norm b)) I = eval sc (E2 o a b) I.
  Proof.
    intros Ea Eb Hok Hn. destruct (ok_E2 R arity o a b bs Hok) as [Oa Ob].
    assert (K : nodneg a = true /\ nodneg b = true)
      by (apply andb_prop; destruct o; try discriminate Hok; exact Hn).
    destruct K as [Na Nb]. rewrite !eval_E2, (Ea sc bs I Oa Na), (Eb sc bs I Ob Nb). reflexivity.
  Qed.

  Theorem norm_eval : forall e, EV e.
  Proof.
    induction e using expr_ind'; intros sc bs I Hok Hn; cbn [anml_ok] in Hok; cbn [nodneg] in Hn; try discriminate;
      try reflexivity.
    - (* EInt *) apply eval_norm_int.
    - (* EReal *) cbn [norm]. rewrite eval_EDiv, eval_norm_int. cbn [as_num eval]. rewrite zq_pos_not0, qc_num_den. reflexivity.
    - (* EFluent *) apply andb_prop in Hok. exact (norm_eval_En (NFluent f) sc bs I args H (proj1 Hok) Hn).
    - (* EAnd *) apply andb_prop in Hok. destruct Hok as [Hok Hl].
      transitivity (eval sc (EAnd (map norm l)) I); [|exact (norm_eval_En NAnd sc bs I l H Hok Hn)]. destruct (two_plus l Hl) as (x & y & l' & ->).
      apply (eval_fold_and sc I _ (norm y :: map norm l') (norm x) (fun a b => or_introl eq_refl)). discriminate.
    - (* EOr *) apply andb_prop in Hok. destruct Hok as [Hok Hl].
      transitivity (eval sc (EOr (map norm l)) I); [|exact (norm_eval_En NOr sc bs I l H Hok Hn)]. destruct (two_plus l Hl) as (x & y & l' & ->).
      apply (eval_fold_or sc I _ (norm y :: map norm l') (norm x) (fun a b => or_introl eq_refl)). discriminate.
    - (* ENot *) apply andb_prop in Hn. destruct Hn as [Hnn Hn]. cbn [norm].
      assert (N0 : notnot (norm e) = false) by (apply (norm_notnot e bs Hok); destruct e; cbn in *; congruence).
      replace (mkNot (norm e)) with (ENot (norm e)) by (destruct (norm e); cbn in N0; try reflexivity; discriminate).
      rewrite !eval_ENot, (IHe sc bs I Hok Hn). reflexivity.
    - (* EImplies *) exact (norm_eval_E2 BImplies sc bs I e1 e2 IHe1 IHe2 Hok Hn).
    - (* EIff *) apply andb_prop in Hok. destruct Hok as [Ha Hb]. apply andb_prop in Hn. destruct Hn as [Na Nb].
      cbn [norm]. rewrite eval_EAnd, eval_EIff. cbn [ebools]. rewrite !eval_EImplies, (IHe1 sc bs I Ha Na), (IHe2 sc bs I Hb Nb).
      destruct (as_bool (eval sc e1 I)) as [[]|]; destruct (as_bool (eval sc e2 I)) as [[]|]; reflexivity.
    - (* EExists *) apply andb_prop in Hok. destruct Hok as [_ Hok]. cbn [norm]. rewrite !eval_EExists.
      rewrite (map_ext _ _ (fun J => f_equal as_bool (IHe sc (vs ++ bs) J Hok Hn))). reflexivity.
    - (* EForall *) apply andb_prop in Hok. destruct Hok as [_ Hok]. cbn [norm]. rewrite !eval_EForall.
      rewrite (map_ext _ _ (fun J => f_equal as_bool (IHe sc (vs ++ bs) J Hok Hn))). reflexivity.
    - (* EPlus *) apply andb_prop in Hok. destruct Hok as [Hok Hl]. apply andb_prop in Hok.
      transitivity (eval sc (EPlus (map norm l)) I); [|exact (norm_eval_En NPlus sc bs I l H (proj1 Hok) Hn)].
      destruct (two_plus l Hl) as (x & y & l' & ->).
      apply (eval_fold_plus sc I _ (norm y :: map norm l') (norm x) (fun a b => or_introl eq_refl)). discriminate.
    - (* EMinus *) exact (norm_eval_E2 BMinus sc bs I e1 e2 IHe1 IHe2 Hok Hn).
    - (* ETimes *) apply andb_prop in Hok. destruct Hok as [Hok Hl]. apply andb_prop in Hok.
      transitivity (eval sc (ETimes (map norm l)) I); [|exact (norm_eval_En NTimes sc bs I l H (proj1 Hok) Hn)].
      destruct (two_plus l Hl) as (x & y & l' & ->).
      apply (eval_fold_times sc I _ (norm y :: map norm l') (norm x) (fun a b => or_introl eq_refl)). discriminate.
    - (* EDiv *) exact (norm_eval_E2 BDiv sc bs I e1 e2 IHe1 IHe2 Hok Hn).
    - (* ELe *) exact (norm_eval_E2 BLe sc bs I e1 e2 IHe1 IHe2 Hok Hn).
    - (* ELt *) exact (norm_eval_E2 BLt sc bs I e1 e2 IHe1 IHe2 Hok Hn).
    - (* EEquals *) exact (norm_eval_E2 BEquals sc bs I e1 e2 IHe1 IHe2 Hok Hn).
  Qed.
End EvalNorm.

(* a concrete naming that satisfies [names_ok]: identifiers 4k (fluents), 4k+1 (parameters), 4k+2 (objects),
   4k+3 (variables), k (types) *)
Definition exW : wnames :=
  {| nmF := fun f => (4 * f)%N; nmP := fun p => (4 * p + 1)%N; nmO := fun o => (4 * o + 2)%N;
     nmV := fun v => (4 * v + 3)%N; nmT := fun t => t |}.
Definition ex_arity (f : N) : nat := match f with 0%N => 0 | 1%N => 2 | _ => 0 end.
Definition exR : rtables :=
  {| tyOf := fun s => Some s;
     parOf := fun s => if (s mod 4 =? 1)%N then Some (s / 4)%N else None;
     fluOf := fun s => if (s mod 4 =? 0)%N then Some ((s / 4)%N, ex_arity (s / 4)%N) else None;
     objOf := fun s => if (s mod 4 =? 2)%N then Some (s / 4)%N else None;
     varOf := fun s => (s / 4)%N;
     fbool := fun f => (f =? 0)%N || (f =? 1)%N;
     pbool := fun _ => false |}.
Lemma m4 k r : (r < 4)%N -> ((4 * k + r) mod 4 = r)%N.
Proof. intros H. symmetry. apply (N.mod_unique _ 4 k r H). reflexivity. Qed.
Lemma d4 k r : (r < 4)%N -> ((4 * k + r) / 4 = k)%N.
Proof. intros H. symmetry. apply (N.div_unique _ 4 k r H). reflexivity. Qed.
Lemma ex_names_ok : names_ok exW exR ex_arity.
Proof.
  constructor; cbn [exW exR nmF nmP nmO nmV nmT tyOf parOf fluOf objOf varOf]; intros.
  - reflexivity.
  - rewrite m4, d4 by lia. reflexivity.
  - replace (4 * f)%N with (4 * f + 0)%N by lia. rewrite m4, d4 by lia. reflexivity.
  - rewrite m4, d4 by lia. reflexivity.
  - apply d4. lia.
  - lia.
  - lia.
  - lia.
  - replace (4 * f)%N with (4 * f + 0)%N by lia. rewrite m4 by lia. reflexivity.
  - rewrite m4 by lia. reflexivity.
  - rewrite m4 by lia. reflexivity.
Qed.

(* "The state in force at an instant" versus the validator's trace: the final check of a condition by the model of the
   code ([check_cond], through _states_in_interval) and the executable reference ([cond_okb], through sample instants)
   both decide the dense-time statement [cond_ok]. *)
From Coq Require Import List ZArith NArith QArith Qcanon Bool Lia Lqa.
Import ListNotations.
Require Import UPV.Core.Expr UPV.Core.Eval UPV.Core.Interp UPV.Planning.Problem UPV.Planning.Sem.
Require Import UPV.Planning.Temporal UPV.Planning.TTValidate.
Require Import UPV.Proofs.ListFacts UPV.Proofs.Eval_lemmas UPV.Proofs.Temporal_base.
Local Open Scope Qc_scope.

(* strictly increasing keys, all after p *)
Fixpoint asc_from (p : Qc) (ks : list Qc) : Prop :=
  match ks with [] => True | k :: r => p < k /\ asc_from k r end.

Lemma asc_from_gt p ks : asc_from p ks -> forall y, In y ks -> p < y.
Proof.
  revert p; induction ks as [|k ks IH]; intros p H y Hy; [destruct Hy|].
  destruct H as [H1 H2]. destruct Hy as [<-|Hy]; [exact H1|]. specialize (IH k H2 y Hy). qco.
Qed.

Lemma asc_from_weaken p q ks : q <= p -> asc_from p ks -> asc_from q ks.
Proof. destruct ks as [|k ks]; [auto|]. intros H [A B]. split; [qco | exact B]. Qed.

Lemma asc_from_NoDup p ks : asc_from p ks -> NoDup (p :: ks).
Proof.
  revert p; induction ks as [|k ks IH]; intros p H; [constructor; [intros [] | constructor]|].
  destruct H as [H1 H2]. constructor; [|apply IH, H2].
  intros Hin. pose proof (asc_from_gt p (k :: ks) (conj H1 H2) p Hin). qco.
Qed.

(* filtering keeps the keys increasing; the lower bound may be replaced by any bound of the keys that are kept *)
Lemma asc_from_filter_lb p q f ks : asc_from p ks -> (forall y, In y ks -> f y = true -> q < y) -> asc_from q (filter f ks).
Proof.
  revert p q; induction ks as [|k ks IH]; intros p q A H; [exact I|].
  destruct A as [A1 A2]. cbn [filter]. destruct (f k) eqn:E.
  - split; [apply H; [left; reflexivity | exact E]|].
    apply (IH k k A2). intros y Hy _. apply (asc_from_gt k ks A2 y Hy).
  - apply (IH k q A2). intros y Hy Hf. apply H; [right; exact Hy | exact Hf].
Qed.

Lemma asc_from_filter p ks f : asc_from p ks -> asc_from p (filter f ks).
Proof. intros A. apply (asc_from_filter_lb p p f ks A). intros y Hy _. apply (asc_from_gt p ks A y Hy). Qed.

Lemma asc_from_app p ks q : asc_from p ks -> (forall y, In y (p :: ks) -> y < q) -> asc_from p (ks ++ [q]).
Proof.
  revert p; induction ks as [|k ks IH]; intros p H Hq.
  - cbn. split; [apply Hq; left; reflexivity | exact I].
  - destruct H as [H1 H2]. cbn. split; [exact H1|]. apply IH; [exact H2|]. intros y Hy. apply Hq. right. exact Hy.
Qed.

Lemma asc_from_last p ks : asc_from p ks -> forall y, In y (p :: ks) -> y <= last ks p.
Proof.
  revert p; induction ks as [|k ks IH]; intros p H y Hy.
  - destruct Hy as [<-|[]]. apply Qcle_refl.
  - destruct H as [H1 H2]. rewrite last_cons. destruct Hy as [<-|Hy].
    + specialize (IH k H2 k (or_introl eq_refl)). qco.
    + apply IH; assumption.
Qed.

Lemma state_at_in_force (tr : trace) : forall m s0 u,
  asc_from m (keys tr) -> m < u ->
  exists x s, In (x, s) ((m, s0) :: tr) /\ in_force ((m, s0) :: tr) x u /\ state_at s0 tr u = s.
Proof.
  induction tr as [|[k s1] tr IH]; intros m s0 u A Hu.
  - exists m, s0. split; [left; reflexivity|]. split; [|reflexivity].
    split; [exact Hu|]. intros y [<-|[]] _. apply Qcle_refl.
  - cbn in A. destruct A as [A1 A2]. cbn [state_at].
    destruct (qc_ltb k u) eqn:E; qb.
    + destruct (IH k s1 u A2 E) as [x [s [Hin [[F1 F2] St]]]].
      exists x, s. split; [right; exact Hin|]. split; [|exact St].
      split; [exact F1|]. intros y [<-|Hy] Hyu.
      * specialize (F2 k (or_introl eq_refl) E). qco.
      * apply F2; assumption.
    + exists m, s0. split; [left; reflexivity|]. split; [|reflexivity].
      split; [exact Hu|]. intros y [<-|[<-|Hy]] Hyu; [apply Qcle_refl | qco |].
      pose proof (asc_from_gt k (keys tr) A2 y Hy). qco.
Qed.

Lemma in_force_unique (T : trace) x x' u :
  In x (keys T) -> In x' (keys T) -> in_force T x u -> in_force T x' u -> x = x'.
Proof. intros K K' [A B] [A' B']. apply Qcle_antisym; [apply B'; assumption | apply B; assumption]. Qed.

Lemma In_unique_key (T : trace) x s s' : NoDup (keys T) -> In (x, s) T -> In (x, s') T -> s = s'.
Proof.
  intros ND H H'. pose proof (tlookup_In T x s ND H) as E. rewrite (tlookup_In T x s' ND H') in E. inversion E; reflexivity.
Qed.

Lemma state_at_of_in_force (tr : trace) m s0 u x s :
  asc_from m (keys tr) -> m < u -> In (x, s) ((m, s0) :: tr) -> in_force ((m, s0) :: tr) x u -> state_at s0 tr u = s.
Proof.
  intros A Hu Hin F.
  destruct (state_at_in_force tr m s0 u A Hu) as [x' [s' [Hin' [F' St]]]].
  assert (ND : NoDup (keys ((m, s0) :: tr))) by (apply (asc_from_NoDup m (keys tr)), A).
  assert (x = x').
  { apply (in_force_unique ((m, s0) :: tr) x x' u); auto.
    - change x with (fst (x, s)). apply in_map, Hin.
    - change x' with (fst (x', s')). apply in_map, Hin'. }
  subst x'. rewrite St. symmetry. apply (In_unique_key _ x s s' ND Hin Hin').
Qed.

(* [T = (-1, s0) :: tr] is the validator's trace; keys strictly increasing *)
Theorem check_cond_spec sc TP (s0 : state) (tr : trace) (c : tcond) :
  asc_from minus1 (keys tr) -> zq 0 <= ai_lo (tc_iv c) -> iv_nonempty (tc_iv c) = true ->
  (check_cond sc TP ((minus1, s0) :: tr) c = true <-> cond_ok sc TP s0 tr c).
Proof.
  intros A L0 NE. set (T := (minus1, s0) :: tr).
  assert (ND : NoDup (keys T)) by (apply (asc_from_NoDup minus1 (keys tr)), A).
  assert (M : In minus1 (keys T)) by (left; reflexivity).
  pose proof (states_in_interval_exact T (tc_iv c) ND M L0 NE) as EX.
  unfold check_cond, cond_ok. rewrite forallb_forall. split.
  - intros H u Hu.
    assert (Hm : minus1 < u).
    { pose proof minus1_lt0. destruct Hu as [Hl _]. destruct (ai_lopen (tc_iv c)); qco. }
    destruct (state_at_in_force tr minus1 s0 u A Hm) as [x [s [Hin [F St]]]].
    rewrite St. apply (H (x, s)). apply EX. split; [exact Hin|]. exists u. split; assumption.
  - intros H [x s] Hin. apply EX in Hin. destruct Hin as [Hin [u [Hu F]]].
    assert (Hm : minus1 < u).
    { pose proof minus1_lt0. destruct Hu as [Hl _]. destruct (ai_lopen (tc_iv c)); qco. }
    cbn [snd]. rewrite <- (state_at_of_in_force tr minus1 s0 u x s A Hm Hin F). apply H, Hu.
Qed.

(* second core lemma in its sharpest form: a condition at an instant t (precondition of an instantaneous action,
   at-start / at-end / intermediate condition, duration constraint) is evaluated in the state produced by the last
   happening STRICTLY before t, i.e. before the effects scheduled at t, even when effects are scheduled at t *)
Theorem conditions_before_effects sc TP (s0 : state) (tr : trace) (t : Qc) bind e :
  asc_from minus1 (keys tr) -> zq 0 <= t ->
  check_cond sc TP ((minus1, s0) :: tr) {| tc_iv := point_interval t; tc_bind := bind; tc_expr := e |} =
  holds_in sc TP (state_at s0 tr t) bind e.
Proof.
  intros A L0.
  set (c := {| tc_iv := point_interval t; tc_bind := bind; tc_expr := e |}).
  assert (NE : iv_nonempty (tc_iv c) = true).
  { unfold iv_nonempty. cbn. rewrite qc_eqb_refl. apply orb_true_r. }
  pose proof (check_cond_spec sc TP s0 tr c A L0 NE) as S.
  destruct (holds_in sc TP (state_at s0 tr t) bind e) eqn:E.
  - apply S. intros u [U1 U2]. cbn in U1, U2. assert (u = t) by (apply Qcle_antisym; assumption). subst u. exact E.
  - destruct (check_cond sc TP ((minus1, s0) :: tr) c) eqn:E2; [|reflexivity].
    pose proof (proj1 S eq_refl t) as E3. cbn in E3. rewrite E in E3. symmetry. apply E3. split; apply Qcle_refl.
Qed.

Lemma state_at_same (tr : trace) : forall s0 u u',
  (forall k, In k (keys tr) -> (k < u <-> k < u')) -> state_at s0 tr u = state_at s0 tr u'.
Proof.
  induction tr as [|[k s] tr IH]; intros s0 u u' H; [reflexivity|].
  cbn [state_at]. pose proof (H k (or_introl eq_refl)) as Hk.
  destruct (qc_ltb k u) eqn:E1, (qc_ltb k u') eqn:E2; qb.
  - apply IH. intros y Hy. apply H. right. exact Hy.
  - apply Hk in E1. qco.
  - apply Hk in E2. qco.
  - reflexivity.
Qed.

Lemma in_ivb_iff iv u : in_ivb iv u = true <-> in_iv iv u.
Proof.
  unfold in_ivb, in_iv. rewrite andb_true_iff.
  destruct (ai_lopen iv), (ai_hi iv) as [h|]; try destruct (ai_ropen iv);
    rewrite ?qc_ltb_lt, ?qc_leb_le; intuition.
Qed.

(* consecutive breakpoints around an instant *)
Lemma mids_cover (ps : list Qc) : forall p u,
  asc_from p ps -> ps <> [] -> p < u -> u <= last ps p ->
  exists a b, In (mid a b) (mids p ps) /\ a < u /\ u <= b /\ a < b /\ (forall y, In y (p :: ps) -> y <= a \/ b <= y).
Proof.
  induction ps as [|q ps IH]; intros p u A NE Hu Hl; [contradiction|].
  destruct A as [A1 A2].
  destruct (Qclt_le_dec q u) as [L|L].
  - destruct ps as [|q' ps'].
    + cbn in Hl. qco.
    + assert (Hl' : u <= last (q' :: ps') q) by (rewrite last_cons in Hl; exact Hl).
      destruct (IH q u A2 ltac:(discriminate) L Hl') as [a [b [M [H1 [H2 [H3 H4]]]]]].
      exists a, b. split; [right; exact M|]. repeat split; auto.
      intros y [<-|Hy]; [|apply H4, Hy].
      destruct (H4 q (or_introl eq_refl)) as [Hq|Hq]; [left; qco | left; qco].
  - exists p, q. split; [left; reflexivity|]. repeat split; auto.
    intros y [<-|[<-|Hy]]; [left; apply Qcle_refl | right; apply Qcle_refl |].
    right. pose proof (asc_from_gt q ps A2 y Hy). qco.
Qed.

Lemma mids_inside (ps : list Qc) : forall p m, asc_from p ps -> In m (mids p ps) -> p < m /\ m < last ps p.
Proof.
  induction ps as [|q ps IH]; intros p m A Hm; [destruct Hm|].
  destruct A as [A1 A2]. cbn [mids] in Hm.
  assert (Lq : q <= last (q :: ps) p).
  { pose proof (asc_from_last p (q :: ps) (conj A1 A2) q (or_intror (or_introl eq_refl))). exact H. }
  destruct Hm as [<-|Hm].
  - destruct (mid_lt p q A1). split; qco.
  - destruct (IH q m A2 Hm) as [B1 B2]. split; [qco|].
    rewrite last_cons. exact B2.
Qed.

(* the happening times strictly inside an interval, followed by its upper bound, increase from the lower bound *)
Lemma inner_asc (tr : trace) lo h : asc_from minus1 (keys tr) -> lo < h ->
  asc_from lo (filter (fun x => qc_ltb lo x && qc_ltb x h) (map fst tr) ++ [h]).
Proof.
  intros A E. apply asc_from_app.
  - apply (asc_from_filter_lb minus1 lo _ _ A). intros y _ Hy.
    apply andb_true_iff in Hy. destruct Hy as [Hy _]. apply qc_ltb_lt, Hy.
  - intros y [<-|Hy]; [exact E|]. apply filter_In in Hy. destruct Hy as [_ Hy].
    apply andb_true_iff in Hy. destruct Hy as [_ Hy]. apply qc_ltb_lt, Hy.
Qed.

Lemma inner_asc_unbounded (tr : trace) lo : asc_from minus1 (keys tr) -> asc_from lo (filter (fun x => qc_ltb lo x) (map fst tr)).
Proof. intros A. apply (asc_from_filter_lb minus1 lo _ _ A). intros y _ Hy. apply qc_ltb_lt, Hy. Qed.

Section Samples.
  Variable sc : bool.
  Variable TP : tproblem.

  Lemma samples_sound (tr : trace) (iv : ainterval) :
    asc_from minus1 (keys tr) -> forall u, In u (samples tr iv) -> in_iv iv u.
  Proof.
    intros A u Hu. unfold samples in Hu. destruct iv as [lo hi lopen ropen]. cbn [ai_lo ai_hi ai_lopen ai_ropen] in *.
    unfold in_iv. cbn [ai_lo ai_hi ai_lopen ai_ropen].
    destruct hi as [h|].
    - destruct (qc_ltb lo h) eqn:E; qb.
      + apply in_app_iff in Hu. destruct Hu as [Hu|Hu].
        * destruct lopen; [destruct Hu|]. destruct Hu as [<-|[]]. split; [apply Qcle_refl | destruct ropen; qco].
        * set (inner := filter (fun x => qc_ltb lo x && qc_ltb x h) (map fst tr)) in *.
          assert (AI : asc_from lo (inner ++ [h])) by (apply inner_asc; assumption).
          destruct (mids_inside (inner ++ [h]) lo u AI Hu) as [B1 B2]. rewrite last_last in B2.
          split; [destruct lopen; qco | destruct ropen; qco].
      + destruct (in_ivb {| ai_lo := lo; ai_hi := Some h; ai_lopen := lopen; ai_ropen := ropen |} lo) eqn:E2; [|destruct Hu].
        destruct Hu as [<-|[]]. apply in_ivb_iff in E2. exact E2.
    - set (inner := filter (fun x => qc_ltb lo x) (map fst tr)) in *.
      assert (AI : asc_from lo inner) by (apply inner_asc_unbounded; assumption).
      split; [|exact I].
      apply in_app_iff in Hu. destruct Hu as [Hu|Hu].
      + destruct lopen; [destruct Hu|]. destruct Hu as [<-|[]]. apply Qcle_refl.
      + apply in_app_iff in Hu. destruct Hu as [Hu|[<-|[]]].
        * destruct (mids_inside inner lo u AI Hu) as [B1 _]. destruct lopen; qco.
        * pose proof (asc_from_last lo inner AI lo (or_introl eq_refl)). pose proof (plus1_lt (last inner lo)).
          destruct lopen; qco.
  Qed.

  (* every instant of the interval is represented by a sample instant on the same side of every happening *)
  Lemma samples_complete (tr : trace) (iv : ainterval) :
    asc_from minus1 (keys tr) -> forall u, in_iv iv u ->
    exists u', In u' (samples tr iv) /\ forall k, In k (keys tr) -> (k < u <-> k < u').
  Proof.
    intros A u Hu. unfold samples. destruct iv as [lo hi lopen ropen]. unfold in_iv in Hu.
    cbn [ai_lo ai_hi ai_lopen ai_ropen] in *. destruct Hu as [U1 U2].
    destruct hi as [h|].
    - destruct (qc_ltb lo h) eqn:E; qb.
      + set (inner := filter (fun x => qc_ltb lo x && qc_ltb x h) (map fst tr)).
        destruct (Qc_total lo u) as [L|[L|L]]; [| |destruct lopen; qco].
        * (* lo < u <= h *)
          assert (Uh : u <= h) by (destruct ropen; qco).
          assert (AI : asc_from lo (inner ++ [h])) by (apply inner_asc; assumption).
          assert (NEl : inner ++ [h] <> []) by (destruct inner; discriminate).
          assert (Ul : u <= last (inner ++ [h]) lo) by (rewrite last_last; exact Uh).
          destruct (mids_cover (inner ++ [h]) lo u AI NEl L Ul) as [a [b [M [H1 [H2 [H3 H4]]]]]].
          exists (mid a b). split; [apply in_app_iff; right; exact M|].
          destruct (mid_lt a b H3) as [M1 M2].
          assert (Alo : lo <= a /\ b <= h).
          { split.
            - destruct (H4 lo (or_introl eq_refl)) as [G|G]; [exact G | qco].
            - destruct (H4 h) as [G|G]; [right; apply in_app_iff; right; left; reflexivity | qco | exact G]. }
          intros k Hk.
          destruct (Qclt_le_dec lo k) as [K1|K1].
          -- destruct (Qclt_le_dec k h) as [K2|K2].
             ++ assert (Hin : In k (inner ++ [h])).
                { apply in_app_iff. left. apply filter_In. split; [exact Hk|].
                  apply andb_true_iff. split; apply qc_ltb_lt; assumption. }
                destruct (H4 k (or_intror Hin)) as [G|G]; split; intros; qco.
             ++ split; intros; qco.
          -- split; intros; qco.
        * (* u = lo *)
          subst u. destruct lopen; [qco|]. exists lo. split; [left; reflexivity | tauto].
      + (* not lo < h: the interval is a single instant or empty *)
        assert (u = lo).
        { apply Qcle_antisym; [destruct ropen; qco | destruct lopen; qco]. }
        subst u.
        assert (IB : in_ivb {| ai_lo := lo; ai_hi := Some h; ai_lopen := lopen; ai_ropen := ropen |} lo = true).
        { apply in_ivb_iff. split; assumption. }
        rewrite IB. exists lo. split; [left; reflexivity | tauto].
    - set (inner := filter (fun x => qc_ltb lo x) (map fst tr)).
      assert (AI : asc_from lo inner) by (apply inner_asc_unbounded; assumption).
      destruct (Qc_total lo u) as [L|[L|L]]; [| |destruct lopen; qco].
      + destruct (Qclt_le_dec (last inner lo) u) as [G|G].
        * (* after the last happening *)
          exists (last inner lo + zq 1). split; [apply in_app_iff; right; apply in_app_iff; right; left; reflexivity|].
          intros k Hk. pose proof (plus1_lt (last inner lo)).
          assert (k <= last inner lo).
          { destruct (Qclt_le_dec lo k) as [K|K].
            - apply (asc_from_last lo inner AI k). right. apply filter_In. split; [exact Hk | apply qc_ltb_lt, K].
            - pose proof (asc_from_last lo inner AI lo (or_introl eq_refl)). qco. }
          split; intros; qco.
        * assert (NEl : inner <> []) by (destruct inner; [cbn in G; qco | discriminate]).
          destruct (mids_cover inner lo u AI NEl L G) as [a [b [M [H1 [H2 [H3 H4]]]]]].
          exists (mid a b). split; [apply in_app_iff; right; apply in_app_iff; left; exact M|].
          destruct (mid_lt a b H3) as [M1 M2].
          assert (Alo : lo <= a) by (destruct (H4 lo (or_introl eq_refl)) as [G'|G']; [exact G' | qco]).
          intros k Hk.
          destruct (Qclt_le_dec lo k) as [K1|K1].
          -- assert (Hin : In k inner) by (apply filter_In; split; [exact Hk | apply qc_ltb_lt, K1]).
             destruct (H4 k (or_intror Hin)) as [G'|G']; split; intros; qco.
          -- split; intros; qco.
      + subst u. destruct lopen; [qco|]. exists lo. split; [left; reflexivity | tauto].
  Qed.

  Theorem cond_okb_spec (s0 : state) (tr : trace) (c : tcond) :
    asc_from minus1 (keys tr) -> (cond_okb sc TP s0 tr c = true <-> cond_ok sc TP s0 tr c).
  Proof.
    intros A. unfold cond_okb, cond_ok. rewrite forallb_forall. split.
    - intros H u Hu. destruct (samples_complete tr (tc_iv c) A u Hu) as [u' [Hin Hs]].
      rewrite (state_at_same tr s0 u u' Hs). apply H, Hin.
    - intros H u Hu. apply H. apply (samples_sound tr (tc_iv c) A u Hu).
  Qed.
End Samples.

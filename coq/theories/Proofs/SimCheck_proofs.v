(* Correctness of the plan-correspondence validators of Compilers/SimCheck.v (C06, C07): the PDDL3 monitors decide the
   declarative trajectory semantics, [valid] is the declarative notion of a valid plan, and the two searches are exhaustive
   up to their bounds and return genuine witnesses. *)
From Coq Require Import List ZArith NArith QArith Qcanon Bool Lia.
Import ListNotations.
Require Import UPV.Core.Expr UPV.Core.Eval UPV.Core.Interp UPV.Planning.Problem UPV.Planning.Sem.
Require Import UPV.Proofs.ListFacts UPV.Proofs.Eval_lemmas UPV.Proofs.Sem_proofs UPV.Compilers.SimCheck.
Local Open Scope nat_scope.

Section MonitorProofs.
  Context {A : Type}.
  Variables phi psi : A -> bool.

  (* a position of x :: r is its head, or a position of r *)
  Lemma split_cons_iff (Q : list A -> A -> list A -> Prop) x r :
    (forall pre s post, x :: r = pre ++ s :: post -> Q pre s post) <->
    Q [] x r /\ (forall pre s post, r = pre ++ s :: post -> Q (x :: pre) s post).
  Proof.
    split.
    - intros H. split; [apply (H [] x r eq_refl) | intros pre s post E; apply (H (x :: pre)); rewrite E; reflexivity].
    - intros [H0 H] [|y pre] s post E; injection E as <- E; [subst; exact H0 | apply H, E].
  Qed.

  Lemma mon_sa_spec l :
    mon_sa phi psi l = true <->
    (forall pre s post, l = pre ++ s :: post -> phi s = true -> exists t, In t (s :: post) /\ psi t = true).
  Proof.
    induction l as [|x r IH]; [split; [intros _ [|y pre] s post E; discriminate E | reflexivity]|].
    cbn [mon_sa]. rewrite andb_true_iff, IH.
    rewrite (split_cons_iff (fun pre s post => phi s = true -> exists t, In t (s :: post) /\ psi t = true)).
    apply and_iff_compat_r. destruct (phi x); [rewrite existsb_exists; intuition | intuition discriminate].
  Qed.

  Lemma mon_sb_spec l : forall seen,
    mon_sb phi psi seen l = true <->
    (forall pre s post, l = pre ++ s :: post -> phi s = true -> seen = true \/ exists t, In t pre /\ psi t = true).
  Proof.
    induction l as [|x r IH]; intros seen; [split; [intros _ [|y pre] s post E; discriminate E | reflexivity]|].
    cbn [mon_sb]. rewrite andb_true_iff, IH.
    rewrite (split_cons_iff (fun pre s post => phi s = true -> seen = true \/ exists t, In t pre /\ psi t = true)).
    assert (Hx : (if phi x then seen else true) = true
                 <-> (phi x = true -> seen = true \/ exists t, In t [] /\ psi t = true)).
    { destruct (phi x); [|intuition discriminate].
      split; [auto | intros H; destruct (H eq_refl) as [E|[t [[] _]]]; exact E]. }
    rewrite Hx. apply and_iff_compat_l.
    split; intros H pre s post E Hs; specialize (H pre s post E Hs).
    - rewrite orb_true_iff in H. destruct H as [[H|H]|[t [Ht Hp]]]; [auto | right; exists x; simpl; auto | right; exists t; simpl; auto].
    - rewrite orb_true_iff. destruct H as [H|[t [[<-|Ht] Hp]]]; [auto | auto | right; exists t; auto].
  Qed.

  Lemma mon_amo_in_spec l :
    mon_amo_in phi l = true <->
    exists mid rest, l = mid ++ rest /\ (forall x, In x mid -> phi x = true) /\ (forall x, In x rest -> phi x = false).
  Proof.
    induction l as [|x r IH].
    - split; [|reflexivity]. intros _. exists [], []. repeat split; intros ? [].
    - cbn [mon_amo_in]. destruct (phi x) eqn:Ex.
      + rewrite IH. split.
        * intros (mid & rest & E & H1 & H2). exists (x :: mid), rest. split; [rewrite E; reflexivity|].
          split; [|exact H2]. intros y [<-|Hy]; [exact Ex | apply H1, Hy].
        * intros (mid & rest & E & H1 & H2). destruct mid as [|y mid].
          -- simpl in E. subst rest. rewrite (H2 x (or_introl eq_refl)) in Ex. discriminate.
          -- injection E as <- E. exists mid, rest. split; [exact E|]. split; [|exact H2].
             intros z Hz. apply H1. right; exact Hz.
      + split.
        * intros H. exists [], (x :: r). split; [reflexivity|]. split; [intros ? []|].
          intros y [<-|Hy]; [exact Ex|]. rewrite forallb_forall in H. specialize (H y Hy).
          destruct (phi y); [discriminate | reflexivity].
        * intros (mid & rest & E & H1 & H2). destruct mid as [|y mid].
          -- simpl in E. subst rest. apply forallb_forall. intros y Hy. rewrite (H2 y (or_intror Hy)). reflexivity.
          -- injection E as <- E. rewrite (H1 x (or_introl eq_refl)) in Ex. discriminate.
  Qed.

  Lemma mon_amo_in_suffix a s post : mon_amo_in phi (a ++ s :: post) = true -> phi s = true -> mon_amo_in phi post = true.
  Proof.
    induction a as [|y a IH]; cbn [app mon_amo_in]; intros H Hs.
    - rewrite Hs in H. exact H.
    - destruct (phi y).
      + apply IH; assumption.
      + rewrite forallb_forall in H. specialize (H s). rewrite Hs in H. discriminate H.
        apply in_or_app. right. left. reflexivity.
  Qed.

  Lemma mon_amo_spec l :
    mon_amo phi l = true <->
    (forall pre s post, l = pre ++ s :: post -> phi s = true ->
       exists mid rest, post = mid ++ rest /\ (forall x, In x mid -> phi x = true) /\ (forall x, In x rest -> phi x = false)).
  Proof.
    induction l as [|x r IH].
    - split; [|reflexivity]. intros _ pre s post E. destruct pre; discriminate.
    - cbn [mon_amo]. destruct (phi x) eqn:Ex.
      + split.
        * intros H pre s post E Hs. apply mon_amo_in_spec. destruct pre as [|y pre].
          -- injection E as <- <-. exact H.
          -- injection E as _ E. subst r. eapply mon_amo_in_suffix; eauto.
        * intros H. apply mon_amo_in_spec. apply (H [] x r eq_refl Ex).
      + rewrite IH. split.
        * intros H pre s post E Hs. destruct pre as [|y pre].
          -- injection E as <- <-. rewrite Hs in Ex. discriminate.
          -- injection E as _ E. eapply H; eauto.
        * intros H pre s post E Hs. apply (H (x :: pre) s post); [rewrite E; reflexivity | exact Hs].
  Qed.
End MonitorProofs.

Theorem traj_holds_spec T sts c : traj_holds T sts c = true <-> traj_sem T sts c.
Proof.
  destruct c; try (simpl; split; [discriminate | tauto]).
  - destruct b; simpl; split; auto; try discriminate; tauto.
  - simpl. apply forallb_forall.
  - simpl. rewrite existsb_exists. reflexivity.
  - simpl. rewrite mon_sb_spec. split.
    + intros H pre s post E Hs. destruct (H pre s post E Hs) as [H1|H1]; [discriminate | exact H1].
    + intros H pre s post E Hs. right. eapply H; eauto.
  - simpl. apply mon_sa_spec.
  - simpl. apply mon_amo_spec.
Qed.

Lemma run_hist_trace T pi : forall s rh,
  run_hist T s rh pi = match trace T s pi with Some tr => Some (last tr s, rev tr ++ rh) | None => None end.
Proof.
  induction pi as [|a r IH]; intros s rh; cbn [run_hist trace]; [reflexivity|].
  destruct (step T s a) as [t|]; [|reflexivity].
  rewrite IH. destruct (trace T t r) as [tr|]; [|reflexivity].
  rewrite last_cons. cbn [rev]. rewrite <- app_assoc. reflexivity.
Qed.

Theorem valid_iff_decl T pi : valid T pi = true <-> valid_decl T pi.
Proof.
  unfold valid, valid_decl. rewrite andb_true_iff, run_hist_trace.
  destruct (trace T (ts_init T) pi) as [tr|].
  - unfold accept. rewrite andb_true_iff, rev_app_distr, rev_involutive. cbn [rev app].
    split.
    + intros (H0 & H1 & H2). split; [exact H0|]. exists tr. split; [reflexivity|]. split; [exact H1|].
      apply Forall_forall. intros c Hc. apply traj_holds_spec. rewrite forallb_forall in H2. apply H2, Hc.
    + intros (H0 & tr' & E & H1 & H2). injection E as <-. split; [exact H0|]. split; [exact H1|].
      apply forallb_forall. intros c Hc. apply traj_holds_spec. rewrite Forall_forall in H2. apply H2, Hc.
  - split; [intros [_ H]; discriminate | intros (_ & tr & E & _); discriminate].
Qed.

Lemma run_hist_run T pi : forall s rh,
  option_map fst (run_hist T s rh pi) = run (ts_prob T) (spec_step false (ts_prob T)) s pi.
Proof.
  induction pi as [|[aid args] r IH]; intros s rh; cbn [run_hist run]; [reflexivity|].
  unfold step. cbn [fst snd]. destruct (lookup_action (ts_prob T) aid) as [a|]; [|reflexivity].
  destruct (spec_step false (ts_prob T) s a args) as [t|]; [apply IH | reflexivity].
Qed.

Theorem valid_no_traj T pi : ts_traj T = [] ->
  valid T pi = init_ok T && valid_plan false (ts_prob T) (ts_init T) pi.
Proof.
  intros E. unfold valid, valid_plan. f_equal.
  rewrite <- (run_hist_run T pi (ts_init T) [ts_init T]).
  destruct (run_hist T (ts_init T) [ts_init T] pi) as [[s rh]|]; [|reflexivity].
  unfold accept. rewrite E. cbn [forallb option_map fst]. apply andb_true_r.
Qed.

Lemma run_hist_app T p1 : forall p2 s rh,
  run_hist T s rh (p1 ++ p2) = match run_hist T s rh p1 with Some (t, rt) => run_hist T t rt p2 | None => None end.
Proof.
  induction p1 as [|a p1 IH]; intros p2 s rh; cbn [app run_hist]; [reflexivity|].
  destruct (step T s a); [apply IH | reflexivity].
Qed.

Lemma map_back_app back p1 p2 : map_back back (p1 ++ p2) = map_back back p1 ++ map_back back p2.
Proof. unfold map_back. apply flat_map_app. Qed.

Lemma first_some_none {A B} (f : A -> option B) l : first_some f l = None -> forall x, In x l -> f x = None.
Proof.
  induction l as [|y l IH]; intros H x Hx; [destruct Hx|]. cbn in H.
  destruct (f y) eqn:E; [discriminate|]. destruct Hx as [<-|Hx]; [exact E | apply IH; assumption].
Qed.

Lemma first_some_some {A B} (f : A -> option B) l y : first_some f l = Some y -> exists x, In x l /\ f x = Some y.
Proof.
  induction l as [|z l IH]; intros H; [discriminate|]. cbn in H.
  destruct (f z) eqn:E.
  - injection H as <-. exists z. split; [left; reflexivity | exact E].
  - destruct (IH H) as (x & Hx & Hf). exists x. split; [right; exact Hx | exact Hf].
Qed.

Section SoundProofs.
  Variables T T' : tsys.
  Variable back : inst -> option inst.
  Variable ik : bool.

  Notation next := (next_o T back).
  Notation acc := (acc_o T ik).

  Lemma fold_next_map_back pi' : forall o,
    fold_left next pi' o =
    match o with
    | Some (s, rh) => run_hist T s rh (map_back back pi')
    | None => None
    end.
  Proof.
    induction pi' as [|a' r IH]; intros o; cbn [fold_left].
    - destruct o as [[s rh]|]; reflexivity.
    - rewrite IH. unfold map_back. cbn [flat_map]. fold (map_back back r).
      unfold next_o. destruct (back a') as [a|]; destruct o as [[s rh]|]; cbn [app run_hist]; try reflexivity.
      destruct (step T s a) as [t|]; reflexivity.
  Qed.

  Lemma search_eq n s' rh' o rp :
    search T T' back ik n s' rh' o rp =
    if accept T' s' rh' && negb (acc o) then Some (rev rp)
    else match n with
         | O => None
         | S m => first_some (fun a' => match step T' s' a' with
                                        | Some t' => search T T' back ik m t' (t' :: rh') (next o a') (a' :: rp)
                                        | None => None
                                        end) (ts_insts T')
         end.
  Proof. destruct n; reflexivity. Qed.

  Lemma search_none pi' : forall n s' rh' o rp t' rt',
    search T T' back ik n s' rh' o rp = None -> plan_over T' pi' -> length pi' <= n ->
    run_hist T' s' rh' pi' = Some (t', rt') -> accept T' t' rt' = true ->
    acc (fold_left next pi' o) = true.
  Proof.
    induction pi' as [|a' r IH]; intros n s' rh' o rp t' rt' H Hov Hlen Hrun Hacc; rewrite search_eq in H;
      destruct (accept T' s' rh' && negb (acc o)) eqn:E; try discriminate.
    - cbn in Hrun. injection Hrun as <- <-. rewrite Hacc in E. cbn [fold_left]. destruct (acc o); [reflexivity | discriminate].
    - destruct n as [|m]; [simpl in Hlen; lia|].
      cbn [run_hist] in Hrun. destruct (step T' s' a') as [t1|] eqn:Es; [|discriminate].
      inversion Hov as [|x l Hin Hov']; subst.
      pose proof (first_some_none _ _ H a' Hin) as H1. cbn beta in H1. rewrite Es in H1.
      cbn [fold_left]. eapply IH; eauto. simpl in Hlen. lia.
  Qed.

  Lemma search_some n : forall s' rh' o rp w,
    search T T' back ik n s' rh' o rp = Some w ->
    exists pi' t' rt', w = rev rp ++ pi' /\ plan_over T' pi' /\ length pi' <= n /\
      run_hist T' s' rh' pi' = Some (t', rt') /\ accept T' t' rt' = true /\ acc (fold_left next pi' o) = false.
  Proof.
    induction n as [|m IH]; intros s' rh' o rp w H; rewrite search_eq in H;
      destruct (accept T' s' rh' && negb (acc o)) eqn:E; try discriminate.
    1, 2: injection H as <-; apply andb_true_iff in E; destruct E as [E1 E2];
      exists [], s', rh'; rewrite app_nil_r; cbn [fold_left];
      repeat split; [constructor | simpl; lia | exact E1 | destruct (acc o); [discriminate | reflexivity]].
    apply first_some_some in H. destruct H as (a' & Hin & H).
    destruct (step T' s' a') as [t1|] eqn:Es; [|discriminate].
    destruct (IH _ _ _ _ _ H) as (pi' & t' & rt' & Ew & Hov & Hlen & Hrun & Hacc & Hno).
    exists (a' :: pi'), t', rt'. split.
    { rewrite Ew. cbn [rev]. rewrite <- app_assoc. reflexivity. }
    split; [constructor; assumption|]. split; [simpl; lia|].
    split; [cbn [run_hist]; rewrite Es; exact Hrun|]. split; [exact Hacc|]. exact Hno.
  Qed.
End SoundProofs.

Lemma valid_as_fold T back pi' :
  valid T (map_back back pi') =
  acc_o T (init_ok T) (fold_left (next_o T back) pi' (Some (ts_init T, [ts_init T]))).
Proof.
  rewrite fold_next_map_back. unfold valid, acc_o.
  destruct (run_hist T (ts_init T) [ts_init T] (map_back back pi')) as [[s rh]|]; [reflexivity|].
  apply andb_false_r.
Qed.

Theorem sound_check_correct T T' back n :
  sound_check T T' back n = true ->
  forall pi', plan_over T' pi' -> length pi' <= n -> valid T' pi' = true -> valid T (map_back back pi') = true.
Proof.
  unfold sound_check, sound_search. intros H pi' Hov Hlen Hv.
  unfold valid in Hv. apply andb_true_iff in Hv. destruct Hv as [Hi Hv]. rewrite Hi in H.
  destruct (search T T' back (init_ok T) n (ts_init T') [ts_init T'] (Some (ts_init T, [ts_init T])) []) eqn:E; [discriminate|].
  destruct (run_hist T' (ts_init T') [ts_init T'] pi') as [[t' rt']|] eqn:Er; [|discriminate].
  rewrite valid_as_fold. eapply search_none; eauto.
Qed.

Theorem sound_search_witness T T' back n w :
  sound_search T T' back n = Some w ->
  plan_over T' w /\ length w <= n /\ valid T' w = true /\ valid T (map_back back w) = false.
Proof.
  unfold sound_search. destruct (init_ok T') eqn:Hi; [|discriminate]. intros H.
  apply search_some in H. destruct H as (pi' & t' & rt' & Ew & Hov & Hlen & Hrun & Hacc & Hno).
  cbn [rev app] in Ew. subst w. split; [exact Hov|]. split; [exact Hlen|]. split.
  - unfold valid. rewrite Hi, Hrun. exact Hacc.
  - rewrite valid_as_fold. exact Hno.
Qed.

Section CompleteProofs.
  Variables T T' : tsys.
  Variable back : inst -> option inst.
  Variable k : nat.

  Definition all_aux (rho : plan) : Prop := map_back back rho = [].

  Lemma aux_succ_sound c c1 : In c1 (aux_succ T' back c) ->
    exists a', In a' (ts_insts T') /\ back a' = None /\ step T' (c_st c) a' = Some (c_st c1) /\
               c_rh c1 = c_st c1 :: c_rh c /\ S (c_bud c1) = c_bud c.
  Proof.
    unfold aux_succ. destruct (c_bud c) as [|b] eqn:Eb; [intros []|].
    rewrite in_flat_map. intros (a' & Hin & H). exists a'.
    destruct (back a'); [destruct H|]. destruct (step T' (c_st c) a') as [t'|]; [|destruct H].
    destruct H as [<-|[]]. repeat split; auto.
  Qed.

  Lemma aux_close_sound fuel : forall cs c1, In c1 (aux_close T' back fuel cs) ->
    exists c rho, In c cs /\ all_aux rho /\ plan_over T' rho /\
                  run_hist T' (c_st c) (c_rh c) rho = Some (c_st c1, c_rh c1) /\ length rho + c_bud c1 = c_bud c.
  Proof.
    induction fuel as [|f IH]; intros cs c1 H; cbn [aux_close] in H.
    - exists c1, []. repeat split; auto. constructor.
    - apply in_app_or in H. destruct H as [H|H].
      + exists c1, []. repeat split; auto. constructor.
      + destruct (IH _ _ H) as (c0 & rho & Hin & Haux & Hov & Hrun & Hb).
        apply in_flat_map in Hin. destruct Hin as (c & Hc & Hin).
        destruct (aux_succ_sound _ _ Hin) as (a' & Ha & Hback & Hstep & Hrh & Hbud).
        exists c, (a' :: rho). split; [exact Hc|]. split.
        { unfold all_aux, map_back in *. cbn [flat_map]. rewrite Hback. exact Haux. }
        split; [constructor; assumption|]. split.
        { cbn [run_hist]. rewrite Hstep, <- Hrh. exact Hrun. }
        simpl. lia.
  Qed.

  Lemma move_sound a c c1 : In c1 (move T' back a c) ->
    exists a', In a' (ts_insts T') /\ (exists a0, back a' = Some a0 /\ inst_eqb a0 a = true) /\
               step T' (c_st c) a' = Some (c_st c1) /\ c_rh c1 = c_st c1 :: c_rh c /\ c_bud c1 = c_bud c.
  Proof.
    unfold move. rewrite in_flat_map. intros (a' & Hin & H). exists a'.
    destruct (back a') as [a0|]; [|destruct H]. destruct (inst_eqb a0 a) eqn:E; [|destruct H].
    destruct (step T' (c_st c) a') as [t'|]; [|destruct H]. destruct H as [<-|[]].
    repeat split; eauto.
  Qed.

  Lemma next_cfgs_sound a noop cs c1 : In c1 (next_cfgs T' back k a noop cs) ->
    exists c rho, In c cs /\ plan_over T' rho /\ run_hist T' (c_st c) (c_rh c) rho = Some (c_st c1, c_rh c1) /\
                  (map_back back rho = [a] \/ noop = true /\ map_back back rho = []) /\
                  length rho + c_bud c1 <= S (c_bud c).
  Proof.
    unfold next_cfgs. intros H.
    destruct (aux_close_sound _ _ _ H) as (c0 & rho & Hc0 & Haux & Hovr & Hrunr & Hbud).
    apply in_app_or in Hc0. destruct Hc0 as [Hc0|Hc0].
    - apply in_flat_map in Hc0. destruct Hc0 as (c & Hc & Hmv).
      destruct (move_sound _ _ _ Hmv) as (a' & Ha' & (a0 & Hb & He) & Hst & Hrh & Hbd).
      apply gfl_eqb_eq in He. subst a0.
      exists c, (a' :: rho). split; [exact Hc|]. split; [constructor; assumption|]. split.
      { cbn [run_hist]. rewrite Hst, <- Hrh. exact Hrunr. }
      split; [|simpl; lia]. left. unfold map_back. cbn [flat_map]. rewrite Hb. fold (map_back back rho).
      rewrite Haux. reflexivity.
    - destruct noop; [|destruct Hc0]. exists c0, rho. repeat split; auto. lia.
  Qed.
End CompleteProofs.

Section CompleteMain.
  Variables T T' : tsys.
  Variable back : inst -> option inst.
  Variable k : nat.

  Lemma csearch_eq n s rh rp cs :
    csearch T T' back k n s rh rp cs =
    if accept T s rh && negb (existsb (fun c => accept T' (c_st c) (c_rh c)) cs) then Some (rev rp)
    else match n with
         | O => None
         | S m => first_some (fun a => match step T s a with
                                       | Some t => csearch T T' back k m t (t :: rh) (a :: rp)
                                                     (next_cfgs T' back k a (same_obs T s t) cs)
                                       | None => None
                                       end) (ts_insts T)
         end.
  Proof. destruct n; reflexivity. Qed.

  Lemma csearch_none pi : forall n s rh rp cs t rt,
    csearch T T' back k n s rh rp cs = None -> plan_over T pi -> length pi <= n ->
    run_hist T s rh pi = Some (t, rt) -> accept T t rt = true ->
    exists c pi'' t' rt', In c cs /\ plan_over T' pi'' /\
      run_hist T' (c_st c) (c_rh c) pi'' = Some (t', rt') /\ accept T' t' rt' = true /\
      sub_noop T s pi (map_back back pi'') /\ length pi'' <= length pi + c_bud c.
  Proof.
    induction pi as [|a r IH]; intros n s rh rp cs t rt H Hov Hlen Hrun Hacc; rewrite csearch_eq in H;
      destruct (accept T s rh && negb (existsb (fun c => accept T' (c_st c) (c_rh c)) cs)) eqn:E; try discriminate.
    - cbn in Hrun. injection Hrun as <- <-. rewrite Hacc in E. cbn [andb] in E.
      apply negb_false_iff, existsb_exists in E. destruct E as (c & Hc & Ha).
      exists c, [], (c_st c), (c_rh c). split; [exact Hc|]. split; [constructor|]. split; [reflexivity|].
      split; [exact Ha|]. split; [constructor | simpl; lia].
    - destruct n as [|m]; [simpl in Hlen; lia|].
      cbn [run_hist] in Hrun. destruct (step T s a) as [s1|] eqn:Es; [|discriminate].
      inversion Hov as [|x l Hin Hov']; subst.
      pose proof (first_some_none _ _ H a Hin) as H1. cbn beta in H1. rewrite Es in H1.
      assert (Hl : length r <= m) by (simpl in Hlen; lia).
      destruct (IH _ _ _ _ _ t rt H1 Hov' Hl Hrun Hacc) as (c1 & p1 & t' & rt' & Hc1 & Hov1 & Hrun1 & Hacc1 & Hsub & Hlen1).
      destruct (next_cfgs_sound T' back k _ _ _ _ Hc1) as (c & rho & Hc & Hovr & Hrunr & Hback & Hbud).
      exists c, (rho ++ p1), t', rt'. split; [exact Hc|]. split; [apply Forall_app; split; assumption|].
      split; [rewrite run_hist_app, Hrunr; exact Hrun1|]. split; [exact Hacc1|]. split.
      * rewrite map_back_app. destruct Hback as [-> | [Eo ->]]; [eapply sn_keep | eapply sn_drop]; eauto.
      * rewrite app_length. simpl. lia.
  Qed.

  Lemma csearch_some n : forall s rh rp cs w,
    csearch T T' back k n s rh rp cs = Some w ->
    exists pi t rt, w = rev rp ++ pi /\ plan_over T pi /\ length pi <= n /\
                    run_hist T s rh pi = Some (t, rt) /\ accept T t rt = true.
  Proof.
    induction n as [|m IH]; intros s rh rp cs w H; rewrite csearch_eq in H;
      destruct (accept T s rh && _) eqn:E; try discriminate.
    1, 2: injection H as <-; apply andb_true_iff in E; destruct E as [E1 _];
      exists [], s, rh; rewrite app_nil_r; repeat split; [constructor | simpl; lia | exact E1].
    apply first_some_some in H. destruct H as (a & Hin & H).
    destruct (step T s a) as [t1|] eqn:Es; [|discriminate].
    destruct (IH _ _ _ _ _ H) as (pi & t & rt & Ew & Hov & Hlen & Hrun & Hacc).
    exists (a :: pi), t, rt. split.
    { rewrite Ew. cbn [rev]. rewrite <- app_assoc. reflexivity. }
    split; [constructor; assumption|]. split; [simpl; lia|].
    split; [cbn [run_hist]; rewrite Es; exact Hrun | exact Hacc].
  Qed.
End CompleteMain.

Theorem complete_check_correct T T' back k n :
  complete_check T T' back k n = true ->
  forall pi, plan_over T pi -> length pi <= n -> valid T pi = true ->
    exists pi', plan_over T' pi' /\ length pi' <= length pi + k /\ valid T' pi' = true /\
                sub_noop T (ts_init T) pi (map_back back pi').
Proof.
  unfold complete_check, complete_search. intros H pi Hov Hlen Hv.
  unfold valid in Hv. apply andb_true_iff in Hv. destruct Hv as [Hi Hv]. rewrite Hi in H.
  destruct (run_hist T (ts_init T) [ts_init T] pi) as [[t rt]|] eqn:Er; [|discriminate].
  match type of H with match ?X with _ => _ end = _ => destruct X eqn:E; [discriminate|] end.
  destruct (csearch_none T T' back k pi n _ _ _ _ t rt E Hov Hlen Er Hv)
    as (c & p1 & t' & rt' & Hc & Hov1 & Hrun1 & Hacc1 & Hsub & Hlen1).
  destruct (init_ok T') eqn:Hi'; [|destruct Hc].
  destruct (aux_close_sound T' back k _ _ Hc) as (c0 & rho & Hc0 & Haux & Hovr & Hrunr & Hbud).
  destruct Hc0 as [<-|[]]. cbn [c_st c_rh c_bud fst snd] in *.
  exists (rho ++ p1). split; [apply Forall_app; split; assumption|]. split; [rewrite app_length; lia|]. split.
  - unfold valid. rewrite Hi', run_hist_app, Hrunr, Hrun1. exact Hacc1.
  - rewrite map_back_app, Haux. exact Hsub.
Qed.

Theorem complete_search_witness T T' back k n w :
  complete_search T T' back k n = Some w -> plan_over T w /\ length w <= n /\ valid T w = true.
Proof.
  unfold complete_search. destruct (init_ok T) eqn:Hi; [|discriminate]. intros H.
  apply csearch_some in H. destruct H as (pi & t & rt & Ew & Hov & Hlen & Hrun & Hacc).
  cbn [rev app] in Ew. subst w. split; [exact Hov|]. split; [exact Hlen|].
  unfold valid. rewrite Hi, Hrun. exact Hacc.
Qed.

Theorem unsolvable_transfers T T' back k n :
  complete_check T T' back k n = true ->
  (forall pi', plan_over T' pi' -> valid T' pi' = false) ->
  forall pi, plan_over T pi -> length pi <= n -> valid T pi = false.
Proof.
  intros H Hun pi Hov Hlen. destruct (valid T pi) eqn:E; [|reflexivity].
  destruct (complete_check_correct T T' back k n H pi Hov Hlen E) as (pi' & Hov' & _ & Hv & _).
  rewrite (Hun pi' Hov') in Hv. discriminate.
Qed.

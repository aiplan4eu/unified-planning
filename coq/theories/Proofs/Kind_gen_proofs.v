(* Facts about the REGENERATED tables Gen_Kind.gen_tables (decided by computation over the finite tables). *)
From Coq Require Import List NArith ZArith Bool Lia.
Import ListNotations.
Require Import UPV.Model.Kind UPV.Gen.Gen_Kind.

Lemma gen_tables_ok : tables_ok gen_tables = true.
Proof. vm_compute. reflexivity. Qed.

(* the feature numbering is a bijection onto the name table, and every class of FEATURES lists known features *)
Definition names_consistent : bool :=
  Nat.eqb (length all_features) (length (nodup N.eq_dec all_features))
  && forallb (fun f => N.ltb f (N.of_nat (length feature_names))) all_features
  && forallb (fun cf => forallb (fun f => existsb (N.eqb f) all_features) (snd cf)) FEATURES
  && forallb (fun f => existsb (fun cf => existsb (N.eqb f) (snd cf)) FEATURES) all_features.
Lemma gen_names_consistent : names_consistent = true.
Proof. vm_compute. reflexivity. Qed.

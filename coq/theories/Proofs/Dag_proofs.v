(* Proofs about the DagWalker model (C14).
   Part A: a walker with invalidate_memoization = True is back in its fresh state after EVERY call, successful or not,
           whatever node function each call used.
   Part B: a walker that keeps its memoization and has one fixed node function [f] answers every call with
           [eval] of the root -- a reference semantics that does not mention the walker at all -- after any history of
           earlier calls, failed ones included.  Hence: same answer as a fresh walker.
   Part C: the evaluator wrapper (StateEvaluator/QuantifierSimplifier) never stays "busy". *)
From Coq Require Import List NArith Bool Arith Lia.
Import ListNotations.
Require Import UPV.Model.Dag.
Open Scope N_scope.

Section Proofs.
  Variable R : Type.
  Variable children : N -> list N.

  Notation walker := (walker R).
  Notation outcome := (outcome R).
  Notation result := (result R).
  Notation lookup := (lookup R).
  Notation lookups := (lookups R).
  Notation memoized := (memoized R).
  Notation pending := (pending R).
  Notation push_children := (push_children R children).
  Notation process := (process R children).
  Notation iter_walk := (iter_walk R children).
  Notation walk := (walk R children).
  Notation run_call := (run_call R children).
  Notation run_calls := (run_calls R children).
  Notation results := (results R children).
  Notation mkw := (Build_walker R).

  Lemma process_done_nil f fuel : forall w w', process f fuel w = Done w' -> stack R w' = [].
  Proof.
    induction fuel as [|fuel IH]; intros w w'; simpl; [discriminate|].
    destruct (stack R w) as [|[b n] rest] eqn:E.
    - intros H; inversion H; subst; exact E.
    - destruct b.
      + destruct (memoized (memo R w) n); [apply IH|].
        destruct (lookups (children n) (memo R w)); [|discriminate].
        destruct (f n l); [apply IH | discriminate].
      + apply IH.
  Qed.

  (* Part A: one-time caches *)
  Lemma walk_inval_fresh f fuel n :
    snd (walk f true fuel fresh n) <> RNoFuel -> fst (walk f true fuel fresh n) = fresh.
  Proof.
    unfold Dag.walk; simpl.
    destruct (iter_walk f fuel fresh n) as [w'|x w'|] eqn:E; simpl.
    - pose proof (process_done_nil _ _ _ _ E) as S0.
      destruct (lookup n (memo R w')); simpl; intros _; [rewrite S0|]; reflexivity.
    - reflexivity.
    - intros H; exfalso; apply H; reflexivity.
  Qed.

  Definition terminated (rs : list result) : Prop := Forall (fun r => r <> RNoFuel) rs.

  Lemma inval_history_fresh (cs : list (call R)) :
    terminated (results true fresh cs) -> run_calls true fresh cs = fresh.
  Proof.
    unfold Dag.run_calls. induction cs as [|[[f n] fuel] cs IH]; simpl; intros T; [reflexivity|].
    destruct (walk f true fuel fresh n) as [w' r] eqn:E. inversion T as [|? ? Hr T']; subst.
    assert (W : w' = fresh).
    { pose proof (walk_inval_fresh f fuel n) as X. rewrite E in X. apply X. exact Hr. }
    subst w'. simpl. apply IH. exact T'.
  Qed.

  Theorem inval_history_independent (cs : list (call R)) (c : call R) :
    terminated (results true fresh cs) ->
    run_call true (run_calls true fresh cs) c = run_call true fresh c.
  Proof. intros T. rewrite (inval_history_fresh cs T). reflexivity. Qed.

  (* Part C: evaluator *)
  Notation evaluator := (evaluator R).
  Notation evaluate := (evaluate R children).

  Definition ev_call := ((N -> list R -> option R) * N * nat)%type.
  Definition ev_step (e : evaluator) (c : ev_call) : evaluator * ev_result R :=
    match c with (f, n, fuel) => evaluate f fuel e n end.
  Fixpoint ev_results (e : evaluator) (cs : list ev_call) : list (ev_result R) :=
    match cs with
    | [] => []
    | c :: cs' => let (e', r) := ev_step e c in r :: ev_results e' cs'
    end.
  Definition ev_run (e : evaluator) (cs : list ev_call) : evaluator := fold_left (fun e c => fst (ev_step e c)) cs e.
  Definition ev_terminated (rs : list (ev_result R)) : Prop := Forall (fun r => r <> EvRes RNoFuel) rs.

  (* an evaluator that is not busy is a one-time-cache walker, and stays one *)
  Definition idle (w : walker) : evaluator := {| ev_walker := w; ev_busy := false |}.

  Lemma ev_step_idle w c : ev_step (idle w) c = (idle (fst (run_call true w c)), EvRes (snd (run_call true w c))).
  Proof. destruct c as [[f n] fuel]. unfold ev_step, Dag.evaluate. simpl. destruct (walk f true fuel w n); reflexivity. Qed.

  Lemma ev_run_idle cs : forall w, ev_run (idle w) cs = idle (run_calls true w cs).
  Proof.
    unfold ev_run, Dag.run_calls. induction cs as [|c cs IH]; intros w; simpl; [reflexivity|].
    rewrite ev_step_idle. apply IH.
  Qed.

  Lemma ev_results_idle cs : forall w, ev_results (idle w) cs = map EvRes (results true w cs).
  Proof.
    induction cs as [|c cs IH]; intros w; simpl; [reflexivity|].
    rewrite ev_step_idle. destruct (run_call true w c) as [w' r]. simpl. rewrite IH. reflexivity.
  Qed.

  Lemma ev_history_fresh cs : ev_terminated (ev_results fresh_evaluator cs) -> ev_run fresh_evaluator cs = fresh_evaluator.
  Proof.
    change fresh_evaluator with (idle fresh). unfold ev_terminated. rewrite ev_run_idle, ev_results_idle, Forall_map.
    intros T. rewrite inval_history_fresh; [reflexivity|]. revert T. apply Forall_impl.
    intros r H E. apply H. rewrite E. reflexivity.
  Qed.

  (* after any history -- failed evaluations included -- the evaluator answers like a fresh one; in particular never
     with the AssertionError of `assert self._variable_assignments is None` *)
  Theorem evaluator_history_independent cs c :
    ev_terminated (ev_results fresh_evaluator cs) ->
    ev_step (ev_run fresh_evaluator cs) c = ev_step fresh_evaluator c /\ snd (ev_step (ev_run fresh_evaluator cs) c) <> EvAssert.
  Proof.
    intros T. rewrite (ev_history_fresh cs T). split; [reflexivity|].
    change fresh_evaluator with (idle fresh). rewrite ev_step_idle. discriminate.
  Qed.

  (* Part B: kept memoization, fixed node function *)
  Section Fixed.
    Variable f : N -> list R -> option R.
    (* hash-consed nodes are created after their children: a child's id is smaller than its parent's *)
    Hypothesis children_lt : forall n c, In c (children n) -> c < n.

    Inductive eres := EOk (r : R) | EFail (x : failure) | ENoFuel.
    Inductive sres := SOk (rs : list R) | SFail (x : failure) | SNoFuel.

    Fixpoint eval_seq (g : N -> eres) (l : list N) : sres :=
      match l with
      | [] => SOk []
      | c :: l' =>
          match g c with
          | EOk r => match eval_seq g l' with SOk rs => SOk (r :: rs) | o => o end
          | EFail x => SFail x
          | ENoFuel => SNoFuel
          end
      end.

    (* the reference semantics: children are evaluated from the last to the first (the order the walker computes them
       in), the first exception wins, then the node function is applied *)
    Fixpoint eval (k : nat) (n : N) : eres :=
      match k with
      | O => ENoFuel
      | S k' =>
          match eval_seq (eval k') (rev (children n)) with
          | SOk rs => match f n (rev rs) with Some r => EOk r | None => EFail (FailAt n) end
          | SFail x => EFail x
          | SNoFuel => ENoFuel
          end
      end.

    Lemma eval_seq_mono g g' l : (forall c, g c <> ENoFuel -> g' c = g c) -> eval_seq g l <> SNoFuel ->
      eval_seq g' l = eval_seq g l.
    Proof.
      intros H. induction l as [|c l IH]; simpl; [reflexivity|].
      destruct (g c) eqn:G.
      - rewrite (H c) by (rewrite G; discriminate). rewrite G.
        destruct (eval_seq g l) eqn:E; intros N0; try (exfalso; apply N0; reflexivity);
          rewrite IH by (rewrite ?E; discriminate); reflexivity.
      - rewrite (H c) by (rewrite G; discriminate). rewrite G. reflexivity.
      - intros N0. exfalso; apply N0; reflexivity.
    Qed.

    Lemma eval_S k n : eval (S k) n =
      match eval_seq (eval k) (rev (children n)) with
      | SOk rs => match f n (rev rs) with Some r => EOk r | None => EFail (FailAt n) end
      | SFail x => EFail x
      | SNoFuel => ENoFuel
      end.
    Proof. reflexivity. Qed.

    Lemma eval_mono k : forall n, eval k n <> ENoFuel -> eval (S k) n = eval k n.
    Proof.
      induction k as [|k IH]; intros n H; [exfalso; apply H; reflexivity|].
      rewrite (eval_S (S k) n), (eval_S k n). rewrite (eval_S k n) in H.
      rewrite (eval_seq_mono (eval k) (eval (S k))); [reflexivity | exact IH |].
      intros E. apply H. rewrite E. reflexivity.
    Qed.

    Lemma eval_mono_le k k' n : (k <= k')%nat -> eval k n <> ENoFuel -> eval k' n = eval k n.
    Proof.
      induction 1 as [|k' L IH]; intros H; [reflexivity|].
      rewrite eval_mono; [apply IH; exact H | rewrite (IH H); exact H].
    Qed.

    Lemma eval_det k k' n : eval k n <> ENoFuel -> eval k' n <> ENoFuel -> eval k n = eval k' n.
    Proof.
      intros H H'. destruct (Nat.le_ge_cases k k') as [L|L].
      - symmetry. apply eval_mono_le; assumption.
      - apply eval_mono_le; assumption.
    Qed.

    Lemma eval_seq_fuel g l : (forall c, In c l -> g c <> ENoFuel) -> eval_seq g l <> SNoFuel.
    Proof.
      induction l as [|c l IH]; simpl; intros H; [discriminate|].
      destruct (g c) eqn:G; [| discriminate | exfalso; apply (H c); auto].
      destruct (eval_seq g l) eqn:E; try discriminate. exfalso. apply IH; [|reflexivity]. intros; apply H; auto.
    Qed.

    Lemma eval_enough k : forall n, (N.to_nat n < k)%nat -> eval k n <> ENoFuel.
    Proof.
      induction k as [|k IH]; intros n L; [lia|]. simpl.
      pose proof (eval_seq_fuel (eval k) (rev (children n))) as X.
      destruct (eval_seq (eval k) (rev (children n))) eqn:E.
      - destruct (f n (rev rs)); discriminate.
      - discriminate.
      - exfalso. apply X; [|reflexivity]. intros c Hc. apply IH.
        apply in_rev in Hc. apply children_lt in Hc. lia.
    Qed.

    Definition K (n : N) : nat := S (N.to_nat n).

    Definition consistent (m : list (N * R)) : Prop := forall n r, lookup n m = Some r -> exists k, eval k n = EOk r.
    Definition extends (m m' : list (N * R)) : Prop := forall n r, lookup n m = Some r -> lookup n m' = Some r.

    Lemma extends_refl m : extends m m.
    Proof. intros n r H; exact H. Qed.
    Lemma extends_trans a b c : extends a b -> extends b c -> extends a c.
    Proof. intros H1 H2 n r H. apply H2, H1, H. Qed.

    Lemma consistent_eval m n r k : consistent m -> lookup n m = Some r ->
      match eval k n with EOk r' => r' = r | EFail _ => False | ENoFuel => True end.
    Proof.
      intros C L. destruct (C n r L) as [k0 E]. pose proof (eval_det k k0 n) as D. rewrite E in D.
      destruct (eval k n) as [r'|x|]; [| |exact I].
      - assert (H : EOk r' = EOk r) by (apply D; discriminate). inversion H; reflexivity.
      - assert (H : EFail x = EOk r) by (apply D; discriminate). discriminate H.
    Qed.

    Lemma memoized_true m n : memoized m n = true -> exists r, lookup n m = Some r.
    Proof. unfold Dag.memoized. destruct (lookup n m) as [r|]; [eauto | discriminate]. Qed.
    Lemma memoized_false m n : memoized m n = false -> lookup n m = None.
    Proof. unfold Dag.memoized. destruct (lookup n m) as [r|]; [discriminate | reflexivity]. Qed.

    Lemma lookups_app a b m : lookups (a ++ b) m =
      match lookups a m, lookups b m with Some x, Some y => Some (x ++ y) | _, _ => None end.
    Proof.
      induction a as [|c a IH]; simpl.
      - destruct (lookups b m); reflexivity.
      - destruct (lookup c m); [|reflexivity]. rewrite IH.
        destruct (lookups a m), (lookups b m); reflexivity.
    Qed.

    Lemma lookups_rev l m rs : lookups (rev l) m = Some rs -> lookups l m = Some (rev rs).
    Proof.
      revert rs. induction l as [|c l IH]; simpl; intros rs.
      - intros H; inversion H; reflexivity.
      - rewrite lookups_app. simpl.
        destruct (lookups (rev l) m) as [x|] eqn:E; [|discriminate].
        destruct (lookup c m) as [r|]; [|discriminate]. intros H; inversion H; subst.
        rewrite (IH x eq_refl). rewrite rev_app_distr. reflexivity.
    Qed.

    (* big-step relation of _process_stack *)
    Inductive Run : walker -> outcome -> Prop :=
    | run_done m : Run (mkw m []) (Done (mkw m []))
    | run_hit m n rest o : memoized m n = true -> Run (mkw m rest) o -> Run (mkw m ((true, n) :: rest)) o
    | run_key m n rest : memoized m n = false -> lookups (children n) m = None ->
        Run (mkw m ((true, n) :: rest)) (Raised (KeyErr n) (mkw m rest))
    | run_raise m n rest args : memoized m n = false -> lookups (children n) m = Some args -> f n args = None ->
        Run (mkw m ((true, n) :: rest)) (Raised (FailAt n) (mkw m rest))
    | run_comp m n rest args r o : memoized m n = false -> lookups (children n) m = Some args -> f n args = Some r ->
        Run (mkw ((n, r) :: m) rest) o -> Run (mkw m ((true, n) :: rest)) o
    | run_expand m n rest o : Run (mkw m (push_children m n rest)) o -> Run (mkw m ((false, n) :: rest)) o.

    Lemma process_sound fuel : forall w o, process f fuel w = o -> o <> OutOfFuel -> Run w o.
    Proof.
      induction fuel as [|fuel IH]; intros [m s] o; simpl; [intros <- H; exfalso; apply H; reflexivity|].
      destruct s as [|[b n] rest].
      - intros <- _. constructor.
      - destruct b.
        + destruct (memoized m n) eqn:Mn; [intros H N0; apply run_hit; [exact Mn | apply IH; assumption]|].
          destruct (lookups (children n) m) as [args|] eqn:L; [|intros <- _; apply run_key; assumption].
          destruct (f n args) as [r|] eqn:F; [|intros <- _; eapply run_raise; eauto].
          intros H N0. eapply run_comp; eauto.
        + intros H N0. apply run_expand. apply IH; assumption.
    Qed.

    Lemma process_complete w o : Run w o -> exists fuel, process f fuel w = o.
    Proof.
      induction 1 as [m | m n rest o Mn _ [k IH] | m n rest Mn L | m n rest args Mn L F
                      | m n rest args r o Mn L F _ [k IH] | m n rest o _ [k IH]].
      - exists 1%nat. reflexivity.
      - exists (S k). simpl. rewrite Mn. exact IH.
      - exists 1%nat. simpl. rewrite Mn, L. reflexivity.
      - exists 1%nat. simpl. rewrite Mn, L, F. reflexivity.
      - exists (S k). simpl. rewrite Mn, L, F. exact IH.
      - exists (S k). simpl. exact IH.
    Qed.

    Lemma Run_det w o1 : Run w o1 -> forall o2, Run w o2 -> o1 = o2.
    Proof.
      induction 1 as [m | m n rest o Mn _ IH | m n rest Mn L | m n rest args Mn L F
                      | m n rest args r o Mn L F _ IH | m n rest o _ IH];
        intros o2 H2; inversion H2; subst; try congruence; auto.
      - apply IH. replace r with r0 by congruence. assumption.
    Qed.

    Lemma Run_not_oof w o : Run w o -> o <> OutOfFuel.
    Proof. induction 1; try discriminate; assumption. Qed.

    Lemma process_Run fuel w o : Run w o -> process f fuel w <> OutOfFuel -> process f fuel w = o.
    Proof. intros Ro H. exact (Run_det _ _ (process_sound fuel w _ eq_refl H) _ Ro). Qed.

    Lemma pending_cons m c l :
      pending m (c :: l) = if memoized m c then pending m l else (false, c) :: pending m l.
    Proof. unfold Dag.pending; simpl. destruct (memoized m c); reflexivity. Qed.

    (* what the items [top] do on top of ANY stack: they are worked off and leave the memoization [M'] ... *)
    Definition passes (M : list (N * R)) (top : list (bool * N)) (M' : list (N * R)) : Prop :=
      consistent M' /\ extends M M' /\ forall Stk o, Run (mkw M' Stk) o -> Run (mkw M (top ++ Stk)) o.
    (* ... or one of them raises [x] *)
    Definition raises (M : list (N * R)) (top : list (bool * N)) (x : failure) : Prop :=
      exists M' S', consistent M' /\ forall Stk, Run (mkw M (top ++ Stk)) (Raised x (mkw M' (S' ++ Stk))).

    Lemma passes_nil M : consistent M -> passes M [] M.
    Proof. intros C. split; [exact C | split; [apply extends_refl | intros Stk o H; exact H]]. Qed.

    Lemma passes_app M t1 M1 t2 M2 : passes M t1 M1 -> passes M1 t2 M2 -> passes M (t1 ++ t2) M2.
    Proof.
      intros (_ & X1 & K1) (C2 & X2 & K2). split; [exact C2 | split; [exact (extends_trans _ _ _ X1 X2)|]].
      intros Stk o H. rewrite <- app_assoc. apply K1, K2, H.
    Qed.

    Lemma passes_raises M t1 M1 t2 x : passes M t1 M1 -> raises M1 t2 x -> raises M (t1 ++ t2) x.
    Proof.
      intros (_ & _ & K1) (M' & S' & C' & R'). exists M', S'. split; [exact C'|].
      intros Stk. rewrite <- app_assoc. apply K1, R'.
    Qed.

    Lemma raises_app M t1 t2 x : raises M t1 x -> raises M (t1 ++ t2) x.
    Proof.
      intros (M' & S' & C' & R'). exists M', (S' ++ t2). split; [exact C'|].
      intros Stk. rewrite <- !app_assoc. apply R'.
    Qed.

    (* the walker on a node, stated against the reference semantics *)
    Definition node_spec (k : nat) : Prop := forall n M, consistent M ->
      match eval k n with
      | EOk r => exists M', passes M [(false, n)] M' /\ lookup n M' = Some r
      | EFail x => raises M [(false, n)] x
      | ENoFuel => True
      end.

    (* [M0] is the memoization at the time the parent was expanded *)
    Lemma list_spec k : node_spec k -> forall l M0 M, consistent M -> extends M0 M ->
      match eval_seq (eval k) l with
      | SOk rs => exists M', passes M (pending M0 l) M' /\ lookups l M' = Some rs
      | SFail x => raises M (pending M0 l) x
      | SNoFuel => True
      end.
    Proof.
      intros P. induction l as [|c l IH]; intros M0 M C X.
      - exists M. split; [apply passes_nil, C | reflexivity].
      - rewrite pending_cons. cbn [eval_seq]. destruct (memoized M0 c) eqn:Mc.
        + (* already memoized when the parent was expanded: not on the stack *)
          destruct (memoized_true _ _ Mc) as [r0 L0]. apply X in L0.
          pose proof (consistent_eval M c r0 k C L0) as Ec. specialize (IH M0 M C X).
          destruct (eval k c) as [r|x|]; [subst r0 | contradiction | exact I].
          destruct (eval_seq (eval k) l) as [rs|x|]; [|exact IH|exact I].
          destruct IH as (M' & PS & L'). exists M'. split; [exact PS|].
          destruct PS as (_ & X' & _). simpl. rewrite (X' _ _ L0), L'. reflexivity.
        + specialize (P c M C). destruct (eval k c) as [r|x|]; [|exact (raises_app M [(false, c)] _ x P)|exact I].
          destruct P as (M1 & P1 & L1).
          specialize (IH M0 M1 (proj1 P1) (extends_trans _ _ _ X (proj1 (proj2 P1)))).
          destruct (eval_seq (eval k) l) as [rs|x|]; [|exact (passes_raises M [(false, c)] _ _ x P1 IH)|exact I].
          destruct IH as (M' & PS & L'). exists M'. split; [exact (passes_app M [(false, c)] _ _ _ P1 PS)|].
          destruct PS as (_ & X' & _). simpl. rewrite (X' _ _ L1), L'. reflexivity.
    Qed.

    Lemma lookup_cons_other n r m n0 : n <> n0 -> lookup n0 ((n, r) :: m) = lookup n0 m.
    Proof. intros H. simpl. destruct (n =? n0) eqn:E; [apply N.eqb_eq in E; contradiction | reflexivity]. Qed.
    Lemma lookup_cons_same n r m : lookup n ((n, r) :: m) = Some r.
    Proof. simpl. rewrite N.eqb_refl. reflexivity. Qed.

    (* _compute_node_result once the children's results are there *)
    Lemma compute_spec k n M args : consistent M -> lookups (children n) M = Some args ->
      eval k n = match f n args with Some r => EOk r | None => EFail (FailAt n) end ->
      match f n args with
      | Some r => exists M', passes M [(true, n)] M' /\ lookup n M' = Some r
      | None => raises M [(true, n)] (FailAt n)
      end.
    Proof.
      intros C L E. destruct (memoized M n) eqn:Mn.
      - destruct (memoized_true _ _ Mn) as [r' Ln]. pose proof (consistent_eval M n r' k C Ln) as D. rewrite E in D.
        destruct (f n args) as [r|]; [subst r'|contradiction].
        exists M. split; [|exact Ln]. split; [exact C | split; [apply extends_refl|]].
        intros Stk o H. apply run_hit; assumption.
      - destruct (f n args) as [r|] eqn:F.
        + exists ((n, r) :: M). split; [|apply lookup_cons_same]. split; [|split].
          * intros n0 r0. destruct (N.eq_dec n n0) as [<-|Ne].
            -- rewrite lookup_cons_same. intros H0; inversion H0; subst. exists k. exact E.
            -- rewrite lookup_cons_other by exact Ne. apply C.
          * intros n0 r0 H0. destruct (N.eq_dec n n0) as [<-|Ne].
            -- apply memoized_false in Mn. congruence.
            -- rewrite lookup_cons_other by exact Ne. exact H0.
          * intros Stk o H. eapply run_comp; eauto.
        + exists M, []. split; [exact C|]. intros Stk. eapply run_raise; eauto.
    Qed.

    Lemma expand_passes M n M' : passes M (pending M (rev (children n)) ++ [(true, n)]) M' -> passes M [(false, n)] M'.
    Proof.
      intros (C' & X' & K'). split; [exact C' | split; [exact X'|]].
      intros Stk o H. apply run_expand. specialize (K' Stk o H). rewrite <- app_assoc in K'. exact K'.
    Qed.

    Lemma expand_raises M n x : raises M (pending M (rev (children n)) ++ [(true, n)]) x -> raises M [(false, n)] x.
    Proof.
      intros (M' & S' & C' & R'). exists M', S'. split; [exact C'|].
      intros Stk. apply run_expand. specialize (R' Stk). rewrite <- app_assoc in R'. exact R'.
    Qed.

    Lemma node_spec_all k : node_spec k.
    Proof.
      induction k as [|k IH]; intros n M C; [exact I|].
      pose proof (list_spec k IH (rev (children n)) M M C (extends_refl M)) as L.
      pose proof (eval_S k n) as ES.
      destruct (eval_seq (eval k) (rev (children n))) as [rs|x|]; rewrite ES.
      - destruct L as (M' & PS & L'). apply lookups_rev in L'.
        pose proof (compute_spec (S k) n M' (rev rs) (proj1 PS) L' ES) as Q.
        destruct (f n (rev rs)) as [r|].
        + destruct Q as (M'' & Q & Ln). exists M''. split; [|exact Ln].
          apply expand_passes. exact (passes_app _ _ _ _ _ PS Q).
        + apply expand_raises. exact (passes_raises _ _ _ _ _ PS Q).
      - apply expand_raises, raises_app, L.
      - exact I.
    Qed.

    (* a root on the empty stack, with the fuel [K n] that is enough for the reference semantics *)
    Lemma root_run n M : consistent M -> exists M' o, consistent M' /\ Run (mkw M [(false, n)]) o /\
      match eval (K n) n with
      | EOk r => o = Done (mkw M' []) /\ lookup n M' = Some r
      | EFail x => exists S', o = Raised x (mkw M' S')
      | ENoFuel => False
      end.
    Proof.
      intros C. pose proof (node_spec_all (K n) n M C) as P.
      pose proof (eval_enough (K n) n (Nat.lt_succ_diag_r _)) as EN.
      destruct (eval (K n) n) as [r|x|]; [| |exfalso; apply EN; reflexivity].
      - destruct P as (M' & (C' & _ & K') & L'). exists M', (Done (mkw M' [])).
        split; [exact C' | split; [exact (K' [] _ (run_done M')) | split; [reflexivity | exact L']]].
      - destruct P as (M' & S' & C' & R'). exists M', (Raised x (mkw M' (S' ++ []))).
        split; [exact C' | split; [exact (R' []) | exists (S' ++ []); reflexivity]].
    Qed.

    Definition to_result (e : eres) : result :=
      match e with EOk r => ROk r | EFail x => RFail x | ENoFuel => RNoFuel end.

    (* the walker's state between calls: empty stack, every memoized value is the reference value *)
    Definition good (w : walker) : Prop := stack R w = [] /\ consistent (memo R w).

    Lemma good_fresh : good fresh.
    Proof. split; [reflexivity | intros n r H; discriminate]. Qed.

    (* one call on a good walker: the answer is the reference value of the root, and the walker is good again --
       also when the walk raised *)
    Lemma walk_good fuel w n : good w -> snd (walk f false fuel w n) <> RNoFuel ->
      good (fst (walk f false fuel w n)) /\ snd (walk f false fuel w n) = to_result (eval (K n) n).
    Proof.
      intros [S0 C]. destruct w as [M St]. simpl in S0, C. subst St.
      unfold Dag.walk, Dag.iter_walk. cbn [memo stack].
      destruct (lookup n M) as [r|] eqn:L.
      - intros _. split; [exact (conj eq_refl C)|].
        pose proof (consistent_eval M n r (K n) C L) as E.
        pose proof (eval_enough (K n) n (Nat.lt_succ_diag_r _)) as EN.
        destruct (eval (K n) n); [subst; reflexivity | contradiction | exfalso; apply EN; reflexivity].
      - destruct (root_run n M C) as (M' & o & C' & Ro & Ho). intros H.
        assert (E : process f fuel (mkw M [(false, n)]) = o).
        { apply process_Run; [exact Ro|]. intros E. apply H. rewrite E. reflexivity. }
        rewrite E. clear H E. destruct (eval (K n) n) as [r|x|]; [| |contradiction].
        + destruct Ho as [-> L']. cbn [memo stack]. rewrite L'.
          split; [exact (conj eq_refl C') | reflexivity].
        + destruct Ho as [S' ->]. split; [exact (conj eq_refl C') | reflexivity].
    Qed.

    (* every call terminates: there is enough fuel *)
    Lemma walk_terminates w n : good w -> exists fuel, snd (walk f false fuel w n) <> RNoFuel.
    Proof.
      intros [S0 C]. destruct w as [M St]. simpl in S0, C. subst St.
      destruct (root_run n M C) as (M' & o & _ & Ro & _).
      destruct (process_complete _ _ Ro) as [fuel Pf0].
      exists fuel. unfold Dag.walk. simpl. destruct (lookup n M); [simpl; discriminate|].
      unfold Dag.iter_walk. simpl. rewrite Pf0.
      pose proof (Run_not_oof _ _ Ro) as NO.
      destruct o as [w'|x w'|]; [| |contradiction]; simpl.
      - destruct (lookup n (memo R w')); simpl; discriminate.
      - discriminate.
    Qed.

    Definition uses_f (cs : list (call R)) : Prop := Forall (fun c => fst (fst c) = f) cs.

    Lemma good_history cs : forall w, good w -> uses_f cs -> terminated (results false w cs) ->
      good (run_calls false w cs).
    Proof.
      unfold Dag.run_calls. induction cs as [|[[g n] fuel] cs IH]; simpl; intros w G U T; [exact G|].
      inversion U as [|? ? Hg U']; subst. simpl in Hg. subst g.
      destruct (walk f false fuel w n) as [w' r] eqn:E. inversion T as [|? ? Hr T']; subst.
      simpl. apply IH; [|exact U'|exact T'].
      pose proof (walk_good fuel w n G) as X. rewrite E in X. simpl in X. apply X. exact Hr.
    Qed.

    (* THE theorem: after any history of calls -- each of which may have raised at any node -- the next call returns
       what it returns on a fresh walker (same value, or the same exception at the same node) *)
    Theorem walk_history_independent cs n fuel1 fuel2 :
      uses_f cs -> terminated (results false fresh cs) ->
      snd (walk f false fuel1 (run_calls false fresh cs) n) <> RNoFuel ->
      snd (walk f false fuel2 fresh n) <> RNoFuel ->
      snd (walk f false fuel1 (run_calls false fresh cs) n) = snd (walk f false fuel2 fresh n).
    Proof.
      intros U T H1 H2.
      pose proof (good_history cs fresh good_fresh U T) as G.
      destruct (walk_good fuel1 _ n G H1) as [_ ->].
      destruct (walk_good fuel2 _ n good_fresh H2) as [_ ->]. reflexivity.
    Qed.

    (* and it is the reference value, which does not mention the walker: no KeyError, no stale entry *)
    Theorem walk_is_eval cs n fuel :
      uses_f cs -> terminated (results false fresh cs) ->
      snd (walk f false fuel (run_calls false fresh cs) n) <> RNoFuel ->
      snd (walk f false fuel (run_calls false fresh cs) n) = to_result (eval (K n) n) /\
      stack R (fst (walk f false fuel (run_calls false fresh cs) n)) = [].
    Proof.
      intros U T H1. pose proof (good_history cs fresh good_fresh U T) as G.
      destruct (walk_good fuel _ n G H1) as [[S0 _] E]. split; assumption.
    Qed.

    Theorem history_walk_terminates cs n :
      uses_f cs -> terminated (results false fresh cs) ->
      exists fuel, snd (walk f false fuel (run_calls false fresh cs) n) <> RNoFuel.
    Proof. intros U T. apply walk_terminates. apply good_history; auto using good_fresh. Qed.
  End Fixed.
End Proofs.

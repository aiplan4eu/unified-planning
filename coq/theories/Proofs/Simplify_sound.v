(* Soundness of the simplifier: defined values are preserved (strict quantifier semantics). *)
From Coq Require Import List ZArith NArith QArith Qcanon Bool Lia.
Import ListNotations.
Require Import UPV.Core.Expr UPV.Core.Eval UPV.Proofs.Eval_lemmas UPV.Proofs.ExprView UPV.Walkers.Simplify UPV.Proofs.Simplify_base
  UPV.Proofs.Simplify_fv UPV.Proofs.Simplify_sem UPV.Proofs.Simplify_wf UPV.Proofs.Simplify_wfp UPV.Proofs.Simplify_junct.
Local Open Scope nat_scope.

Definition cvalue (e : expr) : option value :=
  match e with
  | EBool b => Some (VBool b) | EInt z => Some (VNum (zq z)) | EReal q => Some (VNum q) | EObj o => Some (VObj o)
  | _ => None
  end.
Fixpoint cvalues (l : list expr) : option (list value) :=
  match l with
  | [] => Some []
  | x :: r => match cvalue x, cvalues r with Some v, Some vs => Some (v :: vs) | _, _ => None end
  end.

Lemma eval_const sc I c : is_const c = true -> eval sc c I = cvalue c.
Proof. destruct c; simpl; congruence. Qed.
Lemma evals_consts sc I l : forallb is_const l = true -> evals sc I l = cvalues l.
Proof.
  induction l as [|x r IH]; [reflexivity|]. cbn [forallb]. rewrite andb_true_iff. intros [A B].
  cbn [evals cvalues]. rewrite (eval_const sc I x A), (IH B). reflexivity.
Qed.

Record env_ok (G : cfg) (tau : N -> N) (QT : N -> bool) (I : interp) : Prop := {
  (* static fluents have their initial value; interpreted functions follow their table *)
  ok_stat : forall f args c vs, stat G f args = Some c -> cvalues args = Some vs -> fl I f vs = cvalue c;
  ok_itab : forall f args c vs, itab G f args = Some c -> cvalues args = Some vs -> ifun I f vs = cvalue c;
  (* values respect the declared user types *)
  ok_var : forall x v, var I x = Some v -> exists o, v = VObj o /\ In o (objs I (tau x));
  ok_par : forall p ty v, par_ty G p = Some ty -> par I p = Some v -> exists o, v = VObj o /\ In o (objs I ty);
  ok_fl : forall f ty a v, fl_ty G f = Some ty -> fl I f a = Some v -> exists o, v = VObj o /\ In o (objs I ty);
  ok_if : forall f ty a v, if_ty G f = Some ty -> ifun I f a = Some v -> exists o, v = VObj o /\ In o (objs I ty);
  ok_obj : forall o ty, obj_ty G o = Some ty -> In o (objs I ty);
  (* the objects of a type include those of its subtypes; unrelated types share no object *)
  ok_sub : forall a b o, compat G a b = true -> In o (objs I b) -> In o (objs I a);
  ok_disj : forall a b o, In o (objs I a) -> In o (objs I b) -> compat G a b = true \/ compat G b a = true;
  (* quantifiable types are inhabited *)
  ok_inh : forall ty, QT ty = true -> objs I ty <> []
}.

Lemma env_ok_inst G tau QT I vs J :
  env_ok G tau QT I -> (forall p, In p vs -> snd p = tau (fst p)) -> NoDup (map fst vs) ->
  In J (instances I vs) -> env_ok G tau QT J.
Proof.
  intros E HT ND HJ. destruct (inst_sound vs ND I J HJ) as [g [Hg [[B1 [B2 [B3 B4]]] HV]]].
  destruct E. constructor; rewrite ?B1, ?B2, ?B3, ?B4; auto.
  intros x v. rewrite HV. destruct (memN x (map fst vs)) eqn:M.
  - intros Hv. inversion Hv; subst. exists (g x). split; [reflexivity|].
    apply memN_In in M. apply in_map_iff in M. destruct M as [p [<- Hp]].
    rewrite <- (HT p Hp). apply Hg. exact Hp.
  - apply ok_var0.
Qed.

Lemma zq_sub x y : zq (x - y) = (zq x - zq y)%Qc.
Proof. unfold Z.sub, Qcminus. rewrite zq_add, zq_opp. reflexivity. Qed.
Lemma zq_inj x y : zq x = zq y -> x = y.
Proof. unfold zq. intros H. apply Q2Qc_eq_iff in H. unfold Qeq in H. simpl in H. lia. Qed.
Lemma div_exact a b : b <> 0%Z -> (a mod b = 0)%Z -> (Qcdiv (zq a) (zq b) = zq (a / b))%Qc.
Proof.
  intros Hb Hm. assert (E : a = (b * (a / b))%Z) by (rewrite (Z.div_mod a b Hb) at 1; rewrite Hm; ring).
  rewrite E at 1. rewrite zq_mul. assert (Hz : zq b <> 0%Qc). { intros H. apply Hb. apply zq_inj. exact H. }
  field. exact Hz.
Qed.

Lemma nval_add a b : nval (num_add a b) = (nval a + nval b)%Qc.
Proof. destruct a, b; simpl; try reflexivity. apply zq_add. Qed.
Lemma nval_mul a b : nval (num_mul a b) = (nval a * nval b)%Qc.
Proof. destruct a, b; simpl; try reflexivity. apply zq_mul. Qed.
Lemma nval_sub a b : nval (num_sub a b) = (nval a - nval b)%Qc.
Proof. destruct a, b; simpl; try reflexivity. apply zq_sub. Qed.
Lemma nval_neg a : nval (num_neg a) = (- nval a)%Qc.
Proof. destruct a; simpl; try reflexivity. apply zq_opp. Qed.
Lemma num_is0_spec a : num_is0 a = true <-> nval a = zq 0.
Proof.
  destruct a; simpl.
  - rewrite Z.eqb_eq. split; [intros ->; reflexivity|apply zq_inj].
  - apply qc_is0_spec.
Qed.
Lemma num_is0_spec_false a : num_is0 a = false -> qc_is0 (nval a) = false.
Proof.
  intros H. destruct (qc_is0 (nval a)) eqn:E; [|reflexivity]. apply qc_is0_spec in E. apply num_is0_spec in E. congruence.
Qed.
Lemma num_is1_spec a : num_is1 a = true -> nval a = zq 1.
Proof.
  destruct a; simpl.
  - rewrite Z.eqb_eq. intros ->; reflexivity.
  - apply qc_eqb_eq.
Qed.
Lemma qc_is0_false q : qc_is0 q = false <-> q <> zq 0.
Proof. rewrite <- qc_is0_spec. destruct (qc_is0 q); split; congruence. Qed.

Lemma eval_num_expr sc I n : eval sc (num_expr n) I = Some (VNum (nval n)).
Proof. destruct n; reflexivity. Qed.
Lemma eval_num_of sc I e n : num_of e = Some n -> eval sc e I = Some (VNum (nval n)).
Proof. intros H. rewrite (num_of_expr _ _ H). apply eval_num_expr. Qed.

Lemma as_boolc_some a b : as_boolc a = Some b -> a = EBool b.
Proof. destruct a; simpl; congruence. Qed.

Lemma sound_walk_not I c : R I I (ENot c) (walk_not c).
Proof.
  destruct c; try apply R_refl.
  - intros v H. exact H.
  - apply (mkNot_R I (ENot c)).
Qed.

Lemma sound_walk_iff I a b : R I I (EIff a b) (walk_iff a b).
Proof.
  unfold walk_iff. destruct (as_boolc a) as [l|] eqn:A, (as_boolc b) as [r|] eqn:B;
    try (apply as_boolc_some in A; subst a); try (apply as_boolc_some in B; subst b).
  - intros v H. exact H.
  - intros v. rewrite eval_EIff. cbn [eval as_bool]. destruct (as_bool (eval false b I)) as [y|] eqn:E; [|discriminate].
    intros H; inversion H; subst. destruct l.
    + rewrite (as_bool_some _ _ E). destruct y; reflexivity.
    + apply mkNot_R. rewrite eval_ENot, E. destruct y; reflexivity.
  - intros v. rewrite eval_EIff. cbn [eval as_bool]. destruct (as_bool (eval false a I)) as [y|] eqn:E; [|discriminate].
    intros H; inversion H; subst. destruct r.
    + rewrite (as_bool_some _ _ E). destruct y; reflexivity.
    + apply mkNot_R. rewrite eval_ENot, E. destruct y; reflexivity.
  - destruct (expr_eqb a b) eqn:E; [|apply R_refl]. apply expr_eqb_eq in E. subst b.
    intros v. rewrite eval_EIff. destruct (as_bool (eval false a I)) as [y|]; [|discriminate].
    intros H; inversion H; subst. rewrite Bool.eqb_reflx. reflexivity.
Qed.

Lemma sound_walk_implies I a b : R I I (EImplies a b) (walk_implies a b).
Proof.
  unfold walk_implies. destruct (as_boolc a) as [l|] eqn:A; [apply as_boolc_some in A; subst a|].
  - intros v. rewrite eval_EImplies. cbn [eval as_bool]. destruct (as_bool (eval false b I)) as [y|] eqn:E; [|discriminate].
    intros H; inversion H; subst. destruct l; [|reflexivity]. rewrite (as_bool_some _ _ E). reflexivity.
  - destruct (as_boolc b) as [r|] eqn:B; [apply as_boolc_some in B; subst b|].
    + intros v. rewrite eval_EImplies. cbn [eval as_bool]. destruct (as_bool (eval false a I)) as [y|] eqn:E; [|discriminate].
      intros H; inversion H; subst. destruct r.
      * destruct y; reflexivity.
      * apply mkNot_R. rewrite eval_ENot, E. destruct y; reflexivity.
    + destruct (expr_eqb a b) eqn:E; [|apply R_refl]. apply expr_eqb_eq in E. subst b.
      intros v. rewrite eval_EImplies. destruct (as_bool (eval false a I)) as [y|]; [|discriminate].
      intros H; inversion H; subst. destruct y; reflexivity.
Qed.

Lemma sound_walk_junct I (k : bool) l : R I I (if k then EAnd l else EOr l) (walk_junct k l).
Proof.
  intros v. rewrite eval_J. destruct (ebools false I l) as [bs|] eqn:E; [|discriminate]. intros H; inversion H.
  apply as_bool_some, (walk_junct_bool false I k l bs E).
Qed.

Definition aop (t : bool) : Qc -> Qc -> Qc := if t then Qcmult else Qcplus.
Definition aunit (t : bool) : Qc := if t then zq 1 else zq 0.
Definition afold (t : bool) (qs : list Qc) : Qc := fold_right (aop t) (aunit t) qs.

Lemma aop_comm t x y : aop t x y = aop t y x. Proof. destruct t; simpl; ring. Qed.
Lemma aop_assoc t x y z : aop t x (aop t y z) = aop t (aop t x y) z. Proof. destruct t; simpl; ring. Qed.
Lemma aop_unit_r t x : aop t x (aunit t) = x.
Proof. destruct t; simpl; [apply zq_1_mult|apply zq_0_plus]. Qed.
Lemma aop_unit_l t x : aop t (aunit t) x = x. Proof. rewrite aop_comm. apply aop_unit_r. Qed.
Lemma afold_app t a b : afold t (a ++ b) = aop t (afold t a) (afold t b).
Proof.
  induction a as [|x a IH]; cbn [app afold fold_right]; [symmetry; apply aop_unit_l|].
  fold (afold t (a ++ b)). fold (afold t a). rewrite IH. apply aop_assoc.
Qed.

Lemma eval_A I (t : bool) l :
  eval false (if t then ETimes l else EPlus l) I =
  match enums false I l with Some qs => Some (VNum (afold t qs)) | None => None end.
Proof. destruct t; [apply eval_ETimes|apply eval_EPlus]. Qed.

Lemma enums_app I l1 l2 :
  enums false I (l1 ++ l2) =
  match enums false I l1, enums false I l2 with Some a, Some b => Some (a ++ b) | _, _ => None end.
Proof.
  induction l1 as [|x l1 IH]; cbn [app enums]; [destruct (enums false I l2); reflexivity|].
  rewrite IH. destruct (as_num (eval false x I)), (enums false I l1), (enums false I l2); reflexivity.
Qed.

Lemma enums_flat1 I t l : forall qs, enums false I l = Some qs ->
  exists qs', enums false I (flat1 t l) = Some qs' /\ afold t qs' = afold t qs.
Proof.
  induction l as [|a l IH]; intros qs E.
  - inversion E; subst. exists []. split; reflexivity.
  - cbn [enums] in E. destruct (as_num (eval false a I)) as [q|] eqn:A; [|discriminate].
    destruct (enums false I l) as [qs0|] eqn:El; [|discriminate]. inversion E; subst.
    destruct (IH _ eq_refl) as [qs' [E' F']].
    cbn [flat1 flat_map]. fold (flat1 t l). rewrite enums_app, E'.
    assert (D : exists q1, enums false I [a] = Some q1 /\ afold t q1 = q).
    { exists [q]. cbn [enums]. rewrite A. split; [reflexivity|]. cbn. apply aop_unit_r. }
    assert (G : forall items, (exists q1, enums false I items = Some q1 /\ afold t q1 = q) ->
                exists qs'0, match enums false I items with Some a0 => Some (a0 ++ qs') | None => None end = Some qs'0 /\
                             afold t qs'0 = afold t (q :: qs0)).
    { intros items [q1 [E1 F1]]. rewrite E1. exists (q1 ++ qs'). split; [reflexivity|].
      rewrite afold_app, F1, F'. reflexivity. }
    destruct a; try (apply G; exact D); destruct t; try (apply G; exact D); apply G.
    + rewrite eval_EPlus in A. destruct (enums false I l0) as [q0|]; [|discriminate]. inversion A; subst. eauto.
    + rewrite eval_ETimes in A. destruct (enums false I l0) as [q0|]; [|discriminate]. inversion A; subst. eauto.
Qed.

Lemma enums_split I t items : forall qs, enums false I items = Some qs ->
  exists qn, enums false I (nonconsts_of items) = Some qn /\
             afold t qs = aop t (afold t qn) (afold t (map nval (consts_of items))).
Proof.
  induction items as [|x r IH]; intros qs E.
  - inversion E; subst. exists []. split; [reflexivity|]. cbn. symmetry. apply aop_unit_l.
  - cbn [enums] in E. destruct (as_num (eval false x I)) as [q|] eqn:A; [|discriminate].
    destruct (enums false I r) as [qs0|] eqn:Er; [|discriminate]. inversion E; subst.
    destruct (IH _ eq_refl) as [qn [En Fn]].
    cbn [nonconsts_of filter consts_of flat_map]. fold (nonconsts_of r). fold (consts_of r).
    destruct (num_of x) as [n|] eqn:Nx.
    + rewrite (num_of_is_num _ _ Nx). cbn [negb app map]. exists qn. split; [exact En|].
      rewrite (eval_num_of false I x n Nx) in A. inversion A; subst.
      cbn [afold fold_right]. fold (afold t qs0). fold (afold t (map nval (consts_of r))). rewrite Fn.
      rewrite !aop_assoc. f_equal. apply aop_comm.
    + apply num_of_none in Nx. rewrite Nx. cbn [negb app]. exists (q :: qn). split.
      * cbn [enums]. rewrite A, En. reflexivity.
      * cbn [afold fold_right]. fold (afold t qs0). fold (afold t qn). rewrite Fn. apply aop_assoc.
Qed.

Lemma nval_op t a b : nval (num_op t a b) = aop t (nval a) (nval b).
Proof. destruct t; simpl; [apply nval_mul|apply nval_add]. Qed.

Lemma nval_fold t cs : forall a, nval (fold_left (num_op t) cs a) = aop t (nval a) (afold t (map nval cs)).
Proof.
  induction cs as [|c cs IH]; intros a; cbn [fold_left map afold fold_right]; [symmetry; apply aop_unit_r|].
  fold (afold t (map nval cs)). rewrite IH, nval_op. symmetry. apply aop_assoc.
Qed.

Lemma afold_zero cs : existsb num_is0 cs = true -> afold true (map nval cs) = zq 0.
Proof.
  induction cs as [|c cs IH]; [discriminate|]. cbn [existsb map afold fold_right]. fold (afold true (map nval cs)).
  destruct (num_is0 c) eqn:Z.
  - apply num_is0_spec in Z. rewrite Z. intros _. simpl. change (zq 0) with 0%Qc. ring.
  - simpl. intros H. rewrite (IH H). change (zq 0) with 0%Qc. ring.
Qed.

Lemma mkA_R I (t : bool) l : R I I (if t then ETimes l else EPlus l) (mkA t l).
Proof. destruct t; [exact (mkn_R I NTimes l)|exact (mkn_R I NPlus l)]. Qed.

Lemma sound_walk_arith I (t : bool) l : R I I (if t then ETimes l else EPlus l) (walk_arith t l).
Proof.
  intros v. rewrite eval_A. destruct (enums false I l) as [qs|] eqn:E; [|discriminate]. intros H; inversion H; subst. clear H.
  destruct (enums_flat1 I t l qs E) as [qs' [E' F']].
  destruct (enums_split I t _ qs' E') as [qn [En Fn]].
  unfold walk_arith. rewrite <- F', Fn.
  destruct (t && existsb num_is0 (consts_of (flat1 t l))) eqn:Z.
  - apply andb_true_iff in Z. destruct Z as [-> Z]. rewrite (afold_zero _ Z). simpl. f_equal. f_equal.
    change (zq 0) with 0%Qc. ring.
  - assert (A := nval_fold t (consts_of (flat1 t l)) (num_unit t)).
    assert (U : nval (num_unit t) = aunit t) by (destruct t; reflexivity). rewrite U, aop_unit_l in A.
    destruct (num_is_unit t (fold_left (num_op t) (consts_of (flat1 t l)) (num_unit t))) eqn:NU.
    + assert (A1 : afold t (map nval (consts_of (flat1 t l))) = aunit t).
      { rewrite <- A. destruct t; simpl in *; [apply num_is1_spec|apply num_is0_spec]; exact NU. }
      rewrite A1, aop_unit_r. apply mkA_R. rewrite eval_A, En. reflexivity.
    + apply mkA_R. rewrite eval_A, enums_app, En. cbn [enums]. rewrite eval_num_expr. cbn [as_num].
      rewrite afold_app. cbn [afold fold_right]. rewrite aop_unit_r, A. reflexivity.
Qed.

Lemma sound_walk_minus I a b : R I I (EMinus a b) (walk_minus a b).
Proof.
  unfold walk_minus. destruct (num_of a) as [x|] eqn:A, (num_of b) as [y|] eqn:B; try apply R_refl.
  - intros v. rewrite eval_EMinus, (eval_num_of false I a x A), (eval_num_of false I b y B). cbn [as_num].
    intros H; inversion H; subst. rewrite eval_num_expr, nval_sub. reflexivity.
  - destruct (num_isneg y); [|apply R_refl].
    eapply R_trans; [|apply (sound_walk_arith I false)].
    intros v. rewrite eval_EMinus, eval_EPlus, (eval_num_of false I b y B). cbn [as_num enums].
    destruct (as_num (eval false a I)) as [q|]; [|discriminate]. rewrite eval_num_expr. cbn [as_num].
    intros H; inversion H; subst. cbn. rewrite nval_neg. f_equal. f_equal. change (zq 0) with 0%Qc. ring.
Qed.

Lemma sound_walk_div I a b : R I I (EDiv a b) (walk_div a b).
Proof.
  unfold walk_div. destruct (num_of a) as [x|] eqn:A; [|apply R_refl]. destruct (num_of b) as [y|] eqn:B; [|destruct x; apply R_refl].
  assert (G : num_is0 y = false -> R I I (EDiv a b) (EReal (Qcdiv (nval x) (nval y)))).
  { intros Z v. rewrite eval_EDiv, (eval_num_of false I a x A), (eval_num_of false I b y B). cbn [as_num].
    apply num_is0_spec_false in Z. rewrite Z. intros H; exact H. }
  destruct x as [x|x], y as [y|y].
  - destruct (y =? 0)%Z eqn:Z; [apply R_refl|]. specialize (G Z). apply Z.eqb_neq in Z.
    destruct (x mod y =? 0)%Z eqn:M; [|exact G]. apply Z.eqb_eq in M.
    intros v Hv. apply G in Hv. simpl in Hv. simpl. rewrite <- Hv. f_equal. f_equal. symmetry. apply div_exact; assumption.
  - destruct (num_is0 (NR y)) eqn:Z; [apply R_refl|apply (G eq_refl)].
  - destruct (num_is0 (NI y)) eqn:Z; [apply R_refl|apply (G eq_refl)].
  - destruct (num_is0 (NR y)) eqn:Z; [apply R_refl|apply (G eq_refl)].
Qed.

Lemma sound_walk_le I a b : R I I (ELe a b) (walk_le a b).
Proof.
  unfold walk_le. destruct (num_of a) as [x|] eqn:A, (num_of b) as [y|] eqn:B; try apply R_refl.
  intros v. rewrite eval_ELe, (eval_num_of false I a x A), (eval_num_of false I b y B). intros H; exact H.
Qed.
Lemma sound_walk_lt I a b : R I I (ELt a b) (walk_lt a b).
Proof.
  unfold walk_lt. destruct (num_of a) as [x|] eqn:A, (num_of b) as [y|] eqn:B; try apply R_refl.
  intros v. rewrite eval_ELt, (eval_num_of false I a x A), (eval_num_of false I b y B). intros H; exact H.
Qed.

Lemma sound_walk_fluent G tau QT I f l : cfg_consts G -> env_ok G tau QT I -> R I I (EFluent f l) (walk_fluent G f l).
Proof.
  intros [HC _] E. unfold walk_fluent. destruct (forallb is_const l) eqn:C; [|apply R_refl].
  destruct (stat G f l) as [c|] eqn:S; [|apply R_refl].
  intros v. rewrite eval_EFluent, (evals_consts false I l C). destruct (cvalues l) as [vs|] eqn:V; [|discriminate].
  rewrite (ok_stat _ _ _ _ E f l c vs S V), (eval_const false I c (HC _ _ _ S)). auto.
Qed.
Lemma sound_walk_ifun G tau QT I f l : cfg_consts G -> env_ok G tau QT I -> R I I (EIFun f l) (walk_ifun G f l).
Proof.
  intros [_ HC] E. unfold walk_ifun. destruct (forallb is_const l) eqn:C; [|apply R_refl].
  destruct (itab G f l) as [c|] eqn:S; [|apply R_refl].
  intros v. rewrite eval_EIFun, (evals_consts false I l C). destruct (cvalues l) as [vs|] eqn:V; [|discriminate].
  rewrite (ok_itab _ _ _ _ E f l c vs S V), (eval_const false I c (HC _ _ _ S)). auto.
Qed.

Lemma head_typed G tau QT I S e ty v :
  env_ok G tau QT I -> wfx tau QT S e = true -> user_type_of G e = Some ty -> eval false e I = Some v ->
  exists o, v = VObj o /\ In o (objs I ty).
Proof.
  intros E W U V. destruct e; simpl in U; try discriminate.
  - simpl in V. inversion V; subst. exists o. split; [reflexivity|apply (ok_obj _ _ _ _ E); exact U].
  - simpl in V. eapply (ok_par _ _ _ _ E); eauto.
  - inversion U; subst. simpl in V. cbn [wfx] in W. apply andb_true_iff in W. destruct W as [W _].
    apply N.eqb_eq in W. subst. eapply (ok_var _ _ _ _ E); eauto.
  - rewrite eval_EFluent in V. destruct (evals false I args); [|discriminate]. eapply (ok_fl _ _ _ _ E); eauto.
  - rewrite eval_EIFun in V. destruct (evals false I args); [|discriminate]. eapply (ok_if _ _ _ _ E); eauto.
Qed.

Lemma sound_walk_equals G tau QT I S a b :
  env_ok G tau QT I -> wfx tau QT S a = true -> wfx tau QT S b = true -> R I I (EEquals a b) (walk_equals G a b).
Proof.
  intros E Wa Wb. unfold walk_equals.
  destruct (is_const a && is_const b) eqn:C.
  { apply andb_true_iff in C. destruct C as [Ca Cb]. intros v. rewrite eval_EEquals.
    rewrite (eval_const false I a Ca), (eval_const false I b Cb).
    destruct a; try discriminate; destruct b; try discriminate; simpl; intros H; try discriminate; exact H. }
  destruct (expr_eqb a b) eqn:Q.
  { apply expr_eqb_eq in Q. subst b. intros v. rewrite eval_EEquals. destruct (eval false a I) as [[x|x|x]|]; try discriminate.
    - rewrite qc_eqb_refl. auto.
    - rewrite N.eqb_refl. auto. }
  destruct (user_type_of G a) as [ta|] eqn:Ua; [|apply R_refl].
  destruct (user_type_of G b) as [tb|] eqn:Ub; [|apply R_refl].
  destruct (negb (compat G ta tb) && negb (compat G tb ta)) eqn:N; [|apply R_refl].
  apply andb_true_iff in N. destruct N as [N1 N2]. apply negb_true_iff in N1, N2.
  intros v. rewrite eval_EEquals. destruct (eval false a I) as [va|] eqn:Va; [|discriminate].
  destruct (eval false b I) as [vb|] eqn:Vb; [|destruct va; discriminate].
  destruct (head_typed _ _ _ _ _ _ _ _ E Wa Ua Va) as [oa [-> Ha]].
  destruct (head_typed _ _ _ _ _ _ _ _ E Wb Ub Vb) as [ob [-> Hb]].
  intros H; inversion H; subst. simpl. f_equal. f_equal.
  destruct (oa =? ob)%N eqn:Eo; [|reflexivity]. apply N.eqb_eq in Eo. subst ob.
  destruct (ok_disj _ _ _ _ E ta tb oa Ha Hb); congruence.
Qed.

(* trajectory operators: no value to preserve *)
Lemma sound_traj I :
  (forall a, R I I (EAlways a) (walk_always a)) /\ (forall a, R I I (ESometime a) (walk_sometime a)) /\
  (forall a, R I I (EAtMostOnce a) (walk_at_most_once a)) /\
  (forall a b, R I I (ESometimeBefore a b) (walk_sometime_before a b)) /\
  (forall a b, R I I (ESometimeAfter a b) (walk_sometime_after a b)).
Proof. repeat split; intros; intros v H; discriminate H. Qed.

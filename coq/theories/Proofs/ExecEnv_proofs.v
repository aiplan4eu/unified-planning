(* C35 — proofs about Model/ExecEnv.v. *)
From Coq Require Import List ZArith NArith QArith Qcanon Bool Lia.
Import ListNotations.
Require Import UPV.Core.Expr UPV.Core.Eval UPV.Core.Interp UPV.Planning.Problem UPV.Planning.Sem.
Require Import UPV.Proofs.Eval_lemmas UPV.Proofs.Sem_proofs UPV.Model.ExecEnv UPV.Proofs.ListFacts.

Lemma det_action_id a : det_action a = a.
Proof. destruct a; reflexivity. Qed.

Lemma det_actions_id l : map (fun ia : N * action => (fst ia, det_action (snd ia))) l = l.
Proof.
  induction l as [|[i a] l IH]; [reflexivity|]. cbn [map fst snd]. rewrite det_action_id, IH. reflexivity.
Qed.

Lemma det_clone_eq P : det_clone P = cp_base P.
Proof. unfold det_clone. rewrite det_actions_id. destruct (cp_base P); reflexivity. Qed.

Lemma mem_lit_hidden k hs :
  mem_lit {| l_pos := true; l_key := k |} hs = true -> existsb (gfl_eqb k) (map l_key hs) = true.
Proof.
  unfold mem_lit. induction hs as [|h hs IH]; cbn [existsb map]; [discriminate|].
  rewrite !orb_true_iff. intros [H|H]; [left | right; auto].
  unfold lit_eqb in H. apply andb_true_iff in H. exact (proj2 H).
Qed.

Lemma lookup_known_explicit P f args :
  is_hidden P (f, args) = false ->
  lookup_app f args (known_explicit P) = lookup_app f args (cp_explicit P).
Proof.
  unfold known_explicit, is_hidden, hidden_atoms. intros Hh.
  induction (cp_explicit P) as [|[[g a] v] l IH]; [reflexivity|].
  cbn [filter fst snd lookup_app].
  destruct ((f =? g)%N && values_eqb args a) eqn:E.
  - assert (Hk : (f, args) = (g, a)) by (apply gfl_eqb_eq; exact E).
    inversion Hk; subst g a.
    destruct (mem_lit {| l_pos := true; l_key := (f, args) |} (cp_hidden P)) eqn:M.
    + apply mem_lit_hidden in M. rewrite M in Hh. discriminate.
    + cbn [negb lookup_app]. rewrite E. reflexivity.
  - destruct (negb (mem_lit {| l_pos := true; l_key := (g, a) |} (cp_hidden P))); [|exact IH].
    cbn [lookup_app]. rewrite E. exact IH.
Qed.

Lemma lookup_chosen chi f args atoms rest :
  lookup_app f args (map (fun k : gfl => (fst k, snd k, VBool (chi k))) atoms ++ rest) =
  if existsb (gfl_eqb (f, args)) atoms then Some (VBool (chi (f, args))) else lookup_app f args rest.
Proof.
  induction atoms as [|k atoms IH]; [reflexivity|].
  cbn [map app lookup_app existsb].
  change ((f =? fst k)%N && values_eqb args (snd k)) with (gfl_eqb (f, args) k).
  destruct (gfl_eqb (f, args) k) eqn:E.
  - apply gfl_eqb_eq in E. subst k. reflexivity.
  - cbn [orb]. exact IH.
Qed.

Lemma find_fd_id P f fd : find_fd P f = Some fd -> fd_id fd = f.
Proof. unfold find_fd. intros H. apply find_some in H. apply N.eqb_eq. exact (proj2 H). Qed.

(* every non-hidden ground fluent of a declared fluent starts with its declared value: explicit, else the per-fluent
   default, else the default of its type; when nothing is declared the environment closes the world with `false` *)
Lemma init_state_non_hidden P chi k fd :
  find_fd (cp_base P) (fst k) = Some fd -> is_hidden P k = false ->
  init_state P chi (fst k) (snd k) =
  Some (match declared_init P k with Some v => v | None => VBool false end).
Proof.
  destruct k as [f args]. cbn [fst snd]. intros Hfd Hh.
  unfold init_state, clone_explicit. rewrite lookup_chosen.
  unfold is_hidden in Hh. rewrite Hh.
  rewrite (lookup_known_explicit P f args Hh).
  unfold declared_init. cbn [fst snd].
  destruct (lookup_app f args (cp_explicit P)) as [v|]; [reflexivity|].
  rewrite Hfd. f_equal. unfold clone_default.
  rewrite (find_fd_id _ _ _ Hfd).
  destruct (fluents_defaults P f) as [v|] eqn:E; [reflexivity|].
  unfold fluents_defaults in E. rewrite Hfd in E.
  destruct (lookupN f (cp_fdefault P)); [discriminate|]. rewrite E. reflexivity.
Qed.

Lemma init_state_declared P chi k fd v :
  find_fd (cp_base P) (fst k) = Some fd -> is_hidden P k = false -> declared_init P k = Some v ->
  init_state P chi (fst k) (snd k) = Some v.
Proof. intros Hfd Hh Hd. rewrite (init_state_non_hidden P chi k fd Hfd Hh), Hd. reflexivity. Qed.

(* the three levels of [declared_init], spelled out *)
Lemma declared_init_levels P k fd :
  find_fd (cp_base P) (fst k) = Some fd ->
  declared_init P k =
  match lookup_app (fst k) (snd k) (cp_explicit P) with
  | Some v => Some v
  | None => match lookupN (fst k) (cp_fdefault P) with
            | Some v => Some v
            | None => type_default (cp_tdefault P) (cp_ftype P) (fst k)
            end
  end.
Proof. intros H. unfold declared_init, fluents_defaults. rewrite H. reflexivity. Qed.

Lemma init_state_hidden P chi k :
  is_hidden P k = true -> init_state P chi (fst k) (snd k) = Some (VBool (chi k)).
Proof.
  destruct k as [f args]. cbn [fst snd]. intros Hh. unfold init_state, clone_explicit.
  rewrite lookup_chosen. unfold is_hidden in Hh. rewrite Hh. reflexivity.
Qed.

Lemma lit_holds_fluent P s l b :
  s (fst (l_key l)) (snd (l_key l)) = Some (VBool b) -> lit_holds P s l = Bool.eqb b (l_pos l).
Proof.
  intros Hs. unfold lit_holds, holds, lit_expr.
  destruct (l_pos l).
  - rewrite eval_EFluent, evals_value_exprs. cbn [fl mk_interp]. rewrite Hs. destruct b; reflexivity.
  - rewrite eval_ENot, eval_EFluent, evals_value_exprs. cbn [fl mk_interp]. rewrite Hs. destruct b; reflexivity.
Qed.

Definition wf_hidden (P : cproblem) : Prop :=
  forall c, In c (cp_oneof P ++ cp_or P) -> forall l, In l c -> In l (cp_hidden P).

Lemma in_hidden_is_hidden P l : In l (cp_hidden P) -> is_hidden P (l_key l) = true.
Proof.
  intros H. unfold is_hidden, hidden_atoms. apply existsb_exists. exists (l_key l).
  split; [apply in_map; exact H | apply gfl_eqb_refl].
Qed.

Lemma lit_holds_init P chi l :
  In l (cp_hidden P) -> lit_holds (cp_base P) (init_state P chi) l = lit_holds_chi chi l.
Proof.
  intros H. unfold lit_holds_chi. apply lit_holds_fluent.
  apply init_state_hidden. apply in_hidden_is_hidden. exact H.
Qed.

(* the environment's initial state satisfies a oneof / or constraint exactly when the chosen assignment does *)
Lemma constraints_hold_init P chi :
  wf_hidden P -> constraints_hold P (init_state P chi) = sat_assign chi (cp_oneof P) (cp_or P).
Proof.
  intros W. unfold constraints_hold, sat_assign. f_equal.
  - apply forallb_ext_in. intros c Hc. unfold count_true. f_equal. f_equal.
    apply filter_ext_in. intros l Hl. apply lit_holds_init. apply (W c); [apply in_or_app; left; exact Hc | exact Hl].
  - apply forallb_ext_in. intros c Hc. apply existsb_ext_in. intros l Hl.
    apply lit_holds_init. apply (W c); [apply in_or_app; right; exact Hc | exact Hl].
Qed.

(* the API keeps every constrained literal hidden *)
Lemma wf_hidden_empty P : cp_oneof P = [] -> cp_or P = [] -> wf_hidden P.
Proof. intros H1 H2 c Hc. rewrite H1, H2 in Hc. destruct Hc. Qed.

Lemma wf_hidden_add_oneof P c : wf_hidden P -> wf_hidden (add_oneof P c).
Proof.
  intros W c' Hc l Hl. unfold add_oneof, set_hidden in *. cbn [cp_hidden cp_oneof cp_or] in *.
  apply in_or_app. rewrite <- app_assoc in Hc. apply in_app_or in Hc. destruct Hc as [Hc|Hc].
  - right. apply (W c'); [apply in_or_app; left; exact Hc | exact Hl].
  - apply in_app_or in Hc. destruct Hc as [[<-|[]]|Hc]; [left; exact Hl|].
    right. apply (W c'); [apply in_or_app; right; exact Hc | exact Hl].
Qed.

Lemma wf_hidden_add_or P c : wf_hidden P -> wf_hidden (add_or P c).
Proof.
  intros W c' Hc l Hl. unfold add_or, set_hidden in *. cbn [cp_hidden cp_oneof cp_or] in *.
  apply in_or_app. rewrite app_assoc in Hc. apply in_app_or in Hc. destruct Hc as [Hc|[<-|[]]].
  - right. apply (W c'); assumption.
  - left. exact Hl.
Qed.

Lemma wf_hidden_add_unknown P k : wf_hidden P -> wf_hidden (add_unknown P k).
Proof. intros W. exact (wf_hidden_add_or P _ W). Qed.

Lemma env_step_is_sim_apply P s aid args :
  env_step P s aid args =
  match lookup_action (cp_base P) aid with
  | Some a => sim_apply true (cp_base P) s a args
  | None => None
  end.
Proof. unfold env_step. rewrite det_clone_eq. reflexivity. Qed.

Lemma env_apply_state P s aid args :
  option_map fst (env_apply P s aid args) =
  match lookup_action (cp_base P) aid with
  | Some a => sim_apply true (cp_base P) s a args
  | None => None
  end.
Proof.
  unfold env_apply. rewrite env_step_is_sim_apply.
  destruct (lookup_action (cp_base P) aid) as [a|]; [|reflexivity].
  destruct (sim_apply true (cp_base P) s a args); reflexivity.
Qed.

(* every action sequence, by induction over the sequence *)
Lemma env_run_is_sim_run P plan : forall s,
  env_run P s plan = run (cp_base P) (sim_apply true (cp_base P)) s plan.
Proof.
  induction plan as [|[aid args] rest IH]; intros s; [reflexivity|].
  cbn [env_run run]. unfold env_apply. rewrite env_step_is_sim_apply.
  destruct (lookup_action (cp_base P) aid) as [a|]; [|reflexivity].
  destruct (sim_apply true (cp_base P) s a args) as [s'|]; [apply IH | reflexivity].
Qed.

Lemma env_is_goal_spec P s : env_is_goal P s = goals_hold true (cp_base P) s.
Proof. unfold env_is_goal, sim_is_goal. rewrite det_clone_eq. reflexivity. Qed.

Definition rows_current (s : state) (res : list obs_row) : Prop :=
  forall k v, In (k, v) res -> v = s (fst k) (snd k).

(* a dict whose rows carry the state's own values is determined by its keys: writing the current value of k adds the
   row of k, or leaves the dict as it is *)
Lemma obs_insert_iff s k res r : rows_current s res ->
  (In r (obs_insert k (s (fst k) (snd k)) res) <-> r = (k, s (fst k) (snd k)) \/ In r res).
Proof.
  induction res as [|[k' v'] res IH]; intros H; cbn [obs_insert].
  - simpl. split; intros [E|[]]; left; symmetry; exact E.
  - assert (H' : rows_current s res) by (intros k1 v1 H1; apply H; right; exact H1).
    destruct (gfl_eqb k k') eqn:E.
    + apply gfl_eqb_eq in E. subst k'. rewrite (H k v' (or_introl eq_refl)).
      split; [intros Hr; right; exact Hr | intros [->|Hr]; [left; reflexivity | exact Hr]].
    + destruct (IH H') as [I1 I2]. split.
      * intros [Hr|Hr]; [right; left; exact Hr|].
        destruct (I1 Hr) as [Hr'|Hr']; [left; exact Hr' | right; right; exact Hr'].
      * intros [Hr|[Hr|Hr]]; [right; apply I2; left; exact Hr | left; exact Hr | right; apply I2; right; exact Hr].
Qed.

(* the rows after the loop: those it started with, and one for every observed fluent, carrying the state's value *)
Lemma observe_all_spec s pars obs : forall res out,
  observe_all s pars obs res = Some out -> rows_current s res ->
  forall r, In r out <->
    In r res \/ exists f eargs vs, In (f, eargs) obs /\ inst_args pars eargs = Some vs /\ r = ((f, vs), s f vs).
Proof.
  induction obs as [|[f eargs] obs IH]; intros res out H Hc r; cbn [observe_all] in H.
  - inversion H; subst out. split; [auto | intros [Hr|(f & eargs & vs & [] & _)]; exact Hr].
  - destruct (inst_args pars eargs) as [vs|] eqn:E; [|discriminate].
    pose proof (fun r => obs_insert_iff s (f, vs) res r Hc) as Hi. cbn [fst snd] in Hi.
    assert (Hc' : rows_current s (obs_insert (f, vs) (s f vs) res)).
    { intros k v Hkv. apply Hi in Hkv. destruct Hkv as [[= -> ->]|Hkv]; [reflexivity | apply Hc, Hkv]. }
    specialize (IH _ _ H Hc' r). split.
    + intros Hr. apply IH in Hr. destruct Hr as [Hr|(f0 & ea & vs0 & Hin & Hi0 & Er)].
      * apply Hi in Hr. destruct Hr as [->|Hr]; [right | left; exact Hr].
        exists f, eargs, vs. split; [left; reflexivity | split; [exact E | reflexivity]].
      * right. exists f0, ea, vs0. split; [right; exact Hin | split; assumption].
    + intros Hr. apply IH. destruct Hr as [Hr|(f0 & ea & vs0 & [E0|Hin] & Hi0 & Er)].
      * left. apply Hi. right. exact Hr.
      * inversion E0; subst f0 ea. rewrite E in Hi0. inversion Hi0; subst vs0. left. apply Hi. left. exact Er.
      * right. exists f0, ea, vs0. auto.
Qed.

(* the observations returned by apply: every row carries the value of its ground fluent in the state AFTER the action,
   the rows are exactly the observed fluents of the sensing action instantiated with the actual parameters, and an
   ordinary action observes nothing *)
Lemma env_obs_spec P s aid args s' obs :
  env_apply P s aid args = Some (s', Some obs) ->
  env_step P s aid args = Some s' /\
  (forall k v, In (k, v) obs -> v = s' (fst k) (snd k)) /\
  (lookupN aid (cp_observed P) = None -> obs = []) /\
  (forall ofl a, lookupN aid (cp_observed P) = Some ofl -> lookup_action (cp_base P) aid = Some a ->
     let pars := zip_params (a_params a) args in
     (forall f eargs vs, In (f, eargs) ofl -> inst_args pars eargs = Some vs -> In ((f, vs), s' f vs) obs) /\
     (forall k v, In (k, v) obs -> exists eargs, In (fst k, eargs) ofl /\ inst_args pars eargs = Some (snd k))).
Proof.
  unfold env_apply. destruct (env_step P s aid args) as [t|] eqn:Es; [|discriminate].
  intros H. inversion H; subst t. clear H. rename H2 into Ho. split; [reflexivity|].
  unfold env_obs in Ho.
  destruct (lookupN aid (cp_observed P)) as [ofl|] eqn:El.
  - destruct (lookup_action (cp_base P) aid) as [a|] eqn:Ea.
    + assert (Hc : rows_current s' []) by (intros k v []).
      pose proof (observe_all_spec s' _ ofl [] obs Ho Hc) as Hr. split.
      { intros k v Hin. apply Hr in Hin. destruct Hin as [[]|(f & eargs & vs & _ & _ & [= -> ->])]. reflexivity. }
      split; [discriminate|].
      intros ofl' a' E1 E2. inversion E1; inversion E2; subst ofl' a'. cbn zeta. split.
      * intros f eargs vs Hin Hi. apply Hr. right. exists f, eargs, vs. auto.
      * intros k v Hin. apply Hr in Hin. destruct Hin as [[]|(f & eargs & vs & H1 & H2 & [= -> _])].
        exists eargs. split; assumption.
    + inversion Ho; subst obs. split; [intros k v []|]. split; [reflexivity|]. intros ofl' a' _ E2. discriminate.
  - inversion Ho; subst obs. split; [intros k v []|]. split; [reflexivity|]. intros ofl' a' E1. discriminate.
Qed.

Lemma env_init_spec pick P s0 :
  env_init pick P = Some s0 ->
  exists chi, pick (hidden_atoms P) (cp_oneof P) (cp_or P) = Some chi /\ s0 = init_state P chi /\
              invariants_ok true (cp_base P) s0 = true.
Proof.
  unfold env_init. destruct (pick (hidden_atoms P) (cp_oneof P) (cp_or P)) as [chi|]; [|discriminate].
  rewrite det_clone_eq. destruct (invariants_ok true (cp_base P) (init_state P chi)) eqn:E; [|discriminate].
  intros H. inversion H; subst s0. exists chi. auto.
Qed.

(* if the oracle only returns models of the constraints (what all_smt promises; validated per run), the environment's
   initial state satisfies every oneof / or constraint and gives every non-hidden fluent its declared value *)
Lemma env_init_faithful pick P s0 :
  wf_hidden P ->
  (forall chi, pick (hidden_atoms P) (cp_oneof P) (cp_or P) = Some chi -> sat_assign chi (cp_oneof P) (cp_or P) = true) ->
  env_init pick P = Some s0 ->
  constraints_hold P s0 = true /\
  forall k fd, find_fd (cp_base P) (fst k) = Some fd -> is_hidden P k = false ->
    s0 (fst k) (snd k) = Some (match declared_init P k with Some v => v | None => VBool false end).
Proof.
  intros W Hp Hi. destruct (env_init_spec pick P s0 Hi) as [chi [E1 [E2 _]]]. subst s0. split.
  - rewrite (constraints_hold_init P chi W). apply Hp. exact E1.
  - intros k fd Hfd Hh. apply (init_state_non_hidden P chi k fd Hfd Hh).
Qed.

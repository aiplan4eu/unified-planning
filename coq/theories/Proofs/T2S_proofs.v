(* Proofs about the timed-to-sequential back conversion (C28): chosen durations and spacing. *)
From Coq Require Import List ZArith NArith QArith Bool Lia Lqa.
Import ListNotations.
Require Import UPV.Model.T2S.
Open Scope Q_scope.

Lemma Qlt_bool_iff a b : Qlt_bool a b = true <-> a < b.
Proof.
  unfold Qlt_bool. rewrite negb_true_iff. split; intros H.
  - destruct (Qlt_le_dec a b) as [L|L]; [exact L|]. apply Qle_bool_iff in L. congruence.
  - destruct (Qle_bool b a) eqn:E; [|reflexivity]. apply Qle_bool_iff in E. exfalso. apply (Qlt_not_le _ _ H E).
Qed.

Theorem chosen_duration_in_interval lo hi lopen ropen :
  nonempty lo hi lopen ropen -> in_interval (choose_duration lo hi lopen) lo hi lopen ropen.
Proof.
  unfold nonempty, in_interval, choose_duration.
  assert (M : lo < hi -> lo < (lo + hi) / 2 /\ (lo + hi) / 2 < hi).
  { intros H. split; [apply Qlt_shift_div_l | apply Qlt_shift_div_r]; lra. }
  destruct lopen, ropen; cbn [orb]; intros H; rewrite Qred_correct;
    try (destruct (M H) as [M1 M2]); split; lra.
Qed.

Lemma choose_closed_left lo hi hi' : choose_duration lo hi false = choose_duration lo hi' false.
Proof. reflexivity. Qed.

Theorem step_duration_in_interval s lo hi lopen ropen d l h :
  s_kind s = SDur lo hi lopen ropen ->
  step_duration s = Some (Some d) ->
  beval (s_state s) (s_params s) lo = Some l ->
  beval (s_state s) (s_params s) hi = Some h ->
  nonempty l h lopen ropen ->
  in_interval d l h lopen ropen.
Proof.
  intros K D L H NE. unfold step_duration in D. rewrite K, L in D. cbn [obind] in D.
  destruct lopen.
  - rewrite H in D. cbn [obind] in D.
    assert (E : d = choose_duration l h true) by congruence.
    rewrite E. apply chosen_duration_in_interval. exact NE.
  - assert (E : d = choose_duration l l false) by congruence.
    rewrite E, (choose_closed_left l l h). apply chosen_duration_in_interval. exact NE.
Qed.

(* a durative step whose lower bound (and, for a left-open interval, upper bound) has a value gets a duration; an
   instantaneous step gets none *)
Lemma step_duration_inst s : s_kind s = SInst -> step_duration s = Some None.
Proof. intros K. unfold step_duration. rewrite K. reflexivity. Qed.

Lemma step_duration_dur_some s lo hi lopen ropen x :
  s_kind s = SDur lo hi lopen ropen -> step_duration s = Some x -> exists d, x = Some d.
Proof.
  intros K D. unfold step_duration in D. rewrite K in D.
  destruct (beval (s_state s) (s_params s) lo) as [l|]; [|discriminate]. cbn [obind] in D.
  destruct lopen.
  - destruct (beval (s_state s) (s_params s) hi) as [h|]; [|discriminate]. cbn [obind] in D.
    inversion D. eexists; reflexivity.
  - inversion D. eexists; reflexivity.
Qed.

Lemma back_conv_cons_inv eps now s rest out : back_conv eps now (s :: rest) = Some out ->
  exists od r, step_duration s = Some od /\ out = (now, od) :: r /\
    back_conv eps (match od with Some d => Qred (now + d + eps) | None => Qred (now + eps) end) rest = Some r.
Proof.
  cbn [back_conv]. destruct (step_duration s) as [[d|]|]; [| |discriminate].
  - destruct (back_conv eps (Qred (now + d + eps)) rest) as [r|] eqn:R; [|discriminate].
    intros H. inversion H. exists (Some d), r. auto.
  - destruct (back_conv eps (Qred (now + eps)) rest) as [r|] eqn:R; [|discriminate].
    intros H. inversion H. exists None, r. auto.
Qed.

(* every entry of the result carries the duration chosen for its step: one entry per step, in order *)
Inductive matches : list sstep -> list tentry -> Prop :=
| m_nil : matches [] []
| m_cons s steps e out : step_duration s = Some (snd e) -> matches steps out -> matches (s :: steps) (e :: out).

Theorem back_conv_matches eps : forall steps now out, back_conv eps now steps = Some out -> matches steps out.
Proof.
  induction steps as [|s steps IH]; intros now out H; [inversion H; constructor|].
  destruct (back_conv_cons_inv _ _ _ _ _ H) as (od & r & D & -> & R). constructor; [exact D | exact (IH _ _ R)].
Qed.

(* all chosen durations lie in their intervals (whenever the interval, evaluated in the step's state, is non-empty) *)
Definition step_entry_in_interval (s : sstep) (e : tentry) : Prop :=
  match s_kind s with
  | SInst => snd e = None
  | SDur lo hi lopen ropen =>
      exists d, snd e = Some d /\
        forall l h, beval (s_state s) (s_params s) lo = Some l -> beval (s_state s) (s_params s) hi = Some h ->
                    nonempty l h lopen ropen -> in_interval d l h lopen ropen
  end.

Theorem back_conv_durations_in_intervals eps steps now out :
  back_conv eps now steps = Some out -> Forall2 step_entry_in_interval steps out.
Proof.
  intros H. apply back_conv_matches in H. induction H as [|s steps e out D _ IH]; constructor; [|exact IH].
  unfold step_entry_in_interval. destruct (s_kind s) as [|lo hi lopen ropen] eqn:K.
  - rewrite (step_duration_inst s K) in D. inversion D; reflexivity.
  - destruct (step_duration_dur_some s lo hi lopen ropen _ K D) as [d Hd].
    exists d. split; [exact Hd|]. intros l h L Hh NE. rewrite Hd in D.
    eapply step_duration_in_interval; eauto.
Qed.

Fixpoint chained (eps : Q) (out : list tentry) : Prop :=
  match out with
  | e1 :: ((e2 :: _) as rest) => fst e2 == end_of e1 + eps /\ chained eps rest
  | _ => True
  end.

Lemma back_conv_head eps steps now e out : back_conv eps now steps = Some (e :: out) -> fst e = now.
Proof.
  destruct steps as [|s steps]; intros H; [discriminate|].
  destruct (back_conv_cons_inv _ _ _ _ _ H) as (od & r & _ & E & _). inversion E. reflexivity.
Qed.

Theorem back_conv_chained eps : forall steps now out, back_conv eps now steps = Some out -> chained eps out.
Proof.
  induction steps as [|s steps IH]; intros now out H; [inversion H; exact I|].
  destruct (back_conv_cons_inv _ _ _ _ _ H) as (od & r & _ & -> & R).
  destruct r as [|e2 r]; [exact I|]. split; [|exact (IH _ _ R)].
  rewrite (back_conv_head _ _ _ _ _ R). unfold end_of, dur_of; cbn [fst snd]. destruct od; rewrite Qred_correct; ring.
Qed.

(* consecutive actions: the next one starts exactly eps after the previous one ends, hence strictly after it *)
Fixpoint consecutive_after (out : list tentry) : Prop :=
  match out with
  | e1 :: ((e2 :: _) as rest) => end_of e1 < fst e2 /\ consecutive_after rest
  | _ => True
  end.

Lemma chained_consecutive eps out : 0 < eps -> chained eps out -> consecutive_after out.
Proof.
  intros He. induction out as [|e1 out IH]; [intros _; exact I|].
  destruct out as [|e2 out]; [intros _; exact I|].
  intros [H1 H2]. split; [rewrite H1; lra| apply IH; exact H2].
Qed.

Theorem no_overlap_between_consecutive eps steps now out :
  0 < eps -> back_conv eps now steps = Some out -> consecutive_after out.
Proof. intros He H. eapply chained_consecutive; [exact He| eapply back_conv_chained; exact H]. Qed.

(* with non-negative durations no two actions of the plan overlap at all: every action ends strictly before every
   later action starts *)
Lemma chained_later_starts eps : 0 < eps -> forall out e1,
  Forall (fun e => 0 <= dur_of e) (e1 :: out) -> chained eps (e1 :: out) -> Forall (fun e => end_of e1 < fst e) out.
Proof.
  intros He. induction out as [|e2 out IH]; intros e1 Hd Hc; [constructor|].
  destruct Hc as [H1 H2]. inversion Hd as [|? ? Hd1 Hd']; subst. inversion Hd' as [|? ? Hd2 Hd'']; subst.
  constructor; [rewrite H1; lra|].
  assert (IH2 := IH e2 Hd' H2).
  eapply Forall_impl; [|exact IH2]. intros e Hlt. simpl in Hlt.
  unfold end_of in *. lra.
Qed.

Theorem no_overlap_all_pairs eps steps now out :
  0 < eps -> back_conv eps now steps = Some out -> Forall (fun e => 0 <= dur_of e) out ->
  ForallOrdPairs (fun a b => end_of a < fst b) out.
Proof.
  intros He H Hd. apply back_conv_chained in H.
  induction out as [|e1 out IH]; [constructor|].
  constructor.
  - apply (chained_later_starts eps He out e1 Hd H).
  - apply IH; [destruct out; [exact I| exact (proj2 H)] | inversion Hd; assumption].
Qed.

Theorem first_starts_at_origin eps steps now e out : back_conv eps now steps = Some (e :: out) -> fst e = now.
Proof. apply back_conv_head. Qed.

(* the boolean judge used on the implementation's output is sound for the Prop-level statements *)
Lemma in_intervalb_sound d lo hi lopen ropen : in_intervalb d lo hi lopen ropen = true -> in_interval d lo hi lopen ropen.
Proof.
  unfold in_intervalb, in_interval. intros H. apply andb_true_iff in H as [H1 H2].
  split; [destruct lopen | destruct ropen];
    first [apply Qlt_bool_iff; assumption | apply Qle_bool_iff; assumption].
Qed.

Lemma spaced_sound out : spaced out = true -> consecutive_after out.
Proof.
  induction out as [|e1 out IH]; [intros _; exact I|].
  destruct out as [|e2 out]; [intros _; exact I|].
  intros H. cbn [spaced] in H. apply andb_true_iff in H as [H12 H3]. apply andb_true_iff in H12 as [_ H2].
  split; [apply Qlt_bool_iff; exact H2 | apply IH; exact H3].
Qed.

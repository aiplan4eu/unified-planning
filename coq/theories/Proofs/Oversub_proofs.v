(* Proofs about the oversubscription meta-engine loop (Model/Oversub.v). *)
From Coq Require Import List ZArith NArith QArith Qcanon Bool Lia Sorted.
Import ListNotations.
Require Import UPV.Core.Expr UPV.Core.Eval UPV.Proofs.ListFacts UPV.Proofs.Eval_lemmas UPV.Model.Oversub.
Require Import UPV.Planning.Problem UPV.Planning.Sem UPV.Planning.SeqValidate.
Local Open Scope nat_scope.

Fixpoint count_true (m : mask) : nat :=
  match m with [] => 0 | b :: m' => (if b then 1 else 0) + count_true m' end.

Lemma count_true_le m : count_true m <= length m.
Proof. induction m as [|b m IH]; simpl; [lia|]. destruct b; lia. Qed.

Lemma combos_complete : forall m, In m (combos (length m) (count_true m)).
Proof.
  induction m as [|b m IH]; simpl; [auto|].
  destruct b; simpl.
  - apply in_or_app. left. apply in_map. exact IH.
  - apply in_or_app. right. apply in_map. exact IH.
Qed.

Lemma combos_length : forall n r m, In m (combos n r) -> length m = n.
Proof.
  induction n as [|n IH]; intros r m H; simpl in H.
  - destruct r; simpl in H; [destruct H as [<-|[]]; reflexivity | contradiction].
  - apply in_app_or in H. destruct H as [H|H].
    + destruct r as [|r]; [contradiction|].
      apply in_map_iff in H. destruct H as [m' [<- H]]. simpl. f_equal. eauto.
    + apply in_map_iff in H. destruct H as [m' [<- H]]. simpl. f_equal. eauto.
Qed.

Lemma powerset_complete : forall m, In m (powerset (length m)).
Proof.
  intro m. unfold powerset. apply in_flat_map. exists (count_true m). split.
  - apply in_seq. pose proof (count_true_le m). lia.
  - apply combos_complete.
Qed.

Lemma powerset_length : forall n m, In m (powerset n) -> length m = n.
Proof.
  intros n m H. unfold powerset in H. apply in_flat_map in H. destruct H as [r [_ H]]. eapply combos_length; eauto.
Qed.

Lemma mask_eqb_eq : forall a b, mask_eqb a b = true <-> a = b.
Proof.
  induction a as [|x a IH]; destruct b as [|y b]; simpl; split; intro H; try discriminate; auto.
  - apply andb_true_iff in H. destruct H as [H1 H2]. apply eqb_prop in H1. apply IH in H2. congruence.
  - inversion H; subst. rewrite eqb_reflx. simpl. apply IH. reflexivity.
Qed.

Definition ge_w (a b : Qc * mask) : Prop := qc_ltb (fst a) (fst b) = false.   (* b is not heavier than a *)

Lemma qc_ltb_false_le a b : qc_ltb a b = false -> (b <= a)%Qc.
Proof.
  intro H. apply Qcnot_lt_le. intro Hlt. apply qc_ltb_lt in Hlt. congruence.
Qed.

Lemma le_qc_ltb_false a b : (b <= a)%Qc -> qc_ltb a b = false.
Proof.
  intro H. destruct (qc_ltb a b) eqn:E; auto. apply qc_ltb_lt in E. exfalso. eapply Qcle_not_lt; eauto.
Qed.

Lemma insert_desc_in x l y : In y (insert_desc x l) <-> y = x \/ In y l.
Proof.
  induction l as [|z l IH]; simpl.
  - split; intros [H|[]]; auto.
  - destruct (qc_ltb (fst x) (fst z)); simpl; rewrite ?IH; [tauto|]. split; intros [H|H]; auto.
Qed.

Lemma sort_desc_in l y : In y (sort_desc l) <-> In y l.
Proof.
  induction l as [|x l IH]; simpl; [tauto|].
  rewrite insert_desc_in, IH. intuition.
Qed.

Lemma insert_desc_sorted x l : StronglySorted ge_w l -> StronglySorted ge_w (insert_desc x l).
Proof.
  induction l as [|z l IH]; intro H; simpl.
  - constructor; constructor.
  - apply StronglySorted_inv in H. destruct H as [Hl Hz].
    destruct (qc_ltb (fst x) (fst z)) eqn:E.
    + constructor; [auto|].
      apply Forall_forall. intros y Hy. apply insert_desc_in in Hy. destruct Hy as [->|Hy].
      * unfold ge_w. apply le_qc_ltb_false. apply Qclt_le_weak. apply qc_ltb_lt. exact E.
      * rewrite Forall_forall in Hz. auto.
    + constructor; [constructor; auto|].
      constructor; [exact E|].
      apply Forall_forall. intros y Hy. rewrite Forall_forall in Hz. specialize (Hz y Hy).
      unfold ge_w in *. apply le_qc_ltb_false.
      eapply Qcle_trans; [apply qc_ltb_false_le; exact Hz | apply qc_ltb_false_le; exact E].
Qed.

Lemma sort_desc_sorted l : StronglySorted ge_w (sort_desc l).
Proof.
  induction l as [|x l IH]; simpl; [constructor|]. apply insert_desc_sorted. exact IH.
Qed.

Lemma sorted_split : forall pre x post, StronglySorted ge_w (pre ++ x :: post) -> Forall (ge_w x) post.
Proof.
  induction pre as [|a pre IH]; intros x post H; simpl in H; apply StronglySorted_inv in H; destruct H as [H1 H2]; auto.
Qed.

Lemma queue_in ws w m : In (w, m) (queue ws) <-> w = weight ws m /\ In m (powerset (length ws)).
Proof.
  unfold queue. rewrite sort_desc_in, in_map_iff. split.
  - intros [m' [E H]]. inversion E; subst. auto.
  - intros [-> H]. exists m. auto.
Qed.

Section Loop.
  Variable plan : Type.
  Variable planner : mask -> status * option plan.

  Notation loop := (os_loop plan planner).
  Notation stat x := (fst (planner (snd x))).

  (* the subsets the loop passes over, and whether one of them raised the incomplete flag *)
  Definition skipped (x : Qc * mask) : Prop := positive (stat x) = false /\ stat x <> Timeout.
  Definition marked (l : list (Qc * mask)) : bool := existsb (fun x => marks_incomplete (stat x)) l.

  Lemma os_loop_spec ng : forall q inc,
    (exists pre w m post, q = pre ++ (w, m) :: post /\ Forall skipped pre /\
       ((positive (fst (planner m)) = true /\
         loop ng inc q = (if inc || marked pre || ng then SolvedSat else SolvedOpt, snd (planner m)))
        \/ (fst (planner m) = Timeout /\ loop ng inc q = (Timeout, None))))
    \/ (Forall skipped q /\ loop ng inc q = (if inc || marked q then UnsolvIncomplete else UnsolvProven, None)).
  Proof.
    induction q as [|[w m] q IH]; intros inc.
    - right. split; [constructor|]. simpl. rewrite orb_false_r. reflexivity.
    - destruct (planner m) as [st pl] eqn:Ep. destruct (positive st) eqn:Epos.
      + left. exists [], w, m, q. split; [reflexivity|]. split; [constructor|]. left.
        rewrite Ep. simpl. rewrite Ep, Epos, orb_false_r. auto.
      + assert (Hst : st = Timeout \/ (st <> Timeout /\ loop ng inc ((w, m) :: q) = loop ng (inc || marks_incomplete st) q)).
        { simpl. rewrite Ep, Epos. destruct st; auto; right; (split; [discriminate | reflexivity]). }
        destruct Hst as [->|[Hne Hl]].
        * left. exists [], w, m, q. split; [reflexivity|]. split; [constructor|]. right. simpl. rewrite Ep, Epos. auto.
        * rewrite Hl.
          assert (Hs : skipped (w, m)) by (unfold skipped; simpl; rewrite Ep; auto).
          destruct (IH (inc || marks_incomplete st)) as [(pre & w' & m' & post & -> & Hpre & H)|[Hall H]].
          -- left. exists ((w, m) :: pre), w', m', post. split; [reflexivity|]. split; [constructor; assumption|].
             unfold marked. simpl. rewrite Ep. simpl. rewrite orb_assoc. exact H.
          -- right. split; [constructor; assumption|]. unfold marked. simpl. rewrite Ep. simpl. rewrite orb_assoc. exact H.
  Qed.

  Lemma skipped_silent l : Forall skipped l -> marked l = false -> Forall (fun x => silent (stat x) = true) l.
  Proof.
    intros H Hm. apply Forall_forall. intros x Hx. rewrite Forall_forall in H. destruct (H x Hx) as [Hp Ht].
    pose proof (existsb_false_in _ _ Hm x Hx) as Hmx. simpl in Hmx.
    destruct (stat x); simpl in *; congruence.
  Qed.

  Lemma os_loop_opt q ng inc pl : loop ng inc q = (SolvedOpt, pl) ->
    exists pre w m post, q = pre ++ (w, m) :: post /\ positive (fst (planner m)) = true /\ pl = snd (planner m) /\
                         Forall (fun x => silent (stat x) = true) pre.
  Proof.
    intros H. destruct (os_loop_spec ng q inc) as [(pre & w & m & post & Hq & Hpre & [[Hpos E]|[_ E]])|[_ E]];
      rewrite E in H; [| discriminate | destruct (inc || marked q); discriminate].
    destruct (inc || marked pre || ng) eqn:Ei; [discriminate|]. injection H as <-.
    apply orb_false_iff in Ei. destruct Ei as [Ei _]. apply orb_false_iff in Ei. destruct Ei as [_ Em].
    exists pre, w, m, post. auto using skipped_silent.
  Qed.

  Lemma os_loop_pos q ng inc st pl : loop ng inc q = (st, pl) -> positive st = true ->
    exists w m, In (w, m) q /\ positive (fst (planner m)) = true /\ pl = snd (planner m).
  Proof.
    intros H Hp. destruct (os_loop_spec ng q inc) as [(pre & w & m & post & Hq & _ & [[Hpos E]|[_ E]])|[_ E]];
      rewrite E in H; injection H as <- <-; [| discriminate | destruct (inc || marked q); discriminate].
    exists w, m. split; [rewrite Hq; apply in_or_app; right; left; reflexivity | auto].
  Qed.

  Lemma os_loop_unsolvable q ng inc pl : loop ng inc q = (UnsolvProven, pl) ->
    Forall (fun x => silent (stat x) = true) q.
  Proof.
    intros H. destruct (os_loop_spec ng q inc) as [(pre & w & m & post & _ & _ & [[_ E]|[_ E]])|[Hall E]];
      rewrite E in H; [destruct (inc || marked pre || ng); discriminate | discriminate |].
    destruct (inc || marked q) eqn:Ei; [discriminate|]. apply orb_false_iff in Ei. apply skipped_silent; tauto.
  Qed.
End Loop.

Section Optimal.
  Variable plan : Type.
  Variable planner : mask -> status * option plan.
  Variable valid_hard : plan -> bool.
  Variable achieved : plan -> option mask.
  Variable ws : list Qc.

  Notation vsub := (valid_sub plan valid_hard achieved).
  Notation gn := (gain plan achieved ws).

  (* one truth value per soft goal *)
  Hypothesis achieved_length : forall p a, achieved p = Some a -> length a = length ws.
  (* on the subsets of the soft goals the engine returns only valid plans (for the derived problem it was given) *)
  Hypothesis engine_sound : forall m st pl, length m = length ws -> planner m = (st, pl) -> positive st = true ->
      exists p, pl = Some p /\ vsub m p = true.
  (* ... and an answer that the loop takes as a proof of unsolvability is one *)
  Hypothesis engine_truthful : forall m, length m = length ws -> silent (fst (planner m)) = true ->
      forall p, vsub m p = false.

  Lemma vsub_self p a : valid_hard p = true -> achieved p = Some a -> vsub a p = true.
  Proof.
    intros H1 H2. unfold valid_sub. rewrite H1, H2. simpl. apply mask_eqb_eq. reflexivity.
  Qed.

  Lemma vsub_inv m p : vsub m p = true -> valid_hard p = true /\ achieved p = Some m.
  Proof.
    unfold valid_sub. intro H. apply andb_true_iff in H. destruct H as [H1 H2].
    destruct (achieved p) as [a|]; [|discriminate]. apply mask_eqb_eq in H2. subst. auto.
  Qed.

  Lemma queue_length w m : In (w, m) (queue ws) -> length m = length ws.
  Proof. intros H. apply queue_in in H. apply powerset_length, H. Qed.

  Lemma positive_answer w m : In (w, m) (queue ws) -> positive (fst (planner m)) = true ->
    exists p, snd (planner m) = Some p /\ valid_hard p = true /\ achieved p = Some m /\ gn p = Some w.
  Proof.
    intros Hin Hpos.
    destruct (engine_sound m _ _ (queue_length w m Hin) (surjective_pairing _) Hpos) as [p [E Hv]].
    apply vsub_inv in Hv. destruct Hv as [Hh Ha]. apply queue_in in Hin. destruct Hin as [-> _].
    exists p. unfold gain. rewrite Ha. auto.
  Qed.

  Lemma achieved_queued p a : valid_hard p = true -> achieved p = Some a ->
    In (weight ws a, a) (queue ws) /\ silent (fst (planner a)) = false.
  Proof.
    intros Hh Ha.
    assert (Hin : In (weight ws a, a) (queue ws)).
    { apply queue_in. split; [reflexivity|]. rewrite <- (achieved_length _ _ Ha). apply powerset_complete. }
    split; [exact Hin|]. destruct (silent (fst (planner a))) eqn:E; [|reflexivity].
    pose proof (vsub_self p a Hh Ha) as Hc. rewrite (engine_truthful a (queue_length _ _ Hin) E p) in Hc. discriminate.
  Qed.

  Lemma oversub_positive_sound_lemma : forall st pl,
      oversub_solve plan planner ws = (st, pl) -> positive st = true ->
      exists p w, pl = Some p /\ valid_hard p = true /\ gn p = Some w.
  Proof.
    intros st pl H Hpos. destruct (os_loop_pos _ _ _ _ _ _ _ H Hpos) as [w [m [Hin [Hp ->]]]].
    destruct (positive_answer w m Hin Hp) as [p [E [Hh [_ Hg]]]]. exists p, w. auto.
  Qed.

  Lemma oversub_optimal_lemma : forall pl,
      oversub_solve plan planner ws = (SolvedOpt, pl) ->
      exists p w, pl = Some p /\ valid_hard p = true /\ gn p = Some w /\
                  forall p' w', valid_hard p' = true -> gn p' = Some w' -> (w' <= w)%Qc.
  Proof.
    intros pl H. destruct (os_loop_opt _ _ _ _ _ _ H) as [pre [w [m [post [Hq [Hpos [-> Hall]]]]]]].
    assert (Hin : In (w, m) (queue ws)) by (rewrite Hq; apply in_or_app; right; left; reflexivity).
    destruct (positive_answer w m Hin Hpos) as [p [E [Hh [_ Hg]]]]. exists p, w. repeat split; auto.
    intros p' w' Hh' Hg'. unfold gain in Hg'.
    destruct (achieved p') as [a'|] eqn:Ha'; [|discriminate]. injection Hg' as <-.
    destruct (achieved_queued p' a' Hh' Ha') as [Hin' Hns].
    rewrite Hq in Hin'. apply in_app_or in Hin'. destruct Hin' as [Hin'|[Heq|Hin']].
    - rewrite Forall_forall in Hall. specialize (Hall _ Hin'). simpl in Hall. congruence.
    - injection Heq as <- _. apply Qcle_refl.
    - pose proof (sort_desc_sorted (map (fun m => (weight ws m, m)) (powerset (length ws)))) as Hs.
      fold (queue ws) in Hs. rewrite Hq in Hs. apply sorted_split in Hs.
      rewrite Forall_forall in Hs. apply qc_ltb_false_le, (Hs _ Hin').
  Qed.

  Lemma oversub_unsolvable_lemma : forall pl,
      oversub_solve plan planner ws = (UnsolvProven, pl) ->
      forall p', valid_hard p' = true -> gn p' = None.
  Proof.
    intros pl H p' Hh'. apply os_loop_unsolvable in H.
    unfold gain. destruct (achieved p') as [a'|] eqn:Ha'; [|reflexivity]. exfalso.
    destruct (achieved_queued p' a' Hh' Ha') as [Hin' Hns].
    rewrite Forall_forall in H. specialize (H _ Hin'). simpl in H. congruence.
  Qed.
End Optimal.

Lemma complete_truthful plan (planner : mask -> status * option plan) valid_hard achieved m :
  ((exists p, valid_sub plan valid_hard achieved m p = true) -> positive (fst (planner m)) = true) ->
  silent (fst (planner m)) = true -> forall p, valid_sub plan valid_hard achieved m p = false.
Proof.
  intros Hc Hs p. destruct (valid_sub plan valid_hard achieved m p) eqn:E; [|reflexivity].
  assert (Hp : positive (fst (planner m)) = true) by (apply Hc; eauto).
  destruct (fst (planner m)); simpl in *; congruence.
Qed.

(* instance: the planning semantics of
   Planning/Sem.v.  The derived problem of a subset is valid exactly for the plans that are valid for the hard goals
   and end in a state where the truth values of the soft goals are the mask; the gain is the value the validator's
   oversubscription metric computes (SeqValidate.gains). *)

Section Planning.
  Variable sc : bool.
  Variable P : problem.
  Variable s0 : state.
  Variable gs : list (expr * Qc).

  (* the derived problem differs from P only in its goals, which a step does not read *)
  Lemma arg_tuples_soft es m sig : arg_tuples (with_soft P es m) sig = arg_tuples P sig.
  Proof.
    induction sig as [|t sig IH]; [reflexivity|]. cbn [arg_tuples]. rewrite IH. reflexivity.
  Qed.

  Lemma bound_invs_soft es m : bound_invs (with_soft P es m) = bound_invs P.
  Proof.
    unfold bound_invs. change (p_fluents (with_soft P es m)) with (p_fluents P).
    apply flat_map_ext. intro fd. destruct (fd_ty fd); try reflexivity.
    rewrite arg_tuples_soft. reflexivity.
  Qed.

  Lemma invariants_ok_soft es m s : invariants_ok sc (with_soft P es m) s = invariants_ok sc P s.
  Proof.
    unfold invariants_ok. rewrite bound_invs_soft. reflexivity.
  Qed.

  Lemma step_with_soft m s a args :
    spec_step sc (with_soft P (map fst gs) m) s a args = spec_step sc P s a args.
  Proof.
    unfold spec_step.
    change (mk_interp (with_soft P (map fst gs) m) s (zip_params (a_params a) args))
      with (mk_interp P s (zip_params (a_params a) args)).
    destruct (negb (all_hold sc (mk_interp P s (zip_params (a_params a) args)) (a_pre a))); [reflexivity|].
    destruct (fired sc (mk_interp P s (zip_params (a_params a) args)) (a_effs a)) as [acts|]; [|reflexivity].
    change (spec_effects_ok (with_soft P (map fst gs) m) s acts) with (spec_effects_ok P s acts).
    destruct (negb (spec_effects_ok P s acts)); [reflexivity|].
    change (spec_succ (with_soft P (map fst gs) m) s acts) with (spec_succ P s acts).
    rewrite invariants_ok_soft. reflexivity.
  Qed.

  Lemma run_with_soft m : forall pl s,
    run (with_soft P (map fst gs) m) (spec_step sc (with_soft P (map fst gs) m)) s pl
    = run P (spec_step sc P) s pl.
  Proof.
    induction pl as [|[aid args] pl IH]; intro s; simpl; [reflexivity|].
    change (lookup_action (with_soft P (map fst gs) m) aid) with (lookup_action P aid).
    destruct (lookup_action P aid) as [a|]; [|reflexivity].
    rewrite step_with_soft. destruct (spec_step sc P s a args); auto.
  Qed.

  Lemma holds_lits I : forall (es : list expr) (m : mask), length m = length es ->
    forallb (holds sc I) (soft_lits es m)
    = match truths sc I es with Some a => mask_eqb a m | None => false end.
  Proof.
    induction es as [|g es IH]; intros m Hl; destruct m as [|b m]; simpl in Hl; try discriminate; [reflexivity|].
    injection Hl as Hl. cbn [soft_lits forallb truths].
    rewrite (IH m Hl).
    destruct b.
    - unfold holds. destruct (eval sc g I) as [[[|]|q|o]|]; simpl; try reflexivity;
        destruct (truths sc I es); reflexivity.
    - unfold holds. rewrite eval_ENot.
      destruct (eval sc g I) as [[[|]|q|o]|]; simpl; try reflexivity;
        destruct (truths sc I es); reflexivity.
  Qed.

  Lemma truths_length I : forall (es : list expr) a, truths sc I es = Some a -> length a = length es.
  Proof.
    induction es as [|g es IH]; intros a H; simpl in H.
    - inversion H. reflexivity.
    - destruct (eval sc g I) as [[b|q|o]|]; try discriminate.
      destruct (truths sc I es) as [r|] eqn:E; [|discriminate]. inversion H. simpl. f_equal. auto.
  Qed.

  Lemma valid_with_soft m pl : length m = length gs ->
    valid_plan sc (with_soft P (map fst gs) m) s0 pl
    = valid_sub _ (valid_plan sc P s0) (achieved_in sc P s0 (map fst gs)) m pl.
  Proof.
    intro Hl. unfold valid_plan, valid_sub, achieved_in. rewrite run_with_soft.
    destruct (run P (spec_step sc P) s0 pl) as [s|]; [|reflexivity].
    unfold goals_hold, all_hold.
    change (mk_interp (with_soft P (map fst gs) m) s []) with (mk_interp P s []).
    change (p_goals (with_soft P (map fst gs) m)) with (p_goals P ++ soft_lits (map fst gs) m).
    rewrite forallb_app. f_equal. apply holds_lits. rewrite map_length. exact Hl.
  Qed.

  Lemma gains_weight I : gains sc I gs = option_map (weight (map snd gs)) (truths sc I (map fst gs)).
  Proof.
    induction gs as [|[g w] l IH]; simpl; [reflexivity|].
    rewrite IH. destruct (eval sc g I) as [[b|q|o]|]; try reflexivity.
    destruct (truths sc I (map fst l)); simpl; [|reflexivity]. destruct b; reflexivity.
  Qed.

  Lemma achieved_in_length pl a : achieved_in sc P s0 (map fst gs) pl = Some a -> length a = length (map snd gs).
  Proof.
    unfold achieved_in. destruct (run P (spec_step sc P) s0 pl); [|discriminate].
    intro H. apply truths_length in H. rewrite !map_length in *. exact H.
  Qed.
End Planning.

(* final state and its gain, as the sequential validator computes them *)
Definition final_gain (sc : bool) (P : problem) (s0 : state) (gs : list (expr * Qc)) (pl : list (N * list value))
  : option Qc :=
  match run P (spec_step sc P) s0 pl with
  | Some s => gains sc (mk_interp P s []) gs
  | None => None
  end.

Lemma final_gain_gain sc P s0 gs pl :
  final_gain sc P s0 gs pl = gain _ (achieved_in sc P s0 (map fst gs)) (map snd gs) pl.
Proof.
  unfold final_gain, gain, achieved_in. destruct (run P (spec_step sc P) s0 pl); [|reflexivity].
  apply gains_weight.
Qed.

Section PlanningOptimal.
  Variable sc : bool.
  Variable P : problem.
  Variable s0 : state.
  Variable gs : list (expr * Qc).
  Definition pplan := list (N * list value).
  (* the underlying engine, as a function of the problem it is given *)
  Variable engine : problem -> status * option pplan.

  Hypothesis engine_sound : forall Q st pl, engine Q = (st, pl) -> positive st = true ->
      exists p, pl = Some p /\ valid_plan sc Q s0 p = true.
  Hypothesis engine_complete : forall Q, (exists p, valid_plan sc Q s0 p = true) -> positive (fst (engine Q)) = true.

  Definition meta_planner (m : mask) : status * option pplan := engine (with_soft P (map fst gs) m).

  (* the abstract theorem, for the subsets as masks of one bit per soft goal: on those the derived problem means
     [valid_sub] (valid_with_soft) *)
  Lemma oversub_optimal_planning_lemma : forall pl,
      oversub_solve pplan meta_planner (map snd gs) = (SolvedOpt, pl) ->
      exists p w, pl = Some p /\ valid_plan sc P s0 p = true /\ final_gain sc P s0 gs p = Some w /\
        forall p' w', valid_plan sc P s0 p' = true -> final_gain sc P s0 gs p' = Some w' -> (w' <= w)%Qc.
  Proof.
    intros pl H.
    destruct (oversub_optimal_lemma pplan meta_planner (valid_plan sc P s0) (achieved_in sc P s0 (map fst gs))
                (map snd gs)) with (pl := pl) as [p [w [-> [Hv [Hg Hmax]]]]]; [| | |exact H|].
    - intros p a. apply achieved_in_length.
    - intros m st pl0 Hl Hp Hpos. rewrite map_length in Hl.
      destruct (engine_sound _ _ _ Hp Hpos) as [p [-> Hv]]. exists p. rewrite <- valid_with_soft; auto.
    - intros m Hl. rewrite map_length in Hl. apply complete_truthful.
      intros [p Hp]. apply engine_complete. exists p. rewrite valid_with_soft; auto.
    - exists p, w. rewrite final_gain_gain. repeat split; auto.
      intros p' w' Hv' Hg'. apply (Hmax p' w' Hv'). rewrite <- final_gain_gain. exact Hg'.
  Qed.
End PlanningOptimal.

(* the statement in terms of reachable states:
   [exec p] is the final state of plan p (None when p is not executable from the initial state), so the reachable
   states are the [s] with [exec p = Some s] for some p; [hard s]: the hard goals hold in s; [truth s]: the truth
   values of the soft goals in s. *)
Section States.
  Variable plan state : Type.
  Variable exec : plan -> option state.
  Variable hard : state -> bool.
  Variable truth : state -> option mask.
  Variable ws : list Qc.
  Variable planner : mask -> status * option plan.

  Definition st_valid_hard (p : plan) : bool := match exec p with Some s => hard s | None => false end.
  Definition st_achieved (p : plan) : option mask := match exec p with Some s => truth s | None => None end.
  Definition st_gain (s : state) : option Qc := option_map (weight ws) (truth s).

  Hypothesis truth_length : forall s a, truth s = Some a -> length a = length ws.
  Hypothesis engine_sound : forall m st pl, planner m = (st, pl) -> positive st = true ->
      exists p, pl = Some p /\ valid_sub plan st_valid_hard st_achieved m p = true.
  Hypothesis engine_complete : forall m, (exists p, valid_sub plan st_valid_hard st_achieved m p = true) ->
      positive (fst (planner m)) = true.

  Lemma st_achieved_length p a : st_achieved p = Some a -> length a = length ws.
  Proof. unfold st_achieved. destruct (exec p); [apply truth_length|discriminate]. Qed.

  Lemma oversub_optimal_states : forall pl,
      oversub_solve plan planner ws = (SolvedOpt, pl) ->
      exists p s w, pl = Some p /\ exec p = Some s /\ hard s = true /\ st_gain s = Some w /\
        forall p' s' w', exec p' = Some s' -> hard s' = true -> st_gain s' = Some w' -> (w' <= w)%Qc.
  Proof.
    intros pl H.
    destruct (oversub_optimal_lemma plan planner st_valid_hard st_achieved ws st_achieved_length
                (fun m st pl _ => engine_sound m st pl)
                (fun m _ => complete_truthful plan planner st_valid_hard st_achieved m (engine_complete m)) pl H)
      as [p [w [-> [Hv [Hg Hmax]]]]].
    unfold st_valid_hard in Hv. unfold gain, st_achieved in Hg.
    destruct (exec p) as [s|] eqn:He; [|discriminate].
    exists p, s, w. repeat split; auto.
    intros p' s' w' He' Hh' Hg'. apply (Hmax p' w').
    - unfold st_valid_hard. rewrite He'. exact Hh'.
    - unfold gain, st_achieved. rewrite He'. exact Hg'.
  Qed.

  Lemma oversub_unsolvable_states : forall pl,
      oversub_solve plan planner ws = (UnsolvProven, pl) ->
      forall p' s', exec p' = Some s' -> hard s' = true -> st_gain s' = None.
  Proof.
    intros pl H p' s' He' Hh'.
    pose proof (oversub_unsolvable_lemma plan planner st_valid_hard st_achieved ws st_achieved_length
                  (fun m _ => complete_truthful plan planner st_valid_hard st_achieved m (engine_complete m)) pl H p') as Hn.
    unfold st_valid_hard, gain, st_achieved in Hn. rewrite He' in Hn. apply Hn. exact Hh'.
  Qed.

  Lemma oversub_positive_states : forall st pl,
      oversub_solve plan planner ws = (st, pl) -> positive st = true ->
      exists p s w, pl = Some p /\ exec p = Some s /\ hard s = true /\ st_gain s = Some w.
  Proof.
    intros st pl H Hpos.
    destruct (oversub_positive_sound_lemma plan planner st_valid_hard st_achieved ws
                (fun m st pl _ => engine_sound m st pl) st pl H Hpos)
      as [p [w [-> [Hv Hg]]]].
    unfold st_valid_hard in Hv. unfold gain, st_achieved in Hg.
    destruct (exec p) as [s|] eqn:He; [|discriminate].
    exists p, s, w. auto.
  Qed.
End States.

(* Proofs about Model/PddlExpr.v: the number codec, the round trip parse (print e) = norm e, and norm preserves eval. *)
From Coq Require Import List ZArith NArith QArith Qcanon Bool String Ascii Lia.
Import ListNotations.
Require Import UPV.Core.Expr UPV.Core.Eval UPV.Proofs.Eval_lemmas UPV.Model.PddlExpr UPV.Proofs.StringFacts UPV.Proofs.EvalFold.
Local Open Scope string_scope.

Lemma digit_ok d : (d < 10)%N ->
  digit_of (digit_char d) = Some d /\ Ascii.eqb (digit_char d) "." = false /\ Ascii.eqb (digit_char d) "-" = false
  /\ Ascii.eqb (digit_char d) "+" = false /\ Ascii.eqb (digit_char d) "?" = false.
Proof.
  intro H.
  assert (d = 0 \/ d = 1 \/ d = 2 \/ d = 3 \/ d = 4 \/ d = 5 \/ d = 6 \/ d = 7 \/ d = 8 \/ d = 9)%N as C by lia.
  repeat (destruct C as [C|C]; [subst d; vm_compute; auto|]). subst d; vm_compute; auto.
Qed.

Lemma pow10_pos k : (0 < pow10 k)%N.
Proof. induction k; cbn [pow10]; lia. Qed.

Lemma show_N_fuel_app fuel : forall n acc t, show_N_fuel fuel n acc ++ t = show_N_fuel fuel n (acc ++ t).
Proof.
  induction fuel as [|f IH]; intros n acc t; cbn [show_N_fuel]; [reflexivity|].
  destruct (n <? 10)%N; [reflexivity|]. rewrite IH. reflexivity.
Qed.

Lemma show_N_fuel_spec fuel : forall n acc, (n < pow10 fuel)%N ->
  exists k, forall a, num_ip a (show_N_fuel fuel n acc) = num_ip (a * pow10 k + n) acc.
Proof.
  induction fuel as [|f IH]; intros n acc Hn.
  - cbn [pow10] in Hn. exists 0%nat. intro a. cbn [show_N_fuel pow10]. f_equal. lia.
  - cbn [show_N_fuel]. destruct (N.ltb_spec n 10) as [Hlt|Hge].
    + exists 1%nat. intro a. rewrite N.mod_small by lia. cbn [num_ip].
      destruct (digit_ok n Hlt) as (D1 & D2 & _). rewrite D1, D2. f_equal. cbn [pow10]. lia.
    + cbn [pow10] in Hn.
      assert (n / 10 < pow10 f)%N as Hq by (apply N.div_lt_upper_bound; lia).
      destruct (IH (n / 10)%N (String (digit_char (n mod 10)) acc) Hq) as [k Hk].
      exists (S k). intro a. rewrite Hk. cbn [num_ip].
      assert (n mod 10 < 10)%N as Hm by (apply N.mod_lt; lia).
      destruct (digit_ok _ Hm) as (D1 & D2 & _). rewrite D1, D2. f_equal. cbn [pow10].
      pose proof (N.div_mod n 10). lia.
Qed.

Lemma pow10_ge_pow2 k : (2 ^ N.of_nat k <= pow10 k)%N.
Proof.
  induction k as [|k IH]; [cbn; lia|]. rewrite Nat2N.inj_succ, N.pow_succ_r'. cbn [pow10]. lia.
Qed.

Lemma show_N_fuel_enough n : (n < pow10 (S (N.to_nat (N.log2 n))))%N.
Proof.
  destruct (N.eq_dec n 0) as [->|Hn]; [cbn; lia|].
  assert (0 < n)%N as Hp by lia. destruct (N.log2_spec n Hp) as [_ H2].
  eapply N.lt_le_trans; [exact H2|]. etransitivity; [|apply pow10_ge_pow2].
  rewrite Nat2N.inj_succ, N2Nat.id. reflexivity.
Qed.

Lemma show_N_spec n t : exists k, forall a, num_ip a (show_N n ++ t) = num_ip (a * pow10 k + n) t.
Proof.
  unfold show_N. rewrite show_N_fuel_app. cbn [append]. apply show_N_fuel_spec, show_N_fuel_enough.
Qed.

Lemma show_N_fuel_head fuel : forall n acc, fuel <> O ->
  exists d r, (d < 10)%N /\ show_N_fuel fuel n acc = String (digit_char d) r.
Proof.
  induction fuel as [|f IH]; intros n acc Hf; [congruence|]. cbn [show_N_fuel].
  assert (n mod 10 < 10)%N as Hm by (apply N.mod_lt; lia).
  destruct (n <? 10)%N; [eauto|]. destruct f as [|f']; [cbn [show_N_fuel]; eauto|]. apply IH. congruence.
Qed.

Lemma show_N_head n t : exists d r, (d < 10)%N /\ show_N n ++ t = String (digit_char d) r.
Proof.
  unfold show_N. rewrite show_N_fuel_app. apply show_N_fuel_head. congruence.
Qed.

Lemma frac_digits_spec k : forall r acc a,
  digits_val a (frac_digits k r acc) = digits_val (a * pow10 k + r mod pow10 k) acc.
Proof.
  induction k as [|k IH]; intros r acc a; cbn [frac_digits pow10].
  - rewrite N.mod_1_r. f_equal. lia.
  - rewrite IH. cbn [digits_val].
    assert (r mod 10 < 10)%N as Hm by (apply N.mod_lt; lia).
    destruct (digit_ok _ Hm) as (D1 & _). rewrite D1. f_equal.
    pose proof (pow10_pos k). rewrite (N.mod_mul_r r 10 (pow10 k)) by lia. lia.
Qed.

Lemma frac_digits_length k : forall r acc, String.length (frac_digits k r acc) = (k + String.length acc)%nat.
Proof.
  induction k as [|k IH]; intros r acc; cbn [frac_digits]; [reflexivity|]. rewrite IH. cbn [String.length]. lia.
Qed.

Lemma parse_number_not_q s q : parse_number s = Some q -> starts_q s = false.
Proof.
  destruct s as [|c r]; [reflexivity|]. cbn [starts_q]. destruct (Ascii.eqb_spec c "?") as [->|]; [|reflexivity].
  cbn. destruct (has_digit r); discriminate.
Qed.

Lemma mkq_eq (neg : bool) M K (q : Qc) :
  ((if neg then - Z.of_N M else Z.of_N M) * Zpos (Qden (this q)) = Qnum (this q) * Z.of_N (pow10 K))%Z ->
  mkq neg M K = q.
Proof.
  intro H. apply Qc_is_canon. unfold mkq. cbn [this Q2Qc]. rewrite Qred_correct.
  unfold Qeq. cbn [Qnum Qden]. pose proof (pow10_pos K).
  rewrite Z2Pos.id by lia. exact H.
Qed.

Lemma parse_number_shape (neg : bool) ip tail :
  parse_number ((if neg then String "-" (show_N ip ++ tail) else show_N ip ++ tail)) =
  (let body := show_N ip ++ tail in
   match num_ip 0 body with
   | Some (i, None) => Some (mkq neg i 0)
   | Some (i, Some fr) => match digits_val 0 fr with
                          | Some f => Some (mkq neg (i * pow10 (String.length fr) + f) (String.length fr))
                          | None => None end
   | None => None end).
Proof.
  cbv zeta. destruct (show_N_head ip tail) as (d & r & Hd & Heq).
  destruct (digit_ok d Hd) as (D1 & D2 & D3 & D4 & D5).
  destruct neg.
  - cbn [parse_number]. change (Ascii.eqb "-" "-") with true. cbn [orb].
    rewrite Heq at 1. cbn [has_digit]. rewrite D1. reflexivity.
  - rewrite Heq at 1. cbn [parse_number]. rewrite D3, D4. cbn [orb]. cbn [has_digit]. rewrite D1.
    rewrite <- Heq. reflexivity.
Qed.

Lemma parse_number_show_Z z : parse_number (show_Z z) = Some (Q2Qc (inject_Z z)).
Proof.
  unfold show_Z.
  rewrite <- (str_app_nil_r (show_N (Z.abs_N z))).
  pose proof (parse_number_shape (z <? 0)%Z (Z.abs_N z) "") as P.
  destruct (Z.ltb_spec z 0) as [Hn|Hn]; rewrite P; cbv zeta;
    destruct (show_N_spec (Z.abs_N z) "") as [k Hk]; rewrite Hk; cbn [num_ip]; f_equal;
    apply mkq_eq; cbn [Q2Qc this]; rewrite (Qred_identity (inject_Z z)) by (cbn; apply Z.gcd_1_r);
    cbn [inject_Z Qnum Qden pow10]; rewrite N.mul_0_l, N.add_0_l, N2Z.inj_abs_N; lia.
Qed.

Lemma num_node_int z : num_node (Q2Qc (inject_Z z)) = EInt z.
Proof.
  unfold num_node. cbn [Q2Qc this]. rewrite (Qred_identity (inject_Z z)) by (cbn; apply Z.gcd_1_r).
  reflexivity.
Qed.

Lemma find_scale_spec fuel : forall k d r, find_scale fuel k d = Some r -> (pow10 r mod d = 0)%N.
Proof.
  induction fuel as [|f IH]; intros k d r; cbn [find_scale];
    destruct (N.eqb_spec (pow10 k mod d) 0) as [E|E]; intro H; try (inversion H; subst; exact E); try discriminate.
  eapply IH; eauto.
Qed.

Lemma parse_number_show_real q s : show_real q = Some s -> parse_number s = Some q.
Proof.
  unfold show_real. remember (pow10 16) as P16 eqn:HP16. clear HP16. destruct (find_scale MAX_SCALE 0 (N.pos (Qden (this q)))) as [k|] eqn:Hk; [|discriminate].
  apply find_scale_spec in Hk.
  set (n := Qnum (this q)) in *. set (d := N.pos (Qden (this q))) in *.
  set (m := (Z.abs_N n * (pow10 k / d))%N).
  destruct (strip10 400 m <? pow10 10)%N; [|discriminate].
  intro H. inversion H as [Hs]. clear H Hs.
  assert (pow10 k = d * (pow10 k / d))%N as Hdiv by (apply N.div_exact; [unfold d; lia|exact Hk]).
  pose proof (pow10_pos k) as Hpk.
  assert (Hsign : ((if (n <? 0)%Z then - Z.of_N (Z.abs_N n) else Z.of_N (Z.abs_N n)) = n)%Z).
  { rewrite N2Z.inj_abs_N. destruct (Z.ltb_spec n 0); lia. }
  assert (Hfin : forall M K, (Z.of_N M * Z.of_N d = Z.of_N (Z.abs_N n) * Z.of_N (pow10 K))%Z ->
                 mkq (n <? 0)%Z M K = q).
  { intros M K HM. apply mkq_eq. fold n. change (Z.pos (Qden (this q))) with (Z.of_N d).
    rewrite <- Hsign at 2. destruct (n <? 0)%Z; lia. }
  destruct k as [|k'].
  - (* integral value *)
    cbn [pow10] in *. rewrite N.div_1_r.
    assert (d = 1)%N as Hd1.
    { destruct (N.eq_dec d 1) as [|Hne]; [assumption|]. rewrite N.mod_small in Hk by (unfold d in *; lia). discriminate. }
    assert (m = Z.abs_N n) as Hm by (unfold m; rewrite Hd1, N.div_1_r; lia).
    destruct (m <? P16)%N.
    + rewrite (parse_number_shape (n <? 0)%Z m ".0"). cbv zeta.
      destruct (show_N_spec m ".0") as [j Hj]. rewrite Hj. cbn [num_ip]. change (Ascii.eqb "." ".") with true. cbn iota.
      cbn [digits_val String.length pow10]. change (digit_of "0") with (Some 0%N). cbn iota.
      f_equal. apply Hfin. cbn [pow10]. rewrite Hm, Hd1. lia.
    + rewrite <- (str_app_nil_r (show_N m)). rewrite (parse_number_shape (n <? 0)%Z m ""). cbv zeta.
      destruct (show_N_spec m "") as [j Hj]. rewrite Hj. cbn [num_ip]. f_equal. apply Hfin. cbn [pow10].
      rewrite Hm, Hd1. lia.
  - set (k := S k') in *.
    rewrite (parse_number_shape (n <? 0)%Z (m / pow10 k) (String "." (frac_digits k m ""))). cbv zeta.
    destruct (show_N_spec (m / pow10 k) (String "." (frac_digits k m ""))) as [j Hj]. rewrite Hj.
    cbn [num_ip]. change (Ascii.eqb "." ".") with true. cbn iota.
    rewrite frac_digits_spec, frac_digits_length. cbn [digits_val String.length]. rewrite Nat.add_0_r.
    f_equal. apply Hfin.
    rewrite !N.mul_0_l, !N.add_0_l.
    assert ((m / pow10 k) * pow10 k + m mod pow10 k = m)%N as Hm.
    { pose proof (N.div_mod m (pow10 k)). lia. }
    rewrite Hm. unfold m. rewrite Hdiv at 2. lia.
Qed.

Lemma sequence_map {A B} (f : A -> option B) (g : A -> B) l :
  (forall x, In x l -> f x = Some (g x)) -> sequence (map f l) = Some (map g l).
Proof.
  induction l as [|x l IH]; intro H; [reflexivity|]. cbn [map sequence].
  rewrite (H x (or_introl eq_refl)), IH by (intros y Hy; apply H; right; exact Hy). reflexivity.
Qed.

Ltac ands H := repeat (apply andb_true_iff in H; let H' := fresh H in destruct H as [H H']).

Section RoundTrip.
  Variable nm : naming.
  Variable E : env.
  (* the renaming is consistent: what the writer's mangling (PDDLWriter._get_mangled_name) and the declarations written
     around the expression guarantee; C18's main check covers that part on real problems *)
  Hypothesis H_fl : forall f, e_fl E (nm_fl nm f) = Some f.            (* a fluent is found under its name *)
  Hypothesis H_flkw : forall f, is_kw (nm_fl nm f) = false.            (* a fluent name is not an operator keyword *)
  Hypothesis H_obj : forall o, e_obj E (nm_obj nm o) = Some o.         (* an object is found under its name *)
  Hypothesis H_obj_fl : forall o, e_fl E (nm_obj nm o) = None.         (* an object name is not a fluent name *)
  Hypothesis H_obj_q : forall o, starts_q (nm_obj nm o) = false.       (* object names do not start with "?" *)
  Hypothesis H_par : forall p, e_par E (nm_par nm p) = Some p.         (* a parameter is found under its name *)
  Hypothesis H_var : forall v, e_var E (nm_var nm v) = Some v.         (* variables are identified by their names *)
  Hypothesis H_par_var : forall p v, nm_par nm p <> nm_var nm v.       (* parameters and variables have different names *)
  Hypothesis H_ty : forall t, e_ty E (nm_ty nm t) = Some t.            (* types_map has every user type *)
  Hypothesis H_ty_q : forall t, starts_q (nm_ty nm t) = false.         (* type names do not start with "?" *)
  Hypothesis H_num : forall s q, parse_number s = Some q -> e_fl E s = None /\ e_obj E s = None.
                                                                       (* no fluent / object is named like a number *)

  Lemma nm_var_inj v w : nm_var nm v = nm_var nm w -> v = w.
  Proof. intro H. pose proof (H_var v) as A. rewrite H, H_var in A. congruence. Qed.

  Lemma var_eqb v w : (nm_var nm v =? nm_var nm w) = (v =? w)%N.
  Proof.
    destruct (String.eqb_spec (nm_var nm v) (nm_var nm w)) as [e|e]; destruct (N.eqb_spec v w) as [e'|e']; auto.
    - apply nm_var_inj in e. contradiction.
    - subst. contradiction.
  Qed.

  Lemma assoc_scope v sc : assoc_s (nm_var nm v) (scope_names nm sc) = lookupNN v sc.
  Proof.
    induction sc as [|[w t] sc IH]; [reflexivity|]. cbn [scope_names map assoc_s lookupNN fst snd].
    rewrite var_eqb. destruct (v =? w)%N; [reflexivity|]. exact IH.
  Qed.

  Lemma assoc_scope_par p sc : assoc_s (nm_par nm p) (scope_names nm sc) = None.
  Proof.
    induction sc as [|[w t] sc IH]; [reflexivity|]. cbn [scope_names map assoc_s fst snd].
    destruct (String.eqb_spec (nm_par nm p) (nm_var nm w)) as [e|e]; [apply H_par_var in e; contradiction|]. exact IH.
  Qed.

  Lemma not_kw_minus h : is_kw h = false -> (h =? "-") = false /\ classify h = KOther.
  Proof.
    unfold is_kw. intro H. split.
    - destruct (String.eqb_spec h "-") as [->|]; [discriminate H|reflexivity].
    - destruct (classify h); try discriminate H. reflexivity.
  Qed.

  Lemma parse_op h o rest vars :
    classify h = KOp o -> (h =? "-") && Nat.eqb (List.length rest) 1 = false ->
    parse E vars (SList (Atom h :: rest)) =
    match sequence (map (parse E vars) rest) with Some args => apply_op o args | None => None end.
  Proof. intros Hc Hm. cbn [parse]. rewrite Hm, Hc. reflexivity. Qed.

  Lemma parse_fl f rest vars :
    parse E vars (SList (Atom (nm_fl nm f) :: rest)) =
    match sequence (map (parse E vars) rest) with Some args => Some (EFluent f args) | None => None end.
  Proof.
    destruct (not_kw_minus _ (H_flkw f)) as [Hm Hc]. cbn [parse]. rewrite Hm, Hc, H_fl. reflexivity.
  Qed.

  Lemma parse_quant (ex : bool) vl body vars :
    parse E vars (SList [Atom (if ex then "exists" else "forall"); SList vl; body]) =
    if forallb is_atom vl then
      match parse_vars E [] vl with
      | Some nv => match parse E (nv ++ vars)%list body with Some b => mk_quant E ex nv b | None => None end
      | None => None
      end
    else None.
  Proof. destruct ex; reflexivity. Qed.

  Lemma print_vars_atoms vs : forallb is_atom (print_vars nm vs) = true.
  Proof. induction vs as [|[v t] vs IH]; [reflexivity|]. cbn. exact IH. Qed.

  Lemma parse_print_vars vs : parse_vars E [] (print_vars nm vs) = Some (scope_names nm vs).
  Proof.
    induction vs as [|[v t] vs IH]; [reflexivity|].
    cbn [print_vars flat_map app fst snd]. fold (print_vars nm vs).
    cbn [parse_vars qvar starts_q tail_s]. change (Ascii.eqb "?" "?") with true. cbn iota.
    cbn [app parse_vars starts_q]. change (Ascii.eqb "-" "?") with false. cbn iota.
    change ("-" =? "-") with true. cbn iota. rewrite H_ty_q. unfold typed at 1. rewrite H_ty, IH. reflexivity.
  Qed.

  Lemma mem_scope v l : mem_s (nm_var nm v) (map (nm_var nm) l) = memN v l.
  Proof.
    induction l as [|w l IH]; [reflexivity|]. cbn [map mem_s memN existsb]. rewrite var_eqb.
    unfold mem_s, memN in IH. rewrite IH. reflexivity.
  Qed.

  Lemma nodup_scope vs : nodup_s (map fst (scope_names nm vs)) = nodupN (map fst vs).
  Proof.
    unfold scope_names. rewrite map_map. cbn [fst]. rewrite <- (map_map fst (nm_var nm)).
    induction (map fst vs) as [|v l IH]; [reflexivity|]. cbn [map nodup_s nodupN]. rewrite mem_scope, IH. reflexivity.
  Qed.

  Lemma seq_scope vs :
    sequence (map (fun p : string * N => option_map (fun v => (v, snd p)) (e_var E (fst p))) (scope_names nm vs)) = Some vs.
  Proof.
    induction vs as [|[v t] vs IH]; [reflexivity|]. cbn [scope_names map fst snd sequence]. rewrite H_var.
    cbn [option_map]. unfold scope_names in IH. rewrite IH. reflexivity.
  Qed.

  Lemma mk_quant_scope ex vs b : vs <> [] -> nodupN (map fst vs) = true ->
    mk_quant E ex (scope_names nm vs) b = Some (if ex then EExists vs b else EForall vs b).
  Proof.
    intros Hne Hnd. unfold mk_quant. destruct vs as [|p vs]; [congruence|].
    rewrite nodup_scope, Hnd, seq_scope. reflexivity.
  Qed.

  Definition RT (e : expr) : Prop :=
    forall sc, pddl_ok sc e = true ->
    exists s, print nm e = Some s /\ parse E (scope_names nm sc) s = Some (norm e).

  Lemma rt_list l : Forall RT l -> forall sc, forallb (pddl_ok sc) l = true ->
    exists ss, sequence (map (print nm) l) = Some ss /\
               sequence (map (parse E (scope_names nm sc)) ss) = Some (map norm l) /\
               List.length ss = List.length l.
  Proof.
    induction 1 as [|x l Hx Hl IH]; intros sc Hok.
    - exists []. auto.
    - cbn [forallb] in Hok. apply andb_true_iff in Hok as [H1 H2].
      destruct (Hx sc H1) as (s & P1 & P2). destruct (IH sc H2) as (ss & Q1 & Q2 & Q3).
      exists (s :: ss). cbn [map sequence List.length]. rewrite P1, Q1, P2, Q2, Q3. auto.
  Qed.

  Lemma seq_cons_inv {A} (x : option A) r a l : sequence (x :: r) = Some (a :: l) -> x = Some a /\ sequence r = Some l.
  Proof. cbn [sequence]. destruct x; [|discriminate]. destruct (sequence r); [|discriminate]. intro H. inversion H. auto. Qed.

  Lemma parse_chain op o mk vars :
    classify op = KOp o -> (op =? "-") = false ->
    (forall x y, apply_op o [y; x] = Some (mk [y; x])) ->
    forall r a ea er, parse E vars a = Some ea -> sequence (map (parse E vars) r) = Some er ->
    parse E vars (fold_left (fun x y => SList [Atom op; y; x]) r a) = Some (fold_left (fun x y => mk [y; x]) er ea).
  Proof.
    intros Hc Hm Hap. induction r as [|y r IH]; intros a ea er Ha Hr.
    - cbn in Hr. inversion Hr. subst. exact Ha.
    - cbn [map sequence] in Hr. destruct (parse E vars y) as [ey|] eqn:Hy; [|discriminate].
      destruct (sequence (map (parse E vars) r)) as [er'|] eqn:Hr'; [|discriminate].
      inversion Hr. subst er. cbn [fold_left]. apply IH; [|reflexivity].
      rewrite (parse_op op o) by (rewrite ?Hm; auto). cbn [map sequence]. rewrite Hy, Ha. apply Hap.
  Qed.

  Lemma rt_un op o a mk sc :
    classify op = KOp o -> (op =? "-") = false -> (forall x, apply_op o [x] = Some (mk x)) ->
    RT a -> pddl_ok sc a = true ->
    exists s, match print nm a with Some x => Some (SList [Atom op; x]) | None => None end = Some s /\
              parse E (scope_names nm sc) s = Some (mk (norm a)).
  Proof.
    intros Hc Hm Hap Ha Hok. destruct (Ha sc Hok) as (x & P1 & P2). rewrite P1. eexists; split; [reflexivity|].
    rewrite (parse_op op o) by (rewrite ?Hm; auto). cbn [map sequence]. rewrite P2. apply Hap.
  Qed.

  Lemma rt_bin op o a b mk sc :
    classify op = KOp o -> (forall x y, apply_op o [x; y] = Some (mk x y)) ->
    RT a -> RT b -> pddl_ok sc a = true -> pddl_ok sc b = true ->
    exists s, match print nm a, print nm b with Some x, Some y => Some (SList [Atom op; x; y]) | _, _ => None end = Some s /\
              parse E (scope_names nm sc) s = Some (mk (norm a) (norm b)).
  Proof.
    intros Hc Hap Ha Hb Hoa Hob. destruct (Ha sc Hoa) as (x & P1 & P2). destruct (Hb sc Hob) as (y & Q1 & Q2).
    rewrite P1, Q1. eexists; split; [reflexivity|].
    rewrite (parse_op op o) by (auto; cbn [List.length Nat.eqb]; apply andb_false_r).
    cbn [map sequence]. rewrite P2, Q2. apply Hap.
  Qed.

  Lemma ge2_len {A B} (l : list A) (m : list B) : List.length m = List.length l -> ge2 l = true -> exists a b r, m = a :: b :: r.
  Proof.
    destruct l as [|? [|? ?]]; try discriminate. destruct m as [|x [|y r]]; try discriminate. eauto.
  Qed.

  Lemma rt_quant (ex : bool) vs a sc : RT a ->
    match vs with [] => false | _ => nodupN (map fst vs) && pddl_ok (vs ++ sc) a end = true ->
    exists s, match print nm a with
              | Some x => Some (SList [Atom (if ex then "exists" else "forall"); SList (print_vars nm vs); x])
              | None => None end = Some s /\
              parse E (scope_names nm sc) s = Some (if ex then EExists vs (norm a) else EForall vs (norm a)).
  Proof.
    intros Ha Hok. assert (vs <> []) as Hne by (destruct vs; [discriminate|congruence]).
    assert (nodupN (map fst vs) && pddl_ok (vs ++ sc) a = true) as Hok' by (destruct vs; [congruence|exact Hok]).
    apply andb_true_iff in Hok' as [Hnd Hb]. destruct (Ha _ Hb) as (x & P1 & P2). rewrite P1.
    eexists; split; [reflexivity|]. rewrite parse_quant, print_vars_atoms, parse_print_vars.
    unfold scope_names in P2. rewrite map_app in P2. fold (scope_names nm vs) (scope_names nm sc) in P2.
    rewrite P2. apply mk_quant_scope; assumption.
  Qed.

  Theorem roundtrip_sc : forall e, RT e.
  Proof.
    induction e using expr_ind'; intros sc Hok; cbn [pddl_ok] in Hok; try discriminate Hok.
    - (* EInt *) eexists; split; [reflexivity|]. cbn [parse]. unfold parse_atom.
      pose proof (parse_number_show_Z z) as Hn. rewrite (parse_number_not_q _ _ Hn).
      destruct (H_num _ _ Hn) as [A B]. rewrite A, B, Hn. cbn [option_map norm]. rewrite num_node_int. reflexivity.
    - (* EReal *) cbn [print]. destruct (show_real q) as [s|] eqn:Hs; [|discriminate]. eexists; split; [reflexivity|].
      cbn [parse]. unfold parse_atom. pose proof (parse_number_show_real _ _ Hs) as Hn.
      rewrite (parse_number_not_q _ _ Hn). destruct (H_num _ _ Hn) as [A B]. rewrite A, B, Hn. reflexivity.
    - (* EObj *) eexists; split; [reflexivity|]. cbn [parse]. unfold parse_atom.
      rewrite H_obj_q, H_obj_fl, H_obj. reflexivity.
    - (* EParam *) eexists; split; [reflexivity|]. cbn [parse]. unfold parse_atom, qpar. cbn [starts_q tail_s].
      change (Ascii.eqb "?" "?") with true. cbn iota. rewrite assoc_scope_par, H_par. reflexivity.
    - (* EVar *) eexists; split; [reflexivity|]. cbn [parse]. unfold parse_atom, qvar. cbn [starts_q tail_s].
      change (Ascii.eqb "?" "?") with true. cbn iota. rewrite assoc_scope, H_var.
      destruct (lookupNN v sc) as [ty'|]; [|discriminate]. apply N.eqb_eq in Hok. subst. reflexivity.
    - (* EFluent *) destruct (rt_list _ H sc Hok) as (ss & Q1 & Q2 & _). cbn [print]. rewrite Q1.
      eexists; split; [reflexivity|]. rewrite parse_fl, Q2. reflexivity.
    - (* EAnd *) ands Hok. destruct (rt_list _ H sc Hok0) as (ss & Q1 & Q2 & Q3). cbn [print]. rewrite Q1.
      destruct (ge2_len l ss Q3 Hok) as (a & b & r & ->). eexists; split; [reflexivity|].
      rewrite (parse_op "and" OAnd) by reflexivity. rewrite Q2. reflexivity.
    - (* EOr *) ands Hok. destruct (rt_list _ H sc Hok0) as (ss & Q1 & Q2 & Q3). cbn [print]. rewrite Q1.
      destruct (ge2_len l ss Q3 Hok) as (a & b & r & ->). eexists; split; [reflexivity|].
      rewrite (parse_op "or" OOr) by reflexivity. rewrite Q2. reflexivity.
    - (* ENot *) ands Hok. cbn [print norm]. apply (rt_un "not" ONot e mkNot); auto.
    - (* EImplies *) ands Hok. cbn [print norm]. apply (rt_bin "imply" OImply e1 e2 EImplies); auto.
    - (* EIff *) ands Hok. destruct (IHe1 sc Hok) as (x & P1 & P2). destruct (IHe2 sc Hok0) as (y & R1 & R2).
      cbn [print norm]. rewrite P1, R1. eexists; split; [reflexivity|].
      rewrite (parse_op "and" OAnd) by reflexivity. cbn [map sequence].
      rewrite !(parse_op "imply" OImply) by reflexivity. cbn [map sequence]. rewrite P2, R2. reflexivity.
    - (* EExists *) cbn [print norm]. apply (rt_quant true); assumption.
    - (* EForall *) cbn [print norm]. apply (rt_quant false); assumption.
    - (* EPlus *) ands Hok. destruct (rt_list _ H sc Hok0) as (ss & Q1 & Q2 & Q3). cbn [print norm]. rewrite Q1.
      destruct (ge2_len l ss Q3 Hok) as (a & b & r & ->). cbn [chain]. eexists; split; [reflexivity|].
      destruct l as [|la [|lb lr]]; try discriminate. cbn [map] in Q2. apply seq_cons_inv in Q2 as [Ea Er].
      exact (parse_chain "+" OPlus EPlus _ eq_refl eq_refl (fun x y => eq_refl) (b :: r) a _ _ Ea Er).
    - (* EMinus *) ands Hok. cbn [print norm]. apply (rt_bin "-" OMinus e1 e2 EMinus); auto.
    - (* ETimes *) ands Hok. destruct (rt_list _ H sc Hok0) as (ss & Q1 & Q2 & Q3). cbn [print norm]. rewrite Q1.
      destruct (ge2_len l ss Q3 Hok) as (a & b & r & ->). cbn [chain]. eexists; split; [reflexivity|].
      destruct l as [|la [|lb lr]]; try discriminate. cbn [map] in Q2. apply seq_cons_inv in Q2 as [Ea Er].
      exact (parse_chain "*" OTimes ETimes _ eq_refl eq_refl (fun x y => eq_refl) (b :: r) a _ _ Ea Er).
    - (* EDiv *) ands Hok. cbn [print norm]. apply (rt_bin "/" ODiv e1 e2 EDiv); auto.
    - (* ELe *) ands Hok. cbn [print norm]. apply (rt_bin "<=" OLe e1 e2 ELe); auto.
    - (* ELt *) ands Hok. cbn [print norm]. apply (rt_bin "<" OLt e1 e2 ELt); auto.
    - (* EEquals *) ands Hok. cbn [print norm]. apply (rt_bin "=" OEq e1 e2 EEquals); auto.
  Qed.

  Theorem roundtrip e : pddl_ok [] e = true ->
    exists s, print nm e = Some s /\ parse E [] s = Some (norm e).
  Proof. intro H. exact (roundtrip_sc e [] H). Qed.
End RoundTrip.

Definition pref_nm (c : ascii) (n : N) : string := String c (show_N n).
Definition pref_env (c : ascii) (s : string) : option N :=
  match s with
  | String c' r => if Ascii.eqb c' c then match num_ip 0 r with Some (n, None) => Some n | _ => None end else None
  | EmptyString => None
  end.

Lemma pref_ok c n : pref_env c (pref_nm c n) = Some n.
Proof.
  unfold pref_env, pref_nm. rewrite Ascii.eqb_refl. destruct (show_N_spec n "") as [k Hk].
  rewrite str_app_nil_r in Hk. rewrite Hk, N.mul_0_l, N.add_0_l. reflexivity.
Qed.

Lemma pref_other c c' r : c' <> c -> pref_env c (String c' r) = None.
Proof. intro H. unfold pref_env. destruct (Ascii.eqb_spec c' c); [contradiction|reflexivity]. Qed.

Definition ex_nm : naming :=
  {| nm_fl := pref_nm "x"; nm_obj := pref_nm "b"; nm_par := pref_nm "p"; nm_var := pref_nm "v"; nm_ty := pref_nm "t" |}.
Definition ex_env : env :=
  {| e_fl := pref_env "x"; e_obj := pref_env "b"; e_par := pref_env "p"; e_var := pref_env "v"; e_ty := pref_env "t" |}.

Lemma ex_num s q : parse_number s = Some q -> e_fl ex_env s = None /\ e_obj ex_env s = None.
Proof.
  destruct s as [|c r]; [discriminate|]. intro H. cbn [ex_env e_fl e_obj].
  assert (forall l : ascii, (l = "x" \/ l = "b")%char -> c <> l) as Hc.
  { intros l Hl e. subst c. destruct Hl as [-> | ->]; cbn in H; destruct (has_digit _); discriminate. }
  split; apply pref_other, Hc; auto.
Qed.

Definition ex_roundtrip :=
  roundtrip ex_nm ex_env (pref_ok "x") (fun f => eq_refl) (pref_ok "b") (fun o => eq_refl) (fun o => eq_refl)
            (pref_ok "p") (pref_ok "v") (fun p v (H : pref_nm "p" p = pref_nm "v" v) => ltac:(discriminate H))
            (pref_ok "t") (fun t => eq_refl) ex_num.

Section NormSem.
  Variable qm : bool.   (* quantifier mode of Core/Eval: false = strict, true = short-circuit; the result holds for both *)

  Definition SEM (e : expr) : Prop := forall sc I, pddl_ok sc e = true -> eval qm (norm e) I = eval qm e I.

  Lemma norm_all l sc I : Forall SEM l -> forallb (pddl_ok sc) l = true ->
    Forall (fun x => eval qm (norm x) I = eval qm x I) l.
  Proof. intros H Hok. rewrite forallb_forall in Hok. rewrite Forall_forall in *. intros x Hx. exact (H x Hx sc I (Hok x Hx)). Qed.

  Lemma fold_not mk r : (forall l, is_not (mk l) = false) ->
    forall a, is_not a = false -> is_not (fold_left (fun x y => mk [y; x]) r a) = false.
  Proof. intro Hmk. induction r as [|y r IH]; intros a Ha; cbn [fold_left]; auto. Qed.

  Lemma norm_not sc a : pddl_ok sc a = true -> is_not a = false -> is_not (norm a) = false.
  Proof.
    destruct a; cbn [pddl_ok norm is_not]; intros Hok Hn; try reflexivity; try discriminate.
    - unfold num_node. destruct (_ =? _)%Z; reflexivity.
    - destruct l as [|x [|y r]]; try discriminate Hok; reflexivity.
    - destruct l as [|x [|y r]]; try discriminate Hok; reflexivity.
    - destruct l as [|x [|y r]]; try discriminate Hok. cbn [map rchain fold_left]. apply fold_not; reflexivity.
    - destruct l as [|x [|y r]]; try discriminate Hok. cbn [map rchain fold_left]. apply fold_not; reflexivity.
  Qed.

  Lemma mkNot_not x : is_not x = false -> mkNot x = ENot x.
  Proof. destruct x; intro H; try reflexivity; discriminate H. Qed.

  Theorem norm_sem : forall e, SEM e.
  Proof.
    induction e using expr_ind'; intros sc I Hok; cbn [pddl_ok] in Hok; try discriminate Hok; cbn [norm]; try reflexivity.
    - (* EReal *) apply eval_num_node.
    - (* EFluent *) rewrite !eval_EFluent, (proj1 (map_eval_same qm I norm _ (norm_all _ sc I H Hok))). reflexivity.
    - (* EAnd *) ands Hok. destruct l as [|x [|y r]]; try discriminate Hok.
      change (mkAnd (map norm (x :: y :: r))) with (EAnd (map norm (x :: y :: r))).
      rewrite !eval_EAnd, (proj1 (proj2 (map_eval_same qm I norm _ (norm_all _ sc I H Hok0)))). reflexivity.
    - (* EOr *) ands Hok. destruct l as [|x [|y r]]; try discriminate Hok.
      change (mkOr (map norm (x :: y :: r))) with (EOr (map norm (x :: y :: r))).
      rewrite !eval_EOr, (proj1 (proj2 (map_eval_same qm I norm _ (norm_all _ sc I H Hok0)))). reflexivity.
    - (* ENot *) ands Hok. apply negb_true_iff in Hok. rewrite (mkNot_not _ (norm_not sc e Hok0 Hok)).
      rewrite !eval_ENot, (IHe sc I Hok0). reflexivity.
    - (* EImplies *) ands Hok. rewrite !eval_EImplies, (IHe1 sc I Hok), (IHe2 sc I Hok0). reflexivity.
    - (* EIff *) ands Hok. rewrite eval_EAnd. cbn [ebools]. rewrite !eval_EImplies, (IHe1 sc I Hok), (IHe2 sc I Hok0), eval_EIff.
      destruct (as_bool (eval qm e1 I)) as [[|]|]; destruct (as_bool (eval qm e2 I)) as [[|]|]; reflexivity.
    - (* EExists *) destruct vs as [|p vs]; [discriminate Hok|]. ands Hok. rewrite !eval_EExists.
      rewrite (map_ext _ (fun J => as_bool (eval qm e J)) (fun J => f_equal as_bool (IHe _ J Hok0))). reflexivity.
    - (* EForall *) destruct vs as [|p vs]; [discriminate Hok|]. ands Hok. rewrite !eval_EForall.
      rewrite (map_ext _ (fun J => as_bool (eval qm e J)) (fun J => f_equal as_bool (IHe _ J Hok0))). reflexivity.
    - (* EPlus *) ands Hok. destruct l as [|a [|b r]]; try discriminate Hok. cbn [map rchain].
      rewrite (eval_fold_plus qm I _ _ (norm a) (fun x y => or_intror eq_refl)) by discriminate. change (norm a :: norm b :: map norm r) with (map norm (a :: b :: r)).
      rewrite !eval_EPlus, (proj2 (proj2 (map_eval_same qm I norm _ (norm_all _ sc I H Hok0)))). reflexivity.
    - (* EMinus *) ands Hok. rewrite !eval_EMinus, (IHe1 sc I Hok), (IHe2 sc I Hok0). reflexivity.
    - (* ETimes *) ands Hok. destruct l as [|a [|b r]]; try discriminate Hok. cbn [map rchain].
      rewrite (eval_fold_times qm I _ _ (norm a) (fun x y => or_intror eq_refl)) by discriminate. change (norm a :: norm b :: map norm r) with (map norm (a :: b :: r)).
      rewrite !eval_ETimes, (proj2 (proj2 (map_eval_same qm I norm _ (norm_all _ sc I H Hok0)))). reflexivity.
    - (* EDiv *) ands Hok. rewrite !eval_EDiv, (IHe1 sc I Hok), (IHe2 sc I Hok0). reflexivity.
    - (* ELe *) ands Hok. rewrite !eval_ELe, (IHe1 sc I Hok), (IHe2 sc I Hok0). reflexivity.
    - (* ELt *) ands Hok. rewrite !eval_ELt, (IHe1 sc I Hok), (IHe2 sc I Hok0). reflexivity.
    - (* EEquals *) ands Hok. rewrite !eval_EEquals, (IHe1 sc I Hok), (IHe2 sc I Hok0). reflexivity.
  Qed.
End NormSem.

(* Semantic infrastructure for the soundness of the simplifier (strict quantifier semantics, [eval false]):
   coincidence lemma, the instances of a quantifier as typed assignments, strict q_fold as a set-like fold,
   refinement ("defined values are preserved") and its congruence through every constructor. *)
From Coq Require Import List ZArith NArith QArith Qcanon Bool Lia.
Import ListNotations.
Require Import UPV.Core.Expr UPV.Core.Eval UPV.Proofs.Eval_lemmas UPV.Proofs.ExprView UPV.Proofs.EvalView UPV.Proofs.ListFacts UPV.Walkers.Simplify UPV.Proofs.Simplify_base.
Local Open Scope nat_scope.

Definition ieq (I J : interp) : Prop :=
  (forall f a, fl I f a = fl J f a) /\ (forall p, par I p = par J p) /\
  (forall f a, ifun I f a = ifun J f a) /\ (forall t, objs I t = objs J t).

Definition agree (P : N -> Prop) (I J : interp) : Prop := ieq I J /\ forall w, P w -> var I w = var J w.
Definition iext (I J : interp) : Prop := agree (fun _ => True) I J.

Lemma ieq_refl I : ieq I I. Proof. repeat split. Qed.
Lemma ieq_sym I J : ieq I J -> ieq J I.
Proof. intros (A & B & C & D). repeat split; intros; symmetry; auto. Qed.
Lemma ieq_trans I J K : ieq I J -> ieq J K -> ieq I K.
Proof. intros (A & B & C & D) (A' & B' & C' & D'). repeat split; intros; etransitivity; eauto. Qed.
Lemma ieq_bind I J v o : ieq I J -> ieq (bind_var I v o) (bind_var J v o).
Proof. intros (A & B & C & D). repeat split; simpl; auto. Qed.
Lemma iext_refl I : iext I I. Proof. split; [apply ieq_refl|auto]. Qed.
Lemma iext_sym I J : iext I J -> iext J I.
Proof. intros [A B]. split; [apply ieq_sym; exact A|]. intros; symmetry; auto. Qed.
Lemma iext_trans I J K : iext I J -> iext J K -> iext I K.
Proof. intros [A B] [A' B']. split; [eapply ieq_trans; eauto|]. intros w _; transitivity (var J w); [apply B|apply B']; exact Logic.I. Qed.

Lemma Forall2_flat_map {A B C} (R : B -> C -> Prop) (f : A -> list B) (g : A -> list C) l :
  (forall x, In x l -> Forall2 R (f x) (g x)) -> Forall2 R (flat_map f l) (flat_map g l).
Proof.
  induction l as [|x l IH]; intros H; [constructor|].
  cbn [flat_map]. apply Forall2_app; [apply H; left; reflexivity|]. apply IH. intros y Hy. apply H. right. exact Hy.
Qed.

Lemma inst_agree (P : N -> Prop) vs : forall I J,
  ieq I J -> (forall w, P w -> ~ In w (map fst vs) -> var I w = var J w) ->
  Forall2 (agree P) (instances I vs) (instances J vs).
Proof.
  induction vs as [|[v ty] vs IH]; intros I J HE HV; cbn [instances].
  - constructor; [|constructor]. split; [exact HE|]. intros w Hw. apply HV; [exact Hw|]. simpl. tauto.
  - assert (Ho : objs I ty = objs J ty) by apply HE. rewrite <- Ho.
    apply Forall2_flat_map. intros o _. apply IH; [apply ieq_bind; exact HE|].
    intros w Hw Hn. simpl. destruct (w =? v)%N eqn:E; [reflexivity|].
    apply HV; [exact Hw|]. simpl. apply N.eqb_neq in E. intros [H|H]; [congruence|tauto].
Qed.

Lemma agree_mono (P Q : N -> Prop) I J : (forall w, Q w -> P w) -> agree P I J -> agree Q I J.
Proof. intros H [A B]. split; [exact A|]. intros w Hw. apply B, H, Hw. Qed.

Lemma Forall2_diag {A} (P : A -> A -> Prop) l : (forall x, In x l -> P x x) -> Forall2 P l l.
Proof. induction l as [|a l IH]; intros H; constructor; [apply H; left; reflexivity|apply IH; intros; apply H; right; assumption]. Qed.

Lemma eval_coincide sc e : forall I J, agree (fun w => In w (free_vars e)) I J -> eval sc e I = eval sc e J.
Proof.
  induction e using expr_view_ind; intros I J HA.
  - destruct e; try discriminate; try reflexivity; simpl; apply HA. left. reflexivity.
  - rewrite !eval_E1. rewrite fv_E1 in HA. rewrite (IHe I J HA). reflexivity.
  - rewrite !eval_E2. rewrite fv_E2 in HA.
    rewrite (IHe1 I J (agree_mono _ _ _ _ (fun w Hw => in_or_app _ _ w (or_introl Hw)) HA)),
            (IHe2 I J (agree_mono _ _ _ _ (fun w Hw => in_or_app _ _ w (or_intror Hw)) HA)). reflexivity.
  - rewrite !eval_En. rewrite fvl_En in HA. apply semn_ext; [|intros; apply HA..].
    apply Forall2_diag. intros x Hx. rewrite Forall_forall in H. apply (H x Hx).
    eapply agree_mono; [|exact HA]. intros w Hw. apply in_fvl. eauto.
  - rewrite !eval_EQ. rewrite fv_EQ in HA.
    assert (HI : Forall2 (agree (fun w => In w (free_vars e))) (instances I vs) (instances J vs)).
    { apply inst_agree; [exact (proj1 HA)|]. intros w Hw Hn. apply HA, in_fv_quant. tauto. }
    rewrite (Forall2_map_eq _ (fun K => as_bool (eval sc e K)) (fun K => as_bool (eval sc e K)) _ _ HI); [reflexivity|].
    intros I' J' HA'. rewrite (IHe I' J' HA'). reflexivity.
Qed.

Lemma eval_iext sc e I J : iext I J -> eval sc e I = eval sc e J.
Proof. intros H. apply eval_coincide. eapply agree_mono; [|exact H]. intros; exact Logic.I. Qed.

Lemma qf_all_def stop rs b : q_fold false stop rs = Some b -> Forall (fun r => r <> None) rs.
Proof.
  revert b. induction rs as [|r rs IH]; intros b H; [constructor|].
  cbn [q_fold] in H. destruct r as [x|]; [|discriminate].
  constructor; [discriminate|].
  destruct (Bool.eqb x stop).
  - destruct (q_fold false stop rs) eqn:E; [eapply IH; reflexivity|discriminate].
  - eapply IH; exact H.
Qed.

Lemma qf_stop_iff stop rs :
  q_fold false stop rs = Some stop <-> Forall (fun r => r <> None) rs /\ In (Some stop) rs.
Proof.
  induction rs as [|r rs IH]; cbn [q_fold].
  - split; [intros H; inversion H; destruct stop; discriminate | intros [_ []]].
  - destruct r as [x|].
    + destruct (Bool.eqb x stop) eqn:E.
      * apply Bool.eqb_prop in E. subst x. split.
        -- intros H. destruct (q_fold false stop rs) eqn:Q; [|discriminate].
           split; [constructor; [discriminate|eapply qf_all_def; exact Q] | left; reflexivity].
        -- intros [HF _]. inversion HF; subst.
           destruct (q_fold false stop rs) eqn:Q; [reflexivity|].
           exfalso. clear -Q H2. induction rs as [|r rs IH]; [discriminate|].
           inversion H2; subst. cbn [q_fold] in Q. destruct r as [y|]; [|congruence].
           destruct (Bool.eqb y stop); [destruct (q_fold false stop rs); [discriminate|auto] | auto].
      * rewrite IH. split.
        -- intros [HF HI]. split; [constructor; [discriminate|exact HF] | right; exact HI].
        -- intros [HF HI]. inversion HF; subst. split; [assumption|].
           destruct HI as [HI|HI]; [|exact HI]. inversion HI; subst. rewrite Bool.eqb_reflx in E. discriminate.
    + split; [discriminate|]. intros [HF _]. inversion HF; subst. congruence.
Qed.

Lemma qf_nstop_iff stop rs :
  q_fold false stop rs = Some (negb stop) <-> Forall (fun r => r = Some (negb stop)) rs.
Proof.
  induction rs as [|r rs IH]; cbn [q_fold].
  - split; [constructor|reflexivity].
  - destruct r as [x|].
    + destruct (Bool.eqb x stop) eqn:E.
      * apply Bool.eqb_prop in E. subst x. split.
        -- intros H. destruct (q_fold false stop rs); [inversion H; destruct stop; discriminate|discriminate].
        -- intros HF. inversion HF; subst. inversion H1. destruct stop; discriminate.
      * rewrite IH. apply Bool.eqb_false_iff in E. split.
        -- intros HF. constructor; [|exact HF]. f_equal. destruct x, stop; simpl; congruence.
        -- intros HF. inversion HF; assumption.
    + split; [discriminate|]. intros HF. inversion HF; discriminate.
Qed.

Lemma qf_refine {A B} stop (L1 : list A) (L2 : list B) (F : A -> option bool) (F' : B -> option bool) b :
  q_fold false stop (map F L1) = Some b ->
  (forall J', In J' L2 -> exists J, In J L1 /\ forall c, F J = Some c -> F' J' = Some c) ->
  (forall J, In J L1 -> F J = Some stop -> exists J', In J' L2 /\ F' J' = Some stop) ->
  q_fold false stop (map F' L2) = Some b.
Proof.
  intros H H1 H2.
  assert (Hd := qf_all_def _ _ _ H). rewrite Forall_forall in Hd.
  destruct (Bool.eqb b stop) eqn:E.
  - apply Bool.eqb_prop in E. subst b. apply qf_stop_iff in H. destruct H as [_ HI].
    apply qf_stop_iff. split.
    + apply Forall_forall. intros r Hr. apply in_map_iff in Hr. destruct Hr as [J' [<- HJ']].
      destruct (H1 _ HJ') as [J [HJ HF]].
      destruct (F J) as [c|] eqn:EF; [rewrite (HF _ eq_refl); discriminate|].
      exfalso. apply (Hd (F J)); [apply in_map; exact HJ|exact EF].
    + apply in_map_iff in HI. destruct HI as [J [EJ HJ]].
      destruct (H2 _ HJ EJ) as [J' [HJ' EF']]. rewrite <- EF'. apply in_map. exact HJ'.
  - assert (b = negb stop) by (destruct b, stop; simpl in *; congruence). subst b.
    apply qf_nstop_iff in H. rewrite Forall_forall in H.
    apply qf_nstop_iff. apply Forall_forall. intros r Hr. apply in_map_iff in Hr. destruct Hr as [J' [<- HJ']].
    destruct (H1 _ HJ') as [J [HJ HF]]. apply HF. apply H. apply in_map. exact HJ.
Qed.

Definition same_base (I J : interp) : Prop :=
  fl J = fl I /\ par J = par I /\ ifun J = ifun I /\ objs J = objs I.

Lemma same_base_refl I : same_base I I. Proof. repeat split. Qed.
Lemma same_base_ieq I J : same_base I J -> ieq I J.
Proof. intros (A & B & C & D). repeat split; intros; rewrite ?A, ?B, ?C, ?D; reflexivity. Qed.

(* the variable assignment of an instance: g on the bound variables, I elsewhere *)
Definition assigns (I : interp) (vs : list (N * N)) (g : N -> N) (J : interp) : Prop :=
  same_base I J /\ forall w, var J w = if memN w (map fst vs) then Some (VObj (g w)) else var I w.
Definition typed_for (I : interp) (vs : list (N * N)) (g : N -> N) : Prop :=
  forall p, In p vs -> In (g (fst p)) (objs I (snd p)).

Lemma inst_complete vs : NoDup (map fst vs) -> forall I g, typed_for I vs g ->
  exists J, In J (instances I vs) /\ assigns I vs g J.
Proof.
  induction vs as [|[v ty] vs IH]; intros ND I g HT; cbn [instances].
  - exists I. split; [left; reflexivity|]. split; [apply same_base_refl|]. intros w. reflexivity.
  - inversion ND; subst.
    assert (Ho : In (g v) (objs I ty)) by (apply (HT (v, ty)); left; reflexivity).
    destruct (IH H2 (bind_var I v (g v)) g) as [J [HJ [HB HV]]].
    { intros p Hp. simpl. apply HT. right. exact Hp. }
    exists J. split; [apply in_flat_map; exists (g v); split; assumption|].
    split; [exact HB|]. intros w. rewrite HV. cbn [map fst memN existsb].
    fold (memN w (map fst vs)).
    destruct (w =? v)%N eqn:E.
    + apply N.eqb_eq in E. subst w. simpl. rewrite N.eqb_refl.
      destruct (memN v (map fst vs)) eqn:M; [reflexivity|reflexivity].
    + simpl. rewrite E. reflexivity.
Qed.

Lemma inst_sound vs : NoDup (map fst vs) -> forall I J, In J (instances I vs) ->
  exists g, typed_for I vs g /\ assigns I vs g J.
Proof.
  induction vs as [|[v ty] vs IH]; intros ND I J HJ; cbn [instances] in HJ.
  - destruct HJ as [<-|[]]. exists (fun _ => 0%N). split; [intros p []|].
    split; [apply same_base_refl|]. intros w. reflexivity.
  - inversion ND; subst. apply in_flat_map in HJ. destruct HJ as [o [Ho HJ]].
    destruct (IH H2 _ _ HJ) as [g [HT [HB HV]]].
    exists (fun w => if (w =? v)%N then o else g w). split.
    + intros p [<-|Hp]; simpl; [rewrite N.eqb_refl; exact Ho|].
      destruct (fst p =? v)%N eqn:E.
      * apply N.eqb_eq in E. exfalso. apply H1. rewrite <- E. apply in_map. exact Hp.
      * apply (HT p Hp).
    + split; [exact HB|]. intros w. rewrite HV. cbn [map fst memN existsb]. fold (memN w (map fst vs)).
      destruct (w =? v)%N eqn:E.
      * apply N.eqb_eq in E. subst w. simpl.
        destruct (memN v (map fst vs)) eqn:M; [apply memN_In in M; tauto|]. rewrite N.eqb_refl. reflexivity.
      * simpl. rewrite E. reflexivity.
Qed.

Lemma assigns_iext I vs g J J' : assigns I vs g J -> assigns I vs g J' -> iext J J'.
Proof.
  intros [B V] [B' V']. split.
  - eapply ieq_trans; [apply ieq_sym, same_base_ieq; exact B|apply same_base_ieq; exact B'].
  - intros w _. rewrite V, V'. reflexivity.
Qed.

Definition R (I I' : interp) (a a' : expr) : Prop := forall v, eval false a I = Some v -> eval false a' I' = Some v.

Lemma R_refl I a : R I I a a. Proof. intros v H; exact H. Qed.
Lemma R_trans I I' I'' a b c : R I I' a b -> R I' I'' b c -> R I I'' a c.
Proof. intros H1 H2 v H. apply H2, H1, H. Qed.

Lemma R_as_bool I I' a a' b : R I I' a a' -> as_bool (eval false a I) = Some b -> as_bool (eval false a' I') = Some b.
Proof. intros H E. destruct (eval false a I) as [[x|x|x]|] eqn:A; try discriminate. rewrite (H _ A). exact E. Qed.

(* congruence through the constructors: a defined node has defined children (strictness), and these keep their values *)
Lemma R_eq I I' a a' : R I I' a a' -> eval false a I <> None -> eval false a I = eval false a' I'.
Proof. intros H D. destruct (eval false a I) as [v|] eqn:A; [symmetry; exact (H v A)|contradiction]. Qed.

Lemma cong_E1 I I' o a a' : R I I' a a' -> R I I' (E1 o a) (E1 o a').
Proof.
  intros H v. rewrite !eval_E1. intros E. rewrite <- (R_eq _ _ _ _ H (sem1_strict _ _ _ E)). exact E.
Qed.

Lemma cong_E2 I I' o a a' b b' : R I I' a a' -> R I I' b b' -> R I I' (E2 o a b) (E2 o a' b').
Proof.
  intros H1 H2 v. rewrite !eval_E2. intros E. destruct (sem2_strict _ _ _ _ E) as [Da Db].
  rewrite <- (R_eq _ _ _ _ H1 Da), <- (R_eq _ _ _ _ H2 Db). exact E.
Qed.

Lemma cong_En I I' o l l' :
  (forall f vs, o = NFluent f -> fl I f vs = fl I' f vs) -> (forall f vs, o = NIFun f -> ifun I f vs = ifun I' f vs) ->
  Forall2 (R I I') l l' -> R I I' (En o l) (En o l').
Proof.
  intros Hf Hi H v. rewrite !eval_En. intros E. rewrite <- E. symmetry. apply semn_ext; [|exact Hf|exact Hi].
  pose proof (semn_strict _ _ _ _ _ E) as D. clear E.
  induction H as [|x y l l' Hxy _ IH]; [constructor|]. inversion D; subst.
  constructor; [apply R_eq; assumption|apply IH; assumption].
Qed.

(* quantifiers, generically *)
Lemma cong_EQ ex I I' vs vs' a a' :
  (forall J', In J' (instances I' vs') -> exists J, In J (instances I vs) /\ R J J' a a') ->
  (forall J, In J (instances I vs) -> exists J', In J' (instances I' vs') /\ R J J' a a') ->
  R I I' (EQ ex vs a) (EQ ex vs' a').
Proof.
  intros H1 H2 v. rewrite !eval_EQ.
  destruct (q_fold false ex (map (fun J => as_bool (eval false a J)) (instances I vs))) as [b|] eqn:Q; [|discriminate].
  intros E. rewrite (qf_refine ex _ _ _ (fun J' => as_bool (eval false a' J')) b Q); [exact E| |].
  - intros J' HJ'. destruct (H1 _ HJ') as [J [HJ HR]]. exists J. split; [exact HJ|].
    intros c Hc. eapply R_as_bool; eauto.
  - intros J HJ Hs. destruct (H2 _ HJ) as [J' [HJ' HR]]. exists J'. split; [exact HJ'|]. eapply R_as_bool; eauto.
Qed.

Lemma zq_0_plus q : (q + zq 0 = q)%Qc. Proof. change (zq 0) with 0%Qc. ring. Qed.
Lemma zq_1_mult q : (q * zq 1 = q)%Qc. Proof. change (zq 1) with 1%Qc. ring. Qed.

(* the smart constructors refine the plain ones: a junction or a sum of one argument has the value of the argument *)
Lemma semn_single sc I o x v : is_app o = false -> semn sc I o [x] = Some v -> eval sc x I = Some v.
Proof.
  destruct o; try discriminate; intros _; cbn [semn ebools enums].
  1,2: destruct (as_bool (eval sc x I)) as [b|] eqn:A; [|discriminate]; intros H; inversion H; subst; cbn;
       rewrite ?andb_true_r, ?orb_false_r; apply as_bool_some, A.
  - destruct (as_num (eval sc x I)) as [q|] eqn:A; [|discriminate]. intros H; inversion H; subst. cbn.
    rewrite zq_0_plus. apply as_num_some, A.
  - destruct (as_num (eval sc x I)) as [q|] eqn:A; [|discriminate]. intros H; inversion H; subst. cbn.
    rewrite zq_1_mult. apply as_num_some, A.
Qed.

Lemma mkn_R I o l : R I I (En o l) (mkn o l).
Proof.
  destruct o; try apply R_refl; (destruct l as [|a [|b l]]; [intros v H; exact H| |apply R_refl]);
    intros v; rewrite (eval_En false _ [a]); apply semn_single; reflexivity.
Qed.
Lemma mkAnd_R I l : R I I (EAnd l) (mkAnd l).
Proof. exact (mkn_R I NAnd l). Qed.

Lemma mkNot_R I a : R I I (ENot a) (mkNot a).
Proof.
  destruct a; try apply R_refl. intros v. rewrite !eval_ENot.
  destruct (as_bool (eval false a I)) as [x|] eqn:A; [|discriminate]. intros H; inversion H; subst.
  rewrite negb_involutive. apply as_bool_some. exact A.
Qed.

Lemma mk1_R I o a : R I I (E1 o a) (mk1 o a).
Proof. destruct o; [apply mkNot_R|apply R_refl..]. Qed.

Lemma mkExists_R I vs a : R I I (EExists vs a) (mkExists vs a).
Proof.
  destruct vs; [|apply R_refl]. intros v. rewrite eval_EExists. cbn [instances map q_fold].
  destruct (as_bool (eval false a I)) as [x|] eqn:A; [|discriminate].
  apply as_bool_some in A. intros H. unfold mkExists, mkForall. rewrite A. destruct x; simpl in H; exact H.
Qed.
Lemma mkForall_R I vs a : R I I (EForall vs a) (mkForall vs a).
Proof.
  destruct vs; [|apply R_refl]. intros v. rewrite eval_EForall. cbn [instances map q_fold].
  destruct (as_bool (eval false a I)) as [x|] eqn:A; [|discriminate].
  apply as_bool_some in A. intros H. unfold mkExists, mkForall. rewrite A. destruct x; simpl in H; exact H.
Qed.

Fixpoint bvars (e : expr) : list N :=
  let fix lb (l : list expr) : list N := match l with [] => [] | x :: l' => bvars x ++ lb l' end in
  match e with
  | EBool _ | EInt _ | EReal _ | EObj _ | EParam _ | EVar _ _ => []
  | EFluent _ l | EIFun _ l | EAnd l | EOr l | EPlus l | ETimes l => lb l
  | ENot a | EAlways a | ESometime a | EAtMostOnce a => bvars a
  | EExists vs a | EForall vs a => map fst vs ++ bvars a
  | EImplies a b | EIff a b | EMinus a b | EDiv a b | ELe a b | ELt a b | EEquals a b
  | ESometimeBefore a b | ESometimeAfter a b => bvars a ++ bvars b
  end.

Definition bvl (l : list expr) : list N := flat_map bvars l.
Lemma bv_fix l :
  (fix lb (l : list expr) : list N := match l with [] => [] | x :: l' => bvars x ++ lb l' end) l = bvl l.
Proof. induction l as [|x l IH]; [reflexivity|]. cbn [bvl flat_map]. rewrite IH. reflexivity. Qed.
Lemma bv_E1 o a : bvars (E1 o a) = bvars a. Proof. destruct o; reflexivity. Qed.
Lemma bv_E2 o a b : bvars (E2 o a b) = bvars a ++ bvars b. Proof. destruct o; reflexivity. Qed.
Lemma bv_En o l : bvars (En o l) = bvl l. Proof. destruct o; apply bv_fix. Qed.
Lemma bv_EQ ex vs a : bvars (EQ ex vs a) = map fst vs ++ bvars a. Proof. destruct ex; reflexivity. Qed.
Lemma in_bvl w l : In w (bvl l) <-> exists x, In x l /\ In w (bvars x).
Proof. unfold bvl. rewrite in_flat_map. tauto. Qed.


Lemma iext_bind_commute I x u v o : x <> v -> iext (bind_var (bind_var I x u) v o) (bind_var (bind_var I v o) x u).
Proof.
  intros Hn. split; [repeat split|]. intros w _. simpl.
  destruct (w =? v)%N eqn:E1, (w =? x)%N eqn:E2; try reflexivity.
  apply N.eqb_eq in E1, E2. congruence.
Qed.
Lemma iext_bind_shadow I x u o : iext (bind_var (bind_var I x u) x o) (bind_var I x o).
Proof. split; [repeat split|]. intros w _. simpl. destruct (w =? x)%N; reflexivity. Qed.
Lemma iext_bind I J v o : iext I J -> iext (bind_var I v o) (bind_var J v o).
Proof. intros [A B]. split; [apply ieq_bind; exact A|]. intros w _. simpl. destruct (w =? v)%N; auto. Qed.

Lemma inst_iext vs : forall I J, iext I J -> Forall2 iext (instances I vs) (instances J vs).
Proof.
  intros I J [A B]. eapply Forall2_impl; [|apply (inst_agree (fun _ => True) vs I J A); auto]. auto.
Qed.

(* binding x outside a quantifier that does not bind x = binding it inside *)
Lemma inst_commute vs x u : ~ In x (map fst vs) -> forall I,
  Forall2 iext (instances (bind_var I x u) vs) (map (fun J => bind_var J x u) (instances I vs)).
Proof.
  induction vs as [|[v ty] vs IH]; intros Hn I; cbn [instances map].
  - constructor; [apply iext_refl|constructor].
  - change (objs (bind_var I x u) ty) with (objs I ty).
    rewrite map_flat_map.
    apply Forall2_flat_map. intros o _.
    assert (Hx : x <> v) by (simpl in Hn; intros ->; tauto).
    assert (Hn' : ~ In x (map fst vs)) by (simpl in Hn; tauto).
    exact (Forall2_trans _ _ _ _ _ _ iext_trans (inst_iext vs _ _ (iext_bind_commute I x u v o Hx)) (IH Hn' (bind_var I v o))).
Qed.

(* a quantifier that binds x forgets an outer binding of x *)
Lemma inst_shadow vs x u : In x (map fst vs) -> forall I, Forall2 iext (instances (bind_var I x u) vs) (instances I vs).
Proof.
  induction vs as [|[v ty] vs IH]; intros Hi I; [destruct Hi|]. cbn [instances].
  change (objs (bind_var I x u) ty) with (objs I ty). apply Forall2_flat_map. intros o _.
  destruct (N.eq_dec x v) as [->|Hx].
  - apply inst_iext. apply iext_bind_shadow.
  - assert (Hi' : In x (map fst vs)) by (simpl in Hi; destruct Hi; [congruence|assumption]).
    exact (Forall2_trans _ _ _ _ _ _ iext_trans (inst_iext vs _ _ (iext_bind_commute I x u v o Hx)) (IH Hi' (bind_var I v o))).
Qed.

Lemma R_iext I I' J J' a a' : iext I J -> iext I' J' -> R I I' a a' -> R J J' a a'.
Proof. intros H1 H2 H v. rewrite <- (eval_iext false a _ _ H1), <- (eval_iext false a' _ _ H2). apply H. Qed.

Lemma Forall2_map_l {A B} (f : A -> B) (P : A -> B -> Prop) l : (forall x, In x l -> P x (f x)) -> Forall2 P l (map f l).
Proof. induction l as [|a l IH]; intros H; [constructor|]. constructor; [apply H; left; reflexivity|apply IH; intros; apply H; right; assumption]. Qed.

Lemma Forall2_map_r_iff {A B C} (P : A -> C -> Prop) (f : B -> C) l l' :
  Forall2 P l (map f l') <-> Forall2 (fun a b => P a (f b)) l l'.
Proof.
  split.
  - revert l. induction l' as [|b l' IH]; intros l H; inversion H; subst; constructor; auto.
  - induction 1; constructor; auto.
Qed.

Lemma cong_EQ_F2 ex I I' vs vs' a a' :
  Forall2 (fun J J' => R J J' a a') (instances I vs) (instances I' vs') -> R I I' (EQ ex vs a) (EQ ex vs' a').
Proof.
  intros H. apply cong_EQ.
  - intros J' HJ'. destruct (Forall2_In_r _ _ _ _ H HJ') as [J [HJ HR]]. eauto.
  - intros J HJ. destruct (Forall2_In_l _ _ _ _ H HJ) as [J' [HJ' HR]]. eauto.
Qed.

Lemma inst_base vs : forall I J, In J (instances I vs) ->
  same_base I J /\ forall w, ~ In w (map fst vs) -> var J w = var I w.
Proof.
  induction vs as [|[v ty] vs IH]; intros I J HJ; cbn [instances] in HJ.
  - destruct HJ as [<-|[]]. split; [apply same_base_refl|auto].
  - apply in_flat_map in HJ. destruct HJ as [o [_ HJ]]. destruct (IH _ _ HJ) as [HB HV].
    split; [exact HB|]. intros w Hn. rewrite HV by (simpl in Hn; tauto).
    simpl. destruct (w =? v)%N eqn:E; [|reflexivity]. apply N.eqb_eq in E. simpl in Hn. subst. tauto.
Qed.

Section Subst.
  Variables (x : N) (t : expr).

  Let cap (e : expr) : Prop := forall w, In w (free_vars t) -> ~ In w (bvars e).

  Lemma subst_quant ex vs e :
    (forall I u, cap e -> eval false t I = Some (VObj u) -> R (bind_var I x u) I e (subst x t e)) ->
    forall I u, cap (EQ ex vs e) -> eval false t I = Some (VObj u) ->
    R (bind_var I x u) I (EQ ex vs e) (if memN x (map fst vs) then EQ ex vs e else EQ ex vs (subst x t e)).
  Proof.
    intros IH I u Hcap Ht.
    assert (Hcv : forall w, In w (free_vars t) -> ~ In w (map fst vs)).
    { intros w Hw Hb. apply (Hcap w Hw). destruct ex; cbn [EQ bvars]; apply in_or_app; left; exact Hb. }
    assert (Hce : cap e).
    { intros w Hw Hb. apply (Hcap w Hw). destruct ex; cbn [EQ bvars]; apply in_or_app; right; exact Hb. }
    destruct (memN x (map fst vs)) eqn:B.
    - apply memN_In in B. apply cong_EQ_F2.
      eapply Forall2_impl; [|apply (inst_shadow vs x u B I)].
      intros J J' HE. eapply R_iext; [apply iext_sym; exact HE|apply iext_refl|apply R_refl].
    - apply memN_false in B. apply cong_EQ_F2.
      assert (H1 := inst_commute vs x u B I). apply Forall2_map_r_iff in H1.
      assert (H2 : Forall2 (fun K J => iext K (bind_var J x u) /\ In J (instances I vs))
                           (instances (bind_var I x u) vs) (instances I vs)).
      { clear -H1. revert H1. generalize (instances (bind_var I x u) vs).
        induction (instances I vs) as [|J L IHL]; intros l H; inversion H; subst; constructor.
        - split; [assumption|left; reflexivity].
        - eapply Forall2_impl; [|apply IHL; assumption]. intros a b [A1 A2]. split; [exact A1|right; exact A2]. }
      eapply Forall2_impl; [|exact H2]. intros K J [HE HJ].
      eapply R_iext; [apply iext_sym; exact HE|apply iext_refl|].
      apply IH; [exact Hce|].
      rewrite <- Ht. apply eval_coincide. destruct (inst_base _ _ _ HJ) as [HB HV].
      split; [apply ieq_sym, same_base_ieq; exact HB|]. intros w Hw. apply HV. apply Hcv. exact Hw.
  Qed.

  (* value-level substitution lemma, refinement form: evaluating e with x bound to the value of t refines to
     evaluating e[t/x], provided no quantifier of e binds a free variable of t *)
  Lemma subst_R e : forall I u,
    cap e -> eval false t I = Some (VObj u) -> R (bind_var I x u) I e (subst x t e).
  Proof.
    induction e using expr_view_ind; intros I u Hcap Ht.
    - destruct e; try discriminate; cbn [subst]; try (intros v Hv; exact Hv).
      intros v'. simpl. destruct (v =? x)%N; [intros Hv; inversion Hv; subst; exact Ht|auto].
    - rewrite subst_E1. eapply R_trans; [apply cong_E1, IHe; [|exact Ht]|apply mk1_R].
      intros w Hw Hb. apply (Hcap w Hw). rewrite bv_E1. exact Hb.
    - rewrite subst_E2. apply cong_E2; [apply IHe1|apply IHe2]; try exact Ht;
        intros w Hw Hb; apply (Hcap w Hw); rewrite bv_E2; apply in_or_app; auto.
    - rewrite subst_En. apply (R_trans _ I _ _ (En o (map (subst x t) l))); [apply cong_En; [reflexivity|reflexivity|]|apply mkn_R].
      apply Forall2_map_l. intros y Hy. rewrite Forall_forall in H. apply H; [exact Hy| |exact Ht].
      intros w Hw Hb. apply (Hcap w Hw). rewrite bv_En. apply in_bvl. eauto.
    - rewrite subst_EQ. exact (subst_quant ex vs e IHe I u Hcap Ht).
  Qed.
End Subst.

(* Proofs about the DeltaSTN model (C25), part 2: termination of _inc_check with an explicit fuel.
   Idea: let d0 be the (feasible) distances before add(x, y, b) and delta = d0[y] - (d0[x] + b) > 0 the amount by which
   y is lowered.  Every edge other than the new one is feasible for d0, so during the propagation no distance drops
   below d0[v] - delta; relaxing the new edge itself is the `return False` case.  All numbers are multiples of
   g = 1 / (product of the denominators of the inserted bounds), so each relaxation lowers one dictionary entry by
   at least g while appending one event to the queue: (sum of entries - lower bound)/g + |queue| decreases with every
   pop. *)
From Coq Require Import List ZArith NArith QArith Qabs Qround Bool Lia Lqa.
Import ListNotations.
Require Import UPV.Model.Stn UPV.Proofs.Stn_proofs.
Local Open Scope Q_scope.

Definition mult (g q : Q) : Prop := exists z : Z, q == inject_Z z * g.

Lemma mult_0 g : mult g 0.
Proof. exists 0%Z. unfold inject_Z. lra. Qed.

Lemma mult_plus g p q : mult g p -> mult g q -> mult g (p + q).
Proof. intros [a Ha] [c Hc]. exists (a + c)%Z. rewrite inject_Z_plus. lra. Qed.

Lemma mult_wd g p q : p == q -> mult g p -> mult g q.
Proof. intros H [a Ha]. exists a. lra. Qed.

Lemma mult_gap g p q : 0 < g -> mult g p -> mult g q -> p < q -> p + g <= q.
Proof.
  intros Hg [a Ha] [c Hc] Hlt.
  assert (H1 : inject_Z a * g < inject_Z c * g) by lra.
  apply Qmult_lt_r in H1; [|exact Hg]. rewrite <- Zlt_Qlt in H1.
  assert (H2 : (a + 1 <= c)%Z) by lia. rewrite Zle_Qle in H2. rewrite inject_Z_plus in H2.
  assert (H3 : (inject_Z a + inject_Z 1) * g <= inject_Z c * g) by (apply Qmult_le_r; assumption).
  unfold inject_Z at 2 in H3. lra.
Qed.

Lemma inject_nat_nonneg n : 0 <= inject_Z (Z.of_nat n).
Proof. change 0 with (inject_Z 0). rewrite <- Zle_Qle. lia. Qed.

Fixpoint sumv (d : dist) : Q := match d with [] => 0 | (_, v) :: r => v + sumv r end.

Definition qlen (d : dist) : Q := inject_Z (Z.of_nat (length d)).

Lemma sumv_set k q d : find k d <> None -> sumv (set k q d) == sumv d - getd d k + q.
Proof.
  unfold getd. induction d as [|[k' v'] d IH]; simpl; intros H; [congruence|].
  destruct (N.eqb_spec k k'); simpl.
  - lra.
  - specialize (IH H). destruct (find k d); lra.
Qed.

Lemma length_set {V} k (q : V) d : find k d <> None -> length (set k q d) = length d.
Proof.
  induction d as [|[k' v'] d IH]; simpl; intros H; [congruence|].
  destruct (N.eqb_spec k k'); simpl; [reflexivity | rewrite IH; auto].
Qed.

Lemma Forall_set (P : Q -> Prop) k q (d : dist) :
  Forall (fun kv => P (snd kv)) d -> P q -> Forall (fun kv => P (snd kv)) (set k q d).
Proof.
  intros H Hq. induction H as [|[k' v'] d Hx Hd IH]; simpl; [repeat constructor; exact Hq|].
  destruct (k =? k')%N; constructor; simpl; auto.
Qed.

Lemma Forall_setdefault (P : Q -> Prop) k q (d : dist) :
  Forall (fun kv => P (snd kv)) d -> P q -> Forall (fun kv => P (snd kv)) (setdefault k q d).
Proof.
  intros H Hq. unfold setdefault. destruct (find k d); [exact H|].
  apply Forall_app. split; [exact H | repeat constructor; exact Hq].
Qed.

Lemma length_setdefault {V} k (q : V) d : (length (setdefault k q d) <= S (length d))%nat.
Proof. unfold setdefault. destruct (find k d); [lia|]. rewrite app_length. simpl. lia. Qed.

Lemma getd_Forall (P : Q -> Prop) (d : dist) v :
  Forall (fun kv => P (snd kv)) d -> P 0 -> P (getd d v).
Proof.
  unfold getd. intros H H0. induction H as [|[k' v'] d Hx _ IH]; simpl; [exact H0|].
  destruct (v =? k')%N; [exact Hx | exact IH].
Qed.

Lemma sumv_lower Lb (d : dist) : Forall (fun kv => Lb <= snd kv) d -> qlen d * Lb <= sumv d.
Proof.
  unfold qlen. induction 1 as [|[k v] d Hx _ IH]; simpl length; simpl sumv.
  - unfold inject_Z; simpl. lra.
  - simpl in Hx. rewrite Nat2Z.inj_succ, <- Z.add_1_r, inject_Z_plus. unfold inject_Z at 2. lra.
Qed.

Lemma sumv_upper (d : dist) : Forall (fun kv => snd kv <= 0) d -> sumv d <= 0.
Proof. induction 1 as [|[k v] d Hx _ IH]; simpl in *; lra. Qed.

Section Termination.
  Variables (cm : cons_map) (x y : N) (b : Q) (eps : Q) (d0 : dist) (g Lb : Q) (n : nat).
  Hypothesis Heps : eps == 0.
  Hypothesis Hg : 0 < g.
  Let delta := getd d0 y - (getd d0 x + b).
  Hypothesis Hbounds : forall u v bb, edge cm u v bb -> mult g bb.
  Hypothesis Hold : forall u v bb, edge cm u v bb -> (u = x /\ v = y /\ bb = b) \/ getd d0 v <= getd d0 u + bb.
  Hypothesis HLb : forall v, Lb <= getd d0 v - delta.

  Record tgood (d : dist) : Prop := {
    t_low : forall v, getd d0 v - delta <= getd d v;
    t_ent : Forall (fun kv => Lb <= snd kv) d;
    t_neg : Forall (fun kv => snd kv <= 0) d;
    t_mult : forall v, mult g (getd d v);
    t_known : forall u v bb, edge cm u v bb -> find v d <> None;
    t_len : length d = n
  }.

  (* the potential, in units of g *)
  Definition pot (d : dist) (queue : list N) : Q := sumv d - qlen d * Lb + inject_Z (Z.of_nat (length queue)) * g.

  Lemma detection_fires bound : bound = b -> (y =? y)%N && Qle_bool (Qabs (bound - b)) eps = true.
  Proof.
    intros ->. rewrite N.eqb_refl. simpl. apply Qle_bool_iff. apply (proj2 (Qabs_Qle_condition (b - b) eps)). split; lra.
  Qed.

  Lemma scan_term c : forall ns d queue,
    (forall v bb, In (v, bb) ns -> edge cm c v bb) -> tgood d ->
    match scan d eps y b c ns queue with
    | (d', Some q') => tgood d' /\ pot d' q' <= pot d queue
    | (d', None) => tgood d'
    end.
  Proof.
    induction ns as [|[dst bound] ns IH]; intros d queue Hns G.
    - simpl. split; [exact G | lra].
    - cbn [scan]. destruct (Qlt_bool (getd d c + bound + eps) (getd d dst)) eqn:E.
      + apply Qlt_bool_iff in E. assert (Hlt : getd d c + bound < getd d dst) by lra.
        assert (He : edge cm c dst bound) by (apply Hns; left; reflexivity).
        destruct ((dst =? y)%N && Qle_bool (Qabs (bound - b)) eps) eqn:E2; [exact G|].
        destruct (Hold _ _ _ He) as [(-> & -> & Hb)|Hf].
        { rewrite (detection_fires bound Hb) in E2. discriminate. }
        destruct G as [T1 T2 T3 T4 T5 T6].
        assert (Hk : find dst d <> None) by (eapply T5; exact He).
        assert (Hm : mult g (getd d c + bound)) by (apply mult_plus; [apply T4 | eapply Hbounds; exact He]).
        assert (Hgap : getd d c + bound + g <= getd d dst) by (apply mult_gap; auto).
        assert (Hlow : getd d0 dst - delta <= getd d c + bound) by (specialize (T1 c); lra).
        assert (G' : tgood (set dst (getd d c + bound) d)).
        { constructor.
          - apply (getd_set_all (fun v q => getd d0 v - delta <= q)); [exact Hlow | auto].
          - apply (Forall_set (fun q => Lb <= q)); [exact T2|]. specialize (HLb dst). lra.
          - apply (Forall_set (fun q => q <= 0)); [exact T3|].
            pose proof (getd_Forall (fun q => q <= 0) d dst T3 (Qle_refl 0)) as Hd0. cbv beta in Hd0. lra.
          - apply (getd_set_all (fun _ q => mult g q)); [exact Hm | auto].
          - intros u v bb Hedge. apply find_set_some. eapply T5; exact Hedge.
          - rewrite (length_set dst _ d Hk). exact T6. }
        specialize (IH (set dst (getd d c + bound) d) (queue ++ [dst]) (fun v bb HI => Hns v bb (or_intror HI)) G').
        destruct (scan (set dst (getd d c + bound) d) eps y b c ns (queue ++ [dst])) as [d' [q'|]]; [|exact IH].
        destruct IH as [G'' Hp]. split; [exact G''|].
        eapply Qle_trans; [exact Hp|]. unfold pot, qlen.
        rewrite (length_set dst _ d Hk), app_length. simpl length.
        rewrite Nat2Z.inj_add, inject_Z_plus. pose proof (sumv_set dst (getd d c + bound) d Hk) as Hs.
        change (inject_Z (Z.of_nat 1)) with 1. lra.
      + apply IH; [|exact G]. intros v bb HI. apply Hns. right; exact HI.
  Qed.

  Lemma pot_nonneg d queue : tgood d -> inject_Z (Z.of_nat (length queue)) * g <= pot d queue.
  Proof. intros G. unfold pot. pose proof (sumv_lower Lb d (t_ent d G)). lra. Qed.

  Lemma bfs_term : forall fuel d queue,
    tgood d -> pot d queue <= inject_Z (Z.of_nat fuel) * g ->
    match bfs fuel cm d eps y b queue with
    | Finished d' _ => tgood d'
    | OutOfFuel => False
    end.
  Proof.
    induction fuel as [|fuel IH]; intros d queue G Hp.
    - destruct queue as [|c q']; simpl; [exact G|].
      pose proof (pot_nonneg d (c :: q') G) as Hn. simpl length in Hn.
      rewrite Nat2Z.inj_succ, <- Z.add_1_r, inject_Z_plus in Hn. simpl in Hp.
      pose proof (inject_nat_nonneg (length q')).
      unfold inject_Z at 2 in Hn. unfold inject_Z at 1 in Hp. nra.
    - destruct queue as [|c q']; simpl; [exact G|].
      pose proof (scan_term c (getc cm c) d q' (fun v bb HI => HI) G) as S.
      destruct (scan d eps y b c (getc cm c) q') as [d1 [q1|]]; [|exact S].
      destruct S as [G1 Hp1]. apply IH; [exact G1|].
      eapply Qle_trans; [exact Hp1|].
      unfold pot in *. simpl length in Hp. rewrite !Nat2Z.inj_succ, <- !Z.add_1_r, !inject_Z_plus in Hp.
      change (inject_Z 1) with 1 in Hp. lra.
  Qed.
End Termination.

Fixpoint bnd_from (acc : Q) (adds : list cstr) : Q :=
  match adds with
  | [] => acc
  | (_, _, b) :: r => bnd_from (2 * acc + Qabs b) r
  end.
Definition bnd (adds : list cstr) : Q := bnd_from 0 adds.

Lemma bnd_from_ge acc adds : 0 <= acc -> acc <= bnd_from acc adds.
Proof.
  revert acc. induction adds as [|[[x y] b] r IH]; intros acc H; simpl; [lra|].
  pose proof (Qabs_nonneg b). assert (H2 : 0 <= 2 * acc + Qabs b) by lra.
  specialize (IH _ H2). lra.
Qed.

Lemma bnd_from_app acc a c : bnd_from acc (a ++ c) = bnd_from (bnd_from acc a) c.
Proof. revert acc. induction a as [|[[x y] b] r IH]; intros acc; simpl; [reflexivity | apply IH]. Qed.

Lemma bnd_from_nonneg acc adds : 0 <= acc -> 0 <= bnd_from acc adds.
Proof. intros H. pose proof (bnd_from_ge acc adds H). lra. Qed.

Lemma bnd_snoc a x y b : bnd (a ++ [(x, y, b)]) = 2 * bnd a + Qabs b.
Proof. unfold bnd. rewrite bnd_from_app. reflexivity. Qed.

Lemma bnd_prefix a c : bnd a <= bnd (a ++ c).
Proof. unfold bnd. rewrite bnd_from_app. apply bnd_from_ge. apply bnd_from_nonneg. lra. Qed.

Fixpoint dens (adds : list cstr) : positive :=
  match adds with
  | [] => 1%positive
  | (_, _, b) :: r => (Qden b * dens r)%positive
  end.
Definition gran (adds : list cstr) : Q := 1 # dens adds.

Lemma gran_pos adds : 0 < gran adds.
Proof. unfold gran, Qlt; simpl. lia. Qed.

Lemma gran_mult adds x y b : In (x, y, b) adds -> mult (gran adds) b.
Proof.
  unfold gran. induction adds as [|[[x' y'] b'] r IH]; simpl; intros H; [tauto|].
  destruct H as [H|H].
  - inversion H; subst. exists (Qnum b * Zpos (dens r))%Z. destruct b as [n m]; unfold Qeq, inject_Z; simpl.
    rewrite !Pos2Z.inj_mul. ring.
  - destruct (IH H) as [z Hz]. exists (z * Zpos (Qden b'))%Z. destruct b as [n m]; unfold Qeq, inject_Z in *; simpl in *.
    rewrite !Pos2Z.inj_mul. rewrite Z.mul_1_r in *.
    transitivity ((n * Zpos (dens r)) * Zpos (Qden b'))%Z; [ring|]. rewrite Hz. ring.
Qed.

Record tinv (g : Q) (d : dist) (A : list cstr) : Prop := {
  ti_ent : Forall (fun kv => - bnd A <= snd kv) d;
  ti_neg : Forall (fun kv => snd kv <= 0) d;
  ti_mult : forall v, mult g (getd d v);
  ti_len : (length d <= 2 * length A)%nat
}.

Definition fuel_ok (g : Q) (fuel : nat) (all : list cstr) : Prop :=
  inject_Z (Z.of_nat (2 * length all)) * (bnd all) + g <= inject_Z (Z.of_nat fuel) * g.

(* registering the two events of add(x, y, b) *)
Lemma tinv_register g d A x y b : tinv g d A -> tinv g (setdefault y 0 (setdefault x 0 d)) (A ++ [(x, y, b)]).
Proof.
  intros [T1 T2 T3 T4]. pose proof (Qabs_nonneg b). pose proof (bnd_from_nonneg 0 A (Qle_refl 0)) as HB0. fold (bnd A) in HB0.
  constructor.
  - rewrite bnd_snoc. do 2 (apply (Forall_setdefault (fun q => - (2 * bnd A + Qabs b) <= q)); [|lra]).
    eapply Forall_impl; [|exact T1]. simpl. intros kv Hk. lra.
  - do 2 (apply (Forall_setdefault (fun q => q <= 0)); [|lra]). exact T2.
  - intros v. rewrite !getd_setdefault0. apply T3.
  - pose proof (length_setdefault y 0 (setdefault x 0 d)). pose proof (length_setdefault x 0 d).
    rewrite app_length. simpl length. unfold cstr in *. lia.
Qed.

(* _inc_check on distances in [-B, 0] that are multiples of g, feasible for every edge but the new one: the
   distances stay in [-(2B + |b|), 0], so one unit of fuel per g of that range and per entry, plus one, is enough *)
Lemma inc_check_term g fuel cm d eps x y b B :
  eps == 0 -> 0 < g -> 0 <= B ->
  edge cm x y b ->
  (forall u v bb, edge cm u v bb -> mult g bb) ->
  (forall u v bb, edge cm u v bb -> (u = x /\ v = y /\ bb = b) \/ getd d v <= getd d u + bb) ->
  (forall u v bb, edge cm u v bb -> find v d <> None) ->
  Forall (fun kv => - B <= snd kv) d -> Forall (fun kv => snd kv <= 0) d -> (forall v, mult g (getd d v)) ->
  qlen d * (2 * B + Qabs b) + g <= inject_Z (Z.of_nat fuel) * g ->
  exists d' r, inc_check fuel cm d eps x y b = Finished d' r /\
    Forall (fun kv => - (2 * B + Qabs b) <= snd kv) d' /\ Forall (fun kv => snd kv <= 0) d' /\
    (forall v, mult g (getd d' v)) /\ length d' = length d.
Proof.
  intros Heps Hg HB Hxy Hbounds Hold Hknown E1 E2 E3 Hfuel. pose proof (Qabs_nonneg b) as Habs.
  set (Lb := - (2 * B + Qabs b)).
  assert (E1' : Forall (fun kv => Lb <= snd kv) d).
  { eapply Forall_impl; [|exact E1]. unfold Lb. simpl. intros kv Hk. lra. }
  unfold inc_check. destruct (Qlt_bool (getd d x + b) (getd d y)) eqn:E.
  2:{ exists d, true. auto. }
  apply Qlt_bool_iff in E.
  assert (Hky : find y d <> None) by (eapply Hknown; exact Hxy).
  set (delta := getd d y - (getd d x + b)).
  assert (Hdelta : 0 < delta) by (unfold delta; lra).
  assert (Hrange : forall v, - B <= getd d v /\ getd d v <= 0).
  { intros v. split.
    - apply (getd_Forall (fun q => - B <= q) d v E1). cbv beta. lra.
    - apply (getd_Forall (fun q => q <= 0) d v E2). cbv beta. lra. }
  assert (HLb : forall v, Lb <= getd d v - delta).
  { intros v. unfold Lb, delta. destruct (Hrange v), (Hrange x), (Hrange y).
    pose proof (Qle_Qabs b). pose proof (Qle_Qabs (- b)). pose proof (Qabs_opp b). lra. }
  set (dinit := set y (getd d x + b) d).
  assert (G0 : tgood cm x y b d g Lb (length d) dinit).
  { constructor.
    - fold delta. apply (getd_set_all (fun v q => getd d v - delta <= q)); [unfold delta; lra | intros; lra].
    - apply (Forall_set (fun q => Lb <= q)); [exact E1'|]. specialize (HLb y). unfold delta in HLb. lra.
    - apply (Forall_set (fun q => q <= 0)); [exact E2|]. destruct (Hrange y). lra.
    - apply (getd_set_all (fun _ q => mult g q)); [|auto]. apply mult_plus; [apply E3 | eapply Hbounds; exact Hxy].
    - intros u v bb He. apply find_set_some. eapply Hknown; exact He.
    - apply length_set. exact Hky. }
  assert (Hpot : pot g Lb dinit [y] <= inject_Z (Z.of_nat fuel) * g).
  { unfold pot, qlen. rewrite (t_len _ _ _ _ _ _ _ _ _ G0). simpl length.
    pose proof (sumv_upper dinit (t_neg _ _ _ _ _ _ _ _ _ G0)) as Hsu.
    unfold qlen in Hfuel. unfold Lb. change (inject_Z (Z.of_nat 1)) with 1. lra. }
  pose proof (bfs_term cm x y b eps d g Lb (length d) Heps Hg Hbounds Hold HLb fuel dinit [y] G0 Hpot) as BT.
  destruct (bfs fuel cm dinit eps y b [y]) as [d2 r|]; [|contradiction].
  exists d2, r. destruct BT as [B1 B2 B3 B4 B5 B6]. auto.
Qed.

(* the fuel for the whole sequence covers every call: the dictionary has at most two entries per inserted
   constraint, and the range bound only grows along the sequence *)
Lemma fuel_ok_prefix g fuel all A rest (d : dist) :
  fuel_ok g fuel all -> all = A ++ rest -> (length d <= 2 * length A)%nat ->
  qlen d * bnd A + g <= inject_Z (Z.of_nat fuel) * g.
Proof.
  unfold fuel_ok, qlen. intros Hfuel -> Hlen.
  assert (Hn1 : inject_Z (Z.of_nat (length d)) <= inject_Z (Z.of_nat (2 * length (A ++ rest)))).
  { rewrite <- Zle_Qle. apply Nat2Z.inj_le. rewrite app_length. lia. }
  pose proof (inject_nat_nonneg (length d)) as Hn0. pose proof (bnd_prefix A rest) as HB1.
  assert (HB2 : 0 <= bnd A) by (apply bnd_from_nonneg; lra).
  assert (Hprod : inject_Z (Z.of_nat (length d)) * bnd A <= inject_Z (Z.of_nat (2 * length (A ++ rest))) * bnd (A ++ rest)) by nra.
  lra.
Qed.

Lemma add_term g fuel all s A x y b rest :
  0 < g -> (forall x' y' b', In (x', y', b') all -> mult g b') ->
  all = A ++ (x, y, b) :: rest ->
  fuel_ok g fuel all ->
  inv s A -> (s_sat s = true -> tinv g (s_dist s) A) ->
  exists s', add fuel s x y b = Some s' /\ (s_sat s' = true -> tinv g (s_dist s') (A ++ [(x, y, b)])).
Proof.
  intros Hg Hall Heq Hfuel [Heps Hi] Ht. unfold add. destruct (s_sat s) eqn:Hsat.
  2:{ exists s. split; [reflexivity|]. intros H. congruence. }
  specialize (Ht eq_refl). pose proof (tinv_register g _ A x y b Ht) as Ht1.
  set (d1 := setdefault y 0 (setdefault x 0 (s_dist s))) in *.
  destruct (is_subsumed _ x y b); [eexists; split; [reflexivity | intros _; exact Ht1]|].
  set (c2 := set x ((y, b) :: getc (s_cons s) x) (setdefault y [] (s_cons s))).
  destruct Ht as [T1 T2 T3 T4]. destruct Hi as [I1 I2 I3 I4 I5 I6].
  assert (Hin : In (x, y, b) all) by (rewrite Heq; apply in_or_app; right; left; reflexivity).
  assert (Hd1 : forall v, getd d1 v = getd (s_dist s) v) by (intros v; unfold d1; rewrite !getd_setdefault0; reflexivity).
  assert (HB0 : 0 <= bnd A) by (apply bnd_from_nonneg; lra).
  destruct (inc_check_term g fuel c2 d1 (s_eps s) x y b (bnd A) Heps Hg HB0) as (d2 & r & EI & B2 & B3 & B4 & B6).
  - apply edge_add. left; auto.
  - intros u v bb He. apply edge_add in He. destruct He as [(-> & -> & ->)|He]; [apply (Hall _ _ _ Hin)|].
    apply (Hall u v bb). rewrite Heq. apply in_or_app. left. apply I1. exact He.
  - intros u v bb He. apply edge_add in He. destruct He as [He|He]; [left; exact He | right]. rewrite !Hd1. apply I3; exact He.
  - intros u v bb He. apply edge_add in He. destruct He as [(-> & -> & ->)|He]; [apply find_setdefault_self|].
    unfold d1. apply find_setdefault_some, find_setdefault_some. apply (I6 _ _ _ (I1 _ _ _ He)).
  - unfold d1. do 2 (apply (Forall_setdefault (fun q => - bnd A <= q)); [|lra]). exact T1.
  - exact (ti_neg _ _ _ Ht1).
  - intros v. rewrite Hd1. apply T3.
  - rewrite <- (bnd_snoc A x y b). apply (fuel_ok_prefix g fuel all _ rest); [exact Hfuel | | exact (ti_len _ _ _ Ht1)].
    rewrite Heq, <- app_assoc. reflexivity.
  - rewrite EI. eexists. split; [reflexivity|]. simpl. intros _. constructor.
    + rewrite bnd_snoc. exact B2.
    + exact B3.
    + exact B4.
    + rewrite B6. exact (ti_len _ _ _ Ht1).
Qed.

Lemma run_adds_term g fuel all : 0 < g -> (forall x y b, In (x, y, b) all -> mult g b) -> fuel_ok g fuel all ->
  forall rest s A, all = A ++ rest -> inv s A -> (s_sat s = true -> tinv g (s_dist s) A) ->
  exists s', run_adds fuel s rest = Some s'.
Proof.
  intros Hg Hall Hfuel. induction rest as [|[[x y] b] rest IH]; intros s A Heq Hi Ht; simpl.
  - eexists; reflexivity.
  - destruct (add_term g fuel all s A x y b rest Hg Hall Heq Hfuel Hi Ht) as (s1 & Ha & Ht1).
    rewrite Ha. apply (IH s1 (A ++ [(x, y, b)])).
    + rewrite <- app_assoc. exact Heq.
    + eapply add_inv; eauto.
    + exact Ht1.
Qed.

(* a fuel that is enough for the whole insertion sequence, computed from the sequence *)
Definition enough_fuel (adds : list cstr) : nat :=
  S (Z.to_nat (Qceiling (inject_Z (Z.of_nat (2 * length adds)) * bnd adds * inject_Z (Zpos (dens adds))))).

Lemma enough_fuel_ok adds : fuel_ok (gran adds) (enough_fuel adds) adds.
Proof.
  unfold fuel_ok, enough_fuel, gran.
  set (N := inject_Z (Z.of_nat (2 * length adds))). set (B := bnd adds). set (P := dens adds).
  assert (HB : 0 <= B) by (apply bnd_from_nonneg; lra).
  assert (HN : 0 <= N) by (unfold N; apply inject_nat_nonneg).
  assert (HP : 0 < inject_Z (Zpos P)) by (change 0 with (inject_Z 0); rewrite <- Zlt_Qlt; lia).
  assert (Hx0 : 0 <= N * B) by (apply Qmult_le_0_compat; assumption).
  assert (Hx : 0 <= N * B * inject_Z (Zpos P)) by (apply Qmult_le_0_compat; [exact Hx0 | lra]).
  pose proof (Qle_ceiling (N * B * inject_Z (Zpos P))) as Hc.
  assert (Hz : (0 <= Qceiling (N * B * inject_Z (Zpos P)))%Z).
  { rewrite Zle_Qle. change (inject_Z 0) with 0. eapply Qle_trans; [exact Hx | exact Hc]. }
  rewrite Nat2Z.inj_succ, <- Z.add_1_r, inject_Z_plus, Z2Nat.id by exact Hz.
  change (inject_Z 1) with 1.
  assert (Hone : inject_Z (Zpos P) * (1 # P) == 1).
  { unfold Qeq, inject_Z; simpl. lia. }
  set (C := inject_Z (Qceiling (N * B * inject_Z (Z.pos P)))) in *.
  set (IP := inject_Z (Z.pos P)) in *. set (gg := 1 # P) in *.
  assert (Hg : 0 < gg) by (unfold gg, Qlt; simpl; lia).
  assert (H1 : N * B * IP * gg <= C * gg) by (apply Qmult_le_compat_r; [exact Hc | lra]).
  assert (H2 : N * B * IP * gg == N * B) by (rewrite <- Qmult_assoc, Hone, Qmult_1_r; reflexivity).
  lra.
Qed.

Lemma tinv_empty g : tinv g [] [].
Proof.
  constructor; simpl; try constructor.
  intros v. unfold getd; simpl. apply mult_0.
Qed.

Lemma stn_terminates eps adds :
  eps == 0 -> exists s, run_adds (enough_fuel adds) (empty_stn eps) adds = Some s.
Proof.
  intros He.
  apply (run_adds_term (gran adds) (enough_fuel adds) adds (gran_pos adds) (gran_mult adds) (enough_fuel_ok adds) adds (empty_stn eps) []).
  - reflexivity.
  - apply inv_empty. exact He.
  - intros _. apply tinv_empty.
Qed.

Lemma stn_decides eps adds :
  eps == 0 ->
  exists s, run_adds (enough_fuel adds) (empty_stn eps) adds = Some s /\ (check_stn s = true <-> solvable adds).
Proof.
  intros He. destruct (stn_terminates eps adds He) as [s Hs]. exists s. split; [exact Hs|].
  eapply stn_sat_iff; eauto.
Qed.

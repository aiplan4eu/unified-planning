(* Stages (Compilers/LayerA_Pipe.v) proved from step-level facts: a stage every compiled step of which is matched by its
   image (or by no move, when it is auxiliary) is sound ([sim_sound], [sim_noop]); one every source step of which is
   matched by a compiled step (or changes nothing) is complete ([sim_complete]); for compilers that keep action names one
   step lemma over a relation on states gives the same runs and verdict ([run_sim], [valid_plan_sim]); a Boolean check
   that bounds the fluent symbols of an expression gives a frame lemma ([eval_checked]). *)
From Coq Require Import List ZArith NArith Bool Lia.
Import ListNotations.
Require Import UPV.Core.Expr UPV.Core.Eval UPV.Planning.Problem UPV.Planning.Sem.
Require Import UPV.Proofs.ExprKids UPV.Proofs.Eval_lemmas UPV.Proofs.Sem_proofs UPV.Proofs.Step_proofs.
Require Import UPV.Compilers.LayerA_Defs UPV.Compilers.LayerA_Pipe.
Local Open Scope nat_scope.

Ltac plia := unfold pplan, pstep in *; lia.

Lemma pback_cons f x pi : pback f (x :: pi) = ostep f x ++ pback f pi.
Proof. reflexivity. Qed.

Lemma pback_app f a b : pback f (a ++ b) = pback f a ++ pback f b.
Proof. unfold pback. apply flat_map_app. Qed.

Lemma pback_Some pi : pback (fun x => Some x) pi = pi.
Proof. induction pi as [|x pi IH]; [reflexivity|]. rewrite pback_cons, IH. reflexivity. Qed.

Lemma pback_ext f g pi : (forall x, f x = g x) -> pback f pi = pback g pi.
Proof.
  intros H. induction pi as [|x pi IH]; [reflexivity|]. rewrite !pback_cons, IH. unfold ostep. rewrite H. reflexivity.
Qed.

Lemma pback_compose fa fb pi :
  pback (fun x => match fb x with Some y => fa y | None => None end) pi = pback fa (pback fb pi).
Proof.
  induction pi as [|x pi IH]; [reflexivity|]. rewrite !pback_cons, pback_app, IH. f_equal.
  unfold ostep. destruct (fb x) as [y|]; [|reflexivity]. cbn [pback flat_map]. rewrite app_nil_r. reflexivity.
Qed.

Lemma pback_Forall f (Q : pstep -> Prop) pi :
  Forall (fun x => match f x with Some y => Q y | None => True end) pi -> Forall Q (pback f pi).
Proof.
  induction 1 as [|x pi Hx _ IH]; [constructor|]. rewrite pback_cons. apply Forall_app. split; [|exact IH].
  unfold ostep. destruct (f x); constructor; [exact Hx | constructor].
Qed.

Lemma Forall_pback f (Q : pstep -> Prop) pi :
  Forall Q (pback f pi) -> Forall (fun x => match f x with Some y => Q y | None => True end) pi.
Proof.
  induction pi as [|x pi IH]; intros H; [constructor|]. rewrite pback_cons in H. apply Forall_app in H.
  destruct H as [H1 H2]. constructor; [|apply IH; exact H2].
  unfold ostep in H1. destruct (f x); [inversion H1; assumption | exact I].
Qed.

Lemma vt_map_back_pback t pi' : vt_map_back t pi' = pback (fun x => Some (vt_back t (fst x), snd x)) pi'.
Proof. induction pi' as [|x pi' IH]; [reflexivity|]. rewrite pback_cons, <- IH. reflexivity. Qed.

Lemma mb_chain_app fs gs x :
  mb_chain (fs ++ gs) x = match mb_chain fs x with Some y => mb_chain gs y | None => None end.
Proof.
  revert x. induction fs as [|f fs IH]; intros x; cbn [mb_chain app]; [reflexivity|].
  destruct (f x) as [y|]; [apply IH | reflexivity].
Qed.

Lemma run_single P stp s aid args :
  run P stp s [(aid, args)] = match lookup_action P aid with Some a => stp s a args | None => None end.
Proof. cbn [run]. destruct (lookup_action P aid) as [a|]; [|reflexivity]. destruct (stp s a args); reflexivity. Qed.

Lemma filter_other_key g x (h : aeff -> bool) acts : (forall a, In a acts -> fst (ae_key a) <> g) ->
  filter (fun a => gfl_eqb (ae_key a) (g, x) && h a) acts = [].
Proof.
  intros H. induction acts as [|a acts IH]; [reflexivity|]. cbn [filter].
  assert (E : gfl_eqb (ae_key a) (g, x) = false).
  { unfold gfl_eqb. cbn [fst snd]. replace (fst (ae_key a) =? g)%N with false; [reflexivity|].
    symmetry. apply N.eqb_neq. apply H. left; reflexivity. }
  rewrite E. cbn. apply IH. intros y Hy. apply H. right; exact Hy.
Qed.

Lemma step_untouched P s a args t g : spec_step false P s a args = Some t ->
  (forall e, In e (a_effs a) -> e_fl e <> g) -> forall x, t g x = s g x.
Proof.
  rewrite spec_step_eq. destruct (negb _); [discriminate|].
  destruct (fired false (mk_interp P s (zip_params (a_params a) args)) (a_effs a)) as [acts|] eqn:EF; [|discriminate].
  destruct (negb _); [discriminate|]. destruct (invariants_ok _ _ _); [|discriminate].
  intros E Hne x. inversion E; subst t. clear E.
  assert (Hk : forall y, In y acts -> fst (ae_key y) <> g).
  { intros y Hy. unfold fired in EF. pose proof (collect_res_In _ _ _ EF Hy) as Hin.
    apply in_flat_map in Hin. destruct Hin as [e [He Hin]]. apply in_map_iff in Hin. destruct Hin as [J [EJ _]].
    unfold eval_effect in EJ. destruct (evals_l false J (e_args e)) as [vs|]; [|discriminate].
    destruct (eval false (e_cond e) J) as [[[|]| |]|]; try discriminate.
    destruct (eval false (e_val e) J); [|discriminate]. inversion EJ; subst y. cbn [ae_key fst]. apply Hne. exact He. }
  unfold spec_succ, spec_fluent, avals, deltas. cbn [fst snd].
  rewrite !(filter_other_key g x _ acts Hk). reflexivity.
Qed.

Lemma run_closed P (G : state -> Prop) :
  (forall s aid a args t, G s -> lookup_action P aid = Some a -> spec_step false P s a args = Some t -> G t) ->
  forall pi s t, G s -> run P (spec_step false P) s pi = Some t -> G t.
Proof.
  intros Gstep. induction pi as [|[aid args] pi IH]; intros s t HG; cbn [run]; [intros E; inversion E; subst; exact HG|].
  destruct (lookup_action P aid) as [a|] eqn:EL; [|discriminate].
  destruct (spec_step false P s a args) as [m|] eqn:ES; [|discriminate]. apply IH. eapply Gstep; eassumption.
Qed.

Lemma valid_plan_ext P s t pi : state_eq s t -> valid_plan false P s pi = valid_plan false P t pi.
Proof.
  intros H. unfold valid_plan. pose proof (run_ext false P pi s t H) as E.
  destruct (run P (spec_step false P) s pi) as [u|], (run P (spec_step false P) t pi) as [v|]; simpl in E;
    try contradiction; [apply goals_hold_ext; exact E | reflexivity].
Qed.

Lemma sne_ext P s pi rho : sub_noop_eq P s pi rho -> forall s2, state_eq s s2 -> sub_noop_eq P s2 pi rho.
Proof.
  induction 1 as [s | s aid args a t pi rho EL ES _ IH | s aid args a t pi rho EL ES Hno _ IH]; intros s2 Hs.
  - constructor.
  - pose proof (spec_step_ext false P s s2 a args Hs) as E. rewrite ES in E.
    destruct (spec_step false P s2 a args) as [t2|] eqn:E2; [|destruct E].
    eapply sne_keep; [exact EL | exact E2 | apply IH; exact E].
  - pose proof (spec_step_ext false P s s2 a args Hs) as E. rewrite ES in E.
    destruct (spec_step false P s2 a args) as [t2|] eqn:E2; [|destruct E].
    eapply sne_drop; [exact EL | exact E2 | | apply IH; exact E].
    intros f x. rewrite <- (E f x), (Hno f x). apply Hs.
Qed.

Lemma sne_trans P s a b : sub_noop_eq P s a b -> forall c, sub_noop_eq P s b c -> sub_noop_eq P s a c.
Proof.
  induction 1 as [s | s aid args act t pi rho EL ES _ IH | s aid args act t pi rho EL ES Hno _ IH]; intros c Hc.
  - exact Hc.
  - inversion Hc as [| s1 aid1 args1 a1 t1 pi1 rho1 EL1 ES1 Hr | s1 aid1 args1 a1 t1 pi1 rho1 EL1 ES1 Hno1 Hr]; subst.
    + rewrite EL in EL1. inversion EL1; subst a1. rewrite ES in ES1. inversion ES1; subst t1.
      eapply sne_keep; [exact EL | exact ES | apply IH; exact Hr].
    + rewrite EL in EL1. inversion EL1; subst a1. rewrite ES in ES1. inversion ES1; subst t1.
      eapply sne_drop; [exact EL | exact ES | exact Hno1 | apply IH; exact Hr].
  - eapply sne_drop; [exact EL | exact ES | exact Hno |]. apply IH.
    apply (sne_ext P s rho c Hc). intros f x. symmetry. apply Hno.
Qed.

Lemma sne_refl P pi : forall s t, run P (spec_step false P) s pi = Some t -> sub_noop_eq P s pi pi.
Proof.
  induction pi as [|[aid args] pi IH]; intros s t; cbn [run]; [constructor|].
  destruct (lookup_action P aid) as [a|] eqn:EL; [|discriminate].
  destruct (spec_step false P s a args) as [m|] eqn:ES; [|discriminate]. intros ER.
  eapply sne_keep; [exact EL | exact ES | eapply IH; exact ER].
Qed.

Lemma sne_valid_refl P s pi : valid_plan false P s pi = true -> sub_noop_eq P s pi pi.
Proof.
  unfold valid_plan. destruct (run P (spec_step false P) s pi) as [t|] eqn:ER; [|discriminate].
  intros _. eapply sne_refl; exact ER.
Qed.

Lemma sne_Forall P s pi rho (Q : pstep -> Prop) : sub_noop_eq P s pi rho -> Forall Q pi -> Forall Q rho.
Proof.
  induction 1 as [s | s aid args a t pi rho _ _ _ IH | s aid args a t pi rho _ _ _ _ IH]; intros H.
  - constructor.
  - inversion H; subst. constructor; [assumption | apply IH; assumption].
  - inversion H; subst. apply IH; assumption.
Qed.

Section FromSim.
  Variable st : stage.
  (* every compiled step is matched by its image (no move when the step is auxiliary), related states again *)
  Hypothesis Hcompiled : forall s s' x' t', st_rel st s s' -> st_okD st x' ->
    run (st_dst st) (spec_step false (st_dst st)) s' [x'] = Some t' ->
    exists t, run (st_src st) (spec_step false (st_src st)) s (ostep (st_back st) x') = Some t /\ st_rel st t t'.
  (* a compiled step that changes nothing is matched by a source step that changes nothing (e.g. because the compiled
     state determines the source state) *)
  Hypothesis Huniq : forall s s' x' t t', st_rel st s s' -> st_rel st t t' -> state_eq s' t' ->
    run (st_src st) (spec_step false (st_src st)) s (ostep (st_back st) x') = Some t -> state_eq s t.

  Lemma sim_run pi' : forall s s' t', st_rel st s s' -> Forall (st_okD st) pi' ->
    run (st_dst st) (spec_step false (st_dst st)) s' pi' = Some t' ->
    exists t, run (st_src st) (spec_step false (st_src st)) s (pback (st_back st) pi') = Some t /\ st_rel st t t'.
  Proof.
    induction pi' as [|x' pi' IH]; intros s s' t' HR Hok ER.
    - cbn [run] in ER. inversion ER; subst. exists s. split; [reflexivity | exact HR].
    - inversion Hok as [|? ? Hx Hr]; subst.
      change (x' :: pi') with ([x'] ++ pi') in ER. rewrite run_app in ER.
      destruct (run (st_dst st) (spec_step false (st_dst st)) s' [x']) as [m'|] eqn:E1; [|discriminate].
      destruct (Hcompiled s s' x' m' HR Hx E1) as [m [Em HRm]].
      destruct (IH m m' t' HRm Hr ER) as [t [Et HRt]].
      exists t. split; [|exact HRt]. rewrite pback_cons, run_app, Em. exact Et.
  Qed.

  Theorem sim_sound :
    (forall t t', st_rel st t t' -> goals_hold false (st_dst st) t' = true -> goals_hold false (st_src st) t = true) ->
    stage_sound st.
  Proof.
    intros Hgoal s s' pi' HR Hok. unfold valid_plan.
    destruct (run (st_dst st) (spec_step false (st_dst st)) s' pi') as [t'|] eqn:ER; [|discriminate].
    destruct (sim_run pi' s s' t' HR Hok ER) as [t [-> HRt]]. apply Hgoal. exact HRt.
  Qed.

  Theorem sim_noop : stage_noop st.
  Proof.
    intros s s' pi' rho' HR Hok _ Hsub. revert s HR Hok.
    induction Hsub as [s' | s' aid args a' t' pi' rho' EL ES _ IH | s' aid args a' t' pi' rho' EL ES Hno _ IH];
      intros s HR Hok.
    - constructor.
    - inversion Hok as [|? ? Hx Hr]; subst.
      assert (E1 : run (st_dst st) (spec_step false (st_dst st)) s' [(aid, args)] = Some t')
        by (rewrite run_single, EL; exact ES).
      destruct (Hcompiled s s' (aid, args) t' HR Hx E1) as [t [Et HRt]].
      rewrite !pback_cons. unfold ostep in *. destruct (st_back st (aid, args)) as [[i ar]|].
      + rewrite run_single in Et. destruct (lookup_action (st_src st) i) as [a|] eqn:ELo; [|discriminate].
        cbn [app]. eapply sne_keep; [exact ELo | exact Et | apply IH; assumption].
      + cbn [run] in Et. inversion Et; subst t. cbn [app]. apply IH; assumption.
    - inversion Hok as [|? ? Hx Hr]; subst.
      assert (E1 : run (st_dst st) (spec_step false (st_dst st)) s' [(aid, args)] = Some t')
        by (rewrite run_single, EL; exact ES).
      destruct (Hcompiled s s' (aid, args) t' HR Hx E1) as [t [Et HRt]].
      assert (Hst : state_eq s t) by (apply (Huniq s s' (aid, args) t t' HR HRt); [intros f x; symmetry; apply Hno | exact Et]).
      rewrite pback_cons. unfold ostep in *. destruct (st_back st (aid, args)) as [[i ar]|].
      + rewrite run_single in Et. destruct (lookup_action (st_src st) i) as [a|] eqn:ELo; [|discriminate].
        cbn [app]. eapply sne_drop; [exact ELo | exact Et | | apply IH; assumption].
        intros f x. symmetry. apply Hst.
      + cbn [run] in Et. inversion Et; subst t. cbn [app]. apply IH; assumption.
  Qed.
End FromSim.

Section FromSimComplete.
  Variable st : stage.
  (* every source step changes nothing (and the relation survives), or is the image of a compiled step *)
  Hypothesis Hsource : forall s s' x t, st_rel st s s' -> st_okS st x ->
    run (st_src st) (spec_step false (st_src st)) s [x] = Some t ->
    ((forall f a, t f a = s f a) /\ st_rel st t s') \/
    exists x' t', run (st_dst st) (spec_step false (st_dst st)) s' [x'] = Some t' /\
                  st_back st x' = Some x /\ st_okD st x' /\ st_rel st t t'.

  Lemma sim_run_complete pi : forall s s' t, st_rel st s s' -> Forall (st_okS st) pi ->
    run (st_src st) (spec_step false (st_src st)) s pi = Some t ->
    exists pi' t', run (st_dst st) (spec_step false (st_dst st)) s' pi' = Some t' /\ st_rel st t t' /\
                   length pi' <= length pi /\ Forall (st_okD st) pi' /\
                   sub_noop_eq (st_src st) s pi (pback (st_back st) pi').
  Proof.
    induction pi as [|[i args] pi IH]; intros s s' t HR Hok ER.
    - cbn [run] in ER. inversion ER; subst. exists [], s'. repeat split; [exact HR | apply le_n | constructor | constructor].
    - inversion Hok as [|? ? Hx Hr]; subst.
      change ((i, args) :: pi) with ([(i, args)] ++ pi) in ER. rewrite run_app in ER.
      destruct (run (st_src st) (spec_step false (st_src st)) s [(i, args)]) as [m|] eqn:E1; [|discriminate].
      pose proof E1 as E1'. rewrite run_single in E1'.
      destruct (lookup_action (st_src st) i) as [a|] eqn:EL; [|discriminate].
      destruct (Hsource s s' (i, args) m HR Hx E1) as [[Hno HRm] | (x' & m' & E2 & Eb & Hx' & HRm)].
      + destruct (IH m s' t HRm Hr ER) as (pi' & t' & R1 & R2 & R3 & R4 & R5).
        exists pi', t'. repeat split; try assumption; [cbn [length]; lia|]. eapply sne_drop; eassumption.
      + destruct (IH m m' t HRm Hr ER) as (pi' & t' & R1 & R2 & R3 & R4 & R5).
        exists (x' :: pi'), t'. split; [change (x' :: pi') with ([x'] ++ pi'); rewrite run_app, E2; exact R1|].
        split; [exact R2|]. split; [cbn [length]; lia|]. split; [constructor; assumption|].
        rewrite pback_cons. unfold ostep. rewrite Eb. cbn [app]. eapply sne_keep; eassumption.
  Qed.

  Theorem sim_complete :
    (forall t t', st_rel st t t' -> goals_hold false (st_src st) t = true -> goals_hold false (st_dst st) t' = true) ->
    stage_complete st.
  Proof.
    intros Hgoal s s' pi HR Hok. unfold valid_plan.
    destruct (run (st_src st) (spec_step false (st_src st)) s pi) as [t|] eqn:ER; [|discriminate]. intros Hg.
    destruct (sim_run_complete pi s s' t HR Hok ER) as (pi' & t' & R1 & R2 & R3 & R4 & R5).
    exists pi'. split; [lia|]. rewrite R1. split; [exact (Hgoal t t' R2 Hg)|]. split; assumption.
  Qed.
End FromSimComplete.

Definition orel_by (R : state -> state -> Prop) (o o' : option state) : Prop :=
  match o, o' with Some t, Some t' => R t t' | None, None => True | _, _ => False end.

Section SameNames.
  Variables P P' : problem.
  Variable R : state -> state -> Prop.
  (* from related states, the step of a name in the one problem and in the other fail together or end in related states *)
  Hypothesis Hsame : forall s s' aid args, R s s' ->
    orel_by R (match lookup_action P aid with Some a => spec_step false P s a args | None => None end)
              (match lookup_action P' aid with Some a' => spec_step false P' s' a' args | None => None end).

  Lemma run_sim pi : forall s s', R s s' ->
    orel_by R (run P (spec_step false P) s pi) (run P' (spec_step false P') s' pi).
  Proof.
    induction pi as [|[aid args] pi IH]; intros s s' HR; [exact HR|]. cbn [run].
    pose proof (Hsame s s' aid args HR) as H.
    destruct (lookup_action P aid) as [a|], (lookup_action P' aid) as [a'|];
      try (destruct (spec_step false P s a args)); try (destruct (spec_step false P' s' a' args));
      try exact H; try contradiction. apply IH. exact H.
  Qed.

  Theorem valid_plan_sim : (forall t t', R t t' -> goals_hold false P' t' = goals_hold false P t) ->
    forall s s' pi, R s s' -> valid_plan false P' s' pi = valid_plan false P s pi.
  Proof.
    intros Hgoal s s' pi HR. unfold valid_plan. pose proof (run_sim pi s s' HR) as H.
    destruct (run P (spec_step false P) s pi) as [t|], (run P' (spec_step false P') s' pi) as [t'|];
      try contradiction; [apply Hgoal; exact H | reflexivity].
  Qed.
End SameNames.

Lemma fl_syms_kids e : fl_syms e = match e with EFluent f _ => [f] | _ => [] end ++ flat_map fl_syms (kids e).
Proof. destruct e; cbn [fl_syms kids flat_map app]; rewrite ?fl_syms_fix, ?app_nil_r; reflexivity. Qed.

Section Checked.
  Variable chk : expr -> bool.
  Variable ok : N -> Prop.
  (* the check passes on the sub-expressions, and admits the symbol of a fluent expression *)
  Hypothesis Hchk : forall e, chk e = true ->
    match e with EFluent f _ => ok f | _ => True end /\ forallb chk (kids e) = true.

  Lemma checked_syms e : chk e = true -> forall f, In f (fl_syms e) -> ok f.
  Proof.
    induction e as [e IH] using expr_kids_ind. intros Hc f Hf. destruct (Hchk e Hc) as [H1 H2].
    rewrite fl_syms_kids in Hf. apply in_app_or in Hf. destruct Hf as [Hf|Hf].
    - destruct e; try contradiction. destruct Hf as [<-|[]]. exact H1.
    - apply in_flat_map in Hf. destruct Hf as [x [Hx Hf]]. rewrite Forall_forall in IH. rewrite forallb_forall in H2.
      exact (IH x Hx (H2 x Hx) f Hf).
  Qed.

  (* interpretations that agree on the admitted fluent symbols give a checked expression the same value *)
  Lemma eval_checked sc e I J : fl_agree ok I J -> chk e = true -> eval sc e I = eval sc e J.
  Proof. intros HA Hc. exact (eval_depends sc ok e (checked_syms e Hc) I J HA). Qed.
End Checked.


(* C06 / C07, Layer A — facts about steps, runs and plans shared by the per-compiler proofs. *)
From Coq Require Import List ZArith NArith Bool.
Import ListNotations.
Require Import UPV.Core.Expr UPV.Core.Eval UPV.Core.Interp UPV.Planning.Problem UPV.Planning.Sem.
Require Import UPV.Proofs.Eval_lemmas UPV.Proofs.Sem_proofs UPV.Proofs.Step_proofs.
Require Import UPV.Compilers.LayerA_Defs UPV.Compilers.LayerA_Quant.
Local Open Scope nat_scope.

Lemma ostate_eq_refl o : ostate_eq o o.
Proof. exact (Step_proofs.ostate_eq_refl o). Qed.
Lemma ostate_eq_sym a b : ostate_eq a b -> ostate_eq b a.
Proof. exact (Step_proofs.ostate_eq_sym a b). Qed.
Lemma ostate_eq_trans a b c : ostate_eq a b -> ostate_eq b c -> ostate_eq a c.
Proof. exact (Step_proofs.ostate_eq_trans a b c). Qed.


(* a compiled-action table keyed by the compiled name: the entry of a name is found *)
Lemma find_key_unique {B C} (t : list (N * B * C)) k b c :
  NoDup (map (fun x => fst (fst x)) t) -> In (k, b, c) t -> find (fun x => (fst (fst x) =? k)%N) t = Some (k, b, c).
Proof.
  induction t as [|[[k' b'] c'] t IH]; intros Hnd Hin; [destruct Hin|].
  cbn [map fst find] in *. inversion Hnd as [|? ? Hn Hnd']; subst. destruct Hin as [Hin|Hin].
  - inversion Hin; subst. rewrite N.eqb_refl. reflexivity.
  - destruct (k' =? k)%N eqn:E; [|apply IH; assumption].
    apply N.eqb_eq in E. subst. exfalso. apply Hn. apply (in_map (fun x => fst (fst x)) _ _ Hin).
Qed.

Lemma map_actions_ids q l k : In k (map fst (map_actions q l)) -> In k (map fst l).
Proof.
  induction l as [|[i a] l IH]; simpl; [tauto|]. unfold map_actions in *. simpl.
  rewrite map_app, in_app_iff. intros [H|H]; [|right; apply IH; exact H].
  destruct (q a); simpl in H; [|destruct H]. destruct H as [<-|[]]. left; reflexivity.
Qed.

Lemma lookup_map_actions q l k : NoDup (map fst l) ->
  lookupN k (map_actions q l) = match lookupN k l with Some a => q a | None => None end.
Proof.
  induction l as [|[i a] l IH]; intros Hnd; [reflexivity|].
  inversion Hnd as [|? ? Hn Hnd']; subst. unfold map_actions in *. simpl.
  destruct (k =? i)%N eqn:E.
  - apply N.eqb_eq in E. subst i. destruct (q a) as [a'|]; simpl.
    + rewrite N.eqb_refl. reflexivity.
    + apply lookupN_notin. intros H. apply Hn. apply (map_actions_ids q l k). exact H.
  - destruct (q a) as [a'|]; simpl; [rewrite E|]; apply IH; exact Hnd'.
Qed.

Lemma spec_succ_bool P s acts : bool_state P s -> bool_state P (spec_succ P s acts).
Proof.
  intros H f args Hf. unfold spec_succ, spec_fluent. cbn [fst snd]. rewrite Hf.
  destruct (avals (f, args) acts) as [|a A], (deltas (f, args) acts) as [|d D]; cbn [combine]; try apply H; try exact Hf.
  - destruct (H f args Hf) as [->|[b ->]]; [left; reflexivity | right; exists b; reflexivity].
  - right. eexists. reflexivity.
Qed.

Lemma spec_step_bool sc P s a args t : bool_state P s -> spec_step sc P s a args = Some t -> bool_state P t.
Proof.
  intros H. unfold spec_step.
  destruct (negb (all_hold sc _ (a_pre a))); [discriminate|].
  destruct (fired sc _ (a_effs a)) as [acts|]; [|discriminate].
  destruct (negb (spec_effects_ok P s acts)); [discriminate|].
  destruct (invariants_ok sc P (spec_succ P s acts)); [|discriminate].
  intros E. inversion E; subst. apply spec_succ_bool. exact H.
Qed.

(* two actions with different parameter lists / arguments that evaluate alike (grounding) *)
Lemma spec_step_cong2 P P' s a a' args args' :
  p_objs P' = p_objs P -> p_ifun P' = p_ifun P -> p_fluents P' = p_fluents P ->
  let I := mk_interp P s (zip_params (a_params a) args) in
  let I' := mk_interp P s (zip_params (a_params a') args') in
  all_hold false I' (a_pre a') = all_hold false I (a_pre a) ->
  fired false I' (a_effs a') = fired false I (a_effs a) ->
  (forall acts, fired false I (a_effs a) = Some acts ->
                invariants_ok false P' (spec_succ P s acts) = invariants_ok false P (spec_succ P s acts)) ->
  spec_step false P' s a' args' = spec_step false P s a args.
Proof.
  intros Ho Hi Hf I I' Hpre Hfi Hinv. rewrite !spec_step_eq.
  assert (EI : mk_interp P' s (zip_params (a_params a') args') = I').
  { unfold I', mk_interp, objs_of. rewrite Ho, Hi. reflexivity. }
  rewrite EI. fold I. rewrite Hpre, Hfi.
  destruct (negb (all_hold false I (a_pre a))); [reflexivity|].
  destruct (fired false I (a_effs a)) as [acts|] eqn:EF; [|reflexivity].
  assert (E1 : spec_effects_ok P' s acts = spec_effects_ok P s acts).
  { unfold spec_effects_ok, spec_fluent, is_bool_fluent. rewrite Hf. reflexivity. }
  assert (E2 : spec_succ P' s acts = spec_succ P s acts).
  { unfold spec_succ, spec_fluent, is_bool_fluent. rewrite Hf. reflexivity. }
  rewrite E1, E2, (Hinv acts eq_refl). reflexivity.
Qed.

Lemma spec_step_cong P P' s a a' args :
  p_objs P' = p_objs P -> p_ifun P' = p_ifun P -> p_fluents P' = p_fluents P -> a_params a' = a_params a ->
  let I := mk_interp P s (zip_params (a_params a) args) in
  all_hold false I (a_pre a') = all_hold false I (a_pre a) ->
  fired false I (a_effs a') = fired false I (a_effs a) ->
  (forall acts, fired false I (a_effs a) = Some acts ->
                invariants_ok false P' (spec_succ P s acts) = invariants_ok false P (spec_succ P s acts)) ->
  spec_step false P' s a' args = spec_step false P s a args.
Proof.
  intros Ho Hi Hf Hp. pose proof (spec_step_cong2 P P' s a a' args args Ho Hi Hf) as H. cbv zeta in H. rewrite Hp in H.
  exact H.
Qed.

(* [collect_res] does not see skipped effect instances *)
Definition is_skip (r : eres) : bool := match r with ESkip => true | _ => false end.
Definition strip (L : list eres) : list eres := filter (fun r => negb (is_skip r)) L.

Lemma collect_res_strip L : collect_res L = collect_res (strip L).
Proof.
  induction L as [|r L IH]; [reflexivity|]. destruct r; simpl; [reflexivity | exact IH | rewrite IH; reflexivity].
Qed.

Lemma strip_app L1 L2 : strip (L1 ++ L2) = strip L1 ++ strip L2.
Proof. unfold strip. apply filter_app. Qed.

Lemma strip_flat_map {A} (f g : A -> list eres) l :
  (forall x, In x l -> strip (f x) = strip (g x)) -> strip (flat_map f l) = strip (flat_map g l).
Proof.
  induction l as [|x l IH]; intros H; [reflexivity|]. simpl. rewrite !strip_app.
  rewrite (H x (or_introl eq_refl)), IH; [reflexivity|]. intros y Hy. apply H. right; exact Hy.
Qed.

Lemma all_hold_fold_add_pre sc I l : forall acc,
  all_hold sc I (fold_left add_pre l acc) = all_hold sc I acc && all_hold sc I l.
Proof.
  induction l as [|p l IH]; intros acc; cbn [fold_left].
  - cbn [all_hold forallb]. rewrite andb_true_r. reflexivity.
  - rewrite IH. unfold add_pre. change (all_hold sc I (p :: l)) with (holds sc I p && all_hold sc I l).
    destruct (is_true p) eqn:Et; cbn [orb].
    + rewrite (holds_of_is_true sc I p Et). reflexivity.
    + destruct (existsb (expr_eqb p) acc) eqn:Em.
      * destruct (all_hold sc I acc) eqn:Ea; [|reflexivity].
        apply existsb_exists in Em. destruct Em as [q [Hq Eq]]. apply expr_eqb_eq in Eq. subst q.
        rewrite (all_hold_In sc I acc p Ea Hq). reflexivity.
      * rewrite all_hold_app. change (all_hold sc I [p]) with (holds sc I p && true). rewrite andb_true_r.
        rewrite andb_assoc. reflexivity.
Qed.

Lemma all_hold_add_pres sc I l : all_hold sc I (add_pres l) = all_hold sc I l.
Proof. unfold add_pres. apply all_hold_fold_add_pre. Qed.

Lemma all_hold_filter_true sc I l : all_hold sc I (filter (fun g => negb (is_true g)) l) = all_hold sc I l.
Proof.
  induction l as [|g l IH]; [reflexivity|]. cbn [filter].
  change (all_hold sc I (g :: l)) with (holds sc I g && all_hold sc I l).
  destruct (is_true g) eqn:E; cbn [negb].
  - rewrite (holds_of_is_true sc I g E). exact IH.
  - change (all_hold sc I (g :: filter (fun g0 => negb (is_true g0)) l))
      with (holds sc I g && all_hold sc I (filter (fun g0 => negb (is_true g0)) l)). rewrite IH. reflexivity.
Qed.

Lemma all_hold_map_eq2 sc I I' (f : expr -> expr) l :
  (forall x, In x l -> eval sc (f x) I' = eval sc x I) -> all_hold sc I' (map f l) = all_hold sc I l.
Proof.
  induction l as [|x l IH]; intros H; [reflexivity|]. cbn [map].
  change (all_hold sc I' (f x :: map f l)) with (holds sc I' (f x) && all_hold sc I' (map f l)).
  change (all_hold sc I (x :: l)) with (holds sc I x && all_hold sc I l).
  unfold holds at 1 2. rewrite (H x (or_introl eq_refl)), IH; [reflexivity|]. intros y Hy. apply H. right; exact Hy.
Qed.

Lemma evals_l_map_eq2 sc J J' (f : expr -> expr) l :
  (forall x, In x l -> eval sc (f x) J' = eval sc x J) -> evals_l sc J' (map f l) = evals_l sc J l.
Proof.
  induction l as [|x l IH]; intros H; [reflexivity|]. cbn [map evals_l].
  rewrite (H x (or_introl eq_refl)), IH; [reflexivity|]. intros y Hy. apply H. right; exact Hy.
Qed.

(* check_and_simplify_preconditions reads a simplified conjunction: FALSE = no action, TRUE = no precondition, an And = its
   arguments, anything else = itself *)
Definition pre_parts (c : expr) : option (list expr) :=
  match c with EBool false => None | EBool true => Some [] | EAnd l => Some l | ps => Some [ps] end.

Lemma pre_parts_spec sc I c :
  match pre_parts c with Some l => all_hold sc I l = holds sc I c | None => holds sc I c = false end.
Proof.
  destruct c as [[|]| | | | | | | |l| | | | | | | | | | | | | | | | | |]; cbn [pre_parts];
    try reflexivity; try (unfold all_hold; cbn [forallb]; apply andb_true_r).
  symmetry. apply holds_EAnd.
Qed.

(* bounded types only depend on the objects and the fluent declarations *)
Lemma arg_tuples_objs P P' sig : p_objs P' = p_objs P -> arg_tuples P' sig = arg_tuples P sig.
Proof.
  intros H. induction sig as [|t sig IH]; [reflexivity|]. cbn [arg_tuples]. unfold objs_of. rewrite H, IH. reflexivity.
Qed.

Lemma bound_invs_sig P P' : p_objs P' = p_objs P -> p_fluents P' = p_fluents P -> bound_invs P' = bound_invs P.
Proof.
  intros Ho Hf. unfold bound_invs. rewrite Hf. apply flat_map_ext. intros fd.
  destruct (fd_ty fd); try reflexivity. rewrite (arg_tuples_objs P P' _ Ho). reflexivity.
Qed.

Section SameSig.
  Variables P P' : problem.
  Hypothesis Ho : p_objs P' = p_objs P.
  Hypothesis Hi : p_ifun P' = p_ifun P.
  Hypothesis Hf : p_fluents P' = p_fluents P.
  Hypothesis Hv : p_invs P' = p_invs P.

  Lemma mk_interp_same s pars : mk_interp P' s pars = mk_interp P s pars.
  Proof. unfold mk_interp, objs_of. rewrite Ho, Hi. reflexivity. Qed.

  Lemma invariants_ok_same s : invariants_ok false P' s = invariants_ok false P s.
  Proof. unfold invariants_ok. rewrite mk_interp_same, Hv, (bound_invs_sig P P' Ho Hf). reflexivity. Qed.

  Lemma spec_step_same s a args : spec_step false P' s a args = spec_step false P s a args.
  Proof. apply spec_step_cong; auto. intros acts _. apply invariants_ok_same. Qed.

  Lemma goals_hold_same s : p_goals P' = p_goals P -> goals_hold false P' s = goals_hold false P s.
  Proof. intros Hg. unfold goals_hold. rewrite mk_interp_same, Hg. reflexivity. Qed.
End SameSig.

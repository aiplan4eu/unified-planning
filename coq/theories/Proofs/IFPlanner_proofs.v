(* Proofs about the refinement loop of the interpreted-functions planner (Model/IFPlanner.v). *)
From Coq Require Import List Arith Bool Lia.
Import ListNotations.
Require Import UPV.Model.Oversub UPV.Model.IFPlanner.

Section Sound.
  Variable plan K Obs : Type.
  Variable planner : K -> status * option plan.
  Variable validate : plan -> bool * Obs.
  Variable update : K -> Obs -> K.
  Variable size : K -> nat.

  Notation loop := (ifp_loop plan K Obs planner validate update size).

  (* whatever the engine, the compiler and the knowledge do: a returned plan passed the validation of the ORIGINAL
     problem, it comes with a positive status, and a non-positive status comes without a plan *)
  Lemma ifp_returned : forall fuel k st pl,
      loop fuel k = Returned st pl ->
      match pl with Some p => fst (validate p) = true /\ positive st = true | None => positive st = false end.
  Proof.
    induction fuel as [|fuel IH]; intros k st pl H; simpl in H; [discriminate|].
    destruct (planner k) as [st0 pl0] eqn:Hp.
    destruct (positive st0) eqn:Hpos; [|inversion H; subst; exact Hpos].
    destruct pl0 as [p0|]; [|discriminate].
    destruct (validate p0) as [ok o] eqn:Hv.
    destruct ok.
    - inversion H; subst. rewrite Hv. auto.
    - destruct (size k <? size (update k o)); [exact (IH _ _ _ H) | discriminate].
  Qed.

  Lemma ifp_sound_any : forall fuel k st p,
      loop fuel k = Returned st (Some p) -> fst (validate p) = true /\ positive st = true.
  Proof. intros fuel k st p H. exact (ifp_returned fuel k st (Some p) H). Qed.

  Lemma ifp_no_plan_status : forall fuel k st,
      loop fuel k = Returned st None -> positive st = false.
  Proof. intros fuel k st H. exact (ifp_returned fuel k st None H). Qed.
End Sound.

Section Complete.
  Variable plan K Obs : Type.
  Variable planner : K -> status * option plan.
  Variable validate : plan -> bool * Obs.
  Variable update : K -> Obs -> K.
  Variable size : K -> nat.

  Notation loop := (ifp_loop plan K Obs planner validate update size).

  Variable valid : plan -> bool.              (* validity for the ORIGINAL problem *)
  Variable validC : K -> plan -> bool.        (* validity (after mapping back) for the problem compiled with knowledge k *)
  Variable consistent : K -> Prop.            (* every entry of k is a true value of its interpreted function *)
  Variable bound : nat.                       (* number of interpreted-function applications *)

  (* the validator decides validity for the original problem (C03) *)
  Hypothesis validate_exact : forall p, fst (validate p) = valid p.
  (* the underlying engine returns only valid plans ... *)
  Hypothesis engine_sound : forall k st pl, planner k = (st, pl) -> positive st = true ->
      exists p, pl = Some p /\ validC k p = true.
  (* ... and is complete *)
  Hypothesis engine_complete : forall k, (exists p, validC k p = true) -> positive (fst (planner k)) = true.
  (* H1: with consistent knowledge the compiled problem is a relaxation of the original *)
  Hypothesis relaxation : forall k p, consistent k -> valid p = true -> validC k p = true.
  (* H2: a plan of the compiled problem that fails validation teaches something new and true *)
  Hypothesis growth : forall k p, consistent k -> validC k p = true -> valid p = false ->
      consistent (update k (snd (validate p))) /\ size k < size (update k (snd (validate p))).
  (* ... and there are only [bound] function applications to learn *)
  Hypothesis finite : forall k, consistent k -> size k <= bound.

  Inductive good : outcome plan -> Prop :=
  | good_plan : forall st p, positive st = true -> valid p = true -> good (Returned st (Some p))
  | good_none : forall st, positive st = false -> (forall p, valid p = false) -> good (Returned st None).

  Lemma ifp_loop_good : forall n k fuel, consistent k -> bound - size k < n -> n <= fuel -> good (loop fuel k).
  Proof.
    induction n as [|n IH]; intros k fuel Hc Hn Hf; [lia|].
    destruct fuel as [|fuel]; [lia|].
    simpl.
    destruct (planner k) as [st pl] eqn:Hp.
    destruct (positive st) eqn:Hpos.
    - destruct (engine_sound k st pl Hp Hpos) as [p [-> Hvc]].
      destruct (validate p) as [ok o] eqn:Hv.
      pose proof (validate_exact p) as Hex. rewrite Hv in Hex. simpl in Hex.
      destruct ok.
      + constructor; auto.
      + destruct (growth k p Hc Hvc (eq_sym Hex)) as [Hc' Hlt]. rewrite Hv in Hc', Hlt. simpl in Hc', Hlt.
        destruct (size k <? size (update k o)) eqn:Hs; [|apply Nat.ltb_ge in Hs; lia].
        apply IH; auto.
        pose proof (finite _ Hc'). lia. lia.
    - constructor; auto.
      intro p. destruct (valid p) eqn:Hvp; auto.
      assert (positive (fst (planner k)) = true) as Habs
          by (apply engine_complete; exists p; apply relaxation; auto).
      rewrite Hp in Habs. simpl in Habs. congruence.
  Qed.

  Variable k0 : K.
  Hypothesis k0_consistent : consistent k0.

  Lemma ifp_good fuel : bound < fuel -> good (loop fuel k0).
  Proof. intros Hf. apply (ifp_loop_good (S bound)); [exact k0_consistent | lia | lia]. Qed.

  Lemma ifp_complete_lemma : forall fuel, bound < fuel ->
      (exists p, valid p = true) ->
      exists st p, loop fuel k0 = Returned st (Some p) /\ positive st = true /\ valid p = true.
  Proof.
    intros fuel Hf [p0 Hp0]. pose proof (ifp_good fuel Hf) as Hg.
    inversion Hg as [st p Hpos Hv Heq | st Hpos Hno Heq].
    - exists st, p. auto.
    - rewrite Hno in Hp0. discriminate.
  Qed.

  Lemma ifp_terminates_lemma : forall fuel, bound < fuel ->
      exists st pl, loop fuel k0 = Returned st pl.
  Proof.
    intros fuel Hf. pose proof (ifp_good fuel Hf) as Hg. inversion Hg; eauto.
  Qed.

  Lemma ifp_negative_truthful : forall fuel st, bound < fuel ->
      loop fuel k0 = Returned st None -> forall p, valid p = false.
  Proof.
    intros fuel st Hf H. pose proof (ifp_good fuel Hf) as Hg. rewrite H in Hg. inversion Hg; auto.
  Qed.
End Complete.

(* Without the relaxation hypothesis completeness does not follow from a sound and complete engine: a compiled problem
   that is NOT a relaxation (here: no compiled plan at all, as InterpretedFunctionsRemover produces for the open findings
   C31-IF-EFFECT-CONDITION-READS-UNKNOWN / C31-IF-BOUNDED-STALE-VALUE) makes the loop answer UNSOLVABLE_PROVEN although
   the original problem has a valid plan (plan 0). *)
Lemma ifp_complete_needs_relaxation :
  exists (planner : nat -> status * option nat) (validate : nat -> bool * unit) (update : nat -> unit -> nat)
         (size : nat -> nat) (valid : nat -> bool) (validC : nat -> nat -> bool),
    (forall p, fst (validate p) = valid p) /\
    (forall k st pl, planner k = (st, pl) -> positive st = true -> exists p, pl = Some p /\ validC k p = true) /\
    (forall k, (exists p, validC k p = true) -> positive (fst (planner k)) = true) /\
    (forall k p, validC k p = true -> valid p = false -> size k < size (update k (snd (validate p)))) /\
    (exists p, valid p = true) /\
    forall fuel, ifp_loop nat nat unit planner validate update size (S fuel) 0 = Returned UnsolvProven None.
Proof.
  exists (fun _ => (UnsolvProven, None)), (fun p => (Nat.eqb p 0, tt)), (fun k _ => S k), (fun k => k),
         (fun p => Nat.eqb p 0), (fun _ _ => false).
  split; [reflexivity|]. split.
  { intros k st pl H Hpos. inversion H; subst. discriminate. }
  split. { intros k [p Hp]. discriminate. }
  split. { intros; discriminate. }
  split. { exists 0. reflexivity. }
  intro fuel. reflexivity.
Qed.

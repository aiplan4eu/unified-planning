(* Structural correspondence for the Layer A model of DisjunctiveConditionsRemover with a DISJUNCTIVE GOAL
   (Compilers/LayerA_DcrGoal.v, proved in Proofs/LayerA_DcrGoal_proofs.v and LayerA_DcrGoalPlan_proofs.v): [dcrg_compile] applied to the serialised
   original problem is compared with the serialised problem the REAL compiler produced (one name table for both).
   External behaviour is read off the real run: the disjunct tables of the Dnf walker (effect conditions, action
   preconditions, goals: harness/layera_dcrgoal.py), the fresh names (the k-th real variant of an original action, the
   k-th real goal action) and the fake fluent.  With the real names plugged in, the comparison is NAME BY NAME AND IN
   ORDER: the compiled action list must be the model's (variants of the actions in order, then the goal actions in
   the order of the goals' disjuncts), effects in order (the appended fk := false included), preconditions as sets. *)
From Coq Require Import List ZArith NArith QArith Qcanon Bool.
Import ListNotations.
Require Import UPV.Core.Expr UPV.Core.Eval UPV.Core.Interp UPV.Planning.Problem UPV.Planning.Sem.
Require Import UPV.Compilers.Variants UPV.Compilers.LayerA_Defs UPV.Compilers.LayerA_Quant UPV.Compilers.LayerA_Variants.
Require Import UPV.Compilers.LayerA_Pipe UPV.Compilers.LayerA_DcrGoal UPV.Corr.Corr_LayerA.

Record dg_case := {
  dg_orig : problem;
  dg_comp : problem;                          (* what the real compiler produced *)
  dg_back : list (N * option N);              (* EVERY compiled action: Some original action / None (real new_to_old) *)
  dg_cdnf : list (expr * list expr);          (* effect condition -> its disjuncts (real Dnf walker + simplify) *)
  dg_pdnf : list (N * list (list expr));      (* original action id -> disjuncts of its preconditions *)
  dg_gds : list (list expr);                  (* disjuncts of the goals: the goal actions' preconditions *)
  dg_fk : N;                                  (* the fluent of the compiled problem that the original does not have *)
  dg_fk_default : option bool                 (* its default initial value in the real compiled problem *)
}.

Definition dg_cdnf_fun (c : dg_case) (e : expr) : list expr :=
  match find (fun kv => expr_eqb (fst kv) e) (dg_cdnf c) with Some kv => snd kv | None => [e] end.

(* pre_dnf is a function of the action in the model; the table is keyed by the action's name *)
Definition dg_pdnf_fun (c : dg_case) (a : action) : list (list expr) :=
  match find (fun ia => act_eqb (snd ia) a) (p_actions (dg_orig c)) with
  | Some ia => match lookupN (fst ia) (dg_pdnf c) with Some l => l | None => [] end
  | None => []
  end.

(* get_fresh_name as observed: the k-th compiled action that maps back to i / to nothing *)
Definition dg_names_of (c : dg_case) (o : option N) : list N :=
  flat_map (fun ia => match lookupN (fst ia) (dg_back c) with
                      | Some b => match b, o with
                                  | Some j, Some i => if (j =? i)%N then [fst ia] else []
                                  | None, None => [fst ia]
                                  | _, _ => []
                                  end
                      | None => []
                      end) (p_actions (dg_comp c)).
Definition dg_nm (c : dg_case) (i : N) (k : nat) : N := nth k (dg_names_of c (Some i)) 0%N.
Definition dg_gnm (c : dg_case) (k : nat) : N := nth k (dg_names_of c None) 0%N.

Definition dg_model (c : dg_case) : problem :=
  dcrg_compile (dg_cdnf_fun c) (dg_pdnf_fun c) (dg_nm c) (dg_fk c) (dg_gnm c) (dg_gds c) (dg_orig c).

Fixpoint fds_eqb (a b : list fdecl) : bool :=
  match a, b with
  | [], [] => true
  | x :: a', y :: b' => fd_eqb x y && fds_eqb a' b'
  | _, _ => false
  end.

Fixpoint acts_ordered (m r : list (N * action)) : bool :=
  match m, r with
  | [], [] => true
  | (i, a) :: m', (j, b) :: r' => (i =? j)%N && act_eqb a b && acts_ordered m' r'
  | _, _ => false
  end.

Definition dg_variants_real (c : dg_case) (i : N) : list action :=
  flat_map (fun ia => match lookupN (fst ia) (dg_back c) with
                      | Some (Some j) => if (j =? i)%N then [snd ia] else []
                      | _ => []
                      end) (p_actions (dg_comp c)).
Definition dg_goal_actions_real (c : dg_case) : list action :=
  flat_map (fun ia => match lookupN (fst ia) (dg_back c) with Some None => [snd ia] | _ => [] end) (p_actions (dg_comp c)).

Fixpoint acts_list_eqb (m r : list action) : bool :=
  match m, r with
  | [], [] => true
  | a :: m', b :: r' => act_eqb a b && acts_list_eqb m' r'
  | _, _ => false
  end.

Definition ostep_eqb (a b : option pstep) : bool :=
  match a, b with
  | Some (i, _), Some (j, _) => (i =? j)%N
  | None, None => true
  | _, _ => false
  end.

(* code: 0 = agree.  bits: 1 the variants of some original action (as a set, each with the appended fk := false),
   2 goal, 4 state invariants, 8 fluents (ordered: the fake fluent is appended), 16 map back (model's dcrg_back against
   the real new_to_old, goal actions -> None), 32 the goal actions (in the order of the disjuncts),
   64 the whole action list name by name and in order, 128 the fake fluent's default is not False *)
Definition dg_code (c : dg_case) : N :=
  let M := dg_model c in
  let R := dg_comp c in
  let cd := dg_cdnf_fun c in
  let b_var := forallb (fun ia =>
                  acts_as_set (map (add_reset (dg_fk c)) (dnf_variants cd (snd ia) (dg_pdnf_fun c (snd ia))))
                              (dg_variants_real c (fst ia))) (p_actions (dg_orig c)) in
  let b_goal := list_expr_eqb (p_goals M) (p_goals R) in
  let b_inv := seteq_e (p_invs M) (p_invs R) in
  let b_fl := fds_eqb (p_fluents M) (p_fluents R) in
  let b_back := forallb (fun ia =>
                   ostep_eqb (dcrg_back cd (dg_pdnf_fun c) (dg_nm c) (dg_fk c) (dg_gnm c) (dg_gds c) (dg_orig c) (fst ia, []))
                             (match lookupN (fst ia) (dg_back c) with
                              | Some (Some j) => Some (j, [])
                              | _ => None
                              end)) (p_actions R) in
  let b_gact := acts_list_eqb (map snd (goal_actions (dg_fk c) (dg_gnm c) (dg_gds c))) (dg_goal_actions_real c) in
  let b_all := acts_ordered (p_actions M) (p_actions R) in
  let b_def := match dg_fk_default c with Some false => true | _ => false end in
  ((if b_var then 0 else 1) + (if b_goal then 0 else 2) + (if b_inv then 0 else 4) + (if b_fl then 0 else 8) +
   (if b_back then 0 else 16) + (if b_gact then 0 else 32) + (if b_all then 0 else 64) + (if b_def then 0 else 128))%N.

(* the decidable hypotheses of C06_LA_dcrgoal_sound / C07_LA_dcrgoal_complete on the real instance (coverage):
   bit 1 unique action names of the original, bit 2 of the compiled problem (the model's, with the real names),
   bit 4 dcrg_fresh *)
Definition dg_hyps (c : dg_case) : N :=
  ((if nodupN (map fst (p_actions (dg_orig c))) then 1 else 0) +
   (if nodupN (map fst (p_actions (dg_model c))) then 2 else 0) +
   (if dcrg_fresh (dg_cdnf_fun c) (dg_pdnf_fun c) (dg_nm c) (dg_fk c) (dg_gds c) (dg_orig c) then 4 else 0))%N.

Definition dg_report (c : dg_case) : list N := [dg_code c; dg_hyps c; N.of_nat (length (dg_gds c))].

(* C01 — Sequential simulator computes exactly the documented successor semantics.
   [spec_step false] is the documented semantics (strict reading of "a condition that reads a fluent with no value is
   never satisfied"); [sim_apply sc] is the algorithm of UPSequentialSimulator._apply/apply_unsafe/_evaluate_effect with
   the expression evaluator's quantifier mode [sc] (the code: sc = true).  Statements; each is closed by a lemma of
   Proofs/Sem_proofs.v, Step_proofs.v, Ground_proofs.v or Ground_subst.v, the _refuted witnesses by computation. *)
From Coq Require Import List ZArith NArith QArith Qcanon Bool.
Import ListNotations.
Require Import UPV.Core.Expr UPV.Core.Eval UPV.Core.Interp UPV.Planning.Problem UPV.Planning.Sem.
Require Import UPV.Proofs.Sem_proofs UPV.Proofs.Step_proofs.

(* the ordered loop with updated_values/assigned_fluent = the declarative per-fluent combination: Boolean assigned both
   values ends true, two different values => inapplicable, assignment + increase/decrease => inapplicable,
   increases and decreases accumulate; for every state, every list of fired effect instances *)
Theorem C01_effect_loop_is_declarative_combination :
  forall P s acts, forallb (wt_aeff P) acts = true ->
    match sim_loop P s ([], []) acts with
    | Some (upd, _) => spec_effects_ok P s acts = true /\
                       forall f args, apply_upd s upd f args = spec_succ P s acts f args
    | None => spec_effects_ok P s acts = false
    end.
Proof. exact sim_loop_spec. Qed.
Print Assumptions C01_effect_loop_is_declarative_combination.

(* whole step, any evaluator mode: applicability verdict and successor of the simulator = documented step *)
Theorem C01_sim_apply_refines_spec :
  forall sc P s a args, effects_typed sc P s a args ->
    ostate_eq (sim_apply sc P s a args) (spec_step sc P s a args).
Proof. exact sim_apply_refines_spec. Qed.
Print Assumptions C01_sim_apply_refines_spec.

(* every history: running any plan from extensionally equal states *)
Theorem C01_sim_run_refines_spec :
  forall sc P plan, plan_typed sc P -> forall s t, state_eq s t ->
    ostate_eq (run P (sim_apply sc P) s plan) (run P (spec_step sc P) t plan).
Proof. exact sim_run_refines_spec. Qed.
Print Assumptions C01_sim_run_refines_spec.

(* "A condition or goal that reads a fluent with no value is never satisfied" (strict reading) *)
Theorem C01_undefined_never_satisfied :
  forall I c, eval false c I = None -> holds false I c = false.
Proof. exact undefined_never_satisfied. Qed.
Print Assumptions C01_undefined_never_satisfied.

(* the code's short-circuit quantifiers agree with the strict reading whenever the strict reading is defined *)
Theorem C01_short_circuit_refines_strict :
  forall e I v, eval false e I = Some v -> eval true e I = Some v.
Proof. exact eval_sc_refines. Qed.
Print Assumptions C01_short_circuit_refines_strict.

(* ... and NOT conversely: Exists x. p(x) over objects [o1; o0] with p(o1) true and p(o0) undefined is satisfied under
   short-circuit evaluation although it "reads a fluent with no value" under the strict reading (finding, see DESIGN) *)
Theorem C01_short_circuit_refuted :
  exists e I, eval true e I = Some (VBool true) /\ eval false e I = None.
Proof.
  exists (EExists [(0%N, 0%N)] (EFluent 0%N [EVar 0%N 0%N])).
  exists {| fl := fun f a => match a with [VObj 1%N] => Some (VBool true) | _ => None end;
            par := fun _ => None; var := fun _ => None; ifun := fun _ _ => None;
            objs := fun _ => [1%N; 0%N] |}.
  split; reflexivity.
Qed.
Print Assumptions C01_short_circuit_refuted.

Theorem C01_eval_extensional :
  forall sc e I J, interp_eq I J -> eval sc e I = eval sc e J.
Proof. exact eval_ext. Qed.
Print Assumptions C01_eval_extensional.

(* non-vacuity: an action with f := false ; when c then f := true under an invariant on f, in a concrete state *)
Example C01_nonvacuous :
  let P := {| p_objs := []; p_ifun := []; p_fluents := [{| fd_id := 0%N; fd_sig := []; fd_ty := FBool |};
                                                      {| fd_id := 1%N; fd_sig := []; fd_ty := FBool |}];
              p_actions := []; p_goals := []; p_invs := [EFluent 0%N []] |} in
  let a := {| a_params := []; a_pre := [];
              a_effs := [ {| e_fl := 0%N; e_args := []; e_val := EBool false; e_cond := EBool true; e_kind := KAssign; e_vars := []; e_isbool := true |};
                          {| e_fl := 0%N; e_args := []; e_val := EBool true; e_cond := EFluent 1%N []; e_kind := KAssign; e_vars := []; e_isbool := true |} ] |} in
  let s : state := fun f _ => Some (VBool true) in
  effects_typed true P s a [] /\
  (exists t, sim_apply true P s a [] = Some t /\ t 0%N [] = Some (VBool true)).
Proof.
  cbv zeta. split.
  - intros acts H. vm_compute in H. inversion H. reflexivity.
  - eexists. split; [vm_compute; reflexivity | reflexivity].
Qed.

(* The grounding step (GrounderHelper.ground_action(prune_actions=False) -> create_action_with_given_subs) INSIDE the
   model: Planning/Ground.v substitutes the parameters, simplifies preconditions / effect target arguments / values /
   conditions through the C11 model of the Simplifier (Walkers/Simplify.v, configured as env.simplifier: no static
   fluents), drops true preconditions and false-conditioned effects, returns None on a false precondition or on a
   SYNTACTIC conflict (effect.py check_conflicting_effects on the rebuilt effects), and drops forall variables that are no
   longer free (Effect.__init__).  [sim_apply_grounded sc T P s a args] runs the simulator's algorithm on the grounded
   action; [T] is the user-type table the simplifier reads (Ground.v explains why it is not part of [problem]). *)
Require Import UPV.Planning.Ground UPV.Walkers.Simplify UPV.Proofs.Simplify_proofs UPV.Proofs.Ground_proofs.

(* (a) On total information the grounded step of the code (short-circuit quantifiers) IS the strict documented step.
   Hypotheses: C11's scoping side conditions on the action's expressions ([ground_wf_b]) and on the interpretation
   ([env_ok], derivable from the tables by C01_grounded_env_ok_from_tables); every read of the strict documented step
   is defined ([step_defined]: Boolean-valued preconditions, every effect instance evaluable, invariants defined in
   the successor); fired effects well typed (as in C01_sim_apply_refines_spec); the rebuilt effects do not conflict
   syntactically; no forall variable vanishes.  C11's soundness theorem (defined values are preserved) is what is
   used for every simplification step. *)
Theorem C01_grounded_refines_semantic :
  forall T P tau QT s a args,
    ground_wf_b tau QT a = true ->
    env_ok (gcfg T P) tau QT (mk_interp P s []) ->
    step_defined P s a args ->
    effects_typed false P s a args ->
    ground_conflict T P a args = false ->
    vars_dropped T P a args = false ->
    ostate_eq (sim_apply_grounded true T P s a args) (spec_step false P s a args).
Proof. exact grounded_refines_semantic. Qed.
Print Assumptions C01_grounded_refines_semantic.

(* the same with strict quantifiers on both sides (no hypothesis on the invariants).  Contrapositive = the proved
   classification used by the correspondence (Corr_C01g bit 13): if the grounded action evaluated strictly is applicable
   and the strict documented step is not, although nothing conflicts syntactically and no forall variable vanished,
   then a precondition or an effect instance of the ORIGINAL action reads a fluent that has no value *)
Theorem C01_grounded_strict_refines_semantic :
  forall T P tau QT s a args,
    ground_wf_b tau QT a = true ->
    env_ok (gcfg T P) tau QT (mk_interp P s []) ->
    pre_defined (mk_interp P s (zip_params (a_params a) args)) (a_pre a) ->
    fired false (mk_interp P s (zip_params (a_params a) args)) (a_effs a) <> None ->
    effects_typed false P s a args ->
    ground_conflict T P a args = false ->
    vars_dropped T P a args = false ->
    ostate_eq (sim_apply_grounded false T P s a args) (spec_step false P s a args).
Proof. exact grounded_strict_refines_semantic. Qed.
Print Assumptions C01_grounded_strict_refines_semantic.

(* under the same hypotheses grounding changes nothing at all: the step on the grounded action equals (Leibniz) the
   step of the semantic-level model [sim_apply] with the parameters bound, for either quantifier mode *)
Theorem C01_grounded_eq_ungrounded :
  forall sc T P tau QT s a args,
    ground_wf_b tau QT a = true ->
    env_ok (gcfg T P) tau QT (mk_interp P s []) ->
    pre_defined (mk_interp P s (zip_params (a_params a) args)) (a_pre a) ->
    fired false (mk_interp P s (zip_params (a_params a) args)) (a_effs a) <> None ->
    ground_conflict T P a args = false ->
    vars_dropped T P a args = false ->
    sim_apply_grounded sc T P s a args = sim_apply sc P s a args.
Proof. exact grounded_eq_ungrounded. Qed.
Print Assumptions C01_grounded_eq_ungrounded.

(* (c) never less defined: whenever the strict documented step is applicable (then all its reads are defined), the
   grounded step is applicable with the same successor — provided grounding does not reject the action syntactically
   and loses no forall variable (C01_grounded_syntactic_conflict_refuted / C01_grounded_forall_applied_once_refuted
   show that neither proviso can be dropped) *)
Theorem C01_grounded_never_less_defined :
  forall T P tau QT s a args s',
    spec_step false P s a args = Some s' ->
    ground_wf_b tau QT a = true ->
    env_ok (gcfg T P) tau QT (mk_interp P s []) ->
    effects_typed false P s a args ->
    ground_conflict T P a args = false ->
    vars_dropped T P a args = false ->
    exists t, sim_apply_grounded true T P s a args = Some t /\ state_eq t s'.
Proof. exact grounded_never_less_defined. Qed.
Print Assumptions C01_grounded_never_less_defined.

(* the precondition half needs nothing about the effects: preconditions that hold under the strict reading are never
   lost by check_and_simplify_preconditions (it never answers "contradiction", and what it keeps holds) *)
Theorem C01_ground_pre_never_less_satisfied :
  forall T P tau QT s a args,
    forallb (wfx tau QT []) (a_pre a) = true ->
    env_ok (gcfg T P) tau QT (mk_interp P s []) ->
    all_hold false (mk_interp P s (zip_params (a_params a) args)) (a_pre a) = true ->
    exists l, ground_pre (gcfg T P) (zip_params (a_params a) args) (a_pre a) = Some l /\
              forall sc, all_hold sc (mk_interp P s []) l = true.
Proof. exact ground_pre_never_less_satisfied. Qed.
Print Assumptions C01_ground_pre_never_less_satisfied.

(* the interpretation hypothesis from checkable tables: a type table consistent with the problem's object lists
   (boolean check) and a state whose object-valued fluents hold objects of their type *)
Theorem C01_grounded_env_ok_from_tables :
  forall T P tau s, tytab_ok_b T P = true -> state_typed P s ->
    env_ok (gcfg T P) tau (qt_of P) (mk_interp P s []).
Proof. exact env_ok_of_tables. Qed.
Print Assumptions C01_grounded_env_ok_from_tables.

(* the parameter substitution of the grounded model is the C13 model of FNode.substitute: on every expression the
   ExpressionManager can build (Subst.nf), the Substituter applied to {parameter: constant} computes [psubst] *)
Require UPV.Walkers.Subst UPV.Proofs.Ground_subst.
Theorem C01_grounded_substitution_is_substituter :
  forall sg e, UPV.Walkers.Subst.nf e = true ->
    UPV.Walkers.Subst.substitute (UPV.Proofs.Ground_subst.pmap sg) e = psubst sg e.
Proof. exact UPV.Proofs.Ground_subst.psubst_is_substitute. Qed.
Print Assumptions C01_grounded_substitution_is_substituter.

(* (b) The three deviations of the code from the documented semantics that come from grounding, as witnesses INSIDE the
   model (recorded findings C01-simplified-undefined-read, C01-grounding-syntactic-conflict,
   C01-forall-variable-vanishes).  In each, exactly one hypothesis of C01_grounded_refines_semantic fails. *)

(* (u or not u) over a fluent u with no value is simplified away: the grounded action is applicable, the documented
   step is not, because a precondition reads a fluent with no value ([step_defined] fails) *)
Theorem C01_grounded_tautology_over_undefined_refuted :
  exists T P s a args,
    (exists t, sim_apply_grounded true T P s a args = Some t) /\ spec_step false P s a args = None /\
    (exists c, In c (a_pre a) /\ eval false c (mk_interp P s (zip_params (a_params a) args)) = None).
Proof.
  exists T1, P_taut, s_taut, a_taut, []. destruct grounded_tautology_over_undefined as ([t [Ht _]] & H2 & _ & H4).
  split; [exists t; exact Ht|]. split; [exact H2|].
  exists (EOr [EFluent 0%N []; ENot (EFluent 0%N [])]). split; [left; reflexivity | exact H4].
Qed.
Print Assumptions C01_grounded_tautology_over_undefined_refuted.

(* x(p) := y and x(q) := 3 with p = q in a state where y = 3: every read is defined and the documented step is
   applicable, but the rebuilt effects differ syntactically and grounding returns None ([ground_conflict] = true) *)
Theorem C01_grounded_syntactic_conflict_refuted :
  exists T P s a args,
    ground_action T P a args = None /\ sim_apply_grounded true T P s a args = None /\
    (exists t, spec_step false P s a args = Some t) /\ step_defined P s a args.
Proof.
  exists T1, P_conf, s_conf, a_conf, [VObj 0%N; VObj 0%N].
  destruct grounded_syntactic_conflict as (H1 & _ & H3 & [t [Ht _]] & H5).
  split; [exact H1|]. split; [exact H3|]. split; [exists t; exact Ht | exact H5].
Qed.
Print Assumptions C01_grounded_syntactic_conflict_refuted.

(* forall v. if (v == v) then r += x over a type with two objects: the condition simplifies to true, v vanishes from
   the rebuilt effect and the increase is applied once (r + x) instead of once per object (r + x + x)
   ([vars_dropped] = true) *)
Theorem C01_grounded_forall_applied_once_refuted :
  exists T P s a args f x,
    (exists t, sim_apply_grounded true T P s a args = Some t /\ t f [] = Some (VNum x)) /\
    (exists t, spec_step false P s a args = Some t /\ t f [] = Some (VNum (x + x)%Qc)) /\ x <> zq 0.
Proof.
  exists T1, P_fa, s_fa, a_fa, [], 0%N, (zq 1).
  destruct grounded_forall_applied_once as (_ & H2 & H3).
  split; [exact H2|]. split; [|discriminate].
  destruct H3 as [t [Ht Hv]]. exists t. split; [exact Ht|]. rewrite Hv. do 2 f_equal.
Qed.
Print Assumptions C01_grounded_forall_applied_once_refuted.

(* non-vacuity of the grounded theorems: the action a_nv(p) of Ground_proofs.v (args_nv = [o0], tau_nv = every variable
   has type 0) whose precondition (b(p) and p == p) is really simplified (to b(o0)), with a conditional forall
   increase; every hypothesis of the theorems above holds and the step is applicable *)
Example C01_grounded_nonvacuous :
  ground_wf_b tau_nv (qt_of P_nv) a_nv = true /\
  env_ok (gcfg T1 P_nv) tau_nv (qt_of P_nv) (mk_interp P_nv s_nv []) /\
  step_defined P_nv s_nv a_nv args_nv /\
  effects_typed false P_nv s_nv a_nv args_nv /\
  ground_conflict T1 P_nv a_nv args_nv = false /\
  vars_dropped T1 P_nv a_nv args_nv = false /\
  (exists g, ground_action T1 P_nv a_nv args_nv = Some g /\ a_pre g = [EFluent 0%N [EObj 0%N]]) /\
  (exists t, sim_apply_grounded true T1 P_nv s_nv a_nv args_nv = Some t /\
             t 0%N [VObj 0%N] = Some (VBool false) /\ t 1%N [] = Some (VNum (zq 2))).
Proof. exact grounded_nonvacuous. Qed.

(* C07 (compiler completeness), Layer A, part file: NegativeConditionsRemover at plan level.
   The compiled problem keeps action names and parameters: the compiled plan that maps back to an original plan is the
   plan itself.  From the verdict equation of Props/C06_ncr.v (same hypotheses, explained there): every valid plan of
   the original problem is a valid plan of the compiled problem run from the related state (negation fluents hold the
   complements: [neg_rel], what the compiler's initial values establish). *)
From Coq Require Import List ZArith NArith QArith Qcanon Bool.
Import ListNotations.
Require Import UPV.Core.Expr UPV.Core.Eval UPV.Core.Interp UPV.Planning.Problem UPV.Planning.Sem.
Require Import UPV.Compilers.LayerA_Defs UPV.Compilers.LayerA_Quant UPV.Compilers.LayerA_Neg.
Require Import UPV.Proofs.LayerA_Neg_proofs.

Theorem C07_LA_ncr_complete :
  forall (nmap : list (N * N)) (rw smp : expr -> expr) (P : problem),
    nmap_ok nmap P = true -> problem_clean nmap P = true -> ncr_safe nmap P = true -> rw_ok nmap rw P -> smp_exact smp ->
  forall (s s' : state) (pi : list (N * list value)), neg_rel nmap s s' ->
    valid_plan false P s pi = true -> valid_plan false (neg_compile nmap rw smp P) s' pi = true.
Proof.
  intros nmap rw smp P Hm Hc Hs Hr Hsm s s' pi HR H.
  rewrite (neg_valid_plan_safe nmap rw smp P Hm Hc Hs Hr Hsm s s' pi HR). exact H.
Qed.
Print Assumptions C07_LA_ncr_complete.

(* [ncr_safe] weakened to Boolean constants + one value per ground negated fluent *)
Theorem C07_LA_ncr_complete_one_value :
  forall (nmap : list (N * N)) (rw smp : expr -> expr) (P : problem),
    nmap_ok nmap P = true -> problem_clean nmap P = true -> ncr_const nmap P = true -> one_value nmap P ->
    rw_ok nmap rw P -> smp_exact smp ->
  forall (s s' : state) (pi : list (N * list value)), neg_rel nmap s s' ->
    valid_plan false P s pi = true -> valid_plan false (neg_compile nmap rw smp P) s' pi = true.
Proof. intros nmap rw smp P Hm Hc Hk Ho Hr Hsm s s' pi HR H. rewrite (neg_valid_plan nmap rw smp P Hm Hc Hk Ho Hr Hsm s s' pi HR). exact H. Qed.
Print Assumptions C07_LA_ncr_complete_one_value.

(* the compiled run visits related states: no original plan is lost AND none is gained *)
Theorem C07_LA_ncr_same_plans :
  forall (nmap : list (N * N)) (rw smp : expr -> expr) (P : problem),
    nmap_ok nmap P = true -> problem_clean nmap P = true -> ncr_safe nmap P = true -> rw_ok nmap rw P -> smp_exact smp ->
  forall (s s' : state) (pi : list (N * list value)), neg_rel nmap s s' ->
    (valid_plan false P s pi = true <-> valid_plan false (neg_compile nmap rw smp P) s' pi = true).
Proof.
  intros nmap rw smp P Hm Hc Hs Hr Hsm s s' pi HR.
  rewrite (neg_valid_plan_safe nmap rw smp P Hm Hc Hs Hr Hsm s s' pi HR). tauto.
Qed.
Print Assumptions C07_LA_ncr_same_plans.

Example C07_LA_ncr_complete_nonvacuous :
  nmap_ok NegEx.nm NegEx.Pe = true /\ problem_clean NegEx.nm NegEx.Pe = true /\ ncr_safe NegEx.nm NegEx.Pe = true /\
  rw_ok NegEx.nm (nrw (ng NegEx.nm)) NegEx.Pe /\ smp_exact NegEx.idf /\ neg_rel NegEx.nm NegEx.se NegEx.se' /\
  valid_plan false NegEx.Pe NegEx.se NegEx.plan = true /\
  valid_plan false NegEx.Pe' NegEx.se' NegEx.plan = true /\
  (* the negation fluent matters: from the unrelated state (not_door false) the compiled problem rejects the plan *)
  valid_plan false NegEx.Pe' NegEx.se NegEx.plan = false.
Proof.
  split; [vm_compute; reflexivity|]. split; [vm_compute; reflexivity|]. split; [vm_compute; reflexivity|].
  split; [exact NegEx.rwok|]. split; [exact NegEx.smpok|]. split; [exact NegEx.rel|].
  repeat split; vm_compute; reflexivity.
Qed.

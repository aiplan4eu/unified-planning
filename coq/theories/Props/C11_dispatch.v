(* C11 (part "dispatch") -- REGENERATED-FROM-SOURCE tie of the Simplifier (Walkers/Simplify.v) model(s) to the Python walkers.

   coq/theories/Gen/Gen_Walkers.v is rewritten by tools/gen_walkers.py from the CURRENT source (ast only, fail closed):
   the OperatorKind members and, for every walker class, the table operator -> defining class "." method that
   MetaNodeTypeHandler + Walker.__init__ build (decorators, walk_<operator> naming convention and inheritance resolved).
   coq/theories/Model/WalkerTables.v holds what the hand-written models assume, entry by entry, each with the Gallina
   branch that models the handler.  The theorems below are EQUALITIES BETWEEN CLOSED FINITE TABLES (string literals),
   so evaluation (`reflexivity`) is a complete proof and not a bounded check: nothing is quantified except, in
   C11_operators_covered, the expression e, which is handled by case analysis on its constructor.
   They fail to compile when a handler is re-mapped, dropped (an inherited one applies), when a @handles list changes,
   or when OperatorKind gets a member that Core/Expr.v neither models nor lists as unmodelled. *)
From Coq Require Import List String Bool Permutation.
Import ListNotations.
Require Import UPV.Core.Expr UPV.Model.WalkerTables UPV.Gen.Gen_Walkers.
Local Open Scope string_scope.

(* Simplifier.functions is the table the model's [simp] was written against *)
Theorem C11_dispatch_as_modelled :
  lookup "Simplifier" Gen_Walkers.dispatch = Some expected_simplifier.
Proof. reflexivity. Qed.
Print Assumptions C11_dispatch_as_modelled.

(* the handlers build what the model says they build: the sorted sets of ExpressionManager constructors (manager.X), helper
   methods (self.x) and <Class>.super calls occurring in each handler body are the expected ones *)
Theorem C11_handler_shapes_as_modelled :
  shapes_for (map fst expected_shapes_simplifier) Gen_Walkers.handler_shapes = expect_shapes expected_shapes_simplifier.
Proof. reflexivity. Qed.
Print Assumptions C11_handler_shapes_as_modelled.

(* The OperatorKind members of the current source are exactly (up to order) the operators Core/Expr.v has a constructor
   for plus the explicitly listed unmodelled ones; and EVERY expression of the IR carries an operator that exists in the
   source and that the table of Simplifier sends to a handler other than Walker.walk_error. *)
Theorem C11_operators_covered :
  Permutation Gen_Walkers.operator_kinds (modelled_operators ++ unmodelled_operators) /\
  forall e : expr,
    In (op_of e) Gen_Walkers.operator_kinds /\
    handled Gen_Walkers.dispatch "Simplifier" e = true.
Proof.
  assert (C : covers Gen_Walkers.operator_kinds = true) by (vm_compute; reflexivity).
  split; [exact (covers_sound _ C)|].
  intro e. split.
  - exact (covered_op _ e C).
  - apply (handled_by _ _ _ C11_dispatch_as_modelled); reflexivity.
Qed.
Print Assumptions C11_operators_covered.

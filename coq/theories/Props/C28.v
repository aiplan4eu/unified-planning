(* C28 — Timed-to-sequential plans convert back to valid temporal plans.
   Only statements; each is closed by [exact] of a lemma from Proofs/T2S_proofs.v.
   Model: Model/T2S.v ([back_conv] = plan_back_conversion_callable after the repair of finding #28).
   PROVED here (for all epsilons, states, bound expressions, plans): the duration choice and the spacing.
   NOT proved, VALIDATED by harness/props/c28.py on enumerated plans with the real validators: "time-triggered
   validation accepts the converted plan" (needs the compiler and both validators; see notes/C28.md). *)
From Coq Require Import List ZArith NArith QArith Bool.
Import ListNotations.
Require Import UPV.Model.T2S UPV.Proofs.T2S_proofs.
Open Scope Q_scope.

(* every non-empty interval, any openness combination: [lo,hi] ]lo,hi] [lo,hi[ ]lo,hi[ *)
Theorem C28_chosen_duration_in_interval :
  forall lo hi lopen ropen,
    nonempty lo hi lopen ropen -> in_interval (choose_duration lo hi lopen) lo hi lopen ropen.
Proof. exact chosen_duration_in_interval. Qed.
Print Assumptions C28_chosen_duration_in_interval.

(* ... for every step of every converted plan, with the (constant or fluent-dependent) bounds evaluated in the state in
   which the action starts *)
Theorem C28_plan_durations_in_intervals :
  forall eps steps now out, back_conv eps now steps = Some out -> Forall2 step_entry_in_interval steps out.
Proof. exact back_conv_durations_in_intervals. Qed.
Print Assumptions C28_plan_durations_in_intervals.

(* spacing: each action starts strictly after the previous one ends (epsilon > 0: guaranteed by the epsilon setter
   after `fix: reject a zero epsilon`, and by the default 1/100) *)
Theorem C28_no_overlap_between_consecutive :
  forall eps steps now out, 0 < eps -> back_conv eps now steps = Some out -> consecutive_after out.
Proof. exact no_overlap_between_consecutive. Qed.
Print Assumptions C28_no_overlap_between_consecutive.

Theorem C28_consecutive_exactly_epsilon_apart :
  forall eps steps now out, back_conv eps now steps = Some out -> chained eps out.
Proof. exact back_conv_chained. Qed.
Print Assumptions C28_consecutive_exactly_epsilon_apart.

(* with non-negative durations no two actions overlap at all *)
Theorem C28_no_overlap_all_pairs :
  forall eps steps now out, 0 < eps -> back_conv eps now steps = Some out ->
    Forall (fun e => 0 <= dur_of e) out -> ForallOrdPairs (fun a b => end_of a < fst b) out.
Proof. exact no_overlap_all_pairs. Qed.
Print Assumptions C28_no_overlap_all_pairs.

Theorem C28_first_action_starts_at_origin :
  forall eps steps now e out, back_conv eps now steps = Some (e :: out) -> fst e = now.
Proof. exact first_starts_at_origin. Qed.
Print Assumptions C28_first_action_starts_at_origin.

(* the boolean judges that the harness evaluates (inside Coq) on the plan returned by the implementation *)
Theorem C28_interval_judge_sound :
  forall d lo hi lopen ropen, in_intervalb d lo hi lopen ropen = true -> in_interval d lo hi lopen ropen.
Proof. exact in_intervalb_sound. Qed.
Print Assumptions C28_interval_judge_sound.

Theorem C28_spacing_judge_sound : forall out, spaced out = true -> consecutive_after out.
Proof. exact spaced_sound. Qed.
Print Assumptions C28_spacing_judge_sound.

Example C28_interval_nonvacuous :
  nonempty 5 10 true false /\ choose_duration 5 10 true = 15 # 2
  /\ nonempty 5 10 true true /\ nonempty 5 10 false true /\ choose_duration 5 10 false = 5
  /\ nonempty 5 5 false false /\ ~ nonempty 5 5 true false.
Proof. repeat split; try reflexivity; intro H; discriminate H. Qed.

Definition exSteps : list sstep :=
  [ {| s_kind := SDur (BFluent 1%N [AParam 0%nat]) (BPlus (BFluent 1%N [AParam 0%nat]) (BConst 2)) true false;
       s_params := [4%N]; s_state := [((1%N, [4%N]), 3)] |};
    {| s_kind := SInst; s_params := []; s_state := [] |};
    {| s_kind := SDur (BConst 5) (BConst 10) false true; s_params := []; s_state := [] |} ].

Example C28_plan_nonvacuous :
  back_conv (1 # 100) 0 exSteps = Some [ (0, Some 4); (401 # 100, None); (201 # 50, Some 5) ] /\ 0 < 1 # 100.
Proof. split; [vm_compute; reflexivity | reflexivity]. Qed.

Example C28_judges_nonvacuous :
  entries_ok exSteps [ (0, Some 4); (401 # 100, None); (201 # 50, Some 5) ] = true
  /\ spaced [ (0, Some 4); (401 # 100, None); (201 # 50, Some 5) ] = true.
Proof. split; vm_compute; reflexivity. Qed.

(* finding #28 (repaired): the code before the fix chose the minimum time step for a left-open interval *)
Example C28_before_fix_refuted :
  exists eps lo hi lopen ropen,
    nonempty lo hi lopen ropen /\ ~ in_interval (choose_duration_before_fix eps lo lopen) lo hi lopen ropen.
Proof.
  exists (1 # 100), 5, 10, true, false. split; [reflexivity|].
  unfold in_interval, choose_duration_before_fix. intros [H _]. discriminate H.
Qed.

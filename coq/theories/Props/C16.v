(* C16 — Expressions are hash-consed and constructors normalise as documented.
   Only statements; each is closed by [exact] of a lemma from Proofs/HashCons_proofs.v.

   Reading guide.  [tc] is ANY type-check verdict function and [ar] any fluent-arity table: the hash-consing theorems
   do not depend on what the type checker says (the concrete ones are [typecheck D], [arity D]).
   [run tc ar st ks] is the manager after the history [ks] of constructor calls, failing calls included.
   [Inv st] := ids strictly increase along the table and are < next_id, no two entries share a content, TRUE/FALSE
   exist and every child id of a node is the id of a node ([C16_init_inv]: the fresh manager satisfies it, and
   [C16_inv_preserved]: every call preserves it). *)
From Coq Require Import List ZArith NArith QArith Bool Sorted.
Import ListNotations.
Require Import UPV.Model.HashCons UPV.Proofs.HashCons_proofs.
Open Scope N_scope.

Theorem C16_init_inv : forall D, Inv (init (typecheck D)).
Proof. exact init_inv. Qed.
Print Assumptions C16_init_inv.

Theorem C16_inv_preserved : forall tc ar ks st, Inv st -> Inv (run tc ar st ks).
Proof. exact run_inv. Qed.
Print Assumptions C16_inv_preserved.

(* ids are unique, strictly increasing in creation order, below the next free id, which never decreases *)
Theorem C16_ids_unique_and_increasing :
  forall tc ar st ks, Inv st ->
    StronglySorted N.lt (map n_id (tbl (run tc ar st ks))) /\ NoDup (map n_id (tbl (run tc ar st ks))) /\
    (forall n, In n (tbl (run tc ar st ks)) -> n_id n < next_id (run tc ar st ks)) /\
    next_id st <= next_id (run tc ar st ks).
Proof. exact ids_unique_and_increasing. Qed.
Print Assumptions C16_ids_unique_and_increasing.

(* structurally different expressions are distinct nodes with distinct ids; equal ids mean the same node *)
Theorem C16_distinct_content_distinct_id :
  forall tc ar st ks n1 n2, Inv st ->
    In n1 (tbl (run tc ar st ks)) -> In n2 (tbl (run tc ar st ks)) ->
    ((n_op n1, n_args n1, n_pay n1) = (n_op n2, n_args n2, n_pay n2) <-> n_id n1 = n_id n2) /\
    (n_id n1 = n_id n2 -> n1 = n2).
Proof. exact distinct_content_distinct_id. Qed.
Print Assumptions C16_distinct_content_distinct_id.

(* a node's id, operator, children and payload never change and the node never leaves the table, whatever is
   constructed afterwards (this needs no invariant at all) *)
Theorem C16_nodes_immutable :
  forall tc ar st ks n, In n (tbl st) -> In n (tbl (run tc ar st ks)).
Proof. exact nodes_immutable. Qed.
Print Assumptions C16_nodes_immutable.

(* same content => same node: create_node on a content the table holds returns that node and changes nothing *)
Theorem C16_same_content_same_node :
  forall tc ar st ks n c, Inv st -> In n (tbl (run tc ar st ks)) -> (n_op n, n_args n, n_pay n) = c ->
    create_node tc (run tc ar st ks) c = (run tc ar st ks, Ok (n_id n)).
Proof. exact same_content_same_node. Qed.
Print Assumptions C16_same_content_same_node.

(* building the same expression twice yields the identical node: a constructor call that returned node i returns
   node i again, and leaves the manager untouched, after ANY further history [ks'] (failing calls included) *)
Theorem C16_same_call_same_node :
  forall tc ar st ks k st1 i ks', Inv st ->
    step tc ar (run tc ar st ks) k = (st1, Ok i) ->
    step tc ar (run tc ar st1 ks') k = (run tc ar st1 ks', Ok i).
Proof. exact same_call_same_node. Qed.
Print Assumptions C16_same_call_same_node.

Theorem C16_result_in_table :
  forall tc ar st ks k st1 i, Inv st -> step tc ar (run tc ar st ks) k = (st1, Ok i) ->
    exists n, In n (tbl st1) /\ n_id n = i.
Proof. exact result_in_table. Qed.
Print Assumptions C16_result_in_table.

(* a create_node that fails its type check leaves the table exactly as it was *)
Theorem C16_failed_create_leaves_table :
  forall tc st c e st1, create_node tc st c = (st1, Err e) -> tbl st1 = tbl st.
Proof. exact failed_create_leaves_table. Qed.
Print Assumptions C16_failed_create_leaves_table.

Theorem C16_and_nil : forall tc ar st, step tc ar st (KNary NAnd []) = (st, Ok true_id).
Proof. exact and_nil. Qed.
Print Assumptions C16_and_nil.
Theorem C16_or_nil : forall tc ar st, step tc ar st (KNary NOr []) = (st, Ok false_id).
Proof. exact or_nil. Qed.
Print Assumptions C16_or_nil.
Theorem C16_plus_nil : forall tc ar st, step tc ar st (KNary NPlus []) = step tc ar st (KInt 0).
Proof. exact plus_nil. Qed.
Print Assumptions C16_plus_nil.
Theorem C16_times_nil : forall tc ar st, step tc ar st (KNary NTimes []) = step tc ar st (KInt 1).
Proof. exact times_nil. Qed.
Print Assumptions C16_times_nil.

(* And / Or / Plus / Times of one argument is that (promoted) argument itself *)
Theorem C16_nary_single : forall tc ar st o a, step tc ar st (KNary o [a]) = promote tc ar st a.
Proof. exact nary_single. Qed.
Print Assumptions C16_nary_single.

(* Not of a Not node returns the node under it, creating nothing *)
Theorem C16_not_not :
  forall tc ar st j n i r, find_id j (tbl st) = Some n -> n_op n = ONot -> n_args n = i :: r ->
    step tc ar st (KNot (ANode j)) = (st, Ok i).
Proof. exact not_not. Qed.
Print Assumptions C16_not_not.

Theorem C16_not_not_roundtrip :
  forall tc ar st i n st1 j, wf st -> find_id i (tbl st) = Some n -> n_op n <> ONot ->
    step tc ar st (KNot (ANode i)) = (st1, Ok j) -> step tc ar st1 (KNot (ANode j)) = (st1, Ok i).
Proof. exact not_not_roundtrip. Qed.
Print Assumptions C16_not_not_roundtrip.

(* GE a b is the node LE b a, GT a b the node LT b a *)
Theorem C16_ge_is_le_swapped :
  forall tc ar st a b st1 i, Inv st ->
    step tc ar st (KBin BGE a b) = (st1, Ok i) -> step tc ar st1 (KBin BLE b a) = (st1, Ok i).
Proof. exact ge_is_le_swapped. Qed.
Print Assumptions C16_ge_is_le_swapped.
Theorem C16_gt_is_lt_swapped :
  forall tc ar st a b st1 i, Inv st ->
    step tc ar st (KBin BGT a b) = (st1, Ok i) -> step tc ar st1 (KBin BLT b a) = (st1, Ok i).
Proof. exact gt_is_lt_swapped. Qed.
Print Assumptions C16_gt_is_lt_swapped.
Theorem C16_ge_on_nodes :
  forall tc ar st i j, step tc ar st (KBin BGE (ANode i) (ANode j)) = step tc ar st (KBin BLE (ANode j) (ANode i)).
Proof. exact ge_nodes. Qed.
Print Assumptions C16_ge_on_nodes.
Theorem C16_gt_on_nodes :
  forall tc ar st i j, step tc ar st (KBin BGT (ANode i) (ANode j)) = step tc ar st (KBin BLT (ANode j) (ANode i)).
Proof. exact gt_nodes. Qed.
Print Assumptions C16_gt_on_nodes.
Theorem C16_ge_content :
  forall tc ar st a b st1 i, step tc ar st (KBin BGE a b) = (st1, Ok i) ->
    exists n ia ib, In n (tbl st1) /\ n_id n = i /\ (n_op n, n_args n, n_pay n) = (OLE, [ib; ia], PNone).
Proof. exact ge_content. Qed.
Print Assumptions C16_ge_content.

(* numeric literals (Fraction(4,2), 2.0, "4/2", "2.0", 2 ...): equal rationals are promoted identically;
   an integral one IS the Int constant, a non-integral one the Real constant with the reduced fraction *)
Theorem C16_literal_canonical :
  forall tc ar st q1 q2, (q1 == q2)%Q -> promote tc ar st (ANum q1) = promote tc ar st (ANum q2).
Proof. exact promote_num_canonical. Qed.
Print Assumptions C16_literal_canonical.
Theorem C16_literal_integral_is_Int :
  forall tc ar st q, Qden (Qred q) = 1%positive -> promote tc ar st (ANum q) = step tc ar st (KInt (Qnum (Qred q))).
Proof. exact promote_num_integral. Qed.
Print Assumptions C16_literal_integral_is_Int.
Theorem C16_literal_fraction_is_reduced_Real :
  forall tc ar st q, Qden (Qred q) <> 1%positive ->
    promote tc ar st (ANum q) = create_node tc st (OReal, [], PReal (Qnum (Qred q)) (Qden (Qred q))).
Proof. exact promote_num_fraction. Qed.
Print Assumptions C16_literal_fraction_is_reduced_Real.
Theorem C16_int_literal_is_Int : forall tc ar st z, promote tc ar st (AInt z) = step tc ar st (KInt z).
Proof. exact promote_int_is_Int. Qed.
Print Assumptions C16_int_literal_is_Int.

(* non-vacuity: a concrete history over a small environment, with failing calls in the middle *)
Definition exD : decls :=
  {| d_fluents := [(0, ([], TBool)); (1, ([], TNum false None)); (2, ([PtUser 0], TBool))];
     d_objects := [(0, 0)]; d_params := []; d_ancestors := [(0, [0])] |}.
Definition exK : list call :=
  [ KBin BEquals (AFluent 0) (AFluent 0);          (* ill-typed: Equals on booleans -> fails *)
    KBin BDiv (AInt 3) (ANum (0 # 5));             (* 3 / 0 -> ZeroDivisionError in the type checker *)
    KBin BGE (AFluent 1) (ANum (4 # 2));           (* i >= Fraction(4,2) *)
    KBin BLE (AInt 2) (AFluent 1);                 (* 2 <= i : the same node *)
    KNot (AFluent 0); KNot (ANode 11);             (* not b ; not (not b) = b *)
    KBin BEquals (AFluent 0) (AFluent 0) ].        (* fails again *)

Example C16_nonvacuous :
  let tcD := typecheck exD in let arD := arity exD in
  map fst (run_obs tcD arD (init tcD) exK)
    = [Err EType; Err EZeroDiv; Ok 10; Ok 10; Ok 11; Ok 3; Err EType]
  /\ Inv (init tcD)
  /\ length (tbl (run tcD arD (init tcD) exK)) = 9%nat.
Proof. cbv zeta. split; [vm_compute; reflexivity | split; [apply init_inv | vm_compute; reflexivity]]. Qed.

Example C16_literals_nonvacuous :
  uniform (4 # 2) = inl 2%Z /\ uniform (6 # 4) = inr (3 # 2)%Q /\ uniform (20 # 10) = inl 2%Z.
Proof. vm_compute. repeat split. Qed.

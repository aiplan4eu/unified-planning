(* C08 — Compilers succeed and produce well-formed results inside their supported kind.
   Proved: the naming machinery (get_fresh_name as the compilers use it, the grounder's naming of ground actions,
   CompilerResult's derivation of the plan back-conversion) and the decidability of the well-formedness checker.
   Validated (harness/props/c08.py): the checker is applied to every problem the real compilers produce on generated
   problems with adversarial identifiers.  Only statements; proofs in Proofs/FreshNames_proofs.v. *)
From Coq Require Import List String Ascii Bool Arith.
Import ListNotations.
Require Import UPV.Model.FreshNames UPV.Proofs.FreshNames_proofs.
Open Scope string_scope.

(* get_fresh_name never returns a name of the problem (nor one of used_names), and always returns *)
Theorem C08_fresh_name_is_fresh :
  forall used orig params trailing n, get_fresh_name used orig params trailing = Some n -> ~ In n used.
Proof. exact get_fresh_name_not_used. Qed.
Print Assumptions C08_fresh_name_is_fresh.

Theorem C08_fresh_name_total :
  forall used orig params trailing, exists n, get_fresh_name used orig params trailing = Some n.
Proof. exact get_fresh_name_total. Qed.
Print Assumptions C08_fresh_name_total.

(* names requested one after the other, each recorded before the next request, are pairwise distinct and new *)
Theorem C08_fresh_names_nodup :
  forall items used names, add_all_fresh used items = Some names ->
    NoDup names /\ (forall n, In n names -> ~ In n used).
Proof. exact fresh_names_nodup. Qed.
Print Assumptions C08_fresh_names_nodup.

(* the grounder's naming before /repo commit 206e087 (plain join with "_", looked up against the ORIGINAL problem only)
   is not injective *)
Theorem C08_plain_join_not_injective :
  exists a ps a' ps', (a, ps) <> (a', ps') /\ ground_name a ps = ground_name a' ps'.
Proof. exact ground_names_injective_refuted. Qed.
Print Assumptions C08_plain_join_not_injective.

(* the grounder as repaired: different groundings never get the same name, whatever the identifiers contain *)
Theorem C08_ground_names_injective :
  forall pnames items names,
    ground_all pnames [] items = Some names ->
    NoDup (paramless items) -> (forall a, In a (paramless items) -> In a pnames) ->
    forall i j n, nth_error names i = Some n -> nth_error names j = Some n -> i = j.
Proof. exact ground_names_injective. Qed.
Print Assumptions C08_ground_names_injective.

Theorem C08_ground_names_nodup :
  forall pnames items names,
    ground_all pnames [] items = Some names ->
    NoDup (paramless items) -> (forall a, In a (paramless items) -> In a pnames) -> NoDup names.
Proof. exact ground_names_nodup. Qed.
Print Assumptions C08_ground_names_nodup.

(* a CompilerResult with a problem always carries a plan back-conversion *)
Theorem C08_compiler_result_has_back_conversion :
  forall (Prob MapBack Conv : Type) (derive : MapBack -> Conv) p m c r,
    post_init Prob MapBack Conv derive (Some p) m c = Some r ->
    r_conv _ _ _ r <> None /\ r_problem _ _ _ r = Some p.
Proof. exact compiler_result_has_back_conversion. Qed.
Print Assumptions C08_compiler_result_has_back_conversion.

(* the checker applied to the compiled problems decides: unique names, unique parameter names within every fluent
   signature and every action, every referenced fluent / object / type / parameter / action declared *)
Theorem C08_wf_checker_decides : forall P, wf_np P = true <-> wf_problem P.
Proof. exact wf_np_spec. Qed.
Print Assumptions C08_wf_checker_decides.

Example C08_fresh_nonvacuous :
  get_fresh_name ["move_a_b_c"; "move_a_b_c_0"] "move" ["a_b"; "c"] None = Some "move_a_b_c_1" /\
  add_all_fresh ["x"] [("move", ["a_b"; "c"], None); ("move", ["a"; "b_c"], None)] = Some ["move_a_b_c"; "move_a_b_c_0"].
Proof. split; vm_compute; reflexivity. Qed.

Example C08_ground_nonvacuous :
  ground_all ["move"; "stay"; "a_b"; "c"; "a"; "b_c"] [] [("move", ["a_b"; "c"]); ("stay", []); ("move", ["a"; "b_c"])]
  = Some ["move_a_b_c"; "stay"; "move_a_b_c_0"] /\
  NoDup (paramless [("move", ["a_b"; "c"]); ("stay", []); ("move", ["a"; "b_c"])]).
Proof. split; [vm_compute; reflexivity|]. simpl. repeat constructor. intros []. Qed.

Example C08_result_nonvacuous :
  exists r, post_init nat nat nat (fun m => m) (Some 1) (Some 2) None = Some r /\ r_conv _ _ _ r = Some 2.
Proof. eexists. split; reflexivity. Qed.

Example C08_wf_nonvacuous :
  wf_np {| np_types := [("T", "")]; np_objects := [("a_b", "T")]; np_fluents := [("f", [("x", "T")])];
           np_actions := [{| na_name := "act"; na_params := [("p", "T")];
                             na_refs := {| rf_fluents := [("f", 1)]; rf_objects := ["a_b"]; rf_types := ["T"]; rf_params := ["p"] |} |}];
           np_refs := {| rf_fluents := [("f", 1)]; rf_objects := ["a_b"]; rf_types := []; rf_params := [] |};
           np_action_refs := ["act"] |} = true /\
  wf_np {| np_types := [("T", "")]; np_objects := [("a_b", "T")]; np_fluents := [("f", [("x", "T")])];
           np_actions := []; np_refs := {| rf_fluents := [("g", 0)]; rf_objects := []; rf_types := []; rf_params := [] |};
           np_action_refs := [] |} = false.
Proof. split; vm_compute; reflexivity. Qed.

(* two parameters of one fluent with the same name (via[location, location_0, location_0]) are rejected *)
Example C08_wf_duplicate_fluent_parameter :
  wf_np {| np_types := [("Location", "")]; np_objects := []; 
           np_fluents := [("via", [("location", "Location"); ("location_0", "Location"); ("location_0", "Location")])];
           np_actions := []; np_refs := {| rf_fluents := []; rf_objects := []; rf_types := []; rf_params := [] |};
           np_action_refs := [] |} = false.
Proof. vm_compute. reflexivity. Qed.

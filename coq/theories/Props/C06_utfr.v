(* C06 (compilers are sound), Layer A part — UsertypeFluentsRemover.  Statements; each is closed by a lemma of
   Proofs/LayerA_Utfr_proofs.v or by a few lines from such lemmas; the model is Compilers/LayerA_Utfr.v.

   [utfr_compile tr smp P]: every fluent o(x) : T of user type becomes the Boolean fluent o(x, u) of the same name;
   conditions go through the walker [tr] (external: UsertypeFluentsWalker.remove_usertype_fluents_from_condition,
   final simplify() included); an effect o(x) := v becomes, for every object u of T, the pair
   o(x,u) := TRUE if cond and test_u / o(x,u) := FALSE if cond and not test_u (one effect when test_u simplifies to a
   constant; effects whose condition simplifies to FALSE are left out; a Boolean effect with a non-constant value is
   split likewise); an action whose converted effects conflict syntactically is left out.  The map back of a plan is
   the plan itself (replace_action: same names, same parameters).

   Hypotheses of the plan-level theorems, for a set G of states that contains the initial state:
     smp_exact smp        FNode.simplify() keeps value and definedness (the real one only refines: C11)
     utfr_wf tr smp P     decidable: every effect lies in the modelled (flat) fragment [eff_flat] (no forall variables,
                          the value of an object assignment is an object fluent of the same type applied to
                          fluent-free arguments or an expression without object fluents), no action is left out, an
                          object fluent is not also declared with another type (unique fluent names)
     tr_ok tr P           the walker is exact on the conditions of P under the encoding invariant [urel_interp] (for
                          interpretations over the problem's objects); PROVED for the reference walker [utr] on the flat
                          fragment: C06_LA_utfr_reference_walker_ok, and the *_reference theorems below need no [tr_ok]
     effects_defined P G  in the states of G, for action instances whose preconditions hold, target arguments,
                          condition and value of every effect are defined and well typed (the compiled conditions are
                          strict conjunctions `cond and test`)
     one_value P G        THE hypothesis excluding the recorded unsound shape C06-utfr-masked-object-conflict: the
                          assignments that fire on one ground object fluent in one step carry one value
     closed P G           G is closed under the steps of P;   unique_ids P   action names are unique
   and two initial states related by [utfr_rel] ([enc_state]: the compiled initial values; C06_LA_utfr_init_related). *)
From Coq Require Import List ZArith NArith QArith Qcanon Bool.
Import ListNotations.
Require Import UPV.Core.Expr UPV.Core.Eval UPV.Core.Interp UPV.Planning.Problem UPV.Planning.Sem.
Require Import UPV.Compilers.Variants UPV.Compilers.LayerA_Defs UPV.Compilers.LayerA_Quant UPV.Compilers.LayerA_Utfr.
Require Import UPV.Proofs.Variants_proofs UPV.Proofs.LayerA_Utfr_proofs.

(* soundness: a plan valid for the compiled problem is valid for the original one (it is its own map-back) *)
Theorem C06_LA_utfr_sound :
  forall (tr smp : expr -> expr) (P : problem) (G : state -> Prop),
    smp_exact smp -> utfr_wf tr smp P = true -> tr_ok tr P -> effects_defined P G -> one_value P G -> closed P G ->
    unique_ids P ->
  forall (s s' : state) (pi : list (N * list value)), G s -> utfr_rel P s s' ->
    valid_plan false (utfr_compile tr smp P) s' pi = true -> valid_plan false P s pi = true.
Proof.
  intros tr smp P G H1 H2 H3 H4 H5 H6 H7 s s' pi HG HR H.
  rewrite <- (u_valid_plan tr smp P G H1 H2 H3 H4 H5 H6 H7 s s' pi HG HR). exact H.
Qed.
Print Assumptions C06_LA_utfr_sound.

(* ... through related states: both runs fail together, or end in states related by the encoding *)
Theorem C06_LA_utfr_same_runs :
  forall (tr smp : expr -> expr) (P : problem) (G : state -> Prop),
    smp_exact smp -> utfr_wf tr smp P = true -> tr_ok tr P -> effects_defined P G -> one_value P G -> closed P G ->
    unique_ids P ->
  forall (pi : list (N * list value)) (s s' : state), G s -> utfr_rel P s s' ->
    match run P (spec_step false P) s pi,
          run (utfr_compile tr smp P) (spec_step false (utfr_compile tr smp P)) s' pi with
    | Some t, Some t' => utfr_rel P t t'
    | None, None => True
    | _, _ => False
    end.
Proof. exact u_run. Qed.
Print Assumptions C06_LA_utfr_same_runs.

(* the effect level: the converted effects of an action fire exactly the Boolean images [img] of the original fired
   effect instances, and neither side has an undefined evaluation *)
Theorem C06_LA_utfr_effects_fired :
  forall (tr smp : expr -> expr) (P : problem), smp_exact smp ->
  forall (I I' : interp) (effs : list effect),
    urel_interp (otype P) I I' -> objs I = objs_of P ->
    (forall e, In e effs -> eff_flat P e = true /\ eff_defined P I e /\
                            eval false (tr (e_cond e)) I' = eval false (e_cond e) I) ->
    has_err (eres_of I effs) = false /\ has_err (eres_of I' (u_effects tr smp P effs)) = false /\
    acts_of (eres_of I' (u_effects tr smp P effs)) = flat_map (img P) (acts_of (eres_of I effs)).
Proof. exact u_effects_res. Qed.
Print Assumptions C06_LA_utfr_effects_fired.

(* the expression level, for expressions that mention no object fluent (rebuilt unchanged by the walker) *)
Theorem C06_LA_utfr_clean_eval :
  forall (ot : N -> option N) (sc : bool) (e : expr) (I I' : interp),
    urel_interp ot I I' -> uclean ot e = true -> eval sc e I' = eval sc e I.
Proof. exact eval_uclean. Qed.
Print Assumptions C06_LA_utfr_clean_eval.

(* the compiled initial values are related to the original ones *)
Theorem C06_LA_utfr_init_related :
  forall (P : problem) (s : state),
    (forall f t a, otype P f = Some t ->
       match s f a with Some (VObj c) => In c (objs_of P t) | Some _ => False | None => True end) ->
    utfr_rel P s (enc_state P s).
Proof. exact enc_rel. Qed.
Print Assumptions C06_LA_utfr_init_related.

(* the expression level, reference walker: [utr] (walk_fluent_exp + walk_equals on the flat fragment: an object fluent
   read only as a side of an equality, with objects / parameters / variables as arguments; Boolean structure and
   quantifiers rebuilt; everything without object fluents unchanged) has the value AND the definedness of the original
   under the encoding invariant, provided the type of every object fluent has an object ([fv] = the fresh variable of a
   read) *)
Theorem C06_LA_utfr_walker_flat :
  forall (ot : N -> option N) (fv : N -> N) (e : expr) (I I' : interp),
    urel_interp ot I I' -> (forall f t, ot f = Some t -> objs I t <> []) -> flat ot fv e = true ->
    eval false (utr ot fv e) I' = eval false e I.
Proof.
  intros ot fv e I I' HR Hin Hfl. apply (utr_exact ot fv (objs I) Hin e I I'); [split; [exact HR | reflexivity] | exact Hfl].
Qed.
Print Assumptions C06_LA_utfr_walker_flat.

(* ... hence the hypothesis [tr_ok] of the plan-level theorems holds for the reference walker followed by simplify() *)
Theorem C06_LA_utfr_reference_walker_ok :
  forall (smp : expr -> expr) (P : problem) (fv : N -> N),
    smp_exact smp -> conds_flat P fv = true -> types_inhabited P = true ->
    tr_ok (fun e => smp (utr (otype P) fv e)) P.
Proof. exact utr_tr_ok. Qed.
Print Assumptions C06_LA_utfr_reference_walker_ok.

(* soundness with the walker MODEL in place of the abstract walker: [tr_ok] is replaced by the decidable conditions
   [conds_flat] (every condition of P in the flat fragment) and [types_inhabited] *)
Theorem C06_LA_utfr_sound_reference :
  forall (smp : expr -> expr) (fv : N -> N) (P : problem) (G : state -> Prop),
    smp_exact smp -> conds_flat P fv = true -> types_inhabited P = true ->
    utfr_wf (fun e => smp (utr (otype P) fv e)) smp P = true ->
    effects_defined P G -> one_value P G -> closed P G -> unique_ids P ->
  forall (s s' : state) (pi : list (N * list value)), G s -> utfr_rel P s s' ->
    valid_plan false (utfr_compile (fun e => smp (utr (otype P) fv e)) smp P) s' pi = true ->
    valid_plan false P s pi = true.
Proof.
  intros smp fv P G Hsmp Hfl Hinh Hwf Hdef Hone Hcl Hid s s' pi HG HR H.
  rewrite <- (u_valid_plan _ smp P G Hsmp Hwf (utr_tr_ok smp P fv Hsmp Hfl Hinh) Hdef Hone Hcl Hid s s' pi HG HR). exact H.
Qed.
Print Assumptions C06_LA_utfr_sound_reference.

(* non-vacuity with an object READ: o(x : T) : T, action(x): pre o(x) == 1, eff o(x) := 2, g := true; goals g, o(1) == 2.
   The compiled precondition is the walker's Exists; the plans [a(1)] and [a(2); a(1)] are valid on the compiled
   problem, [a(1); a(1)] is not *)
Example C06_LA_utfr_sound_reference_nonvacuous :
  smp_exact UtfrWitness.idf /\ conds_flat UtfrRef.Pr UtfrRef.fvr = true /\ types_inhabited UtfrRef.Pr = true /\
  utfr_wf UtfrRef.trr UtfrWitness.idf UtfrRef.Pr = true /\
  effects_defined UtfrRef.Pr UtfrRef.Gr /\ one_value UtfrRef.Pr UtfrRef.Gr /\ closed UtfrRef.Pr UtfrRef.Gr /\
  unique_ids UtfrRef.Pr /\ UtfrRef.Gr UtfrRef.sr /\
  utfr_rel UtfrRef.Pr UtfrRef.sr (enc_state UtfrRef.Pr UtfrRef.sr) /\
  valid_plan false UtfrRef.Pr UtfrRef.sr UtfrRef.planr = true /\
  valid_plan false UtfrRef.Pr' (enc_state UtfrRef.Pr UtfrRef.sr) UtfrRef.planr = true /\
  valid_plan false UtfrRef.Pr' (enc_state UtfrRef.Pr UtfrRef.sr) [(0%N, [VObj 2%N]); (0%N, [VObj 1%N])] = true /\
  valid_plan false UtfrRef.Pr' (enc_state UtfrRef.Pr UtfrRef.sr) [(0%N, [VObj 1%N]); (0%N, [VObj 1%N])] = false /\
  map (fun ia => a_pre (snd ia)) (p_actions UtfrRef.Pr') =
    [[EExists [(100%N, 0%N)]
        (EAnd [EEquals (EVar 100%N 0%N) (EObj 1%N); EFluent 0%N [EParam 7%N; EVar 100%N 0%N]])]].
Proof. exact utfr_reference_nonvacuous. Qed.

(* without [one_value] soundness fails inside the model:  o := a; if b then o := c  makes the original step fail
   (two different values), while the encodings o(a) := true, o(c) := false, if b then o(a) := false, if b then
   o(c) := true only meet as add-after-delete: the compiled plan is valid, its image is not.  The real compiler and the
   real validator behave in the same way: it is the recorded finding C06-utfr-masked-object-conflict. *)
Theorem C06_LA_utfr_masked_conflict_refuted :
  exists (P : problem) (s : state) (pi : list (N * list value)),
    utfr_wf (fun e => e) (fun e => e) P = true /\ obj_assigned_once P = false /\
    utfr_rel P s (enc_state P s) /\
    valid_plan false (utfr_compile (fun e => e) (fun e => e) P) (enc_state P s) pi = true /\
    valid_plan false P s pi = false.
Proof.
  exists UtfrWitness.Pw, UtfrWitness.sw, UtfrWitness.plan. exact utfr_masked_conflict_witness.
Qed.
Print Assumptions C06_LA_utfr_masked_conflict_refuted.

(* non-vacuity: type 0 = {1, 2}; object fluents o (0), q (3) of type 0, Boolean fluents g (1), b (2); one action with
   precondition b and effects  if b then o := q;  g := true;  goal g.  All hypotheses hold (G: b is Boolean, q holds an
   object of type 0), the plan is valid on both sides and the compiled action has 5 effects. *)
Example C06_LA_utfr_sound_nonvacuous :
  smp_exact UtfrWitness.idf /\ utfr_wf UtfrWitness.idf UtfrWitness.idf UtfrWitness.Pn = true /\
  tr_ok UtfrWitness.idf UtfrWitness.Pn /\ effects_defined UtfrWitness.Pn UtfrWitness.Gn /\
  one_value UtfrWitness.Pn UtfrWitness.Gn /\ closed UtfrWitness.Pn UtfrWitness.Gn /\ unique_ids UtfrWitness.Pn /\
  UtfrWitness.Gn UtfrWitness.sn /\
  utfr_rel UtfrWitness.Pn UtfrWitness.sn (enc_state UtfrWitness.Pn UtfrWitness.sn) /\
  valid_plan false UtfrWitness.Pn UtfrWitness.sn UtfrWitness.plan = true /\
  valid_plan false (utfr_compile UtfrWitness.idf UtfrWitness.idf UtfrWitness.Pn)
             (enc_state UtfrWitness.Pn UtfrWitness.sn) UtfrWitness.plan = true /\
  length (a_effs (snd (hd (0%N, UtfrWitness.an)
                          (p_actions (utfr_compile UtfrWitness.idf UtfrWitness.idf UtfrWitness.Pn))))) = 5%nat.
Proof. exact utfr_nonvacuous. Qed.

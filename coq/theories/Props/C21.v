(* C21 — The two PDDL readers produce equivalent problems (validated property).

   Neither parser is modelled.  Proved, for all inputs: when [bisim_check] accepts the problems produced by the two
   readers from the same text (serialised with one numbering of the names in the text) then they have the same objects
   per type and the same initial state, and every plan over the well-typed ground instances has the same run, the same
   validity and the same metric value in both (closed product graph: all plans; otherwise plans up to the explored
   depth); the optimisation direction and the metric class coincide.  [metric_eqb] is the structural comparison of the
   two metrics: same direction and class, the same cost expression for every action, the same final-state expression /
   goal weights. *)
From Coq Require Import List ZArith NArith QArith Qcanon Bool.
Import ListNotations.
Require Import UPV.Core.Expr UPV.Core.Eval UPV.Core.Interp UPV.Planning.Problem UPV.Planning.Sem UPV.Planning.SeqValidate.
Require Import UPV.Proofs.Step_proofs UPV.Compilers.BisimCheck UPV.Proofs.BisimCheck_proofs.

Theorem C21_bisim_check_correct :
  forall P Q MP MQ sigsP sigsQ l0P l0Q n cap,
    bisim_check P Q MP MQ sigsP sigsQ l0P l0Q n cap = BClosed ->
    forall plan, Forall (fun i => In i (all_insts P sigsP)) plan ->
      validate_from false P (qm_m MP) (spec_step false P) (st_of l0P) (zq 0) plan =
      validate_from false Q (qm_m MQ) (spec_step false Q) (st_of l0Q) (zq 0) plan /\
      ostate_eq (run P (spec_step false P) (st_of l0P) plan) (run Q (spec_step false Q) (st_of l0Q) plan) /\
      valid_plan false P (st_of l0P) plan = valid_plan false Q (st_of l0Q) plan.
Proof. exact bisim_check_closed_sound. Qed.
Print Assumptions C21_bisim_check_correct.

Theorem C21_bisim_check_correct_bounded :
  forall P Q MP MQ sigsP sigsQ l0P l0Q n cap b,
    bisim_check P Q MP MQ sigsP sigsQ l0P l0Q n cap = BBounded b ->
    forall plan, (length plan <= b)%nat -> Forall (fun i => In i (all_insts P sigsP)) plan ->
      validate_from false P (qm_m MP) (spec_step false P) (st_of l0P) (zq 0) plan =
      validate_from false Q (qm_m MQ) (spec_step false Q) (st_of l0Q) (zq 0) plan /\
      ostate_eq (run P (spec_step false P) (st_of l0P) plan) (run Q (spec_step false Q) (st_of l0Q) plan) /\
      valid_plan false P (st_of l0P) plan = valid_plan false Q (st_of l0Q) plan.
Proof. exact bisim_check_bounded_sound. Qed.
Print Assumptions C21_bisim_check_correct_bounded.

Theorem C21_bisim_check_static :
  forall P Q MP MQ sigsP sigsQ l0P l0Q n cap,
    (forall w tr i, bisim_check P Q MP MQ sigsP sigsQ l0P l0Q n cap <> BFail w tr i) ->
    (forall t o, In o (objs_of P t) <-> In o (objs_of Q t)) /\
    (forall i, In i (all_insts P sigsP) <-> In i (all_insts Q sigsP)) /\
    state_eq (st_of l0P) (st_of l0Q) /\
    qm_max MP = qm_max MQ /\ mclass (qm_m MP) = mclass (qm_m MQ).
Proof. exact bisim_check_static. Qed.
Print Assumptions C21_bisim_check_static.

Theorem C21_metric_eqb_sound :
  forall acts a b, metric_eqb acts a b = true ->
    qm_max a = qm_max b /\ mclass (qm_m a) = mclass (qm_m b) /\
    (forall aid, In aid acts -> cost_of (qm_m a) aid = cost_of (qm_m b) aid) /\
    (forall e, qm_m a = MFinal e -> qm_m b = MFinal e) /\
    (forall g, qm_m a = MOversub g -> qm_m b = MOversub g).
Proof. exact metric_eqb_sound. Qed.
Print Assumptions C21_metric_eqb_sound.

Definition ex_P : problem :=
  {| p_objs := [(0%N, [0%N; 1%N])]; p_ifun := [];
     p_fluents := [{| fd_id := 0%N; fd_sig := [0%N]; fd_ty := FBool |}; {| fd_id := 1%N; fd_sig := []; fd_ty := FNum None None |}];
     p_actions := [(0%N, {| a_params := [0%N]; a_pre := [ENot (EFluent 0%N [EParam 0%N])];
                            a_effs := [{| e_fl := 0%N; e_args := [EParam 0%N]; e_val := EBool true; e_cond := EBool true;
                                          e_kind := KAssign; e_vars := []; e_isbool := true |}] |})];
     p_goals := [EFluent 0%N [EObj 0%N]; EFluent 0%N [EObj 1%N]]; p_invs := [] |}.
Definition ex_init : fstate := [(0%N, [VObj 0%N], VBool false); (0%N, [VObj 1%N], VBool false); (1%N, [], VNum (zq 3))].
(* explicit costs vs. the same costs through the default; a dropped cost *)
Definition ex_M1 : qmetric := {| qm_max := false; qm_m := MCosts [(0%N, EFluent 1%N [])] None |}.
Definition ex_M2 : qmetric := {| qm_max := false; qm_m := MCosts [] (Some (EFluent 1%N [])) |}.
Definition ex_M3 : qmetric := {| qm_max := false; qm_m := MCosts [] (Some (EInt 0)) |}.

Example C21_bisim_check_correct_nonvacuous :
  bisim_check ex_P ex_P ex_M1 ex_M2 [(0%N, [0%N])] [(0%N, [0%N])] ex_init ex_init 6 100 = BClosed /\
  validate_from false ex_P (qm_m ex_M1) (spec_step false ex_P) (st_of ex_init) (zq 0) [(0%N, [VObj 1%N]); (0%N, [VObj 0%N])]
    = Valid (Some (zq 6)).
Proof. vm_compute. split; reflexivity. Qed.
Example C21_bisim_check_correct_bounded_nonvacuous :
  bisim_check ex_P ex_P ex_M1 ex_M2 [(0%N, [0%N])] [(0%N, [0%N])] ex_init ex_init 1 100 = BBounded 1.
Proof. vm_compute. reflexivity. Qed.
Example C21_bisim_check_static_nonvacuous :
  forall w tr i, bisim_check ex_P ex_P ex_M1 ex_M2 [(0%N, [0%N])] [(0%N, [0%N])] ex_init ex_init 6 100 <> BFail w tr i.
Proof. intros. vm_compute. discriminate. Qed.
(* a lost action cost is found on the first instance *)
Example C21_bisim_check_rejects_metric :
  bisim_check ex_P ex_P ex_M1 ex_M3 [(0%N, [0%N])] [(0%N, [0%N])] ex_init ex_init 6 100 = BFail 6 [] (Some (0%N, [VObj 0%N])).
Proof. vm_compute. reflexivity. Qed.
Example C21_metric_eqb_sound_nonvacuous :
  metric_eqb [0%N] ex_M1 ex_M2 = true /\ metric_eqb [0%N] ex_M1 ex_M3 = false.
Proof. vm_compute. split; reflexivity. Qed.

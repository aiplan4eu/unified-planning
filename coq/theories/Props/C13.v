(* C13 — Substitution replaces exactly the free occurrences of its keys.
   Only statements; each is closed by [exact] of a lemma from Proofs/Subst_proofs.v.
   Model of the code: Walkers/Subst.v part 1 ([substitute_call], [substitute], [walk], [filter_map], [compat_ty]).
   Specification: Walkers/Subst.v part 2 ([topdown_replace], [capture_free], [nf], [updated]).
   [nf e]: e is an expression the ExpressionManager's constructors can build (no Not directly under Not, And/Or/Plus/
   Times have >= 2 arguments); [nf] is closed under the constructors and under substitution (C13_result_nf). *)
From Coq Require Import List ZArith NArith QArith Qcanon Bool.
Import ListNotations.
Require Import UPV.Core.Expr UPV.Core.Eval UPV.Core.Interp UPV.Walkers.Subst UPV.Proofs.Subst_proofs.

(* 1. the result is the top-down replacement of the maximal key occurrences *)
Theorem C13_subst_spec :
  forall (s : smap) (e : expr), nf e = true -> substitute s e = topdown_replace s e.
Proof. exact subst_spec. Qed.
Print Assumptions C13_subst_spec.

(* the same for a whole call with a type-compatible map (any number of entries, any walker state before) *)
Theorem C13_call_spec :
  forall (st : wstate) (t : tmap) (e : expr),
    nf e = true -> forallb entry_ok t = true ->
    snd (substitute_call st t e) = Done (topdown_replace (untyped t) e).
Proof. exact call_spec. Qed.
Print Assumptions C13_call_spec.

(* the code's dictionary look-up and quantifier filter are the specification's "occurrence of a key" and
   "key containing a variable bound by the quantifier" *)
Theorem C13_lookup_is_occurrence : forall s e, lookup s e = assoc s e.
Proof. exact lookup_assoc. Qed.
Print Assumptions C13_lookup_is_occurrence.

Theorem C13_filter_is_drop_bound : forall s vs, filter_map s vs = drop_bound s vs.
Proof. exact filter_map_drop. Qed.
Print Assumptions C13_filter_is_drop_bound.

Theorem C13_result_nf :
  forall e s, (forall k v, In (k, v) s -> nf v = true) -> nf e = true -> nf (topdown_replace s e) = true.
Proof. exact nf_topdown_replace. Qed.
Print Assumptions C13_result_nf.

(* 2. consequently the result evaluates like the original.
   [sc] selects strict or short-circuit quantifier evaluation (Core/Eval.v); the theorem holds for both.
   Hypotheses: capture-freedom (DESIGN.md, "Hypothesis made explicit"), key and value have the same value in I,
   and a replacement of the form Not(y) has a Boolean-or-undefined y in I (the manager turns Not(Not y) into y; this
   is what well-typedness of the replacement gives under an interpretation that respects types). *)
Theorem C13_subst_eval :
  forall (sc : bool) (s : smap) (e : expr) (I : interp),
    nf e = true ->
    capture_free s e = true ->
    (forall k v, In (k, v) s -> eval sc k I = eval sc v I) ->
    (forall k y, In (k, ENot y) s -> bool_or_undef (eval sc y I)) ->
    eval sc (substitute s e) I = eval sc e I.
Proof. exact subst_eval. Qed.
Print Assumptions C13_subst_eval.

(* the form used inside quantifiers: I0 is where keys and values agree, J is I0 with the variables in B re-bound,
   no key of the (already filtered) map mentions B, values inserted below do not mention what is bound there *)
Theorem C13_subst_eval_under_binders :
  forall (sc : bool) (s0 : smap) (I0 : interp),
    (forall k v, In (k, v) s0 -> eval sc k I0 = eval sc v I0) ->
    (forall k y, In (k, ENot y) s0 -> bool_or_undef (eval sc y I0)) ->
    forall e B s J,
      nf e = true -> incl s s0 -> same_but B I0 J ->
      (forall k v, In (k, v) s -> disjointN (free_vars k) B = true) ->
      cfree B s e = true ->
      eval sc (topdown_replace s e) J = eval sc e J.
Proof. exact tr_eval. Qed.
Print Assumptions C13_subst_eval_under_binders.

(* evaluation only depends on the free variables (used for the previous theorem; also shows [free_vars] is right) *)
Theorem C13_eval_coincidence :
  forall sc e I J, same_static I J ->
    (forall x, In x (free_vars e) -> var J x = var I x) -> eval sc e J = eval sc e I.
Proof. exact eval_coincide. Qed.
Print Assumptions C13_eval_coincidence.

(* leaf keys (parameters, variables, ground fluent expressions), pairwise different, replacements and result not
   reading any key: the result in I evaluates like the original in I updated by the map *)
Theorem C13_subst_eval_updated :
  forall (sc : bool) (s : smap) (e : expr) (I : interp),
    nf e = true -> capture_free s e = true -> keys_ok s = true ->
    (forall k v, In (k, v) s -> unread s v = true) ->
    unread s (substitute s e) = true ->
    (forall k y, In (k, ENot y) s -> bool_or_undef (eval sc y I)) ->
    eval sc (substitute s e) I = eval sc e (updated sc s I).
Proof. exact subst_eval_updated. Qed.
Print Assumptions C13_subst_eval_updated.

Theorem C13_subst_eval_in_updated :
  forall (sc : bool) (s : smap) (e : expr) (I : interp),
    nf e = true -> capture_free s e = true -> keys_ok s = true ->
    (forall k v, In (k, v) s -> unread s v = true) ->
    (forall k y, In (k, ENot y) s -> bool_or_undef (eval sc y I)) ->
    eval sc (substitute s e) (updated sc s I) = eval sc e (updated sc s I).
Proof. exact subst_eval_in_updated. Qed.
Print Assumptions C13_subst_eval_in_updated.

Theorem C13_updated_gives_keys_their_values :
  forall sc I s, keys_ok s = true ->
    forall k v, In (k, v) s -> eval sc k (updated sc s I) = eval sc v I.
Proof. exact updated_gives_keys. Qed.
Print Assumptions C13_updated_gives_keys_their_values.

(* 3. a map with incompatible types is rejected before anything changes *)
Theorem C13_rejects_first :
  forall (st : wstate) (t : tmap) (e : expr),
    forallb entry_ok t = false ->
    exists i, first_bad t = Some i /\ substitute_call st t e = (st, TypeErr i).
Proof. exact subst_rejects_first. Qed.
Print Assumptions C13_rejects_first.

Theorem C13_rejected_entry_is_first_incompatible :
  forall t i, first_bad t = Some i ->
    (exists x, nth_error t i = Some x /\ entry_ok x = false) /\ forallb entry_ok (firstn i t) = true.
Proof. exact first_bad_some. Qed.
Print Assumptions C13_rejected_entry_is_first_incompatible.

Theorem C13_accepts_compatible :
  forall st t e, forallb entry_ok t = true ->
    substitute_call st t e = (match t with [] => st | _ => [] end, Done (substitute (untyped t) e)).
Proof. exact subst_accepts. Qed.
Print Assumptions C13_accepts_compatible.

(* the re-check done by the fresh walker of a quantifier body (a sub-map) cannot raise *)
Theorem C13_recheck_passes :
  forall t t', forallb entry_ok t = true -> incl t' t -> first_bad t' = None.
Proof. exact recheck_passes. Qed.
Print Assumptions C13_recheck_passes.

Module Ex.
  (* fluents: 0 = b0 (Boolean, no argument), 1 = b1(x : T0); variable 1 : T0; objects 0, 1 of type 0 *)
  Definition b0 := EFluent 0%N [].
  Definition b1 (a : expr) := EFluent 1%N [a].
  Definition x := EVar 1%N 0%N.
  Definition e := EAnd [b0; EExists [(1%N, 0%N)] (EOr [b1 x; b0])].
  (* b0 is replaced everywhere; b1(x) is a key too but mentions x, which the quantifier binds *)
  Definition s : smap := [(b0, ENot (b1 (EObj 0%N))); (b1 x, EBool true)].
  Definition F : finterp :=
    {| f_fl := [(0%N, [], VBool true); (1%N, [VObj 0%N], VBool false); (1%N, [VObj 1%N], VBool true)];
       f_par := []; f_var := [(1%N, VObj 1%N)]; f_ifun := []; f_objs := [(0%N, [0%N; 1%N])] |}.
  Definition I := to_interp F.
  Definition r := EAnd [ENot (b1 (EObj 0%N)); EExists [(1%N, 0%N)] (EOr [b1 x; ENot (b1 (EObj 0%N))])].
End Ex.

Example C13_subst_spec_nonvacuous :
  nf Ex.e = true /\ substitute Ex.s Ex.e = Ex.r /\ topdown_replace Ex.s Ex.e = Ex.r /\ Ex.r <> Ex.e.
Proof. repeat split; try reflexivity. discriminate. Qed.

Example C13_subst_eval_nonvacuous :
  nf Ex.e = true /\ capture_free Ex.s Ex.e = true /\
  (forall k v, In (k, v) Ex.s -> eval false k Ex.I = eval false v Ex.I) /\
  (forall k y, In (k, ENot y) Ex.s -> bool_or_undef (eval false y Ex.I)) /\
  eval false Ex.e Ex.I = Some (VBool true).
Proof.
  split; [reflexivity|]. split; [reflexivity|]. split; [|split].
  - intros k v [H|[H|[]]]; inversion H; subst; vm_compute; reflexivity.
  - intros k y [H|[H|[]]]; inversion H; subst. right. exists false. vm_compute. reflexivity.
  - vm_compute. reflexivity.
Qed.

Example C13_subst_eval_updated_nonvacuous :
  let s := [(Ex.b0, ENot (Ex.b1 (EObj 0%N))); (EVar 2%N 0%N, EObj 1%N)] in
  let e := EAnd [Ex.b0; EExists [(1%N, 0%N)] (EOr [EEquals Ex.x (EVar 2%N 0%N); Ex.b0])] in
  nf e = true /\ capture_free s e = true /\ keys_ok s = true /\
  (forall k v, In (k, v) s -> unread s v = true) /\ unread s (substitute s e) = true /\
  (forall k y, In (k, ENot y) s -> bool_or_undef (eval false y Ex.I)) /\
  eval false (substitute s e) Ex.I = Some (VBool true) /\ eval false e Ex.I = None.
Proof.
  cbv zeta. repeat split; try reflexivity.
  - intros k v [H|[H|[]]]; inversion H; subst; reflexivity.
  - intros k y [H|[H|[]]]; inversion H; subst. right. exists false. vm_compute. reflexivity.
Qed.

Example C13_rejects_first_nonvacuous :
  let t : tmap := [(Ex.b0, EBool true, TyBool, TyBool);
                   (EParam 0%N, EObj 0%N, TyUser 1%N [1%N; 0%N], TyUser 0%N [0%N]);       (* T1 key, T0 value *)
                   (EParam 1%N, EInt 7%Z, TyBool, TyInt (Some (qc 7 1)) (Some (qc 7 1)))] in
  forallb entry_ok t = false /\ substitute_call [] t Ex.e = ([], TypeErr 1).
Proof. cbv zeta. split; vm_compute; reflexivity. Qed.

(* the hypotheses of C13_subst_eval are needed (these are facts about the specification, not defects) *)
(* capture: the value mentions x and is inserted under Exists x *)
Example C13_capture_changes_value :
  let s := [(Ex.b0, Ex.b1 Ex.x)] in
  let e := EExists [(1%N, 0%N)] Ex.b0 in
  let F := {| f_fl := [(0%N, [], VBool true); (1%N, [VObj 0%N], VBool false); (1%N, [VObj 1%N], VBool true)];
              f_par := []; f_var := [(1%N, VObj 1%N)]; f_ifun := []; f_objs := [(0%N, [0%N])] |} in
  nf e = true /\ capture_free s e = false /\
  (forall k v, In (k, v) s -> eval false k (to_interp F) = eval false v (to_interp F)) /\
  substitute s e = topdown_replace s e /\
  eval false (substitute s e) (to_interp F) = Some (VBool false) /\ eval false e (to_interp F) = Some (VBool true).
Proof.
  cbv zeta. repeat split; try reflexivity.
  intros k v [H|[]]; inversion H; subst; vm_compute; reflexivity.
Qed.

(* Not(Not y) collapses: with an interpretation that gives the "Boolean" y a number, Not(k) is undefined but y is not *)
Example C13_double_negation_needs_boolean :
  let s := [(Ex.b0, ENot (EParam 0%N))] in
  let e := ENot Ex.b0 in
  let F := {| f_fl := []; f_par := [(0%N, VNum (qc 3 1))]; f_var := []; f_ifun := []; f_objs := [] |} in
  nf e = true /\ capture_free s e = true /\
  (forall k v, In (k, v) s -> eval false k (to_interp F) = eval false v (to_interp F)) /\
  substitute s e = EParam 0%N /\
  eval false (substitute s e) (to_interp F) = Some (VNum (qc 3 1)) /\ eval false e (to_interp F) = None.
Proof.
  cbv zeta. repeat split; try reflexivity.
  intros k v [H|[]]; inversion H; subst; vm_compute; reflexivity.
Qed.

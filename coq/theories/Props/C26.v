(* C26 — Time-triggered and STN plan conversions are faithful.
   Only statements; each is closed by [exact] of a lemma from Proofs/StnPlan_proofs.v (which uses C25's
   Proofs/Stn_proofs.v and Stn_termination.v for "consistent as reported by the DeltaSTN").

   Vocabulary (Planning/StnPlan.v, the model of time_triggered_plan._convert_to_stn and stn_plan.STNPlan):
   [step] = one (start, action instance, duration) of the plan reduced to its timings; [mock_step effs conds] = the
   mockup action carrying the problem's timed effects / timed goals; [plan_events eps mock plan] = the events (start,
   end and intermediate timings of every step, shifted by eps at open interval bounds) sorted by time;
   [edges] = the adjacency list of the partial-order plan obtained by deordering the sequentialised events, as pairs
   of positions in that sorted list: ANY list, the theorems only require its pairs to point forward;
   [conv_constraints] = the constraints handed to STNPlan(...); [init_adds] = the DeltaSTN.add calls made by
   STNPlan.__init__; [convert_to_stn fuel ...] = the resulting DeltaSTN (None = the model of _inc_check ran out of
   fuel; C25_terminates: never with [enough_fuel]); [check_stn] = STNPlan.is_consistent(); [plan_constraints s] = what
   STNPlan.get_constraints() reports; [sat_pcon t (a, L, U, b)] = L <= t b - t a <= U; [orig_time plan] = the ORIGINAL
   times (GLOBAL_START 0, GLOBAL_END the makespan, START/END of step k its start / start + duration).

   Hypotheses, all decidable and evaluated by the harness on every generated case:
   [times_nonneg plan]  start times and durations are not negative;
   [gap_ok eps evs]     eps is at most the gap between two consecutive DIFFERENT event times;
   [edges_forward n E]  every edge goes from an earlier to a later position of the sorted event list. *)
From Coq Require Import List ZArith NArith QArith Bool.
Import ListNotations.
Require Import UPV.Model.Stn UPV.Proofs.Stn_proofs UPV.Proofs.Stn_termination.
Require Import UPV.Planning.StnPlan UPV.Proofs.StnPlan_proofs.

(* (1) the abstract conversion lemma: for EVERY list of events sorted by time (each event = start of its generating
   step + its skew) and EVERY forward edge list, the original start times and durations satisfy all generated
   constraints: simultaneous events => equality, otherwise lower bound skew + eps, durations [d, d], 0 <= start *)
Theorem C26_stn_of_events_satisfied :
  forall eps effs conds plan evs edges,
    times_nonneg plan = true ->
    (forall e, In e evs -> ev_wf (mock_step effs conds :: plan) e) ->
    sorted_by_time evs = true -> gap_ok eps evs = true -> edges_forward (length evs) edges = true ->
    forall c, In c (flatten (add_edges eps evs edges (base_constraints 0 (mock_step effs conds :: plan) []))) ->
      sat_pcon (orig_time plan) c.
Proof. exact stn_of_events_satisfied. Qed.
Print Assumptions C26_stn_of_events_satisfied.

(* (1') for the event list computed by the model of _convert_to_stn (its sortedness and the event/generator relation
   are proved, not assumed) *)
Theorem C26_original_times_satisfy_conversion :
  forall eps effs conds plan edges,
    times_nonneg plan = true ->
    gap_ok eps (plan_events eps (mock_step effs conds) plan) = true ->
    edges_forward (length (plan_events eps (mock_step effs conds) plan)) edges = true ->
    forall c, In c (flatten (conv_constraints eps (mock_step effs conds) plan edges)) -> sat_pcon (orig_time plan) c.
Proof. exact conv_constraints_satisfied. Qed.
Print Assumptions C26_original_times_satisfy_conversion.

(* (2) a constraint set with a solution is reported consistent by the DeltaSTN built by STNPlan.__init__ (C25) *)
Theorem C26_satisfies_implies_consistent :
  forall fuel cs t s, solution t (init_adds cs) -> stn_plan_init fuel cs = Some s -> check_stn s = true.
Proof. exact satisfies_implies_consistent. Qed.
Print Assumptions C26_satisfies_implies_consistent.

(* the constraints of an STN plan are satisfied exactly by the solutions of its DeltaSTN insertions that keep every
   node between GLOBAL_START and GLOBAL_END *)
Theorem C26_plan_constraints_vs_insertions :
  forall t cs,
    ((forall n, node_ok t n) -> (forall c, In c cs -> sat_pcon t c) -> solution t (init_adds cs)) /\
    (solution t (init_adds cs) -> forall c, In c cs -> sat_pcon t c).
Proof. intros t cs. split; [apply init_adds_solution | apply init_adds_sat]. Qed.
Print Assumptions C26_plan_constraints_vs_insertions.

(* (3) whatever STNPlan.get_constraints() reports is implied by the inserted constraints *)
Theorem C26_reported_constraints_satisfied :
  forall fuel cs s t, stn_plan_init fuel cs = Some s -> check_stn s = true -> solution t (init_adds cs) ->
    forall c, In c (flatten (plan_constraints s)) -> sat_pcon t c.
Proof. intros fuel cs s t H. exact (reported_constraints_sat t s _ (stn_plan_init_inv _ _ _ H)). Qed.
Print Assumptions C26_reported_constraints_satisfied.

(* (4) THE FORWARD DIRECTION: the STN plan obtained from a time-triggered plan exists (no fuel problem), is consistent,
   and the original times satisfy the constraints it was built from, the DeltaSTN insertions, and the constraints it
   reports *)
Theorem C26_forward_conversion :
  forall eps effs conds plan edges,
    times_nonneg plan = true ->
    gap_ok eps (plan_events eps (mock_step effs conds) plan) = true ->
    edges_forward (length (plan_events eps (mock_step effs conds) plan)) edges = true ->
    let cs := flatten (conv_constraints eps (mock_step effs conds) plan edges) in
    (forall c, In c cs -> sat_pcon (orig_time plan) c) /\
    solution (orig_time plan) (init_adds cs) /\
    (exists s, convert_to_stn (enough_fuel (init_adds cs)) eps (mock_step effs conds) plan edges = Some s) /\
    (forall fuel s, convert_to_stn fuel eps (mock_step effs conds) plan edges = Some s ->
       check_stn s = true /\ forall c, In c (flatten (plan_constraints s)) -> sat_pcon (orig_time plan) c).
Proof. exact forward_conversion. Qed.
Print Assumptions C26_forward_conversion.

(* (5) the times read by the back conversion (minus the DeltaSTN distances) satisfy every constraint of the STN plan,
   are non-negative and pointwise least among the non-negative solutions *)
Theorem C26_back_times_least_solution :
  forall fuel cs s, stn_plan_init fuel cs = Some s -> check_stn s = true ->
    (forall c, In c cs -> sat_pcon (model_of s) c) /\ nonneg (model_of s) /\
    (forall t, nonneg t -> solution t (init_adds cs) -> forall x, model_of s x <= t x).
Proof. exact back_times_solve. Qed.
Print Assumptions C26_back_times_least_solution.

(* (6) the gap hypothesis is a THEOREM for the epsilon that _convert_to_stn chooses when problem.epsilon is None
   (a tenth of plan.extract_epsilon(problem), at most 1/1000): every event time is a member of the time set of
   extract_epsilon shifted by 0, +eps or -eps, and different members are at least 10 eps apart.
   [mock_end_ok]: timed effects / goals anchored at GLOBAL_END have a delay <= 0. *)
Theorem C26_default_epsilon_gap_ok :
  forall effs conds plan xe,
    mock_end_ok (mock_step effs conds) = true ->
    extract_epsilon (mock_step effs conds) plan = Some xe ->
    gap_ok (choose_eps None (Some xe)) (plan_events (choose_eps None (Some xe)) (mock_step effs conds) plan) = true.
Proof. exact default_eps_gap_ok. Qed.
Print Assumptions C26_default_epsilon_gap_ok.

(* ... and when extract_epsilon answers None (every time of the plan is 0), for epsilon = 1/1000 *)
Theorem C26_default_epsilon_gap_ok_all_zero :
  forall effs conds plan,
    mock_end_ok (mock_step effs conds) = true ->
    extract_epsilon (mock_step effs conds) plan = None ->
    (forall q, In q (0 :: mock_delays (mock_step effs conds) ++ flat_map step_times plan) -> 0 <= q) ->
    gap_ok (choose_eps None None) (plan_events (choose_eps None None) (mock_step effs conds) plan) = true.
Proof. exact default_eps_gap_ok_none. Qed.
Print Assumptions C26_default_epsilon_gap_ok_all_zero.

(* (7) THE FORWARD DIRECTION FOR THE DEFAULT EPSILON: no hypothesis about epsilon left *)
Theorem C26_forward_conversion_default_epsilon :
  forall effs conds plan edges xe,
    mock_end_ok (mock_step effs conds) = true ->
    extract_epsilon (mock_step effs conds) plan = Some xe ->
    times_nonneg plan = true ->
    let eps := choose_eps None (Some xe) in
    edges_forward (length (plan_events eps (mock_step effs conds) plan)) edges = true ->
    let cs := flatten (conv_constraints eps (mock_step effs conds) plan edges) in
    (forall c, In c cs -> sat_pcon (orig_time plan) c) /\
    solution (orig_time plan) (init_adds cs) /\
    (exists s, convert_to_stn (enough_fuel (init_adds cs)) eps (mock_step effs conds) plan edges = Some s) /\
    (forall fuel s, convert_to_stn fuel eps (mock_step effs conds) plan edges = Some s ->
       check_stn s = true /\ forall c, In c (flatten (plan_constraints s)) -> sat_pcon (orig_time plan) c).
Proof. exact forward_conversion_default_eps. Qed.
Print Assumptions C26_forward_conversion_default_epsilon.

(* THE FULL PROPERTY, for a notion [valid] of plan validity (the reference temporal semantics tt_valid of C05 for a
   fixed problem) and the edges [deorder plan] produced by the deordering: the STN plan is consistent, the original
   times satisfy its constraints, and the re-timed plan is still valid.  The last conjunct is NOT proved: it is
   validated case by case (Coq's tt_valid_b and the real TimeTriggeredPlanValidator on the implementation's
   back-converted plan), and it is false for the current code on the input shapes recorded as open findings
   (notes/C26.md). *)
Definition C26_roundtrip_goal (valid : list step -> Prop) (deorder : list step -> list (nat * nat)) : Prop :=
  forall eps effs conds plan fuel s,
    valid plan ->
    times_nonneg plan = true ->
    gap_ok eps (plan_events eps (mock_step effs conds) plan) = true ->
    edges_forward (length (plan_events eps (mock_step effs conds) plan)) (deorder plan) = true ->
    convert_to_stn fuel eps (mock_step effs conds) plan (deorder plan) = Some s ->
    check_stn s = true /\
    (forall c, In c (flatten (plan_constraints s)) -> sat_pcon (orig_time plan) c) /\
    valid (retime s plan).

(* the proved part: everything but [valid (retime s plan)]; about the re-timed plan it is proved that its times solve
   the STN plan's constraints and are the least non-negative ones *)
Theorem C26_roundtrip_partial :
  forall (deorder : list step -> list (nat * nat)) eps effs conds plan fuel s,
    times_nonneg plan = true ->
    gap_ok eps (plan_events eps (mock_step effs conds) plan) = true ->
    edges_forward (length (plan_events eps (mock_step effs conds) plan)) (deorder plan) = true ->
    convert_to_stn fuel eps (mock_step effs conds) plan (deorder plan) = Some s ->
    check_stn s = true /\
    (forall c, In c (flatten (plan_constraints s)) -> sat_pcon (orig_time plan) c) /\
    (forall c, In c (flatten (conv_constraints eps (mock_step effs conds) plan (deorder plan))) -> sat_pcon (model_of s) c) /\
    nonneg (model_of s) /\
    (forall x, model_of s x <= orig_time plan x).
Proof. intros deorder eps effs conds plan. exact (roundtrip_partial eps effs conds plan (deorder plan)). Qed.
Print Assumptions C26_roundtrip_partial.

(* An explicit problem.epsilon E that the plan respects in the library's own sense (extract_epsilon >= E, the test of
   correct_plan_generation_result) does NOT imply the gap hypothesis: the auxiliary event of an open interval bound sits
   at bound +/- E and may be closer than E to a real event.  The statement one would like ... *)
Definition C26_conformant_epsilon_goal : Prop :=
  forall E xe effs conds plan edges,
    extract_epsilon (mock_step effs conds) plan = Some xe -> E <= xe -> 0 < E ->
    times_nonneg plan = true ->
    edges_forward (length (plan_events E (mock_step effs conds) plan)) edges = true ->
    forall c, In c (flatten (conv_constraints E (mock_step effs conds) plan edges)) -> sat_pcon (orig_time plan) c.

(* ... is false of the faithful model (open finding C26-explicit-epsilon-open-interval; witness found by the harness,
   where the implementation agrees with the model): E = 1/4; B at 0 makes x true; A at 1 for 4 needs x over
   (start, end]; C at 1 + 7/16 reads and writes x.  Events: B, A.start + E = 5/4, C = 23/16, A.end; the deordering
   orders them in a chain; the generated bound  C - A.start >= E + E = 1/2  is violated by 7/16. *)
Theorem C26_conformant_epsilon_refuted : ~ C26_conformant_epsilon_goal.
Proof. exact conformant_epsilon_refuted. Qed.
Print Assumptions C26_conformant_epsilon_refuted.

(* non-vacuity: a durative step with a left-open condition over (start, end] and an effect at its end, an
   instantaneous step simultaneous with that end, a later instantaneous step, a timed effect at 1; edges including a
   pair of simultaneous events *)
Example C26_nonvacuous :
  let eps := 1 # 1000 in
  let effs := [ {| tg_anchor := FromStart; tg_delay := 1 |} ] in
  let a := {| st_start := 0; st_dur := Some 2;
              st_effs := [ {| tg_anchor := FromEnd; tg_delay := 0 |} ];
              st_conds := [ {| iv_lo := {| tg_anchor := FromStart; tg_delay := 0 |};
                               iv_hi := {| tg_anchor := FromEnd; tg_delay := 0 |}; iv_lopen := true; iv_ropen := false |} ]; st_dyn := false |} in
  let b := {| st_start := 2; st_dur := None; st_effs := []; st_conds := []; st_dyn := false |} in
  let c := {| st_start := 3; st_dur := None; st_effs := []; st_conds := []; st_dyn := false |} in
  let plan := [a; b; c] in
  let edges := [(0, 1); (1, 2); (2, 3); (3, 4)]%nat in
  times_nonneg plan = true /\
  length (plan_events eps (mock_step effs []) plan) = 5%nat /\
  gap_ok eps (plan_events eps (mock_step effs []) plan) = true /\
  edges_forward 5 edges = true /\
  exists s, convert_to_stn 100 eps (mock_step effs []) plan edges = Some s /\ check_stn s = true /\
            length (flatten (plan_constraints s)) = 12%nat.
Proof.
  cbv zeta. split; [reflexivity|]. split; [vm_compute; reflexivity|]. split; [vm_compute; reflexivity|].
  split; [reflexivity|]. eexists. split; [vm_compute; reflexivity|]. split; vm_compute; reflexivity.
Qed.

(* non-vacuity of the default-epsilon theorems: the same plan with a timed goal up to GLOBAL_END; extract_epsilon = 1,
   epsilon = 1/1000 *)
Example C26_default_epsilon_nonvacuous :
  let effs := [ {| tg_anchor := FromStart; tg_delay := 1 |} ] in
  let conds := [ {| iv_lo := {| tg_anchor := FromStart; tg_delay := 2 |}; iv_hi := {| tg_anchor := FromEnd; tg_delay := 0 |};
                    iv_lopen := true; iv_ropen := false |} ] in
  let a := {| st_start := 0; st_dur := Some 2;
              st_effs := [ {| tg_anchor := FromEnd; tg_delay := 0 |} ];
              st_conds := [ {| iv_lo := {| tg_anchor := FromStart; tg_delay := 0 |};
                               iv_hi := {| tg_anchor := FromEnd; tg_delay := 0 |}; iv_lopen := true; iv_ropen := false |} ];
              st_dyn := true |} in
  let b := {| st_start := 2; st_dur := None; st_effs := []; st_conds := []; st_dyn := false |} in
  let plan := [a; b] in
  mock_end_ok (mock_step effs conds) = true /\
  extract_epsilon (mock_step effs conds) plan = Some 1 /\
  Qeq_bool (choose_eps None (Some 1)) (1 # 1000) = true /\
  times_nonneg plan = true /\
  length (plan_events (choose_eps None (Some 1)) (mock_step effs conds) plan) = 6%nat.
Proof. cbv zeta. repeat split; vm_compute; reflexivity. Qed.

(* the gap hypothesis is a real restriction: with eps = 1 the same events are too close *)
Example C26_gap_hypothesis_can_fail :
  gap_ok 1 [ {| e_time := 0; e_gen := 1; e_skew := 0 |}; {| e_time := 1 # 2; e_gen := 2; e_skew := 0 |} ] = false.
Proof. reflexivity. Qed.

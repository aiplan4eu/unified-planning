(* C20 — Protobuf round trip is lossless: component codecs.
   Only statements; each is closed by [exact] of a lemma from Proofs/ProtoCodec_proofs.v.
   Every theorem has the form  decode (encode x) = Some x  for ALL x satisfying a well-formedness condition that every
   Python object of that class satisfies inside its problem (Fractions are reduced; the types, objects, fluents and
   actions an expression mentions belong to the problem and have the recorded type).  [user_type], [obj_ty],
   [fluent_ty], [has_action] are the problem's symbol tables (arbitrary functions in the theorems).
   Whole messages (problems, plans, results) are validated by harness/props/c20.py, not proved. *)
From Coq Require Import List ZArith NArith QArith Qreduction Bool.
Import ListNotations.
Require Import UPV.Model.ProtoCodec UPV.Proofs.ProtoCodec_proofs.
Open Scope list_scope.

(* numeric types: all four combinations of finite / infinite bounds ([lo], [hi] range over [option]) *)
Theorem C20_int_type_codec :
  forall user_type (lo hi : option Z),
    convert_type_str user_type (proto_type (TyInt lo hi)) = Some (TyInt lo hi).
Proof. exact int_type_codec. Qed.
Print Assumptions C20_int_type_codec.

Theorem C20_real_type_codec :
  forall user_type (lo hi : option Q),
    match lo with Some q => canonQ q | None => True end ->
    match hi with Some q => canonQ q | None => True end ->
    convert_type_str user_type (proto_type (TyReal lo hi)) = Some (TyReal lo hi).
Proof. exact real_type_codec. Qed.
Print Assumptions C20_real_type_codec.

Theorem C20_type_codec :
  forall user_type t, wf_tyb user_type t = true -> convert_type_str user_type (proto_type t) = Some t.
Proof. exact type_codec. Qed.
Print Assumptions C20_type_codec.

Theorem C20_type_decl_codec :
  forall user_type t father,
    match t with TyReal lo hi => wf_boundb lo && wf_boundb hi | _ => true end = true ->
    wf_fatherb user_type t father = true ->
    dec_type_decl user_type (enc_type_decl t father) = Some (t, father).
Proof. exact type_decl_codec. Qed.
Print Assumptions C20_type_decl_codec.

(* numeric constants: any integer, any reduced rational (negative ones included) *)
Theorem C20_number_codec_int :
  forall user_type obj_ty fluent_ty (z : Z),
    dec_expr user_type obj_ty fluent_ty (enc_int z) = Some (EInt z).
Proof. exact int_const_codec. Qed.
Print Assumptions C20_number_codec_int.

Theorem C20_number_codec_real :
  forall q : Q, canonQ q -> dec_real (enc_real q) = Some q.
Proof. exact real_codec. Qed.
Print Assumptions C20_number_codec_real.

Theorem C20_number_codec_real_constant :
  forall user_type obj_ty fluent_ty (q : Q), canonQ q ->
    dec_expr user_type obj_ty fluent_ty (enc_real_expr q) = Some (EReal q).
Proof. exact real_const_codec. Qed.
Print Assumptions C20_number_codec_real_constant.

(* expressions: tree induction over Expression{atom|list, kind, type} *)
Theorem C20_expr_codec :
  forall user_type obj_ty fluent_ty e,
    wf_exprb user_type obj_ty fluent_ty e = true ->
    dec_expr user_type obj_ty fluent_ty (enc_expr e) = Some e.
Proof. exact expr_codec. Qed.
Print Assumptions C20_expr_codec.

(* timepoints (all four kinds, with or without container), timings, intervals (open/closed on both sides) *)
Theorem C20_timepoint_codec :
  forall tp, wf_timepointb tp = true -> dec_timepoint (enc_timepoint tp) = Some tp.
Proof. exact timepoint_codec. Qed.
Print Assumptions C20_timepoint_codec.

Theorem C20_timing_codec :
  forall t, wf_timingb t = true -> dec_timing (enc_timing t) = Some t.
Proof. exact timing_codec. Qed.
Print Assumptions C20_timing_codec.

Theorem C20_interval_codec :
  forall i, wf_tintervalb i = true -> dec_tinterval (enc_tinterval i) = Some i.
Proof. exact tinterval_codec. Qed.
Print Assumptions C20_interval_codec.

Theorem C20_duration_interval_codec :
  forall user_type obj_ty fluent_ty i,
    wf_dintervalb user_type obj_ty fluent_ty i = true ->
    dec_dinterval user_type obj_ty fluent_ty (enc_dinterval i) = Some i.
Proof. exact dinterval_codec. Qed.
Print Assumptions C20_duration_interval_codec.

(* effects (assign / increase / decrease, condition, forall variables), timed effects, conditions *)
Theorem C20_effect_codec :
  forall user_type obj_ty fluent_ty e,
    wf_effectb user_type obj_ty fluent_ty e = true ->
    dec_effect user_type obj_ty fluent_ty (enc_effect e) = Some e.
Proof. exact effect_codec. Qed.
Print Assumptions C20_effect_codec.

Theorem C20_timed_effect_codec :
  forall user_type obj_ty fluent_ty ot e,
    wf_effectb user_type obj_ty fluent_ty e = true -> wf_opt wf_timingb ot = true ->
    dec_timed_effect user_type obj_ty fluent_ty (enc_timed_effect ot e) = Some (ot, e).
Proof. exact timed_effect_codec. Qed.
Print Assumptions C20_timed_effect_codec.

Theorem C20_condition_codec :
  forall user_type obj_ty fluent_ty span c,
    wf_exprb user_type obj_ty fluent_ty c = true -> wf_opt wf_tintervalb span = true ->
    dec_condition user_type obj_ty fluent_ty (enc_condition span c) = Some (span, c).
Proof. exact condition_codec. Qed.
Print Assumptions C20_condition_codec.

Theorem C20_metric_codec :
  forall user_type obj_ty fluent_ty has_action m,
    wf_metricb user_type obj_ty fluent_ty has_action m = true ->
    dec_metric user_type obj_ty fluent_ty has_action (enc_metric m) = Some m.
Proof. exact metric_codec. Qed.
Print Assumptions C20_metric_codec.

(* the hypothesis of C20_timepoint_codec is necessary: the model of the CURRENT code loses an empty-string
        container written through the Timepoint message (open finding C20-F1, proto3 default collapse) *)
Theorem C20_timepoint_codec_without_wf_refuted :
  exists tp, dec_timepoint (enc_timepoint tp) <> Some tp.
Proof. exact timepoint_codec_refuted. Qed.
Print Assumptions C20_timepoint_codec_without_wf_refuted.

Definition ex_ut (n : name) : bool := (n =? 1)%N.                                   (* user type 1 *)
Definition ex_obj (n : name) : option ty := if (n =? 2)%N then Some (TyUser 1%N) else None.   (* object 2 : type 1 *)
Definition ex_fl (n : name) : option ty :=
  if (n =? 3)%N then Some (TyReal (Some (Qmake 0 1)) None) else None.              (* fluent 3 : real[0, inf] *)
Definition ex_act (n : name) : bool := (n =? 4)%N.

(* the shape of defect #24: a real type bounded on one side only *)
Example C20_real_type_codec_nonvacuous :
  canonQ (Qmake (-7) 2)
  /\ proto_type (TyReal (Some (Qmake (-7) 2)) None) = SRealB (TFrac (Qmake (-7) 2)) TInf
  /\ convert_type_str ex_ut (SRealB (TFrac (Qmake (-7) 2)) TInf) = Some (TyReal (Some (Qmake (-7) 2)) None)
  /\ convert_type_str ex_ut (proto_type (TyReal None (Some (Qmake 0 1)))) = Some (TyReal None (Some (Qmake 0 1))).
Proof. repeat split; vm_compute; reflexivity. Qed.

Example C20_type_codec_nonvacuous :
  wf_tyb ex_ut (TyUser 1%N) = true /\ wf_tyb ex_ut (TyReal (Some (Qmake 1 3)) (Some (Qmake 5 2))) = true
  /\ wf_tyb ex_ut (TyReal (Some (Qmake 2 4)) None) = false.
Proof. repeat split; vm_compute; reflexivity. Qed.

Example C20_type_decl_codec_nonvacuous :
  wf_fatherb ex_ut (TyUser 5%N) (Some 1%N) = true
  /\ dec_type_decl ex_ut (enc_type_decl (TyUser 5%N) (Some 1%N)) = Some (TyUser 5%N, Some 1%N)
  /\ dec_type_decl ex_ut (enc_type_decl (TyInt None None) None) = Some (TyInt None None, None).
Proof. repeat split; vm_compute; reflexivity. Qed.

Example C20_number_codec_real_nonvacuous :
  canonQ (Qmake (-123456789012345678) 7) /\ dec_real (enc_real (Qmake (-123456789012345678) 7)) = Some (Qmake (-123456789012345678) 7).
Proof. split; vm_compute; reflexivity. Qed.

(* forall v - T . (f(o) + 1/3 <= start(c) + 5/2)  with an object, a bounded real fluent, a quantifier and a timing *)
Definition ex_expr : expr :=
  EQuant QForall [(6%N, TyUser 1%N)]
    (EOp OLe [EOp OPlus [EFluent 3%N (TyReal (Some (Qmake 0 1)) None) [EObj 2%N (TyUser 1%N); EVar 6%N (TyUser 1%N)];
                         EReal (Qmake 1 3)];
              ETiming {| tm_delay := Qmake 5 2; tm_tp := {| tp_kind := Start; tp_container := Some 7%N |} |}]).

Example C20_expr_codec_nonvacuous :
  wf_exprb ex_ut ex_obj ex_fl ex_expr = true /\ dec_expr ex_ut ex_obj ex_fl (enc_expr ex_expr) = Some ex_expr.
Proof. split; vm_compute; reflexivity. Qed.

Definition ex_timing : timing :=
  {| tm_delay := Qmake (-1) 3; tm_tp := {| tp_kind := End_; tp_container := Some 7%N |} |}.
Definition ex_interval : tinterval :=
  {| ti_lower := {| tm_delay := Qmake 0 1; tm_tp := {| tp_kind := GlobalStart; tp_container := None |} |};
     ti_upper := ex_timing; ti_lopen := true; ti_ropen := false |}.

Example C20_timepoint_codec_nonvacuous :
  wf_timepointb {| tp_kind := GlobalEnd; tp_container := None |} = true
  /\ wf_timepointb {| tp_kind := Start; tp_container := Some 7%N |} = true.
Proof. split; reflexivity. Qed.

Example C20_timing_codec_nonvacuous :
  wf_timingb ex_timing = true /\ dec_timing (enc_timing ex_timing) = Some ex_timing.
Proof. split; vm_compute; reflexivity. Qed.

Example C20_interval_codec_nonvacuous :
  wf_tintervalb ex_interval = true /\ dec_tinterval (enc_tinterval ex_interval) = Some ex_interval.
Proof. split; vm_compute; reflexivity. Qed.

Example C20_duration_interval_codec_nonvacuous :
  wf_dintervalb ex_ut ex_obj ex_fl {| di_lower := EReal (Qmake 1 3); di_upper := EInt 5; di_lopen := true; di_ropen := true |} = true.
Proof. vm_compute; reflexivity. Qed.

Definition ex_effect : effect :=
  {| ef_kind := Decrease;
     ef_fluent := EFluent 3%N (TyReal (Some (Qmake 0 1)) None) [EVar 6%N (TyUser 1%N)];
     ef_value := EReal (Qmake 7 2);
     ef_cond := EOp ONot [EOp OEquals [EVar 6%N (TyUser 1%N); EObj 2%N (TyUser 1%N)]];
     ef_forall := [(6%N, TyUser 1%N)] |}.

Example C20_effect_codec_nonvacuous :
  wf_effectb ex_ut ex_obj ex_fl ex_effect = true /\ dec_effect ex_ut ex_obj ex_fl (enc_effect ex_effect) = Some ex_effect.
Proof. split; vm_compute; reflexivity. Qed.

Example C20_timed_effect_codec_nonvacuous :
  wf_effectb ex_ut ex_obj ex_fl ex_effect = true /\ wf_opt wf_timingb (Some ex_timing) = true.
Proof. split; vm_compute; reflexivity. Qed.

Example C20_condition_codec_nonvacuous :
  wf_exprb ex_ut ex_obj ex_fl ex_expr = true /\ wf_opt wf_tintervalb (Some ex_interval) = true.
Proof. split; vm_compute; reflexivity. Qed.

Example C20_metric_codec_nonvacuous :
  wf_metricb ex_ut ex_obj ex_fl ex_act (MActionCosts [(4%N, EInt 3)] (Some (EReal (Qmake 1 2)))) = true
  /\ wf_metricb ex_ut ex_obj ex_fl ex_act (MOversub [(ex_expr, Qmake (-5) 3)]) = true
  /\ wf_metricb ex_ut ex_obj ex_fl ex_act (MTemporalOversub [(ex_interval, ex_expr, Qmake 9 1)]) = true
  /\ dec_metric ex_ut ex_obj ex_fl ex_act (enc_metric (MTemporalOversub [(ex_interval, ex_expr, Qmake 9 1)]))
     = Some (MTemporalOversub [(ex_interval, ex_expr, Qmake 9 1)]).
Proof. repeat split; vm_compute; reflexivity. Qed.

(* C10 — Problem kind reports every feature the problem uses: the OTHER problem classes.
   Statements; each is closed by a lemma of Proofs/KindOfClasses_proofs.v, the refutations by computation on a witness.

   Model/KindOfClasses.v mirrors ContingentProblem.kind, MultiAgentProblem.kind (+ its own _update_* helpers),
   HierarchicalProblem.kind (+ the overridden _get_static_and_unused_fluents) and SchedulingProblem.kind as they are in
   /repo today, and gives for each class the flattened view (everything the class feeds to the kind computation, as a
   [problem_desc]) so that the extractor [spec_features] of C10.v is reused for the common features, plus one short
   clause per class-specific feature.

   Proved:   contingent, hierarchical and scheduling in FULL (the latter two rest on the repairs c453608 and c7cadef of
   /repo, which make HierarchicalProblem.kind visit the types of task / method parameters and task-network variables and
   SchedulingProblem.kind analyse the decision variables of the base chronicle; [ex_hier_typing] and [ex_sched_vars]
   are examples on exactly these positions);
   multi-agent: `_partial` (the 15 common features MultiAgentProblem.kind computes at all + the agent-goal features), the
   FULL statement is kept as `kind_covers_features_multi_agent_goal` and REFUTED here: the 23 features of [ma_missed]
   (fluent / action parameter kinds, interpreted functions, continuous effects, fluents in assignments and durations,
   duration types / inequalities, undefined initial values) are never reported (open finding
   C10-ma-kind-misses-common-features, reproduced on the real code by /verif/corpus/c10_classes_repro.py).
   Scheduling has no static-fluent analysis: STATIC_FLUENTS_IN_x is reported as FLUENTS_IN_x ([unstatic]). *)
From Coq Require Import List ZArith NArith Bool.
Import ListNotations.
Require Import UPV.Core.Expr UPV.Model.Kind UPV.Gen.Gen_Kind UPV.Model.KindOf UPV.Model.KindOfClasses
               UPV.Proofs.KindOfClasses_proofs.

Definition cx (e : expr) : cexpr := {| ce := e; ce_lin := true |}.
Definition plain_eff (fl : N) (args : list expr) (v : expr) (vc tc : vclass) (k : ekind) : eff :=
  {| ef_fl := fl; ef_args := args; ef_val := v; ef_vcls := vc; ef_tcls := tc; ef_cond := cx (EBool true); ef_kind := k;
     ef_forall := []; ef_rhs := [] |}.
Definition fd (i : N) (t : ty) (sig : list ty) (dflt : bool) (size missing : N) : fdecl :=
  {| fd_id := i; fd_ty := t; fd_sig := sig; fd_default := dflt; fd_inits := size - missing; fd_size := size; fd_missing := missing |}.
Definition empty_problem : problem_desc :=
  {| p_fluents := []; p_objtys := []; p_actions := []; p_events := []; p_processes := []; p_teffs := []; p_tgoals := [];
     p_goals := []; p_traj := []; p_metrics := []; p_discrete := false; p_selfoverlap := false |}.
Definition at_start : tm := {| tm_end := false; tm_sgn := 0 |}.
Definition at_end : tm := {| tm_end := true; tm_sgn := 0 |}.

(* hypothesis: the base description is well-formed (the [wf] of C10.v; checked on every serialised case) *)
Theorem C10_kind_covers_features_contingent :
  forall C, wf_contingent C -> incl (spec_contingent C) (kind_contingent C).
Proof. exact covers_contingent. Qed.
Print Assumptions C10_kind_covers_features_contingent.

(* a sensing action whose precondition is the only negation, an or-constraint on a hidden fluent with a default value *)
Definition ex_contingent : contingent_desc :=
  {| cp_base :=
       {| p_fluents := [fd 0 TBool [] true 1 1; fd 1 TBool [] false 1 1];
          p_objtys := [];
          p_actions := [AInst {| ia_params := []; ia_pre := [cx (ENot (EFluent 0 []))]; ia_effs := []; ia_sim := None;
                                 ia_sensing := true; ia_motion := false |}];
          p_events := []; p_processes := []; p_teffs := []; p_tgoals := []; p_goals := [cx (EFluent 0 [])]; p_traj := [];
          p_metrics := []; p_discrete := false; p_selfoverlap := false |};
     cp_or := [[EFluent 0 []; ENot (EFluent 0 [])]]; cp_oneof := []; cp_observed := [EFluent 0 []] |}.
Example C10_kind_covers_features_contingent_nonvacuous :
  wf_contingent ex_contingent
  /\ spec_contingent ex_contingent = [f_NEGATIVE_CONDITIONS; f_UNDEFINED_INITIAL_SYMBOLIC; f_CONTINGENT]
  /\ incl (spec_contingent ex_contingent) (kind_contingent ex_contingent).
Proof. split; [reflexivity|]. split; [vm_compute; reflexivity|]. apply C10_kind_covers_features_contingent. reflexivity. Qed.

(* READING, not a defect: under the alternative reading "a fluent constrained by an or / oneof initial constraint has no
   defined initial value" the kind would have to contain UNDEFINED_INITIAL_SYMBOLIC; the code (and [spec_contingent])
   take the hidden fluents to be what CONTINGENT itself announces. *)
Definition ex_contingent_hidden : contingent_desc :=
  {| cp_base := {| p_fluents := [fd 0 TBool [] true 1 1]; p_objtys := []; p_actions := []; p_events := []; p_processes := [];
                   p_teffs := []; p_tgoals := []; p_goals := [cx (EFluent 0 [])]; p_traj := []; p_metrics := [];
                   p_discrete := false; p_selfoverlap := false |};
     cp_or := [[EFluent 0 []; ENot (EFluent 0 [])]]; cp_oneof := []; cp_observed := [] |}.
Example contingent_hidden_reading :
  wf_contingent ex_contingent_hidden
  /\ In f_UNDEFINED_INITIAL_SYMBOLIC (spec_contingent_hidden ex_contingent_hidden)
  /\ memN f_UNDEFINED_INITIAL_SYMBOLIC (kind_contingent ex_contingent_hidden) = false.
Proof. split; [reflexivity|]. split; [left; reflexivity | vm_compute; reflexivity]. Qed.

(* hypotheses ([wf_ma]): the flattened view is well-formed; continuous effects are unconditional and unquantified;
   every user type of a forall-effect variable also types an object, a fluent or an action parameter *)
Theorem C10_kind_covers_features_multi_agent_partial :
  forall M, wf_ma M -> incl (spec_ma M) (kind_ma M).
Proof. exact covers_ma. Qed.
Print Assumptions C10_kind_covers_features_multi_agent_partial.

(* one agent with: a Boolean fluent with a Boolean parameter, an undefined bounded int fluent with an int parameter, an
   undefined object fluent, three never-written fluents (bool / int / object), a real fluent; an instantaneous action
   with bool / bounded int / unbounded int / real parameters, an interpreted function in its precondition, assignments
   from static and from non-static fluents of each class; a durative action with duration [static int fluent,
   written real fluent + interpreted function] and continuous increase / decrease effects; a private goal with an Or *)
Definition T0 : ty := TUser 0 false.
Definition ex_ma_action1 : action :=
  AInst {| ia_params := [TBool; TInt true true; TInt false true; TReal false false];
           ia_pre := [cx (EIFun 0 [EInt 1])];
           ia_effs := [ plain_eff 0 [EBool true] (EFluent 3 []) CBool CBool KAssign
                      ; plain_eff 1 [EInt 1] (EFluent 4 []) CInt CInt KAssign
                      ; plain_eff 2 [] (EFluent 5 []) CUser CUser KAssign
                      ; plain_eff 0 [EBool false] (EFluent 0 [EBool true]) CBool CBool KAssign
                      ; plain_eff 1 [EInt 2] (EFluent 1 [EInt 1]) CInt CInt KAssign
                      ; plain_eff 2 [] (EFluent 2 []) CUser CUser KAssign ];
           ia_sim := None; ia_sensing := false; ia_motion := false |}.
Definition ex_ma_action2 : action :=
  ADur {| da_params := [];
          da_lo := {| de := EFluent 4 []; de_cls := CInt |};
          da_hi := {| de := EPlus [EFluent 6 []; EIFun 1 []]; de_cls := CReal |};
          da_conds := []; da_effs := [];
          da_ceffs := [ ((at_start, at_end), plain_eff 6 [] (EInt 1) CInt CReal KCInc)
                      ; ((at_start, at_end), plain_eff 6 [] (EInt 2) CInt CReal KCDec) ];
          da_sims := []; da_motion := false |}.
Definition ex_ma : ma_desc :=
  {| ma_agents :=
       [ {| ag_fluents := [ fd 0 TBool [TBool] true 2 2; fd 1 (TInt true true) [TInt true true] false 4 4; fd 2 T0 [] false 1 1
                          ; fd 3 TBool [] true 1 1; fd 4 (TInt false false) [] true 1 1; fd 5 T0 [] true 1 1
                          ; fd 6 (TReal false false) [] true 1 1 ];
            ag_actions := [ex_ma_action1; ex_ma_action2];
            ag_public := [];
            ag_private := [cx (EOr [EFluent 3 []; EFluent 0 [EBool true]])] |} ];
     ma_env_fluents := []; ma_objtys := [T0]; ma_goals := [] |}.

Example C10_kind_covers_features_multi_agent_nonvacuous :
  wf_ma ex_ma
  /\ spec_ma ex_ma = [ f_FLAT_TYPING; f_INT_FLUENTS; f_REAL_FLUENTS; f_OBJECT_FLUENTS; f_BOUNDED_TYPES
                     ; f_DISJUNCTIVE_CONDITIONS; f_ACTION_BASED_MULTI_AGENT; f_AGENT_SPECIFIC_PRIVATE_GOAL ]
  /\ incl (spec_ma ex_ma) (kind_ma ex_ma).
Proof. split; [reflexivity|]. split; [vm_compute; reflexivity|]. apply C10_kind_covers_features_multi_agent_partial. reflexivity. Qed.

(* the FULL statement is false: on the same well-formed problem every feature of [ma_missed] is used and none is in the
   computed kind (a genuine defect of MultiAgentProblem.kind, reproduced on the real code) *)
Theorem C10_kind_covers_features_multi_agent_refuted :
  exists M, wf_ma M
            /\ forallb (fun f => memN f (spec_ma_full M) && negb (memN f (kind_ma M))) ma_missed = true.
Proof. exists ex_ma. split; vm_compute; reflexivity. Qed.
Print Assumptions C10_kind_covers_features_multi_agent_refuted.

Theorem C10_kind_covers_features_multi_agent_goal_false : ~ kind_covers_features_multi_agent_goal.
Proof.
  intro G. specialize (G ex_ma eq_refl f_BOOL_ACTION_PARAMETERS).
  assert (X : In f_BOOL_ACTION_PARAMETERS (spec_ma_full ex_ma)) by (apply UPV.Proofs.Eval_lemmas.memN_In; vm_compute; reflexivity).
  apply G in X. apply UPV.Proofs.Eval_lemmas.memN_In in X. vm_compute in X. discriminate X.
Qed.
Print Assumptions C10_kind_covers_features_multi_agent_goal_false.

(* hypothesis: the flattened view (base problem + method preconditions + non-temporal constraints as conditions) is
   well-formed.  Covers all common features and HIERARCHICAL, METHOD_PRECONDITIONS, TASK_NETWORK_CONSTRAINTS,
   INITIAL_TASK_NETWORK_VARIABLES, TASK_ORDER_TOTAL / PARTIAL / TEMPORAL, and ([spec_hier_params]) the typing of task
   parameters, method parameters and task-network variables.  FULL: this is kind_covers_features_hierarchical_goal. *)
Theorem C10_kind_covers_features_hierarchical :
  forall H, wf_hier H -> incl (spec_hier_full H) (kind_hier H).
Proof. exact covers_hier_full. Qed.
Print Assumptions C10_kind_covers_features_hierarchical.

(* a durative action whose duration is an int fluent that only a method precondition reads besides (so INT_FLUENTS is
   due to the overridden unused-fluent analysis), the only quantifier / disjunction in a method precondition, the only
   equality in a task-network constraint, a partially ordered method, a variable in the initial task network *)
Definition ex_hier_base : problem_desc :=
  {| p_fluents := [fd 0 (TInt false false) [] true 1 1; fd 1 TBool [T0] true 2 2];
     p_objtys := [T0; T0];
     p_actions := [ADur {| da_params := [T0]; da_lo := {| de := EFluent 0 []; de_cls := CInt |};
                           da_hi := {| de := EFluent 0 []; de_cls := CInt |}; da_conds := [];
                           da_effs := [(at_end, plain_eff 1 [EParam 0] (EBool true) CBool CBool KAssign)];
                           da_ceffs := []; da_sims := []; da_motion := false |}];
     p_events := []; p_processes := []; p_teffs := []; p_tgoals := []; p_goals := []; p_traj := []; p_metrics := [];
     p_discrete := false; p_selfoverlap := false |}.
Definition ex_hier : hier_desc :=
  {| hp_base := ex_hier_base; hp_task_params := [T0];
     hp_methods := [ {| me_params := [T0];
                        me_pre := [cx (EOr [ELt (EInt 0) (EFluent 0 []); EExists [(0%N, 0%N)] (EFluent 1 [EVar 0 0])])];
                        me_constraints := []; me_lvl := 1; me_subtask_args := [EParam 1] |} ];
     hp_tn_vars := [T0]; hp_tn_constraints := [cx (EEquals (EParam 2) (EObj 0))]; hp_tn_lvl := 0 |}.
Example C10_kind_covers_features_hierarchical_nonvacuous :
  wf_hier ex_hier
  /\ spec_hier ex_hier = [ f_FLAT_TYPING; f_INT_FLUENTS; f_DISJUNCTIVE_CONDITIONS; f_EQUALITIES; f_EXISTENTIAL_CONDITIONS
                         ; f_STATIC_FLUENTS_IN_DURATIONS; f_INT_TYPE_DURATIONS
                         ; f_HIERARCHICAL; f_METHOD_PRECONDITIONS; f_TASK_NETWORK_CONSTRAINTS
                         ; f_INITIAL_TASK_NETWORK_VARIABLES; f_TASK_ORDER_PARTIAL ]
  /\ incl (spec_hier_full ex_hier) (kind_hier ex_hier).
Proof. split; [reflexivity|]. split; [vm_compute; reflexivity|]. apply C10_kind_covers_features_hierarchical. reflexivity. Qed.

(* the position repaired by c453608: a subtype that only a task parameter, a method parameter and a task-network variable
   mention (without the repair HIERARCHICAL_TYPING is missing from the kind of this problem) *)
Definition T1sub : ty := TUser 1 true.
Definition ex_hier_typing : hier_desc :=
  {| hp_base := {| p_fluents := [fd 1 TBool [T0] true 1 1]; p_objtys := [T0];
                   p_actions := [AInst {| ia_params := [T0]; ia_pre := [];
                                          ia_effs := [plain_eff 1 [EParam 0] (EBool true) CBool CBool KAssign];
                                          ia_sim := None; ia_sensing := false; ia_motion := false |}];
                   p_events := []; p_processes := []; p_teffs := []; p_tgoals := []; p_goals := []; p_traj := [];
                   p_metrics := []; p_discrete := false; p_selfoverlap := false |};
     hp_task_params := [T1sub];
     hp_methods := [ {| me_params := [T1sub]; me_pre := []; me_constraints := []; me_lvl := 0; me_subtask_args := [EParam 1] |} ];
     hp_tn_vars := [T1sub]; hp_tn_constraints := []; hp_tn_lvl := 0 |}.
Example C10_kind_covers_features_hierarchical_params_nonvacuous :
  wf_hier ex_hier_typing /\ In f_HIERARCHICAL_TYPING (spec_hier_params ex_hier_typing)
  /\ memN f_HIERARCHICAL_TYPING (kind_hier ex_hier_typing) = true.
Proof. split; [reflexivity|]. split; [left; reflexivity | vm_compute; reflexivity]. Qed.

(* hypothesis: the flattened view (activities as durative actions, base conditions / effects as timed goals / effects,
   constraints as conditions) is well-formed.  The STATIC_FLUENTS_IN_x clauses are read as FLUENTS_IN_x ([unstatic]). *)
(* FULL (kind_covers_features_scheduling_goal): [spec_sched_full] also has the parameter-kind and typing clauses of the
   decision variables of the base chronicle *)
Theorem C10_kind_covers_features_scheduling :
  forall S, wf_sched S -> incl (spec_sched_full S) (kind_sched S).
Proof. exact covers_sched_full. Qed.
Print Assumptions C10_kind_covers_features_scheduling.

(* an optional activity with an int parameter whose duration reads a (never written) int fluent and which decreases a
   bounded resource at its start and increases it at its end; a scoped disjunctive constraint; a base condition *)
Definition ex_sched_activity : activity_desc :=
  {| ac_optional := true; ac_params := [TInt true true];
     ac_lo := {| de := EFluent 1 []; de_cls := CInt |}; ac_hi := {| de := EInt 5; de_cls := CInt |};
     ac_conds := [];
     ac_effs := [ (at_start, plain_eff 0 [] (EInt 1) CInt CInt KDec); (at_end, plain_eff 0 [] (EInt 1) CInt CInt KInc) ];
     ac_constraints := [ (cx (EOr [ELt (EParam 0) (EInt 2); ENot (ELt (EParam 0) (EInt 3))]), true) ] |}.
Definition ex_sched : sched_desc :=
  {| sp_fluents := [fd 0 (TInt true true) [] true 1 1; fd 1 (TInt false false) [] true 1 1];
     sp_objtys := []; sp_metrics := [MMakespan]; sp_vars := [];
     sp_conds := [((at_start, at_start), cx (ELe (EInt 0) (EFluent 0 [])))];
     sp_effs := []; sp_constraints := []; sp_activities := [ex_sched_activity];
     sp_discrete := true; sp_selfoverlap := false |}.
Example C10_kind_covers_features_scheduling_nonvacuous :
  wf_sched ex_sched
  /\ spec_sched ex_sched = [ f_INT_FLUENTS; f_BOUNDED_INT_ACTION_PARAMETERS; f_BOUNDED_TYPES; f_NEGATIVE_CONDITIONS
                           ; f_DISJUNCTIVE_CONDITIONS; f_INCREASE_EFFECTS; f_DECREASE_EFFECTS; f_FLUENTS_IN_DURATIONS
                           ; f_INT_TYPE_DURATIONS; f_DURATION_INEQUALITIES; f_TIMED_GOALS; f_MAKESPAN
                           ; f_SCHEDULING; f_OPTIONAL_ACTIVITIES; f_SCOPED_CONSTRAINTS ]
  /\ incl (spec_sched_full ex_sched) (kind_sched ex_sched).
Proof. split; [reflexivity|]. split; [vm_compute; reflexivity|]. apply C10_kind_covers_features_scheduling. reflexivity. Qed.

(* the position repaired by c7cadef: decision variables of the base chronicle (without the repair none of the three
   features is in the kind of this problem) *)
Definition ex_sched_vars : sched_desc :=
  {| sp_fluents := []; sp_objtys := []; sp_metrics := []; sp_vars := [TInt true true; TBool; TUser 1 true];
     sp_conds := []; sp_effs := []; sp_constraints := [(cx (EOr [EParam 1; ELt (EParam 0) (EInt 2)]), false)];
     sp_activities := []; sp_discrete := true; sp_selfoverlap := false |}.
Example C10_kind_covers_features_scheduling_vars_nonvacuous :
  wf_sched ex_sched_vars
  /\ forallb (fun f => memN f (spec_sched_vars ex_sched_vars) && memN f (kind_sched ex_sched_vars))
             [f_BOUNDED_INT_ACTION_PARAMETERS; f_BOOL_ACTION_PARAMETERS; f_HIERARCHICAL_TYPING] = true.
Proof. split; vm_compute; reflexivity. Qed.

(* literal reading of the STATIC_ clauses: the never-written fluent in the duration of [ex_sched] is reported as
   FLUENTS_IN_DURATIONS, not STATIC_FLUENTS_IN_DURATIONS (over-approximation towards the more general feature) *)
Theorem C10_scheduling_static_reading_refuted :
  exists S, wf_sched S /\ In f_STATIC_FLUENTS_IN_DURATIONS (spec_features (flat_sched S))
            /\ memN f_STATIC_FLUENTS_IN_DURATIONS (kind_sched S) = false
            /\ memN f_FLUENTS_IN_DURATIONS (kind_sched S) = true.
Proof.
  exists ex_sched. split; [reflexivity|]. split; [apply UPV.Proofs.Eval_lemmas.memN_In; vm_compute; reflexivity|].
  split; vm_compute; reflexivity.
Qed.
Print Assumptions C10_scheduling_static_reading_refuted.

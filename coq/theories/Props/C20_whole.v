(* C20 (part "whole"): the protobuf round trip of WHOLE messages - actions, the core of a problem, sequential and
   time-triggered plans - composed from the component codecs of Props/C20.v.
   Model: Model/ProtoWhole.v (writer = the enc_ functions, reader + the add_ methods of the model classes = the dec_ functions).
   Every theorem has the form  wf x = true -> dec (enc x) = Some x ;  wf is a boolean that states what every Python
   object of that class satisfies inside its problem, and excludes exactly the shapes of the recorded findings
   (C20-F1 proto3 default collapse, C20-F2 empty sequential plan) - for those a _refuted witness is proved. *)
From Coq Require Import List ZArith NArith QArith Qreduction Bool.
Import ListNotations.
Require Import UPV.Model.ProtoCodec.
Require Import UPV.Corr.Corr_C20.
Require Import UPV.Model.ProtoWhole.
Require Import UPV.Proofs.ProtoWhole_proofs.
Open Scope list_scope.

(* Re-adding the flattened content of a dict of lists (setdefault + add) rebuilds the dict: keys pairwise different
   (w.r.t. a reflexive key equality), no empty list, each list is what successive adds produce.
   Instances: DurativeAction.add_condition, TimedCondsEffs._add_effect_instance, Problem.add_timed_goal,
   Problem._add_effect_instance. *)
Theorem C20_dict_rebuild :
  forall (K V : Type) (keq : K -> K -> bool), (forall k, keq k k = true) ->
  forall (add : list V -> V -> list V) (add_ok : list V -> V -> bool),
  (forall pre v, add_ok pre v = true -> add pre v = pre ++ [v]) ->
  forall d, dict_ok keq add_ok d = true -> regroup keq add (flatten d) = d.
Proof. exact (@regroup_flatten). Qed.
Print Assumptions C20_dict_rebuild.

(* Hypothesis wf_actionb (see Model/ProtoWhole.v): parameter names distinct (OrderedDict) and parameter types known;
   every expression / effect / timing / interval satisfies the component hypotheses; preconditions are
   duplicate-free and do not contain the constant TRUE (add_precondition drops both); conditions per interval are
   duplicate-free and non-empty, interval keys distinct (dict); effect lists per timing non-empty, timing keys
   distinct. *)
Theorem C20_action_codec :
  forall (user_type : name -> bool) (obj_ty fluent_ty : name -> option ty) (a : action),
  wf_actionb user_type obj_ty fluent_ty a = true ->
  dec_action user_type obj_ty fluent_ty (enc_action a) = Some a.
Proof. exact action_codec. Qed.
Print Assumptions C20_action_codec.

(* Hypotheses: wf_problemb (names of types / objects / fluents / actions pairwise different; every father declared
   earlier in user_types and not named ""; problem name not ""; defaults are constants; initial-value keys distinct;
   goals without the constant TRUE; timed goals / timed effects are well-formed dicts; all components satisfy
   their component hypotheses w.r.t. the problem's own symbol tables) and: the stored trajectory constraints are
   fixpoints of the external simplifier [simp] (add_trajectory_constraint stores constraint.simplify()). *)
Theorem C20_problem_codec :
  forall (simp : expr -> expr) (p : problem),
  wf_problemb p = true -> Forall (fun e => simp e = e) (p_traj p) ->
  dec_problem simp (enc_problem p) = Some p.
Proof. exact problem_codec. Qed.
Print Assumptions C20_problem_codec.

(* the order of the type declarations matters only through this lemma: reading the declarations in the writer's
   order (fathers first) rebuilds the list; the father of each type is found among the types read so far *)
Theorem C20_types_codec :
  forall l, types_ok [] l = true -> fold_opt add_type_decl (map enc_user_type l) [] = Some l.
Proof. intros l H. exact (types_phase l [] H). Qed.
Print Assumptions C20_types_codec.

(* [action_sig n] = (number of parameters, is durative) of problem.action(n).  Hypothesis: the plan is not empty
   (finding C20-F2), every instance refers to an action of the problem with the right number of constant
   parameters, objects belong to the problem. *)
Theorem C20_seq_plan_codec :
  forall (obj_ty : name -> option ty) (action_sig : name -> option (nat * bool)) (l : list ainst),
  wf_seq_planb obj_ty action_sig l = true ->
  dec_plan obj_ty action_sig (enc_plan (PSeq l)) = Some (PSeq l).
Proof. exact seq_plan_codec. Qed.
Print Assumptions C20_seq_plan_codec.

(* Hypothesis: start times / durations are reduced Fractions; duration None exactly for non-durative actions, a
   non-durative action has no explicit duration 0 (the message only carries start and end). *)
Theorem C20_tt_plan_codec :
  forall (obj_ty : name -> option ty) (action_sig : name -> option (nat * bool)) (l : list (Q * ainst * option Q)),
  wf_tt_planb obj_ty action_sig l = true ->
  dec_plan obj_ty action_sig (enc_plan (PTT l)) = Some (PTT l).
Proof. exact tt_plan_codec. Qed.
Print Assumptions C20_tt_plan_codec.

(* identifiers: 1 = T, 2 = T2 (son of T), 3 = o1, 4 = o2, 5 = fluent f(x:T), 6 = fluent n, 7 = act, 8 = dur,
   9 = parameter x, 10 = problem name *)
Definition ex_types : list (name * option name) := [(1%N, None); (2%N, Some 1%N)].
Definition ex_objects : list (name * ty) := [(3%N, TyUser 1%N); (4%N, TyUser 2%N)].
Definition ex_tn : ty := TyInt (Some 0%Z) None.
Definition ex_fluents : list fluent_decl :=
  [ {| fd_name := 5%N; fd_type := TyBool; fd_sig := [(9%N, TyUser 1%N)]; fd_default := Some (EBool false) |};
    {| fd_name := 6%N; fd_type := ex_tn; fd_sig := []; fd_default := Some (EInt 0%Z) |} ].
Definition ex_fx (t : name) : expr := EFluent 5%N TyBool [EParam 9%N (TyUser t)].
Definition ex_fo : expr := EFluent 5%N TyBool [EObj 3%N (TyUser 1%N)].
Definition ex_n : expr := EFluent 6%N ex_tn [].
Definition ex_eff (k : effkind) (f v : expr) : effect :=
  {| ef_kind := k; ef_fluent := f; ef_value := v; ef_cond := EBool true; ef_forall := [] |}.
Definition ex_inst : action :=
  AInst 7%N [(9%N, TyUser 1%N)] [EOp ONot [ex_fx 1%N]; EOp OLe [ex_n; EInt 3%Z]]
        [ex_eff Assign (ex_fx 1%N) (EBool true); ex_eff Increase ex_n (EInt 1%Z)].
Definition ex_tm (k : tpkind) (d : Q) : timing := {| tm_delay := d; tm_tp := {| tp_kind := k; tp_container := None |} |}.
Definition ex_span : tinterval :=
  {| ti_lower := ex_tm Start (0#1); ti_upper := ex_tm End_ (-1#3); ti_lopen := false; ti_ropen := true |}.
Definition ex_dur : action :=
  ADur 8%N [(9%N, TyUser 2%N)]
       {| di_lower := EInt 1%Z; di_upper := EReal (7#2); di_lopen := false; di_ropen := true |}
       [ (ex_span, [ex_fx 2%N; EOp OLt [EInt 0%Z; ex_n]]);
         ({| ti_lower := ex_tm Start (0#1); ti_upper := ex_tm Start (0#1); ti_lopen := false; ti_ropen := false |},
          [EBool true; ex_fx 2%N]) ]
       [ (ex_tm Start (1#2), [ex_eff Assign (ex_fx 2%N) (EBool false)]);
         (ex_tm End_ (0#1), [ex_eff Assign (ex_fx 2%N) (EBool true); ex_eff Decrease ex_n (EReal (1#3))]) ].
Definition ex_gspan : tinterval :=
  {| ti_lower := ex_tm GlobalStart (5#1); ti_upper := ex_tm GlobalEnd (0#1); ti_lopen := true; ti_ropen := false |}.
Definition ex_problem : problem :=
  {| p_name := Some 10%N; p_types := ex_types; p_fluents := ex_fluents; p_objects := ex_objects;
     p_actions := [ex_inst; ex_dur];
     p_init := [(ex_fo, EBool true); (ex_n, EInt 2%Z)];
     p_timed_effects := [(ex_tm GlobalStart (5#2), [ex_eff Assign ex_fo (EBool false)])];
     p_goals := [ex_fo; EOp OLe [ex_n; EInt 9%Z]; ex_fo];
     p_timed_goals := [(ex_gspan, [ex_fo; EOp ONot [ex_fo]])];
     p_metrics := [MActionCosts [(7%N, EInt 2%Z)] (Some (EInt 1%Z)); MMakespan];
     p_traj := [EOp OAlways [ex_fo]];
     p_discrete := false; p_self_overlapping := true; p_epsilon := Some (1#100) |}.
Definition ex_ut := ut_of ex_types.
Definition ex_ot := ot_of ex_objects.
Definition ex_ft := ft_of ex_fluents.

Example C20_action_codec_nonvacuous :
  wf_actionb ex_ut ex_ot ex_ft ex_inst = true /\ wf_actionb ex_ut ex_ot ex_ft ex_dur = true
  /\ dec_action ex_ut ex_ot ex_ft (enc_action ex_dur) = Some ex_dur.
Proof.
  assert (H : wf_actionb ex_ut ex_ot ex_ft ex_dur = true) by (vm_compute; reflexivity).
  split; [vm_compute; reflexivity|]. split; [exact H|]. exact (C20_action_codec _ _ _ _ H).
Qed.

Definition ex_simp (e : expr) : expr := e.
Example C20_problem_codec_nonvacuous :
  wf_problemb ex_problem = true /\ dec_problem ex_simp (enc_problem ex_problem) = Some ex_problem.
Proof.
  assert (H : wf_problemb ex_problem = true) by (vm_compute; reflexivity).
  split; [exact H|]. apply C20_problem_codec; [exact H|].
  repeat constructor.
Qed.

Definition ex_sig (n : name) : option (nat * bool) :=
  if (n =? 7)%N then Some (1%nat, false) else if (n =? 8)%N then Some (1%nat, true) else None.
Definition ex_seq : list ainst := [(7%N, [EObj 3%N (TyUser 1%N)]); (7%N, [EObj 4%N (TyUser 2%N)])].
Definition ex_tt : list (Q * ainst * option Q) :=
  [ (1#2, (7%N, [EObj 3%N (TyUser 1%N)]), None);
    (3#1, (8%N, [EObj 4%N (TyUser 2%N)]), Some (0#1));
    (-7#3, (8%N, [EObj 4%N (TyUser 2%N)]), Some (22#7));
    (3#1, (7%N, [EObj 4%N (TyUser 2%N)]), Some (5#1)) ].

Example C20_seq_plan_codec_nonvacuous :
  wf_seq_planb ex_ot ex_sig ex_seq = true /\ dec_plan ex_ot ex_sig (enc_plan (PSeq ex_seq)) = Some (PSeq ex_seq).
Proof.
  assert (H : wf_seq_planb ex_ot ex_sig ex_seq = true) by (vm_compute; reflexivity).
  split; [exact H | exact (C20_seq_plan_codec _ _ _ H)].
Qed.

Example C20_tt_plan_codec_nonvacuous :
  wf_tt_planb ex_ot ex_sig ex_tt = true /\ dec_plan ex_ot ex_sig (enc_plan (PTT ex_tt)) = Some (PTT ex_tt).
Proof.
  assert (H : wf_tt_planb ex_ot ex_sig ex_tt = true) by (vm_compute; reflexivity).
  split; [exact H | exact (C20_tt_plan_codec _ _ _ H)].
Qed.

(* C20-F1: a problem named "" is read back with name None *)
Definition ex_problem_noname : problem :=
  {| p_name := Some 0%N; p_types := []; p_fluents := []; p_objects := []; p_actions := []; p_init := [];
     p_timed_effects := []; p_goals := []; p_timed_goals := []; p_metrics := []; p_traj := [];
     p_discrete := false; p_self_overlapping := false; p_epsilon := None |}.
Theorem C20_problem_codec_empty_name_refuted :
  exists p, dec_problem ex_simp (enc_problem p) <> Some p.
Proof. exists ex_problem_noname. vm_compute. discriminate. Qed.
Print Assumptions C20_problem_codec_empty_name_refuted.

(* C20-F1 again: a user type whose father is named "" is read back fatherless *)
Theorem C20_types_codec_empty_father_refuted :
  exists l, fold_opt add_type_decl (map enc_user_type l) [] <> Some l.
Proof. exists [(0%N, None); (1%N, Some 0%N)]. vm_compute. discriminate. Qed.
Print Assumptions C20_types_codec_empty_father_refuted.

(* C20-F2: the empty sequential plan is read back as a time-triggered plan *)
Theorem C20_seq_plan_codec_empty_refuted :
  exists l, dec_plan ex_ot ex_sig (enc_plan (PSeq l)) <> Some (PSeq l).
Proof. exists []. vm_compute. discriminate. Qed.
Print Assumptions C20_seq_plan_codec_empty_refuted.

(* time-triggered plans: a non-durative action with explicit duration 0 comes back with duration None, and a
   durative action with duration None comes back with duration 0 (the message has no "no duration") *)
Definition ex_tt_inst0 : list (Q * ainst * option Q) := [(1#1, (7%N, [EObj 3%N (TyUser 1%N)]), Some (0#1))].
Definition ex_tt_durnone : list (Q * ainst * option Q) := [(1#1, (8%N, [EObj 4%N (TyUser 2%N)]), None)].
Theorem C20_tt_plan_codec_duration_refuted :
  dec_plan ex_ot ex_sig (enc_plan (PTT ex_tt_inst0)) <> Some (PTT ex_tt_inst0)
  /\ dec_plan ex_ot ex_sig (enc_plan (PTT ex_tt_durnone)) <> Some (PTT ex_tt_durnone).
Proof. split; vm_compute; discriminate. Qed.
Print Assumptions C20_tt_plan_codec_duration_refuted.

(* a durative action whose conditions dict holds an empty list (only reachable through the private
   _set_conditions) loses that key: the non-emptiness clause of dict_ok is necessary *)
Definition ex_dur_emptykey : action :=
  ADur 8%N [] {| di_lower := EInt 1%Z; di_upper := EInt 1%Z; di_lopen := false; di_ropen := false |}
       [(ex_span, [])] [].
Theorem C20_action_codec_empty_condition_list_refuted :
  dec_action ex_ut ex_ot ex_ft (enc_action ex_dur_emptykey) <> Some ex_dur_emptykey.
Proof. vm_compute. discriminate. Qed.
Print Assumptions C20_action_codec_empty_condition_list_refuted.

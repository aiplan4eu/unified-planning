(* C06, part "pipe": Layer A for compiler PIPELINES and for DisjunctiveConditionsRemover with a disjunctive goal.
   Statements; each is closed by a lemma of Proofs/LayerA_Pipe_proofs.v, LayerA_DcrGoal_proofs.v or
   LayerA_DcrGoalPlan_proofs.v, or by a few lines assembling such lemmas (definitions: Compilers/LayerA_Pipe.v,
   Compilers/LayerA_DcrGoal.v).  The per-compiler facts that are composed are the C06_LA_* / C07_LA_* theorems of
   Props/C06.v and Props/C07.v. *)
From Coq Require Import List ZArith NArith QArith Qcanon Bool.
Import ListNotations.
Require Import UPV.Core.Expr UPV.Core.Eval UPV.Core.Interp UPV.Planning.Problem UPV.Planning.Sem.
Require Import UPV.Proofs.Step_proofs UPV.Compilers.Variants UPV.Proofs.Variants_proofs.
Require Import UPV.Compilers.LayerA_Defs UPV.Compilers.LayerA_Quant UPV.Compilers.LayerA_Variants.
Require Import UPV.Planning.Ground UPV.Compilers.LayerA_Ground.
Require Import UPV.Compilers.LayerA_Pipe UPV.Proofs.LayerA_Pipe_proofs.
Require Import UPV.Compilers.LayerA_DcrGoal UPV.Proofs.LayerA_DcrGoal_proofs UPV.Proofs.LayerA_DcrGoalPlan_proofs.
Require Import UPV.Compilers.LayerA_Inv UPV.Compilers.LayerA_Utfr UPV.Proofs.LayerA_Utfr_proofs UPV.Proofs.LayerA_base.
Require UPV.Props.C06.
Local Open Scope nat_scope.

(* PART 1: pipelines (CompilersPipeline).
   A [stage] = (source problem, compiled problem, action-instance map back with None = auxiliary step, bound on auxiliary
   steps, relation between the two initial states, per-step side conditions).  [stage_sound] is C06 for one compiler:
   a valid compiled plan maps back ([pback] = SequentialPlan.replace_action_instances) to a valid source plan. *)

(* soundness composes: no condition links the two stages except that the second starts where the first ended; the map
   back of the pair is "second stage first" and its side condition is the second stage's on the compiled plan and the
   first stage's on the intermediate plan ([compose]) *)
Theorem C06_LA_pipe_sound_composes :
  forall a b : stage, st_dst a = st_src b -> stage_sound a -> stage_sound b -> stage_sound (compose a b).
Proof. exact compose_sound. Qed.
Print Assumptions C06_LA_pipe_sound_composes.

(* pipelines of ANY length (induction over the list of stages; [compose_all l Q] = the stages of l in order, ending in
   problem Q; [linked] = every stage starts from the problem the previous one produced) *)
Theorem C06_LA_pipe_pipeline_sound :
  forall (l : list stage) (Q : problem), Forall stage_sound l -> linked l Q -> stage_sound (compose_all l Q).
Proof. exact pipeline_sound. Qed.
Print Assumptions C06_LA_pipe_pipeline_sound.

(* the map back of the composed pipeline is the one CompilersPipeline.compile builds — the stages' functions applied
   in REVERSE order, None as soon as one of them answers None ([pipeline_back] = mb_chain (rev ...)) — and on plans it
   maps back through the last stage first *)
Theorem C06_LA_pipe_back_is_reverse_chain :
  forall (l : list stage) (Q : problem) (x : pstep), st_back (compose_all l Q) x = pipeline_back l x.
Proof. exact pipeline_back_spec. Qed.
Print Assumptions C06_LA_pipe_back_is_reverse_chain.

Theorem C06_LA_pipe_back_on_plans :
  forall (l : list stage) (Q : problem) (pi' : pplan),
    pback (pipeline_back l) pi' = fold_right (fun a rho => pback (st_back a) rho) pi' l.
Proof. exact pipeline_pback. Qed.
Print Assumptions C06_LA_pipe_back_on_plans.

(* a stage that simulates the source problem step by step (every compiled step is matched by its image, or by no move
   when it is auxiliary, and the states stay related) is sound as soon as related states transfer the goals: this is
   how the per-compiler run lemmas of Layer A enter *)
Theorem C06_LA_pipe_simulation_sound :
  forall st : stage,
    (forall s s' x' t', st_rel st s s' -> st_okD st x' ->
       run (st_dst st) (spec_step false (st_dst st)) s' [x'] = Some t' ->
       exists t, run (st_src st) (spec_step false (st_src st)) s (ostep (st_back st) x') = Some t /\ st_rel st t t') ->
    (forall t t', st_rel st t t' -> goals_hold false (st_dst st) t' = true -> goals_hold false (st_src st) t = true) ->
    stage_sound st.
Proof. exact sim_sound. Qed.
Print Assumptions C06_LA_pipe_simulation_sound.

(* the Layer A compilers as sound stages (= C06_LA_quant_sound, C06_LA_cer_sound, C06_LA_ground_sound) *)
Theorem C06_LA_pipe_quant_stage_sound :
  forall (smp : expr -> expr), smp_exact smp ->
  forall (P : problem) (tau : N -> N), unique_ids P -> problem_wf P tau = true -> stage_sound (quant_stage smp P).
Proof. exact quant_stage_sound. Qed.
Print Assumptions C06_LA_pipe_quant_stage_sound.

Theorem C06_LA_pipe_cer_stage_sound :
  forall (simp_pre : list expr -> option (list expr)), simp_pre_ok simp_pre ->
  forall (nm : N -> nat -> N) (P : problem), unique_ids P -> unique_ids (cer_compile simp_pre nm P) ->
  forall G : state -> Prop,
    (forall s aid a args t, G s -> lookup_action P aid = Some a -> spec_step false P s a args = Some t -> G t) ->
    (forall s args i a, G s -> In (i, a) (p_actions P) -> Forall (cond_ok P s a args) (cond_effs (a_effs a))) ->
    stage_sound (cer_stage simp_pre nm G P).
Proof. exact cer_stage_sound. Qed.
Print Assumptions C06_LA_pipe_cer_stage_sound.

Theorem C06_LA_pipe_ground_stage_sound :
  forall (smp : expr -> expr) (tuples : N -> list (list value)) (nm : N -> nat -> N) (P : problem) (G : state -> Prop),
    smp_exact_on P G smp -> unique_ids P -> unique_ids (ground_compile smp tuples nm P) ->
    (forall s aid a args t, G s -> lookup_action P aid = Some a -> spec_step false P s a args = Some t -> G t) ->
    instances_ok smp tuples P -> stage_sound (ground_stage smp tuples nm G P).
Proof. exact ground_stage_sound. Qed.
Print Assumptions C06_LA_pipe_ground_stage_sound.

(* CLOSED THEOREM for CompilersPipeline([QuantifiersRemover(), ConditionalEffectsRemover()]) (harness spec
   "pipeline:quantifiers+conditional-effects"): the hypotheses are those of C06_LA_quant_sound on the original problem P
   and those of C06_LA_cer_sound on the INTERMEDIATE problem quant_compile smp P (G = the states on which C37's
   hypotheses hold there); the side condition of the first stage ([plan_targets_total]) is asked of the mapped-back plan.
   [qc_dst] = cer_compile simp_pre nm (quant_compile smp P); [qc_stages] = the two stages. *)
Theorem C06_LA_pipe_quant_cer_sound :
  forall (smp : expr -> expr), smp_exact smp ->
  forall (simp_pre : list expr -> option (list expr)), simp_pre_ok simp_pre ->
  forall (nm : N -> nat -> N) (P : problem) (tau : N -> N), unique_ids P -> problem_wf P tau = true ->
    unique_ids (qc_dst smp simp_pre nm P) ->
  forall G : state -> Prop,
    (forall s aid a args t, G s -> lookup_action (qc_mid smp P) aid = Some a ->
       spec_step false (qc_mid smp P) s a args = Some t -> G t) ->
    (forall s args i a, G s -> In (i, a) (p_actions (qc_mid smp P)) ->
       Forall (cond_ok (qc_mid smp P) s a args) (cond_effs (a_effs a))) ->
  forall (s0 : state) (pi' : pplan), bool_state P s0 -> G s0 ->
    plan_targets_total P (pback (pipeline_back (qc_stages smp simp_pre nm G P)) pi') ->
    valid_plan false (qc_dst smp simp_pre nm P) s0 pi' = true ->
    valid_plan false P s0 (pback (pipeline_back (qc_stages smp simp_pre nm G P)) pi') = true.
Proof.
  intros smp Hsmp simp_pre Hsimp nm P tau Hu Hwf Hu2 G Gstep Hcond s0 pi' Hb HG Ht Hv. rewrite qc_pback in Ht.
  apply (pipeline_sound_at (qc_stages smp simp_pre nm G P) (qc_dst smp simp_pre nm P) s0 s0 pi');
    [| apply qc_linked | exact (qc_rel smp simp_pre nm P G s0 Hb HG) | exact (qc_okD smp simp_pre nm P G pi' Ht) | exact Hv].
  constructor; [exact (quant_stage_sound smp Hsmp P tau Hu Hwf)|]. constructor; [|constructor].
  exact (cer_stage_sound simp_pre Hsimp nm _ (quant_unique_ids smp P Hu) Hu2 G Gstep Hcond).
Qed.
Print Assumptions C06_LA_pipe_quant_cer_sound.

(* ... where the pipeline's map back only renames through the second stage's table (QuantifiersRemover keeps names) *)
Theorem C06_LA_pipe_quant_cer_back :
  forall (smp : expr -> expr) (simp_pre : list expr -> option (list expr)) (nm : N -> nat -> N) (P : problem)
         (G : state -> Prop) (pi' : pplan),
    pback (pipeline_back (qc_stages smp simp_pre nm G P)) pi' = vt_map_back (cer_table simp_pre nm (qc_mid smp P)) pi'.
Proof. exact qc_pback. Qed.
Print Assumptions C06_LA_pipe_quant_cer_back.

(* CLOSED THEOREM for CompilersPipeline([Grounder(), ConditionalEffectsRemover()]) (the grounder as first stage;
   hypotheses of C06_LA_ground_sound on P with G1, of C06_LA_cer_sound on the ground problem with G2) *)
Theorem C06_LA_pipe_ground_cer_sound :
  forall (smp : expr -> expr) (tuples : N -> list (list value)) (gnm : N -> nat -> N) (P : problem) (G1 : state -> Prop),
    smp_exact_on P G1 smp -> unique_ids P -> unique_ids (ground_compile smp tuples gnm P) ->
    (forall s aid a args t, G1 s -> lookup_action P aid = Some a -> spec_step false P s a args = Some t -> G1 t) ->
    instances_ok smp tuples P ->
  forall (simp_pre : list expr -> option (list expr)), simp_pre_ok simp_pre ->
  forall (nm : N -> nat -> N), unique_ids (cer_compile simp_pre nm (ground_compile smp tuples gnm P)) ->
  forall G2 : state -> Prop,
    (forall s aid a args t, G2 s -> lookup_action (ground_compile smp tuples gnm P) aid = Some a ->
       spec_step false (ground_compile smp tuples gnm P) s a args = Some t -> G2 t) ->
    (forall s args i a, G2 s -> In (i, a) (p_actions (ground_compile smp tuples gnm P)) ->
       Forall (cond_ok (ground_compile smp tuples gnm P) s a args) (cond_effs (a_effs a))) ->
  forall (s0 : state) (pi' : pplan), G1 s0 -> G2 s0 ->
    valid_plan false (cer_compile simp_pre nm (ground_compile smp tuples gnm P)) s0 pi' = true ->
    valid_plan false P s0 (pback (pipeline_back (gc_stages smp tuples gnm G1 simp_pre nm G2 P)) pi') = true.
Proof.
  intros smp tuples gnm P G1 Hsmp Hu Hu1 Gstep1 Hinst simp_pre Hsimp nm Hu2 G2 Gstep2 Hcond s0 pi' H1 H2 Hv.
  apply (pipeline_sound_at (gc_stages smp tuples gnm G1 simp_pre nm G2 P) (cer_compile simp_pre nm (ground_compile smp tuples gnm P)) s0 s0 pi');
    [| apply gc_linked | exact (gc_rel smp tuples gnm P G1 simp_pre nm G2 s0 H1 H2) | apply gc_okD | exact Hv].
  constructor; [exact (ground_stage_sound smp tuples gnm P G1 Hsmp Hu Hu1 Gstep1 Hinst)|]. constructor; [|constructor].
  exact (cer_stage_sound simp_pre Hsimp nm _ Hu1 Hu2 G2 Gstep2 Hcond).
Qed.
Print Assumptions C06_LA_pipe_ground_cer_sound.

(* PART 2: DisjunctiveConditionsRemover, disjunctive goal.
   [dcrg_compile cdnf pre_dnf nm fk gnm gds P]: the DNF variants of every action, each with the extra effect fk := false,
   one goal action per kept disjunct of the goals (precondition lists [gds]) with the single effect fk := true, the
   fresh Boolean fluent fk appended to the fluents, goal = fk.  [dcrg_back] drops the goal-action steps and renames the
   variant steps.  Evaluation does not depend on a fluent symbol that does not occur: *)
Theorem C06_LA_dcrgoal_eval_frame :
  forall (fk : N) (sc : bool) (e : expr) (I I' : interp),
    irel fk I I' -> cleanf fk e = true -> eval sc e I' = eval sc e I.
Proof. exact eval_cleanf. Qed.
Print Assumptions C06_LA_dcrgoal_eval_frame.

(* one step: an action that neither reads nor writes fk, with the extra effect fk := b appended, steps in the compiled
   problem exactly when the action steps in the original problem; successors agree off fk; fk = b afterwards *)
Theorem C06_LA_dcrgoal_step :
  forall (fk : N) (P P' : problem),
    p_objs P' = p_objs P -> p_ifun P' = p_ifun P -> p_fluents P' = p_fluents P ++ [fk_decl fk] -> p_invs P' = p_invs P ->
    forallb (cleanf fk) (p_invs P ++ bound_invs P) = true ->
  forall (a : action) (b : bool) (args : list value) (s s' : state),
    agree_off fk s s' -> action_cleanf fk a = true ->
    match spec_step false P s a args, spec_step false P' s' (add_eff a (bool_effect fk b)) args with
    | Some t, Some t' => agree_off fk t t' /\ t' fk [] = Some (VBool b)
    | None, None => True
    | _, _ => False
    end.
Proof. exact step_extra. Qed.
Print Assumptions C06_LA_dcrgoal_step.

(* SOUNDNESS at plan level.  Hypotheses: those of C06_LA_dcr_sound with the goal hypothesis replaced by "some goal
   action's precondition holds exactly where the original goals hold" (DNF of the goals, C12); unique compiled names
   (C08); [dcrg_fresh] (decidable: no variant reads or writes fk, no invariant / bounded-type constraint / goal
   disjunct mentions it); the compiled initial state agrees with the original one off fk and has fk = false
   (add_fluent(fake_fluent, default_initial_value=False)). *)
Theorem C06_LA_dcrgoal_sound :
  forall (cdnf : expr -> list expr) (pre_dnf : action -> list (list expr)) (nm : N -> nat -> N) (fk : N)
         (gnm : nat -> N) (gds : list (list expr)) (P : problem),
    unique_ids P -> unique_ids (dcrg_compile cdnf pre_dnf nm fk gnm gds P) ->
    dcrg_fresh cdnf pre_dnf nm fk gds P = true ->
  forall G : state -> Prop,
    (forall s aid a args t, G s -> lookup_action P aid = Some a -> spec_step false P s a args = Some t -> G t) ->
    (forall s args i a, G s -> In (i, a) (p_actions P) -> Forall (dnf_effect_ok cdnf P s a args) (a_effs a)) ->
    (forall s args i a, G s -> In (i, a) (p_actions P) ->
       existsb (all_hold false (mk_interp P s (zip_params (a_params a) args))) (pre_dnf a) =
       all_hold false (mk_interp P s (zip_params (a_params a) args)) (a_pre a)) ->
    (forall s, G s -> existsb (all_hold false (mk_interp P s [])) gds = all_hold false (mk_interp P s []) (p_goals P)) ->
  forall (s0 s0' : state) (pi' : pplan), G s0 -> agree_off fk s0 s0' -> s0' fk [] = Some (VBool false) ->
    valid_plan false (dcrg_compile cdnf pre_dnf nm fk gnm gds P) s0' pi' = true ->
    valid_plan false P s0 (pback (dcrg_back cdnf pre_dnf nm fk gnm gds P) pi') = true.
Proof. exact dcrg_sound. Qed.
Print Assumptions C06_LA_dcrgoal_sound.

Require Import UPV.Compilers.LayerA_Inv UPV.Compilers.LayerA_Neg.

Theorem C06_LA_pipe_ncr_stage_sound :
  forall (nmap : list (N * N)) (rw smp : expr -> expr) (P : problem),
    nmap_ok nmap P = true -> problem_clean nmap P = true -> ncr_safe nmap P = true -> rw_ok nmap rw P -> smp_exact smp ->
    stage_sound (ncr_stage nmap rw smp P).
Proof. exact ncr_stage_sound. Qed.
Print Assumptions C06_LA_pipe_ncr_stage_sound.

Theorem C06_LA_pipe_btr_stage_sound :
  forall (smp : expr -> expr), smp_holds smp -> forall P : problem, unique_ids P -> stage_sound (btr_stage smp P).
Proof. exact btr_stage_sound. Qed.
Print Assumptions C06_LA_pipe_btr_stage_sound.

Theorem C06_LA_pipe_sir_stage_sound :
  forall (smp : expr -> expr), smp_holds smp ->
  forall P : problem, unique_ids P -> Forall (closed_cond P) (p_invs P) -> stage_sound (sir_stage smp P).
Proof. exact sir_stage_sound. Qed.
Print Assumptions C06_LA_pipe_sir_stage_sound.

(* a step changes only fluents that some effect of the action targets (used for stage_noop of stages whose relation
   leaves some fluent of the source state open) *)
Theorem C06_LA_pipe_step_untouched :
  forall (P : problem) (s : state) (a : action) (args : list value) (t : state) (g : N),
    spec_step false P s a args = Some t -> (forall e, In e (a_effs a) -> e_fl e <> g) -> forall x, t g x = s g x.
Proof. exact step_untouched. Qed.
Print Assumptions C06_LA_pipe_step_untouched.

(* CLOSED THEOREM for CompilersPipeline([QuantifiersRemover(), NegativeConditionsRemover()]): hypotheses of
   C06_LA_quant_sound on P, of C06_LA_ncr_sound on the intermediate problem; the compiled initial state is related to
   the original one by [neg_rel]; the map back is the identity on plans (both stages keep names) *)
Theorem C06_LA_pipe_quant_ncr_sound :
  forall (smp : expr -> expr), smp_exact smp ->
  forall (P : problem) (tau : N -> N), unique_ids P -> problem_wf P tau = true ->
  forall (nmap : list (N * N)) (rw smp2 : expr -> expr),
    nmap_ok nmap (quant_compile smp P) = true -> problem_clean nmap (quant_compile smp P) = true ->
    ncr_safe nmap (quant_compile smp P) = true -> rw_ok nmap rw (quant_compile smp P) -> smp_exact smp2 ->
  forall (s0 s0' : state) (pi' : pplan), bool_state P s0 -> neg_rel nmap s0 s0' -> plan_targets_total P pi' ->
    valid_plan false (neg_compile nmap rw smp2 (quant_compile smp P)) s0' pi' = true ->
    valid_plan false P s0 (pback (pipeline_back (qn_stages smp nmap rw smp2 P)) pi') = true.
Proof.
  intros smp Hsmp P tau Hu Hwf nmap rw smp2 H1 H2 H3 H4 H5 s0 s0' pi' Hb HR Ht Hv.
  apply (pipeline_sound_at (qn_stages smp nmap rw smp2 P) (neg_compile nmap rw smp2 (quant_compile smp P)) s0 s0' pi');
    [| apply qn_linked | exact (qn_rel smp P nmap rw smp2 s0 s0' Hb HR) | exact (qn_okD smp P nmap rw smp2 pi' Ht) | exact Hv].
  constructor; [exact (quant_stage_sound smp Hsmp P tau Hu Hwf)|]. constructor; [|constructor].
  exact (ncr_stage_sound nmap rw smp2 _ H1 H2 H3 H4 H5).
Qed.
Print Assumptions C06_LA_pipe_quant_ncr_sound.

Theorem C06_LA_pipe_quant_ncr_back :
  forall (smp : expr -> expr) (P : problem) (nmap : list (N * N)) (rw smp2 : expr -> expr) (pi' : pplan),
    pback (pipeline_back (qn_stages smp nmap rw smp2 P)) pi' = pi'.
Proof. exact qn_pback. Qed.
Print Assumptions C06_LA_pipe_quant_ncr_back.

(* CLOSED THEOREM for CompilersPipeline([BoundedTypesRemover(), ConditionalEffectsRemover()]) *)
Theorem C06_LA_pipe_btr_cer_sound :
  forall (smp : expr -> expr), smp_holds smp ->
  forall P : problem, unique_ids P -> unique_ids (btr_compile smp P) ->
  forall (simp_pre : list expr -> option (list expr)), simp_pre_ok simp_pre ->
  forall (nm : N -> nat -> N), unique_ids (cer_compile simp_pre nm (btr_compile smp P)) ->
  forall G : state -> Prop,
    (forall s aid a args t, G s -> lookup_action (btr_compile smp P) aid = Some a ->
       spec_step false (btr_compile smp P) s a args = Some t -> G t) ->
    (forall s args i a, G s -> In (i, a) (p_actions (btr_compile smp P)) ->
       Forall (cond_ok (btr_compile smp P) s a args) (cond_effs (a_effs a))) ->
  forall (s0 : state) (pi' : pplan), G s0 ->
    valid_plan false (cer_compile simp_pre nm (btr_compile smp P)) s0 pi' = true ->
    valid_plan false P s0 (pback (pipeline_back (bc_stages smp simp_pre nm G P)) pi') = true.
Proof.
  (* the initial-state condition of the stage relation is not needed (BoundedTypesRemover is sound from any state), so
     it is discharged through the verdict equation instead of being assumed *)
  intros smp Hsmp P Hu Hu1 simp_pre Hsimp nm Hu2 G Gstep Hcond s0 pi' HG Hv. rewrite bc_pback.
  apply (LayerA_Inv_proofs.btr_sound smp Hsmp P Hu s0). exact (LayerA_Variants_proofs.cer_sound simp_pre Hsimp nm _ Hu1 Hu2 G Gstep Hcond s0 pi' HG Hv).
Qed.
Print Assumptions C06_LA_pipe_btr_cer_sound.

(* UINR / UTFR / the fake-goal compile as stages; "grounder+negative-conditions" and
   "usertype+quantifiers+disjunctive" are pipeline specs of compcheck *)
Require Import UPV.Compilers.LayerA_Uinr UPV.Compilers.LayerA_Utfr.

Theorem C06_LA_pipe_uinr_stage_sound :
  forall (umap : list (N * N)) (P : problem), uinr_ok umap P = true -> stage_sound (uinr_stage umap P).
Proof. exact uinr_stage_sound. Qed.
Print Assumptions C06_LA_pipe_uinr_stage_sound.

(* Q = any per-step condition a later stage asks of the (common) plan *)
Theorem C06_LA_pipe_utfr_stage_sound :
  forall (tr smp : expr -> expr) (P : problem) (G : state -> Prop) (Q : pstep -> Prop),
    smp_exact smp -> utfr_wf tr smp P = true -> tr_ok tr P -> effects_defined P G -> LayerA_Utfr.one_value P G ->
    closed P G -> unique_ids P -> stage_sound (utfr_stage tr smp G Q P).
Proof. exact utfr_stage_sound. Qed.
Print Assumptions C06_LA_pipe_utfr_stage_sound.

(* the fake-goal compile as a stage (relation [dcrg_rel]: agree off fk, G, invariants, "fk true only where the goals
   hold"; established by the compiled initial state: [C06_LA_pipe_dcrg_rel_init]) *)
Theorem C06_LA_pipe_dcrg_stage_sound :
  forall (cdnf : expr -> list expr) (pre_dnf : action -> list (list expr)) (nm : N -> nat -> N) (fk : N)
         (gnm : nat -> N) (gds : list (list expr)) (P : problem),
    unique_ids P -> unique_ids (dcrg_compile cdnf pre_dnf nm fk gnm gds P) ->
    dcrg_fresh cdnf pre_dnf nm fk gds P = true ->
  forall G : state -> Prop,
    (forall s aid a args t, G s -> lookup_action P aid = Some a -> spec_step false P s a args = Some t -> G t) ->
    (forall s args i a, G s -> In (i, a) (p_actions P) -> Forall (dnf_effect_ok cdnf P s a args) (a_effs a)) ->
    (forall s args i a, G s -> In (i, a) (p_actions P) ->
       existsb (all_hold false (mk_interp P s (zip_params (a_params a) args))) (pre_dnf a) =
       all_hold false (mk_interp P s (zip_params (a_params a) args)) (a_pre a)) ->
    (forall s, G s -> existsb (all_hold false (mk_interp P s [])) gds = all_hold false (mk_interp P s []) (p_goals P)) ->
    stage_sound (dcrg_stage cdnf pre_dnf nm fk gnm gds G P).
Proof. exact dcrg_stage_sound. Qed.
Print Assumptions C06_LA_pipe_dcrg_stage_sound.

Theorem C06_LA_pipe_dcrg_rel_init :
  forall (fk : N) (G : state -> Prop) (P : problem) (s : state),
    G s -> invariants_ok false P s = true -> dcrg_rel fk G P s (with_fk fk s).
Proof. exact dcrg_rel_init. Qed.
Print Assumptions C06_LA_pipe_dcrg_rel_init.

(* CLOSED THEOREM for CompilersPipeline([Grounder(), NegativeConditionsRemover()]) — "pipeline:grounder+negative-conditions" *)
Theorem C06_LA_pipe_ground_ncr_sound :
  forall (smp : expr -> expr) (tuples : N -> list (list value)) (gnm : N -> nat -> N) (P : problem) (G1 : state -> Prop),
    smp_exact_on P G1 smp -> unique_ids P -> unique_ids (ground_compile smp tuples gnm P) ->
    (forall s aid a args t, G1 s -> lookup_action P aid = Some a -> spec_step false P s a args = Some t -> G1 t) ->
    instances_ok smp tuples P ->
  forall (nmap : list (N * N)) (rw smp2 : expr -> expr),
    nmap_ok nmap (ground_compile smp tuples gnm P) = true -> problem_clean nmap (ground_compile smp tuples gnm P) = true ->
    ncr_safe nmap (ground_compile smp tuples gnm P) = true -> rw_ok nmap rw (ground_compile smp tuples gnm P) ->
    smp_exact smp2 ->
  forall (s0 s0' : state) (pi' : pplan), G1 s0 -> neg_rel nmap s0 s0' ->
    valid_plan false (neg_compile nmap rw smp2 (ground_compile smp tuples gnm P)) s0' pi' = true ->
    valid_plan false P s0 (pback (pipeline_back (gn_stages smp tuples gnm G1 nmap rw smp2 P)) pi') = true.
Proof.
  intros smp tuples gnm P G1 Hsmp Hu Hu1 Gstep1 Hinst nmap rw smp2 H1 H2 H3 H4 H5 s0 s0' pi' HG HR Hv.
  apply (pipeline_sound_at (gn_stages smp tuples gnm G1 nmap rw smp2 P)
           (neg_compile nmap rw smp2 (ground_compile smp tuples gnm P)) s0 s0' pi');
    [| apply gn_linked | exact (gn_rel smp tuples gnm P G1 nmap rw smp2 s0 s0' HG HR) | apply gn_okD | exact Hv].
  constructor; [exact (ground_stage_sound smp tuples gnm P G1 Hsmp Hu Hu1 Gstep1 Hinst)|]. constructor; [|constructor].
  exact (ncr_stage_sound nmap rw smp2 _ H1 H2 H3 H4 H5).
Qed.
Print Assumptions C06_LA_pipe_ground_ncr_sound.

Theorem C06_LA_pipe_ground_ncr_back :
  forall (smp : expr -> expr) (tuples : N -> list (list value)) (gnm : N -> nat -> N) (P : problem) (G1 : state -> Prop)
         (nmap : list (N * N)) (rw smp2 : expr -> expr) (pi' : pplan),
    pback (pipeline_back (gn_stages smp tuples gnm G1 nmap rw smp2 P)) pi' =
    gt_map_back (ground_table smp tuples gnm P) pi'.
Proof. exact gn_pback. Qed.
Print Assumptions C06_LA_pipe_ground_ncr_back.

(* "pipeline:usertype+quantifiers+disjunctive" (UsertypeFluentsRemover -> QuantifiersRemover -> DisjunctiveConditionsRemover
   with a disjunctive goal): the three stages FIT ([linked]: problems chain and every stage hands the next one the
   per-step condition it asks for), so the soundness of the stages (C06_LA_pipe_utfr_stage_sound,
   C06_LA_pipe_quant_stage_sound, C06_LA_pipe_dcrg_stage_sound) gives the soundness of the pipeline *)
Theorem C06_LA_pipe_uqd_sound :
  forall (tr smp1 smp : expr -> expr) (G0 G2 : state -> Prop) (cdnf : expr -> list expr)
         (pre_dnf : action -> list (list expr)) (nm : N -> nat -> N) (fk : N) (gnm : nat -> N) (gds : list (list expr))
         (P : problem),
    Forall stage_sound (uqd_stages tr smp1 G0 smp cdnf pre_dnf nm fk gnm gds G2 P) ->
    stage_sound (compose_all (uqd_stages tr smp1 G0 smp cdnf pre_dnf nm fk gnm gds G2 P)
                             (uqd_dst tr smp1 smp cdnf pre_dnf nm fk gnm gds P)).
Proof. intros tr smp1 smp G0 G2 cdnf pre_dnf nm fk gnm gds P H. apply pipeline_sound; [exact H | apply uqd_linked]. Qed.
Print Assumptions C06_LA_pipe_uqd_sound.

Module LP.
  Definition idsmp (e : expr) : expr := e.
  Lemma idsmp_exact : smp_exact idsmp. Proof. intros e I. reflexivity. Qed.
  Definition sp (l : list expr) : option (list expr) := Some l.
  Lemma sp_ok : simp_pre_ok sp. Proof. intros l I. reflexivity. Qed.
  Definition nm (i : N) (k : nat) : N := (10 + N.of_nat k)%N.
  Definition G (s : state) : Prop := True.

  (* type 0 = {1, 2}; Boolean fluents p/1 (id 0), g/0 (id 1); variable 0 of type 0.
     action 0:  pre  Exists v. not p(v)   eff  forall v. p(v) := true;   g := true when Exists v. v == obj 1
     goal  Forall v. p(v), g.   QuantifiersRemover expands the three quantifiers and the forall effect;
     ConditionalEffectsRemover then splits the action on the (now quantifier-free) condition of the second effect. *)
  Definition v0 : expr := EVar 0%N 0%N.
  Definition pv : expr := EFluent 0%N [v0].
  Definition eff_all : effect :=
    {| e_fl := 0%N; e_args := [v0]; e_val := EBool true; e_cond := EBool true; e_kind := KAssign;
       e_vars := [(0%N, 0%N)]; e_isbool := true |}.
  Definition eff_g : effect :=
    {| e_fl := 1%N; e_args := []; e_val := EBool true; e_cond := EExists [(0%N, 0%N)] (EEquals v0 (EObj 1%N));
       e_kind := KAssign; e_vars := []; e_isbool := true |}.
  Definition act : action :=
    {| a_params := []; a_pre := [EExists [(0%N, 0%N)] (ENot pv)]; a_effs := [eff_all; eff_g] |}.
  Definition Pp : problem :=
    {| p_objs := [(0%N, [1%N; 2%N])]; p_ifun := [];
       p_fluents := [{| fd_id := 0%N; fd_sig := [0%N]; fd_ty := FBool |}; {| fd_id := 1%N; fd_sig := []; fd_ty := FBool |}];
       p_actions := [(0%N, act)]; p_goals := [EForall [(0%N, 0%N)] pv; EFluent 1%N []]; p_invs := [] |}.
  Definition s0 : state := fun f a => Some (VBool false).
  Definition tau (v : N) : N := 0%N.

  Lemma s0_bool : bool_state Pp s0.
  Proof. intros f args _. right. exists false. reflexivity. Qed.

  Lemma targets : plan_targets_total Pp [(0%N, [])].
  Proof.
    intros aid args a [H|[]] EL. inversion H; subst. vm_compute in EL. inversion EL; subst. clear EL H.
    intros s e J He HJ. destruct He as [<-|[<-|[]]].
    - cbn in HJ. destruct HJ as [<-|[<-|[]]]; discriminate.
    - cbn in HJ. destruct HJ as [<-|[]]. discriminate.
  Qed.

  Lemma cond : forall s args i a, G s -> In (i, a) (p_actions (qc_mid idsmp Pp)) ->
    Forall (cond_ok (qc_mid idsmp Pp) s a args) (cond_effs (a_effs a)).
  Proof.
    intros s args i a _ H. vm_compute in H. destruct H as [H|[]]. inversion H; subst. clear H.
    repeat constructor. exists true. split; [reflexivity|]. repeat constructor. discriminate.
  Qed.
End LP.

Example C06_LA_pipe_quant_cer_sound_nonvacuous :
  smp_exact LP.idsmp /\ simp_pre_ok LP.sp /\ unique_ids LP.Pp /\ problem_wf LP.Pp LP.tau = true /\
  unique_ids (qc_dst LP.idsmp LP.sp LP.nm LP.Pp) /\
  (forall s args i a, LP.G s -> In (i, a) (p_actions (qc_mid LP.idsmp LP.Pp)) ->
     Forall (cond_ok (qc_mid LP.idsmp LP.Pp) s a args) (cond_effs (a_effs a))) /\
  bool_state LP.Pp LP.s0 /\
  map fst (p_actions (qc_dst LP.idsmp LP.sp LP.nm LP.Pp)) = [10%N; 11%N] /\
  pback (pipeline_back (qc_stages LP.idsmp LP.sp LP.nm LP.G LP.Pp)) [(11%N, [])] = [(0%N, [])] /\
  plan_targets_total LP.Pp [(0%N, [])] /\
  valid_plan false (qc_dst LP.idsmp LP.sp LP.nm LP.Pp) LP.s0 [(11%N, [])] = true /\
  valid_plan false (qc_dst LP.idsmp LP.sp LP.nm LP.Pp) LP.s0 [(10%N, [])] = false /\
  valid_plan false LP.Pp LP.s0 [(0%N, [])] = true.
Proof.
  split; [exact LP.idsmp_exact|]. split; [exact LP.sp_ok|]. split; [repeat constructor; intros []|].
  split; [vm_compute; reflexivity|]. split; [apply LayerA_Neg_proofs.nodupN_NoDup; vm_compute; reflexivity|].
  split; [exact LP.cond|]. split; [exact LP.s0_bool|]. split; [vm_compute; reflexivity|].
  split; [vm_compute; reflexivity|]. split; [exact LP.targets|]. repeat split; vm_compute; reflexivity.
Qed.

(* a problem with the goal  a or b  (Boolean fluents a = 0, b = 1; actions 0: a := true, 1: b := true); fake fluent 5 *)
Module LQ.
  Definition cd (c : expr) : list expr := [c].
  Definition pd (a : action) : list (list expr) := [a_pre a].
  Definition nm (i : N) (k : nat) : N := (20 + 10 * i + N.of_nat k)%N.
  Definition gnm (k : nat) : N := (40 + N.of_nat k)%N.
  Definition fk : N := 5%N.
  Definition gds : list (list expr) := [[EFluent 0%N []]; [EFluent 1%N []]].
  Definition setf (f : N) : action :=
    {| a_params := []; a_pre := [];
       a_effs := [{| e_fl := f; e_args := []; e_val := EBool true; e_cond := EBool true; e_kind := KAssign;
                     e_vars := []; e_isbool := true |}] |}.
  Definition Pd : problem :=
    {| p_objs := []; p_ifun := [];
       p_fluents := [{| fd_id := 0%N; fd_sig := []; fd_ty := FBool |}; {| fd_id := 1%N; fd_sig := []; fd_ty := FBool |}];
       p_actions := [(0%N, setf 0%N); (1%N, setf 1%N)];
       p_goals := [EOr [EFluent 0%N []; EFluent 1%N []]]; p_invs := [] |}.
  Definition s0 : state := fun f a => if (f =? fk)%N then None else Some (VBool false).
  Definition P' : problem := dcrg_compile cd pd nm fk gnm gds Pd.
  (* G = the states in which a and b hold Booleans: closed under steps, and there "a or b" = "a holds or b holds" *)
  Definition G (s : state) : Prop := (exists x, s 0%N [] = Some (VBool x)) /\ (exists y, s 1%N [] = Some (VBool y)).

  Lemma G_step : forall s aid a args t, G s -> lookup_action Pd aid = Some a -> spec_step false Pd s a args = Some t -> G t.
  Proof.
    intros s aid a args t [[x Hx] [y Hy]] _ ES. rewrite spec_step_eq in ES.
    destruct (negb _); [discriminate|]. destruct (fired _ _ _) as [acts|]; [|discriminate].
    destruct (negb _); [discriminate|]. destruct (invariants_ok _ _ _); [|discriminate]. inversion ES; subst t. split.
    - unfold spec_succ, spec_fluent. cbn [fst snd]. change (is_bool_fluent Pd 0%N) with true. rewrite Hx.
      destruct (avals (0%N, []) acts), (deltas (0%N, []) acts); cbn; eauto.
    - unfold spec_succ, spec_fluent. cbn [fst snd]. change (is_bool_fluent Pd 1%N) with true. rewrite Hy.
      destruct (avals (1%N, []) acts), (deltas (1%N, []) acts); cbn; eauto.
  Qed.

  Lemma effs : forall s args i a, G s -> In (i, a) (p_actions Pd) -> Forall (dnf_effect_ok cd Pd s a args) (a_effs a).
  Proof.
    intros s args i a _ [H|[H|[]]]; inversion H; subst; repeat constructor; cbn; try discriminate; try reflexivity;
      try (exists true; reflexivity); intros d [<-|[]]; exists true; reflexivity.
  Qed.

  Lemma pre : forall s args i a, G s -> In (i, a) (p_actions Pd) ->
    existsb (all_hold false (mk_interp Pd s (zip_params (a_params a) args))) (pd a) =
    all_hold false (mk_interp Pd s (zip_params (a_params a) args)) (a_pre a).
  Proof. intros s args i a _ _. unfold pd. cbn [existsb]. apply orb_false_r. Qed.

  Lemma goals : forall s, G s ->
    existsb (all_hold false (mk_interp Pd s [])) gds = all_hold false (mk_interp Pd s []) (p_goals Pd).
  Proof. intros s [[x Hx] [y Hy]]. cbn. unfold holds. cbn. rewrite Hx, Hy. destruct x, y; reflexivity. Qed.
End LQ.

Example C06_LA_dcrgoal_sound_nonvacuous :
  unique_ids LQ.Pd /\ unique_ids LQ.P' /\ dcrg_fresh LQ.cd LQ.pd LQ.nm LQ.fk LQ.gds LQ.Pd = true /\
  (forall s args i a, LQ.G s -> In (i, a) (p_actions LQ.Pd) -> Forall (dnf_effect_ok LQ.cd LQ.Pd s a args) (a_effs a)) /\
  (forall s aid a args t, LQ.G s -> lookup_action LQ.Pd aid = Some a -> spec_step false LQ.Pd s a args = Some t -> LQ.G t) /\
  (forall s args i a, LQ.G s -> In (i, a) (p_actions LQ.Pd) ->
     existsb (all_hold false (mk_interp LQ.Pd s (zip_params (a_params a) args))) (LQ.pd a) =
     all_hold false (mk_interp LQ.Pd s (zip_params (a_params a) args)) (a_pre a)) /\
  (forall s, LQ.G s -> existsb (all_hold false (mk_interp LQ.Pd s [])) LQ.gds =
                        all_hold false (mk_interp LQ.Pd s []) (p_goals LQ.Pd)) /\
  LQ.G LQ.s0 /\ agree_off LQ.fk LQ.s0 (with_fk LQ.fk LQ.s0) /\ with_fk LQ.fk LQ.s0 LQ.fk [] = Some (VBool false) /\
  map fst (p_actions LQ.P') = [20%N; 30%N; 40%N; 41%N] /\
  valid_plan false LQ.P' (with_fk LQ.fk LQ.s0) [(30%N, []); (41%N, [])] = true /\
  (* the goal action of the OTHER disjunct is not applicable, and without a goal action the compiled goal fails *)
  valid_plan false LQ.P' (with_fk LQ.fk LQ.s0) [(30%N, []); (40%N, [])] = false /\
  valid_plan false LQ.P' (with_fk LQ.fk LQ.s0) [(30%N, [])] = false /\
  (* a variant after the goal action resets the fake goal *)
  valid_plan false LQ.P' (with_fk LQ.fk LQ.s0) [(30%N, []); (41%N, []); (20%N, [])] = false /\
  pback (dcrg_back LQ.cd LQ.pd LQ.nm LQ.fk LQ.gnm LQ.gds LQ.Pd) [(30%N, []); (41%N, [])] = [(1%N, [])] /\
  valid_plan false LQ.Pd LQ.s0 [(1%N, [])] = true.
Proof.
  split; [apply LayerA_Neg_proofs.nodupN_NoDup; reflexivity|].
  split; [apply LayerA_Neg_proofs.nodupN_NoDup; vm_compute; reflexivity|].
  split; [vm_compute; reflexivity|]. split; [exact LQ.effs|]. split; [exact LQ.G_step|]. split; [exact LQ.pre|].
  split; [exact LQ.goals|]. split; [split; [exists false | exists false]; reflexivity|].
  split; [intros f x Hf; unfold with_fk; apply N.eqb_neq in Hf; rewrite Hf; reflexivity|].
  repeat split; vm_compute; reflexivity.
Qed.

(* "pipeline:usertype+quantifiers+disjunctive" on the problem LQ.Pd (goal a or b): ALL THREE premises of
   C06_LA_pipe_uqd_sound / C07_LA_pipe_uqd_certified hold.  The intermediate problems: UsertypeFluentsRemover (no object
   fluent here) rebuilds every effect condition as And(true, true); QuantifiersRemover changes nothing more; the
   disjunctive goal then needs the fake goal fluent. *)
Module LU.
  Definition idf (e : expr) : expr := e.
  Lemma idf_exact : smp_exact idf. Proof. intros e I. reflexivity. Qed.
  Definition P0 : problem := LQ.Pd.
  Definition P1 : problem := utfr_compile idf idf P0.
  Definition P2 : problem := quant_compile idf P1.
  Definition G : state -> Prop := LQ.G.
  Definition tau (v : N) : N := 0%N.

  Lemma G_step P (Hb0 : is_bool_fluent P 0%N = true) (Hb1 : is_bool_fluent P 1%N = true) :
    forall s aid a args t, G s -> lookup_action P aid = Some a -> spec_step false P s a args = Some t -> G t.
  Proof.
    intros s aid a args t [[x Hx] [y Hy]] _ ES. rewrite spec_step_eq in ES.
    destruct (negb _); [discriminate|]. destruct (fired _ _ _) as [acts|]; [|discriminate].
    destruct (negb _); [discriminate|]. destruct (invariants_ok _ _ _); [|discriminate]. inversion ES; subst t. split.
    - unfold spec_succ, spec_fluent. cbn [fst snd]. rewrite Hb0, Hx.
      destruct (avals (0%N, []) acts), (deltas (0%N, []) acts); cbn; eauto.
    - unfold spec_succ, spec_fluent. cbn [fst snd]. rewrite Hb1, Hy.
      destruct (avals (1%N, []) acts), (deltas (1%N, []) acts); cbn; eauto.
  Qed.

  Lemma no_obj f : otype P0 f = None.
  Proof. reflexivity. Qed.

  Lemma utfr_hyps :
    utfr_wf idf idf P0 = true /\ tr_ok idf P0 /\ effects_defined P0 G /\ LayerA_Utfr.one_value P0 G /\ closed P0 G /\
    unique_ids P0.
  Proof.
    split; [vm_compute; reflexivity|]. split.
    { apply tr_ok_id. intros e He. vm_compute in He. destruct He as [<-|[<-|[<-|[]]]]; reflexivity. }
    split.
    { intros s i a args e _ Ha He _. destruct Ha as [Ha|[Ha|[]]]; inversion Ha; subst; destruct He as [<-|[]];
        (split; [exists []; reflexivity|]); (split; [exists true; reflexivity|]); exists (VBool true);
        (split; [reflexivity|]); cbn; exists true; reflexivity. }
    split; [intros s i a args acts f t x v1 v2 _ _ _ Hf; rewrite no_obj in Hf; discriminate|].
    split; [exact (G_step P0 eq_refl eq_refl)|]. apply LayerA_Neg_proofs.nodupN_NoDup; reflexivity.
  Qed.

  Lemma quant_hyps : unique_ids P1 /\ problem_wf P1 tau = true /\ no_action_dropped idf P1.
  Proof.
    split; [apply LayerA_Neg_proofs.nodupN_NoDup; vm_compute; reflexivity|]. split; [vm_compute; reflexivity|].
    intros aid a H. vm_compute in H. destruct H as [H|[H|[]]]; inversion H; subst; vm_compute; discriminate.
  Qed.

  Lemma effs2 : forall s args i a, G s -> In (i, a) (p_actions P2) -> Forall (dnf_effect_ok LQ.cd P2 s a args) (a_effs a).
  Proof.
    intros s args i a _ H. vm_compute in H. destruct H as [H|[H|[]]]; inversion H; subst; repeat constructor; cbn;
      try discriminate; try reflexivity; try (exists true; reflexivity); intros d [<-|[]]; exists true; reflexivity.
  Qed.

  Lemma pre2 : forall s args i a, G s -> In (i, a) (p_actions P2) ->
    existsb (all_hold false (mk_interp P2 s (zip_params (a_params a) args))) (LQ.pd a) =
    all_hold false (mk_interp P2 s (zip_params (a_params a) args)) (a_pre a).
  Proof. intros s args i a _ _. unfold LQ.pd. cbn [existsb]. apply orb_false_r. Qed.

  Lemma goals2 : forall s, G s ->
    existsb (all_hold false (mk_interp P2 s [])) LQ.gds = all_hold false (mk_interp P2 s []) (p_goals P2).
  Proof. intros s [[x Hx] [y Hy]]. cbn. unfold holds. cbn. rewrite Hx, Hy. destruct x, y; reflexivity. Qed.

  Lemma conf2 : forall s args i a d, G s -> In (i, a) (p_actions P2) -> In d (LQ.pd a) ->
    add_effs_ok [] [] (a_effs (dnf_variant LQ.cd a d)) = false ->
    all_hold false (mk_interp P2 s (zip_params (a_params a) args)) d = true -> applicable P2 s a args = false.
  Proof.
    intros s args i a d _ H Hd Hc. vm_compute in H. destruct H as [H|[H|[]]]; inversion H; subst;
      destruct Hd as [<-|[]]; vm_compute in Hc; discriminate.
  Qed.

  Definition stages : list stage := uqd_stages idf idf G idf LQ.cd LQ.pd LQ.nm LQ.fk LQ.gnm LQ.gds G P0.
  Definition P3 : problem := uqd_dst idf idf idf LQ.cd LQ.pd LQ.nm LQ.fk LQ.gnm LQ.gds P0.

  Lemma all_certified : Forall certified stages.
  Proof.
    destruct utfr_hyps as (U1 & U2 & U3 & U4 & U5 & U6). destruct quant_hyps as (Q1 & Q2 & Q3).
    constructor; [exact (utfr_stage_certified idf idf P0 G _ idf_exact U1 U2 U3 U4 U5 U6)|].
    constructor; [exact (quant_stage_certified idf idf_exact P1 tau Q1 Q2 Q3)|].
    constructor; [|constructor].
    apply (dcrg_stage_certified LQ.cd LQ.pd LQ.nm LQ.fk LQ.gnm LQ.gds P2).
    - apply LayerA_Neg_proofs.nodupN_NoDup; vm_compute; reflexivity.
    - apply LayerA_Neg_proofs.nodupN_NoDup; vm_compute; reflexivity.
    - vm_compute; reflexivity.
    - vm_compute; reflexivity.
    - exact (G_step P2 eq_refl eq_refl).
    - exact effs2.
    - exact pre2.
    - exact goals2.
    - exact conf2.
  Qed.
End LU.

Example C06_LA_pipe_uqd_sound_nonvacuous :
  Forall stage_sound LU.stages /\ linked LU.stages LU.P3 /\
  map fst (p_actions LU.P3) = [20%N; 30%N; 40%N; 41%N] /\
  valid_plan false LU.P3 (with_fk LQ.fk LQ.s0) [(30%N, []); (41%N, [])] = true /\
  pback (pipeline_back LU.stages) [(30%N, []); (41%N, [])] = [(1%N, [])] /\
  valid_plan false LU.P0 LQ.s0 [(1%N, [])] = true.
Proof.
  split; [eapply Forall_impl; [|exact LU.all_certified]; intros st H; exact (cs_sound st H)|].
  split; [exact (uqd_linked LU.idf LU.idf LU.idf LU.G LU.G LQ.cd LQ.pd LQ.nm LQ.fk LQ.gnm LQ.gds LU.P0)|].
  repeat split; vm_compute; reflexivity.
Qed.

(* the fake-goal compile as a stage on LQ.Pd itself: every premise of C06_LA_pipe_dcrg_stage_sound /
   C07_LA_pipe_dcrg_stage_certified holds, and the compiled initial state is related to the original one *)
Lemma LQ_conf : forall s args i a d, LQ.G s -> In (i, a) (p_actions LQ.Pd) -> In d (LQ.pd a) ->
  add_effs_ok [] [] (a_effs (dnf_variant LQ.cd a d)) = false ->
  all_hold false (mk_interp LQ.Pd s (zip_params (a_params a) args)) d = true -> applicable LQ.Pd s a args = false.
Proof.
  intros s args i a d _ H Hd Hc. destruct H as [H|[H|[]]]; inversion H; subst;
    destruct Hd as [<-|[]]; vm_compute in Hc; discriminate.
Qed.

Example C06_LA_pipe_dcrg_stage_sound_nonvacuous :
  orig_no_fk LQ.fk LQ.Pd = true /\
  certified (dcrg_stage LQ.cd LQ.pd LQ.nm LQ.fk LQ.gnm LQ.gds LQ.G LQ.Pd) /\
  st_aux (dcrg_stage LQ.cd LQ.pd LQ.nm LQ.fk LQ.gnm LQ.gds LQ.G LQ.Pd) = 1 /\
  dcrg_rel LQ.fk LQ.G LQ.Pd LQ.s0 (with_fk LQ.fk LQ.s0).
Proof.
  split; [vm_compute; reflexivity|]. split; [|split; [reflexivity|]].
  - apply (dcrg_stage_certified LQ.cd LQ.pd LQ.nm LQ.fk LQ.gnm LQ.gds LQ.Pd).
    + apply LayerA_Neg_proofs.nodupN_NoDup; reflexivity.
    + apply LayerA_Neg_proofs.nodupN_NoDup; vm_compute; reflexivity.
    + vm_compute; reflexivity.
    + vm_compute; reflexivity.
    + exact LQ.G_step.
    + exact LQ.effs.
    + exact LQ.pre.
    + exact LQ.goals.
    + exact LQ_conf.
  - apply dcrg_rel_init; [split; [exists false | exists false]; reflexivity | vm_compute; reflexivity].
Qed.

(* BoundedTypesRemover -> ConditionalEffectsRemover on C06.LB.Pi (x bounded in [0, 2]; no conditional effect, so the
   second stage keeps the actions): every hypothesis of C06_LA_pipe_btr_cer_sound holds *)
Module LBC.
  Definition G (s : state) : Prop := True.
  Definition P1 : problem := btr_compile C06.LA.idsmp C06.LB.Pi.
  Definition P2 : problem := cer_compile LP.sp LP.nm P1.
  Lemma cond : forall s args i a, G s -> In (i, a) (p_actions P1) -> Forall (cond_ok P1 s a args) (cond_effs (a_effs a)).
  Proof.
    intros s args i a _ H. vm_compute in H. destruct H as [H|[H|[H|[]]]]; inversion H; subst; constructor.
  Qed.
End LBC.

Example C06_LA_pipe_btr_cer_sound_nonvacuous :
  smp_holds C06.LA.idsmp /\ unique_ids C06.LB.Pi /\ unique_ids LBC.P1 /\ simp_pre_ok LP.sp /\ unique_ids LBC.P2 /\
  (forall s args i a, LBC.G s -> In (i, a) (p_actions LBC.P1) -> Forall (cond_ok LBC.P1 s a args) (cond_effs (a_effs a))) /\
  valid_plan false LBC.P2 C06.LB.si [(2%N, []); (0%N, [])] = true /\
  pback (pipeline_back (bc_stages C06.LA.idsmp LP.sp LP.nm LBC.G C06.LB.Pi)) [(2%N, []); (0%N, [])] = [(2%N, []); (0%N, [])] /\
  valid_plan false C06.LB.Pi C06.LB.si [(2%N, []); (0%N, [])] = true /\
  (* three increases leave the bounds: rejected by both *)
  valid_plan false LBC.P2 C06.LB.si [(2%N, []); (2%N, []); (0%N, [])] = false.
Proof.
  split; [exact C06.LA.idsmp_holds|]. split; [exact C06.LB.uniq|].
  split; [apply LayerA_Neg_proofs.nodupN_NoDup; vm_compute; reflexivity|]. split; [exact LP.sp_ok|].
  split; [apply LayerA_Neg_proofs.nodupN_NoDup; vm_compute; reflexivity|]. split; [exact LBC.cond|].
  repeat split; vm_compute; reflexivity.
Qed.

(* C28, part `whole` - the COMPILER direction: a sequential plan valid for the compiled problem converts back into a
   time-triggered plan that the reference dense-time semantics [tt_valid] (Planning/Temporal.v) accepts for the
   ORIGINAL temporal problem.

   Models: [t2s_action] / [t2s_problem] (Compilers/T2SCompile.v) = TimedToSequential._compile, tied to the real
   compiler by Corr/Corr_C28_whole.v + harness/ext/c28_whole.py; [back_plan] = plan_back_conversion_callable over the
   records of Planning/Temporal.v; [valid_plan] (Planning/Sem.v) and [tt_valid] are the two proved-against validators.

   STATUS
   * [C28_whole_plan_goal]  : the full statement (Definition, NOT proved).  It carries three side conditions that the
     compiler's own supported_kind does not impose, each shown NECESSARY below by a concrete counterexample on the
     faithful model ([..._refuted]); the first two reproduce on the real code (new findings, see notes/C28_whole.md),
     the third is the recorded open finding F28-lifted-alias:
       - no bounded numeric fluent            ([C28_whole_bounded_types_refuted])
       - duration intervals non-empty         ([C28_whole_empty_duration_refuted])
       - no lifted aliasing inside an action  ([C28_whole_lifted_alias_refuted])
   * [C28_whole_plan_partial] : proved for ALL inputs - the parts of [tt_valid] that do not need the step-by-step
     simulation: the converted plan is well formed ([plan_wf], first conjunct of [tt_valid]), has the same action
     instances in the same order, its steps are chained with gap epsilon, pairwise disjoint and ordered (so the
     happenings of the temporal run are start_1, end_1, start_2, end_2, ...), and every chosen duration passes the
     reference duration test [dur_ok] in the state in which the compiled step is applied.
   * [C28_whole_step_no_start_effects], [C28_whole_plan_no_start_read] : proved for ALL inputs - the single-step
     simulation and the WHOLE-PLAN theorem (conclusion [tt_valid]) for the sub-fragment [no_start_fragment] (only
     durative actions, effects only at EndTiming() as unconditional assignments, plain compiler output).
   * missing for the goal (actions WITH start effects, instantaneous actions mixed in): (1) one compiled step from s = start effects then end effects of the durative action from s,
     with the over-all / end conditions true in the intermediate state (needs the semantic substitution lemma
     eval (substitute sigma c) I_s = eval c I_mid for lifted keys), (2) composing the per-step runs into [run_times]
     over [times_of (all_events ..)] using the ordering proved here, (3) goals in the final state. *)
From Coq Require Import List ZArith NArith QArith Qcanon Bool.
Import ListNotations.
Require Import UPV.Core.Expr UPV.Core.Eval UPV.Core.Interp UPV.Planning.Problem UPV.Planning.Sem.
Require Import UPV.Planning.Temporal UPV.Planning.TTValidate UPV.Walkers.Subst UPV.Compilers.T2SCompile.
Require Import UPV.Proofs.Step_proofs UPV.Proofs.Temporal_base UPV.Proofs.Temporal_proofs UPV.Proofs.T2SCompile_proofs.
Local Open Scope Qc_scope.

(* the simplifier preserves the value of every expression in every interpretation (C11 proves a refinement of this
   for the real simplifier under its side conditions; the identity satisfies it) *)
Definition smp_ok (sc : bool) (smp : expr -> expr) : Prop := forall e I, eval sc (smp e) I = eval sc e I.

(* [nonempty_along sc TP P' s pi]: along the compiled plan run from [s], every durative step's duration interval is
   non-empty in the state where the step is applied; [positive_durations tpl]: every chosen duration is > 0 (a durative
   action of duration 0 has its start and end effects at the same instant, applied jointly).
   Both are defined in Proofs/T2SCompile_proofs.v. *)

Definition C28_whole_plan_goal : Prop :=
  forall sc smp (TP : tproblem) (P' : problem) (eps : Qc) (s0 : state) (pi : list (N * list value)) (tpl : tplan),
    smp_ok sc smp ->
    t2s_fragment TP = true ->                                             (* supported_kind + rejections *)
    forallb (fun id => alias_free (snd id)) (tp_dur TP) = true ->         (* side condition 3 *)
    bound_invs (tp_base TP) = [] ->                                       (* side condition 1 *)
    t2s_problem smp TP = Some P' ->
    zq 0 < eps ->
    valid_plan sc P' s0 pi = true ->
    back_plan sc TP P' eps (zq 0) s0 pi = Some tpl ->
    nonempty_along sc TP P' s0 pi ->                                      (* side condition 2 *)
    positive_durations tpl ->
    tt_valid sc TP s0 tpl.

Theorem C28_whole_plan_partial :
  forall sc (TP : tproblem) (P' : problem) (eps : Qc) (s0 : state) (pi : list (N * list value)) (tpl : tplan),
    zq 0 < eps ->
    back_plan sc TP P' eps (zq 0) s0 pi = Some tpl ->
    positive_durations tpl ->
    plan_wf TP tpl = true /\
    seq_of_t tpl = pi /\
    chained_t eps (zq 0) tpl /\
    ForallOrdPairs (fun a b => end_t a < ps_start b) tpl /\
    durs_ok sc TP P' s0 pi tpl.
Proof. exact back_plan_partial. Qed.
Print Assumptions C28_whole_plan_partial.

Theorem C28_whole_duration_accepted :
  forall sc TP s d args dt,
    step_dur sc (tp_base TP) s d args = Some dt ->
    dur_nonempty sc (tp_base TP) s (zip_params (d_params d) args) d = true ->
    dur_ok sc TP s (zip_params (d_params d) args) d dt = true.
Proof. exact step_dur_ok. Qed.
Print Assumptions C28_whole_duration_accepted.

Definition idsmp (e : expr) : expr := e.
Definition st0 : timing := {| tm_anchor := AStart; tm_delay := zq 0 |}.
Definition en0 : timing := {| tm_anchor := AEnd; tm_delay := zq 0 |}.
Definition mkeff (f : N) (args : list expr) (v : expr) (k : ekind) (isb : bool) : effect :=
  {| e_fl := f; e_args := args; e_val := v; e_cond := EBool true; e_kind := k; e_vars := []; e_isbool := isb |}.
Definition eps100 : Qc := qc 1 100.
Definition compiled (TP : tproblem) : problem :=
  match t2s_problem idsmp TP with Some P => P | None => tp_base TP end.
Definition converted (TP : tproblem) (s0 : state) (pi : list (N * list value)) : tplan :=
  match back_plan true TP (compiled TP) eps100 (zq 0) s0 pi with Some t => t | None => [] end.

(* A (non-vacuity of the goal's hypotheses, and the goal's conclusion on this instance): numeric n, Boolean g;
   a(duration ]2,4]): at start n += 1, over ]start,end] n >= 1, at end n -= 1 and g := true; goal g; n = 0 initially.
   The over-all condition holds only because of the start effect: the compiled precondition is 1 <= n + 1. *)
Definition exn : expr := EFluent 0%N [].
Definition exg : expr := EFluent 1%N [].
Definition exA_d : daction :=
  {| d_params := []; d_lo := EInt 2; d_hi := EInt 4; d_lopen := true; d_ropen := false;
     d_conds := [ ({| ti_lo := st0; ti_hi := en0; ti_lopen := true; ti_ropen := false |}, [ELe (EInt 1) exn]) ];
     d_effs := [ (st0, [mkeff 0 [] (EInt 1) KInc false]);
                 (en0, [mkeff 0 [] (EInt 1) KDec false; mkeff 1 [] (EBool true) KAssign true]) ] |}.
Definition exA_base : problem :=
  {| p_objs := []; p_ifun := [];
     p_fluents := [ {| fd_id := 0%N; fd_sig := []; fd_ty := FNum None None |}; {| fd_id := 1%N; fd_sig := []; fd_ty := FBool |} ];
     p_actions := []; p_goals := [exg]; p_invs := [] |}.
Definition exA_TP : tproblem := {| tp_base := exA_base; tp_dur := [(0%N, exA_d)]; tp_teffs := []; tp_tgoals := [] |}.
Definition exA_s0 : state := fun f _ => match f with 0%N => Some (VNum (zq 0)) | _ => Some (VBool false) end.
Definition exA_pi : list (N * list value) := [(0%N, [])].
Definition exA_act : action :=
  {| a_params := []; a_pre := [ELe (EInt 1) (EPlus [exn; EInt 1])];
     a_effs := [ mkeff 0 [] (EMinus (EPlus [exn; EInt 1]) (EInt 1)) KAssign false; mkeff 1 [] (EBool true) KAssign true ] |}.

Example C28_whole_nonvacuous :
  t2s_fragment exA_TP = true /\ alias_free exA_d = true /\ bound_invs exA_base = [] /\
  t2s_action idsmp exA_d = Some exA_act /\
  t2s_problem idsmp exA_TP = Some (compiled exA_TP) /\
  valid_plan true (compiled exA_TP) exA_s0 exA_pi = true /\
  back_plan true exA_TP (compiled exA_TP) eps100 (zq 0) exA_s0 exA_pi = Some (converted exA_TP exA_s0 exA_pi) /\
  match converted exA_TP exA_s0 exA_pi with          (* one step, at time 0, with the midpoint duration 3 *)
  | [st] => qc_eqb (ps_start st) (zq 0) && match ps_dur st with Some d => qc_eqb d (zq 3) | None => false end
  | _ => false
  end = true /\
  nonempty_along true exA_TP (compiled exA_TP) exA_s0 exA_pi /\
  tt_valid true exA_TP exA_s0 (converted exA_TP exA_s0 exA_pi).
Proof.
  split; [vm_compute; reflexivity|]. split; [vm_compute; reflexivity|]. split; [vm_compute; reflexivity|].
  split; [vm_compute; reflexivity|]. split; [vm_compute; reflexivity|]. split; [vm_compute; reflexivity|].
  split; [vm_compute; reflexivity|]. split; [vm_compute; reflexivity|].
  split; [vm_compute; split; [reflexivity | exact I]|].
  apply (tt_valid_b_spec true exA_TP exA_s0 (converted exA_TP exA_s0 exA_pi)); vm_compute; reflexivity.
Qed.

(* B: side condition 1 is necessary.  n : integer[0, 5], n = 4; a(duration 2): at start n += 3, at end n -= 3.
   The compiled action is n := (n + 3) - 3: the compiled plan is valid, the intermediate state n = 7 violates the type. *)
Definition exB_d : daction :=
  {| d_params := []; d_lo := EInt 2; d_hi := EInt 2; d_lopen := false; d_ropen := false; d_conds := [];
     d_effs := [ (st0, [mkeff 0 [] (EInt 3) KInc false]); (en0, [mkeff 0 [] (EInt 3) KDec false]) ] |}.
Definition exB_base : problem :=
  {| p_objs := []; p_ifun := [];
     p_fluents := [ {| fd_id := 0%N; fd_sig := []; fd_ty := FNum (Some (zq 0)) (Some (zq 5)) |} ];
     p_actions := []; p_goals := [ELe (EInt 4) exn]; p_invs := [] |}.
Definition exB_TP : tproblem := {| tp_base := exB_base; tp_dur := [(0%N, exB_d)]; tp_teffs := []; tp_tgoals := [] |}.
Definition exB_s0 : state := fun _ _ => Some (VNum (zq 4)).

Example C28_whole_bounded_types_refuted :
  exists TP s0 pi,
    t2s_fragment TP = true /\ forallb (fun id => alias_free (snd id)) (tp_dur TP) = true /\
    t2s_problem idsmp TP = Some (compiled TP) /\
    invariants_ok true (tp_base TP) s0 = true /\
    valid_plan true (compiled TP) s0 pi = true /\
    back_plan true TP (compiled TP) eps100 (zq 0) s0 pi = Some (converted TP s0 pi) /\
    nonempty_along true TP (compiled TP) s0 pi /\ positive_durations (converted TP s0 pi) /\
    ~ tt_valid true TP s0 (converted TP s0 pi).
Proof.
  exists exB_TP, exB_s0, exA_pi.
  split; [vm_compute; reflexivity|]. split; [vm_compute; reflexivity|]. split; [vm_compute; reflexivity|].
  split; [vm_compute; reflexivity|]. split; [vm_compute; reflexivity|]. split; [vm_compute; reflexivity|].
  split; [vm_compute; split; [reflexivity | exact I]|].
  split.
  - intros st dt Hin Hd. vm_compute in Hin. destruct Hin as [<-|[]]. cbn in Hd. inversion Hd. reflexivity.
  - intros V. apply (tt_valid_b_spec true exB_TP exB_s0 (converted exB_TP exB_s0 exA_pi)) in V;
      [vm_compute in V; discriminate | vm_compute; reflexivity].
Qed.

(* C: side condition 2 is necessary.  m = 7, a(duration [m, 5]): at end g := true; goal g.  The compiled action has
   no precondition about the duration bounds; the conversion picks the lower bound 7, outside [7, 5]. *)
Definition exC_d : daction :=
  {| d_params := []; d_lo := exn; d_hi := EInt 5; d_lopen := false; d_ropen := false; d_conds := [];
     d_effs := [ (en0, [mkeff 1 [] (EBool true) KAssign true]) ] |}.
Definition exC_TP : tproblem := {| tp_base := exA_base; tp_dur := [(0%N, exC_d)]; tp_teffs := []; tp_tgoals := [] |}.
Definition exC_s0 : state := fun f _ => match f with 0%N => Some (VNum (zq 7)) | _ => Some (VBool false) end.

Example C28_whole_empty_duration_refuted :
  exists TP s0 pi,
    t2s_fragment TP = true /\ forallb (fun id => alias_free (snd id)) (tp_dur TP) = true /\
    bound_invs (tp_base TP) = [] /\
    t2s_problem idsmp TP = Some (compiled TP) /\
    valid_plan true (compiled TP) s0 pi = true /\
    back_plan true TP (compiled TP) eps100 (zq 0) s0 pi = Some (converted TP s0 pi) /\
    positive_durations (converted TP s0 pi) /\
    ~ tt_valid true TP s0 (converted TP s0 pi).
Proof.
  exists exC_TP, exC_s0, exA_pi.
  split; [vm_compute; reflexivity|]. split; [vm_compute; reflexivity|]. split; [vm_compute; reflexivity|].
  split; [vm_compute; reflexivity|]. split; [vm_compute; reflexivity|]. split; [vm_compute; reflexivity|].
  split.
  - intros st dt Hin Hd. vm_compute in Hin. destruct Hin as [<-|[]]. cbn in Hd. inversion Hd. reflexivity.
  - intros V. apply (tt_valid_b_spec true exC_TP exC_s0 (converted exC_TP exC_s0 exA_pi)) in V;
      [vm_compute in V; discriminate | vm_compute; reflexivity].
Qed.

(* D: side condition 3 is necessary (the recorded open finding F28-lifted-alias).  p(x) Boolean over objects 1, 2;
   a(x)(duration 2): at start p(o1) := true, at end p(x) := false; b: precondition p(o1), effect g := true; goal g.
   For x = o1 the compiled action assigns both values (sequentially: true), temporally the end effect wins. *)
Definition exD_d : daction :=
  {| d_params := [0%N]; d_lo := EInt 2; d_hi := EInt 2; d_lopen := false; d_ropen := false; d_conds := [];
     d_effs := [ (st0, [mkeff 0 [EObj 1%N] (EBool true) KAssign true]);
                 (en0, [mkeff 0 [EParam 0%N] (EBool false) KAssign true]) ] |}.
Definition exD_base : problem :=
  {| p_objs := [(0%N, [1%N; 2%N])]; p_ifun := [];
     p_fluents := [ {| fd_id := 0%N; fd_sig := [0%N]; fd_ty := FBool |}; {| fd_id := 1%N; fd_sig := []; fd_ty := FBool |} ];
     p_actions := [ (1%N, {| a_params := []; a_pre := [EFluent 0%N [EObj 1%N]];
                             a_effs := [mkeff 1 [] (EBool true) KAssign true] |}) ];
     p_goals := [exg]; p_invs := [] |}.
Definition exD_TP : tproblem := {| tp_base := exD_base; tp_dur := [(0%N, exD_d)]; tp_teffs := []; tp_tgoals := [] |}.
Definition exD_s0 : state := fun f _ => match f with 0%N => Some (VBool true) | _ => Some (VBool false) end.
Definition exD_pi : list (N * list value) := [(0%N, [VObj 1%N]); (1%N, [])].

Example C28_whole_lifted_alias_refuted :
  exists TP s0 pi,
    t2s_fragment TP = true /\ bound_invs (tp_base TP) = [] /\
    t2s_problem idsmp TP = Some (compiled TP) /\
    valid_plan true (compiled TP) s0 pi = true /\
    back_plan true TP (compiled TP) eps100 (zq 0) s0 pi = Some (converted TP s0 pi) /\
    nonempty_along true TP (compiled TP) s0 pi /\
    forallb (fun id => alias_free (snd id)) (tp_dur TP) = false /\
    ~ tt_valid true TP s0 (converted TP s0 pi).
Proof.
  exists exD_TP, exD_s0, exD_pi.
  split; [vm_compute; reflexivity|]. split; [vm_compute; reflexivity|]. split; [vm_compute; reflexivity|].
  split; [vm_compute; reflexivity|]. split; [vm_compute; reflexivity|].
  split; [vm_compute; repeat split; reflexivity|].
  split; [vm_compute; reflexivity|].
  intros V. apply (tt_valid_b_spec true exD_TP exD_s0 (converted exD_TP exD_s0 exD_pi)) in V;
    [vm_compute in V; discriminate | vm_compute; reflexivity].
Qed.

Example C28_whole_identity_simplifier_ok : forall sc, smp_ok sc idsmp.
Proof. intros sc e I. reflexivity. Qed.

Print Assumptions C28_whole_nonvacuous.
Print Assumptions C28_whole_bounded_types_refuted.
Print Assumptions C28_whole_empty_duration_refuted.
Print Assumptions C28_whole_lifted_alias_refuted.

(* increment (1): the single-step simulation,
   proved for the sub-fragment WITHOUT start effects ([plain_step]: the durative action has one effect entry, at
   EndTiming(), of unconditional assignments, and the compiler's output on it has the plain form - a computable
   check).  [P'] is the compiled problem ([same_base]: it differs from the original base at most in its actions).
   One compiled step from s_s  =  the durative action executed alone from s_t (= s_s extensionally): every condition
   the compiler keeps holds in s_t, which is the state in force over the whole closed interval [start, end] because
   the action's only happening is at its end; the end event applied alone yields the sequential successor. *)
Theorem C28_whole_step_no_start_effects :
  forall sc smp, smp_ok sc smp ->
  forall (P P' : problem), same_base P P' ->
  forall d a' args (s_s s_t s_s' : state) (x : src) t,
    plain_step smp d a' = true -> a_params a' = d_params d ->
    state_eq s_t s_s -> spec_step sc P' s_s a' args = Some s_s' ->
    exists l, only_end_effs d = Some l /\
      (forall ic c, In ic (d_conds d) -> In c (snd ic) ->
         (is_start0 (ti_lo (fst ic)) && negb (ti_lopen (fst ic)) = true \/ is_end0 (ti_hi (fst ic)) = true) ->
         holds sc (mk_interp P s_t (zip_params (d_params d) args)) c = true) /\
      exists s_t', ref_apply sc P s_t [ {| ev_time := t; ev_src := x; ev_bind := zip_params (d_params d) args;
                                           ev_effs := l |} ] = Some s_t' /\ state_eq s_t' s_s'.
Proof. exact step_no_start_effects. Qed.
Print Assumptions C28_whole_step_no_start_effects.

(* WHOLE-PLAN VALIDITY for the sub-fragment [end_only_fragment] (instantaneous actions, copied unchanged by the
   compiler, mixed with durative actions whose effects are all at EndTiming() as unconditional assignments and whose
   compiled form is plain; Compilers/T2SCompile.v): every sequential plan valid for the compiled problem converts back
   into a time-triggered plan that satisfies the reference dense-time semantics of the original problem.  Hypotheses
   besides the fragment: [smp_ok] (the simplifier preserves evaluation), no bounded numeric fluent, epsilon > 0,
   non-empty duration intervals along the run, positive chosen durations (the [_refuted] examples above show that the
   second and fourth are necessary; a duration 0 puts start and end at one instant). *)
Theorem C28_whole_plan_no_start_read :
  forall sc smp (TP : tproblem) (P' : problem) (eps : Qc) (s0 : state) (pi : list (N * list value)) (tpl : tplan),
    smp_ok sc smp -> end_only_fragment smp TP = true -> bound_invs (tp_base TP) = [] ->
    t2s_problem smp TP = Some P' -> zq 0 < eps ->
    valid_plan sc P' s0 pi = true -> back_plan sc TP P' eps (zq 0) s0 pi = Some tpl ->
    nonempty_along sc TP P' s0 pi -> positive_durations tpl ->
    tt_valid sc TP s0 tpl.
Proof.
  intros sc smp TP P' eps s0 pi tpl OK FR BI CP He.
  exact (plan_end_only sc smp OK TP P' eps FR CP He s0 pi tpl BI).
Qed.
Print Assumptions C28_whole_plan_no_start_read.

(* E: non-vacuity of the step theorem: a(duration 2): over [start, end] not g, at end n := 5 *)
Definition exE_d : daction :=
  {| d_params := []; d_lo := EInt 2; d_hi := EInt 2; d_lopen := false; d_ropen := false;
     d_conds := [ ({| ti_lo := st0; ti_hi := en0; ti_lopen := false; ti_ropen := false |}, [ENot exg]) ];
     d_effs := [ (en0, [mkeff 0 [] (EInt 5) KAssign false]) ] |}.
Definition exE_base : problem :=
  {| p_objs := []; p_ifun := [];
     p_fluents := [ {| fd_id := 0%N; fd_sig := []; fd_ty := FNum None None |}; {| fd_id := 1%N; fd_sig := []; fd_ty := FBool |} ];
     p_actions := []; p_goals := [ELe (EInt 5) exn]; p_invs := [] |}.
Definition exE_TP : tproblem := {| tp_base := exE_base; tp_dur := [(0%N, exE_d)]; tp_teffs := []; tp_tgoals := [] |}.
Definition exE_act : action :=
  {| a_params := []; a_pre := [ENot exg]; a_effs := [mkeff 0 [] (EInt 5) KAssign false] |}.

Example C28_whole_step_nonvacuous :
  no_start_fragment idsmp exE_TP = true /\ t2s_action idsmp exE_d = Some exE_act /\
  plain_step idsmp exE_d exE_act = true /\ same_base exE_base (compiled exE_TP) /\
  match spec_step true (compiled exE_TP) exA_s0 exE_act [] with Some _ => true | None => false end = true.
Proof.
  split; [vm_compute; reflexivity|]. split; [vm_compute; reflexivity|]. split; [vm_compute; reflexivity|].
  split; [repeat split; reflexivity | vm_compute; reflexivity].
Qed.
Print Assumptions C28_whole_step_nonvacuous.

(* non-vacuity of C28_whole_plan_no_start_read: all hypotheses hold on instance E with the plan [a] *)
Example C28_whole_plan_no_start_read_nonvacuous :
  end_only_fragment idsmp exE_TP = true /\ bound_invs (tp_base exE_TP) = [] /\
  t2s_problem idsmp exE_TP = Some (compiled exE_TP) /\ zq 0 < eps100 /\
  valid_plan true (compiled exE_TP) exA_s0 exA_pi = true /\
  back_plan true exE_TP (compiled exE_TP) eps100 (zq 0) exA_s0 exA_pi = Some (converted exE_TP exA_s0 exA_pi) /\
  nonempty_along true exE_TP (compiled exE_TP) exA_s0 exA_pi /\ positive_durations (converted exE_TP exA_s0 exA_pi) /\
  tt_valid_b true exE_TP exA_s0 (converted exE_TP exA_s0 exA_pi) = true.
Proof.
  split; [vm_compute; reflexivity|]. split; [vm_compute; reflexivity|]. split; [vm_compute; reflexivity|].
  split; [reflexivity|]. split; [vm_compute; reflexivity|]. split; [vm_compute; reflexivity|].
  split; [vm_compute; split; [reflexivity | exact I]|].
  split; [|vm_compute; reflexivity].
  intros st dt Hin Hd. vm_compute in Hin. destruct Hin as [<-|[]]. cbn in Hd. inversion Hd. reflexivity.
Qed.
Print Assumptions C28_whole_plan_no_start_read_nonvacuous.

(* F: an instantaneous action (n := 1) mixed with the durative action of instance E; plan: inst, then a *)
Definition exF_base : problem :=
  {| p_objs := []; p_ifun := [];
     p_fluents := [ {| fd_id := 0%N; fd_sig := []; fd_ty := FNum None None |}; {| fd_id := 1%N; fd_sig := []; fd_ty := FBool |} ];
     p_actions := [ (1%N, {| a_params := []; a_pre := [ENot exg]; a_effs := [mkeff 0 [] (EInt 1) KAssign false] |}) ];
     p_goals := [ELe (EInt 5) exn]; p_invs := [] |}.
Definition exF_TP : tproblem := {| tp_base := exF_base; tp_dur := [(0%N, exE_d)]; tp_teffs := []; tp_tgoals := [] |}.
Definition exF_pi : list (N * list value) := [(1%N, []); (0%N, [])].

Example C28_whole_plan_mixed_nonvacuous :
  end_only_fragment idsmp exF_TP = true /\ no_start_fragment idsmp exF_TP = false /\
  bound_invs (tp_base exF_TP) = [] /\ t2s_problem idsmp exF_TP = Some (compiled exF_TP) /\
  valid_plan true (compiled exF_TP) exA_s0 exF_pi = true /\
  back_plan true exF_TP (compiled exF_TP) eps100 (zq 0) exA_s0 exF_pi = Some (converted exF_TP exA_s0 exF_pi) /\
  nonempty_along true exF_TP (compiled exF_TP) exA_s0 exF_pi /\
  tt_valid_b true exF_TP exA_s0 (converted exF_TP exA_s0 exF_pi) = true.
Proof.
  split; [vm_compute; reflexivity|]. split; [vm_compute; reflexivity|]. split; [vm_compute; reflexivity|].
  split; [vm_compute; reflexivity|]. split; [vm_compute; reflexivity|]. split; [vm_compute; reflexivity|].
  split; [vm_compute; repeat split; reflexivity | vm_compute; reflexivity].
Qed.
Print Assumptions C28_whole_plan_mixed_nonvacuous.

(* ------------------------------------------------------------------ OPEN: start effects that are written but not read.
   [start_not_read_fragment] (Compilers/T2SCompile.v) is the computable sub-fragment; the three statements below are
   what remains to be proved for it (nothing here is used by a theorem). *)
(* (a) evaluation ignores fluent symbols that do not occur - PROVED (the list version of C06_LA_dcrgoal_eval_frame) *)
Theorem C28_whole_eval_ignores_unmentioned :
  forall sc fs e (I J : interp),
    no_sym fs e = true ->
    par J = par I -> var J = var I -> ifun J = ifun I -> objs J = objs I ->
    (forall f a, memN f fs = false -> fl J f a = fl I f a) ->
    eval sc e J = eval sc e I.
Proof. exact eval_ignores_unmentioned. Qed.
Print Assumptions C28_whole_eval_ignores_unmentioned.

(* (b) the two-happening step - PROVED: the compiled step from s_s = the start event, then the end event, applied alone
   from s_t (= s_s extensionally); the start-closed conditions hold in s_t, the end-bounded ones in the intermediate
   state; the final state is the sequential successor *)
Theorem C28_whole_step_start_not_read :
  forall sc smp, smp_ok sc smp -> forall (P P' : problem), same_base P P' ->
  forall d a' args (s_s s_t s_s' : state) (x : src) t1 t2,
    start_not_read_step smp d a' = true -> a_params a' = d_params d ->
    state_eq s_t s_s -> spec_step sc P' s_s a' args = Some s_s' ->
    exists s_mid s_t',
      ref_apply sc P s_t [ {| ev_time := t1; ev_src := x; ev_bind := zip_params (d_params d) args;
                              ev_effs := start_effs d |} ] = Some s_mid /\
      ref_apply sc P s_mid [ {| ev_time := t2; ev_src := x; ev_bind := zip_params (d_params d) args;
                                ev_effs := end_effs d |} ] = Some s_t' /\
      state_eq s_t' s_s' /\
      (forall ic c, In ic (d_conds d) -> In c (snd ic) ->
         (is_start0 (ti_lo (fst ic)) && negb (ti_lopen (fst ic)) = true ->
            holds sc (mk_interp P s_t (zip_params (d_params d) args)) c = true) /\
         (is_end0 (ti_hi (fst ic)) = true -> holds sc (mk_interp P s_mid (zip_params (d_params d) args)) c = true)).
Proof. exact step_start_not_read. Qed.
Print Assumptions C28_whole_step_start_not_read.

(* (c) the plan-level theorem - PROVED for [start_end_fragment] (Proofs/T2SCompile_proofs.v): [t2s_fragment];
   instantaneous actions unrestricted; every durative action has exactly two effect entries, at StartTiming() then at
   EndTiming() ([two_entries]), and satisfies [start_not_read_step] (unconditional start effects on fluent symbols that
   nothing else in the action mentions, unconditional end assignments, plain compiler output).  Each durative step has
   the two happenings start, end; conditions at the start instant are evaluated before the start effects, those over
   ]start, end] in the intermediate state. *)
Theorem C28_whole_plan_start_not_read :
  forall sc smp (TP : tproblem) (P' : problem) (eps : Qc) (s0 : state) (pi : list (N * list value)) (tpl : tplan),
    smp_ok sc smp -> start_end_fragment smp TP = true -> bound_invs (tp_base TP) = [] ->
    t2s_problem smp TP = Some P' -> zq 0 < eps ->
    valid_plan sc P' s0 pi = true -> back_plan sc TP P' eps (zq 0) s0 pi = Some tpl ->
    nonempty_along sc TP P' s0 pi -> positive_durations tpl ->
    tt_valid sc TP s0 tpl.
Proof.
  intros sc smp TP P' eps s0 pi tpl OK FR BI CP He.
  exact (plan_start_not_read sc smp OK TP P' eps FR CP He s0 pi tpl BI).
Qed.
Print Assumptions C28_whole_plan_start_not_read.

(* G: non-vacuity: a(duration 2): at start n += 1 (never read), over [start, end] not g, at end g := true; goal g *)
Definition exG_d : daction :=
  {| d_params := []; d_lo := EInt 2; d_hi := EInt 2; d_lopen := false; d_ropen := false;
     d_conds := [ ({| ti_lo := st0; ti_hi := en0; ti_lopen := false; ti_ropen := false |}, [ENot exg]) ];
     d_effs := [ (st0, [mkeff 0 [] (EInt 1) KInc false]); (en0, [mkeff 1 [] (EBool true) KAssign true]) ] |}.
Definition exG_TP : tproblem := {| tp_base := exA_base; tp_dur := [(0%N, exG_d)]; tp_teffs := []; tp_tgoals := [] |}.

Example C28_whole_plan_start_not_read_nonvacuous :
  start_end_fragment idsmp exG_TP = true /\ end_only_fragment idsmp exG_TP = false /\
  bound_invs (tp_base exG_TP) = [] /\ t2s_problem idsmp exG_TP = Some (compiled exG_TP) /\
  valid_plan true (compiled exG_TP) exA_s0 exA_pi = true /\
  back_plan true exG_TP (compiled exG_TP) eps100 (zq 0) exA_s0 exA_pi = Some (converted exG_TP exA_s0 exA_pi) /\
  nonempty_along true exG_TP (compiled exG_TP) exA_s0 exA_pi /\ positive_durations (converted exG_TP exA_s0 exA_pi) /\
  tt_valid_b true exG_TP exA_s0 (converted exG_TP exA_s0 exA_pi) = true.
Proof.
  split; [vm_compute; reflexivity|]. split; [vm_compute; reflexivity|]. split; [vm_compute; reflexivity|].
  split; [vm_compute; reflexivity|]. split; [vm_compute; reflexivity|]. split; [vm_compute; reflexivity|].
  split; [vm_compute; split; [reflexivity | exact I]|].
  split; [|vm_compute; reflexivity].
  intros st dt Hin Hd. vm_compute in Hin. destruct Hin as [<-|[]]. cbn in Hd. inversion Hd. reflexivity.
Qed.
Print Assumptions C28_whole_plan_start_not_read_nonvacuous.

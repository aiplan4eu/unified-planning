(* C07, Layer A — TrajectoryConstraintsRemover (part file).  Statements; each is closed by a few lines from the lemmas
   of Proofs/LayerA_Tcr_proofs.v or from the theorems of Props/C06_tcr.v.
   Completeness readings of the regression lemma and of the monitor theorem of Props/C06_tcr.v: the preconditions the
   compiler adds never block a step after which the constraint formula holds, and the compiled monitor accepts every
   state sequence that satisfies the constraint. *)
From Coq Require Import List ZArith NArith QArith Qcanon Bool.
Import ListNotations.
Require Import UPV.Core.Expr UPV.Core.Eval UPV.Core.Interp UPV.Planning.Problem UPV.Planning.Sem.
Require Import UPV.Compilers.LayerA_Defs UPV.Compilers.LayerA_Quant UPV.Compilers.SimCheck UPV.Compilers.LayerA_DcrGoal UPV.Compilers.LayerA_Tcr.
Require Import UPV.Proofs.LayerA_Tcr_proofs.
Require UPV.Props.C06_tcr.
Local Open Scope nat_scope.

(* hypotheses as in C06_LA_tcr_regression; if phi holds after the step, the regressed formula (the precondition added for
   `always phi`, the condition of the effect that sets the atom of `sometime phi`) holds before it *)
Theorem C07_LA_tcr_regression_complete :
  forall (P : problem) (s : state) (a : action) (args : list value) (t : state) (phi : expr),
    gaction P a = true -> reg_ok P s a = true -> spec_step false P s a args = Some t ->
    gform phi = true -> gbool P phi = true -> gdef s phi = true ->
    holds false (mk_interp P t []) phi = true ->
    holds false (mk_interp P s []) (regress (a_effs a) phi) = true.
Proof.
  intros P s a args t phi H1 H2 H3 H4 H5 H6 H7.
  destruct (regression_step P s a args t phi H1 H2 H3 H4 H5 H6) as (_ & E & _). rewrite E. exact H7.
Qed.
Print Assumptions C07_LA_tcr_regression_complete.

(* ... and when phi does not hold afterwards the regressed formula is FALSE (defined), so its negation - used in the
   preconditions of at-most-once / sometime-before and in the effect condition of sometime-after - holds *)
Theorem C07_LA_tcr_regression_complete_neg :
  forall (P : problem) (s : state) (a : action) (args : list value) (t : state) (phi : expr),
    gaction P a = true -> reg_ok P s a = true -> spec_step false P s a args = Some t ->
    gform phi = true -> gbool P phi = true -> gdef s phi = true ->
    holds false (mk_interp P t []) phi = false ->
    eval false (regress (a_effs a) phi) (mk_interp P s []) = Some (VBool false).
Proof.
  intros P s a args t phi H1 H2 H3 H4 H5 H6 H7.
  destruct (regression_step P s a args t phi H1 H2 H3 H4 H5 H6) as (E & _ & D). rewrite E.
  unfold isB in D. unfold holds in H7. destruct (eval false phi (mk_interp P t [])) as [[[|]| |]|]; try discriminate; reflexivity.
Qed.
Print Assumptions C07_LA_tcr_regression_complete_neg.

Theorem C07_LA_tcr_monitor_complete :
  forall (T : tsys) (c : expr) (s : state) (r : list state),
    traj_holds T (s :: r) c = true -> mverdict (sat T) c (s :: r) = true.
Proof. intros T c s r H. rewrite mverdict_spec, <- traj_holds_th. exact H. Qed.
Print Assumptions C07_LA_tcr_monitor_complete.

Example C07_LA_tcr_monitor_nonvacuous :
  mverdict (fun (s : bool) (_ : expr) => s) (ESometimeBefore (EBool true) (EBool true)) [false; true] = false /\
  mverdict (fun (s : bool) (_ : expr) => negb s) (ESometime (EBool true)) [true; false] = true.
Proof. split; reflexivity. Qed.

(* PLAN LEVEL for `always` constraints, completeness direction (hypotheses as in C06_LA_tcr_always_plan, Props/C06_tcr.v):
   a plan that is executable in the original problem, reaches the goal and visits only states satisfying every always
   body is - unchanged - a valid plan of the compiled problem; in particular no action such a plan uses was left out *)
Theorem C07_LA_tcr_always_plan :
  forall (smp sub0 : expr -> expr) (mon : nat -> N) (C : list expr) (P : problem) (G : state -> Prop),
    smp_exact smp -> unique_ids P -> gproblem P = true -> always_only P C = true ->
    (forall s aid a args t, G s -> lookup_action P aid = Some a -> spec_step false P s a args = Some t -> G t) ->
    (forall s aid a, G s -> lookup_action P aid = Some a -> reg_ok P s a = true) ->
    (forall s phi, G s -> In (EAlways phi) C -> gdef s phi = true) ->
    forall P', tcr_compile smp sub0 mon C P = Some P' ->
    forall s0 pi, G s0 -> AH P C s0 = true ->
      always_valid P C s0 pi = true -> valid_plan false P' s0 pi = true.
Proof.
  intros. rewrite (tcr_always_plan smp sub0 mon C P G) by assumption. assumption.
Qed.
Print Assumptions C07_LA_tcr_always_plan.
(* non-vacuity: Example C06_LA_tcr_always_plan_nonvacuous (Props/C06_tcr.v) instantiates every hypothesis *)

(* PLAN LEVEL for one `sometime phi`, completeness direction (hypotheses as in C06_LA_tcr_sometime_plan, Props/C06_tcr.v):
   a valid plan of the original problem along which phi holds in some visited state is - unchanged - a valid plan of
   the compiled problem (the monitoring fluent is true at the end) *)
Theorem C07_LA_tcr_sometime_plan :
  forall (smp sub0 : expr -> expr) (mon : nat -> N) (phi : expr) (P : problem) (G : state -> Prop),
    smp_exact smp -> unique_ids P -> gproblem P = true -> gform phi = true -> gbool P phi = true ->
    tcr_fresh1 smp (mon 0) P phi = true ->
    (forall s aid a args t, G s -> lookup_action P aid = Some a -> spec_step false P s a args = Some t -> G t) ->
    (forall s aid a, G s -> lookup_action P aid = Some a -> reg_ok P s a = true) ->
    (forall s, G s -> gdef s phi = true) ->
    forall P', tcr_compile smp sub0 mon [ESometime phi] P = Some P' ->
    forall s0 s0' pi, G s0 -> agree_off (mon 0) s0 s0' ->
      s0' (mon 0) [] = Some (VBool (holds false (mk_interp P s0 []) phi)) ->
      valid_plan false P s0 pi = true -> sometime_seen P phi s0 pi = true -> valid_plan false P' s0' pi = true.
Proof.
  intros. rewrite (C06_tcr.C06_LA_tcr_sometime_plan smp sub0 mon phi P G) with (s0 := s0) by assumption.
  apply andb_true_iff. split; assumption.
Qed.
Print Assumptions C07_LA_tcr_sometime_plan.
(* non-vacuity: Example C06_LA_tcr_sometime_plan_nonvacuous (Props/C06_tcr.v) instantiates every hypothesis *)

(* PLAN LEVEL for one `at-most-once phi`, completeness direction (hypotheses as in C06_LA_tcr_amo_plan, Props/C06_tcr.v):
   a valid plan of the original problem every step of which passes the at-most-once check is - unchanged - a valid plan
   of the compiled problem (no added precondition blocks it, no action it uses was left out) *)
Theorem C07_LA_tcr_amo_plan :
  forall (smp sub0 : expr -> expr) (mon : nat -> N) (phi : expr) (P : problem) (G : state -> Prop),
    smp_exact smp -> unique_ids P -> gproblem P = true -> gform phi = true -> gbool P phi = true ->
    tcr_fresh1 smp (mon 0) P phi = true ->
    (forall s aid a args t, G s -> lookup_action P aid = Some a -> spec_step false P s a args = Some t -> G t) ->
    (forall s aid a, G s -> lookup_action P aid = Some a -> reg_ok P s a = true) ->
    (forall s, G s -> gdef s phi = true) ->
    forall P', tcr_compile smp sub0 mon [EAtMostOnce phi] P = Some P' ->
    forall s0 s0' pi, G s0 -> agree_off (mon 0) s0 s0' ->
      s0' (mon 0) [] = Some (VBool (holds false (mk_interp P s0 []) phi)) ->
      valid_plan false P s0 pi = true -> amo_chk P phi (holds false (mk_interp P s0 []) phi) s0 pi = true ->
      valid_plan false P' s0' pi = true.
Proof.
  intros. rewrite (C06_tcr.C06_LA_tcr_amo_plan smp sub0 mon phi P G) with (s0 := s0) by assumption.
  apply andb_true_iff. split; assumption.
Qed.
Print Assumptions C07_LA_tcr_amo_plan.
(* non-vacuity: Example C06_LA_tcr_amo_plan_nonvacuous (Props/C06_tcr.v) instantiates every hypothesis *)

(* PLAN LEVEL for one `sometime-before phi psi`, completeness direction (hypotheses as in C06_LA_tcr_sb_plan) *)
Theorem C07_LA_tcr_sb_plan :
  forall (smp sub0 : expr -> expr) (mon : nat -> N) (phi psi : expr) (P : problem) (G : state -> Prop),
    smp_exact smp -> unique_ids P -> gproblem P = true ->
    gform phi = true -> gbool P phi = true -> gform psi = true -> gbool P psi = true ->
    tcr_fresh1 smp (mon 0) P phi = true -> tcr_fresh1 smp (mon 0) P psi = true ->
    (forall s aid a args t, G s -> lookup_action P aid = Some a -> spec_step false P s a args = Some t -> G t) ->
    (forall s aid a, G s -> lookup_action P aid = Some a -> reg_ok P s a = true) ->
    (forall s, G s -> gdef s phi = true) -> (forall s, G s -> gdef s psi = true) ->
    forall P', tcr_compile smp sub0 mon [ESometimeBefore phi psi] P = Some P' ->
    forall s0 s0' pi, G s0 -> agree_off (mon 0) s0 s0' ->
      s0' (mon 0) [] = Some (VBool (holds false (mk_interp P s0 []) psi)) ->
      holds false (mk_interp P s0 []) phi = false ->
      valid_plan false P s0 pi = true -> sb_chk P phi psi (holds false (mk_interp P s0 []) psi) s0 pi = true ->
      valid_plan false P' s0' pi = true.
Proof.
  intros. rewrite (C06_tcr.C06_LA_tcr_sb_plan smp sub0 mon phi psi P G) with (s0 := s0) by assumption.
  apply andb_true_iff. split; assumption.
Qed.
Print Assumptions C07_LA_tcr_sb_plan.
(* non-vacuity: Example C06_LA_tcr_sb_plan_nonvacuous (Props/C06_tcr.v) instantiates every hypothesis *)

(* PLAN LEVEL for one `sometime-after phi psi`, completeness direction (hypotheses as in C06_LA_tcr_sa_plan) *)
Theorem C07_LA_tcr_sa_plan :
  forall (smp sub0 : expr -> expr) (mon : nat -> N) (phi psi : expr) (P : problem) (G : state -> Prop),
    smp_exact smp -> unique_ids P -> gproblem P = true ->
    gform phi = true -> gbool P phi = true -> gform psi = true -> gbool P psi = true ->
    tcr_fresh1 smp (mon 0) P phi = true -> tcr_fresh1 smp (mon 0) P psi = true ->
    (forall s aid a args t, G s -> lookup_action P aid = Some a -> spec_step false P s a args = Some t -> G t) ->
    (forall s aid a, G s -> lookup_action P aid = Some a -> reg_ok P s a = true) ->
    (forall s, G s -> gdef s phi = true) -> (forall s, G s -> gdef s psi = true) ->
    forall P', tcr_compile smp sub0 mon [ESometimeAfter phi psi] P = Some P' ->
    forall s0 s0' pi, G s0 -> agree_off (mon 0) s0 s0' ->
      s0' (mon 0) [] = Some (VBool (holds false (mk_interp P s0 []) psi || negb (holds false (mk_interp P s0 []) phi))) ->
      valid_plan false P s0 pi = true ->
      sa_bit P phi psi (holds false (mk_interp P s0 []) psi || negb (holds false (mk_interp P s0 []) phi)) s0 pi = true ->
      valid_plan false P' s0' pi = true.
Proof.
  intros. rewrite (C06_tcr.C06_LA_tcr_sa_plan smp sub0 mon phi psi P G) with (s0 := s0) by assumption.
  apply andb_true_iff. split; assumption.
Qed.
Print Assumptions C07_LA_tcr_sa_plan.
(* non-vacuity: Example C06_LA_tcr_sa_plan_nonvacuous (Props/C06_tcr.v) instantiates every hypothesis *)

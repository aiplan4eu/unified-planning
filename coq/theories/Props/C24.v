(* C24 — Effect conflict detection is order-independent and exception-safe.
   Statements; each is closed by a lemma of Proofs/Conflicts_proofs.v, C24_two_simulated_effects_order_matters by computation.
   Model: Model/Conflicts.v (check_conflicting_effects, check_conflicting_simulated_effects, _add_effect_instance,
   set_simulated_effect for InstantaneousAction / DurativeAction timings / Problem timed effects).

   Reading fixed in DESIGN.md 6.00: a collection holds at most one simulated effect per time point, counting the one
   the action already has (set_simulated_effect REPLACES; [C24_two_simulated_effects_order_matters] shows that the
   hypothesis cannot be dropped).  [raises s l] inserts the members of l in order into s, catching the exception of
   every rejected insertion, and says whether some insertion raised UPConflictingEffectsException. *)
From Coq Require Import List ZArith NArith QArith Bool Permutation.
Import ListNotations.
Require Import UPV.Model.Conflicts UPV.Proofs.Conflicts_proofs.

(* (1) order independence, one time point (InstantaneousAction; one Timing of a DurativeAction or Problem):
   for every container reachable by ANY history of accepted and rejected insertions, and every collection *)
Theorem C24_order_independent :
  forall s l l', reach s -> (sim_count s + count_sims l <= 1)%nat -> Permutation l l' ->
    raises s l = raises s l'.
Proof. exact raises_perm_reach. Qed.
Print Assumptions C24_order_independent.

Theorem C24_order_independent_fresh_action :
  forall l l', (count_sims l <= 1)%nat -> Permutation l l' -> raises tp_empty l = raises tp_empty l'.
Proof. exact raises_perm_fresh. Qed.
Print Assumptions C24_order_independent_fresh_action.

(* (1') timed containers: members carry their time point; every time point has at most one simulated effect *)
Theorem C24_order_independent_timed :
  forall m l l', treach m ->
    (forall t, (sim_count (tget t m) + count_sims (proj t l) <= 1)%nat) ->
    Permutation l l' -> traises m l = traises m l'.
Proof. exact traises_perm_reach. Qed.
Print Assumptions C24_order_independent_timed.

(* why: some insertion raises exactly when a member conflicts with another member of the collection or with
   something the container already holds -- a statement without any order in it *)
Theorem C24_raises_iff_conflicting_pair :
  forall s l, reach s -> (sim_count s + count_sims l <= 1)%nat ->
    (raises s l = true <->
     exists l1 x l2 y, l = l1 ++ x :: l2 /\ In y (tp_items s ++ l1 ++ l2) /\ conflicts x y = true).
Proof. intros s l H. exact (raises_iff_clash s l (reach_Inv s H)). Qed.
Print Assumptions C24_raises_iff_conflicting_pair.

(* (2) exception safety: a rejected insertion leaves stored effects, fluents_assigned, fluents_inc_dec and the
   simulated effect exactly as they were (any state, reachable or not) *)
Theorem C24_rejected_insertion_is_noop :
  forall s i, snd (add_item s i) = true -> fst (add_item s i) = s.
Proof. exact add_item_rejected_noop. Qed.
Print Assumptions C24_rejected_insertion_is_noop.

(* ... so later insertions are judged as if it had never been attempted *)
Theorem C24_later_insertions_unaffected :
  forall s i l, snd (add_item s i) = true ->
    raises (fst (add_item s i)) l = raises s l /\ run (fst (add_item s i)) l = run s l.
Proof. exact rejected_then_as_if_never. Qed.
Print Assumptions C24_later_insertions_unaffected.

Theorem C24_rejected_insertion_is_noop_timed :
  forall m ti, snd (tadd_item m ti) = true -> forall t, tget t (fst (tadd_item m ti)) = tget t m.
Proof. exact tadd_item_rejected_noop. Qed.
Print Assumptions C24_rejected_insertion_is_noop_timed.

(* time points are independent: every time point of a reachable timed container is a reachable one-time-point
   container, and an insertion at another time point does not touch it *)
Theorem C24_time_points_independent :
  forall m, treach m -> (forall t, reach (tget t m)) /\
    forall t0 i t, t <> t0 -> tget t (fst (tadd_item m (t0, i))) = tget t m.
Proof. intros m H. split; [exact (treach_reach m H) | exact (tadd_item_other m)]. Qed.
Print Assumptions C24_time_points_independent.

(* the side condition of (1) is necessary *)
Theorem C24_two_simulated_effects_order_matters :
  exists l l', Permutation l l' /\ count_sims l = 2%nat /\ raises tp_empty l <> raises tp_empty l'.
Proof.
  exists [ISim [1%N]; ISim [2%N]; IEff (ex_assign 1)], [ISim [2%N]; ISim [1%N]; IEff (ex_assign 1)].
  split; [apply perm_swap|]. split; [reflexivity|].
  destruct two_sims_order_matters as [-> ->]. discriminate.
Qed.
Print Assumptions C24_two_simulated_effects_order_matters.

Definition nv_inc (f : N) : effect :=
  {| e_fluent := f; e_bool := false; e_kind := KIncrease; e_value := VNum 1; e_cond := false; e_tag := 1 |}.

(* hypotheses of (1) hold for a state reached through a rejected insertion, and both orders raise *)
Example C24_order_independent_nonvacuous :
  let s := fst (add_item (fst (add_item tp_empty (ISim [1%N]))) (IEff (nv_inc 1))) in
  let l := [IEff (ex_assign 2); IEff (nv_inc 2)] in
  reach s /\ (sim_count s + count_sims l <= 1)%nat /\ Permutation l (rev l) /\
  raises s l = true /\ raises s (rev l) = true /\ raises s [IEff (nv_inc 2); IEff (nv_inc 2)] = false.
Proof.
  cbv zeta. split; [apply reach_add, reach_add, reach_empty|].
  split; [vm_compute; apply le_n|]. split; [apply perm_swap|].
  split; [reflexivity|]. split; reflexivity.
Qed.

Example C24_order_independent_timed_nonvacuous :
  let m := fst (tadd_item [] (0%N, ISim [1%N])) in
  let l := [(0%N, IEff (ex_assign 1)); (5%N, IEff (ex_assign 1)); (5%N, ISim [2%N])] in
  treach m /\ (forall t, (sim_count (tget t m) + count_sims (proj t l) <= 1)%nat) /\
  traises m l = true /\ traises m [(5%N, IEff (ex_assign 1)); (5%N, ISim [2%N])] = false.
Proof.
  cbv zeta. split; [apply (treach_add [] (0%N, ISim [1%N])), treach_empty|].
  split; [|split; reflexivity].
  intros t. destruct (N.eq_dec t 0) as [->|H0]; [vm_compute; apply le_n|].
  destruct (N.eq_dec t 5) as [->|H5]; [vm_compute; apply le_n|].
  apply N.eqb_neq in H0, H5. unfold tadd_item; simpl. unfold tget; simpl. rewrite H0, H5. simpl. auto.
Qed.

(* hypothesis of (2) holds: an increase of a fluent the simulated effect writes is rejected *)
Example C24_rejected_insertion_is_noop_nonvacuous :
  let s := fst (add_item tp_empty (ISim [1%N])) in
  snd (add_item s (IEff (nv_inc 1))) = true /\ incdec (fst (add_item s (IEff (nv_inc 1)))) = [].
Proof. split; reflexivity. Qed.

Example C24_rejected_insertion_is_noop_timed_nonvacuous :
  let m := fst (tadd_item [] (3%N, IEff (ex_assign 1))) in
  snd (tadd_item m (3%N, IEff (nv_inc 1))) = true.
Proof. reflexivity. Qed.

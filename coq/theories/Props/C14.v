(* C14 — Shared environment walkers are history-independent, even after failures.
   Only statements; each is closed by [exact] of a lemma from Proofs/Dag_proofs.v or Proofs/HashCons_proofs.v.

   Reading guide.  [walk R children f inval fuel w n] is DagWalker.walk (as repaired) on the walker state [w] for the
   root [n]; [f n args = None] means "walk_* raised at node n"; [run_calls R children inval fresh cs] is the walker after
   the history [cs] of calls (each call = its node function, its root, its fuel); [results ...] are the answers of the
   history's calls; [terminated rs] says none of them ran out of fuel (and every call has enough fuel:
   [C14_walk_terminates]).  A result is [ROk value], [RFail (FailAt node)] (the exception raised by that node's
   function) or [RFail (KeyErr node)] (Python's KeyError on a missing memoization entry). *)
From Coq Require Import List NArith Bool.
Import ListNotations.
Require Import UPV.Model.Dag UPV.Proofs.Dag_proofs UPV.Model.HashCons UPV.Proofs.HashCons_proofs.
Open Scope N_scope.

(* walkers that KEEP their memoization (TypeChecker, Simplifier, FreeVarsExtractor, FreeVarsOracle ...): one fixed node
   function [f]; children have smaller ids than their parents (hash-consing).  After ANY history of calls -- each of
   which may have raised at any node -- the next call answers exactly as on a fresh walker: same value, or the same
   exception at the same node. *)
Theorem C14_walk_history_independent :
  forall (R : Type) (children : N -> list N) (f : N -> list R -> option R),
    (forall n c, In c (children n) -> c < n) ->
    forall (cs : list (Dag.call R)) (n : N) (fuel1 fuel2 : nat),
      Forall (fun c => fst (fst c) = f) cs ->
      Forall (fun r => r <> RNoFuel) (results R children false fresh cs) ->
      snd (walk R children f false fuel1 (run_calls R children false fresh cs) n) <> RNoFuel ->
      snd (walk R children f false fuel2 fresh n) <> RNoFuel ->
      snd (walk R children f false fuel1 (run_calls R children false fresh cs) n)
      = snd (walk R children f false fuel2 fresh n).
Proof. exact walk_history_independent. Qed.
Print Assumptions C14_walk_history_independent.

(* ... and that answer is the reference value [eval] of the root, which does not mention the walker (so: never a
   KeyError, never a stale entry), and the stack is empty again afterwards, also when the call raised *)
Theorem C14_walk_is_reference_value :
  forall (R : Type) (children : N -> list N) (f : N -> list R -> option R),
    (forall n c, In c (children n) -> c < n) ->
    forall (cs : list (Dag.call R)) (n : N) (fuel : nat),
      Forall (fun c => fst (fst c) = f) cs ->
      Forall (fun r => r <> RNoFuel) (results R children false fresh cs) ->
      snd (walk R children f false fuel (run_calls R children false fresh cs) n) <> RNoFuel ->
      snd (walk R children f false fuel (run_calls R children false fresh cs) n)
        = to_result R (eval R children f (K n) n) /\
      stack R (fst (walk R children f false fuel (run_calls R children false fresh cs) n)) = [].
Proof. exact walk_is_eval. Qed.
Print Assumptions C14_walk_is_reference_value.

Theorem C14_walk_terminates :
  forall (R : Type) (children : N -> list N) (f : N -> list R -> option R),
    (forall n c, In c (children n) -> c < n) ->
    forall (cs : list (Dag.call R)) (n : N),
      Forall (fun c => fst (fst c) = f) cs ->
      Forall (fun r => r <> RNoFuel) (results R children false fresh cs) ->
      exists fuel, snd (walk R children f false fuel (run_calls R children false fresh cs) n) <> RNoFuel.
Proof. exact history_walk_terminates. Qed.
Print Assumptions C14_walk_terminates.

(* walkers with a one-time cache (Substituter, ExpressionQuantifiersRemover, QuantifierSimplifier, StateEvaluator,
   Dnf): every call may use a DIFFERENT node function (its substitution map, its state) and may raise anywhere; the
   walker is back in its fresh state after every call, so the next call -- result AND resulting state -- is the call on
   a fresh walker *)
Theorem C14_one_time_cache_history_independent :
  forall (R : Type) (children : N -> list N) (cs : list (Dag.call R)) (c : Dag.call R),
    Forall (fun r => r <> RNoFuel) (results R children true fresh cs) ->
    run_call R children true (run_calls R children true fresh cs) c = run_call R children true fresh c.
Proof. exact inval_history_independent. Qed.
Print Assumptions C14_one_time_cache_history_independent.

Theorem C14_one_time_cache_is_fresh_after_every_call :
  forall (R : Type) (children : N -> list N) (cs : list (Dag.call R)),
    Forall (fun r => r <> RNoFuel) (results R children true fresh cs) ->
    run_calls R children true fresh cs = fresh.
Proof. exact inval_history_fresh. Qed.
Print Assumptions C14_one_time_cache_is_fresh_after_every_call.

(* StateEvaluator.evaluate / QuantifierSimplifier.qsimplify: after any history of evaluations, failed ones included
   (missing fluent value ...), the next one answers like a fresh evaluator and never with the AssertionError of
   `assert self._variable_assignments is None` *)
Theorem C14_evaluator_history_independent :
  forall (R : Type) (children : N -> list N) (cs : list (ev_call R)) (c : ev_call R),
    Forall (fun r => r <> EvRes RNoFuel) (ev_results R children fresh_evaluator cs) ->
    ev_step R children (ev_run R children fresh_evaluator cs) c = ev_step R children fresh_evaluator c /\
    snd (ev_step R children (ev_run R children fresh_evaluator cs) c) <> EvAssert.
Proof. exact evaluator_history_independent. Qed.
Print Assumptions C14_evaluator_history_independent.

(* the expression manager (model of C16): the verdict (accepted / which exception) of create_node on a content whose
   children exist is the same after ANY history of constructor calls, failed ones included, as before it: a
   construction that failed its type check leaves nothing that changes a later verdict *)
Theorem C14_create_node_history_independent :
  forall (D : decls) (st : state) (ks : list HashCons.call) (c : content),
    Inv2 D st -> (forall j, In j (snd (fst c)) -> has_id st j) ->
    verdict_of (create_node (typecheck D) (run (typecheck D) (arity D) st ks) c)
    = verdict_of (create_node (typecheck D) st c).
Proof. exact create_node_history_independent. Qed.
Print Assumptions C14_create_node_history_independent.

Theorem C14_manager_invariant :
  forall (D : decls) (ks : list HashCons.call), Inv2 D (run (typecheck D) (arity D) (init (typecheck D)) ks).
Proof. intros D ks. exact (run_inv2 D ks _ (init_inv2 D)). Qed.
Print Assumptions C14_manager_invariant.

(* non-vacuity: node 5 = op(4, 3), 3 = op(1, 2), 7 = op(6); the node function raises at node 2.
   First call: walk 5 raises at 2 with (True, 5) and (True, 3)... pending; second call: the unrelated node 7. *)
Definition exch (n : N) : list N := match n with 5 => [4; 3] | 3 => [1; 2] | 7 => [6] | _ => [] end.
Definition exf (n : N) (args : list N) : option N := if n =? 2 then None else Some (n + fold_right N.add 0 args).

Example C14_nonvacuous :
  let cs := [(exf, 5, 50%nat); (exf, 7, 50%nat); (exf, 4, 50%nat)] in
  results N exch false fresh cs = [RFail (FailAt 2); ROk 13; ROk 4]
  /\ snd (walk N exch exf false 50 (run_calls N exch false fresh cs) 3) = RFail (FailAt 2)
  /\ snd (walk N exch exf false 50 fresh 3) = RFail (FailAt 2)
  /\ stack N (run_calls N exch false fresh cs) = []
  /\ length (memo N (run_calls N exch false fresh cs)) = 3%nat
  /\ (forall n c, In c (exch n) -> c < n).
Proof.
  cbv zeta. repeat split; try (vm_compute; reflexivity).
  intros n c. unfold exch.
  destruct n as [|p]; [intros []|].
  destruct p as [[[|[]|]|[[]|[]|]|]|[[]|[]|]|]; simpl; intros H; try contradiction;
    repeat (destruct H as [<-|H]; [reflexivity|]); try contradiction.
Qed.

Example C14_one_time_nonvacuous :
  let cs := [(exf, 5, 50%nat); (exf, 7, 50%nat)] in
  results N exch true fresh cs = [RFail (FailAt 2); ROk 13] /\ run_calls N exch true fresh cs = fresh.
Proof. cbv zeta. split; vm_compute; reflexivity. Qed.

(* C19, part "stmt": the statements of an action body (timed conditions, timed effects) on top of the expression
   codec.  Model/AnmlStmt.v: pr_timing / pr_interval / pr_stmt mirror ANMLWriter._convert_anml_timing,
   _convert_anml_interval, _convert_effect and the condition lines; parse_timing / parse_interval / parse_stmt mirror
   the grammar's interval / timed_expression / conditional_expression / assignment productions and
   ANMLReader._parse_timing, _parse_interval, _parse_assignment, _populate_parsed_action_body (is_global = False). *)
From Coq Require Import List ZArith NArith QArith Qcanon Bool.
Import ListNotations.
Require Import UPV.Core.Expr UPV.Core.Eval UPV.Planning.Problem UPV.Planning.Temporal.
Require Import UPV.Model.AnmlExpr UPV.Proofs.AnmlExpr_proofs UPV.Model.AnmlStmt UPV.Proofs.AnmlStmt_proofs.

(* every timing the reader accepts inside an action (start + d, end - d, d a non-negative rational) is read back
   exactly, in front of any of the tokens that can follow a timing ("," "]" ")") *)
Theorem C19_stmt_timing_roundtrip :
  forall tm rest, timing_ok tm = true -> tstop rest = true -> parse_timing (pr_timing tm ++ rest) = Some (tm, rest).
Proof. exact timing_rt. Qed.
Print Assumptions C19_stmt_timing_roundtrip.

(* all four bracket combinations; an interval of one instant is printed "[ t ]" and read as the Timing t *)
Theorem C19_stmt_interval_roundtrip :
  forall iv rest, interval_ok iv = true ->
  parse_interval (pr_interval iv ++ rest)
  = Some (if timing_eqb (ti_lo iv) (ti_hi iv) then PPoint (ti_lo iv) else PIv iv, rest).
Proof. exact interval_rt. Qed.
Print Assumptions C19_stmt_interval_roundtrip.

(* a timed condition: the interval is read back exactly, the expression as its normal form (C19_expr_roundtrip is the
   inner step).  Hypothesis names_ok: as in Props/C19_expr.v. *)
Theorem C19_stmt_condition_roundtrip :
  forall W R arity, names_ok W R arity ->
  forall iv c, stmt_ok R arity (SCond iv c) = true ->
  parse_stmt R (pr_stmt W (SCond iv c)) = Some (norm_stmt (SCond iv c)).
Proof. intros W R arity HN iv c H. exact (cond_rt W R arity HN iv c H). Qed.
Print Assumptions C19_stmt_condition_roundtrip.

(* a timed effect - assignment, :increase, :decrease; plain, conditional (`when c {...}`), universally quantified
   (`forall (T v){...}`) and both - is read back with the same timing, target, kind and variables; arguments, value
   and condition as their normal forms; under a forall the reader builds the condition And(c, TRUE) (norm_effect).
   Inner steps: the interval theorem for "[ t ]", the expression theorem three times (condition, target, value),
   the quantifier declaration lemmas of the expression layer. *)
Theorem C19_stmt_effect_roundtrip :
  forall W R arity, names_ok W R arity ->
  forall tm e, stmt_ok R arity (SEff tm e) = true ->
  parse_stmt R (pr_stmt W (SEff tm e)) = Some (norm_stmt (SEff tm e)).
Proof. intros W R arity HN tm e H. exact (effect_rt W R arity HN tm e H). Qed.
Print Assumptions C19_stmt_effect_roundtrip.

(* every statement of the fragment *)
Theorem C19_stmt_roundtrip :
  forall W R arity, names_ok W R arity ->
  forall s, stmt_ok R arity s = true -> parse_stmt R (pr_stmt W s) = Some (norm_stmt s).
Proof.
  intros W R arity HN [iv c|tm e|tm e] H;
    [exact (C19_stmt_condition_roundtrip W R arity HN iv c H)|exact (C19_stmt_effect_roundtrip W R arity HN tm e H)
    |discriminate H].
Qed.
Print Assumptions C19_stmt_roundtrip.

(* concrete instances over the naming exW / exR of Proofs/AnmlExpr_proofs.v (names_ok: ex_names_ok there) *)
Definition ex_tm : timing := {| tm_anchor := AEnd; tm_delay := Q2Qc (Qmake (-7) 3) |}.
Definition ex_iv : tinterval :=
  {| ti_lo := {| tm_anchor := AStart; tm_delay := Q2Qc (Qmake 1 2) |}; ti_hi := ex_tm; ti_lopen := true; ti_ropen := false |}.
Definition ex_cond : stmt := SCond ex_iv (EAnd [EFluent 0 []; ENot (EFluent 1 [EObj 5; EParam 2])]).
Definition ex_eff (k : ekind) (c : expr) (vs : list (N * N)) : stmt :=
  SEff ex_tm {| e_fl := 1; e_args := [EObj 5; match vs with [] => EParam 2 | (v, t) :: _ => EVar v t end];
                e_val := EIff (EFluent 0 []) (EBool false); e_cond := c; e_kind := k; e_vars := vs; e_isbool := true |}.
Definition ex_stmts : list stmt :=
  [ ex_cond; ex_eff KAssign (EBool true) []; ex_eff KAssign (ELt (EFluent 2 []) (EInt (-1))) [];
    ex_eff KAssign (EBool true) [(1%N, 7%N)]; ex_eff KAssign (EOr [EFluent 0 []; EFluent 0 []]) [(1%N, 7%N); (2%N, 8%N)];
    SEff {| tm_anchor := AStart; tm_delay := Q2Qc 3 |}
         {| e_fl := 2; e_args := []; e_val := EPlus [EInt 1; EFluent 3 []]; e_cond := EBool true; e_kind := KInc;
            e_vars := []; e_isbool := false |};
    SEff {| tm_anchor := AStart; tm_delay := Q2Qc 0 |}
         {| e_fl := 2; e_args := []; e_val := EReal (Q2Qc (Qmake 5 4)); e_cond := EFluent 0 []; e_kind := KDec;
            e_vars := []; e_isbool := false |} ].
Definition pstmt_same (a b : option pstmt) : bool :=
  match a, b with
  | Some (PCond i c), Some (PCond j d) => expr_eqb c d && timing_eqb (ti_lo i) (ti_lo j) && timing_eqb (ti_hi i) (ti_hi j)
                                          && Bool.eqb (ti_lopen i) (ti_lopen j) && Bool.eqb (ti_ropen i) (ti_ropen j)
  | Some (PEff t e), Some (PEff u f) =>
      timing_eqb t u && (e_fl e =? e_fl f)%N && list_expr_eqb (e_args e) (e_args f) && expr_eqb (e_val e) (e_val f)
      && expr_eqb (e_cond e) (e_cond f) && vars_eqb (e_vars e) (e_vars f) && Bool.eqb (e_isbool e) (e_isbool f)
      && match e_kind e, e_kind f with KAssign, KAssign | KInc, KInc | KDec, KDec => true | _, _ => false end
  | _, _ => false
  end.
Definition ex_all_ok : bool :=
  forallb (fun s => stmt_ok exR ex_arity s && pstmt_same (parse_stmt exR (pr_stmt exW s)) (Some (norm_stmt s))) ex_stmts.
Example C19_stmt_roundtrip_nonvacuous :
  names_ok exW exR ex_arity
  /\ ex_all_ok = true
  /\ parse_stmt exR (pr_stmt exW ex_cond) = Some (norm_stmt ex_cond).
Proof.
  split; [exact ex_names_ok|]. split; [vm_compute; reflexivity|].
  apply (C19_stmt_roundtrip exW exR ex_arity ex_names_ok). vm_compute. reflexivity.
Qed.
Print Assumptions C19_stmt_roundtrip_nonvacuous.

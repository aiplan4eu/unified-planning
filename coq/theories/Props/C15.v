(* C15 — Expression type inference is sound and symmetric.
   Only statements; each is closed by [exact] of a lemma from Proofs/TypeInfer_proofs.v.
   Model: Walkers/TypeInfer.v (TypeChecker after the repairs 71151e8 "exact arithmetic for bounds" and
   86a1852 "symmetric walk_equals"). *)
From Coq Require Import List ZArith NArith QArith Qcanon Bool.
Import ListNotations.
Require Import UPV.Core.Expr UPV.Core.Eval UPV.Core.Interp UPV.Walkers.TypeInfer UPV.Proofs.TypeInfer_proofs.

(* the inferred type contains every value the expression can take: for every typing environment, every accepted
   expression, every interpretation whose fluents / parameters / variables / interpreted functions take values of
   their declared types, and on which the expression is defined (both quantifier modes).  [inhabits] reads numeric
   bounds as exact rational intervals (None = unbounded) and integer types as containing integers only. *)
Theorem C15_infer_sound :
  forall G sc e t, infer G e = Some t ->
  forall I, respects G I -> forall v, eval sc e I = Some v -> inhabits G v t.
Proof. exact infer_sound_thm. Qed.
Print Assumptions C15_infer_sound.

(* Boolean-valued expressions get exactly bool, object-valued ones exactly a user type that contains the object *)
Theorem C15_infer_bool_user_exact :
  forall G sc e t, infer G e = Some t ->
  forall I, respects G I -> forall v, eval sc e I = Some v ->
  match v with
  | VBool _ => t = TBool
  | VObj o => exists u u', t = TUser u /\ lookupN o (g_obj G) = Some u' /\ In u (ancestors G u')
  | VNum _ => is_num t = true \/ t = TTime
  end.
Proof. exact infer_bool_user_exact_thm. Qed.
Print Assumptions C15_infer_bool_user_exact.

(* leaves get exactly their declared type *)
Theorem C15_infer_leaf_exact :
  forall G,
  (forall f args t, infer G (EFluent f args) = Some t -> exists sg, lookupN f (g_fl G) = Some (sg, t)) /\
  (forall p t, infer G (EParam p) = Some t -> lookupN p (g_par G) = Some t) /\
  (forall o t, infer G (EObj o) = Some t -> exists u, t = TUser u /\ lookupN o (g_obj G) = Some u) /\
  (forall x u t, infer G (EVar x u) = Some t -> t = TUser u /\ lookupN x (g_var G) = Some u) /\
  (forall b, infer G (EBool b) = Some TBool).
Proof. exact infer_leaf_exact_thm. Qed.
Print Assumptions C15_infer_leaf_exact.

(* an equality is accepted iff its mirrored equality is accepted (all pairs of operand types, any type hierarchy) *)
Theorem C15_equals_wf_symmetric : forall G t1 t2, wf_equals G t1 t2 = wf_equals G t2 t1.
Proof. exact equals_wf_symmetric_thm. Qed.
Print Assumptions C15_equals_wf_symmetric.

Theorem C15_equals_wf_char :
  forall G t1 t2,
  wf_equals G t1 t2 = true <->
  (exists a b, t1 = TUser a /\ t2 = TUser b /\ user_eq_ok G a b = true) \/
  ((is_num t1 || is_time t1) && (is_num t2 || is_time t2) = true).
Proof. exact equals_wf_char_thm. Qed.
Print Assumptions C15_equals_wf_char.

(* the interval product used by walk_times (unbounded sides, 0 * inf = 0) encloses every product *)
Theorem C15_interval_product :
  forall a b c d x y, itv a b x -> itv c d y ->
  itv (min4 (emul a c) (emul a d) (emul b c) (emul b d)) (max4 (emul a c) (emul a d) (emul b c) (emul b d)) (x * y)%Qc.
Proof. exact mul_itv. Qed.
Print Assumptions C15_interval_product.

Definition ex_G : tenv :=
  {| g_fl := [(0%N, ([], TInt (Some 0%Z) None)); (1%N, ([], TReal None (Some (qc (-1) 2))))];
     g_par := []; g_var := []; g_obj := [(0%N, 1%N)]; g_ifun := []; g_father := [(1%N, 0%N)] |}.
Definition ex_I : interp :=
  {| fl := fun f _ => if (f =? 0)%N then Some (VNum (zq 7)) else if (f =? 1)%N then Some (VNum (qc (-3) 2)) else None;
     par := fun _ => None; var := fun _ => None; ifun := fun _ _ => None; objs := fun _ => [] |}.
(* (x * y) / (-3)  with x : int[0, inf], y : real[-inf, -1/2]:  x * y : real[-inf, 0]; the quotient : real[0, inf] *)
Definition ex_e : expr := EDiv (ETimes [EFluent 0%N []; EFluent 1%N []]) (EInt (-3)%Z).

Lemma ex_respects : respects ex_G ex_I.
Proof.
  constructor; simpl.
  - intros f sg t vs v H E. destruct (f =? 0)%N eqn:F0.
    + inversion H; subst. inversion E; subst. simpl. exists 7%Z. split; [reflexivity|]. split; [discriminate | exact I].
    + destruct (f =? 1)%N eqn:F1; [|discriminate]. inversion H; subst. inversion E; subst. simpl.
      split; [exact I | discriminate].
  - intros; discriminate.
  - intros; discriminate.
  - intros; discriminate.
Qed.

Definition infer_is (G : tenv) (e : expr) (t : ty) : bool :=
  match infer G e with Some t' => ty_eqb t' t | None => false end.

Example C15_infer_sound_nonvacuous :
  infer_is ex_G ex_e (TReal (Some (qc 0 1)) None) = true /\ respects ex_G ex_I /\
  ovalue_eqb (eval false ex_e ex_I) (Some (VNum (qc 7 2))) = true /\
  infer_is ex_G (EDiv (EInt 1) (EInt 3)) (TReal (Some (qc 1 3)) (Some (qc 1 3))) = true /\
  infer ex_G (EEquals (EObj 0%N) (EInt 5)) = None /\ infer ex_G (EEquals (EInt 5) (EObj 0%N)) = None /\
  infer ex_G (EEquals (EObj 0%N) (EObj 0%N)) = Some TBool.
Proof.
  split; [vm_compute; reflexivity|]. split; [exact ex_respects|].
  split; [vm_compute; reflexivity|]. split; [vm_compute; reflexivity|].
  split; [vm_compute; reflexivity|]. split; vm_compute; reflexivity.
Qed.

Example C15_equals_wf_nonvacuous :
  wf_equals ex_G (TUser 1%N) (TUser 0%N) = true /\ wf_equals ex_G (TUser 1%N) (TUser 7%N) = false /\
  wf_equals ex_G (TInt None None) TTime = true /\ wf_equals ex_G (TUser 0%N) (TInt None None) = false.
Proof. repeat split; vm_compute; reflexivity. Qed.

Definition ext_eqb (a b : ext) : bool :=
  match a, b with NegInf, NegInf | PosInf, PosInf => true | Fin x, Fin y => qc_eqb x y | _, _ => false end.

Example C15_interval_product_nonvacuous :
  itv (Fin (qc 0 1)) PosInf (qc 7 1) /\ itv NegInf (Fin (qc (-1) 2)) (qc (-3) 2) /\
  ext_eqb (min4 (emul (Fin (qc 0 1)) NegInf) (emul (Fin (qc 0 1)) (Fin (qc (-1) 2))) (emul PosInf NegInf) (emul PosInf (Fin (qc (-1) 2)))) NegInf = true /\
  ext_eqb (max4 (emul (Fin (qc 0 1)) NegInf) (emul (Fin (qc 0 1)) (Fin (qc (-1) 2))) (emul PosInf NegInf) (emul PosInf (Fin (qc (-1) 2)))) (Fin (qc 0 1)) = true.
Proof. repeat split; try exact I; vm_compute; try reflexivity; discriminate. Qed.

(* C23 — The model only stores type-correct values.
   Only statements; each is closed by [exact] of a lemma from Proofs/TypedStore_proofs.v.
   Model: Model/TypedStore.v (Problem(initial_defaults), add_fluent, set_initial_value, add_effect / add_increase_effect /
   add_decrease_effect / add_timed_effect of InstantaneousAction, DurativeAction and Problem, ActionInstance;
   [compatible] mirrors is_compatible_type).  [h] is the user-type hierarchy, arbitrary. *)
From Coq Require Import List ZArith NArith QArith Bool.
Import ListNotations.
Require Import UPV.Model.TypedStore UPV.Proofs.TypedStore_proofs.

(* the invariant, over ANY history of model-building calls (accepted or rejected) after ANY accepted constructor call:
   every per-type default, per-fluent default (against the type of ITS fluent), explicit initial value, effect value
   and action-instance parameter is compatible with its target; defaults, initial values and parameters are constants *)
Theorem C23_stored_values_type_correct :
  forall h ds s ops, mk_problem h ds = Some s ->
    let s' := run h s ops in
    (forall t v, In (t, v) (type_defaults s') -> compatible h t (type_of v) && is_constant v = true) /\
    (forall f t v, In (f, t, v) (fluent_defaults s') ->
       In (f, t) (fluents s') /\ compatible h t (type_of v) && is_constant v = true) /\
    (forall k t v, In (k, (t, v)) (init_values s') -> compatible h t (type_of v) && is_constant v = true) /\
    (forall st k t v, In (st, k, t, v) (effects s') -> compatible h t (type_of v) = true) /\
    (forall ps t v, In ps (instances s') -> In (t, v) ps -> compatible h t (type_of v) && is_constant v = true).
Proof. exact store_invariant. Qed.
Print Assumptions C23_stored_values_type_correct.

(* the invariant is preserved by every single call from every well-typed store (e.g. a cloned problem) *)
Theorem C23_every_call_preserves :
  forall h s o, well_typed h s -> well_typed h (fst (step h s o)).
Proof. exact step_well_typed. Qed.
Print Assumptions C23_every_call_preserves.

Theorem C23_rejected_call_leaves_model_unchanged :
  forall h s o, snd (step h s o) = true -> fst (step h s o) = s.
Proof. exact step_rejected_unchanged. Qed.
Print Assumptions C23_rejected_call_leaves_model_unchanged.

(* Problem(initial_defaults=...) raises exactly when some per-type default is not a compatible constant *)
Theorem C23_constructor_rejects_bad_type_defaults :
  forall h ds, mk_problem h ds = None <->
    exists t v, In (t, v) ds /\ promotable v && is_constant v && compatible h t (type_of v) = false.
Proof. exact mk_problem_rejects. Qed.
Print Assumptions C23_constructor_rejects_bad_type_defaults.

(* calls that would store an incompatible (or, where required, non-constant) value are rejected *)
Theorem C23_bad_default_rejected :
  forall h s f t v, compatible h t (type_of v) && is_constant v = false -> snd (add_fluent h s f t (Some v)) = true.
Proof. exact bad_default_rejected. Qed.
Print Assumptions C23_bad_default_rejected.

Theorem C23_bad_initial_value_rejected :
  forall h s key t ac v, compatible h t (type_of v) && is_constant v = false ->
    snd (set_initial_value h s key t ac v) = true.
Proof. exact bad_initial_value_rejected. Qed.
Print Assumptions C23_bad_initial_value_rejected.

Theorem C23_bad_effect_value_rejected :
  forall h s st k t v cb tk cf, compatible h t (type_of v) = false -> snd (add_effect h s st k t v cb tk cf) = true.
Proof. exact bad_effect_value_rejected. Qed.
Print Assumptions C23_bad_effect_value_rejected.

Theorem C23_bad_parameter_rejected :
  forall h s ps t v, In (t, v) ps -> compatible h t (type_of v) && is_constant v = false ->
    snd (action_instance h s ps) = true.
Proof. exact bad_parameter_rejected. Qed.
Print Assumptions C23_bad_parameter_rejected.

Definition nv_h : hier := [(0%N, None); (1%N, Some 0%N)].            (* type 1 is a subtype of type 0 *)
Definition nv_ds : list (ty * val) := [(TBool, VBool false); (TReal None None, VInt 0)].
Definition nv_ops : list op :=
  [ OpAddFluent 1 TBool (Some (VInt 5))                               (* defect 26: rejected *)
  ; OpAddFluent 1 TBool None                                          (* takes the per-type default False *)
  ; OpAddFluent 2 (TInt (Some 0%Z) (Some 10%Z)) (Some (VInt 3))
  ; OpSetInit 7 (TUser 0) true (VObj 4 1)                             (* object of the subtype: accepted *)
  ; OpSetInit 8 (TUser 1) true (VObj 5 0)                             (* object of the supertype: rejected *)
  ; OpSetInit 9 (TReal None None) true (VExpr 3 (TReal None None))    (* non-constant: rejected *)
  ; OpAddEffect SDur EIncrease (TInt (Some 0%Z) (Some 10%Z)) (VExpr 3 (TInt None None)) true true false
  ; OpInstance [(TUser 0, VObj 4 1); (TInt None None, VInt 2)] ].

Example C23_stored_values_type_correct_nonvacuous :
  exists s, mk_problem nv_h nv_ds = Some s /\
    length (fluents (run nv_h s nv_ops)) = 2%nat /\ length (fluent_defaults (run nv_h s nv_ops)) = 2%nat /\
    length (init_values (run nv_h s nv_ops)) = 1%nat /\ length (effects (run nv_h s nv_ops)) = 1%nat /\
    length (instances (run nv_h s nv_ops)) = 1%nat.
Proof. eexists. split; [reflexivity|]. repeat split; reflexivity. Qed.

Example C23_rejected_call_nonvacuous :
  exists s, mk_problem nv_h nv_ds = Some s /\ snd (step nv_h s (OpAddFluent 1 TBool (Some (VInt 5)))) = true
    /\ mk_problem nv_h [(TBool, VInt 5)] = None.
Proof. eexists. split; [reflexivity|]. split; reflexivity. Qed.

Example C23_bad_values_nonvacuous :
  compatible nv_h TBool (type_of (VInt 5)) && is_constant (VInt 5) = false /\
  compatible nv_h (TUser 1) (type_of (VObj 5 0)) = false /\
  compatible nv_h (TReal None None) (type_of (VInt 0)) = true /\
  compatible nv_h (TInt None None) (type_of (VReal 1)) = false /\
  compatible nv_h (TInt (Some 3%Z) None) (type_of (VInt 2)) = false.
Proof. repeat split; reflexivity. Qed.

(* C08, Layer A part — "every compiled problem is well formed", PROVED for the Layer A compiler models, for ALL problems.
   Definitions: Compilers/LayerA_Wf.v ([wf_problem] = the counterpart of C08's checker wf_np on Planning/Problem.problem,
   plus "no free variables"); proofs: Proofs/LayerA_Wf_proofs.v.  Order: state-invariants remover, bounded-types remover,
   quantifiers remover, conditional-effects remover, negative-conditions remover, grounder, disjunctive-conditions
   remover.  External behaviour (simplifier, fresh names, DNF walker, negative-fluent rewriting, the grounder's
   parameter tuples) enters as explicit hypotheses, stated beside each theorem. *)
From Coq Require Import List ZArith NArith QArith Qcanon Bool Lia Cantor.
Import ListNotations.
Require Import UPV.Core.Expr UPV.Core.Eval UPV.Core.Interp UPV.Planning.Problem UPV.Planning.Sem UPV.Planning.Ground.
Require Import UPV.Walkers.Subst.
Require Import UPV.Compilers.Variants UPV.Compilers.LayerA_Defs UPV.Compilers.LayerA_Quant UPV.Compilers.LayerA_Inv
  UPV.Compilers.LayerA_Variants UPV.Compilers.LayerA_Ground UPV.Compilers.LayerA_Neg UPV.Compilers.LayerA_Wf.
Require Import UPV.Proofs.LayerA_Wf_proofs.

(* the clause code used by the correspondence is 0 exactly on the well-formed problems *)
Theorem C08_LA_wf_code_zero : forall P, wf_la_code P = 0%N <-> wf_problem P = true.
Proof. exact wf_la_code_zero. Qed.
Print Assumptions C08_LA_wf_code_zero.

(* 1. StateInvariantsRemover.  Hypothesis: the simplifier introduces nothing undeclared (keeps_wf). *)
Theorem C08_LA_sir_wf : forall smp P, keeps_wf (denv_of P) smp -> wf_problem P = true ->
  wf_problem (sir_compile smp P) = true /\ no_invariants (sir_compile smp P) = true.
Proof. exact sir_wf. Qed.
Print Assumptions C08_LA_sir_wf.

(* 2. BoundedTypesRemover.  Same hypothesis.  The bound constraints it adds are well formed by themselves
   (bound_invs_wf: every ground instance of a declared fluent over declared objects). *)
Theorem C08_LA_btr_wf : forall smp P, keeps_wf (denv_of P) smp -> wf_problem P = true ->
  wf_problem (btr_compile smp P) = true /\ no_bounded (btr_compile smp P) = true.
Proof. exact btr_wf. Qed.
Print Assumptions C08_LA_btr_wf.

(* 3. QuantifiersRemover.  keeps_wf for the result; "the simplifier does not invent quantifiers" (keeps qf) for the
   promised shape: no quantifier in any precondition / effect condition / effect value / goal / invariant, no forall
   effect.  The expansion itself is quantifier free without any side condition. *)
Theorem C08_LA_expand_quantifier_free : forall ob e, qf (expand ob e) = true.
Proof. exact qf_expand'. Qed.
Print Assumptions C08_LA_expand_quantifier_free.

Theorem C08_LA_quant_wf : forall smp P, keeps_wf (denv_of P) smp -> wf_problem P = true ->
  wf_problem (quant_compile smp P) = true /\ (keeps qf smp -> quantifier_free (quant_compile smp P) = true).
Proof. exact quant_wf. Qed.
Print Assumptions C08_LA_quant_wf.

(* 4. ConditionalEffectsRemover.  Hypotheses: check_and_simplify_preconditions introduces nothing undeclared
   (simp_pre_wf); fresh names are pairwise different and new (nm_inj, nm_fresh: C08_fresh_name_is_fresh /
   C08_fresh_names_nodup); and the side condition cer_side: the condition of a conditional effect does not mention the
   effect's forall variables. *)
Theorem C08_LA_cer_wf : forall simp_pre nm P, simp_pre_wf (denv_of P) simp_pre -> nm_inj nm -> nm_fresh nm P ->
  cer_side P = true -> wf_problem P = true ->
  wf_problem (cer_compile simp_pre nm P) = true /\ no_cond_effects (cer_compile simp_pre nm P) = true.
Proof. exact cer_wf. Qed.
Print Assumptions C08_LA_cer_wf.

(* 5. NegativeConditionsRemover.  Hypotheses: the rewriting maps expressions over the original declarations to
   expressions over the compiled ones (it introduces only the negation fluents the compiler declares), keeps_wf for the
   compiled declarations, and the negation fluents are new and pairwise different (nmap_fresh, decidable). *)
Theorem C08_LA_neg_wf : forall nmap rw smp P,
  (forall ps B e, wfx (denv_of P) ps B e = true -> wfx (denv_of (neg_compile nmap rw smp P)) ps B (rw e) = true) ->
  keeps_wf (denv_of (neg_compile nmap rw smp P)) smp ->
  nmap_fresh nmap P = true -> wf_problem P = true -> wf_problem (neg_compile nmap rw smp P) = true.
Proof. exact neg_wf. Qed.
Print Assumptions C08_LA_neg_wf.

Theorem C08_LA_neg_shape : forall nmap rw smp P, (forall e, neg_free (rw e) = true) -> keeps neg_free smp ->
  negation_free (neg_compile nmap rw smp P) = true.
Proof. exact neg_shape. Qed.
Print Assumptions C08_LA_neg_shape.

(* 6. Grounder.  Hypotheses: keeps_wf (the grounder's Simplifier(env, problem) folds static fluents to declared
   constants), fresh names, and tuples_ok: the enumerated tuples have the action's arity and consist of declared
   objects / constants.  Result: well formed, no action has parameters, hence no parameter occurs anywhere. *)
Theorem C08_LA_ground_wf : forall smp tuples nm P, keeps_wf (denv_of P) smp -> nm_inj nm -> nm_fresh nm P ->
  tuples_ok P tuples -> wf_problem P = true ->
  wf_problem (ground_compile smp tuples nm P) = true /\ ground_problem (ground_compile smp tuples nm P) = true.
Proof. exact ground_wf. Qed.
Print Assumptions C08_LA_ground_wf.

Theorem C08_LA_ground_param_free : forall D B e, wfx D [] B e = true -> param_free e = true.
Proof. exact wfx_param_free. Qed.
Print Assumptions C08_LA_ground_param_free.

(* 7. DisjunctiveConditionsRemover (goals kept: no auxiliary goal action).  Hypotheses: the DNF walker returns
   disjuncts / literals over the condition's own atoms (cdnf_wf, pre_dnf_wf), fresh names, well-formed goal conjuncts. *)
Theorem C08_LA_dcr_wf : forall cdnf pre_dnf nm P, cdnf_wf (denv_of P) cdnf -> pre_dnf_wf (denv_of P) pre_dnf ->
  forall goals', nm_inj nm -> nm_fresh nm P -> forallb (wfx (denv_of P) [] []) goals' = true -> wf_problem P = true ->
  wf_problem (dcr_compile cdnf pre_dnf nm P goals') = true.
Proof. exact dcr_wf. Qed.
Print Assumptions C08_LA_dcr_wf.

(* totality: the conflict exception of _add_effect_instance cannot escape — every action a model keeps has a
   conflict-free effect list (the others are left out, as the real `except UPConflictingEffectsException` does) *)
Theorem C08_LA_quant_kept_conflict_free : forall smp P a a', q_action smp P a = Some a' -> add_effs_ok [] [] (a_effs a') = true.
Proof. exact q_action_conflict_free. Qed.
Print Assumptions C08_LA_quant_kept_conflict_free.
Theorem C08_LA_ground_kept_conflict_free : forall smp a args g, g_action smp a args = Some g -> add_effs_ok [] [] (a_effs g) = true.
Proof. exact g_action_conflict_free. Qed.
Print Assumptions C08_LA_ground_kept_conflict_free.
Theorem C08_LA_cer_kept_conflict_free : forall simp_pre a v, In v (cer_variants simp_pre a) ->
  add_effs_ok [] [] (a_effs v) = true /\ a_effs v <> [].
Proof. exact cer_variants_conflict_free. Qed.
Print Assumptions C08_LA_cer_kept_conflict_free.
Theorem C08_LA_dcr_kept_conflict_free : forall cdnf a pd v, In v (dnf_variants cdnf a pd) ->
  add_effs_ok [] [] (a_effs v) = true /\ a_effs v <> [].
Proof. exact dnf_variants_conflict_free. Qed.
Print Assumptions C08_LA_dcr_kept_conflict_free.

Definition mkeff f args v c k vars b : effect :=
  {| e_fl := f; e_args := args; e_val := v; e_cond := c; e_kind := k; e_vars := vars; e_isbool := b |}.

(* type 0 = {0, 1};  p(x : 0) Boolean, n : [0, 5];  act0(x): p(x), exists y. not p(y) |-> if n < 3 then p(x) := false;
   forall z. p(z) := true; n += 1;  act1: n := 0;  goal forall y. p(y);  invariant n <= 5 *)
Definition EX : problem :=
  {| p_objs := [(0, [0; 1])]%N; p_ifun := [];
     p_fluents := [ {| fd_id := 0%N; fd_sig := [0%N]; fd_ty := FBool |};
                    {| fd_id := 1%N; fd_sig := []; fd_ty := FNum (Some (zq 0)) (Some (zq 5)) |} ];
     p_actions := [ (0%N, {| a_params := [0%N];
                             a_pre := [EFluent 0 [EParam 0]; EExists [(0, 0)]%N (ENot (EFluent 0 [EVar 0 0]))];
                             a_effs := [ mkeff 0%N [EParam 0] (EBool false) (ELt (EFluent 1 []) (EInt 3)) KAssign [] true;
                                         mkeff 0%N [EVar 1 0] (EBool true) (EBool true) KAssign [(1, 0)]%N true;
                                         mkeff 1%N [] (EInt 1) (EBool true) KInc [] false ] |});
                    (1%N, {| a_params := []; a_pre := [];
                             a_effs := [ mkeff 1%N [] (EInt 0) (EBool true) KAssign [] false ] |}) ];
     p_goals := [EForall [(0, 0)]%N (EFluent 0 [EVar 0 0])];
     p_invs := [ELe (EFluent 1 []) (EInt 5)] |}.

Definition id_smp (e : expr) : expr := e.
Lemma id_keeps_wf D : keeps_wf D id_smp. Proof. intros ps B e H. exact H. Qed.
Lemma id_keeps q : keeps q id_smp. Proof. intros e H. exact H. Qed.

(* an injective fresh-name function: Cantor pairing above every id in use *)
Definition nm0 (i : N) (k : nat) : N := (N.of_nat (Cantor.to_nat (N.to_nat i, k)) + 100)%N.
Lemma nm0_inj : nm_inj nm0.
Proof.
  intros i k i' k' H. unfold nm0 in H. apply N.add_cancel_r in H. apply Nat2N.inj in H.
  apply (f_equal Cantor.of_nat) in H. rewrite !Cantor.cancel_of_to in H. inversion H as [[H1 H2]].
  apply N2Nat.inj in H1. auto.
Qed.
Lemma nm0_fresh : nm_fresh nm0 EX.
Proof. intros i k H. cbn in H. unfold nm0 in H. destruct H as [H|[H|[]]]; lia. Qed.

Example C08_LA_sir_wf_nonvacuous :
  keeps_wf (denv_of EX) id_smp /\ wf_problem EX = true /\ p_invs EX <> [] /\
  wf_problem (sir_compile id_smp EX) = true /\ List.length (p_goals (sir_compile id_smp EX)) = 2%nat.
Proof.
  split; [apply id_keeps_wf|]. split; [vm_compute; reflexivity|]. split; [discriminate|]. split.
  - apply C08_LA_sir_wf; [apply id_keeps_wf|vm_compute; reflexivity].
  - vm_compute. reflexivity.
Qed.

Example C08_LA_btr_wf_nonvacuous :
  no_bounded EX = false /\ wf_problem (btr_compile id_smp EX) = true /\ no_bounded (btr_compile id_smp EX) = true.
Proof. split; [vm_compute; reflexivity|]. apply C08_LA_btr_wf; [apply id_keeps_wf|vm_compute; reflexivity]. Qed.

Example C08_LA_quant_wf_nonvacuous :
  quantifier_free EX = false /\ wf_problem (quant_compile id_smp EX) = true /\ quantifier_free (quant_compile id_smp EX) = true /\
  List.length (a_effs (snd (hd (0%N, {| a_params := []; a_pre := []; a_effs := [] |}) (p_actions (quant_compile id_smp EX))))) = 4%nat.
Proof.
  split; [vm_compute; reflexivity|]. destruct (C08_LA_quant_wf id_smp EX (id_keeps_wf _) eq_refl) as [H1 H2].
  split; [exact H1|]. split; [apply H2; apply id_keeps|]. vm_compute. reflexivity.
Qed.

Example C08_LA_cer_wf_nonvacuous :
  no_cond_effects EX = false /\ cer_side EX = true /\
  wf_problem (cer_compile (fun l => Some l) nm0 EX) = true /\ no_cond_effects (cer_compile (fun l => Some l) nm0 EX) = true /\
  List.length (p_actions (cer_compile (fun l => Some l) nm0 EX)) = 3%nat.
Proof.
  split; [vm_compute; reflexivity|]. split; [vm_compute; reflexivity|].
  destruct (C08_LA_cer_wf (fun l => Some l) nm0 EX) as [H1 H2]; try (vm_compute; reflexivity).
  - intros ps l l' H E. inversion E; subst. exact H.
  - exact nm0_inj.
  - exact nm0_fresh.
  - split; [exact H1|]. split; [exact H2|]. vm_compute. reflexivity.
Qed.

(* without the side condition the statement is false of the model: a forall effect whose condition mentions its
   variable becomes a precondition with a free variable.  The REAL ConditionalEffectsRemover raises
   UPUnboundedVariablesError on such a problem (finding C08-cer-forall-condition). *)
Definition EXC : problem :=
  {| p_objs := [(0, [0; 1])]%N; p_ifun := [];
     p_fluents := [ {| fd_id := 0%N; fd_sig := [0%N]; fd_ty := FBool |}; {| fd_id := 1%N; fd_sig := [0%N]; fd_ty := FBool |} ];
     p_actions := [ (0%N, {| a_params := []; a_pre := [];
                             a_effs := [ mkeff 1%N [EVar 0 0] (EBool true) (EFluent 0 [EVar 0 0]) KAssign [(0, 0)]%N true ] |}) ];
     p_goals := []; p_invs := [] |}.
Theorem C08_LA_cer_wf_without_side_condition_refuted :
  exists P, wf_problem P = true /\ cer_side P = false /\ wf_problem (cer_compile (fun l => Some l) nm0 P) = false.
Proof. exists EXC. repeat split; vm_compute; reflexivity. Qed.
Print Assumptions C08_LA_cer_wf_without_side_condition_refuted.

Example C08_LA_neg_wf_nonvacuous :
  wf_problem (neg_compile [(0, 2)]%N id_smp id_smp EX) = true /\
  List.length (p_fluents (neg_compile [(0, 2)]%N id_smp id_smp EX)) = 3%nat /\
  List.length (a_effs (snd (hd (0%N, {| a_params := []; a_pre := []; a_effs := [] |})
                               (p_actions (neg_compile [(0, 2)]%N id_smp id_smp EX))))) = 5%nat.
Proof.
  split; [|split; vm_compute; reflexivity].
  apply C08_LA_neg_wf; try (vm_compute; reflexivity); [|apply id_keeps_wf].
  intros ps B e H. unfold id_smp at 2. eapply wfx_dle; [apply neg_dle|exact H].
Qed.

Example C08_LA_neg_shape_nonvacuous :
  negation_free (neg_compile [(0, 2)]%N (fun _ => EBool true) id_smp EX) = true /\ negation_free EX = false.
Proof. split; [apply C08_LA_neg_shape; [reflexivity|apply id_keeps] | vm_compute; reflexivity]. Qed.

Definition tup0 (i : N) : list (list value) := if (i =? 0)%N then [[VObj 0]; [VObj 1]] else [[]].
Example C08_LA_ground_wf_nonvacuous :
  ground_problem EX = false /\ tuples_ok EX tup0 /\
  wf_problem (ground_compile id_smp tup0 nm0 EX) = true /\ ground_problem (ground_compile id_smp tup0 nm0 EX) = true /\
  List.length (p_actions (ground_compile id_smp tup0 nm0 EX)) = 3%nat.
Proof.
  assert (Ht : tuples_ok EX tup0).
  { intros i a args Hin Ha. cbn in Hin. destruct Hin as [E|[E|[]]]; inversion E; subst; cbn in Ha.
    - destruct Ha as [<-|[<-|[]]]; split; reflexivity.
    - destruct Ha as [<-|[]]; split; reflexivity. }
  split; [vm_compute; reflexivity|]. split; [exact Ht|].
  destruct (C08_LA_ground_wf id_smp tup0 nm0 EX (id_keeps_wf _) nm0_inj nm0_fresh Ht eq_refl) as [H1 H2].
  split; [exact H1|]. split; [exact H2|]. vm_compute. reflexivity.
Qed.

Example C08_LA_dcr_wf_nonvacuous :
  wf_problem (dcr_compile (fun c => [c]) (fun a => [a_pre a]) nm0 EX (p_goals EX)) = true /\
  List.length (p_actions (dcr_compile (fun c => [c]) (fun a => [a_pre a]) nm0 EX (p_goals EX))) = 2%nat.
Proof.
  split; [|vm_compute; reflexivity]. apply C08_LA_dcr_wf; try (vm_compute; reflexivity).
  - intros ps B c d H [<-|[]]. exact H.
  - intros a d x Hw [<-|[]] Hx. unfold wf_action in Hw. apply andb_true_iff in Hw. destruct Hw as [Hw _].
    apply andb_true_iff in Hw. destruct Hw as [_ Hw]. rewrite forallb_forall in Hw. auto.
  - exact nm0_inj.
  - exact nm0_fresh.
Qed.

(* 7b. DisjunctiveConditionsRemover, the promised shape: no precondition, effect condition or goal of the compiled
   problem is a disjunction.  Hypotheses: the DNF walker's disjuncts of an effect condition and the literals of a
   precondition disjunct are not disjunctions themselves (C12), and neither are the goal conjuncts handed over. *)
Theorem C08_LA_dcr_shape : forall cdnf pre_dnf nm P goals',
  (forall c d, In d (cdnf c) -> is_or d = false) ->
  (forall a d x, In d (pre_dnf a) -> In x d -> is_or x = false) ->
  forallb (fun g => negb (is_or g)) goals' = true ->
  dcr_shape (dcr_compile cdnf pre_dnf nm P goals') = true.
Proof. exact dcr_shape_ok. Qed.
Print Assumptions C08_LA_dcr_shape.

(* a walker for the example: an Or is split into its arguments, anything else is its own single disjunct / literal *)
Definition or_args (c : expr) : list expr := match c with EOr l => filter (fun x => negb (is_or x)) l | _ => [c] end.
Definition EXD : problem :=
  {| p_objs := []; p_ifun := [];
     p_fluents := [ {| fd_id := 0%N; fd_sig := []; fd_ty := FBool |}; {| fd_id := 1%N; fd_sig := []; fd_ty := FBool |} ];
     p_actions := [ (0%N, {| a_params := []; a_pre := [EOr [EFluent 0 []; EFluent 1 []]];
                             a_effs := [ mkeff 0%N [] (EBool true) (EOr [EFluent 0 []; ENot (EFluent 1 [])]) KAssign [] true ] |}) ];
     p_goals := [EFluent 0 []]; p_invs := [] |}.
Example C08_LA_dcr_shape_nonvacuous :
  dcr_shape EXD = false /\
  dcr_shape (dcr_compile or_args (fun a => map (fun x => [x]) (flat_map or_args (a_pre a))) nm0 EXD (p_goals EXD)) = true /\
  List.length (p_actions (dcr_compile or_args (fun a => map (fun x => [x]) (flat_map or_args (a_pre a))) nm0 EXD (p_goals EXD))) = 2%nat.
Proof.
  split; [vm_compute; reflexivity|]. split; [|vm_compute; reflexivity]. apply C08_LA_dcr_shape.
  - intros c d H. unfold or_args in H. destruct c; try (destruct H as [<-|[]]; reflexivity).
    apply filter_In in H. destruct H as [_ H]. apply negb_true_iff in H. exact H.
  - intros a d x Hd Hx. apply in_map_iff in Hd. destruct Hd as [y [<- Hy]]. destruct Hx as [<-|[]].
    apply in_flat_map in Hy. destruct Hy as [c [_ Hy]]. unfold or_args in Hy.
    destruct c; try (destruct Hy as [<-|[]]; reflexivity).
    apply filter_In in Hy. destruct Hy as [_ Hy]. apply negb_true_iff in Hy. exact Hy.
  - vm_compute. reflexivity.
Qed.

(* C33 -- ProblemKind ordering is a lattice consistent with equality and hashing.
   Only statements; each is closed by [exact] of a lemma from Proofs/Kind_proofs.v / Kind_gen_proofs.v.
   [T : tables] is ANY feature universe / version table / upgrade-rule table; Gen_Kind.gen_tables is the one regenerated
   from problem_kind.py and problem_kind_versioning.py on every run.  [Ok] = the Python call returned;
   [KeyErr]/[AssertErr] = it raised.  Reading fixed in DESIGN.md 6.00: the order laws are stated for kinds of one
   version; across versions the statements are "the older operand is upgraded" and "upgrading preserves <=". *)
From Coq Require Import List ZArith NArith Bool.
Import ListNotations.
Require Import UPV.Model.Kind UPV.Proofs.Kind_proofs UPV.Gen.Gen_Kind UPV.Proofs.Kind_gen_proofs.

Theorem C33_le_reflexive : forall T a, le T a a = Ok true.
Proof. exact le_refl. Qed.
Print Assumptions C33_le_reflexive.

Theorem C33_le_transitive :
  forall T a b c, version T a = version T b -> version T b = version T c ->
    le T a b = Ok true -> le T b c = Ok true -> le T a c = Ok true.
Proof. exact le_trans. Qed.
Print Assumptions C33_le_transitive.

Theorem C33_le_antisymmetric_wrt_eq :
  forall T a b, version T a = version T b -> le T a b = Ok true -> le T b a = Ok true -> keq T a b = true.
Proof. exact le_antisym. Qed.
Print Assumptions C33_le_antisymmetric_wrt_eq.

Theorem C33_eq_implies_le_both_ways :
  forall T a b, keq T a b = true -> le T a b = Ok true /\ le T b a = Ok true.
Proof. exact keq_le. Qed.
Print Assumptions C33_eq_implies_le_both_ways.

(* == is exactly: same version and same valid features *)
Theorem C33_eq_characterisation :
  forall T a b, keq T a b = true <-> version T a = version T b /\ canon T a = canon T b.
Proof. exact keq_spec. Qed.
Print Assumptions C33_eq_characterisation.

(* union returns (the constructor's assertions hold), keeps the version, is an upper bound and the least one *)
Theorem C33_union_is_lub :
  forall T a b, wf T a = true -> wf T b = true -> version T a = version T b ->
    exists u, union T a b = Ok u /\ version T u = version T a /\ wf T u = true
      /\ le T a u = Ok true /\ le T b u = Ok true
      /\ forall c, version T c = version T a -> le T a c = Ok true -> le T b c = Ok true -> le T u c = Ok true.
Proof. exact union_lub. Qed.
Print Assumptions C33_union_is_lub.

Theorem C33_intersection_is_glb :
  forall T a b, wf T a = true -> wf T b = true -> version T a = version T b ->
    exists m, inter T a b = Ok m /\ version T m = version T a /\ wf T m = true
      /\ le T m a = Ok true /\ le T m b = Ok true
      /\ forall c, version T c = version T a -> le T c a = Ok true -> le T c b = Ok true -> le T c m = Ok true.
Proof. exact inter_glb. Qed.
Print Assumptions C33_intersection_is_glb.

(* [h] is Python's hash on feature strings: arbitrary *)
Theorem C33_equal_kinds_equal_hashes :
  forall T (h : N -> Z) a b, keq T a b = true -> khash T h a = khash T h b.
Proof. exact keq_hash. Qed.
Print Assumptions C33_equal_kinds_equal_hashes.

(* comparing kinds of different versions = comparing after upgrading the older one to the newer version *)
Theorem C33_cross_version_upgrades_older_left :
  forall T a b a', (version T a <= version T b)%N -> upgraded T a (version T b) = Some a' -> le T a b = le T a' b.
Proof. exact le_cross_version_l. Qed.
Print Assumptions C33_cross_version_upgrades_older_left.

Theorem C33_cross_version_upgrades_older_right :
  forall T a b b', (version T b <= version T a)%N -> upgraded T b (version T a) = Some b' -> le T a b = le T a b'.
Proof. exact le_cross_version_r. Qed.
Print Assumptions C33_cross_version_upgrades_older_right.

Theorem C33_cross_version_union :
  forall T a b a', (version T a <= version T b)%N -> upgraded T a (version T b) = Some a' -> union T a b = union T a' b.
Proof. exact union_cross_version_l. Qed.
Print Assumptions C33_cross_version_union.

Theorem C33_cross_version_intersection :
  forall T a b a', (version T a <= version T b)%N -> upgraded T a (version T b) = Some a' -> inter T a b = inter T a' b.
Proof. exact inter_cross_version_l. Qed.
Print Assumptions C33_cross_version_intersection.

(* the regenerated tables satisfy the decidable sanity conditions the next theorems need (checked by computation) *)
Theorem C33_gen_tables_ok : tables_ok gen_tables = true.
Proof. exact gen_tables_ok. Qed.
Print Assumptions C33_gen_tables_ok.

(* upgrading preserves <= : for any tables passing [tables_ok] ... *)
Theorem C33_upgrade_preserves_le :
  forall T, tables_ok T = true ->
  forall a b w a', wf T a = true -> wf T b = true -> version T a = version T b ->
    (version T a <= w <= t_latest T)%N ->
    le T a b = Ok true -> upgraded T a w = Some a' ->
    exists b', upgraded T b w = Some b' /\ wf T a' = true /\ wf T b' = true /\ le T a' b' = Ok true.
Proof. exact upgrade_monotone. Qed.
Print Assumptions C33_upgrade_preserves_le.

(* ... in particular for the current source *)
Theorem C33_upgrade_preserves_le_current_source :
  forall a b w a', wf gen_tables a = true -> wf gen_tables b = true -> version gen_tables a = version gen_tables b ->
    (version gen_tables a <= w <= LATEST_PROBLEM_KIND_VERSION)%N ->
    le gen_tables a b = Ok true -> upgraded gen_tables a w = Some a' ->
    exists b', upgraded gen_tables b w = Some b' /\ wf gen_tables a' = true /\ wf gen_tables b' = true
               /\ le gen_tables a' b' = Ok true.
Proof. exact (upgrade_monotone gen_tables gen_tables_ok). Qed.
Print Assumptions C33_upgrade_preserves_le_current_source.

(* the older operand can always be upgraded (no KeyError), so <= between constructible kinds up to LATEST returns *)
Theorem C33_upgrade_defined :
  forall T, tables_ok T = true ->
  forall a w, wf T a = true -> (version T a <= w <= t_latest T)%N ->
    exists a', upgraded T a w = Some a' /\ wf T a' = true /\ version T a' = w.
Proof. exact upgraded_defined. Qed.
Print Assumptions C33_upgrade_defined.

Theorem C33_le_defined_current_source :
  forall a b, wf gen_tables a = true -> wf gen_tables b = true ->
    (version gen_tables a <= LATEST_PROBLEM_KIND_VERSION)%N -> (version gen_tables b <= LATEST_PROBLEM_KIND_VERSION)%N ->
    exists r, le gen_tables a b = Ok r.
Proof. exact (le_defined gen_tables gen_tables_ok). Qed.
Print Assumptions C33_le_defined_current_source.

(* __le__ strips its operands in place (intersection_update on the stored sets); the stripped operands are == to the
   originals and hash the same, so a kind used as a dict key stays findable (this failed before fix c30308e) *)
Theorem C33_le_side_effect_harmless :
  forall T, tables_ok T = true ->
  forall a b r fa' fb', wf T a = true -> wf T b = true -> le_mut T a b = Ok (r, fa', fb') ->
    le T a b = Ok r
    /\ keq T {| k_feats := fa'; k_ver := k_ver a |} a = true
    /\ keq T {| k_feats := fb'; k_ver := k_ver b |} b = true
    /\ forall h, khash T h {| k_feats := fa'; k_ver := k_ver a |} = khash T h a
              /\ khash T h {| k_feats := fb'; k_ver := k_ver b |} = khash T h b.
Proof. exact le_mut_harmless. Qed.
Print Assumptions C33_le_side_effect_harmless.

(* non-vacuity (concrete kinds over the current source) *)
Definition K (l : list N) (v : option N) : kind := {| k_feats := mask_of l; k_ver := v |}.

Example C33_le_transitive_nonvacuous :
  let a := K [f_ACTION_BASED] (Some 3%N) in
  let b := K [f_ACTION_BASED; f_NUMERIC_FLUENTS; f_INT_FLUENTS] None in      (* version 2 is computed... *)
  let b3 := K [f_ACTION_BASED; f_PROCESSES] None in                          (* ... and here 3 *)
  let c := K [f_ACTION_BASED; f_PROCESSES; f_EVENTS] (Some 3%N) in
  version gen_tables b = 2%N /\ version gen_tables a = version gen_tables b3 /\ version gen_tables b3 = version gen_tables c
  /\ le gen_tables a b3 = Ok true /\ le gen_tables b3 c = Ok true /\ le gen_tables c b3 = Ok false.
Proof. vm_compute. repeat split. Qed.

Example C33_antisymmetry_nonvacuous :       (* two different stored sets, == and <= both ways: a deprecated feature *)
  let a := K [f_INT_FLUENTS; f_NUMERIC_FLUENTS] None in
  let b := K [f_INT_FLUENTS] None in
  k_feats a <> k_feats b /\ version gen_tables a = version gen_tables b
  /\ le gen_tables a b = Ok true /\ le gen_tables b a = Ok true /\ keq gen_tables a b = true.
Proof. vm_compute. repeat split. discriminate. Qed.

Example C33_lattice_nonvacuous :
  let a := K [f_ACTION_BASED; f_CONTINUOUS_TIME] (Some 2%N) in
  let b := K [f_ACTION_BASED; f_INT_FLUENTS] None in
  wf gen_tables a = true /\ wf gen_tables b = true /\ version gen_tables a = version gen_tables b
  /\ union gen_tables a b = Ok (K [f_ACTION_BASED; f_CONTINUOUS_TIME; f_INT_FLUENTS] (Some 2%N))
  /\ inter gen_tables a b = Ok (K [f_ACTION_BASED] (Some 2%N)).
Proof. vm_compute. repeat split. Qed.

Example C33_cross_version_nonvacuous :
  let a := K [f_CONTINUOUS_NUMBERS; f_NUMERIC_FLUENTS; f_ACTIONS_COST] (Some 1%N) in
  let b := K [f_REAL_FLUENTS; f_ACTIONS_COST; f_INT_NUMBERS_IN_ACTIONS_COST; f_REAL_NUMBERS_IN_ACTIONS_COST] None in
  (version gen_tables a <= version gen_tables b)%N
  /\ upgraded gen_tables a (version gen_tables b)
     = Some (K [f_REAL_FLUENTS; f_ACTIONS_COST; f_INT_NUMBERS_IN_ACTIONS_COST; f_REAL_NUMBERS_IN_ACTIONS_COST] (Some 2%N))
  /\ le gen_tables a b = Ok true /\ le gen_tables b a = Ok true
  /\ keq gen_tables a b = false.        (* == never upgrades: kinds of different versions are unequal (design reading) *)
Proof. vm_compute. repeat split; discriminate. Qed.

Example C33_upgrade_preserves_le_nonvacuous :
  let a := K [f_DISCRETE_NUMBERS; f_NUMERIC_FLUENTS] (Some 1%N) in
  let b := K [f_DISCRETE_NUMBERS; f_NUMERIC_FLUENTS; f_DISCRETE_TIME] None in
  wf gen_tables a = true /\ wf gen_tables b = true /\ version gen_tables a = version gen_tables b
  /\ le gen_tables a b = Ok true
  /\ upgraded gen_tables a 3%N = Some (K [f_INT_FLUENTS] (Some 3%N))
  /\ upgraded gen_tables b 3%N = Some (K [f_INT_FLUENTS; f_DISCRETE_TIME; f_INT_TYPE_DURATIONS] (Some 3%N)).
Proof. vm_compute. repeat split. Qed.

Example C33_le_side_effect_nonvacuous :
  let a := K [f_NUMERIC_FLUENTS; f_ACTION_BASED] (Some 2%N) in
  le_mut gen_tables a a = Ok (true, mask_of [f_ACTION_BASED], mask_of [f_ACTION_BASED]) /\ wf gen_tables a = true.
Proof. vm_compute. repeat split. Qed.

(* what fix c30308e repaired: the previous __hash__ (sum over all stored features) separated equal kinds *)
Example C33_hash_before_fix_refuted :
  exists (h : N -> Z) a b, wf gen_tables a = true /\ wf gen_tables b = true /\ keq gen_tables a b = true
    /\ khash_old h a <> khash_old h b /\ khash gen_tables h a = khash gen_tables h b.
Proof.
  exists (fun f => Z.of_N f + 1)%Z, (K [f_INT_FLUENTS; f_NUMERIC_FLUENTS] None), (K [f_INT_FLUENTS] None).
  vm_compute. repeat split; discriminate.
Qed.

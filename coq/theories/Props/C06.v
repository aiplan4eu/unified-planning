(* C06 — Plans of compiled problems map back to valid plans (compiler soundness).
   Level: translation validation.  The quantifier over plans and states is PROVED here (for any two transition
   systems and any map-back table, a [true] answer of the validator covers every compiled plan up to the bound);
   the quantifier over problems is sampled by harness/props/c06.py, which runs the validator on the output of the real
   compilers.  Statements; each is closed by a lemma of Proofs/SimCheck_proofs.v (the validator) or of
   Proofs/LayerA_Quant_proofs.v, LayerA_Inv_proofs.v, LayerA_Variants_proofs.v, LayerA_Ground_proofs.v,
   LayerA_Neg_proofs.v (Layer A). *)
From Coq Require Import List ZArith NArith QArith Qcanon Bool.
Import ListNotations.
Require Import UPV.Core.Expr UPV.Core.Eval UPV.Core.Interp UPV.Planning.Problem UPV.Planning.Sem.
Require Import UPV.Compilers.SimCheck UPV.Proofs.SimCheck_proofs.
Local Open Scope nat_scope.

(* the validator is sound for every plan of the compiled system up to the explored depth: whatever compiled plan
   over the compiled ground instances is valid (documented sequential semantics, state invariants and bounded types,
   PDDL3 trajectory constraints), its image under the compilation result's map-back is valid for the original *)
Theorem C06_sound_check_correct :
  forall (T T' : tsys) (back : inst -> option inst) (n : nat),
    sound_check T T' back n = true ->
    forall pi', plan_over T' pi' -> length pi' <= n -> valid T' pi' = true -> valid T (map_back back pi') = true.
Proof. exact sound_check_correct. Qed.
Print Assumptions C06_sound_check_correct.

(* ... and exact: a [false] answer comes with a compiled plan that is valid while its image is not *)
Theorem C06_sound_search_witness :
  forall (T T' : tsys) (back : inst -> option inst) (n : nat) (w : plan),
    sound_search T T' back n = Some w ->
    plan_over T' w /\ length w <= n /\ valid T' w = true /\ valid T (map_back back w) = false.
Proof. exact sound_search_witness. Qed.
Print Assumptions C06_sound_search_witness.

(* [valid] is the declarative notion: the initial state satisfies invariants and bounded types, the plan is executable
   step by step under [spec_step false], the goals hold in the last state and every trajectory constraint holds by
   its PDDL3 semantics over the state sequence *)
Theorem C06_valid_iff_declarative :
  forall (T : tsys) (pi : plan), valid T pi = true <-> valid_decl T pi.
Proof. exact valid_iff_decl. Qed.
Print Assumptions C06_valid_iff_declarative.

(* without trajectory constraints it is C01/C03's valid_plan *)
Theorem C06_valid_is_valid_plan :
  forall (T : tsys) (pi : plan), ts_traj T = [] ->
    valid T pi = init_ok T && valid_plan false (ts_prob T) (ts_init T) pi.
Proof. exact valid_no_traj. Qed.
Print Assumptions C06_valid_is_valid_plan.

(* the monitor used by the validator decides the PDDL3 semantics of always / sometime / at-most-once /
   sometime-before / sometime-after over a finite state sequence *)
Theorem C06_traj_monitor_decides_pddl3 :
  forall (T : tsys) (sts : list state) (c : expr), traj_holds T sts c = true <-> traj_sem T sts c.
Proof. exact traj_holds_spec. Qed.
Print Assumptions C06_traj_monitor_decides_pddl3.

Module Ex.
  (* one Boolean fluent 0, initially false; action 0 sets it; goal: fluent 0; constraint: sometime-before f0 (not f0) *)
  Definition set0 : action :=
    {| a_params := []; a_pre := [];
       a_effs := [{| e_fl := 0%N; e_args := []; e_val := EBool true; e_cond := EBool true; e_kind := KAssign;
                     e_vars := []; e_isbool := true |}] |}.
  Definition P0 : problem :=
    {| p_objs := []; p_ifun := []; p_fluents := [{| fd_id := 0%N; fd_sig := []; fd_ty := FBool |}];
       p_actions := [(0%N, set0)]; p_goals := [EFluent 0%N []]; p_invs := [] |}.
  Definition s0 : state := fun f a => if (f =? 0)%N then Some (VBool false) else None.
  Definition T0 : tsys :=
    {| ts_prob := P0; ts_init := s0; ts_insts := [(0%N, [])];
       ts_traj := [ESometimeBefore (EFluent 0%N []) (ENot (EFluent 0%N []))] |}.
  (* a "compiled" copy whose action is called 7 and which has an extra auxiliary action 8 without image *)
  Definition P1 : problem :=
    {| p_objs := []; p_ifun := []; p_fluents := [{| fd_id := 0%N; fd_sig := []; fd_ty := FBool |}];
       p_actions := [(7%N, set0); (8%N, set0)]; p_goals := [EFluent 0%N []]; p_invs := [] |}.
  Definition T1 : tsys := {| ts_prob := P1; ts_init := s0; ts_insts := [(7%N, []); (8%N, [])]; ts_traj := [] |}.
  Definition back (a : inst) : option inst := if (fst a =? 7)%N then Some (0%N, []) else None.
  (* a wrong table: the auxiliary action alone reaches the compiled goal, its image (the empty plan) is not valid *)
End Ex.

Example C06_sound_check_correct_nonvacuous :
  sound_check Ex.T0 Ex.T1 (fun a => Some (0%N, [])) 2 = true /\
  plan_over Ex.T1 [(7%N, [])] /\ valid Ex.T1 [(7%N, [])] = true /\ valid Ex.T0 [(0%N, [])] = true.
Proof. split; [vm_compute; reflexivity|]. split; [repeat constructor|]. split; vm_compute; reflexivity. Qed.

Example C06_sound_search_witness_nonvacuous :
  sound_search Ex.T0 Ex.T1 Ex.back 2 = Some [(8%N, [])].
Proof. vm_compute. reflexivity. Qed.

Example C06_traj_nonvacuous :
  traj_holds Ex.T0 [Ex.s0] (ESometimeBefore (EFluent 0%N []) (ENot (EFluent 0%N []))) = true /\
  traj_holds Ex.T0 [Ex.s0] (ESometime (EFluent 0%N [])) = false.
Proof. split; vm_compute; reflexivity. Qed.

(* LAYER A — individual compilers, modelled in Gallina and proved for ALL problems (of the modelled fragment:
   instantaneous actions, no trajectory constraints other than state invariants).  Models: Compilers/LayerA_*.v;
   proofs: Proofs/LayerA_*_proofs.v; tie to the code: structural correspondence Corr/Corr_LayerA.v evaluated by
   harness/layera.py on the real compilers' output.  External behaviour enters as explicit arguments with explicit
   hypotheses: the Simplifier ([smp], [simp_pre]; C11), fresh names ([nm]; C08), the DNF walker ([cdnf], [pre_dnf]; C12).
   The translation-validation theorems above stay in force for every compiler (including these). *)
Require Import UPV.Walkers.Subst UPV.Compilers.Variants UPV.Proofs.Variants_proofs.
Require Import UPV.Compilers.LayerA_Defs UPV.Compilers.LayerA_Quant UPV.Compilers.LayerA_Inv UPV.Compilers.LayerA_Variants.
Require Import UPV.Proofs.LayerA_Quant_proofs UPV.Proofs.LayerA_Inv_proofs UPV.Proofs.LayerA_Variants_proofs.

(* QuantifiersRemover, expression level.
   [expand] = ExpressionQuantifiersRemover.  Side conditions (decidable, checked per generated case by the harness):
   [wfe tau beta e] = e is buildable by the ExpressionManager ([nf]), the argument of every Not and the body of every
   quantifier is syntactically Boolean ([bpos]; the type checker's guarantee), every occurrence and binder of a variable
   id carries the variable's type tau and the variables of one quantifier are distinct ([vtyped]); [btyped beta I] = the
   fluents declared Boolean hold Booleans.
   Strict quantifiers (the documented reading): same value AND same definedness. *)
Theorem C06_LA_expand_quantifiers_eval :
  forall (tau : N -> N) (beta : N -> bool) (e : expr) (I : interp),
    wfe tau beta e = true -> btyped beta I ->
    eval false (expand (objs I) e) I = eval false e I.
Proof. exact expand_quantifiers_eval. Qed.
Print Assumptions C06_LA_expand_quantifiers_eval.

(* Short-circuit quantifiers (what the evaluator does; And/Or stay strict): the expansion REFINES the original — a value
   of the expansion is the value of the original; an instance that is undefined AFTER a deciding instance makes the
   expansion undefined while the original keeps its value ([C06_LA_expand_sc_not_equal] below). *)
Theorem C06_LA_expand_quantifiers_eval_sc :
  forall (tau : N -> N) (beta : N -> bool) (e : expr) (I : interp) (v : value),
    wfe tau beta e = true -> btyped beta I ->
    eval true (expand (objs I) e) I = Some v -> eval true e I = Some v.
Proof. exact expand_quantifiers_eval_sc. Qed.
Print Assumptions C06_LA_expand_quantifiers_eval_sc.

(* wherever the strict reading of the original is defined, original and expansion agree in both modes *)
Theorem C06_LA_expand_quantifiers_eval_sc_defined :
  forall (tau : N -> N) (beta : N -> bool) (e : expr) (I : interp) (v : value),
    wfe tau beta e = true -> btyped beta I -> eval false e I = Some v ->
    eval true (expand (objs I) e) I = Some v /\ eval true e I = Some v.
Proof. exact expand_quantifiers_eval_sc_defined. Qed.
Print Assumptions C06_LA_expand_quantifiers_eval_sc_defined.

Theorem C06_LA_expand_quantifier_free :
  forall (tau : N -> N) (beta : N -> bool) (ob : N -> list N) (e : expr),
    wfe tau beta e = true -> qf (expand ob e) = true.
Proof. exact expand_quantifier_free. Qed.
Print Assumptions C06_LA_expand_quantifier_free.

Theorem C06_LA_expand_sc_not_equal :
  exists e I, eval true e I = Some (VBool true) /\ eval true (expand (objs I) e) I = None.
Proof. exact expand_sc_not_equal. Qed.
Print Assumptions C06_LA_expand_sc_not_equal.

(* QuantifiersRemover, problem level.
   [quant_compile smp P]: every precondition / goal / effect condition / effect value / state invariant expanded,
   forall effects expanded into one effect per object tuple, effects whose condition became FALSE dropped, an action
   whose expanded effects conflict left out; the compiled actions keep names and parameters, so a plan maps back to
   itself.  Hypotheses: [smp_exact] (the Simplifier keeps value and definedness; the real one only refines, C11);
   unique action names; [problem_wf] (every expression satisfies [wfe] with beta = the Boolean fluents of P);
   [bool_state] (Boolean fluents hold Booleans initially; preserved by steps); [plan_targets_total] (effect targets are
   defined: needed because a dropped FALSE-conditioned effect no longer evaluates its target). *)
Theorem C06_LA_quant_sound :
  forall (smp : expr -> expr), smp_exact smp ->
  forall (P : problem) (tau : N -> N), unique_ids P -> problem_wf P tau = true ->
  forall (s0 : state) (pi : list (N * list value)), bool_state P s0 -> plan_targets_total P pi ->
    valid_plan false (quant_compile smp P) s0 pi = true -> valid_plan false P s0 pi = true.
Proof. exact quant_sound. Qed.
Print Assumptions C06_LA_quant_sound.

(* the initial state is judged alike (state invariants / bounded types checked by get_initial_state) *)
Theorem C06_LA_quant_init_ok :
  forall (smp : expr -> expr), smp_exact smp ->
  forall (P : problem) (tau : N -> N), problem_wf P tau = true ->
  forall s0 : state, bool_state P s0 ->
    invariants_ok false (quant_compile smp P) s0 = invariants_ok false P s0.
Proof. exact quant_init_ok. Qed.
Print Assumptions C06_LA_quant_init_ok.

(* StateInvariantsRemover / BoundedTypesRemover.
   The moved constraints M (the state invariants / the bounded-type constraints [bound_invs P]) become a precondition of
   every action and a goal: along s0 -> ... -> sn the original checks M in s1..sn, the compiled problem in
   s0..s(n-1) and sn.  So the verdicts differ EXACTLY by "M holds in the initial state" — soundness needs no hypothesis
   on the initial state, completeness needs exactly that one.  Hypotheses: [smp_holds] (simplification does not change
   whether a condition holds), unique action names, and for the invariants that they do not depend on action
   parameters ([closed_cond]; the bounded-type constraints are closed by construction). *)
Theorem C06_LA_sir_valid_plan :
  forall (smp : expr -> expr), smp_holds smp ->
  forall P : problem, unique_ids P -> Forall (closed_cond P) (p_invs P) ->
  forall (s0 : state) (pi : list (N * list value)),
    valid_plan false (sir_compile smp P) s0 pi =
    all_hold false (mk_interp P s0 []) (p_invs P) && valid_plan false P s0 pi.
Proof. exact sir_valid_plan. Qed.
Print Assumptions C06_LA_sir_valid_plan.

Theorem C06_LA_sir_sound :
  forall (smp : expr -> expr), smp_holds smp ->
  forall P : problem, unique_ids P -> Forall (closed_cond P) (p_invs P) ->
  forall (s0 : state) (pi : list (N * list value)),
    valid_plan false (sir_compile smp P) s0 pi = true -> valid_plan false P s0 pi = true.
Proof. exact sir_sound. Qed.
Print Assumptions C06_LA_sir_sound.

(* together with the check of the initial state the two problems have the SAME valid plans *)
Theorem C06_LA_sir_same_plans :
  forall (smp : expr -> expr), smp_holds smp ->
  forall P : problem, unique_ids P -> Forall (closed_cond P) (p_invs P) ->
  forall (s0 : state) (pi : list (N * list value)),
    invariants_ok false (sir_compile smp P) s0 && valid_plan false (sir_compile smp P) s0 pi =
    invariants_ok false P s0 && valid_plan false P s0 pi.
Proof. exact sir_same_plans. Qed.
Print Assumptions C06_LA_sir_same_plans.

Theorem C06_LA_btr_valid_plan :
  forall (smp : expr -> expr), smp_holds smp ->
  forall P : problem, unique_ids P ->
  forall (s0 : state) (pi : list (N * list value)),
    valid_plan false (btr_compile smp P) s0 pi =
    all_hold false (mk_interp P s0 []) (bound_invs P) && valid_plan false P s0 pi.
Proof. exact btr_valid_plan. Qed.
Print Assumptions C06_LA_btr_valid_plan.

Theorem C06_LA_btr_sound :
  forall (smp : expr -> expr), smp_holds smp ->
  forall P : problem, unique_ids P ->
  forall (s0 : state) (pi : list (N * list value)),
    valid_plan false (btr_compile smp P) s0 pi = true -> valid_plan false P s0 pi = true.
Proof. exact btr_sound. Qed.
Print Assumptions C06_LA_btr_sound.

Theorem C06_LA_btr_same_plans :
  forall (smp : expr -> expr), smp_holds smp ->
  forall P : problem, unique_ids P ->
  forall (s0 : state) (pi : list (N * list value)),
    invariants_ok false (btr_compile smp P) s0 && valid_plan false (btr_compile smp P) s0 pi =
    invariants_ok false P s0 && valid_plan false P s0 pi.
Proof. exact btr_same_plans. Qed.
Print Assumptions C06_LA_btr_same_plans.

(* ConditionalEffectsRemover (C37's action theorems
   lifted to plans).  [cer_compile simp_pre nm P]: unconditional actions kept, every conditional action replaced by its
   kept variants under fresh names; [vt_map_back (cer_table ...)] renames every step to the action its variant was made
   from.  G = the states on which the hypotheses of the C37 theorems hold (e.g. all fluents defined and typed); it must
   contain the initial state and be closed under the steps of the original problem. *)
Theorem C06_LA_cer_sound :
  forall (simp_pre : list expr -> option (list expr)), simp_pre_ok simp_pre ->
  forall (nm : N -> nat -> N) (P : problem), unique_ids P -> unique_ids (cer_compile simp_pre nm P) ->
  forall G : state -> Prop,
    (forall s aid a args t, G s -> lookup_action P aid = Some a -> spec_step false P s a args = Some t -> G t) ->
    (forall s args i a, G s -> In (i, a) (p_actions P) -> Forall (cond_ok P s a args) (cond_effs (a_effs a))) ->
  forall (s0 : state) (pi' : list (N * list value)), G s0 ->
    valid_plan false (cer_compile simp_pre nm P) s0 pi' = true ->
    valid_plan false P s0 (vt_map_back (cer_table simp_pre nm P) pi') = true.
Proof. exact cer_sound. Qed.
Print Assumptions C06_LA_cer_sound.

(* DisjunctiveConditionsRemover, for problems whose goals
   need no auxiliary goal action (the DNF of the goals is one conjunction, [goals']).  The fake-goal construction is
   covered at action level by C37_goals_equiv / C37_fake_action_step and at plan level by the validator above. *)
Theorem C06_LA_dcr_sound :
  forall (cdnf : expr -> list expr) (pre_dnf : action -> list (list expr)) (nm : N -> nat -> N)
         (P : problem) (goals' : list expr),
    unique_ids P -> unique_ids (dcr_compile cdnf pre_dnf nm P goals') ->
  forall G : state -> Prop,
    (forall s aid a args t, G s -> lookup_action P aid = Some a -> spec_step false P s a args = Some t -> G t) ->
    (forall s args i a, G s -> In (i, a) (p_actions P) -> Forall (dnf_effect_ok cdnf P s a args) (a_effs a)) ->
    (forall s args i a, G s -> In (i, a) (p_actions P) ->
       existsb (all_hold false (mk_interp P s (zip_params (a_params a) args))) (pre_dnf a) =
       all_hold false (mk_interp P s (zip_params (a_params a) args)) (a_pre a)) ->
    (forall s, G s -> all_hold false (mk_interp P s []) goals' = all_hold false (mk_interp P s []) (p_goals P)) ->
  forall (s0 : state) (pi' : list (N * list value)), G s0 ->
    valid_plan false (dcr_compile cdnf pre_dnf nm P goals') s0 pi' = true ->
    valid_plan false P s0 (vt_map_back (dcr_table cdnf pre_dnf nm P) pi') = true.
Proof. exact dcr_sound. Qed.
Print Assumptions C06_LA_dcr_sound.

Module LA.
  Definition idsmp (e : expr) : expr := e.
  Lemma idsmp_exact : smp_exact idsmp. Proof. intros e I. reflexivity. Qed.
  Lemma idsmp_holds : smp_holds idsmp. Proof. intros e I. reflexivity. Qed.

  (* type 0 with objects 1, 2; Boolean fluents p/1 (id 0), g/0 (id 1); variable 0 of type 0.
     action 0:  pre  Exists v. not p(v)   eff  forall v. p(v) := true;  g := true when Forall v. not p(v)
     goal  Forall v. p(v)      invariant  Exists v. (p(v) or not p(v)) *)
  Definition v0 : expr := EVar 0%N 0%N.
  Definition pv : expr := EFluent 0%N [v0].
  Definition eff_all : effect :=
    {| e_fl := 0%N; e_args := [v0]; e_val := EBool true; e_cond := EBool true; e_kind := KAssign;
       e_vars := [(0%N, 0%N)]; e_isbool := true |}.
  Definition eff_g : effect :=
    {| e_fl := 1%N; e_args := []; e_val := EBool true; e_cond := EForall [(0%N, 0%N)] (ENot pv); e_kind := KAssign;
       e_vars := []; e_isbool := true |}.
  Definition act : action :=
    {| a_params := []; a_pre := [EExists [(0%N, 0%N)] (ENot pv)]; a_effs := [eff_all; eff_g] |}.
  Definition Pq : problem :=
    {| p_objs := [(0%N, [1%N; 2%N])]; p_ifun := [];
       p_fluents := [{| fd_id := 0%N; fd_sig := [0%N]; fd_ty := FBool |}; {| fd_id := 1%N; fd_sig := []; fd_ty := FBool |}];
       p_actions := [(0%N, act)]; p_goals := [EForall [(0%N, 0%N)] pv; EFluent 1%N []];
       p_invs := [EExists [(0%N, 0%N)] (EOr [pv; ENot pv])] |}.
  Definition sq : state := fun f a => Some (VBool false).
  Definition tauq (v : N) : N := 0%N.

  Lemma sq_bool : bool_state Pq sq.
  Proof. intros f args _. right. exists false. reflexivity. Qed.

  Lemma targets : plan_targets_total Pq [(0%N, [])].
  Proof.
    intros aid args a [H|[]] EL. inversion H; subst. vm_compute in EL. inversion EL; subst. clear EL H.
    intros s e J He HJ. destruct He as [<-|[<-|[]]].
    - cbn in HJ. destruct HJ as [<-|[<-|[]]]; discriminate.
    - cbn in HJ. destruct HJ as [<-|[]]. discriminate.
  Qed.
End LA.

Example C06_LA_expand_quantifiers_eval_nonvacuous :
  let e := EForall [(0%N, 0%N)] (ENot LA.pv) in
  let I := mk_interp LA.Pq LA.sq [] in
  wfe LA.tauq (is_bool_fluent LA.Pq) e = true /\ btyped (is_bool_fluent LA.Pq) I /\
  expand (objs I) e = EAnd [ENot (EFluent 0%N [EObj 1%N]); ENot (EFluent 0%N [EObj 2%N])] /\
  eval false e I = Some (VBool true).
Proof.
  cbv zeta. split; [vm_compute; reflexivity|]. split; [|split; vm_compute; reflexivity].
  intros f args _. right. exists false. reflexivity.
Qed.

Example C06_LA_quant_sound_nonvacuous :
  smp_exact LA.idsmp /\ unique_ids LA.Pq /\ problem_wf LA.Pq LA.tauq = true /\ bool_state LA.Pq LA.sq /\
  plan_targets_total LA.Pq [(0%N, [])] /\ no_action_dropped LA.idsmp LA.Pq /\
  valid_plan false (quant_compile LA.idsmp LA.Pq) LA.sq [(0%N, [])] = true /\
  valid_plan false LA.Pq LA.sq [(0%N, [])] = true /\
  qf (EAnd (a_pre (snd (List.hd (0%N, LA.act) (p_actions (quant_compile LA.idsmp LA.Pq)))))) = true.
Proof.
  split; [exact LA.idsmp_exact|]. split; [repeat constructor; intros []|]. split; [vm_compute; reflexivity|].
  split; [exact LA.sq_bool|]. split; [exact LA.targets|].
  split; [intros aid a [H|[]]; inversion H; subst; vm_compute; discriminate|].
  split; [vm_compute; reflexivity|]. split; vm_compute; reflexivity.
Qed.

(* state invariant g (fluent 1) with an action that breaks it and one that does not; bounded fluent x in [0, 2] *)
Module LB.
  Definition setf (f : N) (b : bool) : action :=
    {| a_params := []; a_pre := [];
       a_effs := [{| e_fl := f; e_args := []; e_val := EBool b; e_cond := EBool true; e_kind := KAssign;
                     e_vars := []; e_isbool := true |}] |}.
  Definition inc : action :=
    {| a_params := []; a_pre := [];
       a_effs := [{| e_fl := 2%N; e_args := []; e_val := EInt 1; e_cond := EBool true; e_kind := KInc;
                     e_vars := []; e_isbool := false |}] |}.
  Definition Pi : problem :=
    {| p_objs := []; p_ifun := [];
       p_fluents := [{| fd_id := 0%N; fd_sig := []; fd_ty := FBool |}; {| fd_id := 1%N; fd_sig := []; fd_ty := FBool |};
                     {| fd_id := 2%N; fd_sig := []; fd_ty := FNum (Some (zq 0)) (Some (zq 2)) |}];
       p_actions := [(0%N, setf 0%N true); (1%N, setf 1%N false); (2%N, inc)];
       p_goals := [EFluent 0%N []]; p_invs := [EFluent 1%N []] |}.
  Definition si : state := fun f a => if (f =? 2)%N then Some (VNum (zq 1)) else Some (VBool (f =? 1)%N).
  Lemma closed : Forall (closed_cond Pi) (p_invs Pi).
  Proof. repeat constructor. Qed.
  Lemma uniq : unique_ids Pi.
  Proof. repeat constructor; cbn; intuition discriminate. Qed.
End LB.

Example C06_LA_sir_nonvacuous :
  smp_holds LA.idsmp /\ unique_ids LB.Pi /\ Forall (closed_cond LB.Pi) (p_invs LB.Pi) /\
  valid_plan false (sir_compile LA.idsmp LB.Pi) LB.si [(0%N, [])] = true /\
  valid_plan false LB.Pi LB.si [(0%N, [])] = true /\
  (* the plan that breaks the invariant in its last step is rejected by the compiled GOAL *)
  valid_plan false (sir_compile LA.idsmp LB.Pi) LB.si [(0%N, []); (1%N, [])] = false /\
  p_invs (sir_compile LA.idsmp LB.Pi) = [].
Proof.
  split; [exact LA.idsmp_holds|]. split; [exact LB.uniq|]. split; [exact LB.closed|].
  repeat split; vm_compute; reflexivity.
Qed.

Example C06_LA_btr_nonvacuous :
  smp_holds LA.idsmp /\ unique_ids LB.Pi /\
  valid_plan false (btr_compile LA.idsmp LB.Pi) LB.si [(2%N, []); (0%N, [])] = true /\
  valid_plan false LB.Pi LB.si [(2%N, []); (0%N, [])] = true /\
  (* x = 3 after two increases: rejected by the precondition of the following action *)
  valid_plan false (btr_compile LA.idsmp LB.Pi) LB.si [(2%N, []); (2%N, []); (0%N, [])] = false /\
  valid_plan false LB.Pi LB.si [(2%N, []); (2%N, []); (0%N, [])] = false /\
  bound_invs (btr_compile LA.idsmp LB.Pi) = [].
Proof.
  split; [exact LA.idsmp_holds|]. split; [exact LB.uniq|]. repeat split; vm_compute; reflexivity.
Qed.

(* a conditional effect whose condition is a defined Boolean in every state: g := true when not false *)
Module LC.
  Definition ce : effect :=
    {| e_fl := 1%N; e_args := []; e_val := EBool true; e_cond := ENot (EBool false); e_kind := KAssign;
       e_vars := []; e_isbool := true |}.
  Definition ca : action := {| a_params := []; a_pre := [EFluent 0%N []]; a_effs := [ce] |}.
  Definition Pc : problem :=
    {| p_objs := []; p_ifun := [];
       p_fluents := [{| fd_id := 0%N; fd_sig := []; fd_ty := FBool |}; {| fd_id := 1%N; fd_sig := []; fd_ty := FBool |}];
       p_actions := [(0%N, ca)]; p_goals := [EFluent 1%N []]; p_invs := [] |}.
  Definition sc0 : state := fun f a => Some (VBool (f =? 0)%N).
  Definition sp (l : list expr) : option (list expr) := Some l.
  Lemma sp_ok : simp_pre_ok sp. Proof. intros l I. reflexivity. Qed.
  Definition nm (i : N) (k : nat) : N := (10 + N.of_nat k)%N.
  Definition G (s : state) : Prop := True.
  Lemma cond : forall s args i a, G s -> In (i, a) (p_actions Pc) -> Forall (cond_ok Pc s a args) (cond_effs (a_effs a)).
  Proof.
    intros s args i a _ [H|[]]. inversion H; subst. repeat constructor.
    exists true. split; [reflexivity|]. repeat constructor. discriminate.
  Qed.
End LC.

Example C06_LA_cer_sound_nonvacuous :
  simp_pre_ok LC.sp /\ unique_ids LC.Pc /\ unique_ids (cer_compile LC.sp LC.nm LC.Pc) /\
  (forall s args i a, LC.G s -> In (i, a) (p_actions LC.Pc) -> Forall (cond_ok LC.Pc s a args) (cond_effs (a_effs a))) /\
  map fst (p_actions (cer_compile LC.sp LC.nm LC.Pc)) = [10%N] /\
  valid_plan false (cer_compile LC.sp LC.nm LC.Pc) LC.sc0 [(10%N, [])] = true /\
  vt_map_back (cer_table LC.sp LC.nm LC.Pc) [(10%N, [])] = [(0%N, [])] /\
  valid_plan false LC.Pc LC.sc0 [(0%N, [])] = true.
Proof.
  split; [exact LC.sp_ok|]. split; [repeat constructor; intros []|]. split; [vm_compute; repeat constructor; intros []|].
  split; [exact LC.cond|]. repeat split; vm_compute; reflexivity.
Qed.

(* Grounder.
   [ground_compile smp tuples nm P]: for every action i and every parameter tuple of [tuples i] (what
   GrounderHelper.get_possible_parameters enumerates: type-correct values, static-fluent pruning included) the
   parameter-less action [g_action smp a args] — parameters substituted by constants ([Ground.psubst] = the Substituter on
   manager-built expressions, C01_grounded_substitution_is_substituter), target arguments / value / condition of every
   effect and the conjunction of the preconditions simplified, an effect with a FALSE condition dropped, forall variables
   that are no longer free dropped — unless the precondition simplified to FALSE or the ground effects conflict
   syntactically; [gt_map_back] = lift_action_instance.
   Hypotheses: [smp_exact_on P G smp] — the grounder's Simplifier(env, problem) keeps value and definedness on the states
   of G under every variable instance (it folds static fluents to their INITIAL values: G = the states agreeing with the
   initial state on static fluents; the real Simplifier only refines: C11); G contains s0 and is closed under steps;
   unique action names and pairwise different ground names (fix 206e087, C08); [instances_ok]: no forall variable of an
   effect vanishes ([vars_kept], else finding C01-forall-variable-vanishes) and effect targets are defined
   ([g_targets_total], because FALSE-conditioned effects are dropped).
   The key lemma is C01's substitution lemma psubst_eval; the ground action takes EXACTLY the original step: *)
Require Import UPV.Planning.Ground UPV.Compilers.LayerA_Ground UPV.Proofs.LayerA_Ground_proofs.

Theorem C06_LA_ground_step :
  forall (smp : expr -> expr) (tuples : N -> list (list value)) (nm : N -> nat -> N) (P : problem) (G : state -> Prop),
    smp_exact_on P G smp ->
  forall (s : state) (a : action) (args : list value) (g : action),
    G s -> vars_kept smp a args -> g_targets_total P a args -> g_action smp a args = Some g ->
    spec_step false (ground_compile smp tuples nm P) s g [] = spec_step false P s a args.
Proof. exact ground_step. Qed.
Print Assumptions C06_LA_ground_step.

Theorem C06_LA_ground_sound :
  forall (smp : expr -> expr) (tuples : N -> list (list value)) (nm : N -> nat -> N) (P : problem) (G : state -> Prop),
    smp_exact_on P G smp -> unique_ids P -> unique_ids (ground_compile smp tuples nm P) ->
    (forall s aid a args t, G s -> lookup_action P aid = Some a -> spec_step false P s a args = Some t -> G t) ->
    instances_ok smp tuples P ->
  forall (s0 : state) (pi' : list (N * list value)), G s0 ->
    valid_plan false (ground_compile smp tuples nm P) s0 pi' = true ->
    valid_plan false P s0 (gt_map_back (ground_table smp tuples nm P) pi') = true.
Proof. exact ground_sound. Qed.
Print Assumptions C06_LA_ground_sound.

(* ... through the same states: the two runs end in the SAME state for every plan, hence for every prefix *)
Theorem C06_LA_ground_same_states :
  forall (smp : expr -> expr) (tuples : N -> list (list value)) (nm : N -> nat -> N) (P : problem) (G : state -> Prop),
    smp_exact_on P G smp -> unique_ids P -> unique_ids (ground_compile smp tuples nm P) ->
    (forall s aid a args t, G s -> lookup_action P aid = Some a -> spec_step false P s a args = Some t -> G t) ->
    instances_ok smp tuples P ->
  forall (pi' : list (N * list value)) (s t : state), G s ->
    run (ground_compile smp tuples nm P) (spec_step false (ground_compile smp tuples nm P)) s pi' = Some t ->
    run P (spec_step false P) s (gt_map_back (ground_table smp tuples nm P) pi') = Some t.
Proof. exact ground_run_sound. Qed.
Print Assumptions C06_LA_ground_same_states.

(* non-vacuity: type 0 = {1, 2}, Boolean fluent p/1, action 0 (parameter 7): pre not p(x), eff p(x) := true and
   g := true when x == 2 (the condition simplifies per instance in the real grounder; here smp is the identity) *)
Module LG.
  Definition px : expr := EFluent 0%N [EParam 7%N].
  Definition mark : action :=
    {| a_params := [7%N]; a_pre := [ENot px];
       a_effs := [{| e_fl := 0%N; e_args := [EParam 7%N]; e_val := EBool true; e_cond := EBool true; e_kind := KAssign;
                     e_vars := []; e_isbool := true |};
                  {| e_fl := 1%N; e_args := []; e_val := EBool true; e_cond := EEquals (EParam 7%N) (EObj 2%N);
                     e_kind := KAssign; e_vars := []; e_isbool := true |}] |}.
  Definition Pg : problem :=
    {| p_objs := [(0%N, [1%N; 2%N])]; p_ifun := [];
       p_fluents := [{| fd_id := 0%N; fd_sig := [0%N]; fd_ty := FBool |}; {| fd_id := 1%N; fd_sig := []; fd_ty := FBool |}];
       p_actions := [(0%N, mark)]; p_goals := [EFluent 0%N [EObj 1%N]; EFluent 1%N []]; p_invs := [] |}.
  Definition tup (i : N) : list (list value) := [[VObj 1%N]; [VObj 2%N]].
  Definition nm (i : N) (k : nat) : N := (30 + N.of_nat k)%N.
  Definition G (s : state) : Prop := True.
  Definition sg0 : state := fun f a => Some (VBool false).
  Lemma smp_ok : smp_exact_on Pg G LA.idsmp. Proof. intros e s vs J _ _. reflexivity. Qed.
  Lemma inst_ok : instances_ok LA.idsmp tup Pg.
  Proof.
    intros i a args [H|[]] Hargs. inversion H; subst. split.
    - intros e ge [<-|[<-|[]]] Hg; unfold g_effect in Hg; cbn in Hg;
        destruct Hargs as [<-|[<-|[]]]; cbn in Hg; inversion Hg; reflexivity.
    - intros s e J [<-|[<-|[]]] HJ; destruct Hargs as [<-|[<-|[]]]; cbn in HJ; destruct HJ as [<-|[]]; discriminate.
  Qed.
End LG.

Example C06_LA_ground_sound_nonvacuous :
  smp_exact_on LG.Pg LG.G LA.idsmp /\ unique_ids LG.Pg /\ unique_ids (ground_compile LA.idsmp LG.tup LG.nm LG.Pg) /\
  instances_ok LA.idsmp LG.tup LG.Pg /\
  map fst (p_actions (ground_compile LA.idsmp LG.tup LG.nm LG.Pg)) = [30%N; 31%N] /\
  valid_plan false (ground_compile LA.idsmp LG.tup LG.nm LG.Pg) LG.sg0 [(31%N, []); (30%N, [])] = true /\
  gt_map_back (ground_table LA.idsmp LG.tup LG.nm LG.Pg) [(31%N, []); (30%N, [])] = [(0%N, [VObj 2%N]); (0%N, [VObj 1%N])] /\
  valid_plan false LG.Pg LG.sg0 [(0%N, [VObj 2%N]); (0%N, [VObj 1%N])] = true.
Proof.
  split; [exact LG.smp_ok|]. split; [repeat constructor; intros []|].
  split; [vm_compute; repeat constructor; cbn; intuition discriminate|].
  split; [exact LG.inst_ok|]. repeat split; vm_compute; reflexivity.
Qed.

(* ---------------------------------------------------------------- NegativeConditionsRemover (second Layer A round,
   PARTIAL: the model, the effect level and the refutation are proved; the plan-level theorem is not finished and is
   therefore NOT stated — the compiler stays validated by Layer B).  [neg_compile nmap rw smp P]: conditions rewritten by
   [rw] (Nnf + simplify + walk_not, external), every effect on a fluent f with a negation fluent nf mirrored by an effect
   on nf with value simplify(Not(value)), appended after the action's own effects.
   Proved, under "nf = not f" ([nrel_interp]), [rw_ok] (the rewriting is exact on the conditions of P under the
   invariant), [smp_exact], and per effect: it mentions no negation fluent and, when its fluent is negated, it is an
   assignment of a Boolean constant: the compiled action fires EXACTLY the original effect instances followed by their
   mirrors ([macts]). *)
Require Import UPV.Compilers.LayerA_Neg UPV.Proofs.LayerA_Neg_proofs.

Theorem C06_LA_ncr_fired_partial :
  forall (nmap : list (N * N)) (rw smp : expr -> expr) (P : problem),
    rw_ok nmap rw P -> smp_exact smp ->
  forall (I I' : interp) (effs : list effect),
    nrel_interp nmap I I' -> Forall (eff_hyp nmap P) effs ->
    fired false I' (n_effects nmap rw smp effs) =
    match fired false I effs with Some acts => Some (acts ++ macts nmap acts) | None => None end.
Proof. intros nmap rw smp P Hrw Hsmp. exact (n_effects_fired nmap rw smp P Hrw Hsmp). Qed.
Print Assumptions C06_LA_ncr_fired_partial.

(* what the plan-level proof forces: the successor states are related again only if the assignments that fire on one
   ground negated fluent carry ONE value ([ncr_safe]: decidable sufficient condition).  Without it soundness fails:
   f := false; if c then f := true  keeps f true by add-after-delete, and the mirrored pair keeps nf true as well, so
   the compiled plan [a; b] (b needs not f) is valid and its image is not.  The real compiler produces exactly the
   model's compiled problem on this input and the real validator gives VALID / INVALID: it is the recorded finding
   C06-ncr-add-after-delete, not a new defect. *)
Theorem C06_LA_ncr_add_after_delete_refuted :
  exists (nmap : list (N * N)) (P : problem) (s s' : state) (pi : list (N * list value)),
    nmap_ok nmap P = true /\ problem_clean nmap P = true /\ ncr_safe nmap P = false /\ neg_rel nmap s s' /\
    valid_plan false (neg_compile nmap (nrw (ng nmap)) (fun e => e) P) s' pi = true /\
    valid_plan false P s pi = false.
Proof.
  exists NegWitness.nm, NegWitness.Pw, NegWitness.sw, NegWitness.sw', NegWitness.plan. exact ncr_unsafe_witness.
Qed.
Print Assumptions C06_LA_ncr_add_after_delete_refuted.

Definition C06_LA_ncr_sound_goal : Prop :=
  forall (nmap : list (N * N)) (rw smp : expr -> expr) (P : problem),
    nmap_ok nmap P = true -> problem_clean nmap P = true -> ncr_safe nmap P = true -> rw_ok nmap rw P -> smp_exact smp ->
  forall (s s' : state) (pi : list (N * list value)), neg_rel nmap s s' ->
    valid_plan false (neg_compile nmap rw smp P) s' pi = valid_plan false P s pi.

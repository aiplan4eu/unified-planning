(* C32 -- Factory engine selection honours every requested requirement.
   Only statements; each is closed by [exact] of a lemma from Proofs/Factory_proofs.v / Factory_gen_proofs.v.
   [T] are the ProblemKind tables, [reg] ANY registry (name -> engine description), [prefs] ANY preference list;
   Gen_Engines.builtin_engines / default_preference_list are the ones regenerated from the source on every run.
   Results: [Found n e] = the class registered as n is returned; [NoSuitable] = UPNoSuitableEngineAvailableException;
   [RaisedKey]/[RaisedAssert] = KeyError/AssertionError (unregistered preference name, missing upgrade function,
   requirement that does not belong to the operation mode). *)
From Coq Require Import List NArith Bool String.
Import ListNotations.
Require Import UPV.Model.Kind UPV.Model.Factory UPV.Proofs.Factory_proofs.
Require Import UPV.Gen.Gen_Kind UPV.Gen.Gen_Engines UPV.Proofs.Factory_gen_proofs.

(* what "supports the problem kind and every requested requirement" means, spelled out *)
Theorem C32_honours_unfolded :
  forall T e r, honours T e r <->
    is_mode e (r_mode r) = true
    /\ le T (r_kind r) (e_supported e) = Ok true
    /\ (forall c, r_compilation r = Some c -> inN c (e_compilations e) = true)
    /\ (forall p, r_plan r = Some p -> inN p (e_plans e) = true)
    /\ (forall g, r_optimality r = Some g -> inN g (e_optimality e) = true)
    /\ (forall g, r_anytime r = Some g -> inN g (e_anytime e) = true).
Proof. exact honours_unfolded. Qed.
Print Assumptions C32_honours_unfolded.

(* the engine returned for a request (no name given) is registered, listed, honours the request, and is the FIRST such
   engine of the preference list *)
Theorem C32_select_sound :
  forall T reg prefs r n e, get_engine_class T reg prefs None r = Found n e ->
    In n prefs /\ lookup n reg = Some e /\ honours T e r
    /\ exists pre post, prefs = pre ++ n :: post /\ forall m, In m pre -> exists e', lookup m reg = Some e' /\ ~ honours T e' r.
Proof. exact get_engine_class_found. Qed.
Print Assumptions C32_select_sound.

(* the no-suitable-engine error is raised only when no engine of the preference list qualifies *)
Theorem C32_select_none :
  forall T reg prefs r, get_engine_class T reg prefs None r = NoSuitable ->
    forall m, In m prefs -> exists e', lookup m reg = Some e' /\ ~ honours T e' r.
Proof. exact get_engine_class_none. Qed.
Print Assumptions C32_select_none.

(* ... and conversely: if evaluating the conditions raises nothing, the loop answers Found or NoSuitable, and Found whenever
   some listed engine qualifies -- so "no engine returned" <=> "no listed engine qualifies" *)
Theorem C32_select_total :
  forall T reg prefs r,
    (forall m, In m prefs -> exists e' b, lookup m reg = Some e' /\ satisfies_conditions T e' r = Ok b /\ report_raises T e' r = false) ->
    (exists n e, first_satisfying T reg prefs r = Found n e) \/ first_satisfying T reg prefs r = NoSuitable.
Proof. exact first_total. Qed.
Print Assumptions C32_select_total.

Theorem C32_select_complete :
  forall T reg prefs r,
    (forall m, In m prefs -> exists e' b, lookup m reg = Some e' /\ satisfies_conditions T e' r = Ok b /\ report_raises T e' r = false) ->
    (exists m e', In m prefs /\ lookup m reg = Some e' /\ honours T e' r) ->
    exists n e, first_satisfying T reg prefs r = Found n e.
Proof. exact first_complete. Qed.
Print Assumptions C32_select_complete.

(* the decision procedure agrees with the specification *)
Theorem C32_conditions_true_iff_honours :
  forall T e r, satisfies_conditions T e r = Ok true -> honours T e r.
Proof. exact satisfies_true_honours. Qed.
Print Assumptions C32_conditions_true_iff_honours.

Theorem C32_conditions_false_not_honours :
  forall T e r, satisfies_conditions T e r = Ok false -> ~ honours T e r.
Proof. exact satisfies_false_not_honours. Qed.
Print Assumptions C32_conditions_false_not_honours.

(* the error-report probe used by the loop is the literal transcription of the report-building code *)
Theorem C32_report_probe_equiv :
  forall T e r, report_raises_spec T e r = report_raises T e r.
Proof. exact report_raises_equiv. Qed.
Print Assumptions C32_report_probe_equiv.

(* selection by name performs no check: exactly the registered class, else the no-requested-engine error *)
Theorem C32_select_by_name :
  forall T reg prefs r n s, get_engine_class T reg prefs (Some n) r = s ->
    match lookup n reg with Some e => s = Found n e | None => s = NoRequested end.
Proof. exact get_engine_class_by_name. Qed.
Print Assumptions C32_select_by_name.

(* in a pipeline requested by compilation kinds, step i was selected for the kind declared by steps < i, is a compiler
   supporting that kind and the i-th compilation kind, and declares the kind handed to step i+1 *)
Theorem C32_pipeline_chain_supported :
  forall T reg prefs cks k0 steps final,
    pipeline T reg prefs None cks k0 = Pipe steps final -> chain T reg prefs k0 steps cks final.
Proof. exact pipeline_chain. Qed.
Print Assumptions C32_pipeline_chain_supported.

Theorem C32_chain_unfolded :
  forall T reg prefs k n e kk steps ck cks final,
    chain T reg prefs k ((n, e, kk) :: steps) (ck :: cks) final ->
    kk = k /\ In n prefs /\ lookup n reg = Some e
    /\ is_mode e COMPILER = true /\ le T k (e_supported e) = Ok true /\ inN ck (e_compilations e) = true
    /\ exists k', run_resulting T (e_resulting e) k = Ok k' /\ chain T reg prefs k' steps cks final.
Proof. exact chain_cons_inv. Qed.
Print Assumptions C32_chain_unfolded.

(* a pipeline request ends in the no-suitable-engine error only at a step for which no listed engine qualifies *)
Theorem C32_pipeline_no_suitable :
  forall T reg prefs cks k0,
    pipeline T reg prefs None cks k0 = PipeFail NoSuitable ->
    exists cks1 ck cks2 done k', cks = cks1 ++ ck :: cks2 /\ chain T reg prefs k0 done cks1 k'
      /\ forall m, In m prefs -> exists e', lookup m reg = Some e' /\ ~ honours T e' (comp_request k' ck).
Proof. exact pipeline_no_suitable. Qed.
Print Assumptions C32_pipeline_no_suitable.

(* the regenerated built-in registry is well formed (checked by computation) *)
Theorem C32_builtin_registry_ok : builtin_registry_ok = true.
Proof. exact gen_builtin_registry_ok. Qed.
Print Assumptions C32_builtin_registry_ok.

(* non-vacuity over the current source *)
Definition K (l : list N) : kind := {| k_feats := mask_of l; k_ver := Some LATEST_PROBLEM_KIND_VERSION |}.
Definition offline_prefs : list string :=
  filter (fun n => existsb (String.eqb n) (map fst builtin_engines)) default_preference_list.

Example C32_select_nonvacuous :
  get_engine_class gen_tables builtin_engines offline_prefs None
    {| r_mode := PLAN_VALIDATOR; r_kind := K [f_ACTION_BASED; f_CONTINUOUS_TIME]; r_optimality := None; r_compilation := None;
       r_plan := Some pk_TIME_TRIGGERED_PLAN; r_anytime := None |}
  = Found "up_time_triggered_validator"%string E_up_time_triggered_validator
  /\ get_engine_class gen_tables builtin_engines offline_prefs None
       {| r_mode := ONESHOT_PLANNER; r_kind := K [f_ACTION_BASED]; r_optimality := None; r_compilation := None;
          r_plan := None; r_anytime := None |} = NoSuitable.
Proof. vm_compute. split; reflexivity. Qed.

(* (a top-level definition rather than `let … in`: coqchk 8.16 rejects the VM-cast proof term of a let-bound statement) *)
Definition ex_k1 := K [f_ACTION_BASED; f_DISJUNCTIVE_CONDITIONS; f_FLAT_TYPING].
Example C32_pipeline_nonvacuous :
  pipeline gen_tables builtin_engines offline_prefs None [ck_QUANTIFIERS_REMOVING; ck_GROUNDING]
           (K [f_ACTION_BASED; f_EXISTENTIAL_CONDITIONS; f_FLAT_TYPING])
  = Pipe [("up_quantifiers_remover"%string, E_up_quantifiers_remover, K [f_ACTION_BASED; f_EXISTENTIAL_CONDITIONS; f_FLAT_TYPING]);
          ("tarski_grounder"%string, E_tarski_grounder, ex_k1)] ex_k1.
Proof. vm_compute. reflexivity. Qed.

Example C32_pipeline_no_suitable_nonvacuous :
  pipeline gen_tables builtin_engines offline_prefs None [ck_GROUNDING; ck_MA_CENTRALIZATION] (K [f_ACTION_BASED])
  = PipeFail NoSuitable.
Proof. vm_compute. reflexivity. Qed.

(* C29 — Durative-to-processes plan conversions are mutually inverse.
   Only statements; each is closed by [exact] of a lemma from Proofs/DA2P_proofs.v.
   Model: Model/DA2P.v ([forward] = _forward_plan_to_plan, [back] = _back_plan_to_plan; None = a Python exception).
   Time and durations are exact rationals in reduced form (Python Fractions), so "the same start time and duration"
   is syntactic equality. *)
From Coq Require Import List ZArith NArith QArith Bool Permutation.
Import ListNotations.
Require Import UPV.Model.DA2P UPV.Proofs.DA2P_proofs.
Open Scope Q_scope.

(* For every problem and EVERY time-triggered plan whose instances are instantaneous or fixed-duration actions carrying
   the duration their action prescribes for the actual parameters ([wf_fixed_entry]; any start times: equal, unordered,
   the same instance twice, overlapping): both conversions succeed and back (forward pi) contains exactly the timed
   instances of pi — same action, parameters, start time and duration, with multiplicity. *)
Theorem C29_back_forward_same_timed_instances :
  forall P pi, Forall (wf_fixed_entry P) pi ->
    exists pi' pi'', forward P pi = Some pi' /\ back P pi' = Some pi'' /\ Permutation pi'' pi.
Proof. exact back_forward_fixed_perm. Qed.
Print Assumptions C29_back_forward_same_timed_instances.

(* The order of the result is NOT the order of pi (TimeTriggeredPlan.__eq__ compares lists in order, so the plans are in
   general not `==`): it is pi stably sorted by start time and then grouped by (action, parameters) in order of first
   occurrence. *)
Theorem C29_back_forward_exact_order :
  forall P pi, Forall (wf_fixed_entry P) pi ->
    exists pi', forward P pi = Some pi' /\ back P pi' = Some (regroup (sort_t pi)).
Proof. exact back_forward_fixed. Qed.
Print Assumptions C29_back_forward_exact_order.

(* ... which is just pi sorted by start time when no ground action occurs twice *)
Theorem C29_distinct_instances_come_back_sorted :
  forall pi, NoDup (map key_of pi) -> regroup (sort_t pi) = sort_t pi.
Proof. exact regroup_sorted_distinct. Qed.
Print Assumptions C29_distinct_instances_come_back_sorted.

Theorem C29_sort_is_sorted_permutation :
  forall pi : list oentry, sorted_t (sort_t pi) /\ Permutation (sort_t pi) pi.
Proof. exact sort_t_sorted_perm. Qed.
Print Assumptions C29_sort_is_sorted_permutation.

(* The forward plan keeps every instance's start action at the instance's start time, in plan order. *)
Theorem C29_forward_keeps_start_times :
  forall P pi pi', forward P pi = Some pi' -> filter is_start pi' = map cstart pi.
Proof. exact forward_starts. Qed.
Print Assumptions C29_forward_keeps_start_times.

(* Fixed-duration actions have no end ACTION: their compiled end is the event a_end, triggered by the process clock;
   the forward plan consists of the start actions only. *)
Theorem C29_fixed_plans_have_no_end_action :
  forall P pi pi', Forall (wf_fixed_entry P) pi -> forward P pi = Some pi' ->
    pi' = map cstart pi /\ forallb is_start pi' = true.
Proof. exact forward_fixed_no_end_action. Qed.
Print Assumptions C29_fixed_plans_have_no_end_action.

(* Every compiled end action that the forward plan contains (they exist for variable-duration actions: a_first_end at the
   earliest from-end timing end+delta, delta <= 0) lies inside its action's duration: strictly after the start, not after
   the end, exactly at start + duration + delta. *)
Theorem C29_end_action_inside_duration :
  forall P pi pi', forward P pi = Some pi' ->
  forall te a ps x, In (te, (CFirstEnd a, ps), x) pi' ->
  exists t dur delta, In (t, (a, ps), Some dur) pi /\ kind_of P a = Some (KVar delta)
                      /\ te == t + (dur + delta) /\ t < te /\ te <= t + dur.
Proof. exact forward_end_sound. Qed.
Print Assumptions C29_end_action_inside_duration.

Theorem C29_every_variable_instance_gets_its_end_action :
  forall P pi pi', forward P pi = Some pi' ->
  forall t a ps dur delta, In (t, (a, ps), Some dur) pi -> kind_of P a = Some (KVar delta) ->
  exists te, In (te, (CFirstEnd a, ps), None) pi' /\ te == t + (dur + delta) /\ t < te /\ te <= t + dur.
Proof. exact forward_end_complete. Qed.
Print Assumptions C29_every_variable_instance_gets_its_end_action.

(* a single variable-duration instance also round-trips (the duration is recovered from the end action's time) *)
Theorem C29_single_variable_instance_round_trips :
  forall P t a ps dur delta, kind_of P a = Some (KVar delta) -> 0 < dur + delta -> delta <= 0 ->
  exists pi', forward P [(t, (a, ps), Some dur)] = Some pi' /\ back P pi' = Some [(t, (a, ps), Some (Qred dur))].
Proof. exact back_forward_single_var. Qed.
Print Assumptions C29_single_variable_instance_round_trips.

Definition exP : problem :=
  {| p_acts := [(0%N, KInst);
                (1%N, KFixed (DPlus (DTimes (DParam 1) (DStatic 7%N [0%nat])) (DConst 1)));
                (2%N, KVar (-1#1));
                (3%N, KFixed (DConst (7#2)))];
     p_statics := [((7%N, [PObj 1%N]), 3#1)] |}.
Definition exPi : list oentry :=
  [ (3#1, (1%N, [PObj 1%N; PInt 2%Z]), Some (7#1));
    (1#3, (0%N, [PObj 0%N]), None);
    (3#1, (3%N, []), Some (7#2));
    (0#1, (1%N, [PObj 1%N; PInt 2%Z]), Some (7#1));
    (1#3, (3%N, []), Some (7#2)) ].

Example C29_back_forward_nonvacuous :
  Forall (wf_fixed_entry exP) exPi /\
  option_map (fun f => back exP f) (forward exP exPi)
  = Some (Some [ (0#1, (1%N, [PObj 1%N; PInt 2%Z]), Some (7#1)); (3#1, (1%N, [PObj 1%N; PInt 2%Z]), Some (7#1));
                 (1#3, (0%N, [PObj 0%N]), None);
                 (1#3, (3%N, []), Some (7#2)); (3#1, (3%N, []), Some (7#2)) ]).
Proof.
  split; [|vm_compute; reflexivity].
  repeat constructor; unfold wf_fixed_entry; simpl; try (eexists; split; vm_compute; reflexivity).
Qed.

Example C29_distinct_nonvacuous :
  NoDup (map key_of [ (3#1, (1%N, [PObj 1%N; PInt 2%Z]), Some (7#1)); (1#3, (0%N, [PObj 0%N]), @None Q) ]).
Proof. repeat constructor; simpl; intuition discriminate. Qed.

Definition exVar : list oentry := [ (2#1, (2%N, [PObj 0%N]), Some (3#1)); (2#1, (0%N, [PObj 0%N]), None) ].
Example C29_end_inside_nonvacuous :
  forward exP exVar = Some [ (2#1, (CStart 2%N, [PObj 0%N]), None); (4#1, (CFirstEnd 2%N, [PObj 0%N]), None);
                             (2#1, (CStart 0%N, [PObj 0%N]), None) ]
  /\ kind_of exP 2%N = Some (KVar (-1#1)) /\ 0 < (3#1) + (-1#1) /\ (-1#1) <= 0.
Proof. split; [vm_compute; reflexivity|]. split; [reflexivity|]. split; reflexivity || (intro; discriminate). Qed.

(* outside the property's scope (variable durations): with two overlapping instances of the same ground action the
   second end action pops the instance that was just completed and `assert duration is None` fails in
   _back_plan_to_plan — the round trip is not even defined there (the compiled problem forbids such self-overlap) *)
Example C29_scope_variable_crossing_instances :
  let pi := [ (0#1, (2%N, [PObj 0%N]), Some (5#1)); (1#1, (2%N, [PObj 0%N]), Some (10#1)) ] in
  option_map (fun f => back exP f) (forward exP pi)
  = Some None.
Proof. vm_compute. reflexivity. Qed.

(* C18, part "expr": the expression layer of the PDDL codec (Model/PddlExpr.v) round-trips.
   print  = ConverterToPDDLString.walk (pddl_writer.py);  parse = UPPDDLReader._parse_exp (up_pddl_reader.py). *)
From Coq Require Import List ZArith NArith QArith Qcanon Bool String Ascii.
Import ListNotations.
Require Import UPV.Core.Expr UPV.Core.Eval UPV.Model.PddlExpr UPV.Model.PddlLex UPV.Proofs.PddlExpr_proofs
  UPV.Proofs.PddlLex_proofs.
Local Open Scope string_scope.

(* For EVERY expression of the printable fragment [pddl_ok] (and/or/not/imply/iff, comparisons, arithmetic, fluents with
   arguments, parameters, objects, integer and finite-decimal rational constants, exists/forall with typed variables,
   at any nesting) the converter produces a text and the reader's expression parser maps this text to [norm e].
   Hypotheses = consistency of the renaming (guaranteed by PDDLWriter._get_mangled_name and the written declarations):
   every item is found under its name; fluent names are not operator keywords; object names are neither fluent names
   nor start with "?"; parameter and variable names differ; type names do not start with "?"; nothing is named like a
   number. *)
Theorem C18_expr_roundtrip :
  forall (nm : naming) (E : env),
    (forall f, e_fl E (nm_fl nm f) = Some f) ->
    (forall f, is_kw (nm_fl nm f) = false) ->
    (forall o, e_obj E (nm_obj nm o) = Some o) ->
    (forall o, e_fl E (nm_obj nm o) = None) ->
    (forall o, starts_q (nm_obj nm o) = false) ->
    (forall p, e_par E (nm_par nm p) = Some p) ->
    (forall v, e_var E (nm_var nm v) = Some v) ->
    (forall p v, nm_par nm p <> nm_var nm v) ->
    (forall t, e_ty E (nm_ty nm t) = Some t) ->
    (forall t, starts_q (nm_ty nm t) = false) ->
    (forall s q, parse_number s = Some q -> e_fl E s = None /\ e_obj E s = None) ->
    forall e, pddl_ok [] e = true ->
    exists s, print nm e = Some s /\ parse E [] s = Some (norm e).
Proof. exact roundtrip. Qed.
Print Assumptions C18_expr_roundtrip.

(* the same under enclosing quantifiers: [sc] = the variables in scope (innermost first), the parser's dictionary is
   their names *)
Theorem C18_expr_roundtrip_in_scope :
  forall (nm : naming) (E : env),
    (forall f, e_fl E (nm_fl nm f) = Some f) ->
    (forall f, is_kw (nm_fl nm f) = false) ->
    (forall o, e_obj E (nm_obj nm o) = Some o) ->
    (forall o, e_fl E (nm_obj nm o) = None) ->
    (forall o, starts_q (nm_obj nm o) = false) ->
    (forall p, e_par E (nm_par nm p) = Some p) ->
    (forall v, e_var E (nm_var nm v) = Some v) ->
    (forall p v, nm_par nm p <> nm_var nm v) ->
    (forall t, e_ty E (nm_ty nm t) = Some t) ->
    (forall t, starts_q (nm_ty nm t) = false) ->
    (forall s q, parse_number s = Some q -> e_fl E s = None /\ e_obj E s = None) ->
    forall e sc, pddl_ok sc e = true ->
    exists s, print nm e = Some s /\ parse E (scope_names nm sc) s = Some (norm e).
Proof. exact roundtrip_sc. Qed.
Print Assumptions C18_expr_roundtrip_in_scope.

(* the numeric tokens: str(int) and the plain decimal expansion are read back as the same number, for ALL integers and
   all rationals on which the model's [show_real] is defined *)
Theorem C18_expr_int_token : forall z, parse_number (show_Z z) = Some (Q2Qc (inject_Z z)).
Proof. exact parse_number_show_Z. Qed.
Print Assumptions C18_expr_int_token.

Theorem C18_expr_real_token : forall q s, show_real q = Some s -> parse_number s = Some q.
Proof. exact parse_number_show_real. Qed.
Print Assumptions C18_expr_real_token.

(* Boolean constants and interpreted functions are rejected by the converter (walk_bool_constant raises) *)
Theorem C18_expr_rejected : forall nm b f l, print nm (EBool b) = None /\ print nm (EIFun f l) = None.
Proof. intros. split; reflexivity. Qed.
Print Assumptions C18_expr_rejected.

(* the normal form has the same meaning: for every expression of the fragment, every interpretation and both
   quantifier modes of Core/Eval (strict / short-circuit), evaluating [norm e] gives exactly the value of [e]
   (including undefinedness).  With C18_expr_roundtrip: the re-read expression has the meaning of the written one. *)
Theorem C18_expr_norm_preserves_eval :
  forall (qm : bool) e sc I, pddl_ok sc e = true -> eval qm (norm e) I = eval qm e I.
Proof. exact norm_sem. Qed.
Print Assumptions C18_expr_norm_preserves_eval.

(* non-vacuity: a concrete renaming (prefix letter + decimal number) satisfies every hypothesis, and an expression
   with every constructor of the fragment is in the fragment; its text and its re-read form are computed *)
Definition ex_e : expr :=
  EForall [(1%N, 0%N); (2%N, 1%N)]
    (EAnd [ EOr [EFluent 0 []; ENot (EFluent 1 [EVar 1 0; EObj 3])];
            EImplies (EFluent 2 [EVar 2 1; EParam 0]) (EIff (EFluent 0 []) (EEquals (EVar 1 0) (EParam 1)));
            EExists [(3%N, 0%N)] (ELe (EPlus [EFluent 3 [EVar 3 0]; EInt (-7); EReal (Q2Qc (5 # 4))])
                                      (ETimes [EInt 2; EFluent 4 []; EReal (Q2Qc (-1 # 1000))]));
            ELt (EMinus (EFluent 4 []) (EReal (Q2Qc (2 # 1)))) (EDiv (EInt 10000000000000000000000) (EFluent 4 []));
            EEquals (EFluent 4 []) (EReal (Q2Qc (1234567 # 100))) ]).

Definition ex_text : sexp :=
  SList [Atom "forall"; SList [Atom "?v1"; Atom "-"; Atom "t0"; Atom "?v2"; Atom "-"; Atom "t1"];
    SList [Atom "and";
      SList [Atom "or"; SList [Atom "x0"]; SList [Atom "not"; SList [Atom "x1"; Atom "?v1"; Atom "b3"]]];
      SList [Atom "imply"; SList [Atom "x2"; Atom "?v2"; Atom "?p0"];
        SList [Atom "and"; SList [Atom "imply"; SList [Atom "x0"]; SList [Atom "="; Atom "?v1"; Atom "?p1"]];
                           SList [Atom "imply"; SList [Atom "="; Atom "?v1"; Atom "?p1"]; SList [Atom "x0"]]]];
      SList [Atom "exists"; SList [Atom "?v3"; Atom "-"; Atom "t0"];
        SList [Atom "<="; SList [Atom "+"; Atom "1.25"; SList [Atom "+"; Atom "-7"; SList [Atom "x3"; Atom "?v3"]]];
                          SList [Atom "*"; Atom "-0.001"; SList [Atom "*"; SList [Atom "x4"]; Atom "2"]]]];
      SList [Atom "<"; SList [Atom "-"; SList [Atom "x4"]; Atom "2.0"];
                       SList [Atom "/"; Atom "10000000000000000000000"; SList [Atom "x4"]]];
      SList [Atom "="; SList [Atom "x4"]; Atom "12345.67"]]].

Example C18_expr_roundtrip_nonvacuous :
  pddl_ok [] ex_e = true /\ print ex_nm ex_e = Some ex_text
  /\ option_map (fun r => expr_eqb r (norm ex_e)) (parse ex_env [] ex_text) = Some true
  /\ norm ex_e <> ex_e
  /\ exists s, print ex_nm ex_e = Some s /\ parse ex_env [] s = Some (norm ex_e).
Proof.
  split; [vm_compute; reflexivity|]. split; [vm_compute; reflexivity|]. split; [vm_compute; reflexivity|].
  split; [intro H; apply (f_equal (fun e => expr_eqb e ex_e)) in H; vm_compute in H; discriminate H|].
  apply ex_roundtrip. vm_compute. reflexivity.
Qed.
Print Assumptions C18_expr_roundtrip_nonvacuous.

(* lexical layer (Model/PddlLex.v)
   lex  = the tokenisation of the pyparsing grammar nested_expr() with ignore(";" + rest_of_line);
   prep = text.replace("\t", " ").lower() of parse_problem_string;  print_text = the converter's f-strings. *)

(* every S-expression whose atoms are non-empty and free of white space, parentheses and ";" is read back from its
   canonical single-blank text *)
Theorem C18_expr_lex_roundtrip : forall s, atoms_ok s = true -> lex (show s) = Some s.
Proof. exact lex_show. Qed.
Print Assumptions C18_expr_lex_roundtrip.

(* the text the converter REALLY emits (its own layout: "(and (imply a b) (imply b a) )", newline + blank after a
   quantifier's variable list) is left alone by [prep] and tokenised to exactly the structural [print e].
   Hypotheses: names are lexically valid tokens (not empty; no white space, parenthesis, ";", tab, upper-case letter). *)
Theorem C18_expr_lex_print_text :
  forall nm : naming,
    (forall f, name_ok (nm_fl nm f) = true) -> (forall o, name_ok (nm_obj nm o) = true) ->
    (forall p, name_ok (nm_par nm p) = true) -> (forall v, name_ok (nm_var nm v) = true) ->
    (forall t, name_ok (nm_ty nm t) = true) ->
    forall e s, print nm e = Some s ->
    exists t, print_text nm e = Some t /\ prep t = t /\ lex t = Some s.
Proof. exact lex_print_text. Qed.
Print Assumptions C18_expr_lex_print_text.

(* text level round trip: for every expression of the fragment the converter emits a text, and lower-casing +
   tokenisation + _parse_exp of that text give [norm e] *)
Theorem C18_expr_text_roundtrip :
  forall (nm : naming) (E : env),
    (forall f, e_fl E (nm_fl nm f) = Some f) ->
    (forall f, is_kw (nm_fl nm f) = false) ->
    (forall o, e_obj E (nm_obj nm o) = Some o) ->
    (forall o, e_fl E (nm_obj nm o) = None) ->
    (forall o, starts_q (nm_obj nm o) = false) ->
    (forall p, e_par E (nm_par nm p) = Some p) ->
    (forall v, e_var E (nm_var nm v) = Some v) ->
    (forall p v, nm_par nm p <> nm_var nm v) ->
    (forall t, e_ty E (nm_ty nm t) = Some t) ->
    (forall t, starts_q (nm_ty nm t) = false) ->
    (forall s q, parse_number s = Some q -> e_fl E s = None /\ e_obj E s = None) ->
    (forall f, name_ok (nm_fl nm f) = true) ->
    (forall o, name_ok (nm_obj nm o) = true) ->
    (forall p, name_ok (nm_par nm p) = true) ->
    (forall v, name_ok (nm_var nm v) = true) ->
    (forall t, name_ok (nm_ty nm t) = true) ->
    forall e, pddl_ok [] e = true ->
    exists t, print_text nm e = Some t /\ parse_text E t = Some (norm e).
Proof. exact text_roundtrip. Qed.
Print Assumptions C18_expr_text_roundtrip.

Definition ex_flat : string :=
  "(forall (?v1 - t0 ?v2 - t1)" ++ String nl
  (" (and (or (x0) (not (x1 ?v1 b3))) (imply (x2 ?v2 ?p0) (and (imply (x0) (= ?v1 ?p1)) (imply (= ?v1 ?p1) (x0)) ))"
   ++ " (exists (?v3 - t0)" ++ String nl " (<= (+ 1.25 (+ -7 (x3 ?v3))) (* -0.001 (* (x4) 2))))"
   ++ " (< (- (x4) 2.0) (/ 10000000000000000000000 (x4))) (= (x4) 12345.67)))").

(* the same expression as above at the text level, and a hand-written layout with upper case, a comment, a tab and
   a carriage return *)
Example C18_expr_text_roundtrip_nonvacuous :
  print_text ex_nm ex_e = Some ex_flat
  /\ option_map (fun r => expr_eqb r (norm ex_e)) (parse_text ex_env ex_flat) = Some true
  /\ lex_group (prep ("(AND (X0) ; comment (" ++ String nl (String tab ("(Not (x1 ?P0 B3))" ++ String cr ")"))))
     = Some (SList [Atom "and"; SList [Atom "x0"]; SList [Atom "not"; SList [Atom "x1"; Atom "?p0"; Atom "b3"]]])
  /\ exists t, print_text ex_nm ex_e = Some t /\ parse_text ex_env t = Some (norm ex_e).
Proof.
  split; [vm_compute; reflexivity|]. split; [vm_compute; reflexivity|]. split; [vm_compute; reflexivity|].
  apply ex_text_roundtrip. vm_compute. reflexivity.
Qed.
Print Assumptions C18_expr_text_roundtrip_nonvacuous.

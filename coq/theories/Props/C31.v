(* C31 — Meta-engines return only valid plans and truthful statuses.
   Only statements; each is closed by [exact] of a lemma from Proofs/Oversub_proofs.v / Proofs/IFPlanner_proofs.v.
   The underlying planner is a universally quantified function (a Section Variable in the proofs), assumed to return
   only valid plans and to be complete.  Models: Model/Oversub.v (OversubscriptionPlanner._solve),
   Model/IFPlanner.v (InterpretedFunctionsPlanner._solve). *)
From Coq Require Import List ZArith NArith QArith Qcanon Bool Arith.
Import ListNotations.
Require Import UPV.Core.Expr UPV.Core.Eval UPV.Planning.Problem UPV.Planning.Sem UPV.Planning.SeqValidate.
Require Import UPV.Model.Oversub UPV.Model.IFPlanner UPV.Proofs.Oversub_proofs UPV.Proofs.IFPlanner_proofs.
Local Open Scope nat_scope.

(* oversubscription
   [exec p] = final state of plan p, None when p is not executable from the initial state: the REACHABLE STATES are the
   s with exec p = Some s for some plan p.  [hard s]: the hard goals hold in s.  [truth s]: truth value of every soft
   goal in s (None when some soft goal has no truth value in s: the gain is then undefined).  The engine is asked, for
   a subset m of the soft goals, for a plan that reaches a hard-goal state in which exactly the soft goals of m hold
   ([valid_sub]).  When the meta engine answers SOLVED_OPTIMALLY, its plan reaches a hard-goal state whose gain is
   maximal among all reachable hard-goal states. *)
Theorem oversub_optimal :
  forall (plan state : Type) (exec : plan -> option state) (hard : state -> bool) (truth : state -> option mask)
         (ws : list Qc) (planner : mask -> status * option plan),
    let valid_hard := fun p => match exec p with Some s => hard s | None => false end in
    let achieved := fun p => match exec p with Some s => truth s | None => None end in
    let gain_of := fun s => option_map (weight ws) (truth s) in
    (forall s a, truth s = Some a -> length a = length ws) ->
    (* the engine returns only valid plans *)
    (forall m st pl, planner m = (st, pl) -> positive st = true ->
       exists p, pl = Some p /\ valid_sub plan valid_hard achieved m p = true) ->
    (* the engine is complete *)
    (forall m, (exists p, valid_sub plan valid_hard achieved m p = true) -> positive (fst (planner m)) = true) ->
    forall pl, oversub_solve plan planner ws = (SolvedOpt, pl) ->
    exists p s w, pl = Some p /\ exec p = Some s /\ hard s = true /\ gain_of s = Some w /\
      forall p' s' w', exec p' = Some s' -> hard s' = true -> gain_of s' = Some w' -> (w' <= w)%Qc.
Proof. exact oversub_optimal_states. Qed.
Print Assumptions oversub_optimal.

(* the same over the planning semantics of Planning/Sem.v: the derived problem of a subset is P with the goals
   g / Not(g) appended ([with_soft]); validity is [valid_plan]; the gain is the sequential validator's
   oversubscription value of the final state ([final_gain] = SeqValidate.gains there) *)
Theorem oversub_optimal_planning :
  forall (sc : bool) (P : problem) (s0 : state) (gs : list (expr * Qc))
         (engine : problem -> status * option (list (N * list value))),
    (forall Q st pl, engine Q = (st, pl) -> positive st = true -> exists p, pl = Some p /\ valid_plan sc Q s0 p = true) ->
    (forall Q, (exists p, valid_plan sc Q s0 p = true) -> positive (fst (engine Q)) = true) ->
    forall pl, oversub_solve _ (fun m => engine (with_soft P (map fst gs) m)) (map snd gs) = (SolvedOpt, pl) ->
    exists p w, pl = Some p /\ valid_plan sc P s0 p = true /\ final_gain sc P s0 gs p = Some w /\
      forall p' w', valid_plan sc P s0 p' = true -> final_gain sc P s0 gs p' = Some w' -> (w' <= w)%Qc.
Proof. exact oversub_optimal_planning_lemma. Qed.
Print Assumptions oversub_optimal_planning.

(* truthful statuses: any positive answer carries a plan valid for the hard goals with a defined gain;
   UNSOLVABLE_PROVEN means that no reachable hard-goal state has a defined gain *)
Theorem oversub_positive_sound :
  forall (plan state : Type) (exec : plan -> option state) (hard : state -> bool) (truth : state -> option mask)
         (ws : list Qc) (planner : mask -> status * option plan),
    let valid_hard := fun p => match exec p with Some s => hard s | None => false end in
    let achieved := fun p => match exec p with Some s => truth s | None => None end in
    (forall m st pl, planner m = (st, pl) -> positive st = true ->
       exists p, pl = Some p /\ valid_sub plan valid_hard achieved m p = true) ->
    forall st pl, oversub_solve plan planner ws = (st, pl) -> positive st = true ->
    exists p s w, pl = Some p /\ exec p = Some s /\ hard s = true /\ option_map (weight ws) (truth s) = Some w.
Proof. exact oversub_positive_states. Qed.
Print Assumptions oversub_positive_sound.

Theorem oversub_unsolvable_truthful :
  forall (plan state : Type) (exec : plan -> option state) (hard : state -> bool) (truth : state -> option mask)
         (ws : list Qc) (planner : mask -> status * option plan),
    let valid_hard := fun p => match exec p with Some s => hard s | None => false end in
    let achieved := fun p => match exec p with Some s => truth s | None => None end in
    (forall s a, truth s = Some a -> length a = length ws) ->
    (forall m, (exists p, valid_sub plan valid_hard achieved m p = true) -> positive (fst (planner m)) = true) ->
    forall pl, oversub_solve plan planner ws = (UnsolvProven, pl) ->
    forall p' s', exec p' = Some s' -> hard s' = true -> option_map (weight ws) (truth s') = None.
Proof. exact oversub_unsolvable_states. Qed.
Print Assumptions oversub_unsolvable_truthful.

(* interpreted-functions planner
   [planner k]: the engine's answer for the problem compiled with knowledge k, plan mapped back;
   [validate p]: verdict of the validator on the ORIGINAL problem and the function values it computed. *)
Theorem ifplanner_sound :
  forall (plan K Obs : Type) (planner : K -> status * option plan) (validate : plan -> bool * Obs)
         (update : K -> Obs -> K) (size : K -> nat) (fuel : nat) (k : K) (st : status) (p : plan),
    ifp_loop plan K Obs planner validate update size fuel k = Returned st (Some p) ->
    fst (validate p) = true /\ positive st = true.
Proof. exact ifp_sound_any. Qed.
Print Assumptions ifplanner_sound.

(* completeness of the refinement loop, under the two stated hypotheses:
   (relaxation) with consistent knowledge the compiled problem is a relaxation of the original: every original valid
                plan is a compiled valid plan;
   (growth)     knowledge strictly grows (and stays consistent) on a failed validation, and there are at most
                [bound] function applications to learn. *)
Theorem ifplanner_complete :
  forall (plan K Obs : Type) (planner : K -> status * option plan) (validate : plan -> bool * Obs)
         (update : K -> Obs -> K) (size : K -> nat)
         (valid : plan -> bool) (validC : K -> plan -> bool) (consistent : K -> Prop) (bound : nat),
    (forall p, fst (validate p) = valid p) ->
    (forall k st pl, planner k = (st, pl) -> positive st = true -> exists p, pl = Some p /\ validC k p = true) ->
    (forall k, (exists p, validC k p = true) -> positive (fst (planner k)) = true) ->
    (forall k p, consistent k -> valid p = true -> validC k p = true) ->
    (forall k p, consistent k -> validC k p = true -> valid p = false ->
       consistent (update k (snd (validate p))) /\ size k < size (update k (snd (validate p)))) ->
    (forall k, consistent k -> size k <= bound) ->
    forall k0, consistent k0 ->
    forall fuel, bound < fuel ->
    (exists p, valid p = true) ->
    exists st p, ifp_loop plan K Obs planner validate update size fuel k0 = Returned st (Some p) /\
                 positive st = true /\ valid p = true.
Proof. exact ifp_complete_lemma. Qed.
Print Assumptions ifplanner_complete.

(* under the same hypotheses the loop always terminates with a result (no internal error, no failed assertion), and
   an answer without a plan is truthful: the original problem has no valid plan *)
Theorem ifplanner_negative_truthful :
  forall (plan K Obs : Type) (planner : K -> status * option plan) (validate : plan -> bool * Obs)
         (update : K -> Obs -> K) (size : K -> nat)
         (valid : plan -> bool) (validC : K -> plan -> bool) (consistent : K -> Prop) (bound : nat),
    (forall p, fst (validate p) = valid p) ->
    (forall k st pl, planner k = (st, pl) -> positive st = true -> exists p, pl = Some p /\ validC k p = true) ->
    (forall k, (exists p, validC k p = true) -> positive (fst (planner k)) = true) ->
    (forall k p, consistent k -> valid p = true -> validC k p = true) ->
    (forall k p, consistent k -> validC k p = true -> valid p = false ->
       consistent (update k (snd (validate p))) /\ size k < size (update k (snd (validate p)))) ->
    (forall k, consistent k -> size k <= bound) ->
    forall k0, consistent k0 ->
    forall fuel st, bound < fuel ->
    ifp_loop plan K Obs planner validate update size fuel k0 = Returned st None -> forall p, valid p = false.
Proof. exact ifp_negative_truthful. Qed.
Print Assumptions ifplanner_negative_truthful.

Theorem ifplanner_terminates :
  forall (plan K Obs : Type) (planner : K -> status * option plan) (validate : plan -> bool * Obs)
         (update : K -> Obs -> K) (size : K -> nat)
         (valid : plan -> bool) (validC : K -> plan -> bool) (consistent : K -> Prop) (bound : nat),
    (forall p, fst (validate p) = valid p) ->
    (forall k st pl, planner k = (st, pl) -> positive st = true -> exists p, pl = Some p /\ validC k p = true) ->
    (forall k, (exists p, validC k p = true) -> positive (fst (planner k)) = true) ->
    (forall k p, consistent k -> valid p = true -> validC k p = true) ->
    (forall k p, consistent k -> validC k p = true -> valid p = false ->
       consistent (update k (snd (validate p))) /\ size k < size (update k (snd (validate p)))) ->
    (forall k, consistent k -> size k <= bound) ->
    forall k0, consistent k0 ->
    forall fuel, bound < fuel ->
    exists st pl, ifp_loop plan K Obs planner validate update size fuel k0 = Returned st pl.
Proof. exact ifp_terminates_lemma. Qed.
Print Assumptions ifplanner_terminates.

(* The relaxation hypothesis cannot be dropped, and the current InterpretedFunctionsRemover does not always satisfy
   it (open findings C31-IF-EFFECT-CONDITION-READS-UNKNOWN, C31-IF-BOUNDED-STALE-VALUE: harness corpus problems
   "effect-condition-reads-unknown", "bounded-stale-value"): with a sound and complete engine, a validator that is
   exact and growing knowledge, the loop answers UNSOLVABLE_PROVEN on a solvable problem as soon as the compiled problem
   is not a relaxation.  So "finds a plan whenever the problem is solvable" is refuted for the loop alone. *)
Theorem ifplanner_complete_without_relaxation_refuted :
  exists (planner : nat -> status * option nat) (validate : nat -> bool * unit) (update : nat -> unit -> nat)
         (size : nat -> nat) (valid : nat -> bool) (validC : nat -> nat -> bool),
    (forall p, fst (validate p) = valid p) /\
    (forall k st pl, planner k = (st, pl) -> positive st = true -> exists p, pl = Some p /\ validC k p = true) /\
    (forall k, (exists p, validC k p = true) -> positive (fst (planner k)) = true) /\
    (forall k p, validC k p = true -> valid p = false -> size k < size (update k (snd (validate p)))) /\
    (exists p, valid p = true) /\
    forall fuel, ifp_loop nat nat unit planner validate update size (S fuel) 0 = Returned UnsolvProven None.
Proof. exact ifp_complete_needs_relaxation. Qed.
Print Assumptions ifplanner_complete_without_relaxation_refuted.

(* two soft goals with gains 2 and -1; three reachable states; the heaviest subset {0} is unachievable, so the answer
   is the plan for {0,1} with gain 1 *)
Definition nv_truth (s : nat) : option mask :=
  Some (match s with 0 => [false; false] | 1 => [true; true] | _ => [false; true] end).
Definition nv_planner (m : mask) : status * option nat :=
  if mask_eqb m [false; false] then (SolvedSat, Some 0)
  else if mask_eqb m [true; true] then (SolvedSat, Some 1)
  else if mask_eqb m [false; true] then (SolvedSat, Some 2)
  else (UnsolvProven, None).

Example oversub_optimal_nonvacuous :
  let ws := [zq 2; zq (-1)] in
  let valid_hard := fun p : nat => match Some p with Some s => true | None => false end in
  let achieved := fun p : nat => match Some p with Some s => nv_truth s | None => None end in
  (forall s a, nv_truth s = Some a -> length a = length ws) /\
  (forall m st pl, nv_planner m = (st, pl) -> positive st = true ->
     exists p, pl = Some p /\ valid_sub nat valid_hard achieved m p = true) /\
  (forall m, (exists p, valid_sub nat valid_hard achieved m p = true) -> positive (fst (nv_planner m)) = true) /\
  oversub_solve nat nv_planner ws = (SolvedOpt, Some 1).
Proof.
  cbv zeta. split; [|split; [|split]].
  - intros s a H. unfold nv_truth in H. inversion H. destruct s as [|[|s]]; reflexivity.
  - intros m st pl H Hpos. unfold nv_planner in H.
    destruct (mask_eqb m [false; false]) eqn:E0.
    { apply mask_eqb_eq in E0. subst. inversion H. exists 0. split; reflexivity. }
    destruct (mask_eqb m [true; true]) eqn:E1.
    { apply mask_eqb_eq in E1. subst. inversion H. exists 1. split; reflexivity. }
    destruct (mask_eqb m [false; true]) eqn:E2.
    { apply mask_eqb_eq in E2. subst. inversion H. exists 2. split; reflexivity. }
    inversion H; subst. discriminate.
  - intros m [p Hp]. unfold nv_planner.
    destruct p as [|[|p]]; unfold valid_sub, nv_truth in Hp; cbv beta iota in Hp; cbn [andb] in Hp;
      apply mask_eqb_eq in Hp; subst; reflexivity.
  - vm_compute. reflexivity.
Qed.

Example oversub_optimal_planning_nonvacuous :
  (* one Boolean fluent 0, one action 0 setting it; soft goal "fluent 0" with gain 3/2: the engine below is an
     exact table for the two derived problems *)
  let P := {| p_objs := []; p_ifun := []; p_fluents := [{| fd_id := 0%N; fd_sig := []; fd_ty := FBool |}];
              p_actions := [(0%N, {| a_params := []; a_pre := [];
                                     a_effs := [{| e_fl := 0%N; e_args := []; e_val := EBool true; e_cond := EBool true;
                                                   e_kind := KAssign; e_vars := []; e_isbool := true |}] |})];
              p_goals := []; p_invs := [] |} in
  let s0 : state := fun f a => Some (VBool false) in
  let gs := [(EFluent 0%N [], Q2Qc (3 # 2))] in
  final_gain false P s0 gs [(0%N, [])] = Some (Q2Qc (3 # 2)) /\
  valid_plan false (with_soft P (map fst gs) [true]) s0 [(0%N, [])] = true /\
  valid_plan false (with_soft P (map fst gs) [true]) s0 [] = false.
Proof. cbv zeta. repeat split; vm_compute; reflexivity. Qed.

(* knowledge = number of learnt values (at most 2); plans 0 and 1 are refuted by learning, plan 2 is valid *)
Example ifplanner_complete_nonvacuous :
  let planner := fun k : nat => (SolvedSat, Some (if k <? 2 then k else 2)) in
  let validate := fun p : nat => (p =? 2, tt) in
  let update := fun (k : nat) (_ : unit) => S k in
  let size := fun k : nat => k in
  let valid := fun p : nat => p =? 2 in
  let validC := fun (k p : nat) => (p =? 2) || ((k <=? p) && (p <? 2)) in
  let consistent := fun k : nat => k <= 2 in
  (forall p, fst (validate p) = valid p) /\
  (forall k st pl, planner k = (st, pl) -> positive st = true -> exists p, pl = Some p /\ validC k p = true) /\
  (forall k, (exists p, validC k p = true) -> positive (fst (planner k)) = true) /\
  (forall k p, consistent k -> valid p = true -> validC k p = true) /\
  (forall k p, consistent k -> validC k p = true -> valid p = false ->
     consistent (update k (snd (validate p))) /\ size k < size (update k (snd (validate p)))) /\
  (forall k, consistent k -> size k <= 2) /\ consistent 0 /\ (exists p, valid p = true) /\
  ifp_loop nat nat unit planner validate update size 3 0 = Returned SolvedSat (Some 2).
Proof.
  cbv zeta. repeat split; auto.
  - intros k st pl H _. inversion H; subst. eexists. split; [reflexivity|].
    destruct (k <? 2) eqn:E; [|reflexivity].
    rewrite E. rewrite Nat.leb_refl. simpl. apply orb_true_r.
  - intros k p _ H. rewrite H. reflexivity.
  - apply orb_true_iff in H0. destruct H0 as [H0|H0]; [congruence|].
    apply andb_true_iff in H0. destruct H0 as [H2 H3]. apply Nat.leb_le in H2. apply Nat.ltb_lt in H3.
    apply Nat.le_lt_trans with (m := p); auto.
  - exists 2. reflexivity.
Qed.

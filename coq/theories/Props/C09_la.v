(* C09, part (ii) on the Layer A fragment:   kind(compile(P)) <= resulting_problem_kind(kind(P))
   PROVED, for ALL problems of the Layer A record (Planning/Problem.v) and the Gallina models of the compilers that
   harness/layera.py ties to the real compilers, for the 13 features [la_covered] that the record determines, for
     QuantifiersRemover (LayerA_Quant.quant_compile)          ConditionalEffectsRemover (LayerA_Variants.cer_compile)
     StateInvariantsRemover (LayerA_Inv.sir_compile)           BoundedTypesRemover (LayerA_Inv.btr_compile)
     DisjunctiveConditionsRemover (LayerA_Variants.dcr_compile; under hypotheses on the external DNF tables that the
     real walker is KNOWN to violate in places: see the comment there)
     NegativeConditionsRemover (LayerA_Neg.neg_compile; under a feature-level hypothesis on the external rewriting of a
     single condition, likewise known to fail for Iff / Implies)
     Grounder (LayerA_Ground.ground_compile; declared kind = input kind).
   "kind" is KindOf's [kind_model] (C10's mirror of Problem.kind) of the embedded problem, [la_kind ax P], for EVERY
   auxiliary typing information [ax]/[ax'] of the original / compiled problem; the declared kind is the regenerated
   program of Gen/Gen_Engines.v run by Model/Factory.run_resulting.

   Per compiler:   *_removed   the features the compiler exists to remove are absent from the compiled kind;
                   *_partial   every covered feature of the compiled kind is in the declared kind
                               (_partial: 13 of the features; the full statement is C09_LA_declared_overapproximates_goal).
   External behaviour = Section variables of the models, with syntactic hypotheses:
     smp_ok smp            FNode.simplify introduces none of Or / Implies / Exists / Forall / Equals / interpreted function;
     keeps_op smp op_NOT   ... nor Not.  This one is FALSE of the real Simplifier (Implies(a,false) |-> Not(a)); it is asked
                           only for the clause NEGATIVE_CONDITIONS, and C09_LA_quantifiers_remover_negative_refuted shows the
                           clause fails without it — the REAL QuantifiersRemover shows the same (finding, notes/C09_la.md);
     simp_pre_keeps        check_and_simplify_preconditions introduces none of the six operators.
   Each statement is the theorem about [la_feats] of Proofs/LayerA_Kind_proofs.v carried over the bridge. *)
From Coq Require Import List ZArith NArith QArith Qcanon Bool String.
Import ListNotations.
Require Import UPV.Core.Expr UPV.Model.Kind UPV.Model.Factory UPV.Gen.Gen_Kind UPV.Gen.Gen_Engines.
Require Import UPV.Model.KindOf.
Require Import UPV.Core.Eval UPV.Core.Interp UPV.Planning.Problem UPV.Model.KindBridge.
Require Import UPV.Compilers.Variants UPV.Compilers.LayerA_Defs UPV.Compilers.LayerA_Quant.
Require Import UPV.Compilers.LayerA_Variants UPV.Compilers.LayerA_Inv UPV.Compilers.LayerA_Neg.
Require Import UPV.Planning.Ground UPV.Compilers.LayerA_Ground.
Require Import UPV.Proofs.LayerA_Kind_proofs.

(* the full statement for a Layer A compiler model: ALL features, not only the covered ones (not proved) *)
Definition C09_LA_declared_overapproximates_goal (e : engine) (compile : problem -> problem) : Prop :=
  forall ax ax' P k d,
    (forall f, In f (la_kind ax P) -> mem f (k_feats k) = true) ->
    run_resulting gen_tables (e_resulting e) k = Ok d ->
    forall f, In f (la_kind ax' (compile P)) -> mem f (k_feats d) = true.

(* on the covered features the kind function on the Layer A record is KindOf's kind_model of the embedded problem *)
Theorem C09_LA_bridge : forall ax P, filter covered (la_kind ax P) = la_feats P.
Proof. exact bridge. Qed.
Print Assumptions C09_LA_bridge.

Theorem C09_LA_bridge_in : forall ax P f, In f la_covered -> (In f (la_kind ax P) <-> In f (la_feats P)).
Proof. exact bridge_in. Qed.
Print Assumptions C09_LA_bridge_in.

Theorem C09_LA_quantifiers_remover_removed :
  forall smp ax P, keeps_op smp op_EXISTS -> keeps_op smp op_FORALL ->
    forall f, In f [f_EXISTENTIAL_CONDITIONS; f_UNIVERSAL_CONDITIONS; f_FORALL_EFFECTS] ->
              ~ In f (la_kind ax (quant_compile smp P)).
Proof.
  intros smp ax P KE KF.
  apply removed_covered; [|apply qr_removed; assumption].
  intros f Hf. simpl in Hf. unfold la_covered. simpl. intuition.
Qed.
Print Assumptions C09_LA_quantifiers_remover_removed.

Theorem C09_LA_quantifiers_remover_partial :
  forall smp ax ax' P k d,
    smp_ok smp -> (forall f, In f (la_kind ax P) -> mem f (k_feats k) = true) ->
    run_resulting gen_tables (e_resulting E_up_quantifiers_remover) k = Ok d ->
    forall f, In f la_covered -> In f (la_kind ax' (quant_compile smp P)) ->
              (f = f_NEGATIVE_CONDITIONS -> keeps_op smp op_NOT) -> mem f (k_feats d) = true.
Proof.
  intros smp ax ax' P k d S W Run f C H N.
  apply (qr_kind smp P k d S (within_of_kind ax P _ W) Run f); [|exact N].
  exact (covered_feats ax' _ f C H).
Qed.
Print Assumptions C09_LA_quantifiers_remover_partial.

Theorem C09_LA_conditional_effects_remover_removed :
  forall simp_pre nm ax P, ~ In f_CONDITIONAL_EFFECTS (la_kind ax (cer_compile simp_pre nm P)).
Proof.
  intros simp_pre nm ax P H.
  apply (cer_removed simp_pre nm P). apply (covered_feats ax); [|exact H]. unfold la_covered. simpl. tauto.
Qed.
Print Assumptions C09_LA_conditional_effects_remover_removed.

Theorem C09_LA_conditional_effects_remover_partial :
  forall simp_pre nm ax ax' P k d,
    (forall o, In o six_ops -> simp_pre_keeps simp_pre o) ->
    (forall f, In f (la_kind ax P) -> mem f (k_feats k) = true) ->
    run_resulting gen_tables (e_resulting E_up_conditional_effects_remover) k = Ok d ->
    forall f, In f la_covered -> In f (la_kind ax' (cer_compile simp_pre nm P)) -> mem f (k_feats d) = true.
Proof.
  intros simp_pre nm ax ax' P k d S W Run f C H.
  apply (cer_kind simp_pre nm P k d S (within_of_kind ax P _ W) Run f).
  exact (covered_feats ax' _ f C H).
Qed.
Print Assumptions C09_LA_conditional_effects_remover_partial.

Theorem C09_LA_state_invariants_remover_removed :
  forall smp ax P, ~ In f_STATE_INVARIANTS (la_kind ax (sir_compile smp P)).
Proof.
  intros smp ax P H.
  apply (sir_removed smp P). apply (covered_feats ax); [|exact H]. unfold la_covered. simpl. tauto.
Qed.
Print Assumptions C09_LA_state_invariants_remover_removed.

Theorem C09_LA_state_invariants_remover_partial :
  forall smp ax ax' P k d,
    smp_ok smp -> (forall f, In f (la_kind ax P) -> mem f (k_feats k) = true) ->
    run_resulting gen_tables (e_resulting E_up_state_invariants_remover) k = Ok d ->
    forall f, In f la_covered -> In f (la_kind ax' (sir_compile smp P)) ->
              (f = f_NEGATIVE_CONDITIONS -> keeps_op smp op_NOT) -> mem f (k_feats d) = true.
Proof.
  intros smp ax ax' P k d S W Run f C H N.
  apply (sir_kind smp P k d S (within_of_kind ax P _ W) Run f); [|exact N].
  exact (covered_feats ax' _ f C H).
Qed.
Print Assumptions C09_LA_state_invariants_remover_partial.

Theorem C09_LA_bounded_types_remover_removed :
  forall smp ax P, ~ In f_BOUNDED_TYPES (la_kind ax (btr_compile smp P)).
Proof.
  intros smp ax P H.
  apply (btr_removed smp P). apply (covered_feats ax); [|exact H]. unfold la_covered. simpl. tauto.
Qed.
Print Assumptions C09_LA_bounded_types_remover_removed.

Theorem C09_LA_bounded_types_remover_partial :
  forall smp ax ax' P k d,
    smp_ok smp -> (forall f, In f (la_kind ax P) -> mem f (k_feats k) = true) ->
    run_resulting gen_tables (e_resulting E_up_bounded_types_remover) k = Ok d ->
    forall f, In f la_covered -> In f (la_kind ax' (btr_compile smp P)) ->
              (f = f_NEGATIVE_CONDITIONS -> keeps_op smp op_NOT) -> mem f (k_feats d) = true.
Proof.
  intros smp ax ax' P k d S W Run f C H N.
  apply (btr_kind smp P k d S (within_of_kind ax P _ W) Run f); [|exact N].
  exact (covered_feats ax' _ f C H).
Qed.
Print Assumptions C09_LA_bounded_types_remover_partial.

(* the compiler does not support STATE_INVARIANTS (see the Example below): p_invs P = [].  The DNF tables are external;
   [dnf_nodisj]: the literals of a DNF contain no Or / Implies (FALSE of the real walker for disjunctions under
   quantifiers: open finding C09 up_disjunctive_conditions_remover / DISJUNCTIVE_CONDITIONS); [dnf_keeps] for the
   operators interpreted function / Exists / Forall / Equals.  NEGATIVE_CONDITIONS is excluded from the conclusion: the
   DNF of Implies / Iff contains Not (open finding up_disjunctive_conditions_remover / NEGATIVE_CONDITIONS). *)
Theorem C09_LA_disjunctive_conditions_remover_removed :
  forall cdnf pre_dnf nm ax P goals',
    p_invs P = [] -> dnf_nodisj cdnf pre_dnf goals' P op_OR -> dnf_nodisj cdnf pre_dnf goals' P op_IMPLIES ->
    ~ In f_DISJUNCTIVE_CONDITIONS (la_kind ax (dcr_compile cdnf pre_dnf nm P goals')).
Proof.
  intros cdnf pre_dnf nm ax P goals' NI A B H.
  apply (dcr_removed cdnf pre_dnf nm P goals' NI A B). apply (covered_feats ax); [|exact H].
  unfold la_covered. simpl. tauto.
Qed.
Print Assumptions C09_LA_disjunctive_conditions_remover_removed.

Theorem C09_LA_disjunctive_conditions_remover_partial :
  forall cdnf pre_dnf nm ax ax' P goals' k d,
    p_invs P = [] -> (forall o, In o dcr_ops -> dnf_keeps cdnf pre_dnf goals' P o) ->
    (forall f, In f (la_kind ax P) -> mem f (k_feats k) = true) ->
    run_resulting gen_tables (e_resulting E_up_disjunctive_conditions_remover) k = Ok d ->
    forall f, In f la_covered -> In f (la_kind ax' (dcr_compile cdnf pre_dnf nm P goals')) ->
              f <> f_NEGATIVE_CONDITIONS -> f <> f_DISJUNCTIVE_CONDITIONS -> mem f (k_feats d) = true.
Proof.
  intros cdnf pre_dnf nm ax ax' P goals' k d NI S W Run f C H.
  apply (dcr_kind cdnf pre_dnf nm P goals' k d NI S (within_of_kind ax P _ W) Run f).
  exact (covered_feats ax' _ f C H).
Qed.
Print Assumptions C09_LA_disjunctive_conditions_remover_partial.

(* The rewriting of one condition (NegativeFluentRemover.remove_negative_fluents: Nnf, simplify, walk_not) is external;
   [rw_feats_ok rw c]: the rewritten condition has no Not, and each of its other features is a feature of c, except
   DISJUNCTIVE_CONDITIONS when c has a negation and an equality.  The real walker violates this for Iff / Implies
   (NNF builds Or: open finding C09 up_negative_conditions_remover / DISJUNCTIVE_CONDITIONS).  What the theorems add: the
   ASSEMBLY of the compiled problem (negation fluents, mirrored effects with value simplify(Not(v)), add_precondition,
   the invariants simplified again) introduces no covered feature that the declared kind lacks. *)
Theorem C09_LA_negative_conditions_remover_removed :
  forall nmap rw smp ax P,
    (forall c, In c (la_conds P) -> rw_feats_ok rw c) ->
    (forall i, In i (p_invs P) -> rw_feats_ok (fun e => smp (rw e)) i) ->
    ~ In f_NEGATIVE_CONDITIONS (la_kind ax (neg_compile nmap rw smp P)).
Proof.
  intros nmap rw smp ax P A B H.
  apply (ncr_removed nmap rw smp P A B). apply (covered_feats ax); [|exact H]. unfold la_covered. simpl. tauto.
Qed.
Print Assumptions C09_LA_negative_conditions_remover_removed.

Theorem C09_LA_negative_conditions_remover_partial :
  forall nmap rw smp ax ax' P k d,
    (forall c, In c (la_conds P) -> rw_feats_ok rw c) ->
    (forall i, In i (p_invs P) -> rw_feats_ok (fun e => smp (rw e)) i) ->
    (forall f, In f (la_kind ax P) -> mem f (k_feats k) = true) ->
    run_resulting gen_tables (e_resulting E_up_negative_conditions_remover) k = Ok d ->
    forall f, In f la_covered -> In f (la_kind ax' (neg_compile nmap rw smp P)) -> mem f (k_feats d) = true.
Proof.
  intros nmap rw smp ax ax' P k d A B W Run f C H.
  apply (ncr_kind nmap rw smp P A B k d (within_of_kind ax P _ W) Run f).
  exact (covered_feats ax' _ f C H).
Qed.
Print Assumptions C09_LA_negative_conditions_remover_partial.

(* declared kind = the input kind (empty program).  [smp] is the grounder's Simplifier(env, problem); extra hypothesis: it
   leaves the constant TRUE alone (the model simplifies the condition of an unconditional effect too). *)
Theorem C09_LA_grounder_partial :
  forall smp tuples nm ax ax' P k d,
    smp (EBool true) = EBool true -> smp_ok smp -> (forall f, In f (la_kind ax P) -> mem f (k_feats k) = true) ->
    run_resulting gen_tables (e_resulting E_up_grounder) k = Ok d ->
    forall f, In f la_covered -> In f (la_kind ax' (ground_compile smp tuples nm P)) ->
              (f = f_NEGATIVE_CONDITIONS -> keeps_op smp op_NOT) -> mem f (k_feats d) = true.
Proof.
  intros smp tuples nm ax ax' P k d T S W Run f C H N.
  apply (grd_kind smp tuples nm P T k d S (within_of_kind ax P _ W) Run f); [|exact N].
  exact (covered_feats ax' _ f C H).
Qed.
Print Assumptions C09_LA_grounder_partial.

(* (top-level definitions, no `let ... in` in statements proved by vm_compute) *)
Definition ax0 : aux :=
  {| ax_father := fun _ => false; ax_isint := fun _ => true; ax_par := fun _ => TUser 0 false; ax_lin := fun _ => true;
     ax_vcls := fun _ => CBool; ax_rhs := fun _ => []; ax_objtys := [TUser 0 false; TUser 0 false];
     ax_default := fun _ => true; ax_inits := fun _ => 0%N; ax_size := fun _ => 1%N; ax_missing := fun _ => 1%N |}.
Definition kind_of_feats (l : list feature) : kind :=
  {| k_feats := mask_of l; k_ver := Some LATEST_PROBLEM_KIND_VERSION |}.
Definition declared (e : engine) (k : kind) : kind :=
  match run_resulting gen_tables (e_resulting e) k with Ok d => d | _ => k end.
Definition idsmp (e : expr) : expr := e.
Definition fb (f : N) (sig : list N) : fdecl := {| fd_id := f; fd_sig := sig; fd_ty := FBool |}.
Definition assign (f : N) (v c : expr) : effect :=
  {| e_fl := f; e_args := []; e_val := v; e_cond := c; e_kind := KAssign; e_vars := []; e_isbool := true |}.

(* QuantifiersRemover: `exists v:T. p(v)` over two objects becomes Or(p(o0), p(o1)); DISJUNCTIVE_CONDITIONS is new
   and declared *)
Definition exQ : problem :=
  {| p_objs := [(0%N, [0%N; 1%N])]; p_ifun := []; p_fluents := [fb 0 []; fb 1 [0%N]];
     p_actions := [(0%N, {| a_params := []; a_pre := [EExists [(0%N, 0%N)] (EFluent 1 [EVar 0 0])];
                            a_effs := [assign 0 (EBool true) (EBool true)] |})];
     p_goals := [EFluent 0 []]; p_invs := [] |}.
Definition exQ_k : kind := kind_of_feats (la_kind ax0 exQ).
Definition exQ_d : kind := declared E_up_quantifiers_remover exQ_k.

Example C09_LA_quantifiers_remover_nonvacuous :
  smp_ok idsmp /\ keeps_op idsmp op_NOT /\ keeps_op idsmp op_EXISTS /\ keeps_op idsmp op_FORALL
  /\ Forall (fun f => mem f (k_feats exQ_k) = true) (la_kind ax0 exQ)
  /\ run_resulting gen_tables (e_resulting E_up_quantifiers_remover) exQ_k = Ok exQ_d
  /\ In f_EXISTENTIAL_CONDITIONS (la_kind ax0 exQ)
  /\ ~ In f_DISJUNCTIVE_CONDITIONS (la_kind ax0 exQ)
  /\ In f_DISJUNCTIVE_CONDITIONS (la_kind ax0 (quant_compile idsmp exQ))
  /\ mem f_DISJUNCTIVE_CONDITIONS (k_feats exQ_d) = true.
Proof.
  split; [exact id_smp_ok|]. do 3 (split; [exact (id_keeps _)|]).
  split; [vm_compute; repeat constructor|]. split; [vm_compute; reflexivity|].
  split; [vm_compute; tauto|]. split; [vm_compute; intuition discriminate|].
  split; [vm_compute; tauto|vm_compute; reflexivity].
Qed.

(* the clause NEGATIVE_CONDITIONS of QuantifiersRemover FAILS without `keeps_op smp op_NOT`:
   the effect condition Implies(x, exists v:T. p(v)) over a type T without objects expands to Implies(x, false), which the
   simplifier rewrites to Not(x).  The input kind has no NEGATIVE_CONDITIONS, the declared kind neither, the compiled
   problem has.  (Same behaviour of the real compiler: harness/c09_la.py --repro-qr-neg.) *)
Definition exN : problem :=
  {| p_objs := [(0%N, [])]; p_ifun := []; p_fluents := [fb 0 []; fb 1 []; fb 2 [0%N]];
     p_actions := [(0%N, {| a_params := []; a_pre := [];
                            a_effs := [assign 1 (EBool true)
                                         (EImplies (EFluent 0 []) (EExists [(0%N, 0%N)] (EFluent 2 [EVar 0 0])))] |})];
     p_goals := [EFluent 1 []]; p_invs := [] |}.
Definition exN_k : kind := kind_of_feats (la_kind ax0 exN).
Definition exN_d : kind := declared E_up_quantifiers_remover exN_k.

Theorem C09_LA_quantifiers_remover_negative_refuted :
  exists smp ax P k d,
    smp_ok smp /\ Forall (fun f => mem f (k_feats k) = true) (la_kind ax P)
    /\ run_resulting gen_tables (e_resulting E_up_quantifiers_remover) k = Ok d
    /\ In f_NEGATIVE_CONDITIONS (la_kind ax (quant_compile smp P))
    /\ mem f_NEGATIVE_CONDITIONS (k_feats d) = false.
Proof.
  exists smp_implies_false, ax0, exN, exN_k, exN_d.
  split; [exact smp_implies_false_ok|].
  split; [vm_compute; repeat constructor|]. split; [vm_compute; reflexivity|].
  split; [vm_compute; tauto|vm_compute; reflexivity].
Qed.
Print Assumptions C09_LA_quantifiers_remover_negative_refuted.

(* ConditionalEffectsRemover: [z := true; if x then y := true] splits into a variant with precondition x and one with
   Not(x); NEGATIVE_CONDITIONS is new and declared, CONDITIONAL_EFFECTS is gone *)
Definition exC : problem :=
  {| p_objs := []; p_ifun := []; p_fluents := [fb 0 []; fb 1 []; fb 2 []];
     p_actions := [(0%N, {| a_params := []; a_pre := [];
                            a_effs := [assign 2 (EBool true) (EBool true); assign 1 (EBool true) (EFluent 0 [])] |})];
     p_goals := [EFluent 1 []]; p_invs := [] |}.
Definition exC_k : kind := kind_of_feats (la_kind ax0 exC).
Definition exC_d : kind := declared E_up_conditional_effects_remover exC_k.
Definition some_pre (l : list expr) : option (list expr) := Some l.
Definition ex_nm (i : N) (k : nat) : N := (i + N.of_nat k)%N.

Example C09_LA_conditional_effects_remover_nonvacuous :
  (forall o, In o six_ops -> simp_pre_keeps some_pre o)
  /\ Forall (fun f => mem f (k_feats exC_k) = true) (la_kind ax0 exC)
  /\ run_resulting gen_tables (e_resulting E_up_conditional_effects_remover) exC_k = Ok exC_d
  /\ In f_CONDITIONAL_EFFECTS (la_kind ax0 exC)
  /\ ~ In f_NEGATIVE_CONDITIONS (la_kind ax0 exC)
  /\ In f_NEGATIVE_CONDITIONS (la_kind ax0 (cer_compile some_pre ex_nm exC))
  /\ List.length (p_actions (cer_compile some_pre ex_nm exC)) = 2%nat
  /\ mem f_NEGATIVE_CONDITIONS (k_feats exC_d) = true.
Proof.
  split; [intros o _; exact (some_simp_pre_keeps o)|].
  split; [vm_compute; repeat constructor|]. split; [vm_compute; reflexivity|].
  split; [vm_compute; tauto|]. split; [vm_compute; intuition discriminate|].
  split; [vm_compute; tauto|]. split; vm_compute; reflexivity.
Qed.

(* StateInvariantsRemover: the invariant Or(x, y) becomes a precondition and a goal; STATE_INVARIANTS is gone,
   DISJUNCTIVE_CONDITIONS stays and is declared *)
Definition exS : problem :=
  {| p_objs := []; p_ifun := []; p_fluents := [fb 0 []; fb 1 []];
     p_actions := [(0%N, {| a_params := []; a_pre := []; a_effs := [assign 1 (EBool true) (EBool true)] |})];
     p_goals := [EFluent 1 []]; p_invs := [EOr [EFluent 0 []; EFluent 1 []]] |}.
Definition exS_k : kind := kind_of_feats (la_kind ax0 exS).
Definition exS_d : kind := declared E_up_state_invariants_remover exS_k.

Example C09_LA_state_invariants_remover_nonvacuous :
  smp_ok idsmp /\ keeps_op idsmp op_NOT
  /\ Forall (fun f => mem f (k_feats exS_k) = true) (la_kind ax0 exS)
  /\ run_resulting gen_tables (e_resulting E_up_state_invariants_remover) exS_k = Ok exS_d
  /\ In f_STATE_INVARIANTS (la_kind ax0 exS)
  /\ In f_DISJUNCTIVE_CONDITIONS (la_kind ax0 (sir_compile idsmp exS))
  /\ a_pre (snd (hd (0%N, {| a_params := []; a_pre := []; a_effs := [] |}) (p_actions (sir_compile idsmp exS))))
     = [EOr [EFluent 0 []; EFluent 1 []]]
  /\ mem f_DISJUNCTIVE_CONDITIONS (k_feats exS_d) = true /\ mem f_STATE_INVARIANTS (k_feats exS_d) = false.
Proof.
  split; [exact id_smp_ok|]. split; [exact (id_keeps _)|].
  split; [vm_compute; repeat constructor|]. split; [vm_compute; reflexivity|].
  split; [vm_compute; tauto|]. split; [vm_compute; tauto|]. split; [vm_compute; reflexivity|].
  split; vm_compute; reflexivity.
Qed.

(* BoundedTypesRemover: n in [0, 5] with `n += 1`; BOUNDED_TYPES is gone, the bound checks 0 <= n, n <= 5 become
   preconditions (no relevant operator), INCREASE_EFFECTS stays and is declared *)
Definition exB : problem :=
  {| p_objs := []; p_ifun := [];
     p_fluents := [{| fd_id := 0%N; fd_sig := []; fd_ty := FNum (Some (qc 0 1)) (Some (qc 5 1)) |}];
     p_actions := [(0%N, {| a_params := []; a_pre := [];
                            a_effs := [{| e_fl := 0%N; e_args := []; e_val := EInt 1; e_cond := EBool true; e_kind := KInc;
                                          e_vars := []; e_isbool := false |}] |})];
     p_goals := [ELe (EInt 3) (EFluent 0 [])]; p_invs := [] |}.
Definition exB_k : kind := kind_of_feats (la_kind ax0 exB).
Definition exB_d : kind := declared E_up_bounded_types_remover exB_k.

Example C09_LA_bounded_types_remover_nonvacuous :
  smp_ok idsmp /\ keeps_op idsmp op_NOT
  /\ Forall (fun f => mem f (k_feats exB_k) = true) (la_kind ax0 exB)
  /\ run_resulting gen_tables (e_resulting E_up_bounded_types_remover) exB_k = Ok exB_d
  /\ In f_BOUNDED_TYPES (la_kind ax0 exB)
  /\ In f_INCREASE_EFFECTS (la_kind ax0 (btr_compile idsmp exB))
  /\ List.length (a_pre (snd (hd (0%N, {| a_params := []; a_pre := []; a_effs := [] |}) (p_actions (btr_compile idsmp exB)))))
     = 2%nat
  /\ mem f_INCREASE_EFFECTS (k_feats exB_d) = true /\ mem f_BOUNDED_TYPES (k_feats exB_d) = false.
Proof.
  split; [exact id_smp_ok|]. split; [exact (id_keeps _)|].
  split; [vm_compute; repeat constructor|]. split; [vm_compute; reflexivity|].
  split; [vm_compute; tauto|]. split; [vm_compute; tauto|]. split; [vm_compute; reflexivity|].
  split; vm_compute; reflexivity.
Qed.

(* DisjunctiveConditionsRemover: the precondition Or(x, y) gives two variants with preconditions [x] and [y] *)
Definition exD : problem :=
  {| p_objs := []; p_ifun := []; p_fluents := [fb 0 []; fb 1 []; fb 2 []];
     p_actions := [(0%N, {| a_params := []; a_pre := [EOr [EFluent 0 []; EFluent 1 []]];
                            a_effs := [assign 2 (EBool true) (EBool true)] |})];
     p_goals := [EFluent 2 []]; p_invs := [] |}.
Definition exD_cdnf (c : expr) : list expr := [].
Definition exD_pre (a : action) : list (list expr) := [[EFluent 0 []]; [EFluent 1 []]].
Definition exD_goals : list expr := [EFluent 2 []].
Definition exD_k : kind := kind_of_feats (la_kind ax0 exD).
Definition exD_d : kind := declared E_up_disjunctive_conditions_remover exD_k.

Example C09_LA_disjunctive_conditions_remover_nonvacuous :
  p_invs exD = []
  /\ dnf_nodisj exD_cdnf exD_pre exD_goals exD op_OR /\ dnf_nodisj exD_cdnf exD_pre exD_goals exD op_IMPLIES
  /\ (forall o, In o dcr_ops -> dnf_keeps exD_cdnf exD_pre exD_goals exD o)
  /\ Forall (fun f => mem f (k_feats exD_k) = true) (la_kind ax0 exD)
  /\ run_resulting gen_tables (e_resulting E_up_disjunctive_conditions_remover) exD_k = Ok exD_d
  /\ In f_DISJUNCTIVE_CONDITIONS (la_kind ax0 exD)
  /\ List.length (p_actions (dcr_compile exD_cdnf exD_pre ex_nm exD exD_goals)) = 2%nat
  /\ mem f_DISJUNCTIVE_CONDITIONS (k_feats exD_d) = false
  /\ mem f_STATE_INVARIANTS (k_feats (e_supported E_up_disjunctive_conditions_remover)) = false.
Proof.
  split; [reflexivity|].
  assert (exD_lits : forall o, o <> 6%N -> forall (a : action) d l, In d (exD_pre a) -> In l d -> ~ In o (ops_of l)).
  { intros o N6 a d l Hd Hl I. simpl in Hd. destruct Hd as [<-|[<-|[]]]; destruct Hl as [<-|[]]; simpl in I;
      destruct I as [E|[]]; apply N6; symmetry; exact E. }
  assert (G : forall o, o <> 6%N -> forall g', In g' exD_goals -> ~ In o (ops_of g')).
  { intros o N6 g' [<-|[]] I. simpl in I. destruct I as [E|[]]. apply N6. symmetry. exact E. }
  split; [constructor; [intros c d []| intros a d l _; apply exD_lits; discriminate | apply G; discriminate]|].
  split; [constructor; [intros c d []| intros a d l _; apply exD_lits; discriminate | apply G; discriminate]|].
  split.
  { intros o Ho. assert (N6 : o <> 6%N) by (unfold dcr_ops in Ho; simpl in Ho; intuition (subst; discriminate)).
    constructor; [intros c d []| |].
    - intros a d l Hd Hl I. exfalso. exact (exD_lits o N6 a d l Hd Hl I).
    - intros g' Hg I. exfalso. exact (G o N6 g' Hg I). }
  split; [vm_compute; repeat constructor|]. split; [vm_compute; reflexivity|].
  split; [vm_compute; tauto|]. split; [vm_compute; reflexivity|]. split; vm_compute; reflexivity.
Qed.

(* NegativeConditionsRemover: the precondition Not(x) becomes the negation fluent 5; NEGATIVE_CONDITIONS is gone *)
Definition exNg : problem :=
  {| p_objs := []; p_ifun := []; p_fluents := [fb 0 []; fb 1 []];
     p_actions := [(0%N, {| a_params := []; a_pre := [ENot (EFluent 0 [])];
                            a_effs := [assign 1 (EBool true) (EBool true); assign 0 (EBool true) (EBool true)] |})];
     p_goals := [EFluent 1 []]; p_invs := [] |}.
Definition exNg_map : list (N * N) := [(0%N, 5%N)].
Definition exNg_rw : expr -> expr := nrw (ng exNg_map).
Definition exNg_k : kind := kind_of_feats (la_kind ax0 exNg).
Definition exNg_d : kind := declared E_up_negative_conditions_remover exNg_k.

Example C09_LA_negative_conditions_remover_nonvacuous :
  (forall c, In c (la_conds exNg) -> rw_feats_ok exNg_rw c)
  /\ (forall i, In i (p_invs exNg) -> rw_feats_ok (fun e => idsmp (exNg_rw e)) i)
  /\ Forall (fun f => mem f (k_feats exNg_k) = true) (la_kind ax0 exNg)
  /\ run_resulting gen_tables (e_resulting E_up_negative_conditions_remover) exNg_k = Ok exNg_d
  /\ In f_NEGATIVE_CONDITIONS (la_kind ax0 exNg)
  /\ a_pre (snd (hd (0%N, {| a_params := []; a_pre := []; a_effs := [] |})
                    (p_actions (neg_compile exNg_map exNg_rw idsmp exNg)))) = [EFluent 5 []]
  /\ List.length (a_effs (snd (hd (0%N, {| a_params := []; a_pre := []; a_effs := [] |})
                                  (p_actions (neg_compile exNg_map exNg_rw idsmp exNg))))) = 3%nat
  /\ List.length (p_fluents (neg_compile exNg_map exNg_rw idsmp exNg)) = 3%nat
  /\ mem f_NEGATIVE_CONDITIONS (k_feats exNg_d) = false.
Proof.
  split.
  { intros c Hc f Hf. vm_compute in Hc. destruct Hc as [<-|[<-|[<-|[<-|[]]]]]; vm_compute in Hf; destruct Hf. }
  split; [intros i []|].
  split; [vm_compute; repeat constructor|]. split; [vm_compute; reflexivity|].
  split; [vm_compute; tauto|]. split; [vm_compute; reflexivity|]. split; [vm_compute; reflexivity|].
  split; vm_compute; reflexivity.
Qed.

(* Grounder: a(p) with precondition Not(q(p)) has two ground instances; NEGATIVE_CONDITIONS stays and is declared *)
Definition exG : problem :=
  {| p_objs := [(0%N, [0%N; 1%N])]; p_ifun := []; p_fluents := [fb 0 []; fb 1 [0%N]];
     p_actions := [(0%N, {| a_params := [0%N]; a_pre := [ENot (EFluent 1 [EParam 0])];
                            a_effs := [assign 0 (EBool true) (EBool true)] |})];
     p_goals := [EFluent 0 []]; p_invs := [] |}.
Definition exG_tuples (i : N) : list (list value) := [[VObj 0]; [VObj 1]].
Definition exG_k : kind := kind_of_feats (la_kind ax0 exG).
Definition exG_d : kind := declared E_up_grounder exG_k.

Example C09_LA_grounder_nonvacuous :
  idsmp (EBool true) = EBool true /\ smp_ok idsmp /\ keeps_op idsmp op_NOT
  /\ Forall (fun f => mem f (k_feats exG_k) = true) (la_kind ax0 exG)
  /\ run_resulting gen_tables (e_resulting E_up_grounder) exG_k = Ok exG_d
  /\ map (fun ia => a_pre (snd ia)) (p_actions (ground_compile idsmp exG_tuples ex_nm exG))
     = [[ENot (EFluent 1 [EObj 0])]; [ENot (EFluent 1 [EObj 1])]]
  /\ In f_NEGATIVE_CONDITIONS (la_kind ax0 (ground_compile idsmp exG_tuples ex_nm exG))
  /\ mem f_NEGATIVE_CONDITIONS (k_feats exG_d) = true.
Proof.
  split; [reflexivity|]. split; [exact id_smp_ok|]. split; [exact (id_keeps _)|].
  split; [vm_compute; repeat constructor|]. split; [vm_compute; reflexivity|].
  split; [vm_compute; reflexivity|]. split; [vm_compute; tauto|vm_compute; reflexivity].
Qed.

(* C18, part "effect": the effect layer of the PDDL codec (Model/PddlEffect.v).
   print_effects = PDDLWriter._write_untimed_effects/_write_effect;  parse_effects = UPPDDLReader._add_effect. *)
From Coq Require Import List ZArith NArith QArith Qcanon Bool String Ascii Permutation.
Import ListNotations.
Require Import UPV.Core.Expr UPV.Core.Eval UPV.Planning.Problem UPV.Planning.Sem UPV.Model.PddlExpr UPV.Model.PddlLex
  UPV.Model.PddlEffect UPV.Proofs.PddlExpr_proofs UPV.Proofs.PddlLex_proofs UPV.Proofs.PddlEffect_proofs.
Local Open Scope string_scope.

(* SEMANTICS of the normal form (what the reader rebuilds from the writer's effect text, see [norm_effs]: effects with
   a constantly false condition dropped, breadth-first order, expressions normalised): for every simplifier, every
   interpretation and both quantifier modes, whenever the written effect list fires the assignments [acts], the re-read
   list fires the same assignments as a multiset (Planning/Sem.v [fired] = target key, kind, value of every effect
   instance whose condition holds).  No hypothesis besides membership in the fragment. *)
Theorem C18_effect_norm_effs_fired :
  forall (simp : expr -> expr) (isb : N -> bool) (sc : bool) (I : interp) (effs : list effect) (acts : list aeff),
    Forall (fun e => pddl_eff_ok simp isb e = true) effs ->
    fired sc I effs = Some acts ->
    exists acts', fired sc I (norm_effs effs) = Some acts' /\ Permutation acts acts'.
Proof. exact norm_effs_fired. Qed.
Print Assumptions C18_effect_norm_effs_fired.

(* ... and therefore the same successor state: with the documented per-fluent combination of Planning/Sem.v
   ([spec_fluent] = [combine] of the values assigned to a ground fluent and of its increases/decreases), the re-read
   effect list passes the conflict check exactly when the written one does ([spec_effects_ok]) and leads to the same
   successor ([spec_succ]) from every state - the result depends on the fired assignments only as a multiset. *)
Theorem C18_effect_roundtrip_same_successor :
  forall (simp : expr -> expr) (isb : N -> bool) (sc : bool) (I : interp) (P : problem) (s : state)
         (effs : list effect) (acts : list aeff),
    Forall (fun e => pddl_eff_ok simp isb e = true) effs ->
    fired sc I effs = Some acts ->
    exists acts', fired sc I (norm_effs effs) = Some acts'
                  /\ spec_effects_ok P s acts' = spec_effects_ok P s acts
                  /\ forall f args, spec_succ P s acts' f args = spec_succ P s acts f args.
Proof. exact roundtrip_same_successor. Qed.
Print Assumptions C18_effect_roundtrip_same_successor.

(* THE SYNTACTIC ROUND TRIP, for every simplifier [simp], every effect list of the fragment [pddl_eff_ok] (effects in
   simplifier normal form; plain, conditional, universally quantified and both; assign / increase / decrease / Boolean
   literals) and both settings of rewrite_bool_assignments: the writer prints an "(and ...)" group and the reader's FIFO work
   list rebuilds exactly [norm_effs effs].
   Hypotheses: the 11 renaming hypotheses of C18_expr_roundtrip, no fluent is named like an effect keyword
   (and/when/not/assign/increase/decrease/forall), no fluent / object / type is named "#t". *)
Theorem C18_effect_roundtrip :
  forall (simp : expr -> expr) (isb : N -> bool) (nm : naming) (E : env),
    (forall f, PddlExpr.e_fl E (nm_fl nm f) = Some f) ->
    (forall f, is_kw (nm_fl nm f) = false) ->
    (forall o, e_obj E (nm_obj nm o) = Some o) ->
    (forall o, PddlExpr.e_fl E (nm_obj nm o) = None) ->
    (forall o, starts_q (nm_obj nm o) = false) ->
    (forall p, e_par E (nm_par nm p) = Some p) ->
    (forall v, e_var E (nm_var nm v) = Some v) ->
    (forall p v, nm_par nm p <> nm_var nm v) ->
    (forall t, e_ty E (nm_ty nm t) = Some t) ->
    (forall t, starts_q (nm_ty nm t) = false) ->
    (forall s q, parse_number s = Some q -> PddlExpr.e_fl E s = None /\ e_obj E s = None) ->
    (forall f, is_eff_kw (nm_fl nm f) = false) ->
    (forall f, (nm_fl nm f =? "#t") = false) ->
    (forall o, (nm_obj nm o =? "#t") = false) ->
    (forall t, (nm_ty nm t =? "#t") = false) ->
    forall (rewrite : bool) (effs : list effect),
      forallb (pddl_eff_ok simp isb) effs = true ->
      exists s, print_effects simp nm rewrite effs = Some s /\ parse_effects simp E isb s = Some (norm_effs effs).
Proof. exact effects_roundtrip. Qed.
Print Assumptions C18_effect_roundtrip.

(* TEXT LEVEL: the text _write_untimed_effects really emits ("(and" + " f" / " (when c f)" / "(forall (vs) ...)" items, the
   forall items WITHOUT a blank before their parenthesis) is left alone by the reader's lower-casing, tokenised to the
   structural [print_effects] and read back by _add_effect as [norm_effs effs].  Hypotheses: those of
   C18_effect_roundtrip + names are lexically valid tokens ([name_ok], as in C18_expr_text_roundtrip). *)
Theorem C18_effect_text_roundtrip :
  forall (simp : expr -> expr) (isb : N -> bool) (nm : naming) (E : env),
    (forall f, PddlExpr.e_fl E (nm_fl nm f) = Some f) ->
    (forall f, is_kw (nm_fl nm f) = false) ->
    (forall o, e_obj E (nm_obj nm o) = Some o) ->
    (forall o, PddlExpr.e_fl E (nm_obj nm o) = None) ->
    (forall o, starts_q (nm_obj nm o) = false) ->
    (forall p, e_par E (nm_par nm p) = Some p) ->
    (forall v, e_var E (nm_var nm v) = Some v) ->
    (forall p v, nm_par nm p <> nm_var nm v) ->
    (forall t, e_ty E (nm_ty nm t) = Some t) ->
    (forall t, starts_q (nm_ty nm t) = false) ->
    (forall s q, parse_number s = Some q -> PddlExpr.e_fl E s = None /\ e_obj E s = None) ->
    (forall f, is_eff_kw (nm_fl nm f) = false) ->
    (forall f, (nm_fl nm f =? "#t") = false) ->
    (forall o, (nm_obj nm o =? "#t") = false) ->
    (forall t, (nm_ty nm t =? "#t") = false) ->
    (forall f, name_ok (nm_fl nm f) = true) ->
    (forall o, name_ok (nm_obj nm o) = true) ->
    (forall p, name_ok (nm_par nm p) = true) ->
    (forall v, name_ok (nm_var nm v) = true) ->
    (forall t, name_ok (nm_ty nm t) = true) ->
    forall (rewrite : bool) (effs : list effect),
      forallb (pddl_eff_ok simp isb) effs = true ->
      exists t, print_effects_text simp nm rewrite effs = Some t
                /\ parse_effects_text simp E isb t = Some (norm_effs effs).
Proof. exact effects_text_roundtrip. Qed.
Print Assumptions C18_effect_text_roundtrip.

(* a concrete instance with every shape: plain, when, forall, forall+when, a dropped effect, increase, a value whose
   normal form differs; the reader's breadth-first order is visible in the result *)
Definition xe (f : N) (args : list expr) (v c : expr) (k : ekind) (vs : list (N * N)) (b : bool) : effect :=
  {| Problem.e_fl := f; e_args := args; e_val := v; e_cond := c; e_kind := k; e_vars := vs; e_isbool := b |}.
Definition ex_isb (f : N) : bool := (f =? 0)%N || (f =? 2)%N.
Definition ex_effs : list effect :=
  [ xe 1 [EObj 3] (EInt 2) (EFluent 0 []) KInc [] false;
    xe 2 [EVar 1 0] (EBool false) (EBool true) KAssign [(1%N, 0%N)] true;
    xe 0 [] (EBool true) (EBool true) KAssign [] true;
    xe 1 [EVar 2 0] (EPlus [EFluent 1 [EVar 2 0]; EInt 1]) (EFluent 2 [EVar 2 0]) KAssign [(2%N, 0%N)] false;
    xe 0 [] (EBool false) (EBool false) KAssign [] true;
    xe 2 [EObj 3] (EBool true) (EBool true) KAssign [] true ].
Definition ex_eff_text : sexp :=
  SList [Atom "and";
    SList [Atom "when"; SList [Atom "x0"]; SList [Atom "increase"; SList [Atom "x1"; Atom "b3"]; Atom "2"]];
    SList [Atom "forall"; SList [Atom "?v1"; Atom "-"; Atom "t0"]; SList [Atom "not"; SList [Atom "x2"; Atom "?v1"]]];
    SList [Atom "x0"];
    SList [Atom "forall"; SList [Atom "?v2"; Atom "-"; Atom "t0"];
      SList [Atom "when"; SList [Atom "x2"; Atom "?v2"];
        SList [Atom "assign"; SList [Atom "x1"; Atom "?v2"]; SList [Atom "+"; Atom "1"; SList [Atom "x1"; Atom "?v2"]]]]];
    SList [Atom "x2"; Atom "b3"]].

Example C18_effect_nonvacuous :
  forallb (pddl_eff_ok (fun x => x) ex_isb) ex_effs = true
  /\ print_effects (fun x => x) ex_nm true ex_effs = Some ex_eff_text
  /\ parse_effects (fun x => x) ex_env ex_isb ex_eff_text = Some (norm_effs ex_effs)
  /\ (exists s, print_effects (fun x => x) ex_nm true ex_effs = Some s
                /\ parse_effects (fun x => x) ex_env ex_isb s = Some (norm_effs ex_effs))
  /\ norm_effs ex_effs =
     [ xe 0 [] (EBool true) (EBool true) KAssign [] true;
       xe 2 [EObj 3] (EBool true) (EBool true) KAssign [] true;
       xe 1 [EObj 3] (EInt 2) (EFluent 0 []) KInc [] false;
       xe 2 [EVar 1 0] (EBool false) (EBool true) KAssign [(1%N, 0%N)] true;
       xe 1 [EVar 2 0] (EPlus [EInt 1; EFluent 1 [EVar 2 0]]) (EFluent 2 [EVar 2 0]) KAssign [(2%N, 0%N)] false ].
Proof.
  split; [vm_compute; reflexivity|]. split; [vm_compute; reflexivity|]. split; [vm_compute; reflexivity|].
  split; [apply ex_effects_roundtrip; vm_compute; reflexivity|vm_compute; reflexivity].
Qed.
Print Assumptions C18_effect_nonvacuous.

Example C18_effect_text_nonvacuous :
  print_effects_text (fun x => x) ex_nm true ex_effs =
    Some "(and (when (x0) (increase (x1 b3) 2))(forall (?v1 - t0) (not (x2 ?v1))) (x0)(forall (?v2 - t0) (when (x2 ?v2) (assign (x1 ?v2) (+ 1 (x1 ?v2))))) (x2 b3))"
  /\ exists t, print_effects_text (fun x => x) ex_nm true ex_effs = Some t
               /\ parse_effects_text (fun x => x) ex_env ex_isb t = Some (norm_effs ex_effs).
Proof. split; [vm_compute; reflexivity|]. apply ex_effects_text_roundtrip. vm_compute. reflexivity. Qed.
Print Assumptions C18_effect_text_nonvacuous.

(* the typed parameter list ":parameters (?p - t ...)" is read back: the tokens are atoms, the grammar's typed list
   ([parse_vars]) returns the names with their types and act.parameter finds every parameter *)
Theorem C18_action_params_roundtrip :
  forall (nm : naming) (E : env),
    (forall p, e_par E (nm_par nm p) = Some p) ->
    (forall t, e_ty E (nm_ty nm t) = Some t) ->
    (forall t, starts_q (nm_ty nm t) = false) ->
    forall ps, forallb is_atom (print_pars nm ps) = true
               /\ exists nps, parse_vars E [] (print_pars nm ps) = Some nps
                              /\ sequence (map (fun p => option_map (fun i => (i, snd p)) (e_par E (fst p))) nps) = Some ps.
Proof. exact params_roundtrip. Qed.
Print Assumptions C18_action_params_roundtrip.

(* THE WHOLE ACTION, structural level: for every action of the fragment [pddl_action_ok] (no precondition simplifies to
   FALSE; the written conjuncts - preconditions simplified, TRUE dropped, a top-level And flattened - are fixpoints of the
   simplifier and printable; effects in [pddl_eff_ok]) the writer produces the parameter tokens, the "(and c1 .. cn)"
   precondition group (n = 0, 1, many; "()" or no :precondition for an action without preconditions) and the effect
   group, and the reader rebuilds [norm_action simp a]: same typed parameters, ONE precondition = the conjunction of the
   normalised conjuncts (none when it is TRUE), effects = [norm_effs]. *)
Theorem C18_action_roundtrip :
  forall (simp : expr -> expr) (isb : N -> bool) (nm : naming) (E : env),
    (forall f, PddlExpr.e_fl E (nm_fl nm f) = Some f) ->
    (forall f, is_kw (nm_fl nm f) = false) ->
    (forall o, e_obj E (nm_obj nm o) = Some o) ->
    (forall o, PddlExpr.e_fl E (nm_obj nm o) = None) ->
    (forall o, starts_q (nm_obj nm o) = false) ->
    (forall p, e_par E (nm_par nm p) = Some p) ->
    (forall v, e_var E (nm_var nm v) = Some v) ->
    (forall p v, nm_par nm p <> nm_var nm v) ->
    (forall t, e_ty E (nm_ty nm t) = Some t) ->
    (forall t, starts_q (nm_ty nm t) = false) ->
    (forall s q, parse_number s = Some q -> PddlExpr.e_fl E s = None /\ e_obj E s = None) ->
    (forall f, is_eff_kw (nm_fl nm f) = false) ->
    (forall f, (nm_fl nm f =? "#t") = false) ->
    (forall o, (nm_obj nm o =? "#t") = false) ->
    (forall t, (nm_ty nm t =? "#t") = false) ->
    forall (rewrite empty_pre : bool) (a : paction),
      pddl_action_ok simp isb a = true ->
      exists x, print_action simp nm rewrite empty_pre a = Some (Some x)
                /\ parse_action simp E isb x = Some (norm_action simp a).
Proof. exact action_roundtrip. Qed.
Print Assumptions C18_action_roundtrip.

(* ... and the re-read action BEHAVES like the written one: in every interpretation in which the Simplifier is sound on
   conditions (hypothesis: it preserves [holds]; this is C11's subject) all preconditions of [a] hold exactly when the
   precondition of [norm_action simp a] holds, and whenever the effects of [a] fire [acts], the effects of the re-read
   action fire assignments that pass the conflict check equally and give the same successor from every state. *)
Theorem C18_action_same_behaviour :
  forall (simp : expr -> expr) (isb : N -> bool) (sc : bool) (I : interp),
    (forall x, holds sc I (simp x) = holds sc I x) ->
    forall (P : problem) (s : state) (a : paction),
      pddl_action_ok simp isb a = true ->
      forallb (holds sc I) (pa_pre (norm_action simp a)) = forallb (holds sc I) (pa_pre a)
      /\ forall acts, fired sc I (pa_effs a) = Some acts ->
           exists acts', fired sc I (pa_effs (norm_action simp a)) = Some acts'
                         /\ spec_effects_ok P s acts' = spec_effects_ok P s acts
                         /\ forall f args, spec_succ P s acts' f args = spec_succ P s acts f args.
Proof. exact action_same_behaviour. Qed.
Print Assumptions C18_action_same_behaviour.

(* non-vacuity: an action with two typed parameters, three preconditions (one simplifier-trivial shape: a top-level And
   that is flattened), and the all-shapes effect list; identity simplifier; both theorems' premises hold *)
Definition ex_action : paction :=
  {| pa_params := [(0%N, 0%N); (1%N, 1%N)];
     pa_pre := [EAnd [EFluent 0 []; ENot (EFluent 2 [EParam 0])]; ELe (EInt 0) (EFluent 1 [EParam 1])];
     pa_effs := ex_effs |}.
Example C18_action_nonvacuous :
  pddl_action_ok (fun x => x) ex_isb ex_action = true
  /\ (exists x, print_action (fun x => x) ex_nm true false ex_action = Some (Some x)
                /\ parse_action (fun x => x) ex_env ex_isb x = Some (norm_action (fun x => x) ex_action))
  /\ pa_pre (norm_action (fun x => x) ex_action)
     = [EAnd [EFluent 0 []; ENot (EFluent 2 [EParam 0]); ELe (EInt 0) (EFluent 1 [EParam 1])]].
Proof.
  split; [vm_compute; reflexivity|]. split; [|vm_compute; reflexivity].
  apply (action_roundtrip (fun x => x) ex_isb ex_nm ex_env (pref_ok "x") (fun f => eq_refl) (pref_ok "b") (fun o => eq_refl)
           (fun o => eq_refl) (pref_ok "p") (pref_ok "v") (fun p v (H : pref_nm "p" p = pref_nm "v" v) => ltac:(discriminate H))
           (pref_ok "t") (fun t => eq_refl) ex_num (fun f => eq_refl) (fun f => eq_refl) (fun o => eq_refl) (fun t => eq_refl)).
  vm_compute. reflexivity.
Qed.
Print Assumptions C18_action_nonvacuous.

(* OPEN: the text layout of the "(:action name :parameters ( ...) :precondition ... :effect ...)" block and its
   character-by-character correspondence (the three groups inside are covered: C18_expr_text_roundtrip,
   C18_effect_text_roundtrip, the parameter tokens). *)

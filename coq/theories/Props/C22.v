(* C22 - Problem cloning yields an equal, independent copy that accepts the same edits.
   Only statements; each is closed by [exact] of a lemma from Proofs/Clone_fields.v or Proofs/Clone_proofs.v.

   Reading of the model (Model/Clone.v): [h] is a heap of Python containers, [p] a Problem object (the addresses of its
   containers), [wf h p] says its containers are distinct existing cells, [abs h p] is the problem's content read through
   its attributes, [clone_world h p] is the heap after `c = p.clone()`, [wrun] performs API calls on the original
   (SOrig) or the clone (SClone) by in-place mutation, [prun] is the pure semantics of a call sequence on a content. *)
From Coq Require Import List NArith Bool.
From Coq Require Import String.
Import ListNotations.
Require Import UPV.Model.Clone UPV.Proofs.Clone_proofs UPV.Gen.Gen_Clone UPV.Proofs.Clone_fields.

(* T: the regenerated attribute tables (Problem, ContingentProblem, HierarchicalProblem, MultiAgentProblem and its
        MAEnvironment, SchedulingProblem, Agent, the action / event / process classes) *)
Theorem C22_clone_copies_every_field :
  forall cf, In cf Gen_Clone.all_fields -> Gen_Clone.covered cf = true.
Proof. exact clone_copies_every_field. Qed.
Print Assumptions C22_clone_copies_every_field.

Theorem C22_clone_writes_only_initialised_fields :
  forall cf, In cf Gen_Clone.cloned_fields -> In cf Gen_Clone.all_fields.
Proof. exact cloned_fields_declared. Qed.
Print Assumptions C22_clone_writes_only_initialised_fields.

(* copies are as deep as the attribute is nested: e.g. DurativeAction._continuous_effects : Dict[TimeInterval, List[Effect]]
   needs a new dict, new lists and cloned effects (a shallow dict.copy() would share the lists between original and
   clone); the shallower copies that remain are the justified `shallow_accepted` rows, one of which is the open HTN finding *)
Theorem C22_nested_fields_copied_deeply :
  forall r, In r Gen_Clone.required_depth -> Gen_Clone.deep_enough r = true.
Proof. exact nested_fields_copied_deeply. Qed.
Print Assumptions C22_nested_fields_copied_deeply.

(* the behavioural model below has exactly the attributes that Problem.clone() writes ... *)
Theorem C22_model_attributes_are_the_cloned_ones :
  forall f, In f (Gen_Clone.cloned_of "Problem"%string) <->
            In f (Fields.scal_fields ++ Fields.flat_fields ++ Fields.nest_fields).
Proof. exact model_fields_match. Qed.
Print Assumptions C22_model_attributes_are_the_cloned_ones.

(* ... and the contingent / hierarchical clone() write all of them too (they reuse Problem._clone_to) *)
Theorem C22_subclasses_reuse_problem_clone :
  forall f, In f (Gen_Clone.cloned_of "Problem"%string) ->
    In f (Gen_Clone.cloned_of "ContingentProblem"%string) /\ In f (Gen_Clone.cloned_of "HierarchicalProblem"%string).
Proof. exact subclasses_clone_problem_fields. Qed.
Print Assumptions C22_subclasses_reuse_problem_clone.

(* clone() returns an equal problem of the same kind, does not touch the original, shares no container *)
Theorem C22_clone_equal :
  forall h p, wf h p ->
    let w := clone_world h p in
    abs (w_heap w) (w_c w) = abs h p /\ abs (w_heap w) (w_p w) = abs h p /\
    wf (w_heap w) (w_p w) /\ wf (w_heap w) (w_c w) /\
    disjoint (footprint (w_heap w) (w_p w)) (footprint (w_heap w) (w_c w)).
Proof. exact clone_equal. Qed.
Print Assumptions C22_clone_equal.

(* == (Problem.__eq__) and kind are functions of the content; == is reflexive whatever kind / initial_values compute *)
Theorem C22_eq_reflexive :
  forall (kind : pstate -> N) (initial_values : pstate -> list (N * N)) s, peq kind initial_values s s = true.
Proof. exact peq_refl. Qed.
Print Assumptions C22_eq_reflexive.

(* every interleaving of calls on the two problems: each evolves as if it were alone (content and outcomes), and
        both stay well-formed, so the statement applies again to any problem reached this way *)
Theorem C22_simulation :
  forall h p tr, wf h p ->
    let r := wrun (clone_world h p) tr in
    abs (w_heap (fst r)) (w_p (fst r)) = fst (prun (abs h p) (proj SOrig tr)) /\
    abs (w_heap (fst r)) (w_c (fst r)) = fst (prun (abs h p) (proj SClone tr)) /\
    proj_out SOrig tr (snd r) = snd (prun (abs h p) (proj SOrig tr)) /\
    proj_out SClone tr (snd r) = snd (prun (abs h p) (proj SClone tr)) /\
    wf (w_heap (fst r)) (w_p (fst r)) /\ wf (w_heap (fst r)) (w_c (fst r)).
Proof. exact clone_simulation. Qed.
Print Assumptions C22_simulation.

(* the same operations on both: each succeeds on the clone iff it succeeds on the original (same outcome, even the
        same exception), and the two have the same content afterwards (hence ==, same kind) *)
Theorem C22_same_outcomes_and_stay_equal :
  forall h p ops, wf h p ->
    let r := wrun (clone_world h p) (both ops) in
    proj_out SClone (both ops) (snd r) = proj_out SOrig (both ops) (snd r) /\
    proj_out SOrig (both ops) (snd r) = snd (prun (abs h p) ops) /\
    abs (w_heap (fst r)) (w_c (fst r)) = abs (w_heap (fst r)) (w_p (fst r)) /\
    abs (w_heap (fst r)) (w_p (fst r)) = fst (prun (abs h p) ops).
Proof. exact clone_same_outcomes. Qed.
Print Assumptions C22_same_outcomes_and_stay_equal.

(* operations on one never change the other: two histories that agree on the calls made on one side give that side
        the same outcomes and the same content, whatever was done to the other side *)
Theorem C22_independent :
  forall h p tr1 tr2 sd, wf h p -> proj sd tr1 = proj sd tr2 ->
    let r1 := wrun (clone_world h p) tr1 in
    let r2 := wrun (clone_world h p) tr2 in
    proj_out sd tr1 (snd r1) = proj_out sd tr2 (snd r2) /\
    match sd with
    | SOrig => abs (w_heap (fst r1)) (w_p (fst r1)) = abs (w_heap (fst r2)) (w_p (fst r2))
    | SClone => abs (w_heap (fst r1)) (w_c (fst r1)) = abs (w_heap (fst r2)) (w_c (fst r2))
    end.
Proof. exact clone_independent. Qed.
Print Assumptions C22_independent.

(* OPEN FINDINGS, proved on the faithful model (see notes/C22.md, KNOWN_FINDINGS.json) *)

(* C22-HTN-METHODS-ALIAS-ACTIONS: HierarchicalProblem.clone copies the _methods dict but shares the Method objects, whose
   subtasks reference the ORIGINAL's Action objects: a successful add_effect on an action of the original changes what the
   clone's methods look like.  Independence is false for hierarchical problems with an action used as a subtask. *)
Theorem C22_htn_methods_alias_original_actions_refuted :
  exists h hp o,
    wf h (h_prob hp) /\
    let (h1, hc) := hclone_htn h hp in
    let '(h2, _, out) := hstep h1 (h_prob hp) o in
    out = Ok /\ methods_view h2 (h_methods hc) <> methods_view h1 (h_methods hc).
Proof. exact htn_methods_alias_original_actions. Qed.
Print Assumptions C22_htn_methods_alias_original_actions_refuted.

(* C22-MA-SHARED-ACTION-UNSHARED: the hypothesis [wf] (no container reachable twice) cannot be dropped: an original in
   which one action object sits in two action lists (one Action added to two agents) and its clone, given the same
   add_effect, end up different although every call succeeded on both. *)
Theorem C22_aliased_original_refuted :
  exists h p ops,
    ~ NoDup (footprint h p) /\
    let r := wrun (clone_world h p) (both ops) in
    snd r = [Ok; Ok] /\
    abs (w_heap (fst r)) (w_c (fst r)) <> abs (w_heap (fst r)) (w_p (fst r)).
Proof. exact aliased_original_diverges. Qed.
Print Assumptions C22_aliased_original_refuted.

(* non-vacuity: a problem with a timed increase on fluent 7 at timing 5 (the shape of defect #25).  After cloning,
        a conflicting timed assignment is rejected by BOTH (Fail 2 = UPConflictingEffectsException), a fresh goal is
        accepted by both, and an edit of the clone only is invisible in the original. *)
Definition ex_state : pstate :=
  {| s_scal := [1; 0; 0; 0]%N;
     s_flat := [CList []; CList []; CList [(7, 3)%N]; CDict [(7, 0)%N]; CDict []; CDict []; CList []; CList [];
                CList []; CList []; CList []; CDict []];
     s_nest := [ [(20%N, CAct {| a_static := 30; a_sim := []; a_effs := [(0%N, [])]; a_asg := [(0%N, [])];
                                 a_incdec := [(0%N, [])]; a_ceffs := [] |})];
                 [(5%N, CList [(40, 0)%N])]; []; [(5%N, CDict [])]; [(5%N, CList [(7, 0)%N])] ] |}.
Definition ex_assign : op :=
  {| o_pre := None; o_body := OTimedEffect 5 {| e_id := 41; e_fl := 7; e_val := 50; e_kind := EAssign; e_skip := false |} |}.
Definition ex_goal : op := {| o_pre := None; o_body := OAddGoal 60 false |}.

Example C22_nonvacuous :
  let (h, p) := load ex_state in
  wf h p /\ abs h p = ex_state /\
  (let r := wrun (clone_world h p) (both [ex_assign; ex_goal]) in
   snd r = [Fail 2; Fail 2; Ok; Ok]
   /\ lst (flat (abs (w_heap (fst r)) (w_c (fst r))) F_GOALS) = [(60, 0)%N]) /\
  (let r := wrun (clone_world h p) [(SClone, ex_goal)] in
   lst (flat (abs (w_heap (fst r)) (w_p (fst r))) F_GOALS) = []
   /\ lst (flat (abs (w_heap (fst r)) (w_c (fst r))) F_GOALS) = [(60, 0)%N]).
Proof.
  vm_compute load. split; [apply wfb_wf; vm_compute; reflexivity|]. vm_compute. repeat split; reflexivity.
Qed.

(* one instance of the hypotheses of each theorem above (all by computation on the same problem) *)
Example C22_clone_copies_every_field_nonvacuous : In ("Problem", "_fluents_inc_dec")%string Gen_Clone.all_fields.
Proof. apply mem_pair_In. vm_compute. reflexivity. Qed.
Example C22_clone_writes_only_initialised_fields_nonvacuous : In ("Problem", "_fluents_inc_dec")%string Gen_Clone.cloned_fields.
Proof. apply mem_pair_In. vm_compute. reflexivity. Qed.
Example C22_nested_fields_copied_deeply_nonvacuous :
  In ("DurativeAction", "_continuous_effects", 3)%string Gen_Clone.required_depth
  /\ In ("Problem", "_timed_goals", 2)%string Gen_Clone.required_depth.
Proof. split; apply mem_triple_In; vm_compute; reflexivity. Qed.
Example C22_subclasses_reuse_problem_clone_nonvacuous : In "_trajectory_constraints"%string (Gen_Clone.cloned_of "Problem"%string).
Proof. apply mem_str_In. vm_compute. reflexivity. Qed.
Example C22_clone_equal_nonvacuous : wf (fst (load ex_state)) (snd (load ex_state)).
Proof. apply wfb_wf. vm_compute. reflexivity. Qed.
Example C22_simulation_nonvacuous :
  wf (fst (load ex_state)) (snd (load ex_state)) /\
  snd (wrun (clone_world (fst (load ex_state)) (snd (load ex_state))) [(SClone, ex_assign); (SOrig, ex_goal); (SOrig, ex_assign)])
  = [Fail 2; Ok; Fail 2].
Proof. split; [apply wfb_wf; vm_compute; reflexivity | vm_compute; reflexivity]. Qed.
Example C22_same_outcomes_and_stay_equal_nonvacuous : wf (fst (load ex_state)) (snd (load ex_state)).
Proof. exact C22_clone_equal_nonvacuous. Qed.
Example C22_independent_nonvacuous :
  wf (fst (load ex_state)) (snd (load ex_state)) /\
  proj SOrig [(SClone, ex_assign); (SOrig, ex_goal)] = proj SOrig [(SOrig, ex_goal); (SClone, ex_goal); (SClone, ex_goal)].
Proof. split; [exact C22_clone_equal_nonvacuous | reflexivity]. Qed.

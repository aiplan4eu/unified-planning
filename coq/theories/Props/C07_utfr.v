(* C07 (compilers are complete), Layer A part — UsertypeFluentsRemover.  Statements; each is closed by a lemma of
   Proofs/LayerA_Utfr_proofs.v or by a few lines from such lemmas.  Model, hypotheses and the reading of every hypothesis: see Props/C06_utfr.v. *)
From Coq Require Import List ZArith NArith QArith Qcanon Bool.
Import ListNotations.
Require Import UPV.Core.Expr UPV.Core.Eval UPV.Core.Interp UPV.Planning.Problem UPV.Planning.Sem.
Require Import UPV.Compilers.Variants UPV.Compilers.LayerA_Defs UPV.Compilers.LayerA_Quant UPV.Compilers.LayerA_Utfr.
Require Import UPV.Proofs.LayerA_Utfr_proofs.

(* the compiled problem accepts exactly the plans of the original problem, unchanged (same length: no auxiliary step) *)
Theorem C07_LA_utfr_same_plans :
  forall (tr smp : expr -> expr) (P : problem) (G : state -> Prop),
    smp_exact smp -> utfr_wf tr smp P = true -> tr_ok tr P -> effects_defined P G -> one_value P G -> closed P G ->
    unique_ids P ->
  forall (s s' : state) (pi : list (N * list value)), G s -> utfr_rel P s s' ->
    valid_plan false (utfr_compile tr smp P) s' pi = valid_plan false P s pi.
Proof. exact u_valid_plan. Qed.
Print Assumptions C07_LA_utfr_same_plans.

(* completeness: every valid plan of the original problem is a valid plan of the compiled problem *)
Theorem C07_LA_utfr_complete :
  forall (tr smp : expr -> expr) (P : problem) (G : state -> Prop),
    smp_exact smp -> utfr_wf tr smp P = true -> tr_ok tr P -> effects_defined P G -> one_value P G -> closed P G ->
    unique_ids P ->
  forall (s s' : state) (pi : list (N * list value)), G s -> utfr_rel P s s' ->
    valid_plan false P s pi = true -> valid_plan false (utfr_compile tr smp P) s' pi = true.
Proof.
  intros tr smp P G H1 H2 H3 H4 H5 H6 H7 s s' pi HG HR H.
  rewrite (u_valid_plan tr smp P G H1 H2 H3 H4 H5 H6 H7 s s' pi HG HR). exact H.
Qed.
Print Assumptions C07_LA_utfr_complete.

Example C07_LA_utfr_complete_nonvacuous :
  smp_exact UtfrWitness.idf /\ utfr_wf UtfrWitness.idf UtfrWitness.idf UtfrWitness.Pn = true /\
  tr_ok UtfrWitness.idf UtfrWitness.Pn /\ effects_defined UtfrWitness.Pn UtfrWitness.Gn /\
  one_value UtfrWitness.Pn UtfrWitness.Gn /\ closed UtfrWitness.Pn UtfrWitness.Gn /\ unique_ids UtfrWitness.Pn /\
  UtfrWitness.Gn UtfrWitness.sn /\
  utfr_rel UtfrWitness.Pn UtfrWitness.sn (enc_state UtfrWitness.Pn UtfrWitness.sn) /\
  valid_plan false UtfrWitness.Pn UtfrWitness.sn UtfrWitness.plan = true /\
  valid_plan false (utfr_compile UtfrWitness.idf UtfrWitness.idf UtfrWitness.Pn)
             (enc_state UtfrWitness.Pn UtfrWitness.sn) UtfrWitness.plan = true /\
  length (a_effs (snd (hd (0%N, UtfrWitness.an)
                          (p_actions (utfr_compile UtfrWitness.idf UtfrWitness.idf UtfrWitness.Pn))))) = 5%nat.
Proof. exact utfr_nonvacuous. Qed.

(* with the walker MODEL [utr] (+ simplify) in place of the abstract walker: [tr_ok] is replaced by the decidable
   conditions [conds_flat] and [types_inhabited] (Props/C06_utfr.v: C06_LA_utfr_walker_flat) *)
Theorem C07_LA_utfr_same_plans_reference :
  forall (smp : expr -> expr) (fv : N -> N) (P : problem) (G : state -> Prop),
    smp_exact smp -> conds_flat P fv = true -> types_inhabited P = true ->
    utfr_wf (fun e => smp (utr (otype P) fv e)) smp P = true ->
    effects_defined P G -> one_value P G -> closed P G -> unique_ids P ->
  forall (s s' : state) (pi : list (N * list value)), G s -> utfr_rel P s s' ->
    valid_plan false (utfr_compile (fun e => smp (utr (otype P) fv e)) smp P) s' pi = valid_plan false P s pi.
Proof.
  intros smp fv P G Hsmp Hfl Hinh Hwf Hdef Hone Hcl Hid.
  exact (u_valid_plan _ smp P G Hsmp Hwf (utr_tr_ok smp P fv Hsmp Hfl Hinh) Hdef Hone Hcl Hid).
Qed.
Print Assumptions C07_LA_utfr_same_plans_reference.

Theorem C07_LA_utfr_complete_reference :
  forall (smp : expr -> expr) (fv : N -> N) (P : problem) (G : state -> Prop),
    smp_exact smp -> conds_flat P fv = true -> types_inhabited P = true ->
    utfr_wf (fun e => smp (utr (otype P) fv e)) smp P = true ->
    effects_defined P G -> one_value P G -> closed P G -> unique_ids P ->
  forall (s s' : state) (pi : list (N * list value)), G s -> utfr_rel P s s' ->
    valid_plan false P s pi = true ->
    valid_plan false (utfr_compile (fun e => smp (utr (otype P) fv e)) smp P) s' pi = true.
Proof.
  intros smp fv P G Hsmp Hfl Hinh Hwf Hdef Hone Hcl Hid s s' pi HG HR H.
  rewrite (C07_LA_utfr_same_plans_reference smp fv P G Hsmp Hfl Hinh Hwf Hdef Hone Hcl Hid s s' pi HG HR). exact H.
Qed.
Print Assumptions C07_LA_utfr_complete_reference.

Example C07_LA_utfr_complete_reference_nonvacuous :
  smp_exact UtfrWitness.idf /\ conds_flat UtfrRef.Pr UtfrRef.fvr = true /\ types_inhabited UtfrRef.Pr = true /\
  utfr_wf UtfrRef.trr UtfrWitness.idf UtfrRef.Pr = true /\
  effects_defined UtfrRef.Pr UtfrRef.Gr /\ one_value UtfrRef.Pr UtfrRef.Gr /\ closed UtfrRef.Pr UtfrRef.Gr /\
  unique_ids UtfrRef.Pr /\ UtfrRef.Gr UtfrRef.sr /\
  utfr_rel UtfrRef.Pr UtfrRef.sr (enc_state UtfrRef.Pr UtfrRef.sr) /\
  valid_plan false UtfrRef.Pr UtfrRef.sr UtfrRef.planr = true /\
  valid_plan false UtfrRef.Pr' (enc_state UtfrRef.Pr UtfrRef.sr) UtfrRef.planr = true /\
  valid_plan false UtfrRef.Pr' (enc_state UtfrRef.Pr UtfrRef.sr) [(0%N, [VObj 2%N]); (0%N, [VObj 1%N])] = true /\
  valid_plan false UtfrRef.Pr' (enc_state UtfrRef.Pr UtfrRef.sr) [(0%N, [VObj 1%N]); (0%N, [VObj 1%N])] = false /\
  map (fun ia => a_pre (snd ia)) (p_actions UtfrRef.Pr') =
    [[EExists [(100%N, 0%N)]
        (EAnd [EEquals (EVar 100%N 0%N) (EObj 1%N); EFluent 0%N [EParam 7%N; EVar 100%N 0%N]])]].
Proof. exact utfr_reference_nonvacuous. Qed.

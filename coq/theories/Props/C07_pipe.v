(* C07, part "pipe": Layer A completeness for compiler PIPELINES and for DisjunctiveConditionsRemover with a disjunctive
   goal.  Statements; each is closed by a lemma of the Proofs files named in Props/C06_pipe.v or by a few lines assembling
   such lemmas (definitions and the instances of the non-vacuity examples: Props/C06_pipe.v). *)
From Coq Require Import List ZArith NArith QArith Qcanon Bool.
Import ListNotations.
Require Import UPV.Core.Expr UPV.Core.Eval UPV.Core.Interp UPV.Planning.Problem UPV.Planning.Sem.
Require Import UPV.Proofs.Step_proofs UPV.Compilers.Variants UPV.Proofs.Variants_proofs.
Require Import UPV.Compilers.LayerA_Defs UPV.Compilers.LayerA_Quant UPV.Compilers.LayerA_Variants.
Require Import UPV.Planning.Ground UPV.Compilers.LayerA_Ground.
Require Import UPV.Compilers.LayerA_Pipe UPV.Proofs.LayerA_Pipe_proofs.
Require Import UPV.Compilers.LayerA_DcrGoal UPV.Proofs.LayerA_DcrGoal_proofs UPV.Proofs.LayerA_DcrGoalPlan_proofs.
Require UPV.Props.C06_pipe.
Local Open Scope nat_scope.

(* PART 1: pipelines.
   [stage_complete] is C07 for one compiler: every valid source plan has a compiled plan, at most [st_aux] steps longer,
   that maps back to it modulo steps that change nothing ([sub_noop_eq], the relation of the C07_LA_* theorems).
   "Modulo" does not compose from plan-level facts alone: deleting a no-op step of the INTERMEDIATE plan must be
   deleting a no-op step (or nothing) of the source plan.  [stage_noop] says exactly that (for VALID compiled plans),
   and every stage that simulates its source problem step by step has it, provided a compiled step that changes nothing
   is matched by a source step that changes nothing (e.g. because the compiled state determines the source state, or
   because the source step cannot touch the fluents the relation leaves open): *)
Theorem C07_LA_pipe_simulation_noop :
  forall st : stage,
    (forall s s' x' t', st_rel st s s' -> st_okD st x' ->
       run (st_dst st) (spec_step false (st_dst st)) s' [x'] = Some t' ->
       exists t, run (st_src st) (spec_step false (st_src st)) s (ostep (st_back st) x') = Some t /\ st_rel st t t') ->
    (forall s s' x' t t', st_rel st s s' -> st_rel st t t' -> state_eq s' t' ->
       run (st_src st) (spec_step false (st_src st)) s (ostep (st_back st) x') = Some t -> state_eq s t) ->
    stage_noop st.
Proof. exact sim_noop. Qed.
Print Assumptions C07_LA_pipe_simulation_noop.

(* the relation "delete steps that change nothing" is transitive (and respects pointwise-equal start states) *)
Theorem C07_LA_pipe_sub_noop_trans :
  forall (P : problem) (s : state) (a b c : pplan),
    sub_noop_eq P s a b -> sub_noop_eq P s b c -> sub_noop_eq P s a c.
Proof. intros P s a b c H1 H2. exact (sne_trans P s a b H1 c H2). Qed.
Print Assumptions C07_LA_pipe_sub_noop_trans.

(* completeness composes, THE BOUNDS ADD ([st_aux (compose a b)] = st_aux a + st_aux b); what the first stage
   guarantees about the steps of its compiled plan must be what the second stage asks of its source plan *)
Theorem C07_LA_pipe_complete_composes :
  forall a b : stage, st_dst a = st_src b -> (forall x, st_okD a x -> st_okS b x) ->
    stage_complete a -> stage_noop a -> stage_complete b -> stage_complete (compose a b).
Proof. exact compose_complete. Qed.
Print Assumptions C07_LA_pipe_complete_composes.

Theorem C07_LA_pipe_noop_composes :
  forall a b : stage, st_dst a = st_src b -> stage_sound b -> stage_noop a -> stage_noop b -> stage_noop (compose a b).
Proof. exact compose_noop. Qed.
Print Assumptions C07_LA_pipe_noop_composes.

(* pipelines of ANY length: all three facts ([certified] = sound, complete, no-op preserving) by induction over the
   list; the bound of the pipeline is the sum of the stages' bounds *)
Theorem C07_LA_pipe_pipeline_certified :
  forall (l : list stage) (Q : problem), Forall certified l -> linked l Q -> certified (compose_all l Q).
Proof. exact pipeline_certified. Qed.
Print Assumptions C07_LA_pipe_pipeline_certified.

Theorem C07_LA_pipe_pipeline_bound :
  forall (l : list stage) (Q : problem), st_aux (compose_all l Q) = fold_right (fun a n => st_aux a + n) 0 l.
Proof. exact compose_all_aux. Qed.
Print Assumptions C07_LA_pipe_pipeline_bound.

(* the Layer A compilers as certified stages (C06_LA_* / C07_LA_* of Props/C06.v, Props/C07.v + the run lemmas) *)
Theorem C07_LA_pipe_quant_stage_certified :
  forall (smp : expr -> expr), smp_exact smp ->
  forall (P : problem) (tau : N -> N), unique_ids P -> problem_wf P tau = true -> no_action_dropped smp P ->
    certified (quant_stage smp P).
Proof. exact quant_stage_certified. Qed.
Print Assumptions C07_LA_pipe_quant_stage_certified.

Theorem C07_LA_pipe_cer_stage_certified :
  forall (simp_pre : list expr -> option (list expr)), simp_pre_ok simp_pre ->
  forall (nm : N -> nat -> N) (P : problem), unique_ids P -> unique_ids (cer_compile simp_pre nm P) ->
  forall G : state -> Prop,
    (forall s aid a args t, G s -> lookup_action P aid = Some a -> spec_step false P s a args = Some t -> G t) ->
    (forall s args i a, G s -> In (i, a) (p_actions P) -> Forall (cond_ok P s a args) (cond_effs (a_effs a))) ->
    (forall s args i a, G s -> In (i, a) (p_actions P) ->
       add_effs_ok [] [] (a_effs (ce_variant a (the_sel P s a args))) = false -> applicable P s a args = false) ->
    certified (cer_stage simp_pre nm G P).
Proof. exact cer_stage_certified. Qed.
Print Assumptions C07_LA_pipe_cer_stage_certified.

Theorem C07_LA_pipe_ground_stage_certified :
  forall (smp : expr -> expr) (tuples : N -> list (list value)) (nm : N -> nat -> N) (P : problem) (G : state -> Prop),
    smp_exact_on P G smp -> unique_ids P -> unique_ids (ground_compile smp tuples nm P) ->
    (forall s aid a args t, G s -> lookup_action P aid = Some a -> spec_step false P s a args = Some t -> G t) ->
    instances_ok smp tuples P ->
    (forall s i a args, G s -> In (i, a) (p_actions P) -> In args (tuples i) ->
       add_effs_ok [] [] (g_effects smp (zip_params (a_params a) args) (a_effs a)) = false ->
       spec_step false P s a args = None) ->
    certified (ground_stage smp tuples nm G P).
Proof. exact ground_stage_certified. Qed.
Print Assumptions C07_LA_pipe_ground_stage_certified.

(* CLOSED THEOREM for CompilersPipeline([QuantifiersRemover(), ConditionalEffectsRemover()]): hypotheses of
   C07_LA_quant_complete on P and of C07_LA_cer_complete on the intermediate problem; bound 0 + 0 *)
Theorem C07_LA_pipe_quant_cer_complete :
  forall (smp : expr -> expr), smp_exact smp ->
  forall (simp_pre : list expr -> option (list expr)), simp_pre_ok simp_pre ->
  forall (nm : N -> nat -> N) (P : problem) (tau : N -> N), unique_ids P -> problem_wf P tau = true ->
    unique_ids (qc_dst smp simp_pre nm P) ->
  forall G : state -> Prop,
    (forall s aid a args t, G s -> lookup_action (qc_mid smp P) aid = Some a ->
       spec_step false (qc_mid smp P) s a args = Some t -> G t) ->
    (forall s args i a, G s -> In (i, a) (p_actions (qc_mid smp P)) ->
       Forall (cond_ok (qc_mid smp P) s a args) (cond_effs (a_effs a))) ->
    no_action_dropped smp P ->
    (forall s args i a, G s -> In (i, a) (p_actions (qc_mid smp P)) ->
       add_effs_ok [] [] (a_effs (ce_variant a (the_sel (qc_mid smp P) s a args))) = false ->
       applicable (qc_mid smp P) s a args = false) ->
  forall (s0 : state) (pi : pplan), bool_state P s0 -> G s0 -> plan_targets_total P pi ->
    valid_plan false P s0 pi = true ->
    exists pi', length pi' <= length pi /\ valid_plan false (qc_dst smp simp_pre nm P) s0 pi' = true /\
                sub_noop_eq P s0 pi (pback (pipeline_back (qc_stages smp simp_pre nm G P)) pi').
Proof.
  intros smp Hsmp simp_pre Hsimp nm P tau Hu Hwf Hu2 G Gstep Hcond Hnd Hconf s0 pi Hb HG Ht Hv.
  destruct (pipeline_complete_at (qc_stages smp simp_pre nm G P) (qc_dst smp simp_pre nm P) s0 s0 pi) as (pi' & L & R);
    [| apply qc_linked | exact (qc_rel smp simp_pre nm P G s0 Hb HG) | apply Forall_targets; exact Ht | exact Hv
     | exists pi'; split; [cbn in L; plia | exact R]].
  constructor; [exact (quant_stage_certified smp Hsmp P tau Hu Hwf Hnd)|]. constructor; [|constructor].
  exact (cer_stage_certified simp_pre Hsimp nm _ (quant_unique_ids smp P Hu) Hu2 G Gstep Hcond Hconf).
Qed.
Print Assumptions C07_LA_pipe_quant_cer_complete.

(* CLOSED THEOREM for CompilersPipeline([Grounder(), ConditionalEffectsRemover()]) *)
Theorem C07_LA_pipe_ground_cer_complete :
  forall (smp : expr -> expr) (tuples : N -> list (list value)) (gnm : N -> nat -> N) (P : problem) (G1 : state -> Prop),
    smp_exact_on P G1 smp -> unique_ids P -> unique_ids (ground_compile smp tuples gnm P) ->
    (forall s aid a args t, G1 s -> lookup_action P aid = Some a -> spec_step false P s a args = Some t -> G1 t) ->
    instances_ok smp tuples P ->
  forall (simp_pre : list expr -> option (list expr)), simp_pre_ok simp_pre ->
  forall (nm : N -> nat -> N), unique_ids (cer_compile simp_pre nm (ground_compile smp tuples gnm P)) ->
  forall G2 : state -> Prop,
    (forall s aid a args t, G2 s -> lookup_action (ground_compile smp tuples gnm P) aid = Some a ->
       spec_step false (ground_compile smp tuples gnm P) s a args = Some t -> G2 t) ->
    (forall s args i a, G2 s -> In (i, a) (p_actions (ground_compile smp tuples gnm P)) ->
       Forall (cond_ok (ground_compile smp tuples gnm P) s a args) (cond_effs (a_effs a))) ->
    (forall s i a args, G1 s -> In (i, a) (p_actions P) -> In args (tuples i) ->
       add_effs_ok [] [] (g_effects smp (zip_params (a_params a) args) (a_effs a)) = false ->
       spec_step false P s a args = None) ->
    (forall s args i a, G2 s -> In (i, a) (p_actions (ground_compile smp tuples gnm P)) ->
       add_effs_ok [] [] (a_effs (ce_variant a (the_sel (ground_compile smp tuples gnm P) s a args))) = false ->
       applicable (ground_compile smp tuples gnm P) s a args = false) ->
  forall (s0 : state) (pi : pplan), G1 s0 -> G2 s0 -> plan_in_tuples tuples pi ->
    valid_plan false P s0 pi = true ->
    exists pi', length pi' <= length pi /\
                valid_plan false (cer_compile simp_pre nm (ground_compile smp tuples gnm P)) s0 pi' = true /\
                sub_noop_eq P s0 pi (pback (pipeline_back (gc_stages smp tuples gnm G1 simp_pre nm G2 P)) pi').
Proof.
  intros smp tuples gnm P G1 Hsmp Hu Hu1 Gstep1 Hinst simp_pre Hsimp nm Hu2 G2 Gstep2 Hcond Hconf1 Hconf2 s0 pi H1 H2 Hin Hv.
  destruct (pipeline_complete_at (gc_stages smp tuples gnm G1 simp_pre nm G2 P) (cer_compile simp_pre nm (ground_compile smp tuples gnm P)) s0 s0 pi) as (pi' & L & R);
    [| apply gc_linked | exact (gc_rel smp tuples gnm P G1 simp_pre nm G2 s0 H1 H2)
     | apply Forall_forall; intros [i args] Hx; exact (Hin i args Hx) | exact Hv
     | exists pi'; split; [cbn in L; plia | exact R]].
  constructor; [exact (ground_stage_certified smp tuples gnm P G1 Hsmp Hu Hu1 Gstep1 Hinst Hconf1)|].
  constructor; [|constructor]. exact (cer_stage_certified simp_pre Hsimp nm _ Hu1 Hu2 G2 Gstep2 Hcond Hconf2).
Qed.
Print Assumptions C07_LA_pipe_ground_cer_complete.

(* PART 2: DisjunctiveConditionsRemover, disjunctive goal:
   COMPLETENESS with bound k + 1.  Every valid original plan has a compiled counterpart — variants for the steps that
   change something, followed by ONE goal action — that is valid from the compiled initial state and maps back (the
   goal-action step dropped) to the original plan modulo steps that change nothing.  Hypotheses: those of
   C07_LA_dcr_complete with the goal hypothesis replaced by the DNF equivalence for the goal actions' preconditions,
   [dcrg_fresh], unique compiled names, and that the state invariants / bounded types hold in the initial state
   (get_initial_state checks them; needed only for the EMPTY plan: the goal action is then applied in s0 itself). *)
Theorem C07_LA_dcrgoal_complete :
  forall (cdnf : expr -> list expr) (pre_dnf : action -> list (list expr)) (nm : N -> nat -> N) (fk : N)
         (gnm : nat -> N) (gds : list (list expr)) (P : problem),
    unique_ids (dcrg_compile cdnf pre_dnf nm fk gnm gds P) ->
    dcrg_fresh cdnf pre_dnf nm fk gds P = true ->
  forall G : state -> Prop,
    (forall s aid a args t, G s -> lookup_action P aid = Some a -> spec_step false P s a args = Some t -> G t) ->
    (forall s args i a, G s -> In (i, a) (p_actions P) -> Forall (dnf_effect_ok cdnf P s a args) (a_effs a)) ->
    (forall s args i a, G s -> In (i, a) (p_actions P) ->
       existsb (all_hold false (mk_interp P s (zip_params (a_params a) args))) (pre_dnf a) =
       all_hold false (mk_interp P s (zip_params (a_params a) args)) (a_pre a)) ->
    (forall s, G s -> existsb (all_hold false (mk_interp P s [])) gds = all_hold false (mk_interp P s []) (p_goals P)) ->
    (forall s args i a d, G s -> In (i, a) (p_actions P) -> In d (pre_dnf a) ->
       add_effs_ok [] [] (a_effs (dnf_variant cdnf a d)) = false ->
       all_hold false (mk_interp P s (zip_params (a_params a) args)) d = true -> applicable P s a args = false) ->
  forall (s0 s0' : state) (pi : pplan), G s0 -> agree_off fk s0 s0' -> invariants_ok false P s0 = true ->
    valid_plan false P s0 pi = true ->
    exists pi', valid_plan false (dcrg_compile cdnf pre_dnf nm fk gnm gds P) s0' pi' = true /\
                length pi' <= length pi + 1 /\
                sub_noop_eq P s0 pi (pback (dcrg_back cdnf pre_dnf nm fk gnm gds P) pi').
Proof. exact dcrg_complete. Qed.
Print Assumptions C07_LA_dcrgoal_complete.

Require Import UPV.Compilers.LayerA_Inv UPV.Compilers.LayerA_Neg.

(* NegativeConditionsRemover (hypotheses of C06_LA_ncr_sound / C07_LA_ncr_complete); relation [neg_rel]: the compiled
   state is NOT the source state.  stage_noop holds because no effect of a clean problem targets a negation fluent *)
Theorem C07_LA_pipe_ncr_stage_certified :
  forall (nmap : list (N * N)) (rw smp : expr -> expr) (P : problem),
    nmap_ok nmap P = true -> problem_clean nmap P = true -> ncr_safe nmap P = true -> rw_ok nmap rw P -> smp_exact smp ->
    certified (ncr_stage nmap rw smp P).
Proof. exact ncr_stage_certified. Qed.
Print Assumptions C07_LA_pipe_ncr_stage_certified.

(* BoundedTypesRemover / StateInvariantsRemover: the relation carries "the moved constraints hold initially"; they do not
   simulate step by step, stage_noop is proved along valid plans ([inv_noop]) *)
Theorem C07_LA_pipe_btr_stage_certified :
  forall (smp : expr -> expr), smp_holds smp -> forall P : problem, unique_ids P -> certified (btr_stage smp P).
Proof. exact btr_stage_certified. Qed.
Print Assumptions C07_LA_pipe_btr_stage_certified.

Theorem C07_LA_pipe_sir_stage_certified :
  forall (smp : expr -> expr), smp_holds smp ->
  forall P : problem, unique_ids P -> Forall (closed_cond P) (p_invs P) -> certified (sir_stage smp P).
Proof. exact sir_stage_certified. Qed.
Print Assumptions C07_LA_pipe_sir_stage_certified.

(* CLOSED THEOREM for CompilersPipeline([QuantifiersRemover(), NegativeConditionsRemover()]) *)
Theorem C07_LA_pipe_quant_ncr_complete :
  forall (smp : expr -> expr), smp_exact smp ->
  forall (P : problem) (tau : N -> N), unique_ids P -> problem_wf P tau = true ->
  forall (nmap : list (N * N)) (rw smp2 : expr -> expr),
    nmap_ok nmap (quant_compile smp P) = true -> problem_clean nmap (quant_compile smp P) = true ->
    ncr_safe nmap (quant_compile smp P) = true -> rw_ok nmap rw (quant_compile smp P) -> smp_exact smp2 ->
    no_action_dropped smp P ->
  forall (s0 s0' : state) (pi : pplan), bool_state P s0 -> neg_rel nmap s0 s0' -> plan_targets_total P pi ->
    valid_plan false P s0 pi = true ->
    exists pi', length pi' <= length pi /\
                valid_plan false (neg_compile nmap rw smp2 (quant_compile smp P)) s0' pi' = true /\
                sub_noop_eq P s0 pi (pback (pipeline_back (qn_stages smp nmap rw smp2 P)) pi').
Proof.
  intros smp Hsmp P tau Hu Hwf nmap rw smp2 H1 H2 H3 H4 H5 Hnd s0 s0' pi Hb HR Ht Hv.
  destruct (pipeline_complete_at (qn_stages smp nmap rw smp2 P) (neg_compile nmap rw smp2 (quant_compile smp P)) s0 s0' pi)
    as (pi' & L & R);
    [| apply qn_linked | exact (qn_rel smp P nmap rw smp2 s0 s0' Hb HR) | apply Forall_targets; exact Ht | exact Hv
     | exists pi'; split; [cbn in L; plia | exact R]].
  constructor; [exact (quant_stage_certified smp Hsmp P tau Hu Hwf Hnd)|]. constructor; [|constructor].
  exact (ncr_stage_certified nmap rw smp2 _ H1 H2 H3 H4 H5).
Qed.
Print Assumptions C07_LA_pipe_quant_ncr_complete.

(* CLOSED THEOREM for CompilersPipeline([BoundedTypesRemover(), ConditionalEffectsRemover()]) *)
Theorem C07_LA_pipe_btr_cer_complete :
  forall (smp : expr -> expr), smp_holds smp ->
  forall P : problem, unique_ids P -> unique_ids (btr_compile smp P) ->
  forall (simp_pre : list expr -> option (list expr)), simp_pre_ok simp_pre ->
  forall (nm : N -> nat -> N), unique_ids (cer_compile simp_pre nm (btr_compile smp P)) ->
  forall G : state -> Prop,
    (forall s aid a args t, G s -> lookup_action (btr_compile smp P) aid = Some a ->
       spec_step false (btr_compile smp P) s a args = Some t -> G t) ->
    (forall s args i a, G s -> In (i, a) (p_actions (btr_compile smp P)) ->
       Forall (cond_ok (btr_compile smp P) s a args) (cond_effs (a_effs a))) ->
    (forall s args i a, G s -> In (i, a) (p_actions (btr_compile smp P)) ->
       add_effs_ok [] [] (a_effs (ce_variant a (the_sel (btr_compile smp P) s a args))) = false ->
       applicable (btr_compile smp P) s a args = false) ->
  forall (s0 : state) (pi : pplan), all_hold false (mk_interp P s0 []) (bound_invs P) = true -> G s0 ->
    valid_plan false P s0 pi = true ->
    exists pi', length pi' <= length pi /\
                valid_plan false (cer_compile simp_pre nm (btr_compile smp P)) s0 pi' = true /\
                sub_noop_eq P s0 pi (pback (pipeline_back (bc_stages smp simp_pre nm G P)) pi').
Proof.
  intros smp Hsmp P Hu Hu1 simp_pre Hsimp nm Hu2 G Gstep Hcond Hconf s0 pi Hb HG Hv.
  destruct (pipeline_complete_at (bc_stages smp simp_pre nm G P) (cer_compile simp_pre nm (btr_compile smp P)) s0 s0 pi)
    as (pi' & L & R);
    [| apply bc_linked | exact (bc_rel smp P simp_pre nm G s0 Hb HG) | apply Forall_forall; intros x _; exact I | exact Hv
     | exists pi'; split; [cbn in L; plia | exact R]].
  constructor; [exact (btr_stage_certified smp Hsmp P Hu)|]. constructor; [|constructor].
  exact (cer_stage_certified simp_pre Hsimp nm _ Hu1 Hu2 G Gstep Hcond Hconf).
Qed.
Print Assumptions C07_LA_pipe_btr_cer_complete.

Require Import UPV.Compilers.LayerA_Uinr UPV.Compilers.LayerA_Utfr.

(* UndefinedInitialNumericRemover; [orig_no_comp] (decidable): no original effect targets a companion fluent *)
Theorem C07_LA_pipe_uinr_stage_certified :
  forall (umap : list (N * N)) (P : problem), uinr_ok umap P = true -> orig_no_comp umap P = true ->
    certified (uinr_stage umap P).
Proof. exact uinr_stage_certified. Qed.
Print Assumptions C07_LA_pipe_uinr_stage_certified.

(* UsertypeFluentsRemover: the Boolean encoding determines the object-valued state *)
Theorem C07_LA_pipe_utfr_stage_certified :
  forall (tr smp : expr -> expr) (P : problem) (G : state -> Prop) (Q : pstep -> Prop),
    smp_exact smp -> utfr_wf tr smp P = true -> tr_ok tr P -> effects_defined P G -> LayerA_Utfr.one_value P G ->
    closed P G -> unique_ids P -> certified (utfr_stage tr smp G Q P).
Proof. exact utfr_stage_certified. Qed.
Print Assumptions C07_LA_pipe_utfr_stage_certified.

(* the fake-goal compile: a certified stage with ONE auxiliary step; [orig_no_fk] (decidable): no original effect
   targets fk *)
Theorem C07_LA_pipe_dcrg_stage_certified :
  forall (cdnf : expr -> list expr) (pre_dnf : action -> list (list expr)) (nm : N -> nat -> N) (fk : N)
         (gnm : nat -> N) (gds : list (list expr)) (P : problem),
    unique_ids P -> unique_ids (dcrg_compile cdnf pre_dnf nm fk gnm gds P) ->
    dcrg_fresh cdnf pre_dnf nm fk gds P = true -> orig_no_fk fk P = true ->
  forall G : state -> Prop,
    (forall s aid a args t, G s -> lookup_action P aid = Some a -> spec_step false P s a args = Some t -> G t) ->
    (forall s args i a, G s -> In (i, a) (p_actions P) -> Forall (dnf_effect_ok cdnf P s a args) (a_effs a)) ->
    (forall s args i a, G s -> In (i, a) (p_actions P) ->
       existsb (all_hold false (mk_interp P s (zip_params (a_params a) args))) (pre_dnf a) =
       all_hold false (mk_interp P s (zip_params (a_params a) args)) (a_pre a)) ->
    (forall s, G s -> existsb (all_hold false (mk_interp P s [])) gds = all_hold false (mk_interp P s []) (p_goals P)) ->
    (forall s args i a d, G s -> In (i, a) (p_actions P) -> In d (pre_dnf a) ->
       add_effs_ok [] [] (a_effs (dnf_variant cdnf a d)) = false ->
       all_hold false (mk_interp P s (zip_params (a_params a) args)) d = true -> applicable P s a args = false) ->
    certified (dcrg_stage cdnf pre_dnf nm fk gnm gds G P) /\
    st_aux (dcrg_stage cdnf pre_dnf nm fk gnm gds G P) = 1%nat.
Proof. intros. split; [apply dcrg_stage_certified; assumption | reflexivity]. Qed.
Print Assumptions C07_LA_pipe_dcrg_stage_certified.

(* CLOSED THEOREM for CompilersPipeline([Grounder(), NegativeConditionsRemover()]) *)
Theorem C07_LA_pipe_ground_ncr_complete :
  forall (smp : expr -> expr) (tuples : N -> list (list value)) (gnm : N -> nat -> N) (P : problem) (G1 : state -> Prop),
    smp_exact_on P G1 smp -> unique_ids P -> unique_ids (ground_compile smp tuples gnm P) ->
    (forall s aid a args t, G1 s -> lookup_action P aid = Some a -> spec_step false P s a args = Some t -> G1 t) ->
    instances_ok smp tuples P ->
  forall (nmap : list (N * N)) (rw smp2 : expr -> expr),
    nmap_ok nmap (ground_compile smp tuples gnm P) = true -> problem_clean nmap (ground_compile smp tuples gnm P) = true ->
    ncr_safe nmap (ground_compile smp tuples gnm P) = true -> rw_ok nmap rw (ground_compile smp tuples gnm P) ->
    smp_exact smp2 ->
    (forall s i a args, G1 s -> In (i, a) (p_actions P) -> In args (tuples i) ->
       add_effs_ok [] [] (g_effects smp (zip_params (a_params a) args) (a_effs a)) = false ->
       spec_step false P s a args = None) ->
  forall (s0 s0' : state) (pi : pplan), G1 s0 -> neg_rel nmap s0 s0' -> plan_in_tuples tuples pi ->
    valid_plan false P s0 pi = true ->
    exists pi', (length pi' <= length pi)%nat /\
                valid_plan false (neg_compile nmap rw smp2 (ground_compile smp tuples gnm P)) s0' pi' = true /\
                sub_noop_eq P s0 pi (pback (pipeline_back (gn_stages smp tuples gnm G1 nmap rw smp2 P)) pi').
Proof.
  intros smp tuples gnm P G1 Hsmp Hu Hu1 Gstep1 Hinst nmap rw smp2 H1 H2 H3 H4 H5 Hconf1 s0 s0' pi HG HR Hin Hv.
  destruct (pipeline_complete_at (gn_stages smp tuples gnm G1 nmap rw smp2 P)
              (neg_compile nmap rw smp2 (ground_compile smp tuples gnm P)) s0 s0' pi) as (pi' & L & R);
    [| apply gn_linked | exact (gn_rel smp tuples gnm P G1 nmap rw smp2 s0 s0' HG HR)
     | apply Forall_forall; intros [i args] Hx; exact (Hin i args Hx) | exact Hv
     | exists pi'; split; [cbn in L; plia | exact R]].
  constructor; [exact (ground_stage_certified smp tuples gnm P G1 Hsmp Hu Hu1 Gstep1 Hinst Hconf1)|].
  constructor; [|constructor]. exact (ncr_stage_certified nmap rw smp2 _ H1 H2 H3 H4 H5).
Qed.
Print Assumptions C07_LA_pipe_ground_ncr_complete.

(* "pipeline:usertype+quantifiers+disjunctive": certified stages give a certified pipeline with bound 0 + 0 + 1 *)
Theorem C07_LA_pipe_uqd_certified :
  forall (tr smp1 smp : expr -> expr) (G0 G2 : state -> Prop) (cdnf : expr -> list expr)
         (pre_dnf : action -> list (list expr)) (nm : N -> nat -> N) (fk : N) (gnm : nat -> N) (gds : list (list expr))
         (P : problem),
    Forall certified (uqd_stages tr smp1 G0 smp cdnf pre_dnf nm fk gnm gds G2 P) ->
    certified (compose_all (uqd_stages tr smp1 G0 smp cdnf pre_dnf nm fk gnm gds G2 P)
                           (uqd_dst tr smp1 smp cdnf pre_dnf nm fk gnm gds P)) /\
    st_aux (compose_all (uqd_stages tr smp1 G0 smp cdnf pre_dnf nm fk gnm gds G2 P)
                        (uqd_dst tr smp1 smp cdnf pre_dnf nm fk gnm gds P)) = 1%nat.
Proof. intros. split; [apply pipeline_certified; [assumption | apply uqd_linked] | reflexivity]. Qed.
Print Assumptions C07_LA_pipe_uqd_certified.

(* non-vacuity, on the instances of Props/C06_pipe.v *)
Example C07_LA_pipe_quant_cer_complete_nonvacuous :
  no_action_dropped C06_pipe.LP.idsmp C06_pipe.LP.Pp /\
  plan_targets_total C06_pipe.LP.Pp [(0%N, [])] /\
  valid_plan false C06_pipe.LP.Pp C06_pipe.LP.s0 [(0%N, [])] = true /\
  valid_plan false (qc_dst C06_pipe.LP.idsmp C06_pipe.LP.sp C06_pipe.LP.nm C06_pipe.LP.Pp) C06_pipe.LP.s0 [(11%N, [])] = true /\
  sub_noop_eq C06_pipe.LP.Pp C06_pipe.LP.s0 [(0%N, [])]
    (pback (pipeline_back (qc_stages C06_pipe.LP.idsmp C06_pipe.LP.sp C06_pipe.LP.nm C06_pipe.LP.G C06_pipe.LP.Pp)) [(11%N, [])]).
Proof.
  split; [intros aid a [H|[]]; inversion H; subst; vm_compute; discriminate|].
  split; [exact C06_pipe.LP.targets|]. split; [vm_compute; reflexivity|]. split; [vm_compute; reflexivity|].
  change (pback (pipeline_back (qc_stages C06_pipe.LP.idsmp C06_pipe.LP.sp C06_pipe.LP.nm C06_pipe.LP.G C06_pipe.LP.Pp)) [(11%N, [])])
    with [(0%N, @nil value)].
  eapply sne_keep; [reflexivity | reflexivity | constructor].
Qed.

Example C07_LA_dcrgoal_complete_nonvacuous :
  invariants_ok false C06_pipe.LQ.Pd C06_pipe.LQ.s0 = true /\
  valid_plan false C06_pipe.LQ.Pd C06_pipe.LQ.s0 [(1%N, [])] = true /\
  valid_plan false C06_pipe.LQ.P' (with_fk C06_pipe.LQ.fk C06_pipe.LQ.s0) [(30%N, []); (41%N, [])] = true /\
  (* the bound k + 1 is needed: no compiled plan of length 1 is valid *)
  forallb (fun id => negb (valid_plan false C06_pipe.LQ.P' (with_fk C06_pipe.LQ.fk C06_pipe.LQ.s0) [(id, [])]))
          [20%N; 30%N; 40%N; 41%N] = true /\
  sub_noop_eq C06_pipe.LQ.Pd C06_pipe.LQ.s0 [(1%N, [])]
    (pback (dcrg_back C06_pipe.LQ.cd C06_pipe.LQ.pd C06_pipe.LQ.nm C06_pipe.LQ.fk C06_pipe.LQ.gnm C06_pipe.LQ.gds C06_pipe.LQ.Pd)
           [(30%N, []); (41%N, [])]).
Proof.
  split; [vm_compute; reflexivity|]. split; [vm_compute; reflexivity|]. split; [vm_compute; reflexivity|].
  split; [vm_compute; reflexivity|].
  change (pback (dcrg_back C06_pipe.LQ.cd C06_pipe.LQ.pd C06_pipe.LQ.nm C06_pipe.LQ.fk C06_pipe.LQ.gnm C06_pipe.LQ.gds C06_pipe.LQ.Pd)
            [(30%N, []); (41%N, [])]) with [(1%N, @nil value)].
  eapply sne_keep; [reflexivity | reflexivity | constructor].
Qed.

Example C07_LA_pipe_uqd_certified_nonvacuous :
  Forall certified C06_pipe.LU.stages /\
  st_aux (compose_all C06_pipe.LU.stages C06_pipe.LU.P3) = 1%nat /\
  st_rel (compose_all C06_pipe.LU.stages C06_pipe.LU.P3) C06_pipe.LQ.s0 (with_fk C06_pipe.LQ.fk C06_pipe.LQ.s0) /\
  valid_plan false C06_pipe.LU.P0 C06_pipe.LQ.s0 [(1%N, [])] = true /\
  valid_plan false C06_pipe.LU.P3 (with_fk C06_pipe.LQ.fk C06_pipe.LQ.s0) [(30%N, []); (41%N, [])] = true.
Proof.
  split; [exact C06_pipe.LU.all_certified|]. split; [reflexivity|]. split; [|split; vm_compute; reflexivity].
  assert (HG : C06_pipe.LU.G C06_pipe.LQ.s0) by (split; [exists false | exists false]; reflexivity).
  exists C06_pipe.LQ.s0. split.
  - split; [|exact HG]. split; [intros g a _; reflexivity | intros f t a Hf; discriminate].
  - exists C06_pipe.LQ.s0. split.
    + split; [reflexivity|]. intros f args Hb. unfold C06_pipe.LQ.s0. destruct (f =? C06_pipe.LQ.fk)%N; [left; reflexivity | right; exists false; reflexivity].
    + exists (with_fk C06_pipe.LQ.fk C06_pipe.LQ.s0). split; [|reflexivity].
      apply dcrg_rel_init; [exact HG | vm_compute; reflexivity].
Qed.

(* NegativeConditionsRemover as a certified stage on the example problem of Proofs/LayerA_Neg_proofs.v *)
Require Import UPV.Proofs.LayerA_Neg_proofs.
Example C07_LA_pipe_ncr_stage_certified_nonvacuous :
  certified (ncr_stage NegEx.nm (nrw (ng NegEx.nm)) NegEx.idf NegEx.Pe) /\
  st_rel (ncr_stage NegEx.nm (nrw (ng NegEx.nm)) NegEx.idf NegEx.Pe) NegEx.se NegEx.se' /\
  valid_plan false NegEx.Pe NegEx.se NegEx.plan = true /\
  valid_plan false (st_dst (ncr_stage NegEx.nm (nrw (ng NegEx.nm)) NegEx.idf NegEx.Pe)) NegEx.se' NegEx.plan = true.
Proof.
  split; [apply ncr_stage_certified; [vm_compute; reflexivity | vm_compute; reflexivity | vm_compute; reflexivity |
                                      exact NegEx.rwok | exact NegEx.smpok]|].
  split; [exact NegEx.rel|]. split; vm_compute; reflexivity.
Qed.

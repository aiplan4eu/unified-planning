(* C35 — Simulated execution environment is faithful to its contingent problem.
   Statements only (about Model/ExecEnv.v, which mirrors the repaired contingent/execution_environment.py); each is
   closed by [exact] of a lemma from Proofs/ExecEnv_proofs.v.  pysmt's model enumeration + random.choice is the Section
   variable [pick] of the model (an arbitrary function here); that its answer satisfies the constraints is validated
   per run by the correspondence (Corr/Corr_C35.v, with Coq's evaluator). *)
From Coq Require Import List ZArith NArith QArith Qcanon Bool.
Import ListNotations.
Require Import UPV.Core.Expr UPV.Core.Eval UPV.Core.Interp UPV.Planning.Problem UPV.Planning.Sem.
Require Import UPV.Model.ExecEnv UPV.Proofs.ExecEnv_proofs.

(* "Every non-hidden fluent takes the problem's declared initial value, whether explicit, a per-fluent default or
   a per-type default": for every problem, every chosen hidden assignment, every ground instance of a declared fluent.
   When nothing is declared the environment answers false (closed world). *)
Theorem C35_det_clone_initial_values :
  forall P chi k fd,
    find_fd (cp_base P) (fst k) = Some fd -> is_hidden P k = false ->
    init_state P chi (fst k) (snd k) =
    Some (match declared_init P k with Some v => v | None => VBool false end).
Proof. exact init_state_non_hidden. Qed.
Print Assumptions C35_det_clone_initial_values.

Theorem C35_declared_value_taken :
  forall P chi k fd v,
    find_fd (cp_base P) (fst k) = Some fd -> is_hidden P k = false -> declared_init P k = Some v ->
    init_state P chi (fst k) (snd k) = Some v.
Proof. exact init_state_declared. Qed.
Print Assumptions C35_declared_value_taken.

(* declared_init is: explicit > per-fluent default > per-type default *)
Theorem C35_declared_init_levels :
  forall P k fd,
    find_fd (cp_base P) (fst k) = Some fd ->
    declared_init P k =
    match lookup_app (fst k) (snd k) (cp_explicit P) with
    | Some v => Some v
    | None => match lookupN (fst k) (cp_fdefault P) with
              | Some v => Some v
              | None => type_default (cp_tdefault P) (cp_ftype P) (fst k)
              end
    end.
Proof. exact declared_init_levels. Qed.
Print Assumptions C35_declared_init_levels.

(* hidden part: a hidden ground fluent carries the value the oracle chose, whatever was declared for it *)
Theorem C35_hidden_value_is_chosen :
  forall P chi k, is_hidden P k = true -> init_state P chi (fst k) (snd k) = Some (VBool (chi k)).
Proof. exact init_state_hidden. Qed.
Print Assumptions C35_hidden_value_is_chosen.

(* ... hence the initial STATE satisfies the oneof / or constraints (read with the expression evaluator) exactly when
   the chosen assignment is a model of ExactlyOne / Or; [wf_hidden] = every constrained literal is a hidden literal *)
Theorem C35_constraints_hold_iff_chosen_is_model :
  forall P chi, wf_hidden P ->
    constraints_hold P (init_state P chi) = sat_assign chi (cp_oneof P) (cp_or P).
Proof. exact constraints_hold_init. Qed.
Print Assumptions C35_constraints_hold_iff_chosen_is_model.

(* [wf_hidden] is an invariant of the ContingentProblem API *)
Theorem C35_api_keeps_constraints_hidden :
  forall P, wf_hidden P ->
    (forall c, wf_hidden (add_oneof P c)) /\ (forall c, wf_hidden (add_or P c)) /\ (forall k, wf_hidden (add_unknown P k)).
Proof.
  intros P W. split; [|split]; intros x;
    [apply wf_hidden_add_oneof | apply wf_hidden_add_or | apply wf_hidden_add_unknown]; exact W.
Qed.
Print Assumptions C35_api_keeps_constraints_hidden.

(* the constructor, for ANY oracle that only returns models: constraints hold and declared values are taken *)
Theorem C35_env_init_faithful :
  forall pick P s0,
    wf_hidden P ->
    (forall chi, pick (hidden_atoms P) (cp_oneof P) (cp_or P) = Some chi ->
                 sat_assign chi (cp_oneof P) (cp_or P) = true) ->
    env_init pick P = Some s0 ->
    constraints_hold P s0 = true /\
    forall k fd, find_fd (cp_base P) (fst k) = Some fd -> is_hidden P k = false ->
      s0 (fst k) (snd k) = Some (match declared_init P k with Some v => v | None => VBool false end).
Proof. exact env_init_faithful. Qed.
Print Assumptions C35_env_init_faithful.

(* "Actions are executed exactly as the sequential simulator executes them on that state": one apply ... *)
Theorem C35_apply_is_sim_apply :
  forall P s aid args,
    option_map fst (env_apply P s aid args) =
    match lookup_action (cp_base P) aid with
    | Some a => sim_apply true (cp_base P) s a args
    | None => None
    end.
Proof. exact env_apply_state. Qed.
Print Assumptions C35_apply_is_sim_apply.

(* ... and every action sequence from every state (induction over the sequence) *)
Theorem C35_run_is_sim_run :
  forall P plan s, env_run P s plan = run (cp_base P) (sim_apply true (cp_base P)) s plan.
Proof. exact env_run_is_sim_run. Qed.
Print Assumptions C35_run_is_sim_run.

Theorem C35_is_goal_reached :
  forall P s, env_is_goal P s = goals_hold true (cp_base P) s.
Proof. exact env_is_goal_spec. Qed.
Print Assumptions C35_is_goal_reached.

(* "the returned observations are the current values of the sensed fluents": current = the state AFTER the applied
   action (apply reassigns self._state before it reads the observed fluents).  Rows = exactly the observed fluents of
   the sensing action with the actual parameters substituted; an ordinary action observes nothing. *)
Theorem C35_observation_is_current_value :
  forall P s aid args s' obs,
    env_apply P s aid args = Some (s', Some obs) ->
    env_step P s aid args = Some s' /\
    (forall k v, In (k, v) obs -> v = s' (fst k) (snd k)) /\
    (lookupN aid (cp_observed P) = None -> obs = []) /\
    (forall ofl a, lookupN aid (cp_observed P) = Some ofl -> lookup_action (cp_base P) aid = Some a ->
       let pars := zip_params (a_params a) args in
       (forall f eargs vs, In (f, eargs) ofl -> inst_args pars eargs = Some vs -> In ((f, vs), s' f vs) obs) /\
       (forall k v, In (k, v) obs -> exists eargs, In (fst k, eargs) ofl /\ inst_args pars eargs = Some (snd k))).
Proof. exact env_obs_spec. Qed.
Print Assumptions C35_observation_is_current_value.

(* fluents: 0 = f (Bool, per-fluent default true, type default false), 1 = g (Bool, type default only),
   2 = h(x : T0) (Bool, hidden: oneof h(o0) h(o1)), 3 = n (int[0,3], explicit 2);
   actions: 0 = sense(p : T0) observes h(p) and f, with effect g := true; 1 = flip: f := false *)
Definition exP : cproblem :=
  {| cp_base :=
       {| p_objs := [(0%N, [0%N; 1%N])]; p_ifun := [];
          p_fluents := [ {| fd_id := 0%N; fd_sig := []; fd_ty := FBool |}; {| fd_id := 1%N; fd_sig := []; fd_ty := FBool |};
                         {| fd_id := 2%N; fd_sig := [0%N]; fd_ty := FBool |};
                         {| fd_id := 3%N; fd_sig := []; fd_ty := FNum (Some (qc 0 1)) (Some (qc 3 1)) |} ];
          p_actions := [ (0%N, {| a_params := [0%N]; a_pre := [];
                                  a_effs := [ {| e_fl := 1%N; e_args := []; e_val := EBool true; e_cond := EBool true;
                                                 e_kind := KAssign; e_vars := []; e_isbool := true |} ] |});
                         (1%N, {| a_params := []; a_pre := [EFluent 0%N []];
                                  a_effs := [ {| e_fl := 0%N; e_args := []; e_val := EBool false; e_cond := EBool true;
                                                 e_kind := KAssign; e_vars := []; e_isbool := true |} ] |}) ];
          p_goals := [EFluent 1%N []]; p_invs := [] |};
     cp_observed := [(0%N, [(2%N, [EParam 0%N]); (0%N, [])])];
     cp_explicit := [(3%N, [], VNum (qc 2 1))];
     cp_fdefault := [(0%N, VBool true)];
     cp_ftype := [(0%N, 0%N); (1%N, 0%N); (2%N, 0%N); (3%N, 1%N)];
     cp_tdefault := [(0%N, VBool false)];
     cp_hidden := [ {| l_pos := true; l_key := (2%N, [VObj 0%N]) |}; {| l_pos := true; l_key := (2%N, [VObj 1%N]) |} ];
     cp_oneof := [[ {| l_pos := true; l_key := (2%N, [VObj 0%N]) |}; {| l_pos := true; l_key := (2%N, [VObj 1%N]) |} ]];
     cp_or := [] |}.

Definition exChi : gfl -> bool := fun k => gfl_eqb k (2%N, [VObj 1%N]).

Example C35_det_clone_initial_values_nonvacuous :
  (* per-fluent default wins over the type default (defect #31), type default, explicit value *)
  init_state exP exChi 0%N [] = Some (VBool true) /\ declared_init exP (0%N, []) = Some (VBool true) /\
  is_hidden exP (0%N, []) = false /\
  init_state exP exChi 1%N [] = Some (VBool false) /\ init_state exP exChi 3%N [] = Some (VNum (qc 2 1)) /\
  init_state exP exChi 2%N [VObj 1%N] = Some (VBool true) /\ is_hidden exP (2%N, [VObj 1%N]) = true /\
  constraints_hold exP (init_state exP exChi) = true /\ sat_assign exChi (cp_oneof exP) (cp_or exP) = true.
Proof. vm_compute. repeat split; reflexivity. Qed.

Example C35_env_init_faithful_nonvacuous :
  exists s0, env_init (fun _ _ _ => Some exChi) exP = Some s0 /\ constraints_hold exP s0 = true.
Proof. eexists. split; [vm_compute; reflexivity | vm_compute; reflexivity]. Qed.

Example C35_apply_observation_nonvacuous :
  exists s' obs,
    env_apply exP (init_state exP exChi) 0%N [VObj 1%N] = Some (s', Some obs) /\
    map (fun r => (fst r, snd r)) obs = [((2%N, [VObj 1%N]), Some (VBool true)); ((0%N, []), Some (VBool true))] /\
    s' 1%N [] = Some (VBool true) /\ env_is_goal exP s' = true /\ env_is_goal exP (init_state exP exChi) = false /\
    (* the precondition of flip holds only because f starts with its per-fluent default *)
    (exists s'', env_run exP (init_state exP exChi) [(0%N, [VObj 0%N]); (1%N, [])] = Some s'' /\ s'' 0%N [] = Some (VBool false)) /\
    env_run exP (init_state exP exChi) [(1%N, []); (1%N, [])] = None.
Proof.
  destruct (UPV.Proofs.ListFacts.obs_some (env_apply exP (init_state exP exChi) 0%N [VObj 1%N])
              (fun r => (option_map (map (fun x => (fst x, snd x))) (snd r), fst r 1%N [], env_is_goal exP (fst r)))
              (Some [((2%N, [VObj 1%N]), Some (VBool true)); ((0%N, []), Some (VBool true))], Some (VBool true), true))
    as ([s' [obs|]] & E & G); [vm_compute; reflexivity| |discriminate G].
  cbn [fst snd option_map] in G. injection G as G1 G2 G3. exists s', obs.
  split; [exact E|]. split; [exact G1|]. split; [exact G2|]. split; [exact G3|]. split; [vm_compute; reflexivity|].
  split; [|vm_compute; reflexivity].
  destruct (UPV.Proofs.ListFacts.obs_some (env_run exP (init_state exP exChi) [(0%N, [VObj 0%N]); (1%N, [])])
              (fun s => s 0%N []) (Some (VBool false))) as (s'' & E2 & G4); [vm_compute; reflexivity|].
  exists s''. split; [exact E2 | exact G4].
Qed.

(* C06 (compiler soundness), Layer A, part file: NegativeConditionsRemover at plan level.
   Model: Compilers/LayerA_Neg.v ([neg_compile] mirrors NegativeConditionsRemover._compile, InstantaneousAction branch,
   goals, state invariants, fluent declarations); proofs: Proofs/LayerA_Neg_proofs.v.
   The compiled problem keeps the action names and parameters, so the map-back of a plan is the plan itself.  The two
   problems run on DIFFERENT states: the compiled state also holds the negation fluents; [neg_rel nmap s s'] says that s'
   agrees with s on every fluent that is not a negation fluent and that every negation fluent holds the complement of
   its fluent (what the compiler's initial values establish).

   Hypotheses (each one is needed; see notes/C06_ncr.md for the experiments on the real compiler):
     nmap_ok        the negation fluents are fresh (no declared fluent of P, no key of the mapping is one), pairwise
                    different, only declared Boolean fluents are negated                       [decidable]
     problem_clean  no expression of P mentions a negation fluent (they are fresh names)       [decidable]
     ncr_safe       within one action all effects on one negated fluent symbol are assignments of one Boolean constant
                    [decidable]; it is only used through its two consequences
         ncr_const  an effect on a negated fluent is an assignment of a Boolean constant       [decidable]
         one_value  the effect instances that fire on ONE GROUND negated fluent carry one value [semantic]
                    (without it: finding C06-ncr-add-after-delete, C06_LA_ncr_add_after_delete_refuted in Props/C06.v)
     rw_ok          remove_negative_fluents is exact on the conditions of P under the invariant (Nnf: C12, Simplifier:
                    C11, walk_not on a fluent: [nrw_exact])
     smp_exact      FNode.simplify keeps value and definedness (C11; the real one only refines)  *)
From Coq Require Import List ZArith NArith QArith Qcanon Bool.
Import ListNotations.
Require Import UPV.Core.Expr UPV.Core.Eval UPV.Core.Interp UPV.Planning.Problem UPV.Planning.Sem.
Require Import UPV.Compilers.LayerA_Defs UPV.Compilers.LayerA_Quant UPV.Compilers.LayerA_Neg.
Require Import UPV.Proofs.LayerA_Neg_proofs.

(* the statement of C06_LA_ncr_sound_goal (Props/C06.v): for EVERY plan the compiled problem, run from the related
   state, gives the verdict of the original problem (soundness is the direction compiled = true -> original = true) *)
Theorem C06_LA_ncr_sound :
  forall (nmap : list (N * N)) (rw smp : expr -> expr) (P : problem),
    nmap_ok nmap P = true -> problem_clean nmap P = true -> ncr_safe nmap P = true -> rw_ok nmap rw P -> smp_exact smp ->
  forall (s s' : state) (pi : list (N * list value)), neg_rel nmap s s' ->
    valid_plan false (neg_compile nmap rw smp P) s' pi = valid_plan false P s pi.
Proof. exact neg_valid_plan_safe. Qed.
Print Assumptions C06_LA_ncr_sound.

(* the same equation with [ncr_safe] weakened to what the proof uses: Boolean constants + one value per ground fluent
   (covers `at(x) := false; at(y) := true` whenever the preconditions force x <> y) *)
Theorem C06_LA_ncr_sound_one_value :
  forall (nmap : list (N * N)) (rw smp : expr -> expr) (P : problem),
    nmap_ok nmap P = true -> problem_clean nmap P = true -> ncr_const nmap P = true -> one_value nmap P ->
    rw_ok nmap rw P -> smp_exact smp ->
  forall (s s' : state) (pi : list (N * list value)), neg_rel nmap s s' ->
    valid_plan false (neg_compile nmap rw smp P) s' pi = valid_plan false P s pi.
Proof. exact neg_valid_plan. Qed.
Print Assumptions C06_LA_ncr_sound_one_value.

(* step level: the compiled action of the same name is applicable exactly when the original one is, and the successor
   states are related again (the invariant "nf = not f" is preserved) *)
Theorem C06_LA_ncr_step :
  forall (nmap : list (N * N)) (rw smp : expr -> expr) (P : problem),
    nmap_ok nmap P = true -> problem_clean nmap P = true -> ncr_safe nmap P = true -> rw_ok nmap rw P -> smp_exact smp ->
  forall (s s' : state) (aid : N) (a : action) (args : list value),
    neg_rel nmap s s' -> lookup_action P aid = Some a ->
    lookup_action (neg_compile nmap rw smp P) aid = Some (n_action nmap rw smp a) /\
    match spec_step false P s a args,
          spec_step false (neg_compile nmap rw smp P) s' (n_action nmap rw smp a) args with
    | Some t, Some t' => neg_rel nmap t t'
    | None, None => True
    | _, _ => False
    end.
Proof.
  intros nmap rw smp P Hm Hc Hs Hr Hsm s s' aid a args HR HL. split; [rewrite neg_lookup, HL; reflexivity|].
  exact (neg_step nmap rw smp P Hm Hc (ncr_safe_const nmap P Hs) (ncr_safe_one_value nmap P Hs) Hr Hsm s s' aid a args HR
           (Eval_lemmas.lookupN_In _ _ _ HL)).
Qed.
Print Assumptions C06_LA_ncr_step.

(* ... hence whole runs end in related states (or fail together) *)
Theorem C06_LA_ncr_related_runs :
  forall (nmap : list (N * N)) (rw smp : expr -> expr) (P : problem),
    nmap_ok nmap P = true -> problem_clean nmap P = true -> ncr_safe nmap P = true -> rw_ok nmap rw P -> smp_exact smp ->
  forall (pi : list (N * list value)) (s s' : state), neg_rel nmap s s' ->
    match run P (spec_step false P) s pi,
          run (neg_compile nmap rw smp P) (spec_step false (neg_compile nmap rw smp P)) s' pi with
    | Some t, Some t' => neg_rel nmap t t'
    | None, None => True
    | _, _ => False
    end.
Proof. exact neg_run_safe. Qed.
Print Assumptions C06_LA_ncr_related_runs.

(* [rw_ok] is not an empty promise: the reference rewriting nrw (`not f(args)` |-> nf(args), And / Or rebuilt) is exact
   on every expression whose negations sit directly on fluents *)
Theorem C06_LA_ncr_rw_reference_exact :
  forall (nmap : list (N * N)) (P : problem),
    forallb (nrw_dom nmap) (conds_of P) = true -> rw_ok nmap (nrw (ng nmap)) P.
Proof. exact rw_ok_nrw. Qed.
Print Assumptions C06_LA_ncr_rw_reference_exact.

(* non-vacuity: door / inside (NegEx): every hypothesis holds, the compiler really adds the negation fluent and the
   mirrored effect, the plan open; enter; close is valid on both sides and the plan enter is invalid on both sides *)
Example C06_LA_ncr_sound_nonvacuous :
  nmap_ok NegEx.nm NegEx.Pe = true /\ problem_clean NegEx.nm NegEx.Pe = true /\ ncr_safe NegEx.nm NegEx.Pe = true /\
  rw_ok NegEx.nm (nrw (ng NegEx.nm)) NegEx.Pe /\ smp_exact NegEx.idf /\ neg_rel NegEx.nm NegEx.se NegEx.se' /\
  map fd_id (p_fluents NegEx.Pe') = [0%N; 5%N; 1%N] /\
  option_map (fun a => (a_pre a, map e_fl (a_effs a))) (lookup_action NegEx.Pe' 0%N) = Some ([EFluent 5%N []], [0%N; 5%N]) /\
  p_goals NegEx.Pe' = [EFluent 1%N []; EFluent 5%N []] /\
  valid_plan false NegEx.Pe' NegEx.se' NegEx.plan = true /\ valid_plan false NegEx.Pe NegEx.se NegEx.plan = true /\
  valid_plan false NegEx.Pe' NegEx.se' [(1%N, [])] = false /\ valid_plan false NegEx.Pe NegEx.se [(1%N, [])] = false.
Proof.
  split; [vm_compute; reflexivity|]. split; [vm_compute; reflexivity|]. split; [vm_compute; reflexivity|].
  split; [exact NegEx.rwok|]. split; [exact NegEx.smpok|]. split; [exact NegEx.rel|].
  repeat split; vm_compute; reflexivity.
Qed.

Example C06_LA_ncr_sound_one_value_nonvacuous :
  ncr_const NegEx.nm NegEx.Pe = true /\ one_value NegEx.nm NegEx.Pe.
Proof. split; [vm_compute; reflexivity | apply ncr_safe_one_value; vm_compute; reflexivity]. Qed.

Example C06_LA_ncr_step_nonvacuous :
  lookup_action NegEx.Pe 0%N = Some NegEx.a_open /\
  (exists t t', spec_step false NegEx.Pe NegEx.se NegEx.a_open [] = Some t /\
                spec_step false NegEx.Pe' NegEx.se' (n_action NegEx.nm (nrw (ng NegEx.nm)) NegEx.idf NegEx.a_open) [] = Some t' /\
                t 0%N [] = Some (VBool true) /\ t' 5%N [] = Some (VBool false)).
Proof.
  split; [reflexivity|].
  destruct (UPV.Proofs.ListFacts.obs_some (spec_step false NegEx.Pe NegEx.se NegEx.a_open []) (fun t => t 0%N []) (Some (VBool true)))
    as [t [Ht Hv]]; [vm_compute; reflexivity|].
  destruct (UPV.Proofs.ListFacts.obs_some
              (spec_step false NegEx.Pe' NegEx.se' (n_action NegEx.nm (nrw (ng NegEx.nm)) NegEx.idf NegEx.a_open) [])
              (fun t => t 5%N []) (Some (VBool false))) as [t' [Ht' Hv']]; [vm_compute; reflexivity|].
  exists t, t'. repeat split; assumption.
Qed.

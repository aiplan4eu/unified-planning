(* C19 — ANML write/read round trip preserves problem semantics (validated property).

   The ANML printer, grammar and parser are not modelled.  Proved here, for all inputs: soundness of the two decision
   procedures that the harness runs on the real ANMLWriter/ANMLReader output —
   [bisim_check] for the classical/numeric part (objects, initial state, applicability, successors, goals; see C18) and
   [temporal_structure_eqb] for the temporal part: when it accepts the temporal structures of the original and the
   re-read problem (serialised under the writer's renaming, parameters numbered by position) then every durative action
   of one has a counterpart in the other with the same parameter types, the same duration bounds (expressions and
   open/closed flags) and the same sets of timed conditions and timed effects, and the timed initial effects and timed
   goals coincide as sets. *)
From Coq Require Import List ZArith NArith QArith Qcanon Bool.
Import ListNotations.
Require Import UPV.Core.Expr UPV.Core.Eval UPV.Core.Interp UPV.Planning.Problem UPV.Planning.Sem UPV.Planning.SeqValidate.
Require Import UPV.Proofs.Step_proofs UPV.Compilers.BisimCheck UPV.Proofs.BisimCheck_proofs.

Theorem C19_bisim_check_correct :
  forall P Q MP MQ sigsP sigsQ l0P l0Q n cap,
    bisim_check P Q MP MQ sigsP sigsQ l0P l0Q n cap = BClosed ->
    forall plan, Forall (fun i => In i (all_insts P sigsP)) plan ->
      ostate_eq (run P (spec_step false P) (st_of l0P) plan) (run Q (spec_step false Q) (st_of l0Q) plan) /\
      valid_plan false P (st_of l0P) plan = valid_plan false Q (st_of l0Q) plan.
Proof. intros P Q MP MQ sigsP sigsQ l0P l0Q n cap H plan HP. exact (proj2 (bisim_check_closed_sound _ _ _ _ _ _ _ _ _ _ H plan HP)). Qed.
Print Assumptions C19_bisim_check_correct.

Theorem C19_bisim_check_correct_bounded :
  forall P Q MP MQ sigsP sigsQ l0P l0Q n cap b,
    bisim_check P Q MP MQ sigsP sigsQ l0P l0Q n cap = BBounded b ->
    forall plan, (length plan <= b)%nat -> Forall (fun i => In i (all_insts P sigsP)) plan ->
      ostate_eq (run P (spec_step false P) (st_of l0P) plan) (run Q (spec_step false Q) (st_of l0Q) plan) /\
      valid_plan false P (st_of l0P) plan = valid_plan false Q (st_of l0Q) plan.
Proof. intros P Q MP MQ sigsP sigsQ l0P l0Q n cap b H plan HL HP. exact (proj2 (bisim_check_bounded_sound _ _ _ _ _ _ _ _ _ _ _ H plan HL HP)). Qed.
Print Assumptions C19_bisim_check_correct_bounded.

Theorem C19_bisim_check_static :
  forall P Q MP MQ sigsP sigsQ l0P l0Q n cap,
    (forall w tr i, bisim_check P Q MP MQ sigsP sigsQ l0P l0Q n cap <> BFail w tr i) ->
    (forall t o, In o (objs_of P t) <-> In o (objs_of Q t)) /\
    (forall i, In i (all_insts P sigsP) <-> In i (all_insts Q sigsP)) /\
    state_eq (st_of l0P) (st_of l0Q).
Proof.
  intros P Q MP MQ sigsP sigsQ l0P l0Q n cap H.
  destruct (bisim_check_static P Q MP MQ sigsP sigsQ l0P l0Q n cap H) as (A & B & C & _). auto.
Qed.
Print Assumptions C19_bisim_check_static.

(* structural equality of the temporal part => equal fields *)
Theorem C19_temporal_structure_eqb_sound :
  forall a b, temporal_structure_eqb a b = true ->
    (forall aid x, lookupN aid (ts_actions a) = Some x ->
       exists y, lookupN aid (ts_actions b) = Some y /\
         da_sig x = da_sig y /\ da_dlo x = da_dlo y /\ da_dhi x = da_dhi y /\
         da_dlopen x = da_dlopen y /\ da_dropen x = da_dropen y /\
         (forall c, In c (da_conds x) <-> In c (da_conds y)) /\
         (forall e, In e (da_effs x) <-> In e (da_effs y))) /\
    (forall aid y, lookupN aid (ts_actions b) = Some y ->
       exists x, lookupN aid (ts_actions a) = Some x /\
         da_sig y = da_sig x /\ da_dlo y = da_dlo x /\ da_dhi y = da_dhi x /\
         da_dlopen y = da_dlopen x /\ da_dropen y = da_dropen x /\
         (forall c, In c (da_conds y) <-> In c (da_conds x)) /\
         (forall e, In e (da_effs y) <-> In e (da_effs x))) /\
    (forall e, In e (ts_teffs a) <-> In e (ts_teffs b)) /\
    (forall g, In g (ts_tgoals a) <-> In g (ts_tgoals b)).
Proof. exact temporal_structure_eqb_sound. Qed.
Print Assumptions C19_temporal_structure_eqb_sound.

Definition ex_tm (k : N) (d : Z) : timing := {| tm_kind := k; tm_delay := zq d |}.
Definition ex_eff (v : bool) : effect :=
  {| e_fl := 0%N; e_args := [EParam 0%N]; e_val := EBool v; e_cond := EBool true; e_kind := KAssign; e_vars := []; e_isbool := true |}.
Definition ex_da (flip : bool) : daction :=
  let c1 := ({| ti_lo := ex_tm 2 0; ti_hi := ex_tm 3 0; ti_lopen := false; ti_ropen := true |}, EFluent 1%N []) in
  let c2 := ({| ti_lo := ex_tm 2 1; ti_hi := ex_tm 2 1; ti_lopen := false; ti_ropen := false |}, ENot (EFluent 0%N [EParam 0%N])) in
  {| da_sig := [0%N]; da_dlo := EInt 2; da_dhi := EPlus [EFluent 2%N []; EInt 1]; da_dlopen := true; da_dropen := false;
     da_conds := if flip then [c2; c1] else [c1; c2];
     da_effs := [(ex_tm 2 0, ex_eff false); (ex_tm 3 (-1), ex_eff true)] |}.
Definition ex_ts (flip : bool) : tstruct :=
  {| ts_actions := [(4%N, ex_da flip)]; ts_teffs := [(ex_tm 0 5, ex_eff true)];
     ts_tgoals := [({| ti_lo := ex_tm 0 1; ti_hi := ex_tm 0 4; ti_lopen := false; ti_ropen := false |}, EFluent 1%N [])] |}.

Example C19_temporal_structure_eqb_sound_nonvacuous : temporal_structure_eqb (ex_ts false) (ex_ts true) = true.
Proof. vm_compute. reflexivity. Qed.

(* a lost open-interval flag, a changed delay or a dropped timed effect is rejected *)
Example C19_temporal_structure_eqb_rejects :
  temporal_structure_eqb (ex_ts false)
    {| ts_actions := [(4%N, {| da_sig := [0%N]; da_dlo := EInt 2; da_dhi := EPlus [EFluent 2%N []; EInt 1];
                              da_dlopen := false; da_dropen := false;
                              da_conds := da_conds (ex_da false); da_effs := da_effs (ex_da false) |})];
       ts_teffs := ts_teffs (ex_ts false); ts_tgoals := ts_tgoals (ex_ts false) |} = false /\
  temporal_structure_eqb (ex_ts false)
    {| ts_actions := ts_actions (ex_ts false); ts_teffs := []; ts_tgoals := ts_tgoals (ex_ts false) |} = false.
Proof. vm_compute. split; reflexivity. Qed.

Definition ex_P : problem :=
  {| p_objs := [(0%N, [0%N])]; p_ifun := [];
     p_fluents := [{| fd_id := 0%N; fd_sig := [0%N]; fd_ty := FBool |}; {| fd_id := 1%N; fd_sig := []; fd_ty := FNum (Some (zq 0)) (Some (zq 2)) |}];
     p_actions := [(0%N, {| a_params := [0%N]; a_pre := [];
                            a_effs := [{| e_fl := 1%N; e_args := []; e_val := EInt 1; e_cond := EBool true;
                                          e_kind := KInc; e_vars := []; e_isbool := false |}] |})];
     p_goals := [ELe (EInt 2) (EFluent 1%N [])]; p_invs := [] |}.
Definition ex_init : fstate := [(0%N, [VObj 0%N], VBool false); (1%N, [], VNum (zq 0))].
Definition ex_M : qmetric := {| qm_max := false; qm_m := MNone |}.

Example C19_bisim_check_correct_nonvacuous :
  bisim_check ex_P ex_P ex_M ex_M [(0%N, [0%N])] [(0%N, [0%N])] ex_init ex_init 6 100 = BClosed.
Proof. vm_compute. reflexivity. Qed.
Example C19_bisim_check_correct_bounded_nonvacuous :
  bisim_check ex_P ex_P ex_M ex_M [(0%N, [0%N])] [(0%N, [0%N])] ex_init ex_init 1 100 = BBounded 1.
Proof. vm_compute. reflexivity. Qed.
Example C19_bisim_check_static_nonvacuous :
  forall w tr i, bisim_check ex_P ex_P ex_M ex_M [(0%N, [0%N])] [(0%N, [0%N])] ex_init ex_init 6 100 <> BFail w tr i.
Proof. intros. vm_compute. discriminate. Qed.

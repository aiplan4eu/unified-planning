(* C38 — Writer renamings are valid, injective and invertible.
   Only statements; each is closed by [exact] of a lemma from Proofs/Names_proofs.v.

   The statements are about Model/Names.v instantiated with the tables that tools/gen_keywords.py regenerates from
   the current pddl_writer.py / anml_writer.py (Gen/Gen_Keywords.v); the side conditions on those tables are checked
   by computation each time this file is recompiled.  Every theorem quantifies over ALL finite histories of name
   requests, all item names (Coq strings; ASCII is the claimed scope), and for PDDL over every keyword set [kws]
   the writer can hold (any subset of the declared tables), either value of the "rename a type called object" flag
   (has_hierarchical_typing() or more than one user type) and every set
   [pnames] of names the problem reports through has_name.
   Both writers keep one flat namespace (one dictionary) for all kinds of items, so "share a namespace" is: are
   different dictionary keys.  Items are (class, identity, name) triples; equal triples = equal Python keys. *)
From Coq Require Import List String Ascii Bool NArith.
Import ListNotations.
Require Import UPV.Gen.Gen_Keywords UPV.Model.Names UPV.Proofs.Names_proofs.
Open Scope string_scope.

(* no history of _get_mangled_name calls makes a loop run out of fuel: every request is answered *)
Theorem C38_pddl_every_request_answered :
  forall kws hier pnames reqs, exists ns st, pddl_run (pddl_cfg kws) hier pnames reqs = Some (ns, st).
Proof. exact pddl_final_total. Qed.
Print Assumptions C38_pddl_every_request_answered.

(* valid identifier: [a-zA-Z][a-zA-Z0-9_-]* (with a leading "?" for parameters and variables), and no upper case *)
Theorem C38_pddl_names_are_identifiers :
  forall kws hier pnames reqs ns st it n,
    pddl_run (pddl_cfg kws) hier pnames reqs = Some (ns, st) ->
    get_pddl_name st it = Some n ->
    pddl_ident_for it n = true /\ no_upper n = true.
Proof. exact pddl_final_valid. Qed.
Print Assumptions C38_pddl_names_are_identifiers.

Theorem C38_pddl_names_never_keywords :
  forall kws hier pnames reqs ns st it n,
    incl kws pddl_all_keywords ->
    pddl_run (pddl_cfg kws) hier pnames reqs = Some (ns, st) ->
    get_pddl_name st it = Some n -> ~ In n kws.
Proof. exact pddl_final_not_keyword. Qed.
Print Assumptions C38_pddl_names_never_keywords.

Theorem C38_pddl_distinct_items_distinct_names :
  forall kws hier pnames reqs ns st a b n,
    pddl_run (pddl_cfg kws) hier pnames reqs = Some (ns, st) ->
    get_pddl_name st a = Some n -> get_pddl_name st b = Some n -> a = b.
Proof. exact pddl_final_injective. Qed.
Print Assumptions C38_pddl_distinct_items_distinct_names.

(* PDDL is case-insensitive: the names also differ when case is ignored *)
Theorem C38_pddl_distinct_names_ignoring_case :
  forall kws hier pnames reqs ns st a b n1 n2,
    pddl_run (pddl_cfg kws) hier pnames reqs = Some (ns, st) ->
    get_pddl_name st a = Some n1 -> get_pddl_name st b = Some n2 -> lower n1 = lower n2 -> a = b.
Proof. exact pddl_final_injective_nocase. Qed.
Print Assumptions C38_pddl_distinct_names_ignoring_case.

(* get_pddl_name and get_item_named are mutually inverse (None = UPException) *)
Theorem C38_pddl_lookups_inverse :
  forall kws hier pnames reqs ns st it n,
    pddl_run (pddl_cfg kws) hier pnames reqs = Some (ns, st) ->
    (get_pddl_name st it = Some n <-> get_item_named st n = Some it).
Proof. exact pddl_final_inverse. Qed.
Print Assumptions C38_pddl_lookups_inverse.

(* the name returned at request time is the name the item still has at the end of the history *)
Theorem C38_pddl_answers_are_final_bindings :
  forall kws hier pnames reqs ns st,
    pddl_run (pddl_cfg kws) hier pnames reqs = Some (ns, st) ->
    Forall2 (fun it n => get_pddl_name st it = Some n) reqs ns.
Proof. exact pddl_final_answers. Qed.
Print Assumptions C38_pddl_answers_are_final_bindings.

(* a renamed item never receives a name that some element of the problem carries *)
Theorem C38_pddl_renamed_avoid_problem_names :
  forall kws hier pnames reqs ns st it n,
    pddl_run (pddl_cfg kws) hier pnames reqs = Some (ns, st) ->
    get_pddl_name st it = Some n -> n <> it_name it -> ~ In n pnames.
Proof. exact pddl_final_fresh. Qed.
Print Assumptions C38_pddl_renamed_avoid_problem_names.

(* _get_pddl_name alone (used for the domain / problem name): total, identifier, never a keyword *)
Theorem C38_pddl_get_pddl_name_valid :
  forall kws it, exists n, pddl_name (pddl_cfg kws) it = Some n /\ pddl_ident_for it n = true /\ no_upper n = true
    /\ (incl kws pddl_all_keywords -> ~ In n kws).
Proof. exact pddl_final_name. Qed.
Print Assumptions C38_pddl_get_pddl_name_valid.

(* which tables a writer holds: PDDLWriter.__init__ adds each table under a condition on the problem's features
   (rules regenerated from the source).  For EVERY combination of features the resulting set stays within the declared
   tables (so the theorems above apply to it) and contains every word that the hand-pinned specification
   [pddl_reserved_spec] reserves for a problem with those features (e.g. process/event as soon as the problem has
   processes OR events) *)
Theorem C38_pddl_writer_keywords_within_tables :
  forall has, incl (pddl_writer_kws has) pddl_all_keywords.
Proof. exact pddl_writer_kws_incl. Qed.
Print Assumptions C38_pddl_writer_keywords_within_tables.

Theorem C38_pddl_reserved_words_covered :
  forall has, incl (pddl_reserved_spec has) (pddl_writer_kws has).
Proof. exact pddl_reserved_covered. Qed.
Print Assumptions C38_pddl_reserved_words_covered.

Theorem C38_pddl_names_never_reserved_words :
  forall has hier pnames reqs ns st it n,
    pddl_run (pddl_cfg (pddl_writer_kws has)) hier pnames reqs = Some (ns, st) ->
    get_pddl_name st it = Some n -> ~ In n (pddl_reserved_spec has).
Proof. exact pddl_final_not_reserved. Qed.
Print Assumptions C38_pddl_names_never_reserved_words.

Definition anml_writer_run := anml_run anml_vcfg anml_cfg anml_builtin_names.

(* pre-fill steps and _get_anml_name calls in ANY order; requests for bounded int/real types (rendered ranges, not
   named elements) are outside the model *)
Theorem C38_anml_every_request_answered :
  forall ops, Forall aop_named ops -> exists ns m, anml_writer_run ops = Some (ns, m).
Proof. exact anml_final_total. Qed.
Print Assumptions C38_anml_every_request_answered.

(* valid identifier [a-zA-Z][a-zA-Z0-9_]* and not a keyword, for every entry except the three built-in types *)
Theorem C38_anml_names_are_identifiers_not_keywords :
  forall ops ns m it n,
    anml_writer_run ops = Some (ns, m) -> lookup_otn it m = Some n -> ~ In it builtin_items ->
    anml_ident n = true /\ ~ In n anml_keywords.
Proof. exact anml_final_valid. Qed.
Print Assumptions C38_anml_names_are_identifiers_not_keywords.

Theorem C38_anml_distinct_items_distinct_names :
  forall ops ns m a b n,
    anml_writer_run ops = Some (ns, m) -> lookup_otn a m = Some n -> lookup_otn b m = Some n -> a = b.
Proof. exact anml_final_injective. Qed.
Print Assumptions C38_anml_distinct_items_distinct_names.

(* the ANML writer has no name->item method; [anml_item_named] is the inverse relation of names_mapping *)
Theorem C38_anml_mapping_invertible :
  forall ops ns m it n,
    anml_writer_run ops = Some (ns, m) -> (lookup_otn it m = Some n <-> anml_item_named n m = Some it).
Proof. exact anml_final_inverse. Qed.
Print Assumptions C38_anml_mapping_invertible.

(* _is_valid_anml_name decides exactly "identifier and not keyword" (finding 36 was: only a prefix was tested) *)
Theorem C38_anml_is_valid_decides_identifier :
  forall s, anml_is_valid anml_vcfg anml_keywords s = anml_ident s && negb (mem_str s anml_keywords).
Proof. exact anml_final_is_valid. Qed.
Print Assumptions C38_anml_is_valid_decides_identifier.

(* the writer's own order (all pre-fill loops, then requests): each answer is the final binding and no binding made
   earlier changes *)
Theorem C38_anml_answers_are_final_bindings :
  forall pre reqs ns1 m1 ns m,
    anml_writer_run (map APre pre) = Some (ns1, m1) ->
    anml_run_from anml_vcfg anml_cfg m1 (map AReq reqs) = Some (ns, m) ->
    ainv anml_cfg anml_builtin_names m
    /\ ns = map (fun it => lookup_otn it m) reqs
    /\ (forall k x, lookup_otn k m1 = Some x -> lookup_otn k m = Some x).
Proof. exact anml_final_writer. Qed.
Print Assumptions C38_anml_answers_are_final_bindings.

(* `assert _is_valid_anml_name(new_name)` in _get_anml_name can never fail, and the fresh name is unused *)
Theorem C38_anml_fresh_name_assertion_holds :
  forall ops ns m it n m',
    anml_writer_run ops = Some (ns, m) -> lookup_otn it m = None ->
    anml_get_name anml_cfg m it = Some (n, m') ->
    anml_is_valid anml_vcfg anml_keywords n = true /\ ~ In n (values m).
Proof. exact anml_final_assert. Qed.
Print Assumptions C38_anml_fresh_name_assertion_holds.

(* non-vacuity: concrete adversarial histories *)
Definition O (i : N) (s : string) := mk_item "Object" i s.

(* case variants, a keyword, a leading digit, a symbol, and a name equal to another name's mangled form *)
Example C38_pddl_nonvacuous :
  pddl_run (pddl_cfg pddl_general_keywords) false ["A"; "a"; "and"; "1x"; "o_1x"; "x y"; "x_y"]
           [O 0 "A"; O 1 "a"; O 2 "and"; O 3 "1x"; O 4 "o_1x"; O 5 "x y"; O 6 "x_y"; mk_item "Parameter" 7 "x_y"; O 0 "A"]
  = Some (["a_0"; "a"; "and_"; "o_1x_0"; "o_1x"; "x_y_0"; "x_y"; "?x_y"; "a_0"],
          mk_pstate [(O 0 "A", "a_0"); (O 1 "a", "a"); (O 2 "and", "and_"); (O 3 "1x", "o_1x_0"); (O 4 "o_1x", "o_1x");
                     (O 5 "x y", "x_y_0"); (O 6 "x_y", "x_y"); (mk_item "Parameter" 7 "x_y", "?x_y")]
                    [("a_0", O 0 "A"); ("a", O 1 "a"); ("and_", O 2 "and"); ("o_1x_0", O 3 "1x"); ("o_1x", O 4 "o_1x");
                     ("x_y_0", O 5 "x y"); ("x_y", O 6 "x_y"); ("?x_y", mk_item "Parameter" 7 "x_y")]).
Proof. vm_compute. reflexivity. Qed.

Example C38_anml_nonvacuous :
  exists m,
    anml_writer_run [APre (O 0 "a b"); APre (O 1 "a_b"); APre (O 2 "and"); APre (O 3 "x"); APre (mk_item "Fluent" 4 "x");
                     AReq (O 0 "a b"); AReq (O 2 "and"); AReq (mk_item "Fluent" 4 "x"); AReq (mk_item "Parameter" 5 "1")]
    = Some ([None; None; None; None; None; Some "a_b_0"; Some "and_"; Some "x_0"; Some "p_1"], m)
    /\ Forall aop_named [AReq (O 0 "a b")].
Proof. eexists. split; [vm_compute; reflexivity|]. repeat constructor. Qed.

(* sensitivity: with the unanchored test (re.match, the code before the repair of finding 36) the object name "a b" is
   kept unchanged, so the validity theorem is false of that model *)
Example C38_anml_prefix_match_refuted :
  exists ops ns m it n,
    anml_run (mk_vcfg anml_valid_first_class anml_valid_rest_class false) anml_cfg anml_builtin_names ops = Some (ns, m)
    /\ lookup_otn it m = Some n /\ ~ In it builtin_items /\ anml_ident n = false.
Proof.
  exists [APre (O 0 "a b")], [None], (anml_init anml_builtin_names ++ [(O 0 "a b", "a b")])%list, (O 0 "a b"), "a b".
  split; [vm_compute; reflexivity|]. split; [vm_compute; reflexivity|]. split; [|vm_compute; reflexivity].
  simpl. intuition discriminate.
Qed.

(* C17 — Linearity and monotonicity analysis is sound.
   Only statements; each is closed by [exact] of a lemma from Proofs/Linear_proofs.v.
   Model: Walkers/Linear.v (LinearChecker after the repair 9cac267 of walk_div), using Walkers/TypeInfer.v for the
   sign of fluent-free factors and divisors.  get_fluents here is the walk on the simplified expression. *)
From Coq Require Import List ZArith NArith QArith Qcanon Bool.
Import ListNotations.
Require Import UPV.Core.Expr UPV.Core.Eval UPV.Core.Interp UPV.Walkers.TypeInfer UPV.Walkers.Linear UPV.Proofs.Linear_proofs.

(* If an arithmetic expression (numeric constants, parameters, ground fluent expressions, + - * /) is reported linear
   and the ground fluent f(os) is reported among the positive and not among the negative fluents, then the value is
   non-decreasing in f(os): for any two interpretations that respect the declared types, agree on everything except
   f(os), give f(os) values vk <= vk', and on which the expression is defined. *)
Theorem C17_linear_mono_pos :
  forall G sc e pos neg f os,
  get_fluents G e = Some (true, pos, neg) -> arith e = true ->
  In (gfluent f os) pos -> ~ In (gfluent f os) neg ->
  forall I J, respects G I -> respects G J -> agree_except f os I J ->
  forall vk vk', eval sc (gfluent f os) I = Some (VNum vk) -> eval sc (gfluent f os) J = Some (VNum vk') -> (vk <= vk')%Qc ->
  forall v v', eval sc e I = Some (VNum v) -> eval sc e J = Some (VNum v') -> (v <= v')%Qc.
Proof. exact linear_mono_pos_thm. Qed.
Print Assumptions C17_linear_mono_pos.

Theorem C17_linear_mono_neg :
  forall G sc e pos neg f os,
  get_fluents G e = Some (true, pos, neg) -> arith e = true ->
  In (gfluent f os) neg -> ~ In (gfluent f os) pos ->
  forall I J, respects G I -> respects G J -> agree_except f os I J ->
  forall vk vk', eval sc (gfluent f os) I = Some (VNum vk) -> eval sc (gfluent f os) J = Some (VNum vk') -> (vk <= vk')%Qc ->
  forall v v', eval sc e I = Some (VNum v) -> eval sc e J = Some (VNum v') -> (v' <= v)%Qc.
Proof. exact linear_mono_neg_thm. Qed.
Print Assumptions C17_linear_mono_neg.

(* a fluent reported in neither set does not influence the value *)
Theorem C17_linear_independent :
  forall G sc e pos neg f os,
  get_fluents G e = Some (true, pos, neg) -> arith e = true ->
  ~ In (gfluent f os) pos -> ~ In (gfluent f os) neg ->
  forall I J, respects G I -> respects G J -> agree_except f os I J ->
  forall vk vk', eval sc (gfluent f os) I = Some (VNum vk) -> eval sc (gfluent f os) J = Some (VNum vk') -> (vk <= vk')%Qc ->
  forall v v', eval sc e I = Some (VNum v) -> eval sc e J = Some (VNum v') -> v = v'.
Proof. exact linear_independent_thm. Qed.
Print Assumptions C17_linear_independent.

(* a product with (at least) two factors in which a fluent occurs is never reported linear *)
Theorem C17_times_two_fluent_factors_nonlinear :
  forall G l r, lin G (ETimes l) = Some r -> (2 <= length (filter has_fluent l))%nat -> r = (false, [], []).
Proof. exact times_two_fluent_factors_nonlinear_thm. Qed.
Print Assumptions C17_times_two_fluent_factors_nonlinear.

(* a quotient whose divisor contains a fluent is never reported linear *)
Theorem C17_div_fluent_divisor_nonlinear :
  forall G a b r, lin G (EDiv a b) = Some r -> has_fluent b = true -> r = (false, [], []).
Proof. exact div_fluent_divisor_nonlinear_thm. Qed.
Print Assumptions C17_div_fluent_divisor_nonlinear.

(* an expression in which a fluent occurs is never reported linear with both sets empty *)
Theorem C17_fluent_dependence_reported :
  forall G e r, has_fluent e = true -> lin G e = Some r ->
  r_lin r = false \/ r_pos r <> [] \/ r_neg r <> [].
Proof. exact fluent_dependence_reported_thm. Qed.
Print Assumptions C17_fluent_dependence_reported.

(* non-vacuity: x / p with x : int[0,10], p : int[-5,-1] is reported decreasing in x, and it is *)
Definition ex_G : tenv :=
  {| g_fl := [(0%N, ([], TInt (Some 0%Z) (Some 10%Z))); (1%N, ([], TInt (Some 0%Z) (Some 10%Z)))];
     g_par := [(0%N, TInt (Some (-5)%Z) (Some (-1)%Z))]; g_var := []; g_obj := []; g_ifun := []; g_father := [] |}.
Definition ex_I (x : Z) : interp :=
  {| fl := fun f vs => match vs with
                       | [] => if (f =? 0)%N then Some (VNum (zq x)) else if (f =? 1)%N then Some (VNum (zq 3)) else None
                       | _ => None
                       end;
     par := fun p => if (p =? 0)%N then Some (VNum (zq (-2))) else None;
     var := fun _ => None; ifun := fun _ _ => None; objs := fun _ => [] |}.
Definition ex_e : expr := EDiv (EFluent 0%N []) (EParam 0%N).

Lemma ex_respects x : (0 <= x <= 10)%Z -> respects ex_G (ex_I x).
Proof.
  intros Hx. constructor; simpl.
  - intros f sg t vs v H E. destruct vs; [|discriminate]. destruct (f =? 0)%N eqn:F0.
    + inversion H; subst. inversion E; subst. simpl. exists x. split; [reflexivity|]. exact Hx.
    + destruct (f =? 1)%N eqn:F1; [|discriminate]. inversion H; subst. inversion E; subst. simpl.
      exists 3%Z. split; [reflexivity|]. split; discriminate.
  - intros p t v H E. destruct (p =? 0)%N; [|discriminate]. inversion H; subst. inversion E; subst. simpl.
    exists (-2)%Z. split; [reflexivity|]. split; discriminate.
  - intros; discriminate.
  - intros; discriminate.
Qed.

Lemma ex_agree : agree_except 0%N [] (ex_I 2) (ex_I 5).
Proof.
  constructor; simpl; try reflexivity.
  intros g vs Hd. destruct vs as [|v vs]; [|reflexivity].
  destruct Hd as [Hg|Hv]; [|exfalso; apply Hv; reflexivity].
  destruct (g =? 0)%N eqn:E; [apply N.eqb_eq in E; contradiction | reflexivity].
Qed.

Example C17_linear_mono_nonvacuous :
  match get_fluents ex_G ex_e with
  | Some (b, pos, neg) => b && set_eqb pos [] && set_eqb neg [gfluent 0%N []]
  | None => false
  end = true /\
  arith ex_e = true /\ respects ex_G (ex_I 2) /\ respects ex_G (ex_I 5) /\ agree_except 0%N [] (ex_I 2) (ex_I 5) /\
  ovalue_eqb (eval false ex_e (ex_I 2)) (Some (VNum (qc (-1) 1))) = true /\
  ovalue_eqb (eval false ex_e (ex_I 5)) (Some (VNum (qc (-5) 2))) = true.
Proof.
  split; [vm_compute; reflexivity|]. split; [reflexivity|].
  split; [apply ex_respects; split; discriminate|]. split; [apply ex_respects; split; discriminate|].
  split; [exact ex_agree|]. split; vm_compute; reflexivity.
Qed.

Example C17_nonlinear_nonvacuous :
  lin ex_G (ETimes [EFluent 0%N []; EFluent 1%N []]) = Some (false, [], []) /\
  lin ex_G (EDiv (EParam 0%N) (EFluent 1%N [])) = Some (false, [], []) /\
  (2 <= length (filter has_fluent [EFluent 0%N []; EFluent 1%N []]))%nat.
Proof. split; [vm_compute; reflexivity|]. split; [vm_compute; reflexivity|]. simpl. apply le_n. Qed.

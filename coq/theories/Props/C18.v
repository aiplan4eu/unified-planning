(* C18 — PDDL write/read round trip preserves problem semantics and plans (validated property).

   The PDDL printer and the two parsers are not modelled.  What is proved, for all problems, metrics, initial states
   and plans, is that the decision procedure [bisim_check] of Compilers/BisimCheck.v is sound: when it accepts the
   pair (original problem P, re-read problem Q) — serialised by the harness with the numbering induced by the writer's
   renaming — then P and Q have the same objects in every type and the same initial state, and every plan over the
   well-typed ground action instances has the same run, the same validity and the same metric value in both, under
   the documented sequential semantics [spec_step false] (C01).  The harness runs the procedure on the real
   writer/reader output of generated problems. *)
From Coq Require Import List ZArith NArith QArith Qcanon Bool.
Import ListNotations.
Require Import UPV.Core.Expr UPV.Core.Eval UPV.Core.Interp UPV.Planning.Problem UPV.Planning.Sem UPV.Planning.SeqValidate.
Require Import UPV.Proofs.Step_proofs UPV.Compilers.BisimCheck UPV.Proofs.BisimCheck_proofs.

(* closed product graph: no bound on the plans *)
Theorem C18_bisim_check_correct :
  forall P Q MP MQ sigsP sigsQ l0P l0Q n cap,
    bisim_check P Q MP MQ sigsP sigsQ l0P l0Q n cap = BClosed ->
    forall plan, Forall (fun i => In i (all_insts P sigsP)) plan ->
      validate_from false P (qm_m MP) (spec_step false P) (st_of l0P) (zq 0) plan =
      validate_from false Q (qm_m MQ) (spec_step false Q) (st_of l0Q) (zq 0) plan /\
      ostate_eq (run P (spec_step false P) (st_of l0P) plan) (run Q (spec_step false Q) (st_of l0Q) plan) /\
      valid_plan false P (st_of l0P) plan = valid_plan false Q (st_of l0Q) plan.
Proof. exact bisim_check_closed_sound. Qed.
Print Assumptions C18_bisim_check_correct.

(* product graph explored to depth b only: plans of length <= b *)
Theorem C18_bisim_check_correct_bounded :
  forall P Q MP MQ sigsP sigsQ l0P l0Q n cap b,
    bisim_check P Q MP MQ sigsP sigsQ l0P l0Q n cap = BBounded b ->
    forall plan, (length plan <= b)%nat -> Forall (fun i => In i (all_insts P sigsP)) plan ->
      validate_from false P (qm_m MP) (spec_step false P) (st_of l0P) (zq 0) plan =
      validate_from false Q (qm_m MQ) (spec_step false Q) (st_of l0Q) (zq 0) plan /\
      ostate_eq (run P (spec_step false P) (st_of l0P) plan) (run Q (spec_step false Q) (st_of l0Q) plan) /\
      valid_plan false P (st_of l0P) plan = valid_plan false Q (st_of l0Q) plan.
Proof. exact bisim_check_bounded_sound. Qed.
Print Assumptions C18_bisim_check_correct_bounded.

(* a check that does not fail also established: same objects per type, the same well-typed ground instances, equal
   initial states, same optimisation direction and metric class *)
Theorem C18_bisim_check_static :
  forall P Q MP MQ sigsP sigsQ l0P l0Q n cap,
    (forall w tr i, bisim_check P Q MP MQ sigsP sigsQ l0P l0Q n cap <> BFail w tr i) ->
    (forall t o, In o (objs_of P t) <-> In o (objs_of Q t)) /\
    (forall i, In i (all_insts P sigsP) <-> In i (all_insts Q sigsP)) /\
    state_eq (st_of l0P) (st_of l0Q) /\
    qm_max MP = qm_max MQ /\ mclass (qm_m MP) = mclass (qm_m MQ).
Proof. exact bisim_check_static. Qed.
Print Assumptions C18_bisim_check_static.

(* the plans quantified over: every action of the signature table applied to objects of its parameter types *)
Theorem C18_ground_instances :
  forall P sigs aid args,
    In (aid, args) (all_insts P sigs) <->
    exists sig, In (aid, sig) sigs /\
                Forall2 (fun t v => exists o, v = VObj o /\ In o (objs_of P t)) sig args.
Proof. exact ground_instances_spec. Qed.
Print Assumptions C18_ground_instances.

(* plan round trip: the comparison used for written/parsed plans is equality of the action instances *)
Theorem C18_plan_eqb_sound : forall a b, plan_eqb a b = true -> a = b.
Proof. exact plan_eqb_eq. Qed.
Print Assumptions C18_plan_eqb_sound.

Definition ex_P : problem :=
  {| p_objs := [(0%N, [0%N; 1%N])]; p_ifun := [];
     p_fluents := [{| fd_id := 0%N; fd_sig := [0%N]; fd_ty := FBool |}; {| fd_id := 1%N; fd_sig := []; fd_ty := FNum None None |}];
     p_actions := [(0%N, {| a_params := [0%N]; a_pre := [ENot (EFluent 0%N [EParam 0%N])];
                            a_effs := [{| e_fl := 0%N; e_args := [EParam 0%N]; e_val := EBool true; e_cond := EBool true;
                                          e_kind := KAssign; e_vars := []; e_isbool := true |};
                                       {| e_fl := 1%N; e_args := []; e_val := EMinus (EFluent 1%N []) (EInt 1); e_cond := EBool true;
                                          e_kind := KAssign; e_vars := []; e_isbool := false |}] |})];
     p_goals := [EForall [(0%N, 0%N)] (EFluent 0%N [EVar 0%N 0%N])]; p_invs := [] |}.
(* the same problem written differently: other parameter id, x - 1 as x + (-1), goal as a conjunction, objects in the
   other order *)
Definition ex_Q : problem :=
  {| p_objs := [(0%N, [1%N; 0%N])]; p_ifun := [];
     p_fluents := [{| fd_id := 1%N; fd_sig := []; fd_ty := FNum None None |}; {| fd_id := 0%N; fd_sig := [0%N]; fd_ty := FBool |}];
     p_actions := [(0%N, {| a_params := [7%N]; a_pre := [ENot (EFluent 0%N [EParam 7%N])];
                            a_effs := [{| e_fl := 1%N; e_args := []; e_val := EPlus [EFluent 1%N []; EInt (-1)]; e_cond := EBool true;
                                          e_kind := KAssign; e_vars := []; e_isbool := false |};
                                       {| e_fl := 0%N; e_args := [EParam 7%N]; e_val := EBool true; e_cond := EBool true;
                                          e_kind := KAssign; e_vars := []; e_isbool := true |}] |})];
     p_goals := [EAnd [EFluent 0%N [EObj 0%N]; EFluent 0%N [EObj 1%N]]]; p_invs := [] |}.
(* the operands of the subtraction swapped *)
Definition ex_Q_bad : problem :=
  {| p_objs := p_objs ex_Q; p_ifun := []; p_fluents := p_fluents ex_Q;
     p_actions := [(0%N, {| a_params := [7%N]; a_pre := [ENot (EFluent 0%N [EParam 7%N])];
                            a_effs := [{| e_fl := 1%N; e_args := []; e_val := EMinus (EInt 1) (EFluent 1%N []); e_cond := EBool true;
                                          e_kind := KAssign; e_vars := []; e_isbool := false |};
                                       {| e_fl := 0%N; e_args := [EParam 7%N]; e_val := EBool true; e_cond := EBool true;
                                          e_kind := KAssign; e_vars := []; e_isbool := true |}] |})];
     p_goals := p_goals ex_Q; p_invs := [] |}.
Definition ex_init : fstate :=
  [(0%N, [VObj 0%N], VBool false); (0%N, [VObj 1%N], VBool false); (1%N, [], VNum (zq 5))].
Definition ex_M : qmetric := {| qm_max := false; qm_m := MFinal (EFluent 1%N []) |}.

Example C18_bisim_check_correct_nonvacuous :
  bisim_check ex_P ex_Q ex_M ex_M [(0%N, [0%N])] [(0%N, [0%N])] ex_init ex_init 6 100 = BClosed /\
  valid_plan false ex_P (st_of ex_init) [(0%N, [VObj 1%N]); (0%N, [VObj 0%N])] = true.
Proof. vm_compute. split; reflexivity. Qed.

Example C18_bisim_check_correct_bounded_nonvacuous :
  bisim_check ex_P ex_Q ex_M ex_M [(0%N, [0%N])] [(0%N, [0%N])] ex_init ex_init 1 100 = BBounded 1.
Proof. vm_compute. reflexivity. Qed.

Example C18_bisim_check_static_nonvacuous :
  forall w tr i, bisim_check ex_P ex_Q ex_M ex_M [(0%N, [0%N])] [(0%N, [0%N])] ex_init ex_init 6 100 <> BFail w tr i.
Proof. intros w tr i. vm_compute. discriminate. Qed.

(* the checker is not trivially accepting: swapped operands are reported with the action instance that shows it *)
Example C18_bisim_check_rejects :
  bisim_check ex_P ex_Q_bad ex_M ex_M [(0%N, [0%N])] [(0%N, [0%N])] ex_init ex_init 6 100 = BFail 5 [] (Some (0%N, [VObj 0%N])).
Proof. vm_compute. reflexivity. Qed.

Example C18_ground_instances_nonvacuous : In (0%N, [VObj 1%N]) (all_insts ex_P [(0%N, [0%N])]).
Proof. vm_compute. tauto. Qed.

Example C18_plan_eqb_sound_nonvacuous : plan_eqb [(0%N, [VObj 1%N])] [(0%N, [VObj 1%N])] = true.
Proof. vm_compute. reflexivity. Qed.

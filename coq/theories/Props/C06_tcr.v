(* C06, Layer A — TrajectoryConstraintsRemover (part file).  Statements; each is closed by a lemma of
   Proofs/LayerA_Tcr_proofs.v, the plan-level theorems for ONE constraint by a few lines from its [tcr_single_plan].
   Proved for ALL ground problems / actions / formulas of the fragment:
     * the REGRESSION lemma, the heart of the compiler (every added precondition and every condition of an added
       effect is a regressed formula);
     * the abstract monitor the compilation implements decides the PDDL3 semantics of all five operators.
     * the PLAN-LEVEL verdict equation for problems whose constraints are all `always phi` ([C06_LA_tcr_always_plan]).
     * the PLAN-LEVEL verdict equation for ONE `sometime phi` constraint with its monitoring fluent ([C06_LA_tcr_sometime_plan]).
     * the PLAN-LEVEL verdict equation for ONE `at-most-once phi` constraint ([C06_LA_tcr_amo_plan]).
     * the PLAN-LEVEL verdict equation for ONE `sometime-before phi psi` constraint ([C06_LA_tcr_sb_plan]).
     * the PLAN-LEVEL verdict equation for ONE `sometime-after phi psi` constraint ([C06_LA_tcr_sa_plan]).
   NOT proved (kept as [C06_LA_tcr_plan_goal]): the plan-level verdict equation for several constraints at once, the link
   to SimCheck.valid (needs the
   embedding of the monitor into problems with the extra monitoring fluents). *)
From Coq Require Import List ZArith NArith QArith Qcanon Bool.
Import ListNotations.
Require Import UPV.Core.Expr UPV.Core.Eval UPV.Core.Interp UPV.Planning.Problem UPV.Planning.Sem.
Require Import UPV.Compilers.LayerA_Defs UPV.Compilers.LayerA_Quant UPV.Compilers.SimCheck UPV.Compilers.LayerA_DcrGoal UPV.Compilers.LayerA_Tcr.
Require Import UPV.Proofs.LayerA_base UPV.Proofs.LayerA_Tcr_proofs.
Local Open Scope nat_scope.

(* REGRESSION.  P a problem, a one of its ground actions ([gaction]: no parameters, no forall effects, effect targets are
   fluents applied to object constants, Boolean targets are assigned, e_isbool = the declaration), phi a propositional
   formula over Boolean fluents applied to object constants ([gform], [gbool]) whose fluents have Boolean values in s
   ([gdef]); every effect condition and every value assigned to a Boolean fluent has a Boolean value in s ([reg_ok]: the
   regression And(cond, value) reads the value also when cond is false, so applicability alone is not enough, see
   [C06_LA_tcr_regression_needs_reg_ok]).  If the documented step of a from s is t, then `_regression(phi, a)` has in s
   the value phi has in t (same value and definedness), and phi is defined in t. *)
Theorem C06_LA_tcr_regression :
  forall (P : problem) (s : state) (a : action) (args : list value) (t : state) (phi : expr),
    gaction P a = true -> reg_ok P s a = true -> spec_step false P s a args = Some t ->
    gform phi = true -> gbool P phi = true -> gdef s phi = true ->
    eval false (regress (a_effs a) phi) (mk_interp P s []) = eval false phi (mk_interp P t []) /\
    holds false (mk_interp P s []) (regress (a_effs a) phi) = holds false (mk_interp P t []) phi /\
    isB (mk_interp P t []) phi = true.
Proof. exact regression_step. Qed.
Print Assumptions C06_LA_tcr_regression.

(* what _gamma computes: gamma(literal, a) is true exactly when some effect on a Boolean fluent, on this very fluent
   expression, fires with the polarity of the literal (constant values and f := g alike) *)
Theorem C06_LA_tcr_gamma :
  forall (I : interp) (f : N) (args : list expr) (pos : bool) (effs : list effect),
    Forall (eff_def I) effs ->
    eval false (gamma f args pos effs) I = Some (VBool (existsb (contrib I f args pos) effs)).
Proof. exact gamma_B. Qed.
Print Assumptions C06_LA_tcr_gamma.

(* THE MONITOR.  [mverdict]: refuse in the initial state (always / sometime-before), run the monitoring atom through
   the states ([upd] = the added conditional effects), check [chk] before every step (= the added preconditions, which
   speak about the NEXT state through regression), require the landmark atoms at the end (= the added goal).  On every
   non-empty state sequence this is SimCheck.traj_holds, hence (C06_traj_monitor_decides_pddl3) the PDDL3 semantics. *)
Theorem C06_LA_tcr_monitor_decides :
  forall (T : tsys) (c : expr) (s : state) (r : list state),
    mverdict (sat T) c (s :: r) = traj_holds T (s :: r) c.
Proof. intros T c s r. rewrite traj_holds_th. apply mverdict_spec. Qed.
Print Assumptions C06_LA_tcr_monitor_decides.

(* soundness reading: a sequence the compiled monitor accepts satisfies the constraint *)
Theorem C06_LA_tcr_monitor_sound :
  forall (T : tsys) (c : expr) (s : state) (r : list state),
    mverdict (sat T) c (s :: r) = true -> traj_holds T (s :: r) c = true.
Proof. intros T c s r H. rewrite traj_holds_th, <- mverdict_spec. exact H. Qed.
Print Assumptions C06_LA_tcr_monitor_sound.

Module TcrEx.
  Definition bfd (f : N) : fdecl := {| fd_id := f; fd_sig := []; fd_ty := FBool |}.
  Definition fl0 (f : N) : expr := EFluent f [].
  (* f := g when c *)
  Definition a0 : action :=
    {| a_params := []; a_pre := [];
       a_effs := [{| e_fl := 0%N; e_args := []; e_val := fl0 1; e_cond := fl0 2; e_kind := KAssign; e_vars := [];
                     e_isbool := true |}] |}.
  Definition P0 : problem :=
    {| p_objs := []; p_ifun := []; p_fluents := [bfd 0; bfd 1; bfd 2]; p_actions := [(0%N, a0)]; p_goals := []; p_invs := [] |}.
  (* f false, g true, c true: after a0 f is true *)
  Definition s1 : state := fun f _ => Some (VBool (negb (f =? 0)%N)).
  (* f true, c false, g has no value: a0 is applicable and leaves f true, but And(c, g) has no value *)
  Definition s2 : state := fun f _ => if (f =? 1)%N then None else Some (VBool (f =? 0)%N).
  Definition t1 : option state := spec_step false P0 s1 a0 [].
  Definition t2 : option state := spec_step false P0 s2 a0 [].
  Definition after (o : option state) (phi : expr) : option bool :=
    match o with Some t => Some (holds false (mk_interp P0 t []) phi) | None => None end.
End TcrEx.

Example C06_LA_tcr_regression_nonvacuous :
  gaction TcrEx.P0 TcrEx.a0 = true /\ reg_ok TcrEx.P0 TcrEx.s1 TcrEx.a0 = true /\
  gform (TcrEx.fl0 0) = true /\ gbool TcrEx.P0 (TcrEx.fl0 0) = true /\ gdef TcrEx.s1 (TcrEx.fl0 0) = true /\
  holds false (mk_interp TcrEx.P0 TcrEx.s1 []) (TcrEx.fl0 0) = false /\
  TcrEx.after TcrEx.t1 (TcrEx.fl0 0) = Some true /\
  holds false (mk_interp TcrEx.P0 TcrEx.s1 []) (regress (a_effs TcrEx.a0) (TcrEx.fl0 0)) = true.
Proof. repeat split; vm_compute; reflexivity. Qed.

(* without reg_ok the regression is NOT exact in the strict semantics: a0 is applicable in s2 and f holds afterwards,
   yet the regressed formula (the precondition the compiler adds for `always f`) does not hold in s2, because it reads g *)
Example C06_LA_tcr_regression_needs_reg_ok :
  gaction TcrEx.P0 TcrEx.a0 = true /\ reg_ok TcrEx.P0 TcrEx.s2 TcrEx.a0 = false /\
  gform (TcrEx.fl0 0) = true /\ gbool TcrEx.P0 (TcrEx.fl0 0) = true /\ gdef TcrEx.s2 (TcrEx.fl0 0) = true /\
  TcrEx.after TcrEx.t2 (TcrEx.fl0 0) = Some true /\
  holds false (mk_interp TcrEx.P0 TcrEx.s2 []) (regress (a_effs TcrEx.a0) (TcrEx.fl0 0)) = false.
Proof. repeat split; vm_compute; reflexivity. Qed.

(* OUTSIDE THE FRAGMENT ([gform] requires constant arguments) the regression is NOT exact, and the real compiler shows it:
   `always p(loc)` with an object fluent loc, action `loc := l2` (p(l1) true, p(l2) false, loc = l1).  _gamma only looks at
   effects on BOOLEAN fluents whose fluent expression equals the literal p(loc), so the regressed formula is (equivalent
   to) p(loc) itself: it holds before the action although p(loc) is false after it.  Real code: the compiled problem
   accepts [move], which maps back to a plan that violates the constraint (corpus/c06_tcr_nested_fluent_repro.py). *)
Module TcrNested.
  Definition l1 : N := 0%N.  Definition l2 : N := 1%N.
  Definition floc : N := 0%N.  Definition fp : N := 1%N.
  Definition mv : action :=
    {| a_params := []; a_pre := [];
       a_effs := [{| e_fl := floc; e_args := []; e_val := EObj l2; e_cond := EBool true; e_kind := KAssign; e_vars := [];
                     e_isbool := false |}] |}.
  Definition P0 : problem :=
    {| p_objs := [(0%N, [l1; l2])]; p_ifun := [];
       p_fluents := [{| fd_id := floc; fd_sig := []; fd_ty := FObj 0 |}; {| fd_id := fp; fd_sig := [0%N]; fd_ty := FBool |}];
       p_actions := [(0%N, mv)]; p_goals := []; p_invs := [] |}.
  Definition s0 : state := fun f args =>
    if (f =? floc)%N then Some (VObj l1)
    else match args with [VObj o] => Some (VBool (o =? l1)%N) | _ => None end.
  Definition phi : expr := EFluent fp [EFluent floc []].
  Definition t0 : option state := spec_step false P0 s0 mv [].
  Definition after (o : option state) (e : expr) : option bool :=
    match o with Some t => Some (holds false (mk_interp P0 t []) e) | None => None end.
End TcrNested.

Example C06_LA_tcr_regression_refuted_nested_fluent :
  gaction TcrNested.P0 TcrNested.mv = true /\ reg_ok TcrNested.P0 TcrNested.s0 TcrNested.mv = true /\
  gform TcrNested.phi = false /\
  TcrNested.after TcrNested.t0 TcrNested.phi = Some false /\
  holds false (mk_interp TcrNested.P0 TcrNested.s0 []) (regress (a_effs TcrNested.mv) TcrNested.phi) = true.
Proof. repeat split; vm_compute; reflexivity. Qed.

(* the monitor on a concrete sequence: at-most-once f over f = true, false, true is rejected, over true, true, false accepted *)
Example C06_LA_tcr_monitor_nonvacuous :
  mverdict (fun (s : bool) (_ : expr) => s) (EAtMostOnce (EBool true)) [true; false; true] = false /\
  mverdict (fun (s : bool) (_ : expr) => s) (EAtMostOnce (EBool true)) [true; true; false] = true /\
  mverdict (fun (s : bool) (_ : expr) => s) (ESometimeAfter (EBool true) (EBool true)) [false; true] = true.
Proof. repeat split; reflexivity. Qed.

(* PLAN LEVEL for `always` constraints.  C: a list of `always phi` constraints, phi in the regression fragment
   ([always_only]); P a ground problem ([gproblem]) with unique action names; [smp_exact]: FNode.simplify does not change
   value or definedness; G: a set of states containing s0, closed under the steps of P, on which the regression lemma
   applies ([reg_ok] for every action, [gdef] for every constraint body); the bodies hold in s0 ([AH]: otherwise the
   compiler refuses the problem).  Then the compiled problem - it has NO trajectory constraints; the compiler only
   added `simplify(regress phi a)` to the preconditions of the actions a that touch phi, left out the actions whose
   preconditions became FALSE, and rebuilt the goal - accepts exactly the plans that are executable in P, reach the
   goal, and visit only states satisfying every body ([always_valid], Compilers/LayerA_Tcr.v).  Same plan on both sides
   (the compiler keeps the names of the ground actions).  Soundness (C06) is the direction left-to-right. *)
Theorem C06_LA_tcr_always_plan :
  forall (smp sub0 : expr -> expr) (mon : nat -> N) (C : list expr) (P : problem) (G : state -> Prop),
    smp_exact smp -> unique_ids P -> gproblem P = true -> always_only P C = true ->
    (forall s aid a args t, G s -> lookup_action P aid = Some a -> spec_step false P s a args = Some t -> G t) ->
    (forall s aid a, G s -> lookup_action P aid = Some a -> reg_ok P s a = true) ->
    (forall s phi, G s -> In (EAlways phi) C -> gdef s phi = true) ->
    forall P', tcr_compile smp sub0 mon C P = Some P' ->
    forall s0 pi, G s0 -> AH P C s0 = true ->
      valid_plan false P' s0 pi = always_valid P C s0 pi.
Proof. exact tcr_always_plan. Qed.
Print Assumptions C06_LA_tcr_always_plan.

Module TcrAlw.
  Definition bfd (f : N) : fdecl := {| fd_id := f; fd_sig := []; fd_ty := FBool |}.
  Definition fl0 (f : N) : expr := EFluent f [].
  Definition setf (f : N) (b : bool) : action :=
    {| a_params := []; a_pre := [];
       a_effs := [{| e_fl := f; e_args := []; e_val := EBool b; e_cond := EBool true; e_kind := KAssign; e_vars := [];
                     e_isbool := true |}] |}.
  (* fluents f (0) and h (1); action 0 switches f off, action 1 reaches the goal h; constraint always f *)
  Definition P0 : problem :=
    {| p_objs := []; p_ifun := []; p_fluents := [bfd 0; bfd 1]; p_actions := [(0%N, setf 0 false); (1%N, setf 1 true)];
       p_goals := [fl0 1]; p_invs := [] |}.
  Definition C0 : list expr := [EAlways (fl0 0)].
  Definition idf (e : expr) : expr := e.
  Definition mon0 (k : nat) : N := 9%N.
  Definition s0 : state := fun f _ => Some (VBool (f =? 0)%N).
  Definition P0' : problem := match tcr_compile idf idf mon0 C0 P0 with Some x => x | None => P0 end.
  Definition G0 (s : state) : Prop := gdef s (fl0 0) = true.
End TcrAlw.

Example C06_LA_tcr_always_plan_nonvacuous :
  (forall pi, valid_plan false TcrAlw.P0' TcrAlw.s0 pi = always_valid TcrAlw.P0 TcrAlw.C0 TcrAlw.s0 pi) /\
  valid_plan false TcrAlw.P0' TcrAlw.s0 [(1%N, [])] = true /\
  valid_plan false TcrAlw.P0' TcrAlw.s0 [(0%N, []); (1%N, [])] = false /\
  valid_plan false TcrAlw.P0 TcrAlw.s0 [(0%N, []); (1%N, [])] = true.
Proof.
  split; [|repeat split; vm_compute; reflexivity].
  intros pi.
  apply (C06_LA_tcr_always_plan TcrAlw.idf TcrAlw.idf TcrAlw.mon0 TcrAlw.C0 TcrAlw.P0 TcrAlw.G0).
  - intros e I. reflexivity.
  - unfold unique_ids. cbn. repeat constructor; cbn; intuition discriminate.
  - reflexivity.
  - reflexivity.
  - intros s aid a args t Gs Hlk Hst.
    exact (gdef_step TcrAlw.P0 s a args t (TcrAlw.fl0 0) (a_ground TcrAlw.P0 eq_refl aid a Hlk) (reg_ok_const TcrAlw.P0 eq_refl s aid a Hlk) Hst eq_refl eq_refl Gs).
  - intros s aid a _. exact (reg_ok_const TcrAlw.P0 eq_refl s aid a).
  - intros s phi Gs [H|[]]. inversion H; subst. exact Gs.
  - reflexivity.
  - reflexivity.
  - reflexivity.
Qed.

(* PLAN LEVEL for one `sometime phi` constraint.  fk = mon 0 is the monitoring fluent "hold-0".  Hypotheses as in
   C06_LA_tcr_always_plan, plus [tcr_fresh1]: fk is fresh (no action / invariant / bounded-type constraint / goal of P, nor
   phi or a simplified regression of phi, mentions it - decidable; the compiler takes the name without checking).  The
   compiled initial state s0' agrees with s0 off fk and has fk = "phi holds in s0" (this is what [tcr_init] builds, see
   C06_LA_tcr_sometime_init).  Then the compiled problem - no trajectory constraint; one more Boolean fluent; the actions
   that touch phi got the conditional effect `if simplify(regress phi a) then fk := true`; the goal got the conjunct fk -
   accepts exactly the plans that are valid for P and along which phi holds in some visited state ([sometime_seen]).
   Invariant of the proof: compiled and original state agree off fk, and fk = "phi held in some state so far". *)
Theorem C06_LA_tcr_sometime_plan :
  forall (smp sub0 : expr -> expr) (mon : nat -> N) (phi : expr) (P : problem) (G : state -> Prop),
    smp_exact smp -> unique_ids P -> gproblem P = true -> gform phi = true -> gbool P phi = true ->
    tcr_fresh1 smp (mon 0) P phi = true ->
    (forall s aid a args t, G s -> lookup_action P aid = Some a -> spec_step false P s a args = Some t -> G t) ->
    (forall s aid a, G s -> lookup_action P aid = Some a -> reg_ok P s a = true) ->
    (forall s, G s -> gdef s phi = true) ->
    forall P', tcr_compile smp sub0 mon [ESometime phi] P = Some P' ->
    forall s0 s0' pi, G s0 -> agree_off (mon 0) s0 s0' ->
      s0' (mon 0) [] = Some (VBool (holds false (mk_interp P s0 []) phi)) ->
      valid_plan false P' s0' pi = valid_plan false P s0 pi && sometime_seen P phi s0 pi.
Proof.
  intros smp sub0 mon phi P G Hsmp Hu Hgp Hgf Hgb Hfr Gstep Greg Gdef P' Hc s0 s0' pi G0 H0 Hm.
  assert (HF : forall x, In x (forms (ESometime phi)) -> gform x = true /\ gbool P x = true /\
             tcr_fresh1 smp (mon 0) P x = true /\ forall s, G s -> gdef s x = true) by (intros x [<-|[]]; auto).
  rewrite (tcr_single_plan smp sub0 mon (ESometime phi) P G Hsmp Hu Hgp eq_refl HF Gstep Greg P' Hc s0 s0' pi G0 H0 Hm eq_refl).
  cbn [is_landmark mbit0]. rewrite (gchk_true P (ESometime phi) (fun _ _ _ => eq_refl)), andb_true_r.
  f_equal. exact (sometime_seen_gbit P phi pi false s0).
Qed.
Print Assumptions C06_LA_tcr_sometime_plan.

(* the initial state the compiler builds satisfies the two conditions on s0', provided the initial evaluation is exact:
   `phi.substitute(initial_values).simplify()` is TRUE exactly when phi holds in s0 *)
Theorem C06_LA_tcr_sometime_init :
  forall (smp sub0 : expr -> expr) (mon : nat -> N) (phi : expr) (P : problem) (s0 : state),
    is_true (smp (sub0 phi)) = holds false (mk_interp P s0 []) phi ->
    agree_off (mon 0) s0 (tcr_init smp sub0 mon [ESometime phi] s0) /\
    tcr_init smp sub0 mon [ESometime phi] s0 (mon 0) [] = Some (VBool (holds false (mk_interp P s0 []) phi)).
Proof. intros smp sub0 mon phi P s0 H. rewrite <- H. exact (tcr_init_single smp sub0 mon (ESometime phi) s0 eq_refl). Qed.
Print Assumptions C06_LA_tcr_sometime_init.

Module TcrSome.
  Definition bfd (f : N) : fdecl := {| fd_id := f; fd_sig := []; fd_ty := FBool |}.
  Definition fl0 (f : N) : expr := EFluent f [].
  Definition setf (f : N) (b : bool) : action :=
    {| a_params := []; a_pre := [];
       a_effs := [{| e_fl := f; e_args := []; e_val := EBool b; e_cond := EBool true; e_kind := KAssign; e_vars := [];
                     e_isbool := true |}] |}.
  (* fluents f (0) and h (1); action 0 switches f on, action 1 reaches the goal h; constraint sometime f; f false initially *)
  Definition P0 : problem :=
    {| p_objs := []; p_ifun := []; p_fluents := [bfd 0; bfd 1]; p_actions := [(0%N, setf 0 true); (1%N, setf 1 true)];
       p_goals := [fl0 1]; p_invs := [] |}.
  Definition idf (e : expr) : expr := e.
  Definition mon0 (k : nat) : N := 9%N.
  Definition s0 : state := fun f _ => Some (VBool false).
  Definition s0' : state := tcr_init idf idf mon0 [ESometime (fl0 0)] s0.
  Definition P0' : problem := match tcr_compile idf idf mon0 [ESometime (fl0 0)] P0 with Some x => x | None => P0 end.
  Definition G0 (s : state) : Prop := gdef s (fl0 0) = true.
End TcrSome.

Example C06_LA_tcr_sometime_plan_nonvacuous :
  (forall pi, valid_plan false TcrSome.P0' TcrSome.s0' pi =
              valid_plan false TcrSome.P0 TcrSome.s0 pi && sometime_seen TcrSome.P0 (TcrSome.fl0 0) TcrSome.s0 pi) /\
  valid_plan false TcrSome.P0 TcrSome.s0 [(1%N, [])] = true /\
  valid_plan false TcrSome.P0' TcrSome.s0' [(1%N, [])] = false /\
  valid_plan false TcrSome.P0' TcrSome.s0' [(0%N, []); (1%N, [])] = true.
Proof.
  split; [|repeat split; vm_compute; reflexivity].
  intros pi.
  destruct (C06_LA_tcr_sometime_init TcrSome.idf TcrSome.idf TcrSome.mon0 (TcrSome.fl0 0) TcrSome.P0 TcrSome.s0 eq_refl) as [I1 I2].
  apply (C06_LA_tcr_sometime_plan TcrSome.idf TcrSome.idf TcrSome.mon0 (TcrSome.fl0 0) TcrSome.P0 TcrSome.G0).
  - intros e I. reflexivity.
  - unfold unique_ids. cbn. repeat constructor; cbn; intuition discriminate.
  - reflexivity.
  - reflexivity.
  - reflexivity.
  - vm_compute. reflexivity.
  - intros s aid a args t Gs Hlk Hst.
    exact (gdef_step TcrSome.P0 s a args t (TcrSome.fl0 0) (a_ground TcrSome.P0 eq_refl aid a Hlk) (reg_ok_const TcrSome.P0 eq_refl s aid a Hlk) Hst eq_refl eq_refl Gs).
  - intros s aid a _. exact (reg_ok_const TcrSome.P0 eq_refl s aid a).
  - intros s Gs. exact Gs.
  - reflexivity.
  - reflexivity.
  - exact I1.
  - exact I2.
Qed.

(* PLAN LEVEL for one `at-most-once phi` constraint (hypotheses as in C06_LA_tcr_sometime_plan; fk = mon 0 is the
   monitoring fluent "seen-phi-0").  The compiled problem - no trajectory constraint; the actions that touch phi got the
   precondition `simplify(Or(Not R, Not fk, phi))` and the effect `if R then fk := true` with R = simplify(regress phi a);
   actions whose preconditions became FALSE are left out; the goal is unchanged - accepts exactly the valid plans of P
   every step s -> t of which passes the at-most-once check "phi false in t, or phi never held up to s, or phi holds in
   s" ([amo_chk], Compilers/LayerA_Tcr.v; by C06_LA_tcr_monitor_decides this check is SimCheck's mon_amo on the visited
   states).  Invariant: the states agree off fk, and fk = "phi held in some state so far". *)
Theorem C06_LA_tcr_amo_plan :
  forall (smp sub0 : expr -> expr) (mon : nat -> N) (phi : expr) (P : problem) (G : state -> Prop),
    smp_exact smp -> unique_ids P -> gproblem P = true -> gform phi = true -> gbool P phi = true ->
    tcr_fresh1 smp (mon 0) P phi = true ->
    (forall s aid a args t, G s -> lookup_action P aid = Some a -> spec_step false P s a args = Some t -> G t) ->
    (forall s aid a, G s -> lookup_action P aid = Some a -> reg_ok P s a = true) ->
    (forall s, G s -> gdef s phi = true) ->
    forall P', tcr_compile smp sub0 mon [EAtMostOnce phi] P = Some P' ->
    forall s0 s0' pi, G s0 -> agree_off (mon 0) s0 s0' ->
      s0' (mon 0) [] = Some (VBool (holds false (mk_interp P s0 []) phi)) ->
      valid_plan false P' s0' pi =
      valid_plan false P s0 pi && amo_chk P phi (holds false (mk_interp P s0 []) phi) s0 pi.
Proof.
  intros smp sub0 mon phi P G Hsmp Hu Hgp Hgf Hgb Hfr Gstep Greg Gdef P' Hc s0 s0' pi G0 H0 Hm.
  assert (HF : forall x, In x (forms (EAtMostOnce phi)) -> gform x = true /\ gbool P x = true /\
             tcr_fresh1 smp (mon 0) P x = true /\ forall s, G s -> gdef s x = true) by (intros x [<-|[]]; auto).
  rewrite (tcr_single_plan smp sub0 mon (EAtMostOnce phi) P G Hsmp Hu Hgp eq_refl HF Gstep Greg P' Hc s0 s0' pi G0 H0 Hm eq_refl).
  cbn [is_landmark mbit0]. rewrite andb_true_r, amo_chk_gchk. reflexivity.
Qed.
Print Assumptions C06_LA_tcr_amo_plan.

(* the initial state the compiler builds satisfies the two conditions on s0' when the initial evaluation is exact *)
Theorem C06_LA_tcr_amo_init :
  forall (smp sub0 : expr -> expr) (mon : nat -> N) (phi : expr) (P : problem) (s0 : state),
    is_true (smp (sub0 phi)) = holds false (mk_interp P s0 []) phi ->
    agree_off (mon 0) s0 (tcr_init smp sub0 mon [EAtMostOnce phi] s0) /\
    tcr_init smp sub0 mon [EAtMostOnce phi] s0 (mon 0) [] = Some (VBool (holds false (mk_interp P s0 []) phi)).
Proof. intros smp sub0 mon phi P s0 H. rewrite <- H. exact (tcr_init_single smp sub0 mon (EAtMostOnce phi) s0 eq_refl). Qed.
Print Assumptions C06_LA_tcr_amo_init.

Module TcrAmo.
  Definition bfd (f : N) : fdecl := {| fd_id := f; fd_sig := []; fd_ty := FBool |}.
  Definition fl0 (f : N) : expr := EFluent f [].
  Definition setf (f : N) (b : bool) : action :=
    {| a_params := []; a_pre := [];
       a_effs := [{| e_fl := f; e_args := []; e_val := EBool b; e_cond := EBool true; e_kind := KAssign; e_vars := [];
                     e_isbool := true |}] |}.
  (* fluents f (0) and h (1); actions 0: f off, 1: f on, 2: goal h; constraint at-most-once f; f true initially *)
  Definition P0 : problem :=
    {| p_objs := []; p_ifun := []; p_fluents := [bfd 0; bfd 1];
       p_actions := [(0%N, setf 0 false); (1%N, setf 0 true); (2%N, setf 1 true)]; p_goals := [fl0 1]; p_invs := [] |}.
  Definition idf (e : expr) : expr := e.
  Definition mon0 (k : nat) : N := 9%N.
  Definition s0 : state := fun f _ => Some (VBool (f =? 0)%N).
  (* sub0: the constraint formula f is TRUE initially *)
  Definition sub (e : expr) : expr := match e with EFluent 0%N [] => EBool true | _ => e end.
  Definition s0' : state := tcr_init idf sub mon0 [EAtMostOnce (fl0 0)] s0.
  Definition P0' : problem := match tcr_compile idf sub mon0 [EAtMostOnce (fl0 0)] P0 with Some x => x | None => P0 end.
  Definition G0 (s : state) : Prop := gdef s (fl0 0) = true.
End TcrAmo.

Example C06_LA_tcr_amo_plan_nonvacuous :
  (forall pi, valid_plan false TcrAmo.P0' TcrAmo.s0' pi =
              valid_plan false TcrAmo.P0 TcrAmo.s0 pi && amo_chk TcrAmo.P0 (TcrAmo.fl0 0) true TcrAmo.s0 pi) /\
  valid_plan false TcrAmo.P0 TcrAmo.s0 [(0%N, []); (1%N, []); (2%N, [])] = true /\
  valid_plan false TcrAmo.P0' TcrAmo.s0' [(0%N, []); (1%N, []); (2%N, [])] = false /\
  valid_plan false TcrAmo.P0' TcrAmo.s0' [(0%N, []); (2%N, [])] = true.
Proof.
  split; [|repeat split; vm_compute; reflexivity].
  intros pi.
  destruct (C06_LA_tcr_amo_init TcrAmo.idf TcrAmo.sub TcrAmo.mon0 (TcrAmo.fl0 0) TcrAmo.P0 TcrAmo.s0 eq_refl) as [I1 I2].
  change true with (holds false (mk_interp TcrAmo.P0 TcrAmo.s0 []) (TcrAmo.fl0 0)) at 1.
  apply (C06_LA_tcr_amo_plan TcrAmo.idf TcrAmo.sub TcrAmo.mon0 (TcrAmo.fl0 0) TcrAmo.P0 TcrAmo.G0).
  - intros e I. reflexivity.
  - unfold unique_ids. cbn. repeat constructor; cbn; intuition discriminate.
  - reflexivity.
  - reflexivity.
  - reflexivity.
  - vm_compute. reflexivity.
  - intros s aid a args t Gs Hlk Hst.
    exact (gdef_step TcrAmo.P0 s a args t (TcrAmo.fl0 0) (a_ground TcrAmo.P0 eq_refl aid a Hlk) (reg_ok_const TcrAmo.P0 eq_refl s aid a Hlk) Hst eq_refl eq_refl Gs).
  - intros s aid a _. exact (reg_ok_const TcrAmo.P0 eq_refl s aid a).
  - intros s Gs. exact Gs.
  - reflexivity.
  - reflexivity.
  - exact I1.
  - exact I2.
Qed.

(* PLAN LEVEL for one `sometime-before phi psi` constraint (hypotheses as in C06_LA_tcr_sometime_plan, for phi and psi;
   fk = mon 0 is the monitoring fluent "seen-psi-0"; phi is false in s0 - otherwise the compiler refuses the problem).
   The compiled problem - the actions that touch the constraint got the precondition `simplify(Or(Not R_phi, fk))` and the
   effect `if R_psi then fk := true` - accepts exactly the valid plans of P every step s -> t of which passes the check
   "phi false in t, or psi held in some state up to s" ([sb_chk]; = SimCheck's mon_sb on the visited states).
   Invariants: the states agree off fk, fk = "psi held so far", and phi or psi in the current state imply fk. *)
Theorem C06_LA_tcr_sb_plan :
  forall (smp sub0 : expr -> expr) (mon : nat -> N) (phi psi : expr) (P : problem) (G : state -> Prop),
    smp_exact smp -> unique_ids P -> gproblem P = true ->
    gform phi = true -> gbool P phi = true -> gform psi = true -> gbool P psi = true ->
    tcr_fresh1 smp (mon 0) P phi = true -> tcr_fresh1 smp (mon 0) P psi = true ->
    (forall s aid a args t, G s -> lookup_action P aid = Some a -> spec_step false P s a args = Some t -> G t) ->
    (forall s aid a, G s -> lookup_action P aid = Some a -> reg_ok P s a = true) ->
    (forall s, G s -> gdef s phi = true) -> (forall s, G s -> gdef s psi = true) ->
    forall P', tcr_compile smp sub0 mon [ESometimeBefore phi psi] P = Some P' ->
    forall s0 s0' pi, G s0 -> agree_off (mon 0) s0 s0' ->
      s0' (mon 0) [] = Some (VBool (holds false (mk_interp P s0 []) psi)) ->
      holds false (mk_interp P s0 []) phi = false ->
      valid_plan false P' s0' pi =
      valid_plan false P s0 pi && sb_chk P phi psi (holds false (mk_interp P s0 []) psi) s0 pi.
Proof.
  intros smp sub0 mon phi psi P G Hsmp Hu Hgp Hgf Hgb Hgf2 Hgb2 Hfr Hfr2 Gstep Greg Gdef Gdef2 P' Hc s0 s0' pi G0 H0 Hm Hphi0.
  assert (HF : forall x, In x (forms (ESometimeBefore phi psi)) -> gform x = true /\ gbool P x = true /\
             tcr_fresh1 smp (mon 0) P x = true /\ forall s, G s -> gdef s x = true) by (intros x [<-|[<-|[]]]; auto).
  assert (Hsafe : safe0 (psat P) (ESometimeBefore phi psi) s0 = true) by (cbn [safe0]; unfold psat; rewrite Hphi0; reflexivity).
  rewrite (tcr_single_plan smp sub0 mon (ESometimeBefore phi psi) P G Hsmp Hu Hgp eq_refl HF Gstep Greg P' Hc s0 s0' pi G0 H0 Hm Hsafe).
  cbn [is_landmark mbit0]. rewrite andb_true_r, sb_chk_gchk. reflexivity.
Qed.
Print Assumptions C06_LA_tcr_sb_plan.

Module TcrSb.
  Definition bfd (f : N) : fdecl := {| fd_id := f; fd_sig := []; fd_ty := FBool |}.
  Definition fl0 (f : N) : expr := EFluent f [].
  Definition setf (f : N) (b : bool) : action :=
    {| a_params := []; a_pre := [];
       a_effs := [{| e_fl := f; e_args := []; e_val := EBool b; e_cond := EBool true; e_kind := KAssign; e_vars := [];
                     e_isbool := true |}] |}.
  (* fluents f (0), g (1); actions 0: f on, 1: g on; goal f; constraint sometime-before f g; everything false initially *)
  Definition P0 : problem :=
    {| p_objs := []; p_ifun := []; p_fluents := [bfd 0; bfd 1];
       p_actions := [(0%N, setf 0 true); (1%N, setf 1 true)]; p_goals := [fl0 0]; p_invs := [] |}.
  Definition idf (e : expr) : expr := e.
  Definition mon0 (k : nat) : N := 9%N.
  Definition s0 : state := fun f _ => Some (VBool false).
  Definition s0' : state := fun f a => if (f =? 9)%N then Some (VBool false) else s0 f a.
  Definition P0' : problem := match tcr_compile idf idf mon0 [ESometimeBefore (fl0 0) (fl0 1)] P0 with Some x => x | None => P0 end.
  Definition G0 (s : state) : Prop := gdef s (fl0 0) = true /\ gdef s (fl0 1) = true.
End TcrSb.

Example C06_LA_tcr_sb_plan_nonvacuous :
  (forall pi, valid_plan false TcrSb.P0' TcrSb.s0' pi =
              valid_plan false TcrSb.P0 TcrSb.s0 pi && sb_chk TcrSb.P0 (TcrSb.fl0 0) (TcrSb.fl0 1) false TcrSb.s0 pi) /\
  valid_plan false TcrSb.P0 TcrSb.s0 [(0%N, [])] = true /\
  valid_plan false TcrSb.P0' TcrSb.s0' [(0%N, [])] = false /\
  valid_plan false TcrSb.P0' TcrSb.s0' [(1%N, []); (0%N, [])] = true.
Proof.
  split; [|repeat split; vm_compute; reflexivity].
  intros pi.
  change false with (holds false (mk_interp TcrSb.P0 TcrSb.s0 []) (TcrSb.fl0 1)) at 1.
  apply (C06_LA_tcr_sb_plan TcrSb.idf TcrSb.idf TcrSb.mon0 (TcrSb.fl0 0) (TcrSb.fl0 1) TcrSb.P0 TcrSb.G0).
  - intros e I. reflexivity.
  - unfold unique_ids. cbn. repeat constructor; cbn; intuition discriminate.
  - reflexivity.
  - reflexivity.
  - reflexivity.
  - reflexivity.
  - reflexivity.
  - vm_compute. reflexivity.
  - vm_compute. reflexivity.
  - intros s aid a args t [Gs1 Gs2] Hlk Hst.
    split; [exact (gdef_step TcrSb.P0 s a args t (TcrSb.fl0 0) (a_ground TcrSb.P0 eq_refl aid a Hlk) (reg_ok_const TcrSb.P0 eq_refl s aid a Hlk) Hst eq_refl eq_refl Gs1)
           | exact (gdef_step TcrSb.P0 s a args t (TcrSb.fl0 1) (a_ground TcrSb.P0 eq_refl aid a Hlk) (reg_ok_const TcrSb.P0 eq_refl s aid a Hlk) Hst eq_refl eq_refl Gs2)].
  - intros s aid a _. exact (reg_ok_const TcrSb.P0 eq_refl s aid a).
  - intros s [Gs _]. exact Gs.
  - intros s [_ Gs]. exact Gs.
  - reflexivity.
  - split; reflexivity.
  - intros f x Hf. unfold TcrSb.s0'. replace (f =? 9)%N with false; [reflexivity|]. symmetry. apply N.eqb_neq. exact Hf.
  - reflexivity.
  - reflexivity.
Qed.

(* PLAN LEVEL for one `sometime-after phi psi` constraint (hypotheses as in C06_LA_tcr_sb_plan; fk = mon 0 is the
   monitoring fluent "hold-0", initially "psi or not phi in s0").  The compiled problem - the actions that touch the
   constraint got the effects `if simplify(And(R_phi, Not R_psi)) then fk := false` and `if R_psi then fk := true`; the goal
   got the conjunct fk - accepts exactly the valid plans of P at whose end no obligation is pending ([sa_bit]: the bit is
   set when psi holds, reset when phi holds without psi, kept otherwise; = SimCheck's mon_sa on the visited states). *)
Theorem C06_LA_tcr_sa_plan :
  forall (smp sub0 : expr -> expr) (mon : nat -> N) (phi psi : expr) (P : problem) (G : state -> Prop),
    smp_exact smp -> unique_ids P -> gproblem P = true ->
    gform phi = true -> gbool P phi = true -> gform psi = true -> gbool P psi = true ->
    tcr_fresh1 smp (mon 0) P phi = true -> tcr_fresh1 smp (mon 0) P psi = true ->
    (forall s aid a args t, G s -> lookup_action P aid = Some a -> spec_step false P s a args = Some t -> G t) ->
    (forall s aid a, G s -> lookup_action P aid = Some a -> reg_ok P s a = true) ->
    (forall s, G s -> gdef s phi = true) -> (forall s, G s -> gdef s psi = true) ->
    forall P', tcr_compile smp sub0 mon [ESometimeAfter phi psi] P = Some P' ->
    forall s0 s0' pi, G s0 -> agree_off (mon 0) s0 s0' ->
      s0' (mon 0) [] = Some (VBool (holds false (mk_interp P s0 []) psi || negb (holds false (mk_interp P s0 []) phi))) ->
      valid_plan false P' s0' pi =
      valid_plan false P s0 pi &&
      sa_bit P phi psi (holds false (mk_interp P s0 []) psi || negb (holds false (mk_interp P s0 []) phi)) s0 pi.
Proof.
  intros smp sub0 mon phi psi P G Hsmp Hu Hgp Hgf Hgb Hgf2 Hgb2 Hfr Hfr2 Gstep Greg Gdef Gdef2 P' Hc s0 s0' pi G0 H0 Hm.
  assert (HF : forall x, In x (forms (ESometimeAfter phi psi)) -> gform x = true /\ gbool P x = true /\
             tcr_fresh1 smp (mon 0) P x = true /\ forall s, G s -> gdef s x = true) by (intros x [<-|[<-|[]]]; auto).
  rewrite (tcr_single_plan smp sub0 mon (ESometimeAfter phi psi) P G Hsmp Hu Hgp eq_refl HF Gstep Greg P' Hc s0 s0' pi G0 H0 Hm eq_refl).
  cbn [is_landmark mbit0]. rewrite (gchk_true P (ESometimeAfter phi psi) (fun _ _ _ => eq_refl)), andb_true_r, sa_bit_gbit. reflexivity.
Qed.
Print Assumptions C06_LA_tcr_sa_plan.

Module TcrSa.
  Definition bfd (f : N) : fdecl := {| fd_id := f; fd_sig := []; fd_ty := FBool |}.
  Definition fl0 (f : N) : expr := EFluent f [].
  Definition setf (f : N) (b : bool) : action :=
    {| a_params := []; a_pre := [];
       a_effs := [{| e_fl := f; e_args := []; e_val := EBool b; e_cond := EBool true; e_kind := KAssign; e_vars := [];
                     e_isbool := true |}] |}.
  (* fluents f (0), g (1), h (2); actions 0: f on, 1: g on, 2: goal h; constraint sometime-after f g; all false initially *)
  Definition P0 : problem :=
    {| p_objs := []; p_ifun := []; p_fluents := [bfd 0; bfd 1; bfd 2];
       p_actions := [(0%N, setf 0 true); (1%N, setf 1 true); (2%N, setf 2 true)]; p_goals := [fl0 2]; p_invs := [] |}.
  Definition idf (e : expr) : expr := e.
  Definition mon0 (k : nat) : N := 9%N.
  Definition s0 : state := fun f _ => Some (VBool false).
  Definition s0' : state := fun f a => if (f =? 9)%N then Some (VBool true) else s0 f a.
  Definition P0' : problem := match tcr_compile idf idf mon0 [ESometimeAfter (fl0 0) (fl0 1)] P0 with Some x => x | None => P0 end.
  Definition G0 (s : state) : Prop := gdef s (fl0 0) = true /\ gdef s (fl0 1) = true.
End TcrSa.

Example C06_LA_tcr_sa_plan_nonvacuous :
  (forall pi, valid_plan false TcrSa.P0' TcrSa.s0' pi =
              valid_plan false TcrSa.P0 TcrSa.s0 pi && sa_bit TcrSa.P0 (TcrSa.fl0 0) (TcrSa.fl0 1) true TcrSa.s0 pi) /\
  valid_plan false TcrSa.P0 TcrSa.s0 [(0%N, []); (2%N, [])] = true /\
  valid_plan false TcrSa.P0' TcrSa.s0' [(0%N, []); (2%N, [])] = false /\
  valid_plan false TcrSa.P0' TcrSa.s0' [(0%N, []); (1%N, []); (2%N, [])] = true.
Proof.
  split; [|repeat split; vm_compute; reflexivity].
  intros pi.
  change true with (holds false (mk_interp TcrSa.P0 TcrSa.s0 []) (TcrSa.fl0 1) ||
                    negb (holds false (mk_interp TcrSa.P0 TcrSa.s0 []) (TcrSa.fl0 0))) at 1.
  apply (C06_LA_tcr_sa_plan TcrSa.idf TcrSa.idf TcrSa.mon0 (TcrSa.fl0 0) (TcrSa.fl0 1) TcrSa.P0 TcrSa.G0).
  - intros e I. reflexivity.
  - unfold unique_ids. cbn. repeat constructor; cbn; intuition discriminate.
  - reflexivity.
  - reflexivity.
  - reflexivity.
  - reflexivity.
  - reflexivity.
  - vm_compute. reflexivity.
  - vm_compute. reflexivity.
  - intros s aid a args t [Gs1 Gs2] Hlk Hst.
    split; [exact (gdef_step TcrSa.P0 s a args t (TcrSa.fl0 0) (a_ground TcrSa.P0 eq_refl aid a Hlk) (reg_ok_const TcrSa.P0 eq_refl s aid a Hlk) Hst eq_refl eq_refl Gs1)
           | exact (gdef_step TcrSa.P0 s a args t (TcrSa.fl0 1) (a_ground TcrSa.P0 eq_refl aid a Hlk) (reg_ok_const TcrSa.P0 eq_refl s aid a Hlk) Hst eq_refl eq_refl Gs2)].
  - intros s aid a _. exact (reg_ok_const TcrSa.P0 eq_refl s aid a).
  - intros s [Gs _]. exact Gs.
  - intros s [_ Gs]. exact Gs.
  - reflexivity.
  - split; reflexivity.
  - intros f x Hf. unfold TcrSa.s0'. replace (f =? 9)%N with false; [reflexivity|]. symmetry. apply N.eqb_neq. exact Hf.
  - reflexivity.
Qed.

(* the plan-level statement for the whole compiler (not proved): for a ground problem in the fragment, exact
   simplification, exact evaluation of the initial state, fresh and pairwise different monitoring fluents, and a set G of
   states closed under steps on which reg_ok / gdef hold, the compiled problem (no trajectory constraints) accepts the
   plans the original accepts together with its constraints; a refused problem has no valid plan. *)
Definition C06_LA_tcr_plan_goal : Prop :=
  forall (smp sub0 : expr -> expr) (mon : nat -> N) (C : list expr) (P : problem) (s0 : state) (insts : list inst)
         (G : state -> Prop),
    smp_exact smp ->
    (forall e b, (forall I, eval false e I = Some (VBool b)) -> smp e = EBool b) ->
    (forall e I, gform e = true -> eval false (sub0 e) I = eval false e (mk_interp P s0 [])) ->
    gproblem P = true -> unique_ids P -> NoDup C ->
    (forall c phi, In c C -> In phi (match c with
                                    | EAlways x | ESometime x | EAtMostOnce x => [x]
                                    | ESometimeBefore x y | ESometimeAfter x y => [x; y]
                                    | _ => [EInt 0] end) -> gform phi = true /\ gbool P phi = true /\
                                                             forall s, G s -> gdef s phi = true) ->
    (forall i j, mon i = mon j -> i = j) ->
    (forall k fd, In fd (p_fluents P) -> fd_id fd <> mon k) ->
    G s0 -> (forall s ia t, G s -> In ia (p_actions P) -> forall args, spec_step false P s (snd ia) args = Some t -> G t) ->
    (forall s ia, G s -> In ia (p_actions P) -> reg_ok P s (snd ia) = true) ->
    forall pi,
      match tcr_compile smp sub0 mon C P with
      | Some P' =>
          valid {| ts_prob := P'; ts_init := tcr_init smp sub0 mon C s0; ts_insts := insts; ts_traj := [] |} pi =
          valid {| ts_prob := P; ts_init := s0; ts_insts := insts; ts_traj := C |} pi
      | None => valid {| ts_prob := P; ts_init := s0; ts_insts := insts; ts_traj := C |} pi = false
      end.

(* C18 (part: plans) — "a plan written by the writer parses back to an equivalent plan".
   The PLAN TEXT codec is modelled in Model/PlanText.v: print_plan = PDDLWriter._write_plan (+ _time_to_str),
   parse_plan = UPPDDLReader.parse_plan_string up to the look-ups, resolve_* = the look-ups through get_item_named.
   Statements; each is closed by a lemma of Proofs/PlanText_proofs.v (C18_plan_empty_tt_kind_refuted by computation).
   Model = code is checked by harness/ext/c18_plan.py (Corr/Corr_C18_plan.v). *)
From Coq Require Import List NArith ZArith QArith Qabs Ascii Bool.
From Coq Require Import String.
Import ListNotations.
Require Import UPV.Model.PlanText UPV.Proofs.PlanText_proofs.

(* (1) decimal codec: whenever the writer's _time_to_str prints a Fraction q exactly (print_dec q = Some s: q >= 0,
   the denominator divides a power of ten, at most 50 significant digits), Fraction(s) as used by the reader is q.
   q_reduced: q is in lowest terms, as every Python Fraction is. *)
Theorem C18_plan_dec_round_trip :
  forall q s, q_reduced q = true -> print_dec q = Some s -> parse_dec s = Some q.
Proof. exact parse_dec_print_dec. Qed.
Print Assumptions C18_plan_dec_round_trip.

(* the same inside a line: the number is read back and exactly the continuation is left, for every continuation that
   does not start with a digit or a point (in the plan grammar: ":" and "]") *)
Theorem C18_plan_dec_prefix_round_trip :
  forall q s rest, q_reduced q = true -> print_dec q = Some s ->
    match rest with [] => True | c :: _ => (is_digit c || (code c =? 46)%N) = false end ->
    parse_num (s ++ rest) = Some (q, rest).
Proof. exact print_dec_parse. Qed.
Print Assumptions C18_plan_dec_prefix_round_trip.

(* the exact fragment is contained in: non-negative, denominator divides a power of ten (= 2^a * 5^b) *)
Theorem C18_plan_dec_fragment :
  forall q s, print_dec q = Some s ->
    (0 <= Qnum q)%Z /\ exists k, (N.pos (pow10 k) mod N.pos (Qden q) = 0)%N.
Proof. exact print_dec_fragment. Qed.
Print Assumptions C18_plan_dec_fragment.

(* ... and completely: print_dec gives None ONLY for a negative value, a denominator that divides no power of ten
   (a prime factor other than 2 and 5), or an exact expansion of more than 50 significant digits (k is the exponent
   found by find_k, the least one) *)
Theorem C18_plan_dec_none_only_outside_fragment :
  forall q, print_dec q = None ->
    (Qnum q < 0)%Z
    \/ (forall k, (pow10N k mod N.pos (Qden q) <> 0)%N)
    \/ exists k, (pow10N k mod N.pos (Qden q) = 0)%N /\
         (50 < List.length (digits (Z.to_N (Qnum q) * (pow10N k / N.pos (Qden q)))))%nat.
Proof. exact print_dec_none. Qed.
Print Assumptions C18_plan_dec_none_only_outside_fragment.

Definition ex_eighth : Q := 1 # 8.
Definition ex_big : Q := 10000000001 # 1000.
Definition ex_tiny : Q := 1 # 100000.
Definition ex_third : Q := 1 # 3.
Definition ex_neg : Q := (-1) # 2.
Definition ex_52digits : Q := 1000000000000000000000000000000000000000000000000001 # 10.
Definition ex_50digits : Q := 10000000000000000000000000000000000000000000000001 # 10.
Definition st (s : String.string) : str := String.list_ascii_of_string s.

Example C18_plan_dec_round_trip_nonvacuous :
  q_reduced ex_eighth = true /\ print_dec ex_eighth = Some (st "0.125"%string)
  /\ print_dec ex_big = Some (st "10000000.001"%string) /\ print_dec ex_tiny = Some (st "0.00001"%string)
  /\ print_dec ex_50digits = Some (st "1000000000000000000000000000000000000000000000000.1"%string)
  /\ print_dec ex_third = None /\ print_dec ex_neg = None /\ print_dec ex_52digits = None
  /\ parse_dec (st "00012.500"%string) = Some (25 # 2) /\ parse_dec (st "1."%string) = Some (1 # 1)
  /\ parse_dec (st ".5"%string) = None /\ parse_dec (st "1e3"%string) = None /\ parse_dec (st "1.5.2"%string) = None.
Proof. vm_compute. repeat split. Qed.

(* (2) sequential plans: every written plan whose names are well formed (non-empty, characters of [\w?-], unchanged
   by lower()) is read back identically.  The writer's names are always of this form (_get_pddl_name). *)
Theorem C18_plan_seq_round_trip :
  forall l, forallb wf_step l = true -> parse_plan (print_seq l) = Some (PSeq l).
Proof. exact parse_print_seq. Qed.
Print Assumptions C18_plan_seq_round_trip.

(* (3) time-triggered plans: start times and durations that the writer prints exactly (dec_ok), names as above *)
Theorem C18_plan_tt_round_trip :
  forall l txt, forallb wf_tstep l = true -> print_tt l = Some txt ->
    parse_plan txt = Some (match l with [] => PSeq [] | _ => PTT l end).
Proof. exact parse_print_tt. Qed.
Print Assumptions C18_plan_tt_round_trip.

(* a well-formed plan is always printed (print_plan is None only for a time outside the exact fragment) *)
Theorem C18_plan_print_total :
  forall p, wf_plan p = true -> exists t, print_plan p = Some t.
Proof. exact print_plan_total. Qed.
Print Assumptions C18_plan_print_total.

(* both kinds at once, on lists of characters and on Coq strings; plan_norm: the EMPTY time-triggered plan is written
   as the empty text and comes back as the empty sequential plan, every other plan comes back unchanged *)
Theorem C18_plan_round_trip :
  forall p t, wf_plan p = true -> print_plan p = Some t -> parse_plan t = Some (plan_norm p).
Proof. exact parse_print_plan. Qed.
Print Assumptions C18_plan_round_trip.

Theorem C18_plan_string_round_trip :
  forall p s, wf_plan p = true -> print_plan_string p = Some s -> parse_plan_string s = Some (plan_norm p).
Proof. exact parse_print_plan_string. Qed.
Print Assumptions C18_plan_string_round_trip.

Theorem C18_plan_dec_string_round_trip :
  forall q s, q_reduced q = true -> print_dec_string q = Some s -> parse_dec_string s = Some q.
Proof. exact parse_print_dec_string. Qed.
Print Assumptions C18_plan_dec_string_round_trip.

(* with the look-ups: [act]/[obj] = get_item_named restricted to actions/objects, [inst_ok] = the checks of the
   ActionInstance constructor, [aname]/[oname] = the writer's renaming (get_pddl_name).  Hypotheses (inst_good): on the
   items of the plan get_item_named inverts get_pddl_name (the writer fills nto_renamings and otn_renamings together)
   and every instance passes the constructor's checks; the names are well formed.  Then reading the written text
   and resolving the names gives back the plan itself. *)
Theorem C18_plan_items_seq_round_trip :
  forall (A O : Type) (act : str -> option A) (obj : str -> option O) (inst_ok : A -> list O -> bool)
         (aname : A -> str) (oname : O -> str) (l : list (A * list O)),
    Forall (inst_good A O act obj inst_ok aname oname) l ->
    forallb wf_step (map (inst_names A O aname oname) l) = true ->
    exists raw, parse_plan (print_seq (map (inst_names A O aname oname) l)) = Some (PSeq raw)
                /\ resolve_seq A O act obj inst_ok raw = Some l.
Proof. exact items_seq_round_trip. Qed.
Print Assumptions C18_plan_items_seq_round_trip.

Theorem C18_plan_items_tt_round_trip :
  forall (A O : Type) (act : str -> option A) (obj : str -> option O) (inst_ok : A -> list O -> bool)
         (aname : A -> str) (oname : O -> str) (l : list (Q * (A * list O) * option Q)),
    l <> [] ->
    Forall (fun r => inst_good A O act obj inst_ok aname oname (snd (fst r))) l ->
    forallb wf_tstep (map (trow_names A O aname oname) l) = true ->
    exists txt raw, print_tt (map (trow_names A O aname oname) l) = Some txt
                    /\ parse_plan txt = Some (PTT raw)
                    /\ resolve_tt A O act obj inst_ok raw = Some l.
Proof. exact items_tt_round_trip. Qed.
Print Assumptions C18_plan_items_tt_round_trip.

(* (4) non-vacuity: concrete plans in the fragment, with the text the writer produces *)
Definition ex_seq : plan :=
  PSeq [mkStep (st "move_0"%string) [st "r2"; st "l1_0"%string; st "loc-3"%string]; mkStep (st "noop"%string) []; mkStep (st "pick-up"%string) [st "r_x"]].
Definition ex_seq_text : str := st "(move_0 r2 l1_0 loc-3)"%string ++ [nl] ++ st "(noop)"%string ++ [nl] ++ st "(pick-up r_x)"%string ++ [nl].
Example C18_plan_seq_round_trip_nonvacuous :
  wf_plan ex_seq = true /\ print_plan ex_seq = Some ex_seq_text /\ parse_plan ex_seq_text = Some ex_seq.
Proof. vm_compute. repeat split. Qed.

Definition ex_tt : plan :=
  PTT [mkTStep ex_eighth (mkStep (st "fly"%string) [st "r2"; st "l1"%string]) (Some (7 # 2));
       mkTStep ex_big (mkStep (st "noop"%string) []) None;
       mkTStep (3 # 1) (mkStep (st "charge"%string) []) (Some ex_tiny)].
Definition ex_tt_text : str :=
  st "0.125: (fly r2 l1)[3.5]"%string ++ [nl] ++ st "10000000.001: (noop)"%string ++ [nl] ++ st "3: (charge)[0.00001]"%string ++ [nl].
Example C18_plan_tt_round_trip_nonvacuous :
  wf_plan ex_tt = true /\ print_plan ex_tt = Some ex_tt_text /\ parse_plan ex_tt_text = Some ex_tt.
Proof. vm_compute. repeat split. Qed.

(* the look-up hypotheses are satisfiable: two actions and two objects named by small tables *)
Definition ex_act (n : str) : option nat :=
  if list_eq_dec ascii_dec n (st "move"%string) then Some 0%nat else if list_eq_dec ascii_dec n (st "noop"%string) then Some 1%nat else None.
Definition ex_obj (n : str) : option nat :=
  if list_eq_dec ascii_dec n (st "a"%string) then Some 0%nat else if list_eq_dec ascii_dec n (st "b"%string) then Some 1%nat else None.
Definition ex_aname (a : nat) : str := match a with O => st "move"%string | _ => st "noop"%string end.
Definition ex_oname (o : nat) : str := match o with O => st "a"%string | _ => st "b"%string end.
Definition ex_ok (a : nat) (os : list nat) : bool := Nat.eqb (List.length os) (match a with O => 2 | _ => 0 end)%nat.
Definition ex_items : list (nat * list nat) := [(0, [0; 1]); (1, [])]%nat.
Example C18_plan_items_seq_round_trip_nonvacuous :
  Forall (inst_good nat nat ex_act ex_obj ex_ok ex_aname ex_oname) ex_items
  /\ forallb wf_step (map (inst_names nat nat ex_aname ex_oname) ex_items) = true.
Proof. split; [repeat constructor|vm_compute; reflexivity]. Qed.

(* (5) case: the reader lower-cases every line before matching, so a name with an upper-case letter does not survive
   (wf_name's "unchanged by lower()" is necessary); the writer never emits one (_get_pddl_name lower-cases) *)
Definition ex_upper : step := mkStep (st "Move"%string) [st "A"].
Theorem C18_plan_upper_case_name_refuted :
  exists s, forallb is_name (s_name s) = true /\ forallb (forallb is_name) (s_args s) = true
            /\ parse_plan (print_seq [s]) = Some (PSeq [mkStep (map lower (s_name s)) (map (map lower) (s_args s))])
            /\ parse_plan (print_seq [s]) <> Some (PSeq [s]).
Proof. exists ex_upper. vm_compute. repeat split. discriminate. Qed.
Print Assumptions C18_plan_upper_case_name_refuted.

(* the kind of an EMPTY time-triggered plan is lost: it is written as the empty text, which reads as SequentialPlan([]) *)
Theorem C18_plan_empty_tt_kind_refuted :
  exists p, wf_plan p = true /\ exists t, print_plan p = Some t /\ parse_plan t <> Some p.
Proof. exists (PTT []). split; [reflexivity|]. exists []. split; [reflexivity|]. vm_compute. discriminate. Qed.
Print Assumptions C18_plan_empty_tt_kind_refuted.

(* the writer on EVERY Fraction: print_dec_real / print_plan_real mirror _time_to_str / _write_plan in full
   (Decimal division at 50 significant digits, ROUND_HALF_EVEN, plain notation; compared with the code byte for byte
   also for 1/3, 2/7, more than 50 digits, negative values) *)

Definition in_exact_fragment (q : Q) : Prop := exists s, print_dec q = Some s.

(* on the exact fragment the total printer IS print_dec *)
Theorem C18_plan_dec_real_agrees :
  forall q s, q_reduced q = true -> print_dec q = Some s -> print_dec_real q = s.
Proof. exact print_dec_real_agrees. Qed.
Print Assumptions C18_plan_dec_real_agrees.

Theorem C18_plan_real_round_trip :
  forall q, q_reduced q = true -> in_exact_fragment q -> parse_dec (print_dec_real q) = Some q.
Proof. exact parse_print_dec_real_exact. Qed.
Print Assumptions C18_plan_real_round_trip.

Theorem C18_plan_plan_real_agrees :
  forall p t, wf_plan p = true -> print_plan p = Some t -> print_plan_real p = t.
Proof. exact print_plan_real_agrees. Qed.
Print Assumptions C18_plan_plan_real_agrees.

(* the plan round trip about the function that mirrors _write_plan in full *)
Theorem C18_plan_plan_real_round_trip :
  forall p, wf_plan p = true -> parse_plan (print_plan_real p) = Some (plan_norm p).
Proof. exact parse_print_plan_real. Qed.
Print Assumptions C18_plan_plan_real_round_trip.

(* for EVERY q >= 0 the reader gets back dec_rounded q = the value of the 50-digit decimal computed by the writer's
   division (dec_div50) *)
Theorem C18_plan_dec_real_parses :
  forall q, (0 <= Qnum q)%Z -> parse_dec (print_dec_real q) = Some (dec_rounded q).
Proof. exact parse_print_dec_real. Qed.
Print Assumptions C18_plan_dec_real_parses.

(* the coefficient printed has at most 50 digits *)
Theorem C18_plan_dec_real_50_digits :
  forall n d, (fst (dec_div50 n d) < pow10N 50)%N.
Proof. exact dec_div50_bound. Qed.
Print Assumptions C18_plan_dec_real_50_digits.

(* what is read back is always (the value of) a decimal with at most 50 significant digits *)
Theorem C18_plan_dec_rounded_shape :
  forall q, N.pos (Qden q) <> 1%N -> exists c e, dec_rounded q = dec_val c e /\ (c < pow10N 50)%N.
Proof. exact dec_rounded_shape. Qed.
Print Assumptions C18_plan_dec_rounded_shape.

(* a Fraction whose denominator has a prime factor other than 2 and 5 is denoted by NO decimal string at all *)
Theorem C18_plan_no_decimal_denotes :
  forall q s, q_reduced q = true -> (forall k, (pow10N k mod N.pos (Qden q) <> 0)%N) -> parse_dec s <> Some q.
Proof. exact no_decimal_denotes. Qed.
Print Assumptions C18_plan_no_decimal_denotes.

(* (boundary of the property, not a finding) outside the exact fragment - non-decimal denominator OR more than 50
   significant digits - the written time is read back as dec_rounded q, which is NOT q: the round trip loses it *)
Theorem C18_plan_dec_rounds_outside_fragment :
  forall q, q_reduced q = true -> (0 <= Qnum q)%Z -> print_dec q = None ->
    parse_dec (print_dec_real q) = Some (dec_rounded q) /\ dec_rounded q <> q.
Proof. exact dec_rounds_outside_fragment. Qed.
Print Assumptions C18_plan_dec_rounds_outside_fragment.

(* NOT proved: that dec_rounded q is THE half-even rounding of q to 50 significant digits (|q - q'| <= half a unit of
   the 50th digit, ties to even); dec_div50 mirrors _pydecimal's algorithm and is compared with the code on every
   correspondence case; examples below (incl. the two tie directions) *)
Definition C18_plan_dec_rounded_is_half_even_goal : Prop :=
  forall q, q_reduced q = true -> (0 < Qnum q)%Z -> print_dec q = None ->
    exists c e, dec_rounded q = dec_val c e /\ (pow10N 49 <= c < pow10N 50)%N
      /\ (Qabs (q - dec_val c e) * (2 # 1) <= dec_val 1 e)%Q
      /\ ((Qabs (q - dec_val c e) * (2 # 1) == dec_val 1 e)%Q -> N.even c = true).

Definition ex_tie_down : Q := 40000000000000000000000000000000000000000000000001 # 2.
Definition ex_tie_up : Q := 40000000000000000000000000000000000000000000000003 # 2.
Example C18_plan_dec_rounds_examples :
  dec_rounded ex_third = (33333333333333333333333333333333333333333333333333 # 100000000000000000000000000000000000000000000000000)
  /\ dec_rounded ex_52digits = (100000000000000000000000000000000000000000000000000 # 1)
  /\ dec_rounded ex_tie_down = (20000000000000000000000000000000000000000000000000 # 1)
  /\ dec_rounded ex_tie_up = (20000000000000000000000000000000000000000000000002 # 1)
  /\ dec_rounded ex_eighth = ex_eighth
  /\ q_reduced ex_tie_down = true /\ q_reduced ex_tie_up = true
  /\ print_dec ex_third = None /\ print_dec ex_tie_down = None.
Proof. vm_compute. repeat split. Qed.

Example C18_plan_dec_real_examples :
  print_dec_real ex_third = st "0.33333333333333333333333333333333333333333333333333"%string
  /\ print_dec_real (2 # 3) = st "0.66666666666666666666666666666666666666666666666667"%string
  /\ print_dec_real ex_52digits = st "100000000000000000000000000000000000000000000000000"%string
  /\ print_dec_real ex_neg = st "-0.5"%string
  /\ print_dec_real ex_eighth = st "0.125"%string /\ print_dec_real ex_big = st "10000000.001"%string
  /\ print_plan_real ex_tt = ex_tt_text /\ print_plan_real ex_seq = ex_seq_text.
Proof. vm_compute. repeat split. Qed.

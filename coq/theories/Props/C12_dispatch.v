(* C12 (part "dispatch") -- REGENERATED-FROM-SOURCE tie of the Nnf / Dnf (Walkers/NnfDnf.v) model(s) to the Python walkers.

   coq/theories/Gen/Gen_Walkers.v is rewritten by tools/gen_walkers.py from the CURRENT source (ast only, fail closed):
   the OperatorKind members and, for every walker class, the table operator -> defining class "." method that
   MetaNodeTypeHandler + Walker.__init__ build (decorators, walk_<operator> naming convention and inheritance resolved).
   coq/theories/Model/WalkerTables.v holds what the hand-written models assume, entry by entry, each with the Gallina
   branch that models the handler.  The theorems below are EQUALITIES BETWEEN CLOSED FINITE TABLES (string literals),
   so evaluation (`reflexivity`) is a complete proof and not a bounded check: nothing is quantified except, in
   C12_operators_covered, the expression e, which is handled by case analysis on its constructor.
   They fail to compile when a handler is re-mapped, dropped (an inherited one applies), when a @handles list changes,
   or when OperatorKind gets a member that Core/Expr.v neither models nor lists as unmodelled. *)
From Coq Require Import List String Bool Permutation.
Import ListNotations.
Require Import UPV.Core.Expr UPV.Model.WalkerTables UPV.Gen.Gen_Walkers.
Local Open Scope string_scope.

(* Dnf.functions: walk_and / walk_or / walk_all as in [dnf_walk] *)
Theorem C12_dispatch_as_modelled :
  lookup "Dnf" Gen_Walkers.dispatch = Some expected_dnf.
Proof. reflexivity. Qed.
Print Assumptions C12_dispatch_as_modelled.

(* Nnf is not a Walker: the if/elif chain applied to a node popped for the first time, as in [nnf_pol] *)
Theorem C12_nnf_expand_as_modelled :
  lookup "Nnf.expand" Gen_Walkers.dispatch = Some expected_nnf_expand.
Proof. reflexivity. Qed.
Print Assumptions C12_nnf_expand_as_modelled.

(* the if/elif chain applied when the children of an And/Or have been solved ([andp] / [orp]) *)
Theorem C12_nnf_rebuild_as_modelled :
  lookup "Nnf.rebuild" Gen_Walkers.dispatch = Some expected_nnf_rebuild.
Proof. reflexivity. Qed.
Print Assumptions C12_nnf_rebuild_as_modelled.

(* the handlers build what the model says they build: the sorted sets of ExpressionManager constructors (manager.X), helper
   methods (self.x) and <Class>.super calls occurring in each handler body are the expected ones *)
Theorem C12_handler_shapes_as_modelled :
  shapes_for (map fst expected_shapes_nnf_dnf) Gen_Walkers.handler_shapes = expect_shapes expected_shapes_nnf_dnf.
Proof. reflexivity. Qed.
Print Assumptions C12_handler_shapes_as_modelled.

(* Walkers/NnfDnf.v re-models five handlers of the Simplifier that Dnf.walk_and calls through Simplifier.simplify
   (simp_and = walk_and, neg_of = walk_not, simp_atom = walk_le / walk_lt / walk_equals): they are still the handlers of
   these operators *)
Theorem C12_simplifier_handlers_as_modelled :
  match lookup "Simplifier" Gen_Walkers.dispatch with
  | Some t => map (fun o => (o, lookup o t)) ["AND"; "NOT"; "LE"; "LT"; "EQUALS"]
  | None => []
  end
  = [ ("AND", Some "Simplifier.walk_and"); ("NOT", Some "Simplifier.walk_not"); ("LE", Some "Simplifier.walk_le")
    ; ("LT", Some "Simplifier.walk_lt"); ("EQUALS", Some "Simplifier.walk_equals") ].
Proof. reflexivity. Qed.
Print Assumptions C12_simplifier_handlers_as_modelled.

(* The OperatorKind members of the current source are exactly (up to order) the operators Core/Expr.v has a constructor
   for plus the explicitly listed unmodelled ones; and EVERY expression of the IR carries an operator that exists in the
   source and that the tables of Dnf, Nnf.expand, Nnf.rebuild send to a handler other than Walker.walk_error. *)
Theorem C12_operators_covered :
  Permutation Gen_Walkers.operator_kinds (modelled_operators ++ unmodelled_operators) /\
  forall e : expr,
    In (op_of e) Gen_Walkers.operator_kinds /\
    handled Gen_Walkers.dispatch "Dnf" e = true /\
    handled Gen_Walkers.dispatch "Nnf.expand" e = true /\
    handled Gen_Walkers.dispatch "Nnf.rebuild" e = true.
Proof.
  assert (C : covers Gen_Walkers.operator_kinds = true) by (vm_compute; reflexivity).
  split; [exact (covers_sound _ C)|].
  intro e. split.
  - exact (covered_op _ e C).
  - repeat split.
    + apply (handled_by _ _ _ C12_dispatch_as_modelled); reflexivity.
    + apply (handled_by _ _ _ C12_nnf_expand_as_modelled); reflexivity.
    + apply (handled_by _ _ _ C12_nnf_rebuild_as_modelled); reflexivity.
Qed.
Print Assumptions C12_operators_covered.

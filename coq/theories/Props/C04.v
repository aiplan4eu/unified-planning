(* C04 — Time-triggered and sequential validation agree on instantaneous plans.

   [tt_validate] (Planning/TTValidate.v) models TimeTriggeredPlanValidator._validate on the repaired code
   (bec5108 bounded types, 011fe6a invariants in the final state, 74b68a3 same value twice, e93aea2 forall instances),
   [seq_validate] (Planning/SeqValidate.v) models SequentialPlanValidator._validate.  [schedule plan times] starts the
   i-th action instance at the i-th time; [sort_by_time plan times] is the same instances in start-time order
   (an insertion sort on the start time, independent of the validator's own ordering of the start list). *)
From Coq Require Import List ZArith NArith QArith Qcanon Bool.
Import ListNotations.
Require Import UPV.Core.Expr UPV.Core.Eval UPV.Core.Interp UPV.Planning.Problem UPV.Planning.Sem UPV.Planning.SeqValidate.
Require Import UPV.Planning.Temporal UPV.Planning.TTValidate UPV.Planning.TTSeq.
Require Import UPV.Proofs.Step_proofs UPV.Proofs.SeqValidate_proofs UPV.Proofs.TTSeq_proofs.
Local Open Scope Qc_scope.

(* For every problem with only instantaneous actions, no timed effects or timed goals and an initial state that
   satisfies its invariants (state invariants and bounded types), a time-triggered plan with pairwise distinct
   (non-negative) start times gets the verdict the sequential validator gives to the same action instances in
   start-time order.  [plan_typed]: Boolean fluents are only assigned Booleans (C01's typing hypothesis). *)
Theorem C04_tt_seq_agree :
  forall sc (TP : tproblem) (s0 : state) (plan : list (N * list value)) (times : list Qc),
    instantaneous TP -> no_timed TP -> plan_typed sc (tp_base TP) -> init_ok sc TP s0 ->
    NoDup times -> (forall t, In t times -> zq 0 <= t) ->
    tt_validate sc TP s0 (schedule plan times) =
    verdict_of (seq_validate sc (tp_base TP) MNone s0 (sort_by_time plan times)).
Proof. intros sc TP s0 plan times I N T. exact (tt_seq_agree sc TP I N T s0 plan times). Qed.
Print Assumptions C04_tt_seq_agree.

(* "In particular, both validators enforce bounded numeric types and state invariants": a plan VALID for the
   time-triggered validator is executed step by step by the simulator's apply, which checks the state invariants and
   the bounded types ([invariants_ok] = p_invs ++ bound_invs) in every successor state *)
Theorem C04_valid_means_sequentially_executable :
  forall sc (TP : tproblem) (s0 : state) (plan : list (N * list value)) (times : list Qc),
    instantaneous TP -> no_timed TP -> plan_typed sc (tp_base TP) -> init_ok sc TP s0 ->
    NoDup times -> (forall t, In t times -> zq 0 <= t) ->
    tt_validate sc TP s0 (schedule plan times) = VALID ->
    exists tr fin, SeqValidate.trace (tp_base TP) (sim_apply sc (tp_base TP)) s0 (sort_by_time plan times) = Some (tr, fin) /\
                   goals_hold sc (tp_base TP) fin = true.
Proof.
  intros sc TP s0 plan times I N T IO ND NN V.
  rewrite (tt_seq_agree sc TP I N T s0 plan times IO ND NN) in V.
  rewrite seq_validate_spec in V.
  destruct (SeqValidate.trace (tp_base TP) (sim_apply sc (tp_base TP)) s0 (sort_by_time plan times)) as [[tr fin]|]; [|discriminate].
  exists tr, fin. split; [reflexivity|]. destruct (goals_hold sc (tp_base TP) fin); [reflexivity | discriminate].
Qed.
Print Assumptions C04_valid_means_sequentially_executable.

(* non-vacuity: one bounded counter c : integer[0, 2], action inc: c += 1, goal c >= 2.
   Two steps (scheduled out of order) are VALID for both, three steps push c to 3: INVALID for both (DESIGN.md #8). *)
Definition ex_P : problem :=
  {| p_objs := []; p_ifun := [];
     p_fluents := [ {| fd_id := 0%N; fd_sig := []; fd_ty := FNum (Some (zq 0)) (Some (zq 2)) |} ];
     p_actions := [ (0%N, {| a_params := []; a_pre := [];
                             a_effs := [ {| e_fl := 0%N; e_args := []; e_val := EInt 1; e_cond := EBool true;
                                            e_kind := KInc; e_vars := []; e_isbool := false |} ] |}) ];
     p_goals := [ELe (EInt 2) (EFluent 0%N [])]; p_invs := [] |}.
Definition ex_TP : tproblem := {| tp_base := ex_P; tp_dur := []; tp_teffs := []; tp_tgoals := [] |}.
Definition ex_s0 : state := fun _ _ => Some (VNum (zq 0)).

Lemma ex_typed : plan_typed true ex_P.
Proof.
  intros s aid a args _ acts _. apply forallb_forall. intros x _. unfold wt_aeff, is_bool_fluent. cbn.
  destruct (fst (ae_key x)); reflexivity.
Qed.

Example C04_nonvacuous :
  instantaneous ex_TP /\ no_timed ex_TP /\ plan_typed true ex_P /\ init_ok true ex_TP ex_s0 /\
  tt_validate true ex_TP ex_s0 (schedule [(0%N, []); (0%N, [])] [qc 7 2; qc 1 3]) = VALID /\
  seq_validate true ex_P MNone ex_s0 (sort_by_time [(0%N, []); (0%N, [])] [qc 7 2; qc 1 3]) = Valid None /\
  tt_validate true ex_TP ex_s0 (schedule [(0%N, []); (0%N, []); (0%N, [])] [qc 7 2; qc 1 3; qc 5 1]) = INVALID /\
  seq_validate true ex_P MNone ex_s0 (sort_by_time [(0%N, []); (0%N, []); (0%N, [])] [qc 7 2; qc 1 3; qc 5 1]) = Invalid.
Proof.
  split; [reflexivity|]. split; [split; reflexivity|]. split; [exact ex_typed|].
  split; [vm_compute; reflexivity|]. vm_compute. repeat split; reflexivity.
Qed.

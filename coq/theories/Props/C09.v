(* C09 -- Declared resulting problem kind over-approximates the compiled problem's kind.
   Part (i) is PROVED here: a pipeline selected by the factory from a problem kind accepts each intermediate problem, provided the
   actual kind of every intermediate problem is within the kind the factory declared for that stage.
   Part (ii) -- "for every compiler and every supported input problem, kind(compiled) <= resulting_problem_kind(kind(input))" -- speaks
   about the compilers' code, which is not modelled: it is kept as [C09_declared_overapproximates_goal] and VALIDATED on every run
   (harness/props/c09.py + Corr/Corr_C09.v: the inclusion is decided inside Coq on the implementation's actual kinds, for every
   compiler on the example problems, and stage by stage on factory pipelines).
   Statements; each is closed by a lemma of Proofs/Pipeline_proofs.v, the built-in instance with Proofs/Factory_gen_proofs.v. *)
From Coq Require Import List NArith Bool String.
Import ListNotations.
Require Import UPV.Model.Kind UPV.Model.Factory UPV.Proofs.Factory_proofs UPV.Proofs.Pipeline_proofs.
Require Import UPV.Gen.Gen_Kind UPV.Gen.Gen_Engines UPV.Proofs.Factory_gen_proofs.

(* (ii), for an arbitrary (unmodelled) compile function and kind computation *)
Definition C09_declared_overapproximates_goal (T : tables) (problem : Type) (kind_of : problem -> kind)
           (compile : engine -> problem -> problem) (e : engine) : Prop :=
  forall P d, supports T e (kind_of P) = Ok true -> run_resulting T (e_resulting e) (kind_of P) = Ok d ->
              le T (kind_of (compile e P)) d = Ok true.

(* a compiler that supports a kind supports every kind below it (kinds of one version) *)
Theorem C09_supports_downward_closed :
  forall T e a d, version T a = version T d -> version T d = version T (e_supported e) ->
    le T a d = Ok true -> supports T e d = Ok true -> supports T e a = Ok true.
Proof. exact supports_downward. Qed.
Print Assumptions C09_supports_downward_closed.

(* (i): [steps] = the compilers chosen by Factory.Compiler(problem_kind=k0, compilation_kinds=cks) with the kind declared for each
   stage; [actual] = the kinds of the problems really handed to the stages.  If each actual kind is within the declared one
   (and of the pipeline's version), every compiler of the pipeline supports the problem it receives. *)
Theorem C09_pipeline_accepts :
  forall T reg prefs cks k0 steps final v actual,
    pipeline T reg prefs None cks k0 = Pipe steps final -> k_ver k0 = Some v ->
    (forall n e, lookup n reg = Some e -> version T (e_supported e) = v) ->
    Forall2 (within T v) actual steps -> Forall2 (accepted T) actual steps.
Proof. exact pipeline_accepts. Qed.
Print Assumptions C09_pipeline_accepts.

Theorem C09_within_accepted_unfolded :
  forall T v a st, (within T v a st <-> version T a = v /\ le T a (snd st) = Ok true)
                   /\ (accepted T a st <-> le T a (e_supported (snd (fst st))) = Ok true).
Proof. exact within_accepted_unfolded. Qed.
Print Assumptions C09_within_accepted_unfolded.

(* for the regenerated built-in registry (every supported kind is declared at LATEST) and any preference list *)
Theorem C09_pipeline_accepts_builtin :
  forall prefs cks k0 steps final actual,
    pipeline gen_tables builtin_engines prefs None cks k0 = Pipe steps final ->
    k_ver k0 = Some LATEST_PROBLEM_KIND_VERSION ->
    Forall2 (within gen_tables LATEST_PROBLEM_KIND_VERSION) actual steps ->
    Forall2 (accepted gen_tables) actual steps.
Proof.
  intros prefs cks k0 steps final actual P V. eapply pipeline_accepts; [exact P | exact V | exact builtin_versions].
Qed.
Print Assumptions C09_pipeline_accepts_builtin.

(* the declared kinds of all stages carry the version of the requested kind *)
Theorem C09_declared_versions :
  forall T reg prefs k steps cks final v, chain T reg prefs k steps cks final -> k_ver k = Some v ->
    Forall (fun st => k_ver (snd st) = Some v) steps /\ k_ver final = Some v.
Proof. exact chain_versions. Qed.
Print Assumptions C09_declared_versions.

(* non-vacuity over the current source *)
Definition K (l : list N) : kind := {| k_feats := mask_of l; k_ver := Some LATEST_PROBLEM_KIND_VERSION |}.

(* (top-level definitions rather than `let … in` in the statement: coqchk 8.16 rejects the VM-cast proof term of a
   let-bound statement with "Type error: ActualType" although the kernel accepts it) *)
Definition ex_prefs := ["up_quantifiers_remover"; "up_negative_conditions_remover"]%string.
Definition ex_k0 := K [f_ACTION_BASED; f_EXISTENTIAL_CONDITIONS; f_NEGATIVE_CONDITIONS; f_EQUALITIES; f_FLAT_TYPING].
Definition ex_k1 := K [f_ACTION_BASED; f_DISJUNCTIVE_CONDITIONS; f_NEGATIVE_CONDITIONS; f_EQUALITIES; f_FLAT_TYPING].
Definition ex_k2 := K [f_ACTION_BASED; f_DISJUNCTIVE_CONDITIONS; f_EQUALITIES; f_FLAT_TYPING].
Example C09_pipeline_accepts_nonvacuous :
  pipeline gen_tables builtin_engines ex_prefs None [ck_QUANTIFIERS_REMOVING; ck_NEGATIVE_CONDITIONS_REMOVING] ex_k0
  = Pipe [("up_quantifiers_remover"%string, E_up_quantifiers_remover, ex_k0);
          ("up_negative_conditions_remover"%string, E_up_negative_conditions_remover, ex_k1)] ex_k2
  /\ Forall2 (within gen_tables LATEST_PROBLEM_KIND_VERSION)
             [ex_k0; K [f_ACTION_BASED; f_NEGATIVE_CONDITIONS; f_FLAT_TYPING]]    (* an actual stage-1 kind strictly below ex_k1 *)
             [("up_quantifiers_remover"%string, E_up_quantifiers_remover, ex_k0);
              ("up_negative_conditions_remover"%string, E_up_negative_conditions_remover, ex_k1)].
Proof.
  split; [vm_compute; reflexivity|].
  repeat constructor; vm_compute; reflexivity.
Qed.

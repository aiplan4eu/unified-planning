(* C26, part "back": the conversion STN plan -> time-triggered plan (STNPlan.__init__ + _convert_to_time_triggered).
   Statements; each is closed by a lemma of Proofs/StnBack_proofs.v (which uses C25's theorems about
   the DeltaSTN: Proofs/Stn_proofs.v, Stn_termination.v, and the forward direction Proofs/StnPlan_proofs.v).

   Vocabulary (Planning/StnBack.v, Planning/StnPlan.v, Model/Stn.v):
   a constraint [(a, L, U, b) : pcon] of an STN plan means  L <= time b - time a <= U  (None = no bound); nodes are
   0 = GLOBAL_START, 1 = GLOBAL_END, [snode k] = 2+2k = START of action instance k, [enode k] = 3+2k = its END;
   [back_init fuel cs] = the DeltaSTN built by STNPlan(cs), call by call (None = the model of _inc_check ran out of
   fuel; never with [enough_fuel (init_adds cs)]: C26_back_init_terminates); [check_stn s] = is_consistent();
   [back_convert s] = _convert_to_time_triggered: [BackPlan p] = TimeTriggeredPlan(p) with p the list of
   (start, action instance, duration) in order, [BackError] = an exception (AssertionError / TypeError);
   [model_of s] = the earliest schedule (C25: least non-negative solution); [tt_time p ge n] = the time of node n read
   back from the time-triggered plan p (GLOBAL_START 0, GLOBAL_END ge, START = start, END = start + duration);
   [sat_pcon t c] = the time assignment t satisfies c; [init_adds cs] = the difference constraints inserted in the
   DeltaSTN (those of cs and GLOBAL_START <= node <= GLOBAL_END for every node); [init_node cs n] = n is a global node
   or occurs in cs; [mentioned n cs] = n occurs in cs.

   Hypotheses:
   [check_stn s = true]        the STN plan is consistent;
   [starts_present cs = true]  whenever the END of an action instance occurs in a constraint, so does its START
                               (otherwise the implementation raises: C26_back_end_without_start_raises);
   [dur_nonneg_in k cs]        cs contains a constraint START k -> END k with a lower bound >= 0. *)
From Coq Require Import List ZArith NArith QArith Bool.
Import ListNotations.
Require Import UPV.Model.Stn UPV.Proofs.Stn_proofs UPV.Proofs.Stn_termination.
Require Import UPV.Planning.StnPlan UPV.Proofs.StnPlan_proofs UPV.Planning.StnBack UPV.Proofs.StnBack_proofs.

(* (0) STNPlan(cs) always exists in the model (no fuel problem), and its consistency flag is exact (C25) *)
Theorem C26_back_init_terminates :
  forall cs, exists s, back_init (enough_fuel (init_adds cs)) cs = Some s.
Proof. exact back_init_terminates. Qed.
Print Assumptions C26_back_init_terminates.

Theorem C26_back_consistent_iff_solvable :
  forall fuel cs s, back_init fuel cs = Some s -> (check_stn s = true <-> solvable (init_adds cs)).
Proof. exact back_init_consistent_iff. Qed.
Print Assumptions C26_back_consistent_iff_solvable.

(* the calls of STNPlan.__init__ that are not DeltaSTN.add (insert_interval with both bounds None) change nothing while
   the network is consistent: the model of the forward direction (StnPlan.stn_plan_init) builds the same network *)
Theorem C26_back_init_agrees_with_forward_model :
  forall fuel cs s, check_stn s = true -> (back_init fuel cs = Some s <-> stn_plan_init fuel cs = Some s).
Proof. intros fuel cs s Hs. split; intros H; [eapply back_init_sat_eq | eapply back_init_of_plan_init]; eauto. Qed.
Print Assumptions C26_back_init_agrees_with_forward_model.

(* (1) THE BACK DIRECTION.  For every consistent STN plan (every END with its START) the conversion returns a
   time-triggered plan; it is sorted by start, has exactly one entry for each action instance whose START occurs in the
   STN plan; start times are the earliest times (>= 0), the duration is None exactly when the END node occurs in no
   constraint and otherwise END - START of the earliest schedule; the times read back from the plan satisfy EVERY
   constraint of the STN plan; durations are >= 0 for the action instances the STN plan constrains that way; and the
   plan is the earliest one: below every non-negative solution, node by node. *)
Theorem C26_back_times_satisfy_stn :
  forall fuel cs s,
    back_init fuel cs = Some s -> check_stn s = true -> starts_present cs = true ->
    exists plan,
      back_convert s = BackPlan plan /\
      sorted_by_start plan /\
      NoDup (map step_of plan) /\
      (forall k, In k (map step_of plan) <-> mentioned (snode k) cs = true) /\
      (forall st k du, In (st, k, du) plan ->
         st == model_of s (snode k) /\ 0 <= st /\
         match du with
         | Some d => mentioned (enode k) cs = true /\ d == model_of s (enode k) - st
         | None => mentioned (enode k) cs = false
         end) /\
      (forall n, init_node cs n -> tt_time plan (model_of s end_plan) n == model_of s n) /\
      (forall c, In c cs -> sat_pcon (tt_time plan (model_of s end_plan)) c) /\
      (forall st k d, In (st, k, Some d) plan -> dur_nonneg_in k cs -> 0 <= d) /\
      (forall t, nonneg t -> solution t (init_adds cs) ->
         forall n, init_node cs n -> tt_time plan (model_of s end_plan) n <= t n).
Proof.
  intros fuel cs s Hb Hs Hsp. destruct (back_times_satisfy_stn fuel cs s Hb Hs Hsp) as (plan & H1 & [F1 F2 F3 F4 F5] & H3 & H4 & H5).
  exists plan. repeat (split; [assumption|]). assumption.
Qed.
Print Assumptions C26_back_times_satisfy_stn.

(* side conditions are real: without a START -> END lower bound the duration can be negative (the code returns
   TimeTriggeredPlan([(5, a, -5)]) for  GLOBAL_START + 5 <= a.start, GLOBAL_START <= a.end) ... *)
Theorem C26_back_negative_duration_possible :
  exists s, back_init 100 wit_negative = Some s /\ check_stn s = true /\ starts_present wit_negative = true /\
            back_convert s = BackPlan [ (5, 0%N, Some (- (5))) ].
Proof. exact negative_duration_possible. Qed.
Print Assumptions C26_back_negative_duration_possible.

(* ... and an END node without its START node makes the conversion raise *)
Theorem C26_back_end_without_start_raises :
  exists s, back_init 100 [ (0%N, Some 5, None, 3%N) ] = Some s /\ check_stn s = true /\ back_convert s = BackError.
Proof. exact end_without_start_raises. Qed.
Print Assumptions C26_back_end_without_start_raises.

(* (2) INCONSISTENT STN PLANS.  The statement one would like: an inconsistent STN plan is rejected. *)
Definition C26_back_inconsistent_rejected_goal : Prop :=
  forall fuel cs s, back_init fuel cs = Some s -> check_stn s = false -> back_convert s = BackError.

(* It is FALSE of the code as it is: _convert_to_time_triggered never looks at is_consistent() and reads whatever
   distances the DeltaSTN held when it detected the negative cycle.  Witness (the real code returns the same plan):
   a.start + 1 <= b.start, b.start + 1 <= a.start, b.end = b.start + 3  ->  TimeTriggeredPlan([(2, a, None), (3, b, None)])
   (b even loses its duration: constraints after the inconsistency are not recorded). *)
Theorem C26_back_inconsistent_rejected_refuted : ~ C26_back_inconsistent_rejected_goal.
Proof.
  intros G. destruct inconsistent_rejected_refuted as (cs & s & plan & H1 & H2 & H3 & _).
  rewrite (G _ _ _ H1 H2) in H3. discriminate.
Qed.
Print Assumptions C26_back_inconsistent_rejected_refuted.

(* what does hold: an inconsistent STN plan has NO schedule, so whatever plan comes out violates a constraint (for
   every time assignment that keeps the nodes between GLOBAL_START and GLOBAL_END) *)
Theorem C26_back_inconsistent_no_schedule :
  forall fuel cs s, back_init fuel cs = Some s -> check_stn s = false ->
    forall t, (forall n, node_ok t n) -> ~ (forall c, In c cs -> sat_pcon t c).
Proof. exact back_inconsistent_no_schedule. Qed.
Print Assumptions C26_back_inconsistent_no_schedule.

(* (3) BACK AFTER FORWARD.  For a time-triggered plan satisfying the hypotheses of the forward theorem
   (C26_forward_conversion: non-negative times, eps at most the gap between different event times, forward edges), the
   STN plan produced by the forward conversion is consistent, STNPlan.__init__ builds the same network in both models,
   and converting it back returns a time-triggered plan that is sorted by start, has the SAME action instances (one entry
   per position of the original plan, duration None exactly for the instantaneous steps, otherwise the original duration),
   whose times satisfy EVERY constraint the forward conversion generated (orderings, epsilon gaps, simultaneity,
   durations), with every start >= 0 and not later than in the original plan (earliest schedule). *)
Theorem C26_back_forward_roundtrip_partial :
  forall eps effs conds plan edges fuel s,
    times_nonneg plan = true ->
    gap_ok eps (plan_events eps (mock_step effs conds) plan) = true ->
    edges_forward (length (plan_events eps (mock_step effs conds) plan)) edges = true ->
    convert_to_stn fuel eps (mock_step effs conds) plan edges = Some s ->
    let cs := flatten (conv_constraints eps (mock_step effs conds) plan edges) in
    check_stn s = true /\ back_init fuel cs = Some s /\
    exists bp, back_convert s = BackPlan bp /\ sorted_by_start bp /\ same_instances plan bp /\
      (forall c, In c cs -> sat_pcon (tt_time bp (model_of s end_plan)) c) /\
      (forall st k du, In (st, k, du) bp -> 0 <= st /\ st <= orig_time plan (snode k)).
Proof. exact back_forward_roundtrip. Qed.
Print Assumptions C26_back_forward_roundtrip_partial.

(* (4) the plan converted back IS [retime s plan] of Props/C26.v (position by position: same start and duration up
   to Qeq; retime keeps effects and conditions of the step), so the open part of C26_roundtrip_goal,
   [valid (retime s plan)], is exactly the validity of back(forward(plan)) *)
Theorem C26_back_forward_is_retime :
  forall eps effs conds plan edges fuel s bp,
    times_nonneg plan = true ->
    gap_ok eps (plan_events eps (mock_step effs conds) plan) = true ->
    edges_forward (length (plan_events eps (mock_step effs conds) plan)) edges = true ->
    convert_to_stn fuel eps (mock_step effs conds) plan edges = Some s ->
    back_convert s = BackPlan bp ->
    length bp = length plan /\
    forall st k du, In (st, k, du) bp ->
      exists stp', nth_error (retime s plan) (N.to_nat k) = Some stp' /\ st == st_start stp' /\
        match du, st_dur stp' with Some d, Some d' => d == d' | None, None => True | _, _ => False end.
Proof. exact back_forward_is_retime. Qed.
Print Assumptions C26_back_forward_is_retime.

(* THE SEMANTIC COROLLARY, not proved: validity (for a notion [valid] of plan validity, e.g. the reference temporal
   semantics tt_valid of C05 for a fixed problem) of the plan converted back, given validity of the original plan.
   It is FALSE for the current code on the shapes of the open finding C26-span-condition-several-fluents
   (notes/C26.md: a condition over an interval is only read at the interval's bounds, so the earliest schedule may move
   an effect inside the interval); it is validated case by case by harness/props/c26.py (real validator + tt_valid_b). *)
Definition C26_back_forward_valid_goal (valid : list step -> Prop) (deorder : list step -> list (nat * nat)) : Prop :=
  forall eps effs conds plan fuel s,
    valid plan ->
    times_nonneg plan = true ->
    gap_ok eps (plan_events eps (mock_step effs conds) plan) = true ->
    edges_forward (length (plan_events eps (mock_step effs conds) plan)) (deorder plan) = true ->
    convert_to_stn fuel eps (mock_step effs conds) plan (deorder plan) = Some s ->
    exists bp, back_convert s = BackPlan bp /\ valid (retime s plan).

(* non-vacuity of (1): two action instances, a durative one (0: [2, 2], END at most 7 after GLOBAL_START) and an
   instantaneous one (1) at least 1/2 after the END of the first and at least 3 after GLOBAL_START, an unbounded
   constraint; the plan is [(0, 0, 2); (3, 1, None)] *)
Definition C26_back_nonvacuous_cs : list pcon :=
  [ (2%N, Some 2, Some 2, 3%N); (3%N, Some (1 # 2), None, 4%N); (0%N, Some 3, None, 4%N);
    (0%N, None, Some 7, 3%N); (2%N, None, None, 4%N) ].
Example C26_back_nonvacuous :
  exists s, back_init 100 C26_back_nonvacuous_cs = Some s /\ check_stn s = true /\
            starts_present C26_back_nonvacuous_cs = true /\ dur_nonneg_in 0 C26_back_nonvacuous_cs /\
            back_convert s = BackPlan [ (0, 0%N, Some 2); (3, 1%N, None) ].
Proof.
  eexists. split; [vm_compute; reflexivity|]. split; [reflexivity|]. split; [reflexivity|].
  split; [exists 2, (Some 2); split; [left; reflexivity | discriminate]|]. vm_compute. reflexivity.
Qed.

(* non-vacuity of (3)/(4): the plan of C26_nonvacuous (a durative step with a left-open condition and an end effect, two
   instantaneous steps, a timed effect); the plan converted back has the three steps with durations 2 / None / None *)
Definition C26_back_rt_eps : Q := 1 # 1000.
Definition C26_back_rt_effs : list timing := [ {| tg_anchor := FromStart; tg_delay := 1 |} ].
Definition C26_back_rt_plan : list step :=
  [ {| st_start := 0; st_dur := Some 2;
       st_effs := [ {| tg_anchor := FromEnd; tg_delay := 0 |} ];
       st_conds := [ {| iv_lo := {| tg_anchor := FromStart; tg_delay := 0 |};
                        iv_hi := {| tg_anchor := FromEnd; tg_delay := 0 |}; iv_lopen := true; iv_ropen := false |} ]; st_dyn := false |};
    {| st_start := 2; st_dur := None; st_effs := []; st_conds := []; st_dyn := false |};
    {| st_start := 3; st_dur := None; st_effs := []; st_conds := []; st_dyn := false |} ].
Definition C26_back_rt_edges : list (nat * nat) := [(0, 1); (1, 2); (2, 3); (3, 4)]%nat.
Example C26_back_forward_nonvacuous :
  times_nonneg C26_back_rt_plan = true /\
  gap_ok C26_back_rt_eps (plan_events C26_back_rt_eps (mock_step C26_back_rt_effs []) C26_back_rt_plan) = true /\
  edges_forward (length (plan_events C26_back_rt_eps (mock_step C26_back_rt_effs []) C26_back_rt_plan)) C26_back_rt_edges = true /\
  exists s bp, convert_to_stn 100 C26_back_rt_eps (mock_step C26_back_rt_effs []) C26_back_rt_plan C26_back_rt_edges = Some s /\
               back_convert s = BackPlan bp /\ map step_of bp = [0%N; 1%N; 2%N] /\
               map (fun x => match snd x with Some _ => true | None => false end) bp = [true; false; false].
Proof.
  split; [reflexivity|]. split; [vm_compute; reflexivity|]. split; [vm_compute; reflexivity|].
  eexists. eexists. split; [vm_compute; reflexivity|]. split; [vm_compute; reflexivity|]. split; vm_compute; reflexivity.
Qed.

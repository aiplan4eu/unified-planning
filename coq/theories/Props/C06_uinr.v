(* C06 (compiler soundness), Layer A, part file: UndefinedInitialNumericRemover.
   Model: Compilers/LayerA_Uinr.v ([uinr_compile] mirrors UndefinedInitialNumericRemover._compile: _compile_actions for
   InstantaneousAction, _compile_goals, the companion fluent declarations); proofs: Proofs/LayerA_Uinr_proofs.v.
   The compiled problem keeps action names and parameters (replace_action with the name-preserving dictionary): the
   map-back of a plan is the plan itself.  The two problems run on DIFFERENT states: the original state leaves some
   numeric fluents without value (None), the compiled state is total and carries the companions;
   [uinr_rel umap s s'] = on untracked fluents s' = s; for a tracked fluent f with companion d: if s f args has a value,
   s' has the same and s' d args = true, otherwise s' d args = false (s' f args is then the injected default and is
   never looked at).  [uinr_init] builds such a state ([C06_LA_uinr_init_related]).

   Hypotheses (all decidable, [uinr_ok umap P] is their conjunction):
     umap_ok     the companions are fresh, pairwise different names, a tracked fluent is not a companion, tracked fluents
                 are declared without bounds (a bounded fluent without value violates its bound constraint in the model
                 of the documented semantics; the injected default need not)
     action_ok   no companion is mentioned; no tracked fluent is read inside a quantifier; effect target arguments do
                 not read tracked fluents; the value of a conditional effect reads no tracked fluent and a conditional
                 effect on a tracked fluent is an assignment; an effect with forall variables (outside the compiler's
                 supported kind) touches no tracked fluent
                 -> without it: C07_LA_uinr_conditional_read_refuted, C07_LA_uinr_conditional_increase_refuted
                 (a conditional assignment to a tracked fluent is sound since /repo c019d78:
                 C06_LA_uinr_conditional_assignment)
     goals uq    as for preconditions;   state invariants mention no tracked fluent (the compiler does not touch
                 trajectory constraints; they are outside its supported kind anyway).
   No Simplifier hypothesis: the compiler calls none. *)
From Coq Require Import List ZArith NArith QArith Qcanon Bool.
Import ListNotations.
Require Import UPV.Core.Expr UPV.Core.Eval UPV.Core.Interp UPV.Planning.Problem UPV.Planning.Sem.
Require Import UPV.Compilers.LayerA_Defs UPV.Compilers.LayerA_Quant UPV.Compilers.LayerA_Uinr.
Require Import UPV.Proofs.LayerA_Uinr_proofs.

(* expression level: with all guards of e true the compiled value IS the original value; with one guard false the
   original is undefined.  Holds wherever the read sits (under negation, inside arithmetic, in fluent arguments, in
   disjunctions) except under quantifiers, because evaluation is strict. *)
Theorem C06_LA_uinr_eval_guarded :
  forall (umap : list (N * N)) (e : expr) (I I' : interp), urel_interp umap I I' -> uq umap e = true ->
    (guards_hold umap I' (reads umap e) = true -> eval false e I' = eval false e I) /\
    (guards_hold umap I' (reads umap e) = false -> eval false e I = None).
Proof. exact eval_guarded. Qed.
Print Assumptions C06_LA_uinr_eval_guarded.

(* condition level: `e and guards(e)` in the compiled state holds exactly when `e` holds in the original state *)
Theorem C06_LA_uinr_condition :
  forall (umap : list (N * N)) (e : expr) (I I' : interp), urel_interp umap I I' -> uq umap e = true ->
    holds false I' e && guards_hold umap I' (reads umap e) = holds false I e.
Proof. exact guarded_cond. Qed.
Print Assumptions C06_LA_uinr_condition.

(* step level: the compiled action is executable exactly when the original is, and the successors are related again *)
Theorem C06_LA_uinr_step :
  forall (umap : list (N * N)) (P : problem), umap_ok umap P = true ->
  forall (s s' : state) (a : action) (args : list value),
    uinr_rel umap s s' -> action_ok umap a = true -> forallb (upure umap) (p_invs P) = true ->
    orel umap (spec_step false P s a args) (spec_step false (uinr_compile umap P) s' (u_action umap a) args).
Proof. exact uinr_step. Qed.
Print Assumptions C06_LA_uinr_step.

(* plan level: the same verdict for EVERY plan *)
Theorem C06_LA_uinr_valid_plan :
  forall (umap : list (N * N)) (P : problem), uinr_ok umap P = true ->
  forall (s s' : state) (pi : list (N * list value)), uinr_rel umap s s' ->
    valid_plan false (uinr_compile umap P) s' pi = valid_plan false P s pi.
Proof. exact uinr_valid_plan. Qed.
Print Assumptions C06_LA_uinr_valid_plan.

Theorem C06_LA_uinr_sound :
  forall (umap : list (N * N)) (P : problem), uinr_ok umap P = true ->
  forall (s s' : state) (pi : list (N * list value)), uinr_rel umap s s' ->
    valid_plan false (uinr_compile umap P) s' pi = true -> valid_plan false P s pi = true.
Proof. exact uinr_sound. Qed.
Print Assumptions C06_LA_uinr_sound.

(* the initial state the compiler builds (defaults + companions) is related to the original initial state *)
Theorem C06_LA_uinr_init_related :
  forall (umap : list (N * N)) (dflt : N -> Qc) (P : problem) (s : state),
    umap_ok umap P = true -> uinr_rel umap s (uinr_init umap dflt s).
Proof. exact uinr_init_rel. Qed.
Print Assumptions C06_LA_uinr_init_related.

(* `a: if c then x := 5`, `b: pre x = 5, g := true`, x without value.  The tracker effect of the compiled a carries the
   condition c (/repo fix c019d78; without it the compiled a sets is_value_defined_x although the assignment does not
   fire, and [a; b] is valid compiled, invalid originally - seen on the real code).  [action_ok] asks of a conditional
   effect on a tracked fluent only that its value reads no tracked fluent and that it is an assignment, so this problem
   is an instance of C06_LA_uinr_valid_plan: *)
Example C06_LA_uinr_conditional_assignment :
  uinr_ok UinrW.um UinrW.P1 = true /\
  uinr_rel UinrW.um UinrW.s0 (uinr_init UinrW.um UinrW.dflt UinrW.s0) /\
  valid_plan false (uinr_compile UinrW.um UinrW.P1) (uinr_init UinrW.um UinrW.dflt UinrW.s0) UinrW.plan1 = false /\
  valid_plan false UinrW.P1 UinrW.s0 UinrW.plan1 = false /\
  valid_plan false (uinr_compile UinrW.um UinrW.P1) (uinr_init UinrW.um UinrW.dflt UinrW.s0c) UinrW.plan1 = true /\
  valid_plan false UinrW.P1 UinrW.s0c UinrW.plan1 = true.
Proof.
  split; [vm_compute; reflexivity|].
  split; [apply (uinr_init_rel UinrW.um UinrW.dflt UinrW.P1); vm_compute; reflexivity|].
  repeat split; vm_compute; reflexivity.
Qed.
Print Assumptions C06_LA_uinr_conditional_assignment.

Example C06_LA_uinr_nonvacuous :
  uinr_ok UinrW.um UinrW.P3 = true /\
  uinr_rel UinrW.um UinrW.s0 (uinr_init UinrW.um UinrW.dflt UinrW.s0) /\
  valid_plan false UinrW.P3 UinrW.s0 UinrW.plan3 = true /\
  valid_plan false (uinr_compile UinrW.um UinrW.P3) (uinr_init UinrW.um UinrW.dflt UinrW.s0) UinrW.plan3 = true /\
  valid_plan false UinrW.P3 UinrW.s0 UinrW.plan3bad = false /\
  valid_plan false (uinr_compile UinrW.um UinrW.P3) (uinr_init UinrW.um UinrW.dflt UinrW.s0) UinrW.plan3bad = false.
Proof. exact uinr_nonvacuous. Qed.
Print Assumptions C06_LA_uinr_nonvacuous.

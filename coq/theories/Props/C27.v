(* C27 — Deordering a valid sequential plan keeps every linearisation valid.
   [deorder] (Planning/Deorder.v) models SequentialPlan._to_partial_order_plan: read / write sets of every action
   instance (after quantifier and forall-effect expansion, under the instance's parameter binding), the
   last_modifier / all_required loop, None for the UPUsageError on nested fluents.  networkx's transitive reduction is
   "any edge list G' in which every edge of the loop's graph is a path".  [topological G pl pl'] is what
   PartialOrderPlan.all_sequential_plans enumerates.  Validity is the documented sequential semantics
   [spec_step false] of C01 (strict evaluation); the general theorem holds for both evaluator modes.
   Hypotheses (DESIGN.md 6.00): instances are pairwise distinct; every state invariant / bounded-type constraint reads
   at most one ground fluent ([inv_local], decidable; true in particular without invariants and bounded types) and
   holds initially.  With an invariant over two fluents the statement is false for the algorithm as written
   (C27_hypothesis_needed_multi_fluent_invariant). *)
From Coq Require Import List ZArith NArith QArith Qcanon Bool Relations Permutation.
Import ListNotations.
Require Import UPV.Core.Expr UPV.Core.Eval UPV.Core.Interp UPV.Planning.Problem UPV.Planning.Sem UPV.Planning.Deorder.
Require Import UPV.Proofs.Step_proofs UPV.Proofs.Deorder_proofs.

(* every topological ordering of the deordered plan is a valid plan that reaches the same final state *)
Theorem deorder_all_linearizations :
  forall P s0 pl G,
    valid_plan false P s0 pl = true -> NoDup pl ->
    inv_local false P = true -> invariants_ok false P s0 = true ->
    deorder false P pl = Some G ->
    forall pl', topological G pl pl' ->
      valid_plan false P s0 pl' = true /\
      exists fin fin', run P (spec_step false P) s0 pl = Some fin /\ run P (spec_step false P) s0 pl' = Some fin' /\
                       state_eq fin' fin.
Proof.
  intros P s0 pl G HV ND HL HI HD pl' HT.
  apply (deorder_all_linearizations_gen false P s0 pl G HV ND HL HI HD G pl'); [|exact HT].
  intros x y H. apply t_step. exact H.
Qed.
Print Assumptions deorder_all_linearizations.

(* the same for the graph the implementation returns (any graph in which the loop's edges are paths, e.g. the
   transitive reduction) and for both evaluator modes *)
Theorem deorder_all_linearizations_any_reduction :
  forall sc P s0 pl G,
    valid_plan sc P s0 pl = true -> NoDup pl ->
    inv_local sc P = true -> invariants_ok sc P s0 = true ->
    deorder sc P pl = Some G ->
    forall G' pl', (forall x y, In (x, y) G -> reach G' x y) -> topological G' pl pl' ->
      valid_plan sc P s0 pl' = true /\
      exists fin fin', run P (spec_step sc P) s0 pl = Some fin /\ run P (spec_step sc P) s0 pl' = Some fin' /\
                       state_eq fin' fin.
Proof. exact deorder_all_linearizations_gen. Qed.
Print Assumptions deorder_all_linearizations_any_reduction.

(* without state invariants and bounded types no further hypothesis is needed *)
Theorem deorder_all_linearizations_no_invariants :
  forall P s0 pl G,
    valid_plan false P s0 pl = true -> NoDup pl -> no_invariants P = true ->
    deorder false P pl = Some G ->
    forall pl', topological G pl pl' ->
      valid_plan false P s0 pl' = true /\
      exists fin fin', run P (spec_step false P) s0 pl = Some fin /\ run P (spec_step false P) s0 pl' = Some fin' /\
                       state_eq fin' fin.
Proof.
  intros P s0 pl G HV ND HN HD pl' HT. destruct (no_invariants_local false P HN) as [HL HI].
  exact (deorder_all_linearizations P s0 pl G HV ND HL (HI s0) HD pl' HT).
Qed.
Print Assumptions deorder_all_linearizations_no_invariants.

(* the partial order keeps the original relative order of every two instances where one writes a ground fluent that
   the other reads or writes *)
Theorem deorder_keeps_conflicting_order :
  forall sc P pl G, NoDup pl -> deorder sc P pl = Some G ->
    forall x y, before pl x y -> conflict sc P x y = true -> reach G x y.
Proof. exact deorder_keeps_conflicting_order_proof. Qed.
Print Assumptions deorder_keeps_conflicting_order.

(* ... hence so does every linearisation of any graph with the same paths *)
Theorem linearizations_keep_conflicting_order :
  forall sc P pl G, NoDup pl -> deorder sc P pl = Some G ->
    forall G' pl', (forall x y, In (x, y) G -> reach G' x y) -> topological G' pl pl' ->
    forall x y, before pl x y -> conflict sc P x y = true -> before pl' x y.
Proof.
  intros sc P pl G ND HD G' pl' HG [HP HT] x y Hb HC.
  apply (topo_respects_reach G' pl' (Permutation_NoDup HP ND) HT).
  apply (reach_sub G G' HG). exact (deorder_keeps_conflicting_order_proof sc P pl G ND HD x y Hb HC).
Qed.
Print Assumptions linearizations_keep_conflicting_order.

(* the graph only orders forward: the sequential plan is one of its linearisations *)
Theorem deorder_original_is_linearization :
  forall sc P pl G, deorder sc P pl = Some G -> topological G pl pl.
Proof. exact deorder_original_topological. Qed.
Print Assumptions deorder_original_is_linearization.

(* core lemmas, restated: frame ... *)
Theorem C27_frame :
  forall sc s s' e I, nf e I = true ->
    (forall f vs, In (f, vs) (reads sc e I) -> s f vs = s' f vs) ->
    eval sc e (set_fl I s) = eval sc e (set_fl I s').
Proof. exact eval_frame. Qed.
Print Assumptions C27_frame.

(* ... a step modifies only its write set ... *)
Theorem C27_writes_overapproximate :
  forall sc P s a args s1, act_nf P a args = true ->
    spec_step sc P s a args = Some s1 ->
    forall f vs, ~ In (f, vs) (act_writes sc P a args) -> s1 f vs = s f vs.
Proof.
  intros sc P s a args s1 HN HS f vs Hn. destruct (spec_step_core_inv sc P s a args s1 HS) as (acts & E & -> & _).
  exact (spec_succ_outside sc P s a args acts HN E f vs Hn).
Qed.
Print Assumptions C27_writes_overapproximate.

(* ... and adjacent independent steps commute *)
Theorem C27_commute :
  forall sc P s s1 s2 a argsA b argsB,
    act_nf P a argsA = true -> act_nf P b argsB = true ->
    (forall k, In k (act_writes sc P a argsA) -> ~ In k (act_reads sc P b argsB)) ->
    (forall k, In k (act_writes sc P b argsB) -> ~ In k (act_reads sc P a argsA)) ->
    inv_local sc P = true -> invariants_ok sc P s = true ->
    spec_step sc P s a argsA = Some s1 -> spec_step sc P s1 b argsB = Some s2 ->
    exists s1' s2', spec_step sc P s b argsB = Some s1' /\ spec_step sc P s1' a argsA = Some s2' /\ state_eq s2' s2.
Proof. exact commute_steps. Qed.
Print Assumptions C27_commute.

Definition bf (i : N) : fdecl := {| fd_id := i; fd_sig := []; fd_ty := FBool |}.
Definition set_true (i : N) (pre : list expr) : action :=
  {| a_params := []; a_pre := pre;
     a_effs := [{| e_fl := i; e_args := []; e_val := EBool true; e_cond := EBool true; e_kind := KAssign;
                   e_vars := []; e_isbool := true |}] |}.
Definition set_false (i : N) : action :=
  {| a_params := []; a_pre := [];
     a_effs := [{| e_fl := i; e_args := []; e_val := EBool false; e_cond := EBool true; e_kind := KAssign;
                   e_vars := []; e_isbool := true |}] |}.

(* p := true ; q := true ; (needs p and q) r := true *)
Definition exP : problem :=
  {| p_objs := []; p_ifun := []; p_fluents := [bf 0; bf 1; bf 2];
     p_actions := [(0%N, set_true 0 []); (1%N, set_true 1 []); (2%N, set_true 2 [EFluent 0%N []; EFluent 1%N []])];
     p_goals := [EFluent 2%N []]; p_invs := [] |}.
Definition exS0 : state := fun _ _ => Some (VBool false).
Definition exPlan : list inst := [(0%N, []); (1%N, []); (2%N, [])].
Definition exPlan' : list inst := [(1%N, []); (0%N, []); (2%N, [])].
Definition exG : list (inst * inst) := [((0%N, []), (2%N, [])); ((1%N, []), (2%N, []))].

Lemma exPlan_nodup : NoDup exPlan.
Proof. repeat constructor; simpl; intuition discriminate. Qed.

Lemma exPlan'_topological : topological exG exPlan exPlan'.
Proof.
  split; [apply perm_swap|]. intros x y [H|[H|[]]]; inversion H; subst.
  - exists [(1%N, [])], [], []. reflexivity.
  - exists [], [(0%N, [])], []. reflexivity.
Qed.

Example deorder_all_linearizations_nonvacuous :
  valid_plan false exP exS0 exPlan = true /\ NoDup exPlan /\ inv_local false exP = true /\
  invariants_ok false exP exS0 = true /\ no_invariants exP = true /\ deorder false exP exPlan = Some exG /\
  topological exG exPlan exPlan' /\ exPlan' <> exPlan /\ valid_plan false exP exS0 exPlan' = true.
Proof.
  repeat split; try (vm_compute; reflexivity); try exact exPlan_nodup; try apply exPlan'_topological; try discriminate.
Qed.

Example deorder_keeps_conflicting_order_nonvacuous :
  NoDup exPlan /\ deorder false exP exPlan = Some exG /\ before exPlan (0%N, []) (2%N, []) /\
  conflict false exP (0%N, []) (2%N, []) = true /\ reach exG (0%N, []) (2%N, []).
Proof.
  repeat split; try (vm_compute; reflexivity); try exact exPlan_nodup.
  - exists [], [(1%N, [])], []. reflexivity.
  - apply t_step. left. reflexivity.
Qed.

(* With a state invariant over two ground fluents the algorithm (which looks at conditions and effects only) leaves
   two instances unordered although only one order respects the invariant: invariant a \/ b, initially a, not b;
   plan  b := true ; a := false.  This is why [inv_local] is a hypothesis. *)
Definition cxP : problem :=
  {| p_objs := []; p_ifun := []; p_fluents := [bf 0; bf 1];
     p_actions := [(0%N, set_true 1 []); (1%N, set_false 0)];
     p_goals := [EFluent 1%N []]; p_invs := [EOr [EFluent 0%N []; EFluent 1%N []]] |}.
Definition cxS0 : state := fun f _ => Some (VBool (f =? 0)%N).

Theorem C27_hypothesis_needed_multi_fluent_invariant :
  exists P s0 pl G pl',
    valid_plan false P s0 pl = true /\ NoDup pl /\ invariants_ok false P s0 = true /\ inv_local false P = false /\
    deorder false P pl = Some G /\ topological G pl pl' /\ valid_plan false P s0 pl' = false.
Proof.
  exists cxP, cxS0, [(0%N, []); (1%N, [])], [], [(1%N, []); (0%N, [])].
  repeat split; try (vm_compute; reflexivity).
  - repeat constructor; simpl; intuition discriminate.
  - apply perm_swap.
  - intros x y [].
Qed.
Print Assumptions C27_hypothesis_needed_multi_fluent_invariant.

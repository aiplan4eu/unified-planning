(* C06 / C07, Layer A — DisjunctiveConditionsRemover when the DNF of the goals has SEVERAL disjuncts (the case
   Compilers/LayerA_Variants.v / C06_LA_dcr_sound / C07_LA_dcr_complete exclude).  DEFINITIONS ONLY
   (proofs: Proofs/LayerA_DcrGoal_proofs.v for one step, Proofs/LayerA_DcrGoalPlan_proofs.v for plans).

   Mirrors unified_planning/engines/compilers/disjunctive_conditions_remover.py
     DisjunctiveConditionsRemover._compile
        * every action is replaced by its DNF variants ([LayerA_Variants.dcr_table]); they are the "meaningful actions";
        * _goals_without_disjunctions_adding_new_elements: new_goal = dnf(And(goals)) is an Or, so a fresh Boolean fluent
          `dcrm_fake_goal` ([fk]) is declared with default initial value False (appended to the fluents), and for every
          disjunct one goal action is built by _create_new_action_with_given_precond from the template
          `fake_action` (no parameters, one effect fk := True): preconditions = the conjunct leaves of the simplified
          disjunct, left out when the disjunct simplifies to FALSE ([gds] = the precondition lists of the goal actions
          that were created; external: Dnf walker + Simplifier, as [pre_dnf] for the actions); new_to_old[na] = None;
          the goal of the compiled problem is the fluent expression fk;
        * afterwards every meaningful action gets the effect Effect(fk, FALSE, TRUE) appended ([add_reset];
          _add_effect_instance does not check Boolean fluents for conflicts);
        * map back = replace_action with new_to_old: a variant step becomes the original action with the same
          parameters, a goal-action step is dropped ([dcrg_back]).
   External behaviour (Section variables): [cdnf], [pre_dnf] (as in LayerA_Variants.v), [gds], the fresh names [nm]
   (variants), [gnm] (goal actions), [fk] (get_fresh_name for the fluent). *)
From Coq Require Import List ZArith NArith QArith Qcanon Bool.
Import ListNotations.
Require Import UPV.Core.Expr UPV.Core.Eval UPV.Core.Interp UPV.Planning.Problem UPV.Planning.Sem.
Require Import UPV.Compilers.Variants UPV.Compilers.LayerA_Defs UPV.Compilers.LayerA_Quant UPV.Compilers.LayerA_Variants.
Require Import UPV.Planning.Ground UPV.Compilers.LayerA_Ground UPV.Compilers.LayerA_Neg UPV.Compilers.LayerA_Uinr UPV.Compilers.LayerA_Utfr.
Require Import UPV.Compilers.LayerA_Pipe.
Local Open Scope nat_scope.

(* Effect(FluentExp(fk), b, TRUE): [Variants.reset_effect fk] = bool_effect fk false (added to every meaningful action),
   [Variants.fake_effect fk] = bool_effect fk true (the effect of the goal actions) *)
Definition bool_effect (fk : N) (b : bool) : effect :=
  {| e_fl := fk; e_args := []; e_val := EBool b; e_cond := EBool true; e_kind := KAssign; e_vars := [];
     e_isbool := true |}.

(* a._add_effect_instance(e): appended after the action's own effects *)
Definition add_eff (a : action) (e : effect) : action :=
  {| a_params := a_params a; a_pre := a_pre a; a_effs := a_effs a ++ [e] |}.

(* the expression does not mention the fluent fk *)
Fixpoint cleanf (fk : N) (e : expr) : bool :=
  match e with
  | EBool _ | EInt _ | EReal _ | EObj _ | EParam _ | EVar _ _ => true
  | EFluent f l => negb (f =? fk)%N && forallb (cleanf fk) l
  | EIFun _ l | EAnd l | EOr l | EPlus l | ETimes l => forallb (cleanf fk) l
  | ENot a | EAlways a | ESometime a | EAtMostOnce a | EExists _ a | EForall _ a => cleanf fk a
  | EImplies a b | EIff a b | EMinus a b | EDiv a b | ELe a b | ELt a b | EEquals a b
  | ESometimeBefore a b | ESometimeAfter a b => cleanf fk a && cleanf fk b
  end.

(* the effect neither reads nor writes fk *)
Definition effect_cleanf (fk : N) (e : effect) : bool :=
  negb (e_fl e =? fk)%N && forallb (cleanf fk) (e_args e) && cleanf fk (e_val e) && cleanf fk (e_cond e).

Definition action_cleanf (fk : N) (a : action) : bool :=
  forallb (cleanf fk) (a_pre a) && forallb (effect_cleanf fk) (a_effs a).

Section DCRG.
  Variable cdnf : expr -> list expr.
  Variable pre_dnf : action -> list (list expr).
  Variable nm : N -> nat -> N.          (* name of the k-th variant of the action named i *)
  Variable fk : N.                      (* the fake goal fluent *)
  Variable gnm : nat -> N.              (* name of the k-th goal action *)
  Variable gds : list (list expr).      (* preconditions of the goal actions, one list per kept disjunct of the goals *)

  Definition add_reset (a : action) : action := add_eff a (bool_effect fk false).

  (* the goal action of one disjunct: fake_action with the disjunct as precondition *)
  Definition goal_action (d : list expr) : action :=
    add_eff {| a_params := []; a_pre := d; a_effs := [] |} (bool_effect fk true).

  Definition goal_actions : list (N * action) :=
    map (fun kd => (gnm (fst kd), goal_action (snd kd))) (number_from 0 gds).

  Definition fk_decl : fdecl := {| fd_id := fk; fd_sig := []; fd_ty := FBool |}.

  Definition dcrg_actions (P : problem) : list (N * action) :=
    map (fun x => (fst (fst x), add_reset (snd x))) (dcr_table cdnf pre_dnf nm P) ++ goal_actions.

  Definition dcrg_compile (P : problem) : problem :=
    {| p_objs := p_objs P; p_ifun := p_ifun P; p_fluents := p_fluents P ++ [fk_decl];
       p_actions := dcrg_actions P; p_goals := [EFluent fk []]; p_invs := p_invs P |}.

  Definition is_goal_id (id : N) : bool := existsb (fun ia => (fst ia =? id)%N) goal_actions.

  (* replace_action(action_instance, new_to_old) *)
  Definition dcrg_back (P : problem) (x : pstep) : option pstep :=
    if is_goal_id (fst x) then None else Some (vt_back (dcr_table cdnf pre_dnf nm P) (fst x), snd x).

  (* freshness of the fake fluent (get_fresh_name), as far as the proofs need it: no variant reads or writes it, no
     state invariant / bounded-type constraint / goal disjunct mentions it.  Decidable. *)
  Definition dcrg_fresh (P : problem) : bool :=
    forallb (fun x => action_cleanf fk (snd x)) (dcr_table cdnf pre_dnf nm P) &&
    forallb (cleanf fk) (p_invs P ++ bound_invs P) &&
    forallb (forallb (cleanf fk)) gds.
End DCRG.

(* the two states agree on every fluent but fk *)
Definition agree_off (fk : N) (s s' : state) : Prop := forall f x, f <> fk -> s' f x = s f x.

(* the compiled initial state: the original one with fk = False (add_fluent(..., default_initial_value=False)) *)
Definition with_fk (fk : N) (s : state) : state :=
  fun f x => if (f =? fk)%N then Some (VBool false) else s f x.

(* ================================================================== fourth round: further stages and pipelines
   (kept in this file because the fake-goal stage needs the definitions above) *)
Definition gn_stages (smp : expr -> expr) (tuples : N -> list (list value)) (gnm : N -> nat -> N) (G1 : state -> Prop)
  (nmap : list (N * N)) (rw smp2 : expr -> expr) (P : problem) : list stage :=
  [ground_stage smp tuples gnm G1 P; ncr_stage nmap rw smp2 (ground_compile smp tuples gnm P)].

(* DisjunctiveConditionsRemover with a disjunctive goal as a stage: ONE auxiliary step (the goal action).  The relation:
   the states agree off fk, the source state lies in G and satisfies the invariants (the goal action may be applied in
   the initial state itself), and fk is true only where the original goals hold (initially: fk = false) *)
Definition dcrg_rel (fk : N) (G : state -> Prop) (P : problem) (s s' : state) : Prop :=
  agree_off fk s s' /\ G s /\ invariants_ok false P s = true /\
  (s' fk [] = Some (VBool true) -> goals_hold false P s = true).

Definition dcrg_stage (cdnf : expr -> list expr) (pre_dnf : action -> list (list expr)) (nm : N -> nat -> N) (fk : N)
  (gnm : nat -> N) (gds : list (list expr)) (G : state -> Prop) (P : problem) : stage :=
  {| st_src := P; st_dst := dcrg_compile cdnf pre_dnf nm fk gnm gds P;
     st_back := dcrg_back cdnf pre_dnf nm fk gnm gds P; st_aux := 1;
     st_rel := dcrg_rel fk G P; st_okS := fun _ => True; st_okD := fun _ => True |}.

(* no effect of the original problem targets fk (decidable; part of "fk is fresh") *)
Definition orig_no_fk (fk : N) (P : problem) : bool :=
  forallb (fun ia => forallb (fun e => negb (e_fl e =? fk)%N) (a_effs (snd ia))) (p_actions P).

(* UndefinedInitialNumericRemover: names and parameters kept; the compiled state holds the companions
   is_value_defined_f and a default where the original fluent has no value ([uinr_rel]) *)
Definition uinr_stage (umap : list (N * N)) (P : problem) : stage :=
  {| st_src := P; st_dst := uinr_compile umap P; st_back := fun x => Some x; st_aux := 0;
     st_rel := uinr_rel umap; st_okS := fun _ => True; st_okD := fun _ => True |}.

(* no effect of the original problem targets a companion fluent (they are fresh names; decidable) *)
Definition orig_no_comp (umap : list (N * N)) (P : problem) : bool :=
  forallb (fun ia => forallb (fun e => negb (is_ucomp umap (e_fl e))) (a_effs (snd ia))) (p_actions P).

(* UsertypeFluentsRemover: names and parameters kept; the compiled state encodes o(x) = c as o(x, u) = (u == c)
   ([utfr_rel]); G = the set of states of the hypotheses effects_defined / one_value / closed *)
Definition utfr_stage (tr smp : expr -> expr) (G : state -> Prop) (Q : pstep -> Prop) (P : problem) : stage :=
  {| st_src := P; st_dst := utfr_compile tr smp P; st_back := fun x => Some x; st_aux := 0;
     st_rel := fun s s' => utfr_rel P s s' /\ G s; st_okS := Q; st_okD := Q |}.
(* Q: any condition on the steps of the (common) plan that a LATER stage of a pipeline asks for; the plan is its own
   counterpart, so the stage hands it on unchanged *)


(* CompilersPipeline([UsertypeFluentsRemover(), QuantifiersRemover(), DisjunctiveConditionsRemover()]) with a disjunctive
   goal — compcheck "pipeline:usertype+quantifiers+disjunctive" *)
Definition uqd_stages (tr smp1 : expr -> expr) (G0 : state -> Prop) (smp : expr -> expr)
  (cdnf : expr -> list expr) (pre_dnf : action -> list (list expr)) (nm : N -> nat -> N) (fk : N) (gnm : nat -> N)
  (gds : list (list expr)) (G2 : state -> Prop) (P : problem) : list stage :=
  [utfr_stage tr smp1 G0 (step_targets_total (utfr_compile tr smp1 P)) P;
   quant_stage smp (utfr_compile tr smp1 P);
   dcrg_stage cdnf pre_dnf nm fk gnm gds G2 (quant_compile smp (utfr_compile tr smp1 P))].
Definition uqd_dst (tr smp1 smp : expr -> expr) (cdnf : expr -> list expr) (pre_dnf : action -> list (list expr))
  (nm : N -> nat -> N) (fk : N) (gnm : nat -> N) (gds : list (list expr)) (P : problem) : problem :=
  dcrg_compile cdnf pre_dnf nm fk gnm gds (quant_compile smp (utfr_compile tr smp1 P)).

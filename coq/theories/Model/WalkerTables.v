(* EXPECTATION of the hand-written walker models (Walkers/{Simplify,NnfDnf,Subst,TypeInfer,Linear}.v over Core/Expr.v)
   about the DISPATCH STRUCTURE of the Python walkers: which OperatorKind members exist, which of them Core/Expr.v has a
   constructor for, and which handler (defining class "." method) every walker applies to every operator.

   This file is hand-written and does not depend on the code.  coq/theories/Gen/Gen_Walkers.v is regenerated from the
   current source by tools/gen_walkers.py on every run; Props/C11_dispatch.v, C12_dispatch.v, C13_dispatch.v,
   C15_dispatch.v and C17_dispatch.v state that the regenerated tables EQUAL the literals below.  A re-mapped handler, a
   dropped handler (so that an inherited one applies), a changed @handles list or a NEW OperatorKind member therefore breaks
   a checked equality instead of going unnoticed by the differential correspondence (whose generators only produce the
   operators they know about).

   Each entry is commented with the Gallina definition (function: match branch) that models the handler.
   To update after a deliberate change of the code: run  tools/gen_walkers.py --json , compare, change the MODEL first
   (the branch named in the comment), then the literal here. *)
From Coq Require Import List String Bool Permutation ZArith NArith.
Import ListNotations.
Require Import UPV.Core.Expr UPV.Core.Eval.
Local Open Scope string_scope.

Definition table := list (string * string).

Fixpoint lookup {A : Type} (k : string) (l : list (string * A)) : option A :=
  match l with
  | [] => None
  | (k', v) :: r => if String.eqb k k' then Some v else lookup k r
  end.

Definition mem (x : string) (l : list string) : bool := existsb (String.eqb x) l.

(* ------------------------------------------------------------------------------------------------------------------
   (a) the constructors of Core/Expr.v and the OperatorKind member each one stands for *)

(* total by Coq's exhaustiveness check: a constructor added to [expr] without a line here does not compile *)
Definition op_of (e : expr) : string :=
  match e with
  | EBool _ => "BOOL_CONSTANT"
  | EInt _ => "INT_CONSTANT"
  | EReal _ => "REAL_CONSTANT"
  | EObj _ => "OBJECT_EXP"
  | EParam _ => "PARAM_EXP"
  | EVar _ _ => "VARIABLE_EXP"
  | EFluent _ _ => "FLUENT_EXP"
  | EIFun _ _ => "INTERPRETED_FUNCTION_EXP"
  | EAnd _ => "AND"
  | EOr _ => "OR"
  | ENot _ => "NOT"
  | EImplies _ _ => "IMPLIES"
  | EIff _ _ => "IFF"
  | EExists _ _ => "EXISTS"
  | EForall _ _ => "FORALL"
  | EPlus _ => "PLUS"
  | EMinus _ _ => "MINUS"
  | ETimes _ => "TIMES"
  | EDiv _ _ => "DIV"
  | ELe _ _ => "LE"
  | ELt _ _ => "LT"
  | EEquals _ _ => "EQUALS"
  | EAlways _ => "ALWAYS"
  | ESometime _ => "SOMETIME"
  | ESometimeBefore _ _ => "SOMETIME_BEFORE"
  | ESometimeAfter _ _ => "SOMETIME_AFTER"
  | EAtMostOnce _ => "AT_MOST_ONCE"
  end.

Definition tt_ : expr := EBool true.
(* one witness per constructor, in the order of the Inductive *)
Definition expr_witnesses : list (string * expr) :=
  [ ("EBool", EBool true)
  ; ("EInt", EInt 0%Z)
  ; ("EReal", EReal (zq 0%Z))
  ; ("EObj", EObj 0%N)
  ; ("EParam", EParam 0%N)
  ; ("EVar", EVar 0%N 0%N)
  ; ("EFluent", EFluent 0%N [])
  ; ("EIFun", EIFun 0%N [])
  ; ("EAnd", EAnd [])
  ; ("EOr", EOr [])
  ; ("ENot", ENot tt_)
  ; ("EImplies", EImplies tt_ tt_)
  ; ("EIff", EIff tt_ tt_)
  ; ("EExists", EExists [] tt_)
  ; ("EForall", EForall [] tt_)
  ; ("EPlus", EPlus [])
  ; ("EMinus", EMinus tt_ tt_)
  ; ("ETimes", ETimes [])
  ; ("EDiv", EDiv tt_ tt_)
  ; ("ELe", ELe tt_ tt_)
  ; ("ELt", ELt tt_ tt_)
  ; ("EEquals", EEquals tt_ tt_)
  ; ("EAlways", EAlways tt_)
  ; ("ESometime", ESometime tt_)
  ; ("ESometimeBefore", ESometimeBefore tt_ tt_)
  ; ("ESometimeAfter", ESometimeAfter tt_ tt_)
  ; ("EAtMostOnce", EAtMostOnce tt_) ].

(* constructor name -> OperatorKind member name *)
Definition expr_operator_names : list (string * string) :=
  map (fun p => (fst p, op_of (snd p))) expr_witnesses.

Definition modelled_operators : list string := map snd expr_operator_names.

(* OperatorKind members WITHOUT a constructor in Core/Expr.v: no model says anything about expressions containing them
   (timing / presence expressions of temporal and scheduling problems, agent-qualified fluents of multi-agent problems) *)
Definition unmodelled_operators : list string := ["TIMING_EXP"; "PRESENT_EXP"; "DOT"].

Lemma mem_In : forall x l, mem x l = true <-> In x l.
Proof.
  intros x l. unfold mem. rewrite existsb_exists. split.
  - intros [y [Hy He]]. apply String.eqb_eq in He. subst. exact Hy.
  - intros H. exists x. split; [exact H | apply String.eqb_refl].
Qed.

(* every expression of the IR is tagged with a modelled operator *)
Lemma op_of_modelled : forall e : expr, In (op_of e) modelled_operators.
Proof. intro e. apply mem_In. destruct e; reflexivity. Qed.

(* and every modelled operator is the tag of some expression *)
Lemma modelled_has_witness : forall o, In o modelled_operators -> exists e : expr, op_of e = o.
Proof.
  intros o H. unfold modelled_operators, expr_operator_names in H.
  rewrite map_map in H. apply in_map_iff in H. destruct H as [p [Hp _]]. exists (snd p). exact Hp.
Qed.

Fixpoint nodupb (l : list string) : bool :=
  match l with
  | [] => true
  | x :: r => negb (mem x r) && nodupb r
  end.

Definition same_members (a b : list string) : bool :=
  forallb (fun x => mem x b) a && forallb (fun x => mem x a) b.

(* [covers kinds]: the given member list is duplicate free and is exactly modelled ++ unmodelled as a set *)
Definition covers (kinds : list string) : bool :=
  nodupb kinds && nodupb (modelled_operators ++ unmodelled_operators)
  && same_members kinds (modelled_operators ++ unmodelled_operators).

Lemma nodupb_NoDup : forall l, nodupb l = true -> NoDup l.
Proof.
  induction l as [|x r IH]; simpl; intros H.
  - constructor.
  - apply andb_true_iff in H. destruct H as [H1 H2]. constructor.
    + intro Hin. apply mem_In in Hin. rewrite Hin in H1. discriminate.
    + apply IH. exact H2.
Qed.

(* the Boolean test decides: the OperatorKind members are a permutation of modelled ++ unmodelled *)
Lemma covers_sound : forall kinds, covers kinds = true ->
  Permutation kinds (modelled_operators ++ unmodelled_operators).
Proof.
  intros kinds H. unfold covers in H.
  apply andb_true_iff in H. destruct H as [H H3]. apply andb_true_iff in H. destruct H as [H1 H2].
  unfold same_members in H3. apply andb_true_iff in H3. destruct H3 as [Ha Hb].
  rewrite forallb_forall in Ha, Hb.
  apply NoDup_Permutation.
  - apply nodupb_NoDup. exact H1.
  - apply nodupb_NoDup. exact H2.
  - intro x. split; intro Hx.
    + apply mem_In. apply Ha. exact Hx.
    + apply mem_In. apply Hb. exact Hx.
Qed.

(* [handled disp w e]: the table of walker [w] sends the operator of [e] to a handler other than Walker.walk_error *)
Definition handled (disp : list (string * table)) (w : string) (e : expr) : bool :=
  match lookup w disp with
  | None => false
  | Some t => match lookup (op_of e) t with
              | None => false
              | Some h => negb (String.eqb h "Walker.walk_error")
              end
  end.

(* [handled] looks only at the operator of [e]: a table that sends every modelled operator to a proper handler handles
   every expression *)
Lemma handled_by (disp : list (string * table)) w (t : table) :
  lookup w disp = Some t ->
  forallb (fun o => match lookup o t with Some h => negb (String.eqb h "Walker.walk_error") | None => false end)
          modelled_operators = true ->
  forall e, handled disp w e = true.
Proof.
  intros Hw Ht e. unfold handled. rewrite Hw. rewrite forallb_forall in Ht. exact (Ht _ (op_of_modelled e)).
Qed.

Lemma covered_op kinds e : covers kinds = true -> In (op_of e) kinds.
Proof.
  intros H. apply (Permutation_in _ (Permutation_sym (covers_sound _ H))). apply in_or_app. left. apply op_of_modelled.
Qed.

(* the shape summaries (sorted manager constructors / self helpers / <Class>.super calls) of the listed handlers *)
Definition shapes_for (hs : list string) (shapes : list (string * list string)) : list (string * option (list string)) :=
  map (fun h => (h, lookup h shapes)) hs.
Definition expect_shapes (exp : list (string * list string)) : list (string * option (list string)) :=
  map (fun p => (fst p, Some (snd p))) exp.

(* the OperatorKind members in declaration order, as the models were written against *)
Definition expected_operator_kinds : list string :=
  [ "AND"; "OR"; "NOT"; "IMPLIES"; "IFF"; "EXISTS"; "FORALL"; "FLUENT_EXP"; "INTERPRETED_FUNCTION_EXP"; "PARAM_EXP"; "VARIABLE_EXP"; "OBJECT_EXP"; "TIMING_EXP"; "PRESENT_EXP"; "BOOL_CONSTANT"; "INT_CONSTANT"; "REAL_CONSTANT"; "PLUS"; "MINUS"; "TIMES"; "DIV"; "LE"; "LT"; "EQUALS"; "ALWAYS"; "SOMETIME"; "SOMETIME_BEFORE"; "SOMETIME_AFTER"; "AT_MOST_ONCE"; "DOT" ].

(* ------------------------------------------------------------------------------------------------------------------
   (b) expected dispatch tables.  Left: content of Walker.functions (operator -> defining class "." method) as computed
   by MetaNodeTypeHandler + Walker.__init__; right: the Gallina branch that models the handler. *)

(* Simplifier -- modelled by Walkers/Simplify.v (Fixpoint simp, inner fix go)  [C11] *)
Definition expected_simplifier : table :=
  [ ("AND", "Simplifier.walk_and")                                        (* simp: EAnd l => walk_junct true (map go l) *)
  ; ("OR", "Simplifier.walk_or")                                          (* simp: EOr l => walk_junct false (map go l) *)
  ; ("NOT", "Simplifier.walk_not")                                        (* simp: ENot a => walk_not (go a) *)
  ; ("IMPLIES", "Simplifier.walk_implies")                                (* simp: EImplies a b => walk_implies (go a) (go b) *)
  ; ("IFF", "Simplifier.walk_iff")                                        (* simp: EIff a b => walk_iff (go a) (go b) *)
  ; ("EXISTS", "Simplifier.walk_exists")                                  (* simp: EExists vs a => walk_exists G resimp vs (go a) *)
  ; ("FORALL", "Simplifier.walk_forall")                                  (* simp: EForall vs a => walk_forall G vs (go a) *)
  ; ("FLUENT_EXP", "Simplifier.walk_fluent_exp")                          (* simp: EFluent f l => walk_fluent G f (map go l) *)
  ; ("INTERPRETED_FUNCTION_EXP", "Simplifier.walk_interpreted_function_exp") (* simp: EIFun f l => walk_ifun G f (map go l) *)
  ; ("PARAM_EXP", "Simplifier.walk_identity")                             (* simp: EBool _ | EInt _ | EReal _ | EObj _ | EParam _ | EVar _ _ => e *)
  ; ("VARIABLE_EXP", "Simplifier.walk_identity")                          (* simp: EBool _ | EInt _ | EReal _ | EObj _ | EParam _ | EVar _ _ => e *)
  ; ("OBJECT_EXP", "Simplifier.walk_identity")                            (* simp: EBool _ | EInt _ | EReal _ | EObj _ | EParam _ | EVar _ _ => e *)
  ; ("TIMING_EXP", "Simplifier.walk_identity")                            (* NOT MODELLED: TIMING_EXP has no constructor in Core/Expr.v (see unmodelled_operators) *)
  ; ("PRESENT_EXP", "Simplifier.walk_identity")                           (* NOT MODELLED: PRESENT_EXP has no constructor in Core/Expr.v (see unmodelled_operators) *)
  ; ("BOOL_CONSTANT", "Simplifier.walk_identity")                         (* simp: EBool _ | EInt _ | EReal _ | EObj _ | EParam _ | EVar _ _ => e *)
  ; ("INT_CONSTANT", "Simplifier.walk_identity")                          (* simp: EBool _ | EInt _ | EReal _ | EObj _ | EParam _ | EVar _ _ => e *)
  ; ("REAL_CONSTANT", "Simplifier.walk_identity")                         (* simp: EBool _ | EInt _ | EReal _ | EObj _ | EParam _ | EVar _ _ => e *)
  ; ("PLUS", "Simplifier.walk_plus")                                      (* simp: EPlus l => walk_arith false (map go l) *)
  ; ("MINUS", "Simplifier.walk_minus")                                    (* simp: EMinus a b => walk_minus (go a) (go b) *)
  ; ("TIMES", "Simplifier.walk_times")                                    (* simp: ETimes l => walk_arith true (map go l) *)
  ; ("DIV", "Simplifier.walk_div")                                        (* simp: EDiv a b => walk_div (go a) (go b) *)
  ; ("LE", "Simplifier.walk_le")                                          (* simp: ELe a b => walk_le (go a) (go b) *)
  ; ("LT", "Simplifier.walk_lt")                                          (* simp: ELt a b => walk_lt (go a) (go b) *)
  ; ("EQUALS", "Simplifier.walk_equals")                                  (* simp: EEquals a b => walk_equals G (go a) (go b) *)
  ; ("ALWAYS", "Simplifier.walk_always")                                  (* simp: EAlways a => walk_always (go a) *)
  ; ("SOMETIME", "Simplifier.walk_sometime")                              (* simp: ESometime a => walk_sometime (go a) *)
  ; ("SOMETIME_BEFORE", "Simplifier.walk_sometime_before")                (* simp: ESometimeBefore a b => walk_sometime_before (go a) (go b) *)
  ; ("SOMETIME_AFTER", "Simplifier.walk_sometime_after")                  (* simp: ESometimeAfter a b => walk_sometime_after (go a) (go b) *)
  ; ("AT_MOST_ONCE", "Simplifier.walk_at_most_once")                      (* simp: EAtMostOnce a => walk_at_most_once (go a) *)
  ; ("DOT", "Simplifier.walk_dot")                                        (* NOT MODELLED: DOT has no constructor in Core/Expr.v (see unmodelled_operators) *)
  ].

(* IdentityDagWalker -- modelled by Walkers/Subst.v (Fixpoint walk: the rebuilt node) ; the same rebuilds in Simplify.v subst and Subst.v topdown_replace  [C13] *)
Definition expected_identitydagwalker : table :=
  [ ("AND", "IdentityDagWalker.walk_and")                                 (* walk: EAnd l => mkAnd (map (walk s) l) *)
  ; ("OR", "IdentityDagWalker.walk_or")                                   (* walk: EOr l => mkOr (map (walk s) l) *)
  ; ("NOT", "IdentityDagWalker.walk_not")                                 (* walk: ENot a => mkNot (walk s a) *)
  ; ("IMPLIES", "IdentityDagWalker.walk_implies")                         (* walk: EImplies a b => EImplies (walk s a) (walk s b) *)
  ; ("IFF", "IdentityDagWalker.walk_iff")                                 (* walk: EIff a b => EIff (walk s a) (walk s b) *)
  ; ("EXISTS", "IdentityDagWalker.walk_exists")                           (* walk: EExists vs a => EExists vs (... body walked by a fresh Substituter with filter_map s vs ...) *)
  ; ("FORALL", "IdentityDagWalker.walk_forall")                           (* walk: EForall vs a => EForall vs (... body walked by a fresh Substituter with filter_map s vs ...) *)
  ; ("FLUENT_EXP", "IdentityDagWalker.walk_fluent_exp")                   (* walk: EFluent f args => EFluent f (map (walk s) args) *)
  ; ("INTERPRETED_FUNCTION_EXP", "IdentityDagWalker.walk_interpreted_function_exp") (* walk: EIFun f args => EIFun f (map (walk s) args) *)
  ; ("PARAM_EXP", "IdentityDagWalker.walk_param_exp")                     (* walk: EBool _ | EInt _ | EReal _ | EObj _ | EParam _ | EVar _ _ => e *)
  ; ("VARIABLE_EXP", "IdentityDagWalker.walk_variable_exp")               (* walk: EBool _ | EInt _ | EReal _ | EObj _ | EParam _ | EVar _ _ => e *)
  ; ("OBJECT_EXP", "IdentityDagWalker.walk_object_exp")                   (* walk: EBool _ | EInt _ | EReal _ | EObj _ | EParam _ | EVar _ _ => e *)
  ; ("TIMING_EXP", "IdentityDagWalker.walk_timing_exp")                   (* NOT MODELLED: TIMING_EXP has no constructor in Core/Expr.v (see unmodelled_operators) *)
  ; ("PRESENT_EXP", "IdentityDagWalker.walk_present_exp")                 (* NOT MODELLED: PRESENT_EXP has no constructor in Core/Expr.v (see unmodelled_operators) *)
  ; ("BOOL_CONSTANT", "IdentityDagWalker.walk_bool_constant")             (* walk: EBool _ | EInt _ | EReal _ | EObj _ | EParam _ | EVar _ _ => e *)
  ; ("INT_CONSTANT", "IdentityDagWalker.walk_int_constant")               (* walk: EBool _ | EInt _ | EReal _ | EObj _ | EParam _ | EVar _ _ => e *)
  ; ("REAL_CONSTANT", "IdentityDagWalker.walk_real_constant")             (* walk: EBool _ | EInt _ | EReal _ | EObj _ | EParam _ | EVar _ _ => e *)
  ; ("PLUS", "IdentityDagWalker.walk_plus")                               (* walk: EPlus l => mkPlus (map (walk s) l) *)
  ; ("MINUS", "IdentityDagWalker.walk_minus")                             (* walk: EMinus a b => EMinus (walk s a) (walk s b) *)
  ; ("TIMES", "IdentityDagWalker.walk_times")                             (* walk: ETimes l => mkTimes (map (walk s) l) *)
  ; ("DIV", "IdentityDagWalker.walk_div")                                 (* walk: EDiv a b => EDiv (walk s a) (walk s b) *)
  ; ("LE", "IdentityDagWalker.walk_le")                                   (* walk: ELe a b => ELe (walk s a) (walk s b) *)
  ; ("LT", "IdentityDagWalker.walk_lt")                                   (* walk: ELt a b => ELt (walk s a) (walk s b) *)
  ; ("EQUALS", "IdentityDagWalker.walk_equals")                           (* walk: EEquals a b => EEquals (walk s a) (walk s b) *)
  ; ("ALWAYS", "IdentityDagWalker.walk_always")                           (* walk: EAlways a => EAlways (walk s a) *)
  ; ("SOMETIME", "IdentityDagWalker.walk_sometime")                       (* walk: ESometime a => ESometime (walk s a) *)
  ; ("SOMETIME_BEFORE", "IdentityDagWalker.walk_sometime_before")         (* walk: ESometimeBefore a b => ESometimeBefore (walk s a) (walk s b) *)
  ; ("SOMETIME_AFTER", "IdentityDagWalker.walk_sometime_after")           (* walk: ESometimeAfter a b => ESometimeAfter (walk s a) (walk s b) *)
  ; ("AT_MOST_ONCE", "IdentityDagWalker.walk_at_most_once")               (* walk: EAtMostOnce a => EAtMostOnce (walk s a) *)
  ; ("DOT", "IdentityDagWalker.walk_dot")                                 (* NOT MODELLED: DOT has no constructor in Core/Expr.v (see unmodelled_operators) *)
  ].

(* Substituter -- modelled by Walkers/Subst.v (Fixpoint walk; walk_replace_or_identity = replace_or_identity, then IdentityDagWalker.super)  [C13] *)
Definition expected_substituter : table :=
  [ ("AND", "Substituter.walk_replace_or_identity")                       (* walk: replace_or_identity s e (...)  [outermost call, the same for every constructor] *)
  ; ("OR", "Substituter.walk_replace_or_identity")                        (* walk: replace_or_identity s e (...)  [outermost call, the same for every constructor] *)
  ; ("NOT", "Substituter.walk_replace_or_identity")                       (* walk: replace_or_identity s e (...)  [outermost call, the same for every constructor] *)
  ; ("IMPLIES", "Substituter.walk_replace_or_identity")                   (* walk: replace_or_identity s e (...)  [outermost call, the same for every constructor] *)
  ; ("IFF", "Substituter.walk_replace_or_identity")                       (* walk: replace_or_identity s e (...)  [outermost call, the same for every constructor] *)
  ; ("EXISTS", "Substituter.walk_replace_or_identity")                    (* walk: replace_or_identity s e (...)  [outermost call, the same for every constructor] *)
  ; ("FORALL", "Substituter.walk_replace_or_identity")                    (* walk: replace_or_identity s e (...)  [outermost call, the same for every constructor] *)
  ; ("FLUENT_EXP", "Substituter.walk_replace_or_identity")                (* walk: replace_or_identity s e (...)  [outermost call, the same for every constructor] *)
  ; ("INTERPRETED_FUNCTION_EXP", "Substituter.walk_replace_or_identity")  (* walk: replace_or_identity s e (...)  [outermost call, the same for every constructor] *)
  ; ("PARAM_EXP", "Substituter.walk_replace_or_identity")                 (* walk: replace_or_identity s e (...)  [outermost call, the same for every constructor] *)
  ; ("VARIABLE_EXP", "Substituter.walk_replace_or_identity")              (* walk: replace_or_identity s e (...)  [outermost call, the same for every constructor] *)
  ; ("OBJECT_EXP", "Substituter.walk_replace_or_identity")                (* walk: replace_or_identity s e (...)  [outermost call, the same for every constructor] *)
  ; ("TIMING_EXP", "Substituter.walk_replace_or_identity")                (* NOT MODELLED: TIMING_EXP has no constructor in Core/Expr.v (see unmodelled_operators) *)
  ; ("PRESENT_EXP", "Substituter.walk_replace_or_identity")               (* NOT MODELLED: PRESENT_EXP has no constructor in Core/Expr.v (see unmodelled_operators) *)
  ; ("BOOL_CONSTANT", "Substituter.walk_replace_or_identity")             (* walk: replace_or_identity s e (...)  [outermost call, the same for every constructor] *)
  ; ("INT_CONSTANT", "Substituter.walk_replace_or_identity")              (* walk: replace_or_identity s e (...)  [outermost call, the same for every constructor] *)
  ; ("REAL_CONSTANT", "Substituter.walk_replace_or_identity")             (* walk: replace_or_identity s e (...)  [outermost call, the same for every constructor] *)
  ; ("PLUS", "Substituter.walk_replace_or_identity")                      (* walk: replace_or_identity s e (...)  [outermost call, the same for every constructor] *)
  ; ("MINUS", "Substituter.walk_replace_or_identity")                     (* walk: replace_or_identity s e (...)  [outermost call, the same for every constructor] *)
  ; ("TIMES", "Substituter.walk_replace_or_identity")                     (* walk: replace_or_identity s e (...)  [outermost call, the same for every constructor] *)
  ; ("DIV", "Substituter.walk_replace_or_identity")                       (* walk: replace_or_identity s e (...)  [outermost call, the same for every constructor] *)
  ; ("LE", "Substituter.walk_replace_or_identity")                        (* walk: replace_or_identity s e (...)  [outermost call, the same for every constructor] *)
  ; ("LT", "Substituter.walk_replace_or_identity")                        (* walk: replace_or_identity s e (...)  [outermost call, the same for every constructor] *)
  ; ("EQUALS", "Substituter.walk_replace_or_identity")                    (* walk: replace_or_identity s e (...)  [outermost call, the same for every constructor] *)
  ; ("ALWAYS", "Substituter.walk_replace_or_identity")                    (* walk: replace_or_identity s e (...)  [outermost call, the same for every constructor] *)
  ; ("SOMETIME", "Substituter.walk_replace_or_identity")                  (* walk: replace_or_identity s e (...)  [outermost call, the same for every constructor] *)
  ; ("SOMETIME_BEFORE", "Substituter.walk_replace_or_identity")           (* walk: replace_or_identity s e (...)  [outermost call, the same for every constructor] *)
  ; ("SOMETIME_AFTER", "Substituter.walk_replace_or_identity")            (* walk: replace_or_identity s e (...)  [outermost call, the same for every constructor] *)
  ; ("AT_MOST_ONCE", "Substituter.walk_replace_or_identity")              (* walk: replace_or_identity s e (...)  [outermost call, the same for every constructor] *)
  ; ("DOT", "Substituter.walk_replace_or_identity")                       (* NOT MODELLED: DOT has no constructor in Core/Expr.v (see unmodelled_operators) *)
  ].

(* Dnf -- modelled by Walkers/NnfDnf.v (Fixpoint dnf_walk)  [C12] *)
Definition expected_dnf : table :=
  [ ("AND", "Dnf.walk_and")                                               (* dnf_walk: EAnd l => walk_and (map dnf_walk l) *)
  ; ("OR", "Dnf.walk_or")                                                 (* dnf_walk: EOr l => concat (map dnf_walk l) *)
  ; ("NOT", "Dnf.walk_all")                                               (* dnf_walk: _ => [[e]] *)
  ; ("IMPLIES", "Dnf.walk_all")                                           (* dnf_walk: _ => [[e]] *)
  ; ("IFF", "Dnf.walk_all")                                               (* dnf_walk: _ => [[e]] *)
  ; ("EXISTS", "Dnf.walk_all")                                            (* dnf_walk: _ => [[e]] *)
  ; ("FORALL", "Dnf.walk_all")                                            (* dnf_walk: _ => [[e]] *)
  ; ("FLUENT_EXP", "Dnf.walk_all")                                        (* dnf_walk: _ => [[e]] *)
  ; ("INTERPRETED_FUNCTION_EXP", "Dnf.walk_all")                          (* dnf_walk: _ => [[e]] *)
  ; ("PARAM_EXP", "Dnf.walk_all")                                         (* dnf_walk: _ => [[e]] *)
  ; ("VARIABLE_EXP", "Dnf.walk_all")                                      (* dnf_walk: _ => [[e]] *)
  ; ("OBJECT_EXP", "Dnf.walk_all")                                        (* dnf_walk: _ => [[e]] *)
  ; ("TIMING_EXP", "Dnf.walk_all")                                        (* NOT MODELLED: TIMING_EXP has no constructor in Core/Expr.v (see unmodelled_operators) *)
  ; ("PRESENT_EXP", "Dnf.walk_all")                                       (* NOT MODELLED: PRESENT_EXP has no constructor in Core/Expr.v (see unmodelled_operators) *)
  ; ("BOOL_CONSTANT", "Dnf.walk_all")                                     (* dnf_walk: _ => [[e]] *)
  ; ("INT_CONSTANT", "Dnf.walk_all")                                      (* dnf_walk: _ => [[e]] *)
  ; ("REAL_CONSTANT", "Dnf.walk_all")                                     (* dnf_walk: _ => [[e]] *)
  ; ("PLUS", "Dnf.walk_all")                                              (* dnf_walk: _ => [[e]] *)
  ; ("MINUS", "Dnf.walk_all")                                             (* dnf_walk: _ => [[e]] *)
  ; ("TIMES", "Dnf.walk_all")                                             (* dnf_walk: _ => [[e]] *)
  ; ("DIV", "Dnf.walk_all")                                               (* dnf_walk: _ => [[e]] *)
  ; ("LE", "Dnf.walk_all")                                                (* dnf_walk: _ => [[e]] *)
  ; ("LT", "Dnf.walk_all")                                                (* dnf_walk: _ => [[e]] *)
  ; ("EQUALS", "Dnf.walk_all")                                            (* dnf_walk: _ => [[e]] *)
  ; ("ALWAYS", "Dnf.walk_all")                                            (* dnf_walk: _ => [[e]] *)
  ; ("SOMETIME", "Dnf.walk_all")                                          (* dnf_walk: _ => [[e]] *)
  ; ("SOMETIME_BEFORE", "Dnf.walk_all")                                   (* dnf_walk: _ => [[e]] *)
  ; ("SOMETIME_AFTER", "Dnf.walk_all")                                    (* dnf_walk: _ => [[e]] *)
  ; ("AT_MOST_ONCE", "Dnf.walk_all")                                      (* dnf_walk: _ => [[e]] *)
  ; ("DOT", "Dnf.walk_all")                                               (* NOT MODELLED: DOT has no constructor in Core/Expr.v (see unmodelled_operators) *)
  ].

(* Nnf is not a Walker: the two if/elif chains of Nnf.get_nnf_expression (see tools/gen_walkers.py) *)
(* Nnf.expand -- modelled by Walkers/NnfDnf.v (Fixpoint nnf_pol)  [C12] *)
Definition expected_nnf_expand : table :=
  [ ("AND", "Nnf.get_nnf_expression:expand:is_and|is_or")                 (* nnf_pol: EAnd l => ... (map (nnf_pol p) l)  [children pushed with the same polarity] *)
  ; ("OR", "Nnf.get_nnf_expression:expand:is_and|is_or")                  (* nnf_pol: EOr l => ... (map (nnf_pol p) l)  [children pushed with the same polarity] *)
  ; ("NOT", "Nnf.get_nnf_expression:expand:is_not")                       (* nnf_pol: ENot a => nnf_pol (negb p) a *)
  ; ("IMPLIES", "Nnf.get_nnf_expression:expand:is_implies")               (* nnf_pol: EImplies a b => orp p [nnf_pol (negb p) a; nnf_pol p b] *)
  ; ("IFF", "Nnf.get_nnf_expression:expand:is_iff")                       (* nnf_pol: EIff a b => orp p [andp p [..a; ..b]; andp p [..not a; ..not b]] *)
  ; ("EXISTS", "Nnf.get_nnf_expression:expand:else")                      (* nnf_pol: _ => if p then e else ENot e *)
  ; ("FORALL", "Nnf.get_nnf_expression:expand:else")                      (* nnf_pol: _ => if p then e else ENot e *)
  ; ("FLUENT_EXP", "Nnf.get_nnf_expression:expand:else")                  (* nnf_pol: _ => if p then e else ENot e *)
  ; ("INTERPRETED_FUNCTION_EXP", "Nnf.get_nnf_expression:expand:else")    (* nnf_pol: _ => if p then e else ENot e *)
  ; ("PARAM_EXP", "Nnf.get_nnf_expression:expand:else")                   (* nnf_pol: _ => if p then e else ENot e *)
  ; ("VARIABLE_EXP", "Nnf.get_nnf_expression:expand:else")                (* nnf_pol: _ => if p then e else ENot e *)
  ; ("OBJECT_EXP", "Nnf.get_nnf_expression:expand:else")                  (* nnf_pol: _ => if p then e else ENot e *)
  ; ("TIMING_EXP", "Nnf.get_nnf_expression:expand:else")                  (* NOT MODELLED: TIMING_EXP has no constructor in Core/Expr.v (see unmodelled_operators) *)
  ; ("PRESENT_EXP", "Nnf.get_nnf_expression:expand:else")                 (* NOT MODELLED: PRESENT_EXP has no constructor in Core/Expr.v (see unmodelled_operators) *)
  ; ("BOOL_CONSTANT", "Nnf.get_nnf_expression:expand:else")               (* nnf_pol: _ => if p then e else ENot e *)
  ; ("INT_CONSTANT", "Nnf.get_nnf_expression:expand:else")                (* nnf_pol: _ => if p then e else ENot e *)
  ; ("REAL_CONSTANT", "Nnf.get_nnf_expression:expand:else")               (* nnf_pol: _ => if p then e else ENot e *)
  ; ("PLUS", "Nnf.get_nnf_expression:expand:else")                        (* nnf_pol: _ => if p then e else ENot e *)
  ; ("MINUS", "Nnf.get_nnf_expression:expand:else")                       (* nnf_pol: _ => if p then e else ENot e *)
  ; ("TIMES", "Nnf.get_nnf_expression:expand:else")                       (* nnf_pol: _ => if p then e else ENot e *)
  ; ("DIV", "Nnf.get_nnf_expression:expand:else")                         (* nnf_pol: _ => if p then e else ENot e *)
  ; ("LE", "Nnf.get_nnf_expression:expand:else")                          (* nnf_pol: _ => if p then e else ENot e *)
  ; ("LT", "Nnf.get_nnf_expression:expand:else")                          (* nnf_pol: _ => if p then e else ENot e *)
  ; ("EQUALS", "Nnf.get_nnf_expression:expand:else")                      (* nnf_pol: _ => if p then e else ENot e *)
  ; ("ALWAYS", "Nnf.get_nnf_expression:expand:else")                      (* nnf_pol: _ => if p then e else ENot e *)
  ; ("SOMETIME", "Nnf.get_nnf_expression:expand:else")                    (* nnf_pol: _ => if p then e else ENot e *)
  ; ("SOMETIME_BEFORE", "Nnf.get_nnf_expression:expand:else")             (* nnf_pol: _ => if p then e else ENot e *)
  ; ("SOMETIME_AFTER", "Nnf.get_nnf_expression:expand:else")              (* nnf_pol: _ => if p then e else ENot e *)
  ; ("AT_MOST_ONCE", "Nnf.get_nnf_expression:expand:else")                (* nnf_pol: _ => if p then e else ENot e *)
  ; ("DOT", "Nnf.get_nnf_expression:expand:else")                         (* NOT MODELLED: DOT has no constructor in Core/Expr.v (see unmodelled_operators) *)
  ].

(* Nnf.rebuild -- modelled by Walkers/NnfDnf.v (Fixpoint nnf_pol: andp / orp)  [C12] *)
Definition expected_nnf_rebuild : table :=
  [ ("AND", "Nnf.get_nnf_expression:rebuild:is_and")                      (* nnf_pol: EAnd l => andp p (...)  [if p: And(args) else: Or(args)] *)
  ; ("OR", "Nnf.get_nnf_expression:rebuild:is_or")                        (* nnf_pol: EOr l => orp p (...)  [if p: Or(args) else: And(args)] *)
  ; ("NOT", "Nnf.get_nnf_expression:rebuild:else")                        (* unreachable in the code (UPUnreachableCodeError): only And/Or nodes are pushed with status True *)
  ; ("IMPLIES", "Nnf.get_nnf_expression:rebuild:else")                    (* unreachable in the code (UPUnreachableCodeError): only And/Or nodes are pushed with status True *)
  ; ("IFF", "Nnf.get_nnf_expression:rebuild:else")                        (* unreachable in the code (UPUnreachableCodeError): only And/Or nodes are pushed with status True *)
  ; ("EXISTS", "Nnf.get_nnf_expression:rebuild:else")                     (* unreachable in the code (UPUnreachableCodeError): only And/Or nodes are pushed with status True *)
  ; ("FORALL", "Nnf.get_nnf_expression:rebuild:else")                     (* unreachable in the code (UPUnreachableCodeError): only And/Or nodes are pushed with status True *)
  ; ("FLUENT_EXP", "Nnf.get_nnf_expression:rebuild:else")                 (* unreachable in the code (UPUnreachableCodeError): only And/Or nodes are pushed with status True *)
  ; ("INTERPRETED_FUNCTION_EXP", "Nnf.get_nnf_expression:rebuild:else")   (* unreachable in the code (UPUnreachableCodeError): only And/Or nodes are pushed with status True *)
  ; ("PARAM_EXP", "Nnf.get_nnf_expression:rebuild:else")                  (* unreachable in the code (UPUnreachableCodeError): only And/Or nodes are pushed with status True *)
  ; ("VARIABLE_EXP", "Nnf.get_nnf_expression:rebuild:else")               (* unreachable in the code (UPUnreachableCodeError): only And/Or nodes are pushed with status True *)
  ; ("OBJECT_EXP", "Nnf.get_nnf_expression:rebuild:else")                 (* unreachable in the code (UPUnreachableCodeError): only And/Or nodes are pushed with status True *)
  ; ("TIMING_EXP", "Nnf.get_nnf_expression:rebuild:else")                 (* NOT MODELLED: TIMING_EXP has no constructor in Core/Expr.v (see unmodelled_operators) *)
  ; ("PRESENT_EXP", "Nnf.get_nnf_expression:rebuild:else")                (* NOT MODELLED: PRESENT_EXP has no constructor in Core/Expr.v (see unmodelled_operators) *)
  ; ("BOOL_CONSTANT", "Nnf.get_nnf_expression:rebuild:else")              (* unreachable in the code (UPUnreachableCodeError): only And/Or nodes are pushed with status True *)
  ; ("INT_CONSTANT", "Nnf.get_nnf_expression:rebuild:else")               (* unreachable in the code (UPUnreachableCodeError): only And/Or nodes are pushed with status True *)
  ; ("REAL_CONSTANT", "Nnf.get_nnf_expression:rebuild:else")              (* unreachable in the code (UPUnreachableCodeError): only And/Or nodes are pushed with status True *)
  ; ("PLUS", "Nnf.get_nnf_expression:rebuild:else")                       (* unreachable in the code (UPUnreachableCodeError): only And/Or nodes are pushed with status True *)
  ; ("MINUS", "Nnf.get_nnf_expression:rebuild:else")                      (* unreachable in the code (UPUnreachableCodeError): only And/Or nodes are pushed with status True *)
  ; ("TIMES", "Nnf.get_nnf_expression:rebuild:else")                      (* unreachable in the code (UPUnreachableCodeError): only And/Or nodes are pushed with status True *)
  ; ("DIV", "Nnf.get_nnf_expression:rebuild:else")                        (* unreachable in the code (UPUnreachableCodeError): only And/Or nodes are pushed with status True *)
  ; ("LE", "Nnf.get_nnf_expression:rebuild:else")                         (* unreachable in the code (UPUnreachableCodeError): only And/Or nodes are pushed with status True *)
  ; ("LT", "Nnf.get_nnf_expression:rebuild:else")                         (* unreachable in the code (UPUnreachableCodeError): only And/Or nodes are pushed with status True *)
  ; ("EQUALS", "Nnf.get_nnf_expression:rebuild:else")                     (* unreachable in the code (UPUnreachableCodeError): only And/Or nodes are pushed with status True *)
  ; ("ALWAYS", "Nnf.get_nnf_expression:rebuild:else")                     (* unreachable in the code (UPUnreachableCodeError): only And/Or nodes are pushed with status True *)
  ; ("SOMETIME", "Nnf.get_nnf_expression:rebuild:else")                   (* unreachable in the code (UPUnreachableCodeError): only And/Or nodes are pushed with status True *)
  ; ("SOMETIME_BEFORE", "Nnf.get_nnf_expression:rebuild:else")            (* unreachable in the code (UPUnreachableCodeError): only And/Or nodes are pushed with status True *)
  ; ("SOMETIME_AFTER", "Nnf.get_nnf_expression:rebuild:else")             (* unreachable in the code (UPUnreachableCodeError): only And/Or nodes are pushed with status True *)
  ; ("AT_MOST_ONCE", "Nnf.get_nnf_expression:rebuild:else")               (* unreachable in the code (UPUnreachableCodeError): only And/Or nodes are pushed with status True *)
  ; ("DOT", "Nnf.get_nnf_expression:rebuild:else")                        (* NOT MODELLED: DOT has no constructor in Core/Expr.v (see unmodelled_operators) *)
  ].

(* TypeChecker -- modelled by Walkers/TypeInfer.v (Fixpoint infer_r)  [C15] *)
Definition expected_typechecker : table :=
  [ ("AND", "TypeChecker.walk_bool_to_bool")                              (* infer_r: EAnd l | EOr l => bind (infs l) walk_bool *)
  ; ("OR", "TypeChecker.walk_bool_to_bool")                               (* infer_r: EAnd l | EOr l => bind (infs l) walk_bool *)
  ; ("NOT", "TypeChecker.walk_bool_to_bool")                              (* infer_r: ENot a | EExists _ a | EForall _ a | EAlways a | ESometime a | EAtMostOnce a => one a walk_bool *)
  ; ("IMPLIES", "TypeChecker.walk_bool_to_bool")                          (* infer_r: EImplies a b | EIff a b | ESometimeBefore a b => two a b walk_bool *)
  ; ("IFF", "TypeChecker.walk_bool_to_bool")                              (* infer_r: EImplies a b | EIff a b | ESometimeBefore a b => two a b walk_bool *)
  ; ("EXISTS", "TypeChecker.walk_bool_to_bool")                           (* infer_r: ENot a | EExists _ a | EForall _ a | EAlways a | ESometime a | EAtMostOnce a => one a walk_bool *)
  ; ("FORALL", "TypeChecker.walk_bool_to_bool")                           (* infer_r: ENot a | EExists _ a | EForall _ a | EAlways a | ESometime a | EAtMostOnce a => one a walk_bool *)
  ; ("FLUENT_EXP", "TypeChecker.walk_fluent_exp")                         (* infer_r: EFluent f args => bind (infs args) (walk_app G (lookupN f (g_fl G))) *)
  ; ("INTERPRETED_FUNCTION_EXP", "TypeChecker.walk_interpreted_function_exp") (* infer_r: EIFun f args => bind (infs args) (walk_app G (lookupN f (g_ifun G))) *)
  ; ("PARAM_EXP", "TypeChecker.walk_param_exp")                           (* infer_r: EParam p => lookupN p (g_par G) *)
  ; ("VARIABLE_EXP", "TypeChecker.walk_variable_exp")                     (* infer_r: EVar v t => lookupN v (g_var G), TUser t *)
  ; ("OBJECT_EXP", "TypeChecker.walk_object_exp")                         (* infer_r: EObj o => lookupN o (g_obj G), TUser *)
  ; ("TIMING_EXP", "TypeChecker.walk_timing_exp")                         (* NOT MODELLED: TIMING_EXP has no constructor in Core/Expr.v (see unmodelled_operators) *)
  ; ("PRESENT_EXP", "TypeChecker.walk_present_exp")                       (* NOT MODELLED: PRESENT_EXP has no constructor in Core/Expr.v (see unmodelled_operators) *)
  ; ("BOOL_CONSTANT", "TypeChecker.walk_identity_bool")                   (* infer_r: EBool _ => inl TBool *)
  ; ("INT_CONSTANT", "TypeChecker.walk_identity_int")                     (* infer_r: EInt z => inl (TInt (Some z) (Some z)) *)
  ; ("REAL_CONSTANT", "TypeChecker.walk_identity_real")                   (* infer_r: EReal q => inl (TReal (Some q) (Some q)) *)
  ; ("PLUS", "TypeChecker.walk_plus")                                     (* infer_r: EPlus l => bind (infs l) walk_plus *)
  ; ("MINUS", "TypeChecker.walk_minus")                                   (* infer_r: EMinus a b => two a b walk_minus *)
  ; ("TIMES", "TypeChecker.walk_times")                                   (* infer_r: ETimes l => bind (infs l) walk_times *)
  ; ("DIV", "TypeChecker.walk_div")                                       (* infer_r: EDiv a b => two a b walk_div *)
  ; ("LE", "TypeChecker.walk_math_relation")                              (* infer_r: ELe a b | ELt a b => two a b walk_rel *)
  ; ("LT", "TypeChecker.walk_math_relation")                              (* infer_r: ELe a b | ELt a b => two a b walk_rel *)
  ; ("EQUALS", "TypeChecker.walk_equals")                                 (* infer_r: EEquals a b => two a b (walk_equals G) *)
  ; ("ALWAYS", "TypeChecker.walk_always")                                 (* infer_r: ENot a | EExists _ a | EForall _ a | EAlways a | ESometime a | EAtMostOnce a => one a walk_bool  [walk_always = the bool-to-bool test on one operand] *)
  ; ("SOMETIME", "TypeChecker.walk_sometime")                             (* infer_r: ENot a | EExists _ a | EForall _ a | EAlways a | ESometime a | EAtMostOnce a => one a walk_bool  [walk_sometime] *)
  ; ("SOMETIME_BEFORE", "TypeChecker.walk_sometime_before")               (* infer_r: EImplies a b | EIff a b | ESometimeBefore a b => two a b walk_bool  [walk_sometime_before] *)
  ; ("SOMETIME_AFTER", "TypeChecker.walk_sometime_after")                 (* infer_r: ESometimeAfter a b => two a b (fun ts => ... ty_eqb x y ... walk_bool ts) *)
  ; ("AT_MOST_ONCE", "TypeChecker.walk_at_most_once")                     (* infer_r: ENot a | EExists _ a | EForall _ a | EAlways a | ESometime a | EAtMostOnce a => one a walk_bool  [walk_at_most_once] *)
  ; ("DOT", "TypeChecker.walk_dot")                                       (* NOT MODELLED: DOT has no constructor in Core/Expr.v (see unmodelled_operators) *)
  ].

(* LinearChecker -- modelled by Walkers/Linear.v (Fixpoint lin)  [C17] *)
Definition expected_linearchecker : table :=
  [ ("AND", "LinearChecker.walk_default")                                 (* lin: EIFun _ l | EAnd l | EOr l | EPlus l => dfltn l  [walk_default] *)
  ; ("OR", "LinearChecker.walk_default")                                  (* lin: EIFun _ l | EAnd l | EOr l | EPlus l => dfltn l  [walk_default] *)
  ; ("NOT", "LinearChecker.walk_default")                                 (* lin: ENot a | EExists _ a | EForall _ a | EAlways a | ESometime a | EAtMostOnce a => dflt1 a  [walk_default] *)
  ; ("IMPLIES", "LinearChecker.walk_default")                             (* lin: EImplies a b | EIff a b | ELe a b | ELt a b | EEquals a b | ESometimeBefore a b | ESometimeAfter a b => dflt2 a b  [walk_default] *)
  ; ("IFF", "LinearChecker.walk_default")                                 (* lin: EImplies a b | EIff a b | ELe a b | ELt a b | EEquals a b | ESometimeBefore a b | ESometimeAfter a b => dflt2 a b  [walk_default] *)
  ; ("EXISTS", "LinearChecker.walk_default")                              (* lin: ENot a | EExists _ a | EForall _ a | EAlways a | ESometime a | EAtMostOnce a => dflt1 a  [walk_default] *)
  ; ("FORALL", "LinearChecker.walk_default")                              (* lin: ENot a | EExists _ a | EForall _ a | EAlways a | ESometime a | EAtMostOnce a => dflt1 a  [walk_default] *)
  ; ("FLUENT_EXP", "LinearChecker.walk_fluent_exp")                       (* lin: EFluent f args => Some (forallb r_lin rs, [e], []) *)
  ; ("INTERPRETED_FUNCTION_EXP", "LinearChecker.walk_default")            (* lin: EIFun _ l | EAnd l | EOr l | EPlus l => dfltn l  [walk_default] *)
  ; ("PARAM_EXP", "LinearChecker.walk_default")                           (* lin: EBool _ | EInt _ | EReal _ | EObj _ | EParam _ | EVar _ _ => Some (walk_default []) *)
  ; ("VARIABLE_EXP", "LinearChecker.walk_default")                        (* lin: EBool _ | EInt _ | EReal _ | EObj _ | EParam _ | EVar _ _ => Some (walk_default []) *)
  ; ("OBJECT_EXP", "LinearChecker.walk_default")                          (* lin: EBool _ | EInt _ | EReal _ | EObj _ | EParam _ | EVar _ _ => Some (walk_default []) *)
  ; ("TIMING_EXP", "LinearChecker.walk_default")                          (* NOT MODELLED: TIMING_EXP has no constructor in Core/Expr.v (see unmodelled_operators) *)
  ; ("PRESENT_EXP", "LinearChecker.walk_default")                         (* NOT MODELLED: PRESENT_EXP has no constructor in Core/Expr.v (see unmodelled_operators) *)
  ; ("BOOL_CONSTANT", "LinearChecker.walk_default")                       (* lin: EBool _ | EInt _ | EReal _ | EObj _ | EParam _ | EVar _ _ => Some (walk_default []) *)
  ; ("INT_CONSTANT", "LinearChecker.walk_default")                        (* lin: EBool _ | EInt _ | EReal _ | EObj _ | EParam _ | EVar _ _ => Some (walk_default []) *)
  ; ("REAL_CONSTANT", "LinearChecker.walk_default")                       (* lin: EBool _ | EInt _ | EReal _ | EObj _ | EParam _ | EVar _ _ => Some (walk_default []) *)
  ; ("PLUS", "LinearChecker.walk_default")                                (* lin: EIFun _ l | EAnd l | EOr l | EPlus l => dfltn l  [walk_default] *)
  ; ("MINUS", "LinearChecker.walk_minus")                                 (* lin: EMinus a b => Some (walk_minus ra rb) *)
  ; ("TIMES", "LinearChecker.walk_times")                                 (* lin: ETimes l => walk_times G l rs *)
  ; ("DIV", "LinearChecker.walk_div")                                     (* lin: EDiv a b => walk_div G b ra rb *)
  ; ("LE", "LinearChecker.walk_default")                                  (* lin: EImplies a b | EIff a b | ELe a b | ELt a b | EEquals a b | ESometimeBefore a b | ESometimeAfter a b => dflt2 a b  [walk_default] *)
  ; ("LT", "LinearChecker.walk_default")                                  (* lin: EImplies a b | EIff a b | ELe a b | ELt a b | EEquals a b | ESometimeBefore a b | ESometimeAfter a b => dflt2 a b  [walk_default] *)
  ; ("EQUALS", "LinearChecker.walk_default")                              (* lin: EImplies a b | EIff a b | ELe a b | ELt a b | EEquals a b | ESometimeBefore a b | ESometimeAfter a b => dflt2 a b  [walk_default] *)
  ; ("ALWAYS", "LinearChecker.walk_default")                              (* lin: ENot a | EExists _ a | EForall _ a | EAlways a | ESometime a | EAtMostOnce a => dflt1 a  [walk_default] *)
  ; ("SOMETIME", "LinearChecker.walk_default")                            (* lin: ENot a | EExists _ a | EForall _ a | EAlways a | ESometime a | EAtMostOnce a => dflt1 a  [walk_default] *)
  ; ("SOMETIME_BEFORE", "LinearChecker.walk_default")                     (* lin: EImplies a b | EIff a b | ELe a b | ELt a b | EEquals a b | ESometimeBefore a b | ESometimeAfter a b => dflt2 a b  [walk_default] *)
  ; ("SOMETIME_AFTER", "LinearChecker.walk_default")                      (* lin: EImplies a b | EIff a b | ELe a b | ELt a b | EEquals a b | ESometimeBefore a b | ESometimeAfter a b => dflt2 a b  [walk_default] *)
  ; ("AT_MOST_ONCE", "LinearChecker.walk_default")                        (* lin: ENot a | EExists _ a | EForall _ a | EAlways a | ESometime a | EAtMostOnce a => dflt1 a  [walk_default] *)
  ; ("DOT", "LinearChecker.walk_default")                                 (* NOT MODELLED: DOT has no constructor in Core/Expr.v (see unmodelled_operators) *)
  ].

(* ------------------------------------------------------------------------------------------------------------------
   (c) expected shape summaries of the handlers that BUILD expressions: which ExpressionManager constructors
   (manager.X), helpers of the same object (self.x) and <Class>.super calls occur in the body.  A handler whose body is
   replaced by another one's (or that starts building a different node) changes its summary. *)

Definition expected_shapes_simplifier : list (string * list string) :=
  [ ("Simplifier.walk_and", ["manager.And"; "manager.FALSE"; "manager.Not"; "manager.TRUE"; "self.walk_not"])
  ; ("Simplifier.walk_or", ["manager.FALSE"; "manager.Not"; "manager.Or"; "manager.TRUE"; "self.walk_not"])
  ; ("Simplifier.walk_not", ["manager.Bool"; "manager.Not"])
  ; ("Simplifier.walk_implies", ["manager.Implies"; "manager.Not"; "manager.TRUE"])
  ; ("Simplifier.walk_iff", ["manager.Bool"; "manager.Iff"; "manager.Not"; "manager.TRUE"])
  ; ("Simplifier.walk_exists", ["manager.And"; "manager.Exists"; "self._has_no_objects"; "self._simplify_rebuilt"])
  ; ("Simplifier.walk_forall", ["manager.Forall"; "self._has_no_objects"])
  ; ("Simplifier.walk_fluent_exp", ["manager.FluentExp"])
  ; ("Simplifier.walk_interpreted_function_exp", ["manager.Bool"; "manager.Int"; "manager.InterpretedFunctionExp"; "manager.ObjectExp"; "manager.Real"])
  ; ("Simplifier.walk_identity", [])
  ; ("Simplifier.walk_plus", ["manager.Int"; "manager.Plus"; "self._number_to_fnode"])
  ; ("Simplifier.walk_minus", ["manager.Minus"; "manager.Plus"; "self._number_to_fnode"; "self.walk_plus"])
  ; ("Simplifier.walk_times", ["manager.Int"; "manager.Times"; "self._number_to_fnode"])
  ; ("Simplifier.walk_div", ["manager.Div"; "self._number_to_fnode"])
  ; ("Simplifier.walk_le", ["manager.Bool"; "manager.LE"])
  ; ("Simplifier.walk_lt", ["manager.Bool"; "manager.LT"])
  ; ("Simplifier.walk_equals", ["manager.Bool"; "manager.Equals"; "manager.FALSE"; "manager.TRUE"])
  ; ("Simplifier.walk_always", ["manager.Always"; "manager.FALSE"; "manager.TRUE"])
  ; ("Simplifier.walk_sometime", ["manager.FALSE"; "manager.Sometime"; "manager.TRUE"])
  ; ("Simplifier.walk_sometime_before", ["manager.FALSE"; "manager.SometimeBefore"; "manager.TRUE"])
  ; ("Simplifier.walk_sometime_after", ["manager.FALSE"; "manager.SometimeAfter"; "manager.TRUE"])
  ; ("Simplifier.walk_at_most_once", ["manager.AtMostOnce"; "manager.TRUE"])
  ; ("Simplifier.walk_dot", ["manager.Dot"]) ].

Definition expected_shapes_substituter : list (string * list string) :=
  [ ("Substituter.walk_replace_or_identity", ["IdentityDagWalker.super"])
  ; ("IdentityDagWalker.walk_and", ["manager.And"])
  ; ("IdentityDagWalker.walk_or", ["manager.Or"])
  ; ("IdentityDagWalker.walk_not", ["manager.Not"])
  ; ("IdentityDagWalker.walk_implies", ["manager.Implies"])
  ; ("IdentityDagWalker.walk_iff", ["manager.Iff"])
  ; ("IdentityDagWalker.walk_exists", ["manager.Exists"])
  ; ("IdentityDagWalker.walk_forall", ["manager.Forall"])
  ; ("IdentityDagWalker.walk_fluent_exp", ["manager.FluentExp"])
  ; ("IdentityDagWalker.walk_interpreted_function_exp", ["manager.InterpretedFunctionExp"])
  ; ("IdentityDagWalker.walk_param_exp", ["manager.ParameterExp"])
  ; ("IdentityDagWalker.walk_variable_exp", ["manager.VariableExp"])
  ; ("IdentityDagWalker.walk_object_exp", ["manager.ObjectExp"])
  ; ("IdentityDagWalker.walk_timing_exp", ["manager.TimingExp"])
  ; ("IdentityDagWalker.walk_present_exp", ["manager.PresentExp"])
  ; ("IdentityDagWalker.walk_bool_constant", ["manager.Bool"])
  ; ("IdentityDagWalker.walk_int_constant", ["manager.Int"])
  ; ("IdentityDagWalker.walk_real_constant", ["manager.Real"])
  ; ("IdentityDagWalker.walk_plus", ["manager.Plus"])
  ; ("IdentityDagWalker.walk_minus", ["manager.Minus"])
  ; ("IdentityDagWalker.walk_times", ["manager.Times"])
  ; ("IdentityDagWalker.walk_div", ["manager.Div"])
  ; ("IdentityDagWalker.walk_le", ["manager.LE"])
  ; ("IdentityDagWalker.walk_lt", ["manager.LT"])
  ; ("IdentityDagWalker.walk_equals", ["manager.Equals"])
  ; ("IdentityDagWalker.walk_always", ["manager.Always"])
  ; ("IdentityDagWalker.walk_sometime", ["manager.Sometime"])
  ; ("IdentityDagWalker.walk_sometime_before", ["manager.SometimeBefore"])
  ; ("IdentityDagWalker.walk_sometime_after", ["manager.SometimeAfter"])
  ; ("IdentityDagWalker.walk_at_most_once", ["manager.AtMostOnce"])
  ; ("IdentityDagWalker.walk_dot", ["manager.Dot"]) ].

Definition expected_shapes_nnf_dnf : list (string * list string) :=
  [ ("Nnf.get_nnf_expression:expand:is_and|is_or", [])
  ; ("Nnf.get_nnf_expression:expand:is_not", [])
  ; ("Nnf.get_nnf_expression:expand:is_implies", ["manager.Not"; "manager.Or"])
  ; ("Nnf.get_nnf_expression:expand:is_iff", ["manager.And"; "manager.Not"; "manager.Or"])
  ; ("Nnf.get_nnf_expression:expand:else", ["manager.Not"])
  ; ("Nnf.get_nnf_expression:rebuild:is_and", ["manager.And"; "manager.Or"])
  ; ("Nnf.get_nnf_expression:rebuild:is_or", ["manager.And"; "manager.Or"])
  ; ("Nnf.get_nnf_expression:rebuild:else", [])
  ; ("Dnf.walk_and", ["manager.And"])
  ; ("Dnf.walk_or", [])
  ; ("Dnf.walk_all", []) ].
